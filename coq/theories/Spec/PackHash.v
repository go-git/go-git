(* Spec/PackHash.v — executable SHA-1 and SHA-256 (FIPS 180-4) and CRC-32 over
   byte lists.  Used to instantiate the checksum / object-id section variables
   of the pack and pack-index models (C08 C09 C10) when the models are evaluated
   in the correspondence; the theorems are parametric in the hash function.
   Published test vectors follow the definitions (vm_compute). *)
From Coq Require Import List NArith Bool String.
From GoGit Require Import Base.Out.
Import ListNotations.
Local Open Scope N_scope.

Definition M32 : N := 4294967296.
(* operands are below 2^32: one conditional subtraction is the reduction mod 2^32 *)
Definition add32 (a b : N) : N := let s := a + b in if s <? M32 then s else s - M32.
Definition rotl32 (n : N) (x : N) : N :=
  N.lor (N.land (N.shiftl x n) (M32 - 1)) (N.shiftr x (32 - n)).
Definition rotr32 (n : N) (x : N) : N := rotl32 (32 - n) x.
Definition not32 (x : N) : N := (M32 - 1) - x.

Definition word_be (b0 b1 b2 b3 : N) : N := ((b0 * 256 + b1) * 256 + b2) * 256 + b3.
Definition bytes_of_word (w : N) : bytes :=
  [N.shiftr w 24 mod 256; N.shiftr w 16 mod 256; N.shiftr w 8 mod 256; w mod 256].

Fixpoint words_of_bytes (b : bytes) : list N :=
  match b with
  | b0 :: b1 :: b2 :: b3 :: r => word_be b0 b1 b2 b3 :: words_of_bytes r
  | _ => []
  end.

(* message padding: 0x80, zeros up to 56 mod 64, 64-bit big-endian bit length *)
Definition pad_zeros (len : N) : nat := N.to_nat ((119 - len mod 64) mod 64).
Definition sha_pad (m : bytes) : bytes :=
  let len := N.of_nat (List.length m) in
  let bits := 8 * len in
  m ++ [128] ++ repeat 0 (pad_zeros len)
    ++ bytes_of_word (N.shiftr bits 32 mod M32) ++ bytes_of_word (bits mod M32).

Fixpoint chunks16 (fuel : nat) (ws : list N) : list (list N) :=
  match fuel with
  | O => []
  | S f => match ws with
           | [] => []
           | _ => firstn 16 ws :: chunks16 f (skipn 16 ws)
           end
  end.

(* the schedule is kept most-recent-first: nth 2 = w[t-3], ... *)
Fixpoint sha1_extend (n : nat) (rev_w : list N) : list N :=
  match n with
  | O => rev_w
  | S k =>
    let x := N.lxor (N.lxor (nth 2 rev_w 0) (nth 7 rev_w 0)) (N.lxor (nth 13 rev_w 0) (nth 15 rev_w 0)) in
    sha1_extend k (rotl32 1 x :: rev_w)
  end.

Definition sha1_f (t : nat) (b c d : N) : N :=
  if Nat.ltb t 20 then N.lor (N.land b c) (N.land (not32 b) d)
  else if Nat.ltb t 40 then N.lxor (N.lxor b c) d
  else if Nat.ltb t 60 then N.lor (N.lor (N.land b c) (N.land b d)) (N.land c d)
  else N.lxor (N.lxor b c) d.
Definition sha1_k (t : nat) : N :=
  if Nat.ltb t 20 then 1518500249 else if Nat.ltb t 40 then 1859775393
  else if Nat.ltb t 60 then 2400959708 else 3395469782.

Definition st5 := (N * N * N * N * N)%type.

Definition sha1_round (s : st5) (tw : nat * N) : st5 :=
  let '(a, b, c, d, e) := s in
  let '(t, w) := tw in
  let tmp := add32 (add32 (add32 (add32 (rotl32 5 a) (sha1_f t b c d)) e) (sha1_k t)) w in
  (tmp, a, rotl32 30 b, c, d).

Definition sha1_block (h : st5) (blk : list N) : st5 :=
  let ws := rev (sha1_extend 64 (rev blk)) in
  let '(a, b, c, d, e) := fold_left sha1_round (combine (seq 0 80) ws) h in
  let '(h0, h1, h2, h3, h4) := h in
  (add32 h0 a, add32 h1 b, add32 h2 c, add32 h3 d, add32 h4 e).

Definition sha1_init : st5 := (1732584193, 4023233417, 2562383102, 271733878, 3285377520).

Definition sha1 (m : bytes) : bytes :=
  let ws := words_of_bytes (sha_pad m) in
  let '(a, b, c, d, e) := fold_left sha1_block (chunks16 (S (List.length ws)) ws) sha1_init in
  bytes_of_word a ++ bytes_of_word b ++ bytes_of_word c ++ bytes_of_word d ++ bytes_of_word e.

Definition sha256_K : list N :=
  [1116352408; 1899447441; 3049323471; 3921009573; 961987163; 1508970993; 2453635748; 2870763221;
   3624381080; 310598401; 607225278; 1426881987; 1925078388; 2162078206; 2614888103; 3248222580;
   3835390401; 4022224774; 264347078; 604807628; 770255983; 1249150122; 1555081692; 1996064986;
   2554220882; 2821834349; 2952996808; 3210313671; 3336571891; 3584528711; 113926993; 338241895;
   666307205; 773529912; 1294757372; 1396182291; 1695183700; 1986661051; 2177026350; 2456956037;
   2730485921; 2820302411; 3259730800; 3345764771; 3516065817; 3600352804; 4094571909; 275423344;
   430227734; 506948616; 659060556; 883997877; 958139571; 1322822218; 1537002063; 1747873779;
   1955562222; 2024104815; 2227730452; 2361852424; 2428436474; 2756734187; 3204031479; 3329325298].

Definition ssig0 (x : N) := N.lxor (N.lxor (rotr32 7 x) (rotr32 18 x)) (N.shiftr x 3).
Definition ssig1 (x : N) := N.lxor (N.lxor (rotr32 17 x) (rotr32 19 x)) (N.shiftr x 10).
Definition bsig0 (x : N) := N.lxor (N.lxor (rotr32 2 x) (rotr32 13 x)) (rotr32 22 x).
Definition bsig1 (x : N) := N.lxor (N.lxor (rotr32 6 x) (rotr32 11 x)) (rotr32 25 x).

Fixpoint sha256_extend (n : nat) (rev_w : list N) : list N :=
  match n with
  | O => rev_w
  | S k =>
    let x := add32 (add32 (ssig1 (nth 1 rev_w 0)) (nth 6 rev_w 0))
                   (add32 (ssig0 (nth 14 rev_w 0)) (nth 15 rev_w 0)) in
    sha256_extend k (x :: rev_w)
  end.

Definition st8 := (N * N * N * N * N * N * N * N)%type.

Definition sha256_round (s : st8) (kw : N * N) : st8 :=
  let '(a, b, c, d, e, f, g, h) := s in
  let '(k, w) := kw in
  let ch := N.lxor (N.land e f) (N.land (not32 e) g) in
  let maj := N.lxor (N.lxor (N.land a b) (N.land a c)) (N.land b c) in
  let t1 := add32 (add32 (add32 (add32 h (bsig1 e)) ch) k) w in
  let t2 := add32 (bsig0 a) maj in
  (add32 t1 t2, a, b, c, add32 d t1, e, f, g).

Definition sha256_block (hh : st8) (blk : list N) : st8 :=
  let ws := rev (sha256_extend 48 (rev blk)) in
  let '(a, b, c, d, e, f, g, h) := fold_left sha256_round (combine sha256_K ws) hh in
  let '(h0, h1, h2, h3, h4, h5, h6, h7) := hh in
  (add32 h0 a, add32 h1 b, add32 h2 c, add32 h3 d, add32 h4 e, add32 h5 f, add32 h6 g, add32 h7 h).

Definition sha256_init : st8 :=
  (1779033703, 3144134277, 1013904242, 2773480762, 1359893119, 2600822924, 528734635, 1541459225).

Definition sha256 (m : bytes) : bytes :=
  let ws := words_of_bytes (sha_pad m) in
  let '(a, b, c, d, e, f, g, h) := fold_left sha256_block (chunks16 (S (List.length ws)) ws) sha256_init in
  bytes_of_word a ++ bytes_of_word b ++ bytes_of_word c ++ bytes_of_word d
  ++ bytes_of_word e ++ bytes_of_word f ++ bytes_of_word g ++ bytes_of_word h.

(* hash selected by object-id size, as plumbing/hash does (20 -> SHA-1, 32 -> SHA-256) *)
Definition hash_by_size (hs : nat) : bytes -> bytes :=
  if Nat.eqb hs 32 then sha256 else sha1.

(* FIPS 180-4 / RFC 3174 test vectors *)
Example sha1_empty : sha1 [] = unhex "da39a3ee5e6b4b0d3255bfef95601890afd80709".
Proof. vm_compute. reflexivity. Qed.
Example sha1_abc : sha1 [97; 98; 99] = unhex "a9993e364706816aba3e25717850c26c9cd0d89d".
Proof. vm_compute. reflexivity. Qed.
Example sha1_two_blocks :
  sha1 (bytes_of_string "abcdbcdecdefdefgefghfghighijhijkijkljklmklmnlmnomnopnopq")
  = unhex "84983e441c3bd26ebaae4aa1f95129e5e54670f1".
Proof. vm_compute. reflexivity. Qed.
Example sha256_empty :
  sha256 [] = unhex "e3b0c44298fc1c149afbf4c8996fb92427ae41e4649b934ca495991b7852b855".
Proof. vm_compute. reflexivity. Qed.
Example sha256_abc :
  sha256 [97; 98; 99] = unhex "ba7816bf8f01cfea414140de5dae2223b00361a396177a9cb410ff61f20015ad".
Proof. vm_compute. reflexivity. Qed.
Example sha256_two_blocks :
  sha256 (bytes_of_string "abcdbcdecdefdefgefghfghighijhijkijkljklmklmnlmnomnopnopq")
  = unhex "248d6a61d20638b8e5c026930c3e6039a33ce45964ff2167f6ecedd419db06c1".
Proof. vm_compute. reflexivity. Qed.

(* CRC-32 (IEEE 802.3, Go's hash/crc32), bit by bit with the reflected polynomial 0xEDB88320 *)
Fixpoint crc_bits (n : nat) (c : N) : N :=
  match n with
  | O => c
  | S k => crc_bits k (if N.odd c then N.lxor (N.shiftr c 1) 3988292384 else N.shiftr c 1)
  end.
Definition crc32_update (c : N) (b : bytes) : N :=
  fold_left (fun c x => crc_bits 8 (N.lxor c x)) b c.
Definition crc32 (b : bytes) : N := N.lxor (crc32_update 4294967295 b) 4294967295.

Example crc32_check : crc32 (bytes_of_string "123456789") = 3421780262.
Proof. vm_compute. reflexivity. Qed.
Example crc32_empty : crc32 [] = 0.
Proof. vm_compute. reflexivity. Qed.
