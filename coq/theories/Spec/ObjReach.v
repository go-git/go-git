(* Spec/ObjReach.v — S for C37 (and the object halves of C36/C38): which
   objects are reachable from a set of roots in an object store.

   Edges: a commit reaches its tree and, unless it is a shallow commit (git
   treats those as parentless: grafts), its parents; a tree reaches the objects
   of its entries except gitlinks (mode 160000 names a commit of another
   repository); a tag reaches its target.  An id that names no stored object is
   reachable (it can be referred to) but has no edges. *)
From Coq Require Import List NArith ZArith Bool.
From GoGit Require Import Model.RevList.
Import ListNotations.
Local Open Scope N_scope.

Section Reach.
  Variable st : store.
  Variable sh : list oid.

  Inductive child : oid -> oid -> Prop :=
  | ch_tree : forall c t ps tm, get st c = Some (Commit t ps tm) -> child c t
  | ch_parent : forall c t ps tm p,
      get st c = Some (Commit t ps tm) -> mem c sh = false -> In p ps -> child c p
  | ch_entry : forall t es e,
      get st t = Some (Tree es) -> In e es -> e_kind e <> KSub -> child t (e_id e)
  | ch_tag : forall g tg, get st g = Some (Tag tg) -> child g tg.

  Inductive reach : oid -> oid -> Prop :=
  | r_refl : forall a, reach a a
  | r_step : forall a b c, child a b -> reach b c -> reach a c.

  Definition reach_set (roots : list oid) (o : oid) : Prop :=
    exists r, In r roots /\ reach r o.

  Lemma reach_trans : forall a b c, reach a b -> reach b c -> reach a c.
  Proof. induction 1; intros; [assumption | econstructor; eauto]. Qed.

  Lemma reach_child : forall a b, child a b -> reach a b.
  Proof. intros. econstructor; [eassumption | constructor]. Qed.

  Lemma reach_set_closed : forall roots a b, reach_set roots a -> reach a b -> reach_set roots b.
  Proof. intros roots a b (r & Hr & Hra) Hab. exists r. split; [assumption | eapply reach_trans; eauto]. Qed.
End Reach.

(* the same relation with no shallow cut: plain graph reachability *)
Definition reach_full (st : store) := reach st [].

Lemma child_cut_full : forall st sh a b, child st sh a b -> child st [] a b.
Proof. intros st sh a b H. destruct H; eauto using child. Qed.

Lemma reach_cut_full : forall st sh a b, reach st sh a b -> reach_full st a b.
Proof. induction 1; [constructor | econstructor; [eapply child_cut_full; eauto | assumption]]. Qed.

(* Well-formed stores (decidable).  An object id is a content hash: the
   entries of a tree name objects of the kind their mode says (or objects that
   are not stored), a commit's tree is a tree, and — hashes cannot be cyclic —
   every parent was created before its child (ids are creation ranks). *)
(* ids used by gitlink entries anywhere in the store *)
Definition sub_ids (st : store) : list oid :=
  flat_map (fun ido => match snd ido with
                       | Tree es => flat_map (fun e => match e_kind e with KSub => [e_id e] | _ => [] end) es
                       | _ => []
                       end) st.

(* a gitlink names a commit (of another repository, normally not stored); a
   hash has one type, so it never also names a blob or a tree *)
Definition entry_typed (st : store) (subs : list oid) (e : entry) : bool :=
  match e_kind e with
  | KSub => match get st (e_id e) with None | Some (Commit _ _ _) => true | _ => false end
  | KDir => match get st (e_id e) with None | Some (Tree _) => true | _ => false end && negb (mem (e_id e) subs)
  | KFile => match get st (e_id e) with None | Some Blob => true | _ => false end && negb (mem (e_id e) subs)
  end.

Definition object_wf (st : store) (subs : list oid) (ido : oid * object) : bool :=
  match snd ido with
  | Tree es => forallb (entry_typed st subs) es
  | Commit t ps _ =>
    match get st t with None | Some (Tree _) => true | _ => false end &&
    forallb (fun p => p <? fst ido) ps
  | _ => true
  end.

Definition wf_store (st : store) : bool := forallb (object_wf st (sub_ids st)) st.

Lemma get_In : forall st h o, get st h = Some o -> In (h, o) st.
Proof.
  induction st as [|[k v] st IH]; intros h o H; cbn [get] in H; [discriminate|].
  destruct (k =? h) eqn:E.
  - apply N.eqb_eq in E. inversion H; subst. now left.
  - right. now apply IH.
Qed.

Lemma wf_get : forall st h o, wf_store st = true -> get st h = Some o -> object_wf st (sub_ids st) (h, o) = true.
Proof.
  intros st h o Hwf Hg. unfold wf_store in Hwf. rewrite forallb_forall in Hwf.
  apply Hwf. now apply get_In.
Qed.
