(* Spec/Dag.v — the abstract commit graph shared by C42 C43 C47 (and the
   generation numbers of C51).

   A history is a finite DAG whose nodes are numbered 0..n-1 in a topological
   order: every parent of node i has a smaller number ([dag_ok]).  Every finite
   DAG has such a numbering, and the numbering is only a naming: the Go code
   identifies commits by hash and never looks at the number.  A parent number
   >= n denotes a commit whose object is absent from the store (shallow
   histories); [dag_closed] excludes that.

   [reach g c a]  : a is reachable from c through parent edges (a ∈ anc* c).
   [reachb]       : the same, decided with fuel = node count.
   Executable definitions + the small closure lemmas every user needs. *)
From Coq Require Import List Arith ZArith Bool Lia.
Import ListNotations.

Definition node := nat.

Record dag := mkDag { dpar : list (list node); dtime : list Z }.

Definition nnodes (g : dag) : nat := List.length (dpar g).
Definition parents (g : dag) (c : node) : list node := nth c (dpar g) [].
Definition ctime (g : dag) (c : node) : Z := nth c (dtime g) 0%Z.
Definition present (g : dag) (c : node) : bool := c <? nnodes g.
Definition nodes (g : dag) : list node := seq 0 (nnodes g).

Definition mem (x : node) (l : list node) : bool := existsb (Nat.eqb x) l.

(* parents of node i are smaller than i, or absent (>= n) *)
Fixpoint pars_ok (n i : nat) (l : list (list node)) : bool :=
  match l with
  | [] => true
  | ps :: r => forallb (fun p => (p <? i) || (n <=? p)) ps && pars_ok n (S i) r
  end.

Definition dag_ok (g : dag) : bool := pars_ok (nnodes g) 0 (dpar g).
Definition dag_closed (g : dag) : bool :=
  forallb (forallb (fun p => p <? nnodes g)) (dpar g).
(* committer clocks are monotone: every present parent is strictly older *)
Definition dag_monotone (g : dag) : bool :=
  forallb (fun c => forallb (fun p => negb (present g p) || (ctime g p <? ctime g c)%Z) (parents g c)) (nodes g).

Inductive reach (g : dag) : node -> node -> Prop :=
| reach_refl : forall c, reach g c c
| reach_step : forall c p a, In p (parents g c) -> reach g p a -> reach g c a.

(* first-parent chain (git rev-list --first-parent) *)
Inductive fp_reach (g : dag) : node -> node -> Prop :=
| fp_refl : forall c, fp_reach g c c
| fp_step : forall c p r a, parents g c = p :: r -> fp_reach g p a -> fp_reach g c a.

Fixpoint reachb (g : dag) (fuel : nat) (c a : node) : bool :=
  (c =? a) ||
  match fuel with
  | O => false
  | S f => existsb (fun p => reachb g f p a) (parents g c)
  end.

(* a ∈ anc* c, fuel = node count *)
Definition is_anc (g : dag) (a c : node) : bool := reachb g (nnodes g) c a.

(* the set anc* c as an increasing list *)
Definition ancs (g : dag) (c : node) : list node :=
  filter (fun a => is_anc g a c) (nodes g).

Definition common (g : dag) (a b : node) : list node :=
  filter (fun x => is_anc g x a && is_anc g x b) (nodes g).

(* elements of X that are not a proper ancestor of another element of X *)
Definition maximal (g : dag) (X : list node) : list node :=
  filter (fun x => negb (existsb (fun y => negb (x =? y) && is_anc g x y) X)) X.

Definition merge_bases (g : dag) (a b : node) : list node := maximal g (common g a b).
Definition independent (g : dag) (X : list node) : list node :=
  maximal g (filter (fun x => mem x X) (nodes g)).

(* topological level (git's generation number v1) and corrected commit date (v2) *)
Fixpoint gen_table (i : nat) (l : list (list node)) (acc : list nat) : list nat :=
  match l with
  | [] => acc
  | ps :: r => gen_table (S i) r (acc ++ [S (fold_right (fun p m => Nat.max (nth p acc 0) m) 0 ps)])
  end.
Definition generation (g : dag) (c : node) : nat := nth c (gen_table 0 (dpar g) []) 0.

Lemma mem_In : forall x l, mem x l = true <-> In x l.
Proof.
  intros x l. unfold mem. rewrite existsb_exists. split.
  - intros [y [Hy He]]. apply Nat.eqb_eq in He. now subst.
  - intros H. exists x. split; [assumption | apply Nat.eqb_refl].
Qed.

Lemma mem_false_In : forall x l, mem x l = false <-> ~ In x l.
Proof.
  intros x l. rewrite <- mem_In. destruct (mem x l); split; congruence.
Qed.

Lemma present_lt : forall g c, present g c = true <-> c < nnodes g.
Proof. intros g c. apply Nat.ltb_lt. Qed.

Lemma parents_absent : forall g c, nnodes g <= c -> parents g c = [].
Proof. intros g c H. unfold parents. apply nth_overflow. exact H. Qed.

Lemma pars_ok_nth : forall n l i k p,
  pars_ok n i l = true -> In p (nth k l []) -> p < i + k \/ n <= p.
Proof.
  induction l as [|ps r IH]; intros i k p Hok Hin.
  - destruct k; simpl in Hin; contradiction.
  - simpl in Hok. apply andb_true_iff in Hok. destruct Hok as [H1 H2].
    destruct k as [|k].
    + simpl in Hin. rewrite forallb_forall in H1. specialize (H1 _ Hin).
      apply orb_true_iff in H1. destruct H1 as [H1|H1].
      * apply Nat.ltb_lt in H1. left. lia.
      * apply Nat.leb_le in H1. now right.
    + simpl in Hin. destruct (IH (S i) k p H2 Hin) as [H|H]; [left; lia | now right].
Qed.

Lemma dag_ok_parent : forall g c p,
  dag_ok g = true -> In p (parents g c) -> p < c \/ nnodes g <= p.
Proof.
  intros g c p Hok Hin. unfold dag_ok in Hok. unfold parents in Hin.
  destruct (pars_ok_nth _ _ 0 c p Hok Hin) as [H|H]; [left; lia | now right].
Qed.

Lemma dag_closed_parent : forall g c p,
  dag_closed g = true -> In p (parents g c) -> p < nnodes g.
Proof.
  intros g c p Hc Hin. unfold dag_closed in Hc. rewrite forallb_forall in Hc.
  destruct (Nat.lt_ge_cases c (nnodes g)) as [Hlt|Hge].
  - specialize (Hc (parents g c) (nth_In _ _ Hlt)). rewrite forallb_forall in Hc.
    now apply Nat.ltb_lt, Hc.
  - rewrite parents_absent in Hin by exact Hge. contradiction.
Qed.

Lemma dag_ok_closed_parent : forall g c p,
  dag_ok g = true -> dag_closed g = true -> In p (parents g c) -> p < c.
Proof.
  intros g c p Hok Hc Hin.
  destruct (dag_ok_parent g c p Hok Hin) as [H|H]; [exact H|].
  pose proof (dag_closed_parent g c p Hc Hin). lia.
Qed.

Lemma reach_trans : forall g a b c, reach g a b -> reach g b c -> reach g a c.
Proof.
  intros g a b c H. induction H; intros H2; [exact H2|].
  eapply reach_step; eauto.
Qed.

Lemma reach_absent : forall g c a, nnodes g <= c -> reach g c a -> a = c.
Proof.
  intros g c a Hc H. destruct H; [reflexivity|].
  rewrite parents_absent in H by exact Hc. contradiction.
Qed.

(* in a closed, topologically numbered graph ancestors have smaller numbers *)
Lemma reach_le : forall g c a,
  dag_ok g = true -> dag_closed g = true -> reach g c a -> a <= c.
Proof.
  intros g c a Hok Hc H. induction H; [lia|].
  pose proof (dag_ok_closed_parent g c p Hok Hc H). lia.
Qed.

Lemma reach_antisym : forall g a b,
  dag_ok g = true -> dag_closed g = true -> reach g a b -> reach g b a -> a = b.
Proof.
  intros g a b Hok Hc H1 H2.
  pose proof (reach_le g a b Hok Hc H1). pose proof (reach_le g b a Hok Hc H2). lia.
Qed.

Lemma reach_present : forall g c a,
  dag_closed g = true -> c < nnodes g -> reach g c a -> a < nnodes g.
Proof.
  intros g c a Hc Hlt H. induction H; [exact Hlt|].
  apply IHreach. eapply dag_closed_parent; eauto.
Qed.

Lemma reachb_sound : forall g fuel c a, reachb g fuel c a = true -> reach g c a.
Proof.
  induction fuel as [|f IH]; intros c a H; simpl in H.
  - rewrite orb_false_r in H. apply Nat.eqb_eq in H. subst. constructor.
  - apply orb_true_iff in H. destruct H as [H|H].
    + apply Nat.eqb_eq in H. subst. constructor.
    + apply existsb_exists in H. destruct H as [p [Hp Hr]].
      eapply reach_step; eauto.
Qed.

Lemma reachb_complete : forall g, dag_ok g = true ->
  forall fuel c a, (c < fuel \/ nnodes g <= c) -> reach g c a -> reachb g fuel c a = true.
Proof.
  intros g Hok. induction fuel as [|f IH]; intros c a Hc H; destruct H as [c|c p a Hp Hr]; simpl;
    try (now rewrite Nat.eqb_refl).
  (* an absent node has no parents *)
  all: destruct Hc as [Hc|Hc]; [|rewrite parents_absent in Hp by exact Hc; contradiction].
  - lia.
  - apply orb_true_iff. right. apply existsb_exists. exists p. split; [exact Hp|].
    apply IH; [|exact Hr]. destruct (dag_ok_parent g c p Hok Hp) as [H|H]; [left; lia | now right].
Qed.

Lemma is_anc_spec : forall g a c, dag_ok g = true -> (is_anc g a c = true <-> reach g c a).
Proof.
  intros g a c Hok. unfold is_anc. split.
  - apply reachb_sound.
  - apply reachb_complete; [exact Hok|]. lia.
Qed.

Lemma is_anc_refl : forall g c, is_anc g c c = true.
Proof.
  intros g c. unfold is_anc. destruct (nnodes g); simpl; now rewrite Nat.eqb_refl.
Qed.

Lemma ancs_spec : forall g c a, dag_ok g = true -> dag_closed g = true -> c < nnodes g ->
  (In a (ancs g c) <-> reach g c a).
Proof.
  intros g c a Hok Hc Hlt. unfold ancs.
  rewrite filter_In. unfold nodes. rewrite in_seq. rewrite is_anc_spec by exact Hok.
  split; [tauto|]. intros H. split; [|exact H].
  pose proof (reach_present g c a Hc Hlt H). lia.
Qed.

Lemma ancs_NoDup : forall g c, NoDup (ancs g c).
Proof. intros g c. unfold ancs, nodes. apply NoDup_filter. apply seq_NoDup. Qed.

(* the test inside [maximal]: another element of X lies strictly above x *)
Lemma dominated_spec : forall g X x, dag_ok g = true ->
  (existsb (fun y => negb (x =? y) && is_anc g x y) X = true <->
   exists y, In y X /\ y <> x /\ reach g y x).
Proof.
  intros g X x Hok. rewrite existsb_exists.
  enough (E : forall y, negb (x =? y) && is_anc g x y = true <-> y <> x /\ reach g y x)
    by (split; intros [y [Hy H]]; exists y; split; auto; now apply E).
  intros y. rewrite andb_true_iff, negb_true_iff, Nat.eqb_neq, (is_anc_spec g x y Hok).
  split; intros [H1 H2]; auto.
Qed.

Lemma maximal_spec : forall g X x, dag_ok g = true ->
  (In x (maximal g X) <-> In x X /\ ~ exists y, In y X /\ y <> x /\ reach g y x).
Proof.
  intros g X x Hok. unfold maximal.
  now rewrite filter_In, negb_true_iff, <- not_true_iff_false, (dominated_spec g X x Hok).
Qed.

