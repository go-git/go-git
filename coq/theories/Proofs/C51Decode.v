(* Proofs/C51Decode.v — decode (encode g) = Ok g: the whole file read back through the reader model;
   the size of the encoder's output, and with it graph_ok: well-formedness that does not mention the output. *)
From Coq Require Import List NArith ZArith Bool Lia ZifyBool ZifyN ZifyNat Permutation.
From GoGit Require Import Base.Out Gen.C51 Model.CommitGraph Proofs.BitPack Proofs.C51 Proofs.C51Reader
  Proofs.C51Bytes Proofs.C51Records Proofs.C51Roundtrip.
Import ListNotations.
Local Open Scope N_scope.

(* what a commit looks like after a round trip: MemoryIndex.Add resets GenerationV2 = MaxUint64 to 0, and
   a graph in which some commit has no generation v2 is written without generation data *)
Definition canon (g2 : bool) (e : centry) : centry :=
  mkEntry (e_hash e) (e_tree e) (e_parents e) (e_gen e) (if g2 then norm_gen2 e else 0) (e_when e).

Lemma map_nth_seq : forall (A : Type) (l : list A) d, map (fun i => nth i l d) (seq 0 (List.length l)) = l.
Proof.
  intros A l d. apply (nth_ext _ _ d d).
  - now rewrite map_length, seq_length.
  - intros n Hn. rewrite map_length, seq_length in Hn.
    rewrite (nth_indep _ d (nth 0 l d)) by (now rewrite map_length, seq_length).
    rewrite (map_nth (fun i => nth i l d) (seq 0 (List.length l)) 0%nat n). now rewrite seq_nth.
Qed.

Theorem decode_roundtrip : forall es trailer, wf_graph es -> List.length trailer = 20%nat ->
  decode (encode es ++ trailer) = Ok (has_gen2 es, map (canon (has_gen2 es)) (sorted_entries es)).
Proof.
  intros es trailer Hwf Htr.
  destruct (reader_accepts es trailer (rt_wff es Hwf) Htr) as [fi [Hopen [Hnc [Hg2 _]]]].
  unfold decode. rewrite Hopen, Hnc, Nat2N.id.
  set (nn := List.length (sorted_of es)).
  assert (Hall : forall l, (forall i, In i l -> (i < nn)%nat) ->
            decode_all (encode es ++ trailer) fi (map N.of_nat l)
            = Ok (map (fun i => canon (has_gen2 es) (nth i (sorted_entries es) dummy_entry)) l)).
  { induction l as [|i r IH]; intros Hl; [reflexivity|].
    cbn [map decode_all]. unfold decode_entry.
    assert (Hi : (i < nn)%nat) by (apply Hl; now left).
    rewrite (rt_hash_local es trailer Hwf Htr fi Hopen i Hi).
    rewrite (commit_readback es trailer Hwf Htr fi Hopen i Hi). cbn [d_tree d_phash d_gen d_gen2 d_when].
    rewrite IH by (intros; apply Hl; now right).
    destruct (rt_ent es Hwf i Hi) as [Hin Hh]. rewrite <- Hh.
    destruct (rt_entry_ok es Hwf _ Hin) as [_ [Hw _]].
    rewrite Z2N.id by lia. reflexivity. }
  rewrite Hall by (intros i Hi; apply in_seq in Hi; lia).
  rewrite Hg2. f_equal. f_equal.
  rewrite <- (map_map (fun i => nth i (sorted_entries es) dummy_entry) (canon (has_gen2 es))).
  unfold nn. rewrite <- (rt_ents_len es). now rewrite map_nth_seq.
Qed.

(* when every commit carries a proper generation v2 (neither absent nor the MaxUint64 marker) the graph comes
   back unchanged, in hash order *)
Theorem decode_roundtrip_exact : forall es trailer, wf_graph es -> List.length trailer = 20%nat ->
  Forall (fun e => 0 < e_gen2 e < two64 - 1) es ->
  decode (encode es ++ trailer) = Ok (true, sorted_entries es).
Proof.
  intros es trailer Hwf Htr Hg. rewrite (decode_roundtrip es trailer Hwf Htr).
  assert (Hn : forall e, In e es -> norm_gen2 e = e_gen2 e /\ norm_gen2 e <> 0).
  { intros e He. rewrite Forall_forall in Hg. specialize (Hg e He). unfold norm_gen2.
    destruct (e_gen2 e =? two64 - 1) eqn:E; lia. }
  assert (Hh : has_gen2 es = true).
  { unfold has_gen2. apply forallb_forall. intros e He. destruct (Hn e He). lia. }
  rewrite Hh. f_equal. f_equal. rewrite <- (map_id (sorted_entries es)) at 2. apply map_ext_in.
  intros e He. apply (Permutation_in _ (sorted_entries_perm es (rt_wfe es Hwf))) in He.
  destruct (Hn e He) as [E _]. unfold canon. rewrite E. destruct e; reflexivity.
Qed.

Lemma total_chunk_table : forall es n,
  total (chunk_table es n) <= 1024 + 56 * n + 4 * extra_edges_count es + 4 * n + 8 * overflow_count es.
Proof.
  intros es n. unfold chunk_table.
  destruct (0 <? extra_edges_count es); destruct (has_gen2 es); try destruct (0 <? overflow_count es);
    cbn [app total]; change lenFanout with 256; change hashSize with 20; change szCommitData with 16; lia.
Qed.

Lemma overflow_count_le : forall es, overflow_count es <= N.of_nat (List.length es).
Proof.
  intros es. unfold overflow_count. destruct (has_gen2 es); [|lia].
  pose proof (filter_length_le _ (fun e => two31 - 1 <? gen2_data e) es). lia.
Qed.

Lemma encode_length : forall es, wf_entries es ->
  N.of_nat (List.length (encode es)) <=
  8 + 12 * 7 + 1024 + 68 * N.of_nat (List.length es) + 4 * extra_edges_count es.
Proof.
  intros es Hwf. destruct (encode_layout es Hwf) as [payloads [Henc [Hpay _]]].
  set (n := N.of_nat (List.length (sorted_of es))) in *.
  destruct (chunk_table_facts es n) as [Fs [_ [_ [_ [_ [_ [_ [_ [Flen _]]]]]]]]].
  rewrite Henc, !app_length, (chunk_headers_length _ _ Fs).
  pose proof (concat_total payloads _ Hpay) as Ht.
  pose proof (total_chunk_table es n) as Hb. pose proof (overflow_count_le es) as Ho.
  assert (Hn : n = N.of_nat (List.length es)).
  { unfold n. now rewrite (sorted_of_length es Hwf). }
  change (List.length sig_CGPH) with 4%nat. cbn [List.length]. lia.
Qed.

(* well-formed graphs, without reference to the output *)
Definition graph_ok (es : list centry) : Prop :=
  wf_entries es /\
  Forall (fun e => Forall (fun c => c < 256) (e_hash e)) es /\
  Forall (entry_ok (map e_hash es)) es /\
  N.of_nat (List.length es) <= parentNone /\
  extra_edges_count es < 2147483648.

Lemma graph_ok_wf : forall es, graph_ok es -> wf_graph es.
Proof.
  intros es [Hwf [Hb [He [Hn Hx]]]].
  pose proof (sorted_of_length es Hwf) as Hlen.
  rewrite const_parentNone in Hn.
  split; [|split; [exact He|split; [rewrite Hlen, const_parentNone; exact Hn | exact Hx]]].
  split; [exact Hwf|]. split; [exact Hb|]. split; [rewrite Hlen; lia|].
  pose proof (encode_length es Hwf). lia.
Qed.
