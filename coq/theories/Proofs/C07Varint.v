(* Proofs/C07Varint.v — entryHead and the OFS_DELTA distance encoding are inverted
   by git's decoders (unpack_object_header_buffer, get_delta_base). *)
From Coq Require Import List NArith Arith Lia Bool.
From Coq Require Import ZifyBool ZifyNat ZifyN.
From GoGit Require Import Base.Out Model.PackEnc Proofs.C06Apply Proofs.C06Diff.
Import ListNotations.
Local Open Scope N_scope.

Lemma split7_add x : N.shiftl (N.shiftr x 7) 7 + N.land x 127 = x.
Proof.
  change 127 with (N.ones 7). rewrite N.shiftl_mul_pow2, N.shiftr_div_pow2, N.land_ones.
  pose proof (N.div_mod x (2 ^ 7) ltac:(discriminate)). change (2 ^ 7) with 128 in *. lia.
Qed.

(* git's loop with acc+1 carried instead of acc, which makes the first byte an ordinary one *)
Fixpoint ofs_dec (b : bytes) (a : N) : option (N * bytes) :=
  match b with
  | [] => None
  | c :: r =>
    let v := N.shiftl a 7 + N.land c 127 in
    if N.land c 128 =? 0 then Some (v, r) else ofs_dec r (v + 1)
  end.

Lemma ofs_decode_go_dec b : forall acc, ofs_decode_go b acc = ofs_dec b (acc + 1).
Proof.
  induction b as [|c r IH]; intros acc; [reflexivity|]. cbn [ofs_decode_go ofs_dec]. rewrite IH. reflexivity.
Qed.

Lemma ofs_decode_dec b : ofs_decode b = ofs_dec b 0.
Proof.
  destruct b as [|c r]; [reflexivity|]. cbn [ofs_decode ofs_dec].
  rewrite N.shiftl_0_l, N.add_0_l, ofs_decode_go_dec. reflexivity.
Qed.

Lemma ofs_go_app : forall f m acc rest, ofs_go f m acc ++ rest = ofs_go f m (acc ++ rest).
Proof.
  induction f as [|f IH]; intros m acc rest; [reflexivity|].
  cbn [ofs_go]. destruct (m =? 0); [reflexivity|]. cbv zeta. rewrite IH. reflexivity.
Qed.

(* the bytes ofs_go puts in front of [tl] leave the decoder at [tl] with m = acc+1 *)
Lemma ofs_go_dec : forall f m tl, m < 2 ^ N.of_nat f -> ofs_dec (ofs_go f m tl) 0 = ofs_dec tl m.
Proof.
  induction f as [|f IH]; intros m tl Hm.
  - change (2 ^ N.of_nat 0) with 1 in Hm. replace m with 0 by lia. reflexivity.
  - cbn [ofs_go]. destruct (N.eqb_spec m 0) as [->|Hne]; [reflexivity|]. cbv zeta.
    rewrite IH.
    + cbn [ofs_dec]. rewrite N.lor_comm, flagged_land128, flagged_land127, split7_add by apply land127_lt.
      f_equal. lia.
    + apply (shiftr_lt_pow2 _ 7). apply N.lt_le_trans with (2 ^ N.of_nat (S f)); [lia|apply pow_mono_2; lia].
Qed.

Lemma ofs_roundtrip n rest : ofs_decode (ofs_encode n ++ rest) = Some (n, rest).
Proof.
  unfold ofs_encode. rewrite ofs_go_app, ofs_decode_dec, ofs_go_dec.
  - cbn [app ofs_dec]. rewrite land127_128, land127_idem, split7_add. reflexivity.
  - rewrite N2Nat.id, N.shiftr_div_pow2.
    apply N.le_lt_trans with n; [apply N.div_le_upper_bound; [discriminate|]; change (2 ^ 7) with 128; lia|apply N.size_gt].
Qed.

Lemma entry_head_go_0 f c : entry_head_go f c 0 = [c].
Proof. destruct f; reflexivity. Qed.

Lemma parse_head_go_last c rest shift acc :
  c < 128 -> parse_head_go (c :: rest) shift acc = Some (N.lor acc (N.shiftl c shift), rest).
Proof. intros H. cbn [parse_head_go]. rewrite land_small, small_land127 by assumption. reflexivity. Qed.

Lemma parse_head_go_more c r shift acc :
  c < 128 -> parse_head_go (N.lor c 128 :: r) shift acc = parse_head_go r (shift + 7) (N.lor acc (N.shiftl c shift)).
Proof. intros H. cbn [parse_head_go]. rewrite flagged_land128, flagged_land127 by assumption. reflexivity. Qed.

Lemma head_go_parse : forall f c s shift acc rest,
  c < 128 -> s < 2 ^ (7 * N.of_nat f) ->
  parse_head_go (entry_head_go f c s ++ rest) shift acc
  = Some (N.lor acc (N.lor (N.shiftl c shift) (N.shiftl s (shift + 7))), rest).
Proof.
  induction f as [|f IH]; intros c s shift acc rest Hc Hs;
    (destruct (N.eqb_spec s 0) as [->|Hne];
     [rewrite entry_head_go_0, N.shiftl_0_l, N.lor_0_r; apply parse_head_go_last; exact Hc|]).
  - change (2 ^ (7 * N.of_nat 0)) with 1 in Hs. lia.
  - cbn [entry_head_go]. rewrite (proj2 (N.eqb_neq s 0) Hne). cbn [app].
    rewrite parse_head_go_more, IH by auto using land127_lt, shiftr7_fuel.
    f_equal. f_equal. rewrite <- N.lor_assoc. f_equal. f_equal.
    rewrite <- (split7 s) at 3. rewrite N.shiftl_lor, N.shiftl_shiftl. f_equal. f_equal. lia.
Qed.

Lemma split4 x : N.lor (N.land x 15) (N.shiftl (N.shiftr x 4) 4) = x.
Proof. exact (split_low x 4). Qed.

(* the first byte: type in bits 4-6, the low four size bits below *)
Lemma first_byte typ size :
  typ < 8 ->
  let c := N.lor (N.shiftl typ 4) (N.land size 15) in
  c < 128 /\ N.land (N.shiftr c 4) 7 = typ /\ N.land c 15 = N.land size 15.
Proof.
  intros Ht c. unfold c.
  assert (Hz : N.land size 15 < 16) by (change 15 with (N.ones 4); rewrite N.land_ones; apply N.mod_lt; discriminate).
  assert (Hsh : N.shiftl typ 4 = typ * 16) by apply N.shiftl_mul_pow2.
  split; [|split].
  - apply (lor_lt_pow2 _ _ 7); change (2 ^ 7) with 128; lia.
  - rewrite N.shiftr_lor, N.shiftr_shiftl_l, N.shiftl_0_r by reflexivity.
    rewrite (proj1 (lt_pow2_shiftr _ 4) Hz), N.lor_0_r.
    exact (land_ones_small typ 3 Ht).
  - rewrite N.land_lor_distr_l, <- N.land_assoc. change 15 with (N.ones 4) at 1.
    rewrite N.land_ones, Hsh, N.mod_mul by discriminate. reflexivity.
Qed.

Lemma flagged_first_byte c :
  N.land (N.shiftr (N.lor c 128) 4) 7 = N.land (N.shiftr c 4) 7 /\ N.land (N.lor c 128) 15 = N.land c 15.
Proof.
  rewrite N.shiftr_lor, !N.land_lor_distr_l.
  change (N.land (N.shiftr 128 4) 7) with 0. change (N.land 128 15) with 0. rewrite !N.lor_0_r. auto.
Qed.

Lemma entry_head_roundtrip typ size rest :
  typ < 8 -> parse_head (entry_head typ size ++ rest) = Some (typ, size, rest).
Proof.
  intros Ht. unfold entry_head. destruct (first_byte typ size Ht) as (Hc & Ty & Sz).
  destruct (flagged_first_byte (N.lor (N.shiftl typ 4) (N.land size 15))) as (Ty' & Sz').
  set (c := N.lor (N.shiftl typ 4) (N.land size 15)) in *.
  set (s := N.shiftr size 4).
  assert (Hs : s < 2 ^ (7 * N.of_nat (N.to_nat (N.size size)))).
  { rewrite N2Nat.id. apply (shiftr_lt_pow2 _ 4).
    apply N.lt_le_trans with (2 ^ N.size size); [apply N.size_gt|]. apply pow_mono_2. lia. }
  replace (Some (typ, size, rest)) with (Some (typ, N.lor (N.land size 15) (N.shiftl s 4), rest))
    by (unfold s; rewrite split4; reflexivity).
  destruct (N.to_nat (N.size size)) as [|f]; (destruct (N.eqb_spec s 0) as [E|Hne];
    [rewrite E, entry_head_go_0, N.shiftl_0_l, N.lor_0_r; cbn [app parse_head];
     rewrite land_small, Ty, Sz by assumption; reflexivity|]).
  - change (2 ^ (7 * N.of_nat 0)) with 1 in Hs. lia.
  - cbn [entry_head_go]. rewrite (proj2 (N.eqb_neq s 0) Hne). cbn [app parse_head].
    rewrite flagged_land128, Ty', Sz', Ty, Sz, head_go_parse by auto using land127_lt, shiftr7_fuel.
    f_equal. f_equal. f_equal. f_equal.
    rewrite <- (split7 s) at 3. rewrite N.shiftl_lor, N.shiftl_shiftl. reflexivity.
Qed.
