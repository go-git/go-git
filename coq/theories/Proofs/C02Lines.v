(* Proofs/C02Lines.v — line-level facts used by the commit/tag proofs:
   splitting a concatenation of complete lines, header-key cutting, hex ids. *)
From Coq Require Import List NArith ZArith Bool Lia ZifyBool ZifyNat ZifyN.
From GoGit Require Import Base.Out Model.ObjLines Model.Commit Spec.GitFields Spec.ObjWf
     Proofs.ObjLinesFacts Proofs.C02Ident Proofs.C03CommitSig.
Import ListNotations.
Local Open Scope N_scope.

Lemma GOk_inj {A} (x y : A) : GOk x = GOk y -> x = y.
Proof. intros H. now injection H. Qed.

Definition cline (l : bytes) : Prop := exists p, no_lf p = true /\ l = p ++ [LF].

Lemma cline_mk p : no_lf p = true -> cline (p ++ [LF]).
Proof. intros H. now exists p. Qed.

Lemma split_lines_clines ls : Forall cline ls -> forall tl, split_lines (List.concat ls ++ tl) = ls ++ split_lines tl.
Proof.
  induction 1 as [|l ls [p [Hp ->]] _ IH]; intros tl; [reflexivity|].
  cbn [List.concat]. rewrite <- !app_assoc. cbn [app].
  rewrite (split_lines_line _ _ Hp), IH. reflexivity.
Qed.

Lemma cut_at_first c k v : has_byte c k = false -> cut_at c (k ++ c :: v) = (k, v, true).
Proof.
  induction k as [|x k IH]; cbn [app cut_at]; intros H.
  - now rewrite N.eqb_refl.
  - apply has_byte_cons_false in H as [H1 H2]. now rewrite H1, (IH H2).
Qed.

Lemma cut_at_none c k : has_byte c k = false -> cut_at c k = (k, [], false).
Proof.
  induction k as [|x k IH]; cbn [cut_at]; intros H; [reflexivity|].
  apply has_byte_cons_false in H as [H1 H2]. now rewrite H1, (IH H2).
Qed.

Lemma cut_at_false c b k v : cut_at c b = (k, v, false) -> v = [].
Proof.
  revert k v; induction b as [|x b IH]; intros k v H; cbn in H; [now inversion H|].
  destruct (x =? c); [discriminate|]. destruct (cut_at c b) as [[k0 v0] f0] eqn:Ec. inversion H; subst. now apply (IH k0).
Qed.

Lemma split_header_kv k v : no_lf k = true -> has_byte SPC k = false -> no_lf v = true ->
  split_header (k ++ SPC :: v ++ [LF]) = (k, v).
Proof.
  intros Hk Hs Hv. unfold split_header.
  replace (k ++ SPC :: v ++ [LF]) with ((k ++ SPC :: v) ++ [LF]) by (now rewrite <- app_assoc).
  rewrite trim_right_app_lf.
  - now rewrite (cut_at_first _ _ _ Hs).
  - rewrite no_lf_app, Hk. rewrite no_lf_cons, Hv. reflexivity.
Qed.

Lemma split_header_k k : no_lf k = true -> has_byte SPC k = false -> split_header (k ++ [LF]) = (k, []).
Proof. intros Hk Hs. unfold split_header. rewrite (trim_right_app_lf _ Hk). now rewrite (cut_at_none _ _ Hs). Qed.

Lemma trim_right_nolf k : no_lf k = true -> trim_right LF k = k.
Proof.
  intros H. apply trim_right_id. unfold last_is. apply no_lf_rev in H.
  destruct (rev k) as [|x r]; [reflexivity|]. now apply no_lf_uncons in H.
Qed.

Lemma parse_extra_header_kv k v : no_lf k = true -> has_byte SPC k = false ->
  parse_extra_header (k ++ SPC :: v) = (k, v, true).
Proof. intros Hk Hs. unfold parse_extra_header. now rewrite (cut_at_first _ _ _ Hs), (trim_right_nolf _ Hk). Qed.

Lemma parse_extra_header_k k : no_lf k = true -> has_byte SPC k = false ->
  parse_extra_header (k ++ [LF]) = (k, [], false).
Proof.
  intros Hk Hs. unfold parse_extra_header.
  assert (H : has_byte SPC (k ++ [LF]) = false) by (rewrite has_byte_app, Hs; reflexivity).
  now rewrite (cut_at_none _ _ H), (trim_right_app_lf _ Hk).
Qed.

Lemma prefix_nolf pat : no_lf pat = true -> forall p rest, starts_with pat (p ++ LF :: rest) = true -> starts_with pat p = true.
Proof.
  induction pat as [|x pat IH]; intros Hn p rest H; [reflexivity|]. apply no_lf_uncons in Hn as [H1 H2].
  destruct p as [|y p]; cbn [app starts_with] in *.
  - apply andb_true_iff in H as [H _]. rewrite H in H1. discriminate.
  - apply andb_true_iff in H as [Ha Hb]. rewrite Ha. cbn [andb]. exact (IH H2 _ _ Hb).
Qed.

Lemma hexv_hexdig d : d < 16 -> hexv (hexdig d) = Some d.
Proof.
  intros H. unfold hexdig, hexv. destruct (d <? 10) eqn:E.
  - replace ((48 <=? 48 + d) && (48 + d <=? 57)) with true by lia. f_equal. lia.
  - replace ((48 <=? 87 + d) && (87 + d <=? 57)) with false by lia.
    replace ((97 <=? 87 + d) && (87 + d <=? 102)) with true by lia. f_equal. lia.
Qed.

Lemma hex_encode_cons c h : hex_encode (c :: h) = hexdig (c / 16) :: hexdig (c mod 16) :: hex_encode h.
Proof. reflexivity. Qed.

Lemma bytes_ok_cons c h : bytes_ok (c :: h) = true -> c / 16 < 16 /\ c mod 16 < 16 /\ bytes_ok h = true.
Proof.
  unfold bytes_ok. cbn [forallb]. intros H. apply andb_true_iff in H as [Hc Hh].
  repeat split; [apply N.div_lt_upper_bound; lia|apply N.mod_lt; lia|exact Hh].
Qed.

Lemma hex_decode_encode h : bytes_ok h = true -> hex_decode (hex_encode h) = Some h.
Proof.
  induction h as [|c h IH]; [reflexivity|]. intros H. destruct (bytes_ok_cons _ _ H) as [A [B Hh]].
  rewrite hex_encode_cons. cbn [hex_decode]. rewrite !hexv_hexdig, (IH Hh) by assumption.
  pose proof (N.div_mod c 16 ltac:(lia)). do 2 f_equal. lia.
Qed.

Lemma hex_encode_length h : List.length (hex_encode h) = (2 * List.length h)%nat.
Proof. induction h as [|c h IH]; [reflexivity|]. rewrite hex_encode_cons. cbn [List.length]. lia. Qed.

Lemma parse_oid_hex h : oid_ok h = true -> parse_oid (hex_encode h) = Some h.
Proof.
  unfold oid_ok. intros H. apply andb_true_iff in H as [Hb Hl]. unfold parse_oid. rewrite hex_encode_length.
  apply orb_true_iff in Hl as [Hl|Hl]; apply Nat.eqb_eq in Hl; rewrite Hl; cbn [Nat.mul Nat.add Nat.eqb orb];
    now apply hex_decode_encode.
Qed.

Lemma hexdig_plain d : d < 16 -> (hexdig d =? LF) = false /\ (hexdig d =? SPC) = false.
Proof. unfold hexdig, LF, SPC. intros H. destruct (d <? 10); split; lia. Qed.

Lemma hex_encode_plain h : bytes_ok h = true -> no_lf (hex_encode h) = true /\ has_byte SPC (hex_encode h) = false.
Proof.
  induction h as [|c h IH]; [now split|]. intros H. destruct (bytes_ok_cons _ _ H) as [A [B Hh]].
  destruct (IH Hh) as [I1 I2], (hexdig_plain _ A) as [A1 A2], (hexdig_plain _ B) as [B1 B2].
  rewrite hex_encode_cons, !no_lf_cons, !has_byte_cons, A1, B1, I1, I2. rewrite (N.eqb_sym SPC), A2, (N.eqb_sym SPC), B2. now split.
Qed.

Lemma oid_plain h : oid_ok h = true -> no_lf (hex_encode h) = true /\ has_byte SPC (hex_encode h) = false.
Proof. unfold oid_ok. intros H. apply andb_true_iff in H as [H _]. now apply hex_encode_plain. Qed.

(* hex.DecodeString then hex.EncodeToString lower-cases, which is how git prints an id *)
Lemma hexv_lower x v : hexv x = Some v ->
  v < 16 /\ hexdig v = (if (65 <=? x) && (x <=? 70) then x + 32 else x).
Proof.
  unfold hexv, hexdig. destruct ((48 <=? x) && (x <=? 57)) eqn:E1.
  - intros H. injection H as <-. split; [lia|]. replace (x - 48 <? 10) with true by lia.
    replace ((65 <=? x) && (x <=? 70)) with false by lia. lia.
  - destruct ((97 <=? x) && (x <=? 102)) eqn:E2.
    + intros H. injection H as <-. split; [lia|]. replace (x - 87 <? 10) with false by lia.
      replace ((65 <=? x) && (x <=? 70)) with false by lia. lia.
    + destruct ((65 <=? x) && (x <=? 70)) eqn:E3; [|discriminate].
      intros H. injection H as <-. split; [lia|]. replace (x - 55 <? 10) with false by lia. lia.
Qed.

Lemma hex_decode_lower : forall h d, hex_decode d = Some h -> hex_encode h = lower_hex d /\ all_hex d = true.
Proof.
  induction h as [|b t IH]; intros d H.
  - destruct d as [|x [|y r]]; [now split|discriminate|]. cbn [hex_decode] in H.
    destruct (hexv x), (hexv y), (hex_decode r); discriminate.
  - destruct d as [|x [|y r]]; [discriminate|discriminate|]. cbn [hex_decode] in H.
    destruct (hexv x) as [hi|] eqn:Ex; [|discriminate]. destruct (hexv y) as [lo|] eqn:Ey; [|discriminate].
    destruct (hex_decode r) as [t'|] eqn:Er; [|discriminate].
    assert (Hb : 16 * hi + lo = b) by (now injection H). assert (Ht : t' = t) by (now injection H). subst t'. clear H.
    destruct (IH _ Er) as [I1 I2]. destruct (hexv_lower _ _ Ex) as [Bx Lx]. destruct (hexv_lower _ _ Ey) as [By Ly].
    split.
    + rewrite hex_encode_cons.
      assert (Q : b / 16 = hi) by (symmetry; apply (N.div_unique b 16 hi lo); lia).
      assert (R : b mod 16 = lo) by (symmetry; apply (N.mod_unique b 16 hi lo); lia).
      rewrite Q, R, Lx, Ly, I1. reflexivity.
    + unfold all_hex in *. cbn [forallb]. now rewrite Ex, Ey, I2.
Qed.

Lemma all_hex_no_lf d : all_hex d = true -> no_lf d = true.
Proof.
  unfold all_hex. induction d as [|x d IH]; [reflexivity|]. cbn [forallb]. intros H. apply andb_true_iff in H as [H1 H2].
  rewrite no_lf_cons, (IH H2), andb_true_r. destruct (x =? LF) eqn:E; [|reflexivity].
  apply N.eqb_eq in E. subst x. discriminate H1.
Qed.
