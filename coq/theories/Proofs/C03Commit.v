(* Proofs/C03Commit.v — commits: go-git's stripHeaderSignatures (G) produces
   git's parse_buffer_signed_by_header payload (S) on every byte string whose
   gpgsig-prefixed header lines are all "gpgsig " / "gpgsig-sha256 " headers. *)
From Coq Require Import List NArith ZArith Bool Lia.
From GoGit Require Import Base.Out Model.ObjLines Model.Ident Model.Commit Model.Tag Model.SigPayload
     Spec.GitSig Spec.ObjWf Spec.SigGuards Proofs.ObjLinesFacts.
Import ListNotations.
Local Open Scope N_scope.

Lemma first_is_true c l : first_is c l = true -> exists r, l = c :: r.
Proof. destruct l as [|x r]; cbn; [discriminate|]. intros H. apply N.eqb_eq in H. subst. now exists r. Qed.

(* what the first byte of a line decides *)
Lemma sp_line l : first_is SPC l = true ->
  first_is LF l = false /\ is_blank l = false /\ starts_with k_gpgsig l = false /\ is_sig_header l = false.
Proof. intros H. apply first_is_true in H as [r ->]. now destruct r. Qed.
Lemma lf_line l : first_is LF l = true ->
  first_is SPC l = false /\ starts_with k_gpgsig l = false /\ is_sig_header l = false.
Proof. intros H. apply first_is_true in H as [r ->]. now repeat split. Qed.

Lemma gpgsig7_gpgsig l : starts_with (k_gpgsig ++ [SPC]) l = true -> starts_with k_gpgsig l = true.
Proof. intros H. apply starts_with_spec in H as [r ->]. reflexivity. Qed.
Lemma gpgsig7_not_lf l : starts_with (k_gpgsig ++ [SPC]) l = true -> first_is LF l = false.
Proof. intros H. apply starts_with_spec in H as [r ->]. reflexivity. Qed.
Lemma sighdr_line l : is_sig_header l = true -> starts_with k_gpgsig l = true /\ first_is LF l = false.
Proof.
  unfold is_sig_header. intros H. apply orb_true_iff in H as [H|H]; apply starts_with_spec in H as [r ->]; now split.
Qed.
Lemma sighdr_not_blank l : is_sig_header l = true -> is_blank l = false.
Proof.
  unfold is_sig_header. intros H. apply orb_true_iff in H as [H|H]; apply starts_with_spec in H as [r ->]; reflexivity.
Qed.

(* a test on all header lines, one line further *)
Lemma forallb_header_cons (P : bytes -> bool) l r : first_is LF l = false ->
  forallb P (header_of (l :: r)) = true -> P l = true /\ forallb P (header_of r) = true.
Proof. cbn [header_of]. intros ->. cbn [forallb]. apply andb_true_iff. Qed.

Lemma guard_tail l r :
  first_is LF l = false -> foreign_gpgsig_free (l :: r) = true ->
  (negb (starts_with k_gpgsig l) || is_sig_header l) = true /\ foreign_gpgsig_free r = true.
Proof. apply forallb_header_cons. Qed.

(* the signature header of the repository's object format *)
Definition sig_hdr (h : bytes) : Prop := h = k_gpgsig \/ h = k_gpgsig256.

Lemma sig_hdr_of f : sig_hdr (sig_header_of f).
Proof. destruct f; [now left|now right]. Qed.

Lemma not_sighdr_h h l : sig_hdr h -> is_sig_header l = false -> starts_with (h ++ [SPC]) l = false.
Proof. unfold is_sig_header. intros [-> | ->] H; now apply orb_false_iff in H. Qed.

(* G's skipping flag is S's (in_signature || other_signature), whichever of
   the two headers is THE signature header *)
Lemma strip_pbsh_gen h : sig_hdr h -> forall ls insig other,
  Forall line_ok ls -> foreign_gpgsig_free ls = true ->
  strip_lines (insig || other) ls = fst (fst (pbsh h insig other ls)).
Proof.
  intros Hh. induction ls as [|l r IH]; intros insig other Hok Hg; [reflexivity|].
  inversion Hok as [|? ? Hl Hr]; subst.
  cbn [strip_lines pbsh]. rewrite <- (first_is_lf_blank _ Hl).
  destruct (first_is SPC l) eqn:Esp.
  - (* a line starting with a space: dropped by both iff a signature, THE one or another, is open;
       the flags stay as they are *)
    destruct (sp_line _ Esp) as (Elf & _ & Eg & Eh). destruct (guard_tail _ _ Elf Hg) as [_ Hgr].
    rewrite Eh, (not_sighdr_h _ _ Hh Eh), Eg, Elf, !andb_true_r.
    destruct insig; cbn [orb andb negb].
    + specialize (IH true other Hr Hgr). cbn [orb] in IH.
      destruct (pbsh h true other r) as [[p s] f]. exact IH.
    + rewrite andb_false_r. specialize (IH false other Hr Hgr). cbn [orb] in IH.
      destruct (pbsh h false other r) as [[p s] f]. cbn [fst] in *. rewrite <- IH. now destruct other.
  - rewrite !andb_false_r, andb_true_r. destruct (is_sig_header l) eqn:Eh.
    + (* a signature header: dropped by both; S sets in_signature if it is THE header, other_signature if not *)
      destruct (sighdr_line _ Eh) as [Eg Elf]. destruct (guard_tail _ _ Elf Hg) as [_ Hgr]. rewrite Eg, Elf.
      destruct (starts_with (h ++ [SPC]) l).
      * specialize (IH true false Hr Hgr). cbn [orb] in IH.
        destruct (pbsh h true false r) as [[p s] f]. exact IH.
      * specialize (IH false true Hr Hgr). cbn [orb] in IH.
        destruct (pbsh h false true r) as [[p s] f]. exact IH.
    + (* any other line closes what was open (by the guard it is not gpgsig-prefixed): the blank line
         hands over the rest, a header line is kept *)
      rewrite (not_sighdr_h _ _ Hh Eh). destruct (first_is LF l) eqn:Elf.
      * destruct (lf_line _ Elf) as (_ & -> & _). now destruct other.
      * destruct (guard_tail _ _ Elf Hg) as [Hgl Hgr]. rewrite Eh, orb_false_r in Hgl.
        apply negb_true_iff in Hgl. rewrite Hgl.
        specialize (IH false false Hr Hgr). cbn [orb] in IH.
        assert (Eo : (if other then false else other) = false) by (destruct other; reflexivity).
        rewrite Eo. destruct (pbsh h false false r) as [[p s] f]. cbn [fst]. now rewrite IH.
Qed.

Theorem strip_eq_pbsh_fmt : forall f raw,
  commit_sig_guard raw = true ->
  strip_header_sigs raw = fst (fst (git_commit_payload_fmt f raw)).
Proof.
  intros f raw Hg. exact (strip_pbsh_gen _ (sig_hdr_of f) (split_lines raw) false false (split_lines_ok raw) Hg).
Qed.

Theorem strip_eq_pbsh : forall raw,
  commit_sig_guard raw = true ->
  strip_header_sigs raw = fst (fst (git_commit_payload raw)).
Proof. exact (strip_eq_pbsh_fmt SHA1). Qed.
