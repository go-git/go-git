(* Proofs/GoPathFacts.v — facts about the path algebra of Model/GoPath.v *)
From Coq Require Import List NArith Arith Lia Bool.
From GoGit Require Import Base.Out Model.GoPath.
Import ListNotations.
Local Open Scope N_scope.

Lemma beq_eq a b : beq a b = true <-> a = b.
Proof.
  revert b. induction a as [|x a IH]; destruct b as [|y b]; cbn; split; try congruence; intro H.
  - apply andb_true_iff in H as [H1 H2]. apply N.eqb_eq in H1. apply IH in H2. congruence.
  - inversion H; subst. rewrite N.eqb_refl. cbn. now apply IH.
Qed.

Lemma beq_refl a : beq a a = true.
Proof. now apply beq_eq. Qed.

Lemma beq_neq a b : beq a b = false <-> a <> b.
Proof. rewrite <- beq_eq. now destruct (beq a b). Qed.

Definition nosl (c : bytes) : Prop := ~ In SL c.
(* a normal component: what a cleaned rooted path is made of *)
Definition normal (c : bytes) : Prop := c <> [] /\ c <> DOT /\ c <> DOTDOT /\ nosl c.

Lemma split_sl_nonempty s : split_sl s <> [].
Proof.
  destruct s as [|c r]; cbn; [congruence|].
  destruct (c =? SL); [congruence|]. destruct (split_sl r); congruence.
Qed.

Lemma split_sl_nosl s : Forall nosl (split_sl s).
Proof.
  induction s as [|c r IH]; cbn.
  - constructor; [intros []|constructor].
  - destruct (c =? SL) eqn:E.
    + constructor; [intros []|assumption].
    + destruct (split_sl r) as [|h t] eqn:Er.
      * constructor; [|constructor]. intros [H|[]]. subst. now rewrite N.eqb_refl in E.
      * inversion IH; subst. constructor; [|assumption].
        intros [H|H]; [subst; now rewrite N.eqb_refl in E | contradiction].
Qed.

Lemma split_sl_app a b : split_sl (a ++ SL :: b) = split_sl a ++ split_sl b.
Proof.
  induction a as [|c a IH]; cbn [app split_sl].
  - rewrite N.eqb_refl. reflexivity.
  - destruct (c =? SL); [now rewrite IH|].
    rewrite IH. destruct (split_sl a) as [|h t] eqn:Ea; [now apply split_sl_nonempty in Ea|].
    reflexivity.
Qed.

Lemma split_sl_nosl_id c : nosl c -> split_sl c = [c].
Proof.
  induction c as [|x c IH]; intro H; [reflexivity|]. cbn.
  destruct (x =? SL) eqn:E; [apply N.eqb_eq in E; subst; exfalso; apply H; now left|].
  rewrite IH; [reflexivity|]. intro Hin. apply H. now right.
Qed.

Lemma split_join cs : cs <> [] -> Forall nosl cs -> split_sl (join_sl cs) = cs.
Proof.
  destruct cs as [|c r]; [congruence|]. intros _ H. inversion H as [|? ? Hc Hr]; subst. clear H.
  revert c Hc. induction r as [|d r IH]; intros c Hc; cbn [join_sl flat_map app].
  - rewrite app_nil_r. now apply split_sl_nosl_id.
  - inversion Hr; subst. rewrite split_sl_app. rewrite split_sl_nosl_id by assumption.
    cbn [app]. f_equal. now apply (IH H2 d).
Qed.

Lemma join_sl_app a b : a <> [] -> join_sl (a ++ b) = join_sl a ++ flat_map (fun x => SL :: x) b.
Proof.
  destruct a as [|c r]; [congruence|]. intros _. cbn [app join_sl].
  rewrite flat_map_app, app_assoc. reflexivity.
Qed.

Lemma join_sl_app2 a b : a <> [] -> b <> [] -> join_sl (a ++ b) = join_sl a ++ SL :: join_sl b.
Proof. intros Ha Hb. rewrite join_sl_app by assumption. now destruct b. Qed.

Lemma trim_left_join cs : Forall normal cs -> trim_left_sl (join_sl cs) = join_sl cs.
Proof.
  destruct cs as [|c r]; [reflexivity|]. intro H. inversion H as [|? ? Hc _]; subst.
  destruct Hc as (Hne & _ & _ & Hns). destruct c as [|x c]; [congruence|].
  cbn. destruct (x =? SL) eqn:E; [|reflexivity].
  apply N.eqb_eq in E; subst. exfalso. apply Hns. now left.
Qed.

Lemma split_sl_rooted rs : rs <> [] -> Forall nosl rs -> split_sl (SL :: join_sl rs) = [] :: rs.
Proof. intros Hne Hrs. cbn [split_sl]. now rewrite N.eqb_refl, split_join. Qed.

Lemma normal_flags c :
  normal c <-> is_nil c = false /\ beq c DOT = false /\ beq c DOTDOT = false /\ nosl c.
Proof.
  unfold normal. rewrite !beq_neq. destruct c; cbn [is_nil]; intuition congruence.
Qed.

Lemma normal_nosl cs : Forall normal cs -> Forall nosl cs.
Proof. apply Forall_impl. now intros c (_ & _ & _ & H). Qed.

Lemma filter_normal f cs : (forall c, normal c -> f c = true) -> Forall normal cs -> filter f cs = cs.
Proof.
  intro Hf. induction 1 as [|c r Hc _ IH]; cbn [filter]; [reflexivity|]. now rewrite (Hf c Hc), IH.
Qed.

Definition skip (c : bytes) : bool := is_nil c || beq c DOT.

Lemma normal_skip c : normal c -> skip c = false.
Proof. intros (F1 & F2 & _)%normal_flags. unfold skip. now rewrite F1, F2. Qed.

Lemma filter_notskip_normal cs : Forall normal cs -> filter (fun c => negb (skip c)) cs = cs.
Proof. apply filter_normal. intros c Hc. now rewrite normal_skip. Qed.

(* what joins to a path that cleans without "..": the components Clean drops and those it keeps *)
Definition skip_or_normal (c : bytes) : Prop := skip c = true \/ normal c.

Lemma normal_or_skip cs : Forall normal cs -> Forall skip_or_normal cs.
Proof. apply Forall_impl. now right. Qed.

Lemma skip_or_normal_nosl cs : Forall skip_or_normal cs -> Forall nosl cs.
Proof.
  apply Forall_impl. intros c [Hs|Hs]; [|apply Hs].
  unfold skip in Hs. apply orb_true_iff in Hs as [Hs|Hs].
  - destruct c; [intros []|discriminate].
  - apply beq_eq in Hs; subst. intros [E|[]]. discriminate.
Qed.

Lemma reduce_normal_or_skip b cs : forall st,
  Forall skip_or_normal cs ->
  reduce b st cs = rev st ++ filter (fun c => negb (skip c)) cs.
Proof.
  induction cs as [|c r IH]; intros st H; cbn [reduce filter].
  - now rewrite app_nil_r.
  - inversion H as [|? ? Hc Hr]; subst. fold (skip c). destruct Hc as [Hc|Hc].
    + rewrite Hc. now apply IH.
    + rewrite (normal_skip _ Hc). apply normal_flags in Hc as (_ & _ & F & _). rewrite F. cbn [negb].
      rewrite IH by assumption. cbn [rev]. now rewrite <- app_assoc.
Qed.

Lemma reduce_rooted_normal cs : forall st,
  Forall normal st -> Forall nosl cs -> Forall normal (reduce true st cs).
Proof.
  induction cs as [|c r IH]; intros st Hst Hcs; cbn [reduce].
  - now apply Forall_rev.
  - inversion Hcs as [|? ? Hc Hr]; subst.
    destruct (is_nil c) eqn:E1; cbn [orb]; [now apply IH|].
    destruct (beq c DOT) eqn:E2; [now apply IH|].
    destruct (beq c DOTDOT) eqn:E3.
    + destruct st as [|top st']; [now apply IH|].
      inversion Hst as [|? ? Htop Hst']; subst.
      apply normal_flags in Htop as (_ & _ & F & _). rewrite F. now apply IH.
    + apply IH; [|assumption]. constructor; [now apply normal_flags|assumption].
Qed.

Lemma reduce_bottom_dd cs : forall st, exists U, reduce false (st ++ [DOTDOT]) cs = DOTDOT :: U.
Proof.
  induction cs as [|c r IH]; intro st; cbn [reduce].
  - rewrite rev_app_distr. cbn. eauto.
  - destruct (is_nil c || beq c DOT); [apply IH|].
    destruct (beq c DOTDOT).
    + destruct st as [|top st']; cbn [app].
      * cbn [beq N.eqb Pos.eqb andb]. apply (IH [c]).
      * destruct (beq top DOTDOT); [apply (IH (c :: top :: st'))|apply IH].
    + apply (IH (c :: st)).
Qed.

(* if the relative reduction of cs ends without a leading "..", the rooted
   reduction on top of any base never touches the base *)
Lemma reduce_rel_rooted cs : forall ns base,
  Forall normal ns -> Forall nosl cs ->
  (forall U, reduce false ns cs <> DOTDOT :: U) ->
  reduce true (ns ++ base) cs = rev base ++ reduce false ns cs
  /\ Forall normal (reduce false ns cs).
Proof.
  induction cs as [|c r IH]; intros ns base Hns Hcs Hnd; cbn [reduce] in *.
  - rewrite rev_app_distr. split; [reflexivity|]. now apply Forall_rev.
  - inversion Hcs as [|? ? Hc Hr]; subst.
    destruct (is_nil c || beq c DOT) eqn:E1; [now apply IH|].
    destruct (beq c DOTDOT) eqn:E3.
    + destruct ns as [|top ns']; cbn [app].
      * exfalso. destruct (reduce_bottom_dd r []) as [U HU]. cbn [app] in HU.
        apply beq_eq in E3; subst c. apply (Hnd U). exact HU.
      * inversion Hns as [|? ? Htop Hns']; subst.
        apply normal_flags in Htop as (_ & _ & F & _). rewrite F in *. now apply IH.
    + apply orb_false_iff in E1 as [E1 E2].
      apply (IH (c :: ns) base); try assumption.
      constructor; [now apply normal_flags|assumption].
Qed.

Lemma reduce_trim_left b st s : reduce b st (split_sl s) = reduce b st (split_sl (trim_left_sl s)).
Proof.
  induction s as [|c r IH]; [reflexivity|]. cbn [trim_left_sl].
  destruct (c =? SL) eqn:E; [|reflexivity].
  cbn [split_sl]. rewrite E. cbn [reduce is_nil orb]. exact IH.
Qed.

Lemma trim_left_not_abs s : is_abs (trim_left_sl s) = false.
Proof.
  induction s as [|c r IH]; [reflexivity|]. cbn [trim_left_sl].
  destruct (c =? SL) eqn:E; [exact IH|]. cbn [is_abs]. exact E.
Qed.

Lemma reduce_app_normal b rs : forall st X, Forall normal rs ->
  reduce b st (rs ++ X) = reduce b (rev rs ++ st) X.
Proof.
  induction rs as [|c r IH]; intros st X H; [reflexivity|].
  inversion H as [|? ? Hc Hr]; subst. cbn [app reduce].
  apply normal_flags in Hc as (F1 & F2 & F3 & _). rewrite F1, F2, F3. cbn [orb].
  rewrite IH by assumption. cbn [rev]. now rewrite <- app_assoc.
Qed.

(* the central computation: cleaning a rooted path of skippable or normal components *)
Lemma clean_rooted cs : cs <> [] -> Forall skip_or_normal cs ->
  clean (SL :: join_sl cs) = SL :: join_sl (filter (fun c => negb (skip c)) cs).
Proof.
  intros Hne Hc. unfold clean. cbn [is_abs]. rewrite N.eqb_refl.
  rewrite split_sl_rooted by auto using skip_or_normal_nosl.
  cbn [reduce is_nil orb]. now rewrite reduce_normal_or_skip.
Qed.

Lemma clean_under rs cs :
  rs <> [] -> Forall normal rs -> cs <> [] ->
  Forall skip_or_normal cs ->
  clean ((SL :: join_sl rs) ++ SL :: join_sl cs)
  = (SL :: join_sl rs) ++ flat_map (fun x => SL :: x) (filter (fun c => negb (skip c)) cs).
Proof.
  intros Hrs Hn Hcs Hc. cbn [app]. rewrite <- join_sl_app2 by assumption.
  rewrite clean_rooted.
  - rewrite filter_app, filter_notskip_normal by assumption. now rewrite join_sl_app.
  - now destruct rs.
  - apply Forall_app. auto using normal_or_skip.
Qed.

Lemma filter_skip_normal cs : Forall (fun c => skip c = true \/ normal c) cs ->
  Forall normal (filter (fun c => negb (skip c)) cs).
Proof.
  induction 1 as [|c r Hc Hr IH]; cbn [filter]; [constructor|].
  destruct Hc as [Hc|Hc].
  - rewrite Hc. exact IH.
  - rewrite (normal_skip _ Hc). now constructor.
Qed.

Definition good_root (R : bytes) : bool := is_abs R && beq (clean R) R && negb (beq R [SL]).

Lemma good_root_shape R : good_root R = true ->
  exists rs, rs <> [] /\ Forall normal rs /\ R = SL :: join_sl rs.
Proof.
  unfold good_root. intro H. apply andb_true_iff in H as [H H3]. apply andb_true_iff in H as [H1 H2].
  apply beq_eq in H2. apply negb_true_iff, beq_neq in H3.
  destruct R as [|c R']; [discriminate|]. unfold clean in H2. rewrite H1 in H2.
  set (rs := reduce true [] (split_sl (c :: R'))) in *.
  exists rs. split; [|split].
  - intro E. rewrite E in H2. cbn in H2. congruence.
  - apply reduce_rooted_normal; [constructor|apply split_sl_nosl].
  - now symmetry.
Qed.

Lemma comps_rooted rs : Forall normal rs -> comps (SL :: join_sl rs) = rs.
Proof.
  intro H. unfold comps. destruct rs as [|c r]; [reflexivity|].
  rewrite split_sl_rooted by (discriminate || now apply normal_nosl).
  apply (filter_normal (fun c => negb (is_nil c)) (c :: r)); [|exact H].
  now intros d (-> & _)%normal_flags.
Qed.
