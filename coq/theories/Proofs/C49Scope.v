(* Proofs/C49Scope.v — matcher.Match is "last match wins"; Scope: nothing below
   an excluded directory is re-included. *)
From Coq Require Import List NArith Bool Lia.
From GoGit Require Import Base.Out Model.Gitignore.
Import ListNotations.
Local Open Scope N_scope.

(* the decision of a pattern list: the result of its last pattern that matches *)
Inductive decides : list pat -> list bytes -> bool -> mres -> Prop :=
| D_none : forall ps path d,
    Forall (fun q => pat_match q path d = NoMatch) ps -> decides ps path d NoMatch
| D_last : forall pre p post path d r,
    pat_match p path d = r -> r <> NoMatch ->
    Forall (fun q => pat_match q path d = NoMatch) post ->
    decides (pre ++ p :: post) path d r.

Lemma decides_snoc_nomatch ps p path d r :
  decides ps path d r -> pat_match p path d = NoMatch -> decides (ps ++ [p]) path d r.
Proof.
  intros H E. destruct H.
  - constructor. apply Forall_app. split; [assumption|]. constructor; [exact E|constructor].
  - rewrite <- app_assoc. cbn [app]. apply D_last; [assumption|assumption|].
    apply Forall_app. split; [assumption|]. constructor; [exact E|constructor].
Qed.

Lemma matcher_rev_spec : forall rps path d,
  exists r, decides (rev rps) path d r /\ matcher_rev rps path d = match r with Exclude => true | _ => false end.
Proof.
  induction rps as [|p r IH]; intros path d.
  - exists NoMatch. split; [constructor; constructor|reflexivity].
  - cbn [matcher_rev rev]. destruct (pat_match p path d) eqn:E.
    + destruct (IH path d) as [r0 [Hd Hm]]. exists r0. split; [|exact Hm].
      now apply decides_snoc_nomatch.
    + exists Exclude. split; [|reflexivity].
      apply D_last with (post := []); [exact E|discriminate|constructor].
    + exists Include. split; [|reflexivity].
      apply D_last with (post := []); [exact E|discriminate|constructor].
Qed.

Theorem matcher_last_match_wins ps path d :
  exists r, decides ps path d r /\ matcher_match ps path d = match r with Exclude => true | _ => false end.
Proof.
  unfold matcher_match. destruct (matcher_rev_spec (rev ps) path d) as [r [H1 H2]].
  rewrite rev_involutive in H1. eauto.
Qed.

Lemma descend_excluded fs s dir : sc_excluded s = true -> sc_excluded (descend fs s dir) = true.
Proof. intros H. unfold descend. now rewrite H. Qed.

Lemma walk_excluded fs : forall rest s pre,
  sc_excluded s = true -> sc_excluded (walk fs s pre rest) = true.
Proof.
  induction rest as [|e rest IH]; intros s pre H; cbn [walk]; [exact H|].
  apply IH. now apply descend_excluded.
Qed.

Lemma walk_app fs : forall a s pre b,
  walk fs s pre (a ++ b) = walk fs (walk fs s pre a) (pre ++ a) b.
Proof.
  induction a as [|e a IH]; intros s pre b; cbn [walk app].
  - now rewrite app_nil_r.
  - rewrite IH. now rewrite <- app_assoc.
Qed.

(* if go-git reports directory d as ignored, every path below d is ignored,
   whatever the patterns (negations included) in d or deeper say *)
Theorem excluded_parent excl fs d e rest isdir :
  ignored excl fs d true = true -> ignored excl fs (d ++ e :: rest) isdir = true.
Proof.
  unfold ignored. intros H.
  rewrite walk_app. cbn [app walk].
  set (s := walk fs _ [] d) in *.
  assert (Hx : sc_excluded (descend fs s d) = true).
  { unfold descend. unfold scope_match in H. now rewrite H. }
  unfold scope_match. rewrite (walk_excluded fs rest _ _ Hx). reflexivity.
Qed.

(* and the patterns of an excluded directory's own ignore file are never read:
   the scope below is the scope above, frozen *)
Lemma descend_frozen fs s dir :
  scope_match s dir true = true -> sc_pats (descend fs s dir) = sc_pats s.
Proof. unfold descend, scope_match. intros ->. reflexivity. Qed.
