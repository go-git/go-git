(* Proofs/C20Quiet.v — the correspondence trace with quiet steps (Model/IndexCache.trace_q,
   Model/IndexCacheExt.etrace_q) is the plain trace when no step is quiet, and nothing but the
   marks when every step is. *)
From Coq Require Import List NArith Bool String.
From GoGit Require Import Base.Out Model.IndexCache Model.IndexCacheExt.
Import ListNotations.

Lemma trace_q_all_loud deep ops s : trace_q deep s (map (pair false) ops) = trace deep s ops.
Proof.
  revert s. induction ops as [|o r IH]; intros s; cbn [map trace_q trace]; [reflexivity|].
  destruct (read_now deep (step deep s o)) as [v s2]. now rewrite IH.
Qed.

Lemma etrace_q_all_loud fixed ops s : etrace_q fixed s (map (pair false) ops) = etrace fixed s ops.
Proof.
  revert s. induction ops as [|o r IH]; intros s; cbn [map etrace_q etrace]; [reflexivity|].
  destruct (eread_now (estep fixed s o)) as [v s2]. now rewrite IH.
Qed.

(* after a quiet step trace_q goes on from [step deep s o] itself: nothing but the history's own
   operations touches the cache (the next Index() of the history meets it as the last operation
   left it), and the output is the mark *)
Lemma trace_q_all_quiet deep ops s :
  trace_q deep s (map (pair true) ops) = map (fun _ => OSym "quiet") ops.
Proof. revert s. induction ops as [|o r IH]; intros s; cbn [map trace_q]; [reflexivity|now rewrite IH]. Qed.

(* the triggering shape on the model as repaired: external rewrite (unobserved), Index() = miss,
   modify the returned value three ways, no SetIndex: the next Index() still returns the file *)
Example miss_then_modify :
  c20_store_q true [(true, OExternal [(2%N,20%N); (1%N,10%N)]); (true, OIndex); (true, OMutate 0 0 99%N);
                    (true, OAppend 0 (3%N,30%N)); (false, ORemove 0 1)]
  = OList [OSym "quiet"; OSym "quiet"; OSym "quiet"; OSym "quiet";
           OList [vals_out [(1%N,10%N); (2%N,20%N)]; vals_out [(1%N,10%N); (2%N,20%N)]]].
Proof. vm_compute. reflexivity. Qed.
