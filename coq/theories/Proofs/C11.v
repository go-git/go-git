(* Proofs/C11.v — every read path of Model/ObjStore.v returns the content of
   the content-addressed store (Spec/ObjContent.v), whatever the cache holds,
   whatever the MRU hints say, in whatever order the reads come. *)
From Coq Require Import List NArith Bool Lia PeanoNat String.
From GoGit Require Import Base.Out Model.ObjStore Spec.ObjContent.
Import ListNotations.
Local Open Scope N_scope.

Lemma bytes_eqb_eq : forall a b, bytes_eqb a b = true <-> a = b.
Proof.
  induction a as [|x a IH]; destruct b as [|y b]; cbn; split; intros H; try discriminate; auto.
  - apply andb_true_iff in H. destruct H as [H1 H2]. apply N.eqb_eq in H1. apply IH in H2. now subst.
  - inversion H; subst. rewrite N.eqb_refl. cbn. now apply IH.
Qed.

Lemma bytes_eqb_refl : forall a, bytes_eqb a a = true.
Proof. intros. now apply bytes_eqb_eq. Qed.

Lemma otype_eqb_eq : forall a b, otype_eqb a b = true -> a = b.
Proof. destruct a, b; cbn; intros; try discriminate; reflexivity. Qed.

Lemma obj_eqb_eq : forall a b, obj_eqb a b = true -> a = b.
Proof.
  intros [ta da] [tb db] H. unfold obj_eqb in H. cbn in H. apply andb_true_iff in H. destruct H as [H1 H2].
  apply otype_eqb_eq in H1. apply bytes_eqb_eq in H2. now subst.
Qed.

Lemma existsb_eqb_In : forall A (eqb : A -> A -> bool), (forall a b, eqb a b = true <-> a = b) ->
  forall x l, existsb (eqb x) l = true <-> In x l.
Proof.
  intros A eqb E x l. rewrite existsb_exists. split.
  - intros [y [Hy H]]. apply E in H. now subst.
  - intros H. exists x. split; [assumption | now apply E].
Qed.

Lemma mem_id_In : forall id l, mem_id id l = true <-> In id l.
Proof. exact (existsb_eqb_In _ bytes_eqb bytes_eqb_eq). Qed.

Lemma find_entry_unique : forall p e, nodup_N (map e_off p) = true -> In e p ->
  find_entry p (e_off e) = Some e.
Proof.
  induction p as [|x p IH]; intros e N I; [destruct I|].
  cbn in N. apply andb_true_iff in N. destruct N as [N1 N2]. unfold find_entry. cbn.
  destruct I as [->|I]; [now rewrite N.eqb_refl|].
  destruct (e_off x =? e_off e) eqn:E; [|now apply IH].
  apply N.eqb_eq in E. apply negb_true_iff in N1. rewrite E in N1.
  rewrite (proj2 (existsb_eqb_In _ N.eqb N.eqb_eq _ _) (in_map e_off _ _ I)) in N1. discriminate.
Qed.

Lemma find_entry_In : forall p off e, find_entry p off = Some e -> In e p /\ e_off e = off.
Proof.
  intros p off e H. unfold find_entry in H. apply find_some in H. destruct H as [H1 H2].
  apply N.eqb_eq in H2. auto.
Qed.

Lemma find_off_some : forall p id off, find_off p id = Some off ->
  exists e, In e p /\ e_id e = id /\ e_off e = off.
Proof.
  intros p id off H. unfold find_off in H.
  destruct (find (fun e => bytes_eqb (e_id e) id) p) as [e|] eqn:F; [|discriminate].
  inversion H; subst. apply find_some in F. destruct F as [F1 F2]. apply bytes_eqb_eq in F2. eauto.
Qed.

Lemma find_off_none : forall p id, find_off p id = None -> forall e, In e p -> e_id e <> id.
Proof.
  intros p id H e I E. unfold find_off in H.
  destruct (find (fun e => bytes_eqb (e_id e) id) p) as [x|] eqn:F; [discriminate|].
  pose proof (find_none _ _ F e I) as N. cbn in N. rewrite E, bytes_eqb_refl in N. discriminate.
Qed.

Lemma find_off_In : forall p e, In e p -> exists off, find_off p (e_id e) = Some off.
Proof.
  intros p e I. destruct (find_off p (e_id e)) as [off|] eqn:F; [eauto|].
  now destruct (find_off_none _ _ F e I).
Qed.

Lemma presolve_mono_le : forall f f' p e o, (f <= f')%nat -> presolve f p e = Some o -> presolve f' p e = Some o.
Proof.
  induction f as [|f IH]; intros [|f'] p e o L H; try discriminate; [lia|]. apply le_S_n in L.
  cbn [presolve] in *. destruct (e_kind e) as [t d|b delta|bid delta]; auto.
  - destruct (find_entry p b) as [pe|]; [|discriminate].
    destruct (presolve f p pe) as [po|] eqn:P; [|discriminate]. now rewrite (IH _ _ _ _ L P).
  - destruct (find_off p bid) as [off|]; [|discriminate].
    destruct (find_entry p off) as [pe|]; [|discriminate].
    destruct (presolve f p pe) as [po|] eqn:P; [|discriminate]. now rewrite (IH _ _ _ _ L P).
Qed.

Lemma presolve_fuel_irrelevant : forall f f' p e o o',
  presolve f p e = Some o -> presolve f' p e = Some o' -> o = o'.
Proof.
  intros f f' p e o o' H H'. destruct (Nat.le_ge_cases f f') as [L|L].
  - apply (presolve_mono_le _ _ _ _ _ L) in H. congruence.
  - apply (presolve_mono_le _ _ _ _ _ L) in H'. congruence.
Qed.

Lemma assoc_app : forall A (l1 l2 : list (bytes * A)) id,
  assoc (l1 ++ l2) id = match assoc l1 id with Some x => Some x | None => assoc l2 id end.
Proof.
  induction l1 as [|[i x] l1 IH]; intros l2 id; cbn; [reflexivity|].
  destruct (bytes_eqb i id); auto.
Qed.

Lemma assoc_some_In : forall A (l : list (bytes * A)) id v, assoc l id = Some v -> In (id, v) l.
Proof.
  induction l as [|[i x] l IH]; intros id v H; cbn in H; [discriminate|].
  destruct (bytes_eqb i id) eqn:E; [|right; now apply IH].
  apply bytes_eqb_eq in E. inversion H; subst. now left.
Qed.

Lemma assoc_In : forall A (l : list (bytes * A)) id v, In (id, v) l -> exists v', assoc l id = Some v'.
Proof.
  induction l as [|[i x] l IH]; intros id v I; [destruct I|]. cbn.
  destruct (bytes_eqb i id) eqn:E; [eauto|].
  destruct I as [I|I]; [|eauto]. inversion I; subst. now rewrite bytes_eqb_refl in E.
Qed.

Lemma assoc_none : forall A (l : list (bytes * A)) id, assoc l id = None -> forall v, ~ In (id, v) l.
Proof.
  intros A l id H v I. destruct (assoc_In _ _ _ _ I) as [v' E]. congruence.
Qed.

Lemma cache_get_assoc : forall c id, cache_get c id = assoc c id.
Proof. induction c as [|[i o] c IH]; intros id; cbn; [|rewrite IH]; reflexivity. Qed.

Lemma cache_get_In : forall c id o, cache_get c id = Some o -> In (id, o) c.
Proof. intros c id o. rewrite cache_get_assoc. apply assoc_some_In. Qed.

Section Cache.
Variable pol : cache -> cache.
Hypothesis pol_ok : forall c x, In x (pol c) -> In x c.
(* the truth the cache may hold *)
Variable T : bytes -> option obj.

Definition cache_ok (c : cache) : Prop := forall id o, In (id, o) c -> T id = Some o.

Lemma cache_ok_get : forall c id o, cache_ok c -> cache_get c id = Some o -> T id = Some o.
Proof. intros c id o C H. apply C. now apply cache_get_In. Qed.

Lemma cache_ok_put : forall c id o, cache_ok c -> T id = Some o -> cache_ok (cache_put pol c id o).
Proof.
  intros c id o C H i x I. unfold cache_put in I. apply pol_ok in I. destruct I as [E|I].
  - inversion E; subst. assumption.
  - now apply C.
Qed.

(* a lookup that asks the cache first answers like the lookup proper *)
Lemma through_cache : forall c id o miss, cache_ok c -> T id = Some o ->
  (exists c', miss = (c', Some o) /\ cache_ok c') ->
  exists c', match cache_get c id with Some o' => (c, Some o') | None => miss end = (c', Some o) /\ cache_ok c'.
Proof.
  intros c id o miss C H M. destruct (cache_get c id) as [o'|] eqn:G; [|exact M].
  rewrite (cache_ok_get _ _ _ C G) in H. inversion H; subst. eauto.
Qed.

(* the pack agrees with the truth: whenever an entry resolves, it resolves to T of its id *)
Definition pack_ok (p : pack) : Prop :=
  nodup_N (map e_off p) = true /\
  forall e f o, In e p -> presolve f p e = Some o -> T (e_id e) = Some o.

Lemma resolve_ok : forall f p c e o,
  pack_ok p -> In e p -> cache_ok c -> presolve f p e = Some o ->
  exists c', resolve pol f p c e = (c', Some o) /\ cache_ok c'.
Proof.
  induction f as [|f IH]; intros p c e o PK I C R; [discriminate|].
  (* a delta entry e over the base entry pe, the base read through the cache *)
  assert (DELTA : forall pe po delta, In pe p -> presolve f p pe = Some po ->
            option_map (Obj (o_type po)) (apply_delta (o_data po) delta) = Some o ->
            exists c', (let '(c1, par) := match cache_get c (e_id pe) with
                                          | Some o' => (c, Some o')
                                          | None => resolve pol f p c pe
                                          end in finish pol c1 par delta e) = (c', Some o) /\ cache_ok c').
  { intros pe po delta Ipe P D.
    destruct (through_cache c (e_id pe) po _ C (proj2 PK _ _ _ Ipe P) (IH _ _ _ _ PK Ipe C P)) as [c1 [-> C1]].
    cbn [finish]. destruct (apply_delta (o_data po) delta) as [d|]; [|discriminate]. inversion D; subst.
    eexists. split; [reflexivity|]. apply cache_ok_put; [assumption|]. exact (proj2 PK _ _ _ I R). }
  pose proof R as R0. cbn [presolve] in R. cbn [resolve].
  destruct (e_kind e) as [t d|b delta|bid delta].
  - inversion R; subst. eexists. split; [reflexivity|].
    apply cache_ok_put; [assumption|]. exact (proj2 PK _ _ _ I R0).
  - destruct (find_entry p b) as [pe|] eqn:F; [|discriminate].
    destruct (presolve f p pe) as [po|] eqn:P; [|discriminate].
    destruct (find_entry_In _ _ _ F) as [Ipe _]. exact (DELTA pe po delta Ipe P R).
  - destruct (find_off p bid) as [off|] eqn:FO; [|discriminate].
    destruct (find_entry p off) as [pe|] eqn:F; [|discriminate].
    destruct (presolve f p pe) as [po|] eqn:P; [|discriminate].
    destruct (find_entry_In _ _ _ F) as [Ipe _].
    (* the entry found at the base's offset IS the entry named bid *)
    assert (Eid : e_id pe = bid).
    { destruct (find_off_some _ _ _ FO) as [e1 [I1 [Id1 Of1]]].
      rewrite <- Of1, (find_entry_unique _ _ (proj1 PK) I1) in F. congruence. }
    rewrite <- Eid. exact (DELTA pe po delta Ipe P R).
Qed.

Lemma get_by_offset_ok : forall p c e o,
  pack_ok p -> In e p -> cache_ok c -> presolve (S (List.length p)) p e = Some o ->
  exists c', get_by_offset pol p c (e_off e) = (c', Some o) /\ cache_ok c'.
Proof.
  intros p c e o PK I C R. unfold get_by_offset. rewrite (find_entry_unique _ _ (proj1 PK) I).
  apply through_cache; [assumption | exact (proj2 PK _ _ _ I R) | now apply resolve_ok].
Qed.

End Cache.

Definition stores (r : repo) : list store := r_main r :: r_alts r.

Lemma copies_stores : forall r x, In x (copies r) <-> exists s, In s (stores r) /\ In x (store_copies s).
Proof. intros r x. exact (in_flat_map store_copies (stores r) x). Qed.

Lemma in_store_copies : forall s id v, In (id, v) (store_copies s) <->
  (exists o, In (id, o) (s_loose s) /\ v = Some o) \/
  (exists p e, In p (s_packs s) /\ In e p /\ e_id e = id /\ presolve (S (List.length p)) p e = v).
Proof.
  intros s id v. unfold store_copies, pack_copies. rewrite in_app_iff, in_map_iff, in_flat_map. split.
  - intros [[[i o] [E I]]|[p [Ip I]]].
    + inversion E; subst. eauto.
    + apply in_map_iff in I. destruct I as [e [E I]]. inversion E; subst. right. exists p, e. auto.
  - intros [[o [I ->]]|[p [e [Ip [Ie [<- <-]]]]]].
    + left. now exists (id, o).
    + right. exists p. split; [assumption|]. apply in_map_iff. eauto.
Qed.

Lemma loose_in_copies : forall r s id o, In s (stores r) -> In (id, o) (s_loose s) -> In (id, Some o) (copies r).
Proof.
  intros r s id o Is I. apply copies_stores. exists s. split; [assumption|]. apply in_store_copies. eauto.
Qed.

Lemma pack_in_copies : forall r s p e, In s (stores r) -> In p (s_packs s) -> In e p ->
  In (e_id e, presolve (S (List.length p)) p e) (copies r).
Proof.
  intros r s p e Is Ip Ie. apply copies_stores. exists s. split; [assumption|].
  apply in_store_copies. right. exists p, e. auto.
Qed.

Definition has_copy (s : store) (id : bytes) : Prop :=
  In id (map fst (s_loose s)) \/ exists p, In p (s_packs s) /\ In id (map e_id p).

Lemma has_copy_copies : forall r id, (exists s, In s (stores r) /\ has_copy s id) <-> exists v, In (id, v) (copies r).
Proof.
  intros r id. split.
  - intros [s [Is [H|[p [Ip H]]]]]; apply in_map_iff in H.
    + destruct H as [[i o] [E I]]. cbn in E. subst i. eexists. eapply loose_in_copies; eauto.
    + destruct H as [e [E I]]. subst id. eexists. eapply pack_in_copies; eauto.
  - intros [v I]. apply copies_stores in I. destruct I as [s [Is I]]. exists s. split; [assumption|].
    apply in_store_copies in I. destruct I as [[o [I _]]|[p [e [Ip [Ie [<- _]]]]]].
    + left. exact (in_map fst _ _ I).
    + right. exists p. split; [assumption | now apply in_map].
Qed.

Definition absent (s : store) (id : bytes) : Prop :=
  loose_get s id = None /\ forall p, In p (s_packs s) -> find_off p id = None.

Lemma absent_no_copy : forall s id, absent s id -> ~ has_copy s id.
Proof.
  intros s id [L P] [H|[p [Ip H]]]; apply in_map_iff in H.
  - destruct H as [[i o] [E I]]. cbn in E. subst i.
    unfold loose_get in L. rewrite cache_get_assoc in L. exact (assoc_none _ _ _ L o I).
  - destruct H as [e [E I]]. exact (find_off_none _ _ (P p Ip) e I E).
Qed.

(* findObjectInPackfile: the MRU hint changes the route, never the answer.  The scan answers for
   every pack but the one it skips: that one the caller must answer for *)
Lemma scan_packs_spec : forall ps i skip id,
  (forall j q, skip = Some (i + j)%nat -> nth_error ps j = Some q -> find_off q id = None) ->
  match scan_packs ps i skip id with
  | Some (_, p, off) => In p ps /\ find_off p id = Some off
  | None => forall p, In p ps -> find_off p id = None
  end.
Proof.
  induction ps as [|q ps IH]; intros i skip id SK; cbn [scan_packs]; [intros p []|].
  assert (SK' : forall j p, skip = Some (S i + j)%nat -> nth_error ps j = Some p -> find_off p id = None).
  { intros j p E N. apply (SK (S j) p); [now rewrite Nat.add_succ_r | exact N]. }
  specialize (IH (S i) skip id SK').
  assert (TL : find_off q id = None ->
               match scan_packs ps (S i) skip id with
               | Some (_, p, off) => In p (q :: ps) /\ find_off p id = Some off
               | None => forall p, In p (q :: ps) -> find_off p id = None
               end).
  { intros F. destruct (scan_packs ps (S i) skip id) as [[[k p] off]|].
    - destruct IH. split; [now right | assumption].
    - intros p [<-|I]; auto. }
  destruct (match skip with Some h => Nat.eqb h i | None => false end) eqn:T.
  - apply TL. destruct skip as [h|]; [|discriminate]. apply Nat.eqb_eq in T.
    apply (SK 0%nat q); [now rewrite T, Nat.add_0_r | reflexivity].
  - destruct (find_off q id) as [o|] eqn:F; [split; [now left | exact F] | now apply TL].
Qed.

Definition located (ps : list pack) (id : bytes) (x : option (pack * N)) : Prop :=
  match x with
  | Some (p, off) => In p ps /\ find_off p id = Some off
  | None => forall p, In p ps -> find_off p id = None
  end.

Lemma find_in_packs_spec : forall s hint id, located (s_packs s) id (snd (find_in_packs s hint id)).
Proof.
  intros s hint id. unfold find_in_packs.
  assert (SC : forall skip h,
            (forall j p, skip = Some j -> nth_error (s_packs s) j = Some p -> find_off p id = None) ->
            located (s_packs s) id (snd match scan_packs (s_packs s) 0 skip id with
                                        | Some (i, p, off) => (S i, Some (p, off))
                                        | None => (h, None)
                                        end)).
  { intros skip h SK. pose proof (scan_packs_spec (s_packs s) 0 skip id SK) as S.
    now destruct (scan_packs (s_packs s) 0 skip id) as [[[k q] o]|]. }
  destruct hint as [|hh]; [apply SC; discriminate|].
  destruct (nth_error (s_packs s) hh) as [q|] eqn:N.
  - destruct (find_off q id) as [o|] eqn:F; [split; [exact (nth_error_In _ _ N) | exact F]|].
    apply SC. intros j p E Nj. destruct (Nat.ltb hh (List.length (s_packs s))); inversion E; subst. congruence.
  - apply SC. intros j p E Nj. destruct (Nat.ltb hh (List.length (s_packs s))); inversion E; subst. congruence.
Qed.

Section Store.
Variable r : repo.
Hypothesis OK : store_ok r = true.

Lemma ok_agree : forall i v w, In (i, v) (copies r) -> In (i, w) (copies r) -> exists o, v = Some o /\ w = Some o.
Proof.
  intros i v w Iv Iw. unfold store_ok in OK. apply andb_true_iff in OK. destruct OK as [_ B].
  rewrite forallb_forall in B. specialize (B _ Iv). rewrite forallb_forall in B. specialize (B _ Iw).
  cbn in B. rewrite bytes_eqb_refl in B. cbn in B.
  destruct v as [x|], w as [y|]; cbn in B; try discriminate.
  apply obj_eqb_eq in B. subst. eauto.
Qed.

Lemma copy_content : forall i v, In (i, v) (copies r) -> exists o, v = Some o /\ content r i = Some o.
Proof.
  intros i v I. destruct (assoc_In _ _ _ _ I) as [v' A].
  destruct (ok_agree _ _ _ I (assoc_some_In _ _ _ _ A)) as [o [E1 E2]]. exists o. split; [assumption|].
  unfold content. now rewrite A, E2.
Qed.

Lemma content_none : forall id, content r id = None -> forall v, ~ In (id, v) (copies r).
Proof.
  intros id H v I. destruct (copy_content _ _ I) as [o [_ E]]. congruence.
Qed.

Lemma content_stored : forall id, content r id <> None <-> exists s, In s (stores r) /\ has_copy s id.
Proof.
  intros id. rewrite has_copy_copies. split.
  - unfold content. destruct (assoc (copies r) id) as [v|] eqn:A; [|congruence].
    intros _. exists v. now apply assoc_some_In.
  - intros [v I] E. exact (content_none _ E _ I).
Qed.

Lemma absent_everywhere : forall id, (forall s, In s (stores r) -> absent s id) -> content r id = None.
Proof.
  intros id H. destruct (content r id) as [o|] eqn:E; [|reflexivity].
  assert (S : content r id <> None) by congruence.
  apply content_stored in S. destruct S as [s [Is Hs]]. now destruct (absent_no_copy _ _ (H s Is)).
Qed.

Lemma store_pack_ok : forall s p, In s (stores r) -> In p (s_packs s) -> pack_ok (content r) p.
Proof.
  intros s p Is Ip. split.
  - unfold store_ok in OK. apply andb_true_iff in OK. destruct OK as [A _]. rewrite forallb_forall in A.
    apply A. apply (in_flat_map s_packs (stores r)). eauto.
  - intros e f o Ie R.
    destruct (copy_content _ _ (pack_in_copies r _ _ _ Is Ip Ie)) as [o0 [E C]].
    rewrite (presolve_fuel_irrelevant _ _ _ _ _ _ R E). exact C.
Qed.

Lemma entry_resolves : forall s p e, In s (stores r) -> In p (s_packs s) -> In e p ->
  exists o, presolve (S (List.length p)) p e = Some o /\ content r (e_id e) = Some o.
Proof.
  intros s p e Is Ip Ie. destruct (copy_content _ _ (pack_in_copies r _ _ _ Is Ip Ie)) as [o [E C]]. eauto.
Qed.

Lemma loose_entry_content : forall s id o, In s (stores r) -> In (id, o) (s_loose s) -> content r id = Some o.
Proof.
  intros s id o Is I. destruct (copy_content _ _ (loose_in_copies r _ _ _ Is I)) as [o' [E C]].
  inversion E; subst. exact C.
Qed.

Lemma loose_content : forall s id o, In s (stores r) -> loose_get s id = Some o -> content r id = Some o.
Proof.
  intros s id o Is H. apply (loose_entry_content s); [assumption|]. now apply cache_get_In.
Qed.

(* what one ObjectStorage knows of id: a pack entry, else a loose file, else nothing *)
Lemma local_cases : forall s hint id, In s (stores r) ->
  match find_in_packs s hint id with
  | (_, Some (p, off)) => In p (s_packs s) /\ exists e, In e p /\ e_id e = id /\ e_off e = off
  | (_, None) => match loose_get s id with Some o => content r id = Some o | None => absent s id end
  end.
Proof.
  intros s hint id Is. pose proof (find_in_packs_spec s hint id) as F.
  destruct (find_in_packs s hint id) as [h [[p off]|]]; cbn in F.
  - destruct F as [Ip Fo]. split; [assumption | now apply find_off_some].
  - destruct (loose_get s id) as [o|] eqn:L; [exact (loose_content _ _ _ Is L) | now split].
Qed.

End Store.

Lemma NoDup_app_intro_single : forall A (l : list A) x, NoDup l -> ~ In x l -> NoDup (l ++ [x]).
Proof.
  intros A l x N H. rewrite <- (rev_involutive (l ++ [x])), rev_unit. apply NoDup_rev.
  constructor; [now rewrite <- in_rev | now apply NoDup_rev].
Qed.

Lemma add_new_spec : forall ids acc,
  (forall x, In x (add_new acc ids) <-> In x acc \/ In x ids) /\ (NoDup acc -> NoDup (add_new acc ids)).
Proof.
  unfold add_new. induction ids as [|i ids IH]; intros acc; cbn.
  - split; [intros x; tauto | auto].
  - destruct (mem_id i acc) eqn:M.
    + destruct (IH acc) as [A B]. split; [|assumption].
      intros x. rewrite A. apply mem_id_In in M. split; [tauto|]. intros [H|[<-|H]]; auto.
    + destruct (IH (acc ++ [i])) as [A B]. split.
      * intros x. rewrite A, in_app_iff. cbn. tauto.
      * intros N. apply B. apply NoDup_app_intro_single; [assumption|].
        intros I. apply mem_id_In in I. congruence.
Qed.

Lemma fold_add_new : forall A (f : A -> list bytes) l acc,
  fold_left (fun a p => add_new a (f p)) l acc = add_new acc (flat_map f l).
Proof.
  intros A f. induction l as [|p l IH]; intros acc; cbn; [reflexivity|].
  rewrite IH. unfold add_new. now rewrite fold_left_app.
Qed.

Lemma store_prefix_spec : forall s pre acc,
  (forall x, In x (store_prefix s pre acc) <-> In x acc \/ (is_prefix pre x = true /\ has_copy s x)) /\
  (NoDup acc -> NoDup (store_prefix s pre acc)).
Proof.
  intros s pre acc. unfold store_prefix. rewrite fold_add_new. unfold add_new. rewrite <- fold_left_app.
  destruct (add_new_spec (filter (is_prefix pre) (map fst (s_loose s)) ++
                          flat_map (fun p => filter (is_prefix pre) (map e_id p)) (s_packs s)) acc) as [I N].
  split; [|exact N].
  intros x. rewrite I, in_app_iff, filter_In, in_flat_map. setoid_rewrite filter_In. unfold has_copy. split.
  - intros [H|[[H1 H2]|(p & Hp & Hx & Hy)]]; eauto 6.
  - intros [H|[H1 [H2|(p & Hp & Hx)]]]; eauto 7.
Qed.

Fixpoint nodup_ids (l : list bytes) : bool :=
  match l with
  | [] => true
  | x :: r => negb (mem_id x r) && nodup_ids r
  end.

Lemma nodup_ids_NoDup : forall l, nodup_ids l = true -> NoDup l.
Proof.
  induction l as [|x l IH]; cbn; intros H; [constructor|].
  apply andb_true_iff in H. destruct H as [H1 H2]. constructor; [|auto].
  intros I. apply mem_id_In in I. rewrite I in H1. discriminate.
Qed.

Lemma NoDup_map_filter : forall A B (g : A -> B) f l, NoDup (map g l) -> NoDup (map g (filter f l)).
Proof.
  induction l as [|x l IH]; cbn; intros N; [constructor|]. inversion N; subst.
  destruct (f x); cbn; [constructor|]; auto.
  intros I. apply in_map_iff in I. destruct I as [y [E I]]. apply filter_In in I. destruct I as [I _].
  rewrite <- E in *. now apply H1, in_map.
Qed.

Lemma typed_found : forall t o x, typed t o = RFound x -> x = o.
Proof. intros t o x H. unfold typed in H. destruct t as [t0|]; [destruct (otype_eqb t0 (o_type o))|]; congruence. Qed.

Section IterFull.
Variable pol : cache -> cache.
Hypothesis pol_ok : forall c x, In x (pol c) -> In x c.
Variable r : repo.
Hypothesis OK : store_ok r = true.
Variable t : option otype.

Notation cok := (cache_ok (content r)).

Definition wanted (id : bytes) : Prop := exists o, content r id = Some o /\ typed t o = RFound o.

Lemma wanted_content : forall id o, content r id = Some o -> wanted id -> typed t o = RFound o.
Proof. intros id o Co [o' [C' T']]. rewrite Co in C'. now inversion C'; subst. Qed.

Definition sound_list (l : list (bytes * obj)) : Prop :=
  forall id o, In (id, o) l -> content r id = Some o /\ typed t o = RFound o.

Definition listed (x : bytes * obj) : bool :=
  match typed t (snd x) with RFound _ => true | _ => false end.

Lemma listed_found : forall id o, listed (id, o) = true <-> typed t o = RFound o.
Proof.
  intros id o. unfold listed. cbn [snd]. destruct (typed t o) as [x| |] eqn:Ty; [|easy..].
  rewrite (typed_found _ _ _ Ty). easy.
Qed.

Lemma iter_loose_spec : forall l c acc c' acc',
  (forall id o, In (id, o) l -> content r id = Some o) -> cok c ->
  iter_loose pol l c t acc = (c', acc') -> cok c' /\ acc' = acc ++ filter listed l.
Proof.
  induction l as [|[id o] l IH]; intros c acc c' acc' L C H; cbn in H.
  - inversion H; subst. now rewrite app_nil_r.
  - pose proof (L _ _ (or_introl eq_refl)) as Co.
    assert (ST : exists c1, match cache_get c id with
                            | Some o' => (c, o')
                            | None => (cache_put pol c id o, o)
                            end = (c1, o) /\ cok c1).
    { destruct (cache_get c id) as [o'|] eqn:G.
      - rewrite (cache_ok_get _ _ _ _ C G) in Co. inversion Co; subst. eauto.
      - eexists. split; [reflexivity|]. now apply cache_ok_put. }
    destruct ST as [c1 [E C1]]. rewrite E in H.
    destruct (IH _ _ _ _ (fun i x I => L i x (or_intror I)) C1 H) as [C' ->]. split; [assumption|].
    cbn [filter]. unfold listed at 2. cbn [snd].
    destruct (typed t o); [now rewrite <- app_assoc | reflexivity..].
Qed.

(* the pack phase: [done] are the ids met so far, [seen] those the code remembers, [acc] the listing *)
Record pinv (done seen : list bytes) (acc : list (bytes * obj)) : Prop := {
  pi_sound : sound_list acc;
  pi_sub : forall id, In id (map fst acc) -> In id seen;
  pi_seen : forall id, In id seen -> In id done;
  pi_nodup : NoDup (map fst (s_loose (r_main r))) -> NoDup (map fst acc);
  pi_done : forall id, In id done -> wanted id -> In id (map fst acc)
}.

Lemma main_loose : forall id o, In (id, o) (s_loose (r_main r)) -> content r id = Some o.
Proof. intros id o. apply (loose_entry_content r OK). now left. Qed.

Lemma pinv_loose :
  pinv (map fst (s_loose (r_main r))) (map fst (s_loose (r_main r))) (filter listed (s_loose (r_main r))).
Proof.
  constructor.
  - intros id o I. apply filter_In in I. destruct I as [I F].
    split; [now apply main_loose | now apply (listed_found id)].
  - intros id I. apply in_map_iff in I. destruct I as [x [<- I]]. apply filter_In in I. now apply in_map.
  - auto.
  - apply NoDup_map_filter.
  - intros id I W. apply in_map_iff in I. destruct I as [[i o] [E I]]. cbn in E. subst i.
    apply (in_map fst _ (id, o)), filter_In. split; [assumption|].
    apply listed_found. exact (wanted_content _ _ (main_loose _ _ I) W).
Qed.

(* an entry that adds nothing to the listing *)
Lemma pinv_pass : forall done seen acc id, pinv done seen acc -> (wanted id -> In id seen) ->
  pinv (done ++ [id]) seen acc.
Proof.
  intros done seen acc id [P0 P1 P2 P3 P4] W. constructor; auto.
  - intros i I. apply in_or_app. auto.
  - intros i I Wi. apply in_app_or in I. destruct I as [I|[<-|[]]]; auto.
Qed.

Lemma pinv_snoc : forall done seen acc id o, pinv done seen acc -> ~ In id seen ->
  content r id = Some o -> typed t o = RFound o -> pinv (done ++ [id]) (id :: seen) (acc ++ [(id, o)]).
Proof.
  intros done seen acc id o [P0 P1 P2 P3 P4] NS Co Ty.
  assert (M : forall i, In i (map fst (acc ++ [(id, o)])) <-> In i (map fst acc) \/ id = i).
  { intros i. rewrite map_app, in_app_iff. cbn. tauto. }
  constructor.
  - intros i x I. apply in_app_or in I. destruct I as [I|[I|[]]]; [now apply P0|]. inversion I; subst. auto.
  - intros i I. apply M in I. destruct I as [I|<-]; [right; auto | now left].
  - intros i [<-|I]; apply in_or_app; [right; now left | auto].
  - intros N. rewrite map_app. apply NoDup_app_intro_single; [exact (P3 N)|]. intros X. exact (NS (P1 _ X)).
  - intros i I W. apply M. apply in_app_or in I. destruct I as [I|[<-|[]]]; auto.
Qed.

Lemma iter_pack_spec : forall p es c done seen acc ok,
  In p (s_packs (r_main r)) -> incl es p -> cok c -> pinv done seen acc ->
  let '(c', seen', acc', ok') := iter_pack pol p es c t seen acc ok in
  cok c' /\ ok' = ok /\ pinv (done ++ map e_id es) seen' acc'.
Proof.
  intros p es. induction es as [|e es IH]; intros c done seen acc ok Ip I C P; cbn [iter_pack map].
  - rewrite app_nil_r. auto.
  - destruct (incl_cons_inv I) as [Ie I'].
    replace (done ++ e_id e :: map e_id es) with ((done ++ [e_id e]) ++ map e_id es) by now rewrite <- app_assoc.
    assert (Is : In (r_main r) (stores r)) by now left.
    destruct (entry_resolves r OK _ _ _ Is Ip Ie) as [o [R Co]].
    (* e adds nothing unless its object has the asked type and its id is new *)
    assert (PASS : (typed t o = RFound o -> In (e_id e) seen) -> pinv (done ++ [e_id e]) seen acc).
    { intros W. apply pinv_pass; [assumption|]. intros X. exact (W (wanted_content _ _ Co X)). }
    destruct (match e_kind e, t with KBase t' _, Some t0 => negb (otype_eqb t0 t') | _, _ => false end) eqn:SK.
    + (* skipped on its header: a base entry of another type *)
      apply IH; auto. apply PASS. intros Ty. exfalso.
      destruct (e_kind e) as [t' d| |] eqn:K; try discriminate. destruct t as [t0|]; try discriminate.
      cbn [presolve] in R. rewrite K in R. inversion R; subst.
      cbn in Ty. apply negb_true_iff in SK. rewrite SK in Ty. discriminate.
    + destruct (resolve_ok pol pol_ok (content r) _ p c e o (store_pack_ok r OK _ _ Is Ip) Ie C R) as [c1 [-> C1]].
      destruct (typed t o) as [x| |] eqn:Ty.
      * pose proof (typed_found _ _ _ Ty); subst x. destruct (mem_id (e_id e) seen) eqn:M; apply IH; auto.
        -- apply PASS. intros _. now apply mem_id_In.
        -- apply pinv_snoc; auto. intros X. apply mem_id_In in X. congruence.
      * apply IH; auto. now apply PASS.
      * apply IH; auto. now apply PASS.
Qed.

Lemma iter_packs_spec : forall ps c done seen acc ok,
  incl ps (s_packs (r_main r)) -> cok c -> pinv done seen acc ->
  let '(c', acc', ok') := iter_packs pol ps c t seen acc ok in
  cok c' /\ ok' = ok /\ exists seen', pinv (done ++ flat_map (map e_id) ps) seen' acc'.
Proof.
  induction ps as [|p ps IH]; intros c done seen acc ok I C P; cbn [iter_packs flat_map].
  - rewrite app_nil_r. eauto.
  - destruct (incl_cons_inv I) as [Ip I']. rewrite app_assoc.
    pose proof (iter_pack_spec p p c done seen acc ok Ip (incl_refl _) C P) as S.
    destruct (iter_pack pol p p c t seen acc ok) as [[[c1 seen1] acc1] ok1]. destruct S as (C1 & -> & P1).
    now apply IH.
Qed.

Lemma iter_objects_spec : forall st st' res, cok (rs_cache st) ->
  iter_objects pol r st t = (st', res) ->
  cok (rs_cache st') /\ exists l seen, res = Some l /\
  pinv (map fst (s_loose (r_main r)) ++ flat_map (map e_id) (s_packs (r_main r))) seen l.
Proof.
  intros st st' res C H. unfold iter_objects in H.
  destruct (iter_loose pol (s_loose (r_main r)) (rs_cache st) t []) as [c1 acc1] eqn:E1.
  destruct (iter_loose_spec _ _ _ _ _ main_loose C E1) as [C1 ->]. cbn [app] in H.
  pose proof (iter_packs_spec _ _ _ _ _ true (incl_refl _) C1 pinv_loose) as S.
  destruct (iter_packs pol (s_packs (r_main r)) c1 t (map fst (s_loose (r_main r))) _ true) as [[c2 acc2] ok].
  destruct S as (C2 & -> & seen' & P').
  inversion H; subst. eauto.
Qed.

Theorem iter_objects_ok : forall st st' res, cok (rs_cache st) ->
  iter_objects pol r st t = (st', res) ->
  cok (rs_cache st') /\ exists l, res = Some l /\ sound_list l.
Proof.
  intros st st' res C H. destruct (iter_objects_spec _ _ _ C H) as [C' (l & seen & E & [S _ _ _ _])]. eauto.
Qed.

End IterFull.

Section Reads.
Variable pol : cache -> cache.
Hypothesis pol_ok : forall c x, In x (pol c) -> In x c.
Variable r : repo.
Hypothesis OK : store_ok r = true.

Notation cok := (cache_ok (content r)).

Lemma entry_read : forall s p e c, In s (stores r) -> In p (s_packs s) -> In e p -> cok c ->
  exists c' o, get_by_offset pol p c (e_off e) = (c', Some o) /\ cok c' /\ content r (e_id e) = Some o.
Proof.
  intros s p e c Is Ip Ie C. destruct (entry_resolves r OK _ _ _ Is Ip Ie) as [o [R Co]].
  destruct (get_by_offset_ok pol pol_ok (content r) p c e o (store_pack_ok r OK _ _ Is Ip) Ie C R) as [c' [G C']].
  eauto.
Qed.

Theorem by_offset_ok : forall s p c off c' res, In s (stores r) -> In p (s_packs s) -> cok c ->
  get_by_offset pol p c off = (c', res) ->
  cok c' /\ res = match find_entry p off with Some e => content r (e_id e) | None => None end.
Proof.
  intros s p c off c' res Is Ip C H.
  destruct (find_entry p off) as [e|] eqn:F.
  - destruct (find_entry_In _ _ _ F) as [Ie <-].
    destruct (entry_read _ _ _ c Is Ip Ie C) as (c1 & o & G & C1 & Co).
    rewrite G in H. inversion H; subst. now rewrite Co.
  - unfold get_by_offset in H. rewrite F in H. inversion H; subst. auto.
Qed.

(* the answer of one ObjectStorage: [Some x] = found here, [None] = try the alternates *)
Definition spec_opt (t : option otype) (id : bytes) (res : option rres) (s : store) : Prop :=
  match res with
  | Some x => x = spec_get r t id
  | None => absent s id
  end.

Lemma spec_opt_found : forall t id o s, content r id = Some o -> spec_opt t id (Some (typed t o)) s.
Proof. intros t id o s Co. cbn. unfold spec_get. now rewrite Co. Qed.

Lemma get_local_ok : forall s c hint t id c' h' res, In s (stores r) -> cok c ->
  get_local pol s c hint t id = (c', h', res) -> cok c' /\ spec_opt t id res s.
Proof.
  intros s c hint t id c' h' res Is C H. unfold get_local in H.
  pose proof (local_cases r OK s hint id Is) as L.
  assert (HIT : forall o', cache_get c id = Some o' -> cok c /\ spec_opt t id (Some (typed t o')) s).
  { intros o' CG. split; [assumption|]. apply spec_opt_found. exact (cache_ok_get _ _ _ _ C CG). }
  destruct (find_in_packs s hint id) as [h [[p off]|]].
  - destruct L as (Ip & e & Ie & <- & <-).
    destruct (entry_read s p e c Is Ip Ie C) as (c1 & o & G & C1 & Co). rewrite G in H.
    destruct (cache_get c (e_id e)) as [o'|]; inversion H; subst; [now apply HIT|].
    split; [assumption | now apply spec_opt_found].
  - destruct (loose_get s id) as [o|]; [|inversion H; subst; auto].
    destruct (cache_get c id) as [o'|]; inversion H; subst; [now apply HIT|].
    split; [now apply cache_ok_put | now apply spec_opt_found].
Qed.

Lemma size_local_ok : forall s c hint id c' h' res, In s (stores r) -> cok c ->
  size_local pol s c hint id = (c', h', res) -> cok c' /\ spec_opt None id res s.
Proof.
  intros s c hint id c' h' res Is C H. pose proof (local_cases r OK s hint id Is) as L.
  destruct (find_in_packs s hint id) as [h [[p off]|]] eqn:F.
  - apply (get_local_ok s c hint None id c' h' res Is C). unfold get_local, size_local in *.
    rewrite F in *. exact H.
  - unfold size_local in H. rewrite F in H.
    destruct (loose_get s id) as [o|]; inversion H; subst; [|auto].
    split; [assumption | exact (spec_opt_found None _ _ _ L)].
Qed.

Lemma has_local_ok : forall s hint id h b, In s (stores r) ->
  has_local s hint id = (h, b) -> if b then spec_has r id = true else absent s id.
Proof.
  intros s hint id h b Is H. unfold has_local in H. unfold spec_has.
  pose proof (local_cases r OK s hint id Is) as L.
  destruct (find_in_packs s hint id) as [h0 [[p off]|]]; inversion H; subst.
  - destruct L as (Ip & e & Ie & <- & _).
    destruct (entry_resolves r OK _ _ _ Is Ip Ie) as [o [_ Co]]. now rewrite Co.
  - destruct (loose_get s id) as [o|]; [now rewrite L | assumption].
Qed.

(* findInAlternates: every store of the repository outside [alts] has been searched for id in vain *)
Definition searched (alts : list store) (id : bytes) : Prop :=
  forall s, In s (stores r) -> In s alts \/ absent s id.

Lemma searched_nil : forall id, searched [] id -> content r id = None.
Proof. intros id A. apply (absent_everywhere r OK). intros s Is. destruct (A s Is) as [[]|X]. exact X. Qed.

Lemma searched_tl : forall a alts id, searched (a :: alts) id -> absent a id -> searched alts id.
Proof. intros a alts id A Ha s Is. destruct (A s Is) as [[<-|I]|X]; auto. Qed.

Lemma searched_main : forall id, absent (r_main r) id -> searched (r_alts r) id.
Proof. intros id. apply searched_tl. intros s Is. now left. Qed.

Lemma get_alts_ok : forall alts c hints t id c' hs res, incl alts (r_alts r) ->
  spec_get r t id = RNotFound \/ searched alts id -> cok c ->
  get_alts pol alts c hints t id = (c', hs, res) -> res = spec_get r t id /\ cok c'.
Proof.
  induction alts as [|a alts IH]; intros c hints t id c' hs res I A C H; cbn in H.
  - inversion H; subst. split; [|assumption]. destruct A as [E|A]; [now rewrite E|].
    unfold spec_get. now rewrite (searched_nil _ A).
  - destruct (incl_cons_inv I) as [Ia I'].
    destruct (get_local pol a c (hd 0%nat hints) t id) as [[c1 h1] res1] eqn:G.
    destruct (get_local_ok _ _ _ _ _ _ _ _ (or_intror Ia) C G) as [C1 S1].
    destruct (get_alts pol alts c1 (tl hints) t id) as [[c2 hs2] res2] eqn:G2.
    (* a store that has no object id of type t hands over to the next *)
    pose proof (fun A1 => IH _ _ _ _ _ _ _ I' A1 C1 G2) as NEXT.
    destruct res1 as [[o| |]|]; inversion H; subst.
    + split; [exact S1 | assumption].
    + apply NEXT. left. exact (eq_sym S1).
    + split; [exact S1 | assumption].
    + apply NEXT. destruct A as [E|A]; [now left | right; exact (searched_tl _ _ _ A S1)].
Qed.

Theorem get_object_ok : forall st t id st' res, cok (rs_cache st) ->
  get_object pol r st t id = (st', res) -> res = spec_get r t id /\ cok (rs_cache st').
Proof.
  intros st t id st' res C H. unfold get_object in H.
  destruct (get_local pol (r_main r) (rs_cache st) (rs_hint st) t id) as [[c h] res1] eqn:G.
  destruct (get_local_ok _ _ _ _ _ _ _ _ (or_introl eq_refl) C G) as [C1 S1].
  destruct res1 as [x|].
  - inversion H; subst. split; [exact S1 | assumption].
  - destruct (get_alts pol (r_alts r) c (rs_ahints st) t id) as [[c2 hs] res2] eqn:A. inversion H; subst.
    exact (get_alts_ok _ _ _ _ _ _ _ _ (incl_refl _) (or_intror (searched_main _ S1)) C1 A).
Qed.

Lemma size_alts_ok : forall alts c hints id c' hs res, incl alts (r_alts r) -> searched alts id -> cok c ->
  size_alts pol alts c hints id = (c', hs, res) -> res = spec_get r None id /\ cok c'.
Proof.
  induction alts as [|a alts IH]; intros c hints id c' hs res I A C H; cbn in H.
  - inversion H; subst. split; [|assumption]. unfold spec_get. now rewrite (searched_nil _ A).
  - destruct (incl_cons_inv I) as [Ia I'].
    destruct (size_local pol a c (hd 0%nat hints) id) as [[c1 h1] res1] eqn:G.
    destruct (size_local_ok _ _ _ _ _ _ _ (or_intror Ia) C G) as [C1 S1].
    destruct res1 as [x|].
    + inversion H; subst. split; [exact S1 | assumption].
    + destruct (size_alts pol alts c1 (tl hints) id) as [[c2 hs2] res2] eqn:G2. inversion H; subst.
      exact (IH _ _ _ _ _ _ I' (searched_tl _ _ _ A S1) C1 G2).
Qed.

Theorem size_object_ok : forall st id st' res, cok (rs_cache st) ->
  size_object pol r st id = (st', res) -> res = spec_get r None id /\ cok (rs_cache st').
Proof.
  intros st id st' res C H. unfold size_object in H.
  destruct (size_local pol (r_main r) (rs_cache st) (rs_hint st) id) as [[c h] res1] eqn:G.
  destruct (size_local_ok _ _ _ _ _ _ _ (or_introl eq_refl) C G) as [C1 S1].
  destruct res1 as [x|].
  - inversion H; subst. split; [exact S1 | assumption].
  - destruct (size_alts pol (r_alts r) c (rs_ahints st) id) as [[c2 hs] res2] eqn:A. inversion H; subst.
    exact (size_alts_ok _ _ _ _ _ _ _ (incl_refl _) (searched_main _ S1) C1 A).
Qed.

Lemma has_alts_ok : forall alts hints id hs b, incl alts (r_alts r) -> searched alts id ->
  has_alts alts hints id = (hs, b) -> b = spec_has r id.
Proof.
  induction alts as [|a alts IH]; intros hints id hs b I A H; cbn in H.
  - inversion H; subst. unfold spec_has. now rewrite (searched_nil _ A).
  - destruct (incl_cons_inv I) as [Ia I'].
    destruct (has_local a (hd 0%nat hints) id) as [h1 b1] eqn:G.
    pose proof (has_local_ok _ _ _ _ _ (or_intror Ia) G) as S1.
    destruct b1.
    + inversion H; subst. now symmetry.
    + destruct (has_alts alts (tl hints) id) as [hs2 b2] eqn:G2. inversion H; subst.
      exact (IH _ _ _ _ I' (searched_tl _ _ _ A S1) G2).
Qed.

Theorem has_object_ok : forall st id st' b,
  has_object r st id = (st', b) -> b = spec_has r id /\ rs_cache st' = rs_cache st.
Proof.
  intros st id st' b H. unfold has_object in H.
  destruct (has_local (r_main r) (rs_hint st) id) as [h b1] eqn:G.
  pose proof (has_local_ok _ _ _ _ _ (or_introl eq_refl) G) as S1.
  destruct b1.
  - inversion H; subst. auto.
  - destruct (has_alts (r_alts r) (rs_ahints st) id) as [hs b2] eqn:A. inversion H; subst.
    split; [|reflexivity]. exact (has_alts_ok _ _ _ _ _ (incl_refl _) (searched_main _ S1) A).
Qed.

Definition spec_read (rd : read) : option out :=
  match rd with
  | RdGet t id => Some (render_rres (spec_get r t id))
  | RdSize id =>
    Some (match spec_get r None id with
          | RFound o => OOk [ONat (List.length (o_data o))]
          | x => render_rres x
          end)
  | RdHas id => Some (OBool (spec_has r id))
  | RdPrefix pre =>
    Some (let ids := prefix_ids r pre in OOk [ONat (List.length ids); ON (sum64 (map (fnv fnv_init) ids))])
  | RdOff pk off =>
    Some (match nth_error (s_packs (r_main r)) pk with
          | None => OErr "other"%string
          | Some p =>
            match find_entry p off with
            | Some e => match content r (e_id e) with Some o => render_obj o | None => OErr "other"%string end
            | None => OErr "other"%string
            end
          end)
  | RdIter _ => None          (* see iter_objects_ok *)
  end.

Lemma do_read_ok : forall st rd st' o, cok (rs_cache st) -> do_read pol r st rd = (st', o) ->
  cok (rs_cache st') /\ (forall x, spec_read rd = Some x -> o = x).
Proof.
  intros st rd st' o C H. destruct rd; cbn [do_read spec_read] in *.
  - destruct (get_object pol r st t id) as [st1 res] eqn:G. inversion H; subst.
    destruct (get_object_ok _ _ _ _ _ C G) as [-> C1]. split; [assumption | congruence].
  - destruct (size_object pol r st id) as [st1 res] eqn:G. inversion H; subst.
    destruct (size_object_ok _ _ _ _ C G) as [-> C1]. split; [assumption|].
    destruct (spec_get r None id); congruence.
  - destruct (has_object r st id) as [st1 b] eqn:G. inversion H; subst.
    destruct (has_object_ok _ _ _ _ G) as [-> E1]. split; [now rewrite E1 | congruence].
  - destruct (iter_objects pol r st t) as [st1 res] eqn:G. inversion H; subst.
    destruct (iter_objects_ok pol pol_ok r OK t _ _ _ C G) as [C1 _]. split; [assumption | congruence].
  - inversion H; subst. split; [assumption | congruence].
  - destruct (nth_error (s_packs (r_main r)) pk) as [p|] eqn:N; [|inversion H; subst; split; [assumption | congruence]].
    destruct (get_by_offset pol p (rs_cache st) off) as [c res] eqn:G. inversion H; subst.
    destruct (by_offset_ok (r_main r) p _ _ _ _ (or_introl eq_refl) (nth_error_In _ _ N) C G) as [C1 ->].
    split; [assumption|]. destruct (find_entry p off) as [e|]; [destruct (content r (e_id e))|]; congruence.
Qed.

End Reads.

Lemma Forall2_spec_eq : forall (S : read -> option out) rds a b,
  Forall2 (fun rd o => forall x, S rd = Some x -> o = x) rds a ->
  Forall2 (fun rd o => forall x, S rd = Some x -> o = x) rds b ->
  Forall (fun rd => S rd <> None) rds -> a = b.
Proof.
  intros S rds. induction rds as [|rd rds IH]; intros a b Ha Hb F.
  - inversion Ha; inversion Hb; reflexivity.
  - inversion Ha as [|? o1 ? a' Sa Ha']; inversion Hb as [|? o2 ? b' Sb Hb']; inversion F; subst.
    destruct (S rd) as [x|]; [|congruence]. now rewrite (Sa x eq_refl), (Sb x eq_refl), (IH a' b').
Qed.
