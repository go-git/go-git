(* Proofs/C43Limit.v — Log's limit iterator pulls lazily from the walker and
   stops it at the tail commit; that equals filtering the complete walk.
   Then the walkers taken together, by order number: the complete walk is a
   permutation of the ancestors, and so is Log(All) from a single tip. *)
From Coq Require Import List Arith ZArith Bool Lia Permutation.
From GoGit Require Import Base.Out Spec.Dag Model.CommitWalk Model.LogWalk Proofs.Worklist Proofs.C43 Proofs.C43Heap.
Import ListNotations.

(* whatever the order, the walk from a present commit is the generic loop over some container *)
Lemma walk_is_gloop : forall g order (from : node), dag_closed g = true -> from < nnodes g ->
  exists B pop push (b : B), forall stop fuel,
    walk_by_order order g stop fuel from [] = gloop B pop push stop fuel b [] [].
Proof.
  intros g order from Hc Hf.
  assert (H1 : Forall (fun x => x < nnodes g) [from]) by (repeat constructor; exact Hf).
  destruct order as [|[|[|[|[|k]]]]]; do 4 eexists; intros stop fuel; unfold walk_by_order.
  - now apply pre_loop_eq.
  - now apply pre_loop_eq.
  - now apply post_loop_eq.
  - now apply bfs_loop_eq.
  - unfold ctime_walk. change (heap_push g from []) with [from]. now apply ctime_loop_eq.
  - now apply postfp_loop_eq.
Qed.

Lemma walk_prefix : forall g order stop (from : node), dag_closed g = true -> from < nnodes g ->
  fst (walk_by_order order g stop (walk_fuel g) from [])
  = cut_at stop (fst (walk_by_order order g nostop (walk_fuel g) from [])).
Proof.
  intros g order stop from Hc Hf.
  destruct (walk_is_gloop g order from Hc Hf) as (B & pop & push & b & E). rewrite !E.
  destruct (gloop_stop_prefix B pop push stop (walk_fuel g) b [] []) as [suf [-> ->]]. reflexivity.
Qed.

Lemma limit_cut : forall g since until tail l,
  limit_list g since until tail
    (cut_at (fun c => passes g since until c && match tail with Some t => t =? c | None => false end) l)
  = limit_list g since until tail l.
Proof.
  intros g since until tail. induction l as [|c r IH]; [reflexivity|].
  cbn [cut_at]. unfold passes at 1.
  destruct (match since with Some s => (ctime g c <? s)%Z | None => false end) eqn:E1.
  - simpl. rewrite E1. exact IH.
  - destruct (match until with Some u => (u <? ctime g c)%Z | None => false end) eqn:E2.
    + simpl. rewrite E1, E2. exact IH.
    + destruct (match tail with Some t => t =? c | None => false end) eqn:E3.
      * simpl. rewrite E1, E2, E3. reflexivity.
      * simpl. rewrite E1, E2, E3. now rewrite IH.
Qed.

Theorem log_limit : forall g order (from : node) since until tail,
  dag_closed g = true -> from < nnodes g ->
  fst (log_from g order from since until tail)
  = limit_list g since until tail (fst (walk_by_order order g nostop (walk_fuel g) from [])).
Proof.
  intros g order from since until tail Hc Hf. unfold log_from.
  set (stop := fun c => passes g since until c && match tail with Some t => t =? c | None => false end).
  pose proof (walk_prefix g order stop from Hc Hf) as P.
  destruct (walk_by_order order g stop (walk_fuel g) from []) as [l e]. simpl in *.
  rewrite P. apply limit_cut.
Qed.

Lemma in_ancs_reach : forall g s x, dag_ok g = true -> dag_closed g = true -> s < nnodes g ->
  (In x (ancs g s) <-> reach g s x).
Proof. intros. now apply ancs_spec. Qed.

Lemma walk_by_order_post : forall g stop (I : list node) (s : node) order, order <= 4 ->
  dag_closed g = true -> s < nnodes g ->
  Post (parents g) stop I s (walk_by_order order g stop (walk_fuel g) s I).
Proof.
  intros g stop I s order Ho Hc Hs. destruct order as [|[|[|[|[|k]]]]]; unfold walk_by_order.
  - now apply pre_walk_post.
  - now apply pre_walk_post.
  - now apply post_walk_post.
  - now apply bfs_walk_post.
  - now apply ctime_walk_post.
  - lia.
Qed.

Lemma walk_perm : forall g s order, order <= 4 ->
  dag_ok g = true -> dag_closed g = true -> s < nnodes g ->
  exists l, walk_by_order order g nostop (walk_fuel g) s [] = (l, WEof) /\
            Permutation l (ancs g s) /\ discovered (parents g) s l.
Proof.
  intros g s order Ho Hok Hc Hs.
  destruct (post_nostop _ _ _ _ (walk_by_order_post g nostop [] s order Ho Hc Hs)) as (l & E & N & H & D).
  exists l. split; [exact E|]. split; [|exact D].
  apply NoDup_Permutation; [exact N | apply ancs_NoDup|].
  intros x. now rewrite H, ra_reach, ancs_spec.
Qed.

Lemma all_single : forall g order t, order <= 4 ->
  dag_ok g = true -> dag_closed g = true -> t < nnodes g ->
  exists l, all_walk order g [] [t] = Some l /\ Permutation l (ancs g t).
Proof.
  intros g order t Ho Hok Hc Ht.
  destruct (walk_perm g t order Ho Hok Hc Ht) as [l [E [P _]]].
  exists l. split; [|exact P].
  unfold all_walk, add_reference. simpl. rewrite E.
  assert (T : take_until_known [] l = (l, None)).
  { clear. induction l as [|c r IH]; [reflexivity|]. simpl. now rewrite IH. }
  rewrite T. reflexivity.
Qed.
