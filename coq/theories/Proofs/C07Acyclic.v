(* Proofs/C07Acyclic.v — on an acyclic base-pointer graph the encoder never
   un-deltifies: every entry keeps the base the selector chose. *)
From Coq Require Import List NArith Arith Lia Bool.
From GoGit Require Import Model.PackEnc Proofs.C07.
Import ListNotations.

Section Acyclic.
Variable base0 : nat -> option nat.
Variable esize : nat -> N.
Variable rank : nat -> nat.
Hypothesis acyclic : forall k b, base0 k = Some b -> rank b < rank k.

Definition kept (s : state) : Prop :=
  (forall k, base_of s k = base0 k) /\
  (forall e, In e (emitted s) -> e_base e = base0 (e_node e)).

Lemma is_want_mark s o w : is_want (mark_want s o) w = if Nat.eqb w o then true else is_want s w.
Proof. unfold is_want. cbn. unfold upd. destruct (Nat.eqb w o); reflexivity. Qed.

Lemma is_want_write s o w : is_want (write_entry esize s o) w = if Nat.eqb w o then false else is_want s w.
Proof. unfold is_want. cbn. unfold upd. destruct (Nat.eqb w o); reflexivity. Qed.

(* the wanted nodes are the callers up the recursion: all of higher rank, so no cycle comes back to o *)
Lemma entry_acyclic : forall fuel s o s',
  kept s -> (forall w, is_want s w = true -> rank o < rank w) ->
  entry fuel esize s o = Some s' ->
  kept s' /\ (forall w, is_want s' w = is_want s w).
Proof.
  induction fuel as [|f IH]; intros s o s' K Hw H; [discriminate|].
  assert (Hno : is_want s o = false).
  { destruct (is_want s o) eqn:E; [|reflexivity]. specialize (Hw o E). lia. }
  cbn [entry] in H. rewrite Hno in H.
  destruct (is_written s o); [injection H as <-; auto|].
  set (s2 := mark_want s o) in *.
  assert (R : exists s3,
    (match base_of s2 o with
     | Some b => if is_written s2 b then Some s2 else entry f esize s2 b
     | None => Some s2 end) = Some s3 /\ kept s3 /\ (forall w, is_want s3 w = is_want s2 w)).
  { destruct (base_of s2 o) as [b|] eqn:Eb; [destruct (is_written s2 b)|]; [exists s2; auto| |exists s2; auto].
    destruct (entry f esize s2 b) as [s3|] eqn:He; [|discriminate]. exists s3. split; [reflexivity|].
    apply (IH s2 b s3 K); [|exact He]. intros w. unfold s2. rewrite is_want_mark.
    assert (Hlt : rank b < rank o) by (apply acyclic; rewrite <- (proj1 K o); exact Eb).
    destruct (Nat.eqb_spec w o) as [->|_]; [trivial|intros Hw'; specialize (Hw w Hw'); lia]. }
  destruct R as (s3 & HR & [K31 K32] & W3). rewrite HR in H. unfold s2 in W3.
  assert (Ho3 : is_want s3 o = true) by (rewrite W3, is_want_mark, Nat.eqb_refl; reflexivity).
  assert (Hnw : is_written s3 o = false).
  { unfold is_want in Ho3. unfold is_written. destruct (st_of s3 o); try discriminate; reflexivity. }
  rewrite Hnw in H. injection H as <-. split.
  - split; [exact K31|]. intros e [<-|He]; [apply K31|apply K32; exact He].
  - intros w. rewrite is_want_write, W3, is_want_mark.
    destruct (Nat.eqb_spec w o) as [->|_]; [symmetry; exact Hno|reflexivity].
Qed.

Lemma encode_loop_acyclic fuel : forall objs s s',
  kept s -> (forall w, is_want s w = false) -> encode_loop fuel esize s objs = Some s' ->
  kept s' /\ (forall w, is_want s' w = false).
Proof.
  induction objs as [|o rest IH]; intros s s' K Hw H; cbn [encode_loop] in H.
  - inversion H; subst. auto.
  - destruct (entry fuel esize s o) as [s1|] eqn:He; [|discriminate].
    destruct (entry_acyclic fuel s o s1 K) as (K1 & W1); [|exact He|].
    + intros w E. rewrite Hw in E. discriminate.
    + apply (IH s1 s' K1); [|exact H]. intros w. rewrite W1. apply Hw.
Qed.

Lemma encode_acyclic n es :
  encode n base0 esize = Some es -> forall k b off, In (k, b, off) es -> b = base0 k.
Proof.
  unfold encode. destruct (encode_loop (n + 2) esize (init_state base0) (seq 0 n)) as [s|] eqn:H; [|discriminate].
  intros [= <-] k b off Hin.
  assert (K0 : kept (init_state base0)) by (split; [intros; reflexivity|intros e []]).
  destruct (encode_loop_acyclic _ _ _ _ K0 (fun _ => eq_refl) H) as ((_ & K) & _).
  apply in_rev in Hin. apply (K (k, b, off) Hin).
Qed.

End Acyclic.
