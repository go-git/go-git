(* Proofs/C31Writers.v — the two EOL writers: what one Write call emits and
   returns, and when the emitted stream depends on the concatenation only. *)
From Coq Require Import List NArith Arith Lia Bool.
From GoGit Require Import Base.Out Model.Eol Spec.GitConvert Proofs.C31Stat.
Import ListNotations.
Local Open Scope N_scope.

Lemma list_ind2 (A : Type) (P : list A -> Prop) :
  P [] -> (forall a, P [a]) -> (forall a b l, P l -> P (b :: l) -> P (a :: b :: l)) ->
  forall l, P l.
Proof.
  intros H0 H1 H2 l. enough (P l /\ forall a, P (a :: l)) by tauto.
  induction l as [|b l [IH1 IH2]]; split; auto.
Qed.

Lemma strip_cr_cons a l : strip_cr (a :: l) = if a =? CR then strip_cr l else a :: strip_cr l.
Proof. unfold strip_cr. cbn [filter]. destruct (a =? CR); reflexivity. Qed.

Lemma strip_cr_app a b : strip_cr (a ++ b) = strip_cr a ++ strip_cr b.
Proof. apply filter_app. Qed.

(* lfToCRLFWriter's flag after a Write of d that started with flag h; with
   h = false: "d ends with CR" *)
Definition next_h (h : bool) (d : bytes) : bool :=
  match d with [] => h | _ => last d 0 =? CR end.

Lemma next_h_cons h x a : next_h h (x :: a) = next_h (x =? CR) a.
Proof. destruct a; reflexivity. Qed.

Lemma next_h_app h a b : next_h h (a ++ b) = next_h (next_h h a) b.
Proof.
  revert h. induction a as [|x a IH]; intros h; [reflexivity|].
  cbn [app]. rewrite !next_h_cons. apply IH.
Qed.

Lemma last_cr d : (last d 0 =? CR) = next_h false d.
Proof. destruct d; reflexivity. Qed.

(* crlfToLFWriter: every CR LF pair becomes LF (leftmost first; pairs cannot overlap) *)
Fixpoint crlf2lf (w : bytes) : bytes :=
  match w with
  | [] => []
  | c :: r =>
    match r with
    | [] => [c]
    | c2 :: r2 => if (c =? CR) && (c2 =? LF) then LF :: crlf2lf r2 else c :: crlf2lf r
    end
  end.

(* what one Write emits: the pairs folded, and a chunk-final CR swallowed *)
Definition lf_chunk (d : bytes) : bytes :=
  if last d 0 =? CR then removelast (crlf2lf d) else crlf2lf d.

Lemma cut_crlf_cons2 a b l :
  cut_crlf (a :: b :: l) =
  if (a =? CR) && (b =? LF) then Some ([], l)
  else match cut_crlf (b :: l) with Some (p, q) => Some (a :: p, q) | None => None end.
Proof. reflexivity. Qed.

Lemma crlf2lf_cons2 a b l :
  crlf2lf (a :: b :: l) = if (a =? CR) && (b =? LF) then LF :: crlf2lf l else a :: crlf2lf (b :: l).
Proof. reflexivity. Qed.

(* bytes.Index finds the leftmost pair, the one crlf2lf folds first *)
Lemma cut_crlf_spec w :
  match cut_crlf w with
  | Some (p, q) => w = p ++ CR :: LF :: q /\ crlf2lf w = p ++ LF :: crlf2lf q
  | None => crlf2lf w = w
  end.
Proof.
  induction w as [| a | a b l _ IH] using list_ind2; try reflexivity.
  rewrite cut_crlf_cons2, crlf2lf_cons2. destruct ((a =? CR) && (b =? LF)) eqn:E.
  - apply andb_true_iff in E as [->%N.eqb_eq ->%N.eqb_eq]. split; reflexivity.
  - destruct (cut_crlf (b :: l)) as [[p q]|].
    + destruct IH as [Hw Hc]. split; cbn [app]; f_equal; assumption.
    + f_equal. exact IH.
Qed.

(* the loop: emitted ++ rest is the folded window, the count is right, and
   the window is not used up if it ends with CR *)
Lemma lf_loop_spec : forall fuel w n,
  (List.length w < fuel)%nat ->
  exists o n' rest,
    lf_loop fuel w n = Some (o, n', rest) /\
    o ++ rest = crlf2lf w /\ (n' + List.length rest = n + List.length w)%nat /\
    (rest = [] -> next_h false w = false).
Proof.
  induction fuel as [|f IH]; intros w n Hf; [lia|].
  cbn [lf_loop]. pose proof (cut_crlf_spec w) as C. destruct (cut_crlf w) as [[p q]|].
  - destruct C as [-> ->]. rewrite app_length in *. cbn [List.length] in *.
    destruct (IH q (n + List.length p + 2)%nat) as (o & n' & rest & -> & <- & Hn & Hlast); [lia|].
    exists (p ++ LF :: o), n', rest. repeat split.
    + now rewrite <- app_assoc.
    + lia.
    + rewrite next_h_app, !next_h_cons. exact Hlast.
  - exists [], n, w. repeat split; [now symmetry|now intros ->].
Qed.

Lemma lf_write_spec d : lf_write d = Some (lf_chunk d, List.length d).
Proof.
  destruct d as [|a d']; [reflexivity|].
  unfold lf_write, lf_chunk. cbv iota. set (d := a :: d').
  destruct (lf_loop_spec (S (List.length d)) d O (Nat.lt_succ_diag_r _))
    as (o & n' & rest & -> & <- & Hn & Hlast).
  destruct (last d 0 =? CR) eqn:ELast; [|do 2 f_equal; lia].
  assert (Hr : rest <> []).
  { intros E. rewrite last_cr, (Hlast E) in ELast. discriminate. }
  rewrite removelast_app by assumption.
  destruct (exists_last Hr) as (r0 & x & ->). rewrite removelast_last.
  rewrite app_length in Hn. cbn [List.length] in Hn. do 2 f_equal. lia.
Qed.

Lemma lf_writer_spec chunks :
  lf_writer chunks = Some (List.concat (map lf_chunk chunks), map (@List.length N) chunks).
Proof.
  induction chunks as [|d r IH]; [reflexivity|].
  cbn [lf_writer map List.concat]. rewrite lf_write_spec, IH. reflexivity.
Qed.

(* every CR is immediately followed by LF *)
Fixpoint lcf (bs : bytes) : bool :=
  match bs with
  | [] => true
  | c :: r => if c =? CR then match r with c2 :: _ => (c2 =? LF) && lcf r | [] => false end else lcf r
  end.

Lemma lcf_cons2 a b l : lcf (a :: b :: l) = if a =? CR then (b =? LF) && lcf (b :: l) else lcf (b :: l).
Proof. reflexivity. Qed.

(* a chunk of such a stream has no lone CR either, except possibly a last
   byte CR whose LF opens the next chunk: folding pairs is dropping CRs *)
Lemma lcf_chunk x : forall y,
  lcf (x ++ y) = true ->
  crlf2lf x = strip_cr x ++ (if next_h false x then [CR] else []) /\ lcf y = true.
Proof.
  induction x as [| a | a b l IH1 IH2] using list_ind2; intros y H.
  - now split.
  - rewrite strip_cr_cons. cbn [app lcf] in H. cbn [crlf2lf next_h last].
    destruct (N.eqb_spec a CR) as [->|_]; [|now split].
    destruct y; [discriminate|]. apply andb_true_iff in H as [_ H]. now split.
  - cbn [app] in H. rewrite lcf_cons2 in H. rewrite crlf2lf_cons2, strip_cr_cons, next_h_cons.
    destruct (a =? CR); cbn [andb]; [|destruct (IH2 y H) as [-> Hy]; now split].
    apply andb_true_iff in H as [->%N.eqb_eq H]. cbn [lcf] in H. change (LF =? CR) with false in H.
    destruct (IH1 y H) as [-> Hy]. rewrite next_h_cons, strip_cr_cons.
    change (LF =? LF) with true. change (LF =? CR) with false. now split.
Qed.

Lemma lf_chunk_text d y : lcf (d ++ y) = true -> lf_chunk d = strip_cr d /\ lcf y = true.
Proof.
  intros [E Hy]%lcf_chunk. split; [|exact Hy]. unfold lf_chunk. rewrite E, last_cr.
  destruct (next_h false d); [apply removelast_last|apply app_nil_r].
Qed.

(* chunking independence of the LF writer: no lone CR in the stream *)
Lemma lf_writer_chunk_free chunks :
  lcf (List.concat chunks) = true ->
  lf_writer chunks = Some (strip_cr (List.concat chunks), map (@List.length N) chunks).
Proof.
  intros H. rewrite lf_writer_spec. f_equal. f_equal.
  induction chunks as [|d r IH]; [reflexivity|].
  cbn [List.concat map] in *. apply lf_chunk_text in H as [-> H]. now rewrite strip_cr_app, IH.
Qed.

(* lfToCRLFWriter: what one Write emits, byte by byte: an LF at the start of a
   window (the chunk start, or right after another LF) consults the flag h left
   by the previous Write; elsewhere the byte before it *)
Fixpoint crlf_chunk_aux (h ws pc : bool) (d : bytes) : bytes :=
  match d with
  | [] => []
  | c :: r =>
    if c =? LF then (if (if ws then h else pc) then [LF] else [CR; LF]) ++ crlf_chunk_aux h true false r
    else c :: crlf_chunk_aux h false (c =? CR) r
  end.
Definition crlf_chunk (h : bool) (d : bytes) : bytes := crlf_chunk_aux h true false d.

(* bytes.IndexByte finds the first LF; up to it the bytes pass unchanged *)
Lemma cut_lf_spec h w : forall ws pc,
  match cut_lf w with
  | Some (p, q) =>
    w = p ++ LF :: q /\
    crlf_chunk_aux h ws pc w =
    p ++ (if next_h (if ws then h else pc) p then [LF] else [CR; LF]) ++ crlf_chunk_aux h true false q
  | None => crlf_chunk_aux h ws pc w = w
  end.
Proof.
  induction w as [|a w IH]; intros ws pc; [reflexivity|].
  cbn [cut_lf crlf_chunk_aux]. destruct (N.eqb_spec a LF) as [->|_]; [split; reflexivity|].
  specialize (IH false (a =? CR)). destruct (cut_lf w) as [[p q]|].
  - destruct IH as [Hw Hc]. rewrite next_h_cons. split; cbn [app]; f_equal; assumption.
  - f_equal. exact IH.
Qed.

Lemma crlf_loop_spec h : forall fuel w n,
  (List.length w < fuel)%nat ->
  exists o n' rest,
    crlf_loop fuel h w n = Some (o, n', rest) /\
    o ++ rest = crlf_chunk h w /\ (n' + List.length rest = n + List.length w)%nat.
Proof.
  unfold crlf_chunk. induction fuel as [|f IH]; intros w n Hf; [lia|].
  cbn [crlf_loop]. pose proof (cut_lf_spec h w true false) as C. destruct (cut_lf w) as [[p q]|].
  - destruct C as [-> ->]. rewrite app_length in *. cbn [List.length] in *.
    destruct (IH q (n + List.length p + 1)%nat) as (o & n' & rest & -> & <- & Hn); [lia|].
    eexists _, n', rest. repeat split; [now rewrite <- !app_assoc|lia].
  - exists [], n, w. repeat split. now symmetry.
Qed.

Lemma crlf_write_spec h d :
  crlf_write h d = Some (crlf_chunk h d, List.length d, next_h h d).
Proof.
  destruct d as [|a d']; [reflexivity|].
  unfold crlf_write, next_h. cbv iota. set (d := a :: d').
  destruct (crlf_loop_spec h (S (List.length d)) d O (Nat.lt_succ_diag_r _)) as (o & n' & rest & -> & -> & Hn).
  do 3 f_equal. lia.
Qed.

Fixpoint crlf_stream (h : bool) (chunks : list bytes) : bytes :=
  match chunks with
  | [] => []
  | d :: r => crlf_chunk h d ++ crlf_stream (next_h h d) r
  end.

Lemma crlf_writer_spec chunks : forall h,
  crlf_writer h chunks = Some (crlf_stream h chunks, map (@List.length N) chunks).
Proof.
  induction chunks as [|d r IH]; intros h; [reflexivity|].
  cbn [crlf_writer crlf_stream map]. rewrite crlf_write_spec, IH. reflexivity.
Qed.

(* git's loop over a concatenation *)
Lemma git_lf_to_crlf_app a b p :
  git_lf_to_crlf p (a ++ b) = git_lf_to_crlf p a ++ git_lf_to_crlf (next_h p a) b.
Proof.
  revert p. induction a as [|x a IH]; intros p; [reflexivity|].
  cbn [app git_lf_to_crlf]. rewrite next_h_cons.
  destruct (N.eqb_spec x LF) as [->|_]; rewrite IH; [apply app_assoc|reflexivity].
Qed.

(* with the flag false the writer is git's loop *)
Lemma crlf_aux_false ws pc d :
  crlf_chunk_aux false ws pc d = git_lf_to_crlf (if ws then false else pc) d.
Proof.
  revert ws pc. induction d as [|c r IH]; intros ws pc; [reflexivity|].
  cbn [crlf_chunk_aux git_lf_to_crlf]. now rewrite !IH.
Qed.

Definition no_final_cr (d : bytes) : bool := negb (last d 0 =? CR).

Lemma next_h_false d : no_final_cr d = true -> next_h false d = false.
Proof. unfold no_final_cr. rewrite last_cr. apply negb_true_iff. Qed.

(* chunking independence when no chunk ends with CR: git's loop on the concatenation *)
Lemma crlf_writer_no_final_cr chunks :
  forallb no_final_cr chunks = true ->
  crlf_writer false chunks = Some (git_lf_to_crlf false (List.concat chunks), map (@List.length N) chunks).
Proof.
  intros H. rewrite crlf_writer_spec. f_equal. f_equal.
  induction chunks as [|d r IH]; [reflexivity|].
  cbn [forallb] in H. apply andb_true_iff in H as [Hd Hr].
  cbn [crlf_stream List.concat]. rewrite git_lf_to_crlf_app, !next_h_false by assumption.
  rewrite IH by assumption. f_equal. apply crlf_aux_false.
Qed.

Definition has_cr (bs : bytes) : bool := existsb (fun c => c =? CR) bs.

Lemma has_cr_app a b : has_cr (a ++ b) = has_cr a || has_cr b.
Proof. apply existsb_app. Qed.

Lemma no_cr_no_final d : has_cr d = false -> no_final_cr d = true.
Proof.
  unfold no_final_cr. rewrite last_cr. induction d as [|a d IH]; [reflexivity|].
  cbn [has_cr existsb]. intros [Ha H]%orb_false_iff. rewrite next_h_cons, Ha. exact (IH H).
Qed.

Lemma crlf_writer_nocr chunks :
  has_cr (List.concat chunks) = false ->
  crlf_writer false chunks = Some (git_lf_to_crlf false (List.concat chunks), map (@List.length N) chunks).
Proof.
  intros H. apply crlf_writer_no_final_cr.
  induction chunks as [|d r IH]; [reflexivity|].
  cbn [List.concat] in H. rewrite has_cr_app in H. apply orb_false_iff in H as [Hd Hr].
  cbn [forallb]. rewrite no_cr_no_final, IH by assumption. reflexivity.
Qed.

(* every LF is preceded by CR (p: the byte before the list is CR) *)
Fixpoint alf (p : bool) (bs : bytes) : bool :=
  match bs with
  | [] => true
  | c :: r => if c =? LF then p && alf false r else alf (c =? CR) r
  end.

Lemma alf_app a b p : alf p (a ++ b) = alf p a && alf (next_h p a) b.
Proof.
  revert p. induction a as [|x a IH]; intros p; [reflexivity|].
  cbn [app alf]. rewrite next_h_cons.
  destruct (N.eqb_spec x LF) as [->|_]; rewrite IH; [apply andb_assoc|reflexivity].
Qed.

(* content whose LFs all follow a CR passes through unchanged, for any chunking:
   the stale flag is only consulted right after an LF, where no LF may follow *)
Lemma crlf_aux_alf h d : forall ws pc e : bool,
  alf e d = true -> (e = true -> (if ws then h else pc) = true) ->
  crlf_chunk_aux h ws pc d = d.
Proof.
  induction d as [|c r IH]; intros ws pc e Ha He; [reflexivity|].
  cbn [alf] in Ha. cbn [crlf_chunk_aux]. destruct (N.eqb_spec c LF) as [->|_].
  - apply andb_true_iff in Ha as [Hp Ha]. rewrite (He Hp). cbn [app]. f_equal.
    now apply (IH true false false Ha).
  - f_equal. now apply (IH false (c =? CR) (c =? CR) Ha).
Qed.

Lemma crlf_stream_alf chunks : forall h,
  alf h (List.concat chunks) = true -> crlf_stream h chunks = List.concat chunks.
Proof.
  induction chunks as [|d r IH]; intros h H; [reflexivity|].
  cbn [List.concat] in H. rewrite alf_app in H. apply andb_true_iff in H as [Hd Hr].
  cbn [crlf_stream List.concat]. rewrite (IH _ Hr). f_equal.
  now apply (crlf_aux_alf h d true false h Hd).
Qed.

Lemma git_lf_to_crlf_alf bs : forall p, alf p bs = true -> git_lf_to_crlf p bs = bs.
Proof.
  intros p H. rewrite <- (crlf_aux_false false p). now apply (crlf_aux_alf false bs false p p).
Qed.
