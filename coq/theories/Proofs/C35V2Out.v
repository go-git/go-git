(* Proofs/C35V2Out.v — protocol v2: the fetch response up to the packfile data
   (acknowledgments, shallow-info, wanted-refs, packfile-uris sections and the
   packfile header) round-trips, and Decode stops exactly behind the packfile
   header. *)
From Coq Require Import List Arith NArith ZArith Bool Lia String.
From GoGit Require Import Base.Out Base.GoInt Gen.C34 Model.PktLine Model.C35Utf8 Model.Packp Model.PackpV2
  Proofs.C34Pkt Proofs.C35Base Proofs.C35Utf8 Proofs.C35U Proofs.C35Msgs Proofs.C35Caps Proofs.C35Adv
  Proofs.C35V2Base Proofs.C35V2Caps Proofs.C35V2Fetch Proofs.C35V2Ls.
Import ListNotations.

Lemma acks_ack_step h rest hs rd : hash_ok h = true ->
  acks_decode (rdp (PData (B "ACK " ++ hash_str h ++ [NL])) :: rest) (hs, rd) = acks_decode rest (hs ++ [h], rd).
Proof.
  intros Hh. rewrite app_assoc, rdp_line. cbn [acks_decode rd_err rd_len rd_payload fst snd]. rewrite special_data.
  rewrite (C35Utf8.trim_u_clean _ (clean_kw_hash (B "ACK ") h eq_refl Hh)). rewrite has_prefix_app, (skipn_app_exact (B "ACK ") (hash_str h) 4 eq_refl).
  rewrite (C35Utf8.trim_u_id _ (clean_u_hex _ (hash_str_asciins h Hh))). now rewrite (pfh_str h Hh).
Qed.

Lemma acks_nak_step rest a : acks_decode (rdp (PData (B "NAK" ++ [NL])) :: rest) a = acks_decode rest a.
Proof. reflexivity. Qed.
Lemma acks_ready_step rest a : acks_decode (rdp (PData (B "ready" ++ [NL])) :: rest) a = acks_decode rest (fst a, true).
Proof. reflexivity. Qed.
Lemma acks_delim rest a : acks_decode (rdp PDelim :: rest) a = inl (1%Z, a, rest).
Proof. reflexivity. Qed.
Lemma acks_flush rest a : acks_decode (rdp PFlush :: rest) a = inl (0%Z, a, rest).
Proof. reflexivity. Qed.

Lemma acks_body a (term : pkt) rest : forallb hash_ok (fst a) = true -> (term = PDelim \/ term = PFlush) ->
  acks_decode (map rdp (acks_encode a ++ [term]) ++ rest) ([], false)
  = inl ((if match term with PDelim => true | _ => false end then 1 else 0)%Z, a, rest).
Proof.
  intros Hh Ht. destruct a as [hs ready]. cbn [fst snd] in *. unfold acks_encode. cbn [fst snd].
  rewrite <- !app_assoc, !map_app, <- !app_assoc, map_map.
  rewrite (lines_acc acks_decode _ (fun acc => (acc, false)) _ (fun h r acc => acks_ack_step h r acc false)) by now apply forallb_Forall.
  cbn [app].
  destruct ready.
  - cbn [map app]. rewrite acks_ready_step. cbn [fst]. destruct Ht as [-> | ->]; reflexivity.
  - destruct hs as [|h hs].
    + cbn [map app]. rewrite acks_nak_step. destruct Ht as [-> | ->]; reflexivity.
    + cbn [map app]. destruct Ht as [-> | ->]; reflexivity.
Qed.

Lemma shinfo_step (sh : bool) h rest s : hash_ok h = true ->
  shinfo_decode (rdp (PData ((if sh then B "shallow " else B "unshallow ") ++ hash_str h ++ [NL])) :: rest) s
  = shinfo_decode rest (if sh then (fst s ++ [h], snd s) else (fst s, snd s ++ [h])).
Proof.
  intros Hh. rewrite app_assoc, rdp_line. cbn [shinfo_decode rd_err rd_len rd_payload]. rewrite special_data. destruct sh.
  - rewrite (C35Utf8.trim_u_clean _ (clean_kw_hash (B "shallow ") h eq_refl Hh)).
    now rewrite has_prefix_app, (skipn_app_exact (B "shallow ") (hash_str h) 8 eq_refl), (pfh_str h Hh).
  - rewrite (C35Utf8.trim_u_clean _ (clean_kw_hash (B "unshallow ") h eq_refl Hh)).
    rewrite (has_prefix_clash _ (B "unshallow ")) by reflexivity.
    now rewrite has_prefix_app, (skipn_app_exact (B "unshallow ") (hash_str h) 10 eq_refl), (pfh_str h Hh).
Qed.

Lemma shinfo_lines (sh : bool) : forall hs rest s, forallb hash_ok hs = true ->
  shinfo_decode (map rdp (map (fun h => PData ((if sh then B "shallow " else B "unshallow ") ++ hash_str h ++ [NL])) hs) ++ rest) s
  = shinfo_decode rest (if sh then (fst s ++ hs, snd s) else (fst s, snd s ++ hs)).
Proof.
  intros hs rest [ss us] H. apply forallb_Forall in H. rewrite map_map. cbn [fst snd]. destruct sh.
  - now apply (lines_acc shinfo_decode _ (fun acc => (acc, us)) _ (fun h r acc => shinfo_step true h r (acc, us))).
  - now apply (lines_acc shinfo_decode _ (fun acc => (ss, acc)) _ (fun h r acc => shinfo_step false h r (ss, acc))).
Qed.

Lemma shinfo_delim rest s : shinfo_decode (rdp PDelim :: rest) s = inl (1%Z, s, rest).
Proof. reflexivity. Qed.

Lemma shinfo_body s rest : forallb hash_ok (fst s) = true -> forallb hash_ok (snd s) = true ->
  shinfo_decode (map rdp (shinfo_encode s ++ [PDelim]) ++ rest) ([], []) = inl (1%Z, s, rest).
Proof.
  intros H1 H2. destruct s as [sh un]. cbn [fst snd] in *. unfold shinfo_encode. cbn [fst snd].
  rewrite <- !app_assoc, !map_app, <- !app_assoc.
  rewrite (shinfo_lines true sh _ _ H1). cbn [fst snd app]. rewrite (shinfo_lines false un _ _ H2). cbn [fst snd app map].
  apply shinfo_delim.
Qed.

Definition wanted_ok (r : bytes * hash) : bool := word_ok (fst r) && hash_ok (snd r).

Lemma wanted_step r rest w : wanted_ok r = true ->
  wanted_decode (rdp (PData (hash_str (snd r) ++ [SP] ++ fst r ++ [NL])) :: rest) w = wanted_decode rest (w ++ [r]).
Proof.
  destruct r as [name h]. cbn [fst snd]. unfold wanted_ok. cbn [fst snd]. intros H. apply andb_prop in H. destruct H as [Hn Hh].
  destruct (word_asciins name Hn) as [Hne Hna]. destruct (hash_str_nospace h Hh) as [Hns _].
  assert (hash_str h ++ [SP] ++ name ++ [NL] = (hash_str h ++ SP :: name) ++ [NL]) as -> by (cbn [app]; now rewrite <- app_assoc).
  rewrite rdp_line. cbn [wanted_decode rd_err rd_len rd_payload]. rewrite special_data.
  assert (C35Utf8.clean_u (hash_str h ++ SP :: name) = true) as Hcl.
  { destruct (hash_str_head C35Utf8.asciins h eq_refl Hh) as (c & t & -> & Hc).
    replace ((c :: t) ++ SP :: name) with (c :: (t ++ [SP]) ++ name) by (cbn [app]; now rewrite <- app_assoc).
    now apply clean_u_prefix_hex. }
  rewrite (C35Utf8.trim_u_clean _ Hcl), (cut_app SP (hash_str h) name Hns), (pfh_str h Hh). reflexivity.
Qed.

Lemma wanted_delim rest w : wanted_decode (rdp PDelim :: rest) w = inl (1%Z, w, rest).
Proof. reflexivity. Qed.

Lemma wanted_body rs rest : forallb wanted_ok rs = true ->
  wanted_decode (map rdp (wanted_encode rs ++ [PDelim]) ++ rest) [] = inl (1%Z, rs, rest).
Proof.
  intros H. apply forallb_Forall in H. unfold wanted_encode. rewrite map_app, <- app_assoc, map_map.
  now rewrite (lines_acc wanted_decode _ (fun acc => acc) _ wanted_step).
Qed.

Lemma uris_step x rest u : uris_decode (rdp (PData (x ++ [NL])) :: rest) u = uris_decode rest (u ++ [x]).
Proof. rewrite rdp_line. cbn [uris_decode rd_err rd_len rd_payload]. now rewrite special_data, trim_eol_app. Qed.

Lemma uris_delim rest u : uris_decode (rdp PDelim :: rest) u = inl (1%Z, u, rest).
Proof. reflexivity. Qed.

Lemma uris_body us rest : uris_decode (map rdp (uris_encode us ++ [PDelim]) ++ rest) [] = inl (1%Z, us, rest).
Proof.
  unfold uris_encode. rewrite map_app, <- app_assoc, map_map.
  now rewrite (lines_acc uris_decode _ (fun acc => acc) (fun _ => True) (fun x r acc _ => uris_step x r acc)) by now apply Forall_forall.
Qed.

Definition set_acks o a := mkfetchout a (fo_shallow o) (fo_wanted o) (fo_uris o) (fo_packfile o).
Definition set_shallow o s := mkfetchout (fo_acks o) s (fo_wanted o) (fo_uris o) (fo_packfile o).
Definition set_wanted o w := mkfetchout (fo_acks o) (fo_shallow o) w (fo_uris o) (fo_packfile o).
Definition set_uris o u := mkfetchout (fo_acks o) (fo_shallow o) (fo_wanted o) u (fo_packfile o).

Lemma leb_false a b : (b < a)%nat -> Nat.leb a b = false.
Proof. intros H. destruct (Nat.leb_spec a b); [lia|reflexivity]. Qed.

(* a header whose rank is above last is treated as the first one is; there the loop computes *)
Lemma head_last hdr f rest last expect o : (last < section_rank (trim_space_u (B hdr ++ [NL])))%nat ->
  fetchout_decode_go (S f) (rdp (PData (B hdr ++ [NL])) :: rest) last expect o
  = fetchout_decode_go (S f) (rdp (PData (B hdr ++ [NL])) :: rest) 0 expect o.
Proof.
  intros H. cbn [fetchout_decode_go rl_next]. rewrite rdp_line. cbn [rd_err rd_len rd_payload].
  rewrite !len_data_nz by lia. cbn [orb].
  destruct (section_rank _) as [|k]; [reflexivity|]. now rewrite (leb_false (S k) last H).
Qed.

Lemma head_acks f rest expect o :
  fetchout_decode_go (S f) (rdp (PData (B "acknowledgments" ++ [NL])) :: rest) 0 expect o =
  match acks_decode rest ([], false) with
  | inr e => inr e
  | inl (term, a, r') =>
    if snd a then (if (term =? 1)%Z then fetchout_decode_go f r' 1 true (set_acks o (Some a)) else inr V2Malformed)
    else (if (term =? 1)%Z then inr V2Malformed else inl (set_acks o (Some a), r'))
  end.
Proof. reflexivity. Qed.

Lemma head_shallow f rest last expect o : (last < 2)%nat ->
  fetchout_decode_go (S f) (rdp (PData (B "shallow-info" ++ [NL])) :: rest) last expect o =
  match shinfo_decode rest ([], []) with
  | inr e => inr e
  | inl (term, s, r') => if (term =? 1)%Z then fetchout_decode_go f r' 2 true (set_shallow o (Some s)) else inr V2Malformed
  end.
Proof. intros H. now rewrite (head_last "shallow-info") by exact H. Qed.

Lemma head_wanted f rest last expect o : (last < 3)%nat ->
  fetchout_decode_go (S f) (rdp (PData (B "wanted-refs" ++ [NL])) :: rest) last expect o =
  match wanted_decode rest [] with
  | inr e => inr e
  | inl (term, w, r') => if (term =? 1)%Z then fetchout_decode_go f r' 3 true (set_wanted o (Some w)) else inr V2Malformed
  end.
Proof. intros H. now rewrite (head_last "wanted-refs") by exact H. Qed.

Lemma head_uris f rest last expect o : (last < 4)%nat ->
  fetchout_decode_go (S f) (rdp (PData (B "packfile-uris" ++ [NL])) :: rest) last expect o =
  match uris_decode rest [] with
  | inr e => inr e
  | inl (term, u, r') => if (term =? 1)%Z then fetchout_decode_go f r' 4 true (set_uris o (Some u)) else inr V2Malformed
  end.
Proof. intros H. now rewrite (head_last "packfile-uris") by exact H. Qed.

Lemma head_packfile f rest last expect o : (last < 5)%nat ->
  fetchout_decode_go (S f) (rdp (PData (B "packfile" ++ [NL])) :: rest) last expect o =
  inl (mkfetchout (fo_acks o) (fo_shallow o) (fo_wanted o) (fo_uris o) true, rest).
Proof. intros H. now rewrite (head_last "packfile") by exact H. Qed.

Lemma sec_acks f rest last expect o a : (last < 1)%nat -> forallb hash_ok (fst a) = true -> snd a = true ->
  fetchout_decode_go (S f) (map rdp (section "acknowledgments" acks_encode (Some a)) ++ rest) last expect o
  = fetchout_decode_go f rest 1 true (set_acks o (Some a)).
Proof.
  intros Hl Hh Hr. unfold section. cbn [map app]. rewrite (head_last "acknowledgments") by exact Hl.
  now rewrite head_acks, (acks_body a PDelim rest Hh (or_introl eq_refl)), Hr.
Qed.

Lemma sec_shallow f rest last expect o s : (last < 2)%nat -> forallb hash_ok (fst s) = true -> forallb hash_ok (snd s) = true ->
  fetchout_decode_go (S f) (map rdp (section "shallow-info" shinfo_encode (Some s)) ++ rest) last expect o
  = fetchout_decode_go f rest 2 true (set_shallow o (Some s)).
Proof.
  intros Hl H1 H2. unfold section. cbn [map app]. rewrite (head_shallow f _ last expect o Hl). now rewrite (shinfo_body s rest H1 H2).
Qed.

Lemma sec_wanted f rest last expect o w : (last < 3)%nat -> forallb wanted_ok w = true ->
  fetchout_decode_go (S f) (map rdp (section "wanted-refs" wanted_encode (Some w)) ++ rest) last expect o
  = fetchout_decode_go f rest 3 true (set_wanted o (Some w)).
Proof.
  intros Hl H. unfold section. cbn [map app]. rewrite (head_wanted f _ last expect o Hl). now rewrite (wanted_body w rest H).
Qed.

Lemma sec_uris f rest last expect o u : (last < 4)%nat ->
  fetchout_decode_go (S f) (map rdp (section "packfile-uris" uris_encode (Some u)) ++ rest) last expect o
  = fetchout_decode_go f rest 4 true (set_uris o (Some u)).
Proof.
  intros Hl. unfold section. cbn [map app]. rewrite (head_uris f _ last expect o Hl). now rewrite (uris_body u rest).
Qed.

(* a section that may be absent: absent, the loop does not see it (and o has nothing to set);
   present, it takes one round and leaves its rank, which every later header exceeds *)
Lemma opt_section {A} (hdr : string) (enc : A -> list pkt) (set : fetchout -> option A -> fetchout) rank n x rest o R :
  set o None = o ->
  (forall a f last expect, x = Some a -> (last < rank)%nat ->
     fetchout_decode_go (S f) (map rdp (section hdr enc (Some a)) ++ rest) last expect o
     = fetchout_decode_go f rest rank true (set o (Some a))) ->
  (forall f last expect, (last <= rank)%nat -> fetchout_decode_go (n + f) rest last expect (set o x) = R) ->
  forall f last expect, (last < rank)%nat ->
  fetchout_decode_go (S n + f) (map rdp (section hdr enc x) ++ rest) last expect o = R.
Proof.
  intros H0 H1 H2 f last expect Hl. destruct x as [a|].
  - cbn [Nat.add]. rewrite (H1 a) by auto. apply H2. lia.
  - rewrite H0 in H2. rewrite Nat.add_succ_comm. apply H2. lia.
Qed.

Definition opt_ok {A} (f : A -> bool) (o : option A) : bool := match o with Some x => f x | None => true end.
Definition uri_ok (u : bytes) : bool := negb (has_prefix errPrefix (u ++ [NL])).

Definition fetchout_ok (o : fetchout) : bool :=
  opt_ok (fun a : list hash * bool => forallb hash_ok (fst a)) (fo_acks o) &&
  opt_ok (fun s : list hash * list hash => forallb hash_ok (fst s) && forallb hash_ok (snd s)) (fo_shallow o) &&
  opt_ok (forallb wanted_ok) (fo_wanted o) && opt_ok (forallb uri_ok) (fo_uris o) &&
  (if fo_packfile o then opt_ok (fun a : list hash * bool => snd a) (fo_acks o)
   else match fo_acks o, fo_shallow o, fo_wanted o, fo_uris o with
        | Some a, None, None, None => negb (snd a)
        | _, _, _, _ => false
        end).

Lemma acks_noerr a : forallb no_errline (acks_encode a) = true.
Proof.
  unfold acks_encode. rewrite forallb_app. apply andb_true_intro. split.
  - now apply forallb_map_all.
  - destruct (snd a); [reflexivity|]. destruct (fst a); reflexivity.
Qed.

Lemma section_noerr {A} (hdr : string) (enc : A -> list pkt) (o : option A) :
  has_prefix errPrefix (B hdr ++ [NL]) = false -> (forall x, o = Some x -> forallb no_errline (enc x) = true) ->
  forallb no_errline (section hdr enc o) = true.
Proof.
  intros Hh He. destruct o as [x|]; [|reflexivity]. unfold section. cbn [forallb no_errline]. rewrite Hh. cbn [negb andb].
  rewrite forallb_app, (He x eq_refl). reflexivity.
Qed.

Theorem fetchout_roundtrip o ps tail : fetchout_ok o = true -> fetchout_encode o = Some ps ->
  forallb no_errline ps = true /\ fetchout_decode (map rdp ps ++ tail) = inl (o, tail).
Proof.
  unfold fetchout_ok. intros H He.
  repeat (apply andb_prop in H; let X := fresh "G" in destruct H as [H X]).
  rename H into Ha, G2 into Hs, G1 into Hw, G0 into Hu, G into Hshape.
  destruct o as [acks sh wr ur pf]. cbn [fo_acks fo_shallow fo_wanted fo_uris fo_packfile] in *.
  unfold fetchout_encode in He. cbn [fo_acks fo_shallow fo_wanted fo_uris fo_packfile] in He.
  destruct pf.
  - (* the response carries a packfile *)
    apply Some_inj in He. subst ps. split.
    + rewrite !forallb_app. repeat (apply andb_true_intro; split); try reflexivity.
      * apply section_noerr; [reflexivity|]. intros x _. apply acks_noerr.
      * apply section_noerr; [reflexivity|]. intros x _. unfold shinfo_encode. rewrite forallb_app. apply andb_true_intro.
        split; now apply forallb_map_all.
      * apply section_noerr; [reflexivity|]. intros x ->. apply (forallb_map_impl wanted_ok); [|exact Hw].
        intros r Hr. apply andb_prop in Hr. cbn [no_errline]. now rewrite (hash_line_noerr (snd r) _ (proj2 Hr)).
      * apply section_noerr; [reflexivity|]. intros x ->. now apply (forallb_map_impl uri_ok).
    + unfold fetchout_decode, fetchout_zero. rewrite !map_app, <- !app_assoc. change 6%nat with (5 + 1)%nat.
      apply (opt_section _ _ set_acks 1 4 acks); [reflexivity|intros a f l e -> L; now apply sec_acks| |lia].
      intros f1 l1 e1 L1.
      apply (opt_section _ _ set_shallow 2 3 sh); [reflexivity|intros s f l e -> L; apply andb_prop in Hs; now apply sec_shallow| |lia].
      intros f2 l2 e2 L2.
      apply (opt_section _ _ set_wanted 3 2 wr); [reflexivity|intros w f l e -> L; now apply sec_wanted| |lia].
      intros f3 l3 e3 L3.
      apply (opt_section _ _ set_uris 4 1 ur); [reflexivity|intros u f l e -> L; now apply sec_uris| |lia].
      intros f4 l4 e4 L4. cbn [map app Nat.add]. now rewrite head_packfile by lia.
  - (* a negotiation round: acknowledgments, flush-pkt *)
    destruct acks as [a|]; [|discriminate]. destruct sh; [discriminate|]. destruct wr; [discriminate|]. destruct ur; [discriminate|].
    cbn [opt_ok] in *. apply negb_true_iff in Hshape. rewrite Hshape in He.
    apply Some_inj in He. subst ps. split.
    + cbn [forallb]. rewrite forallb_app, acks_noerr. reflexivity.
    + unfold fetchout_decode. cbn [map app]. rewrite head_acks. rewrite (acks_body a PFlush tail Ha (or_intror eq_refl)).
      rewrite Hshape. cbn [Z.eqb]. unfold set_acks, fetchout_zero. reflexivity.
Qed.

Lemma tagged_last : forall ps p t rest d,
  snd (nth (List.length ps) (tagged (ps ++ [p]) t ++ rest) d) = t.
Proof.
  induction ps as [|q ps IH]; intros p t rest d.
  - cbn [app tagged nth List.length snd]. unfold enc_len. cbn. reflexivity.
  - cbn [app tagged nth List.length]. apply IH.
Qed.

Theorem fetchout_position o ps s t r : fetchout_ok o = true -> fo_packfile o = true -> fetchout_encode o = Some ps ->
  enc_pkts ps = Some s -> List.concat r = s ++ t ->
  exists ls', fetchout_decode (map fst (rl_all r)) = inl (o, ls') /\ rl_rest (rlen r) (rl_all r) ls' = List.length t.
Proof.
  intros Hok Hpf He Hs Hr. pose proof He as He'.
  destruct (fetchout_roundtrip o ps [] Hok He) as [Hne _].
  destruct (rl_all_tail ps s t r Hs Hne Hr) as (rest & Hall & _).
  exists (map fst rest). rewrite Hall, map_app, map_fst_tagged.
  destruct (fetchout_roundtrip o ps (map fst rest) Hok He) as [_ Hd]. split; [exact Hd|].
  unfold rl_rest. rewrite app_length, map_length, tagged_length.
  (* the encoding of a response with a packfile ends with the packfile header: it is not empty *)
  unfold fetchout_encode in He'. rewrite Hpf in He'.
  apply (f_equal (fun x => match x with Some y => y | None => [] end)) in He'. cbv beta iota in He'.
  set (pre := section "acknowledgments" acks_encode (fo_acks o) ++ section "shallow-info" shinfo_encode (fo_shallow o) ++
              section "wanted-refs" wanted_encode (fo_wanted o) ++ section "packfile-uris" uris_encode (fo_uris o)) in *.
  assert (ps = pre ++ [PData (B "packfile" ++ [NL])]) as -> by (subst ps; unfold pre; now rewrite <- !app_assoc).
  rewrite app_length. cbn [List.length]. replace (List.length pre + 1 + List.length rest - List.length rest)%nat with (S (List.length pre)) by lia.
  apply tagged_last.
Qed.
