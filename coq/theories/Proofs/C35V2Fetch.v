(* Proofs/C35V2Fetch.v — protocol v2: the fetch arguments and the command
   request (command=, capabilities, delim-pkt, arguments, flush-pkt) round-trip. *)
From Coq Require Import List Arith NArith ZArith Bool Lia String.
From GoGit Require Import Base.Out Base.GoInt Gen.C34 Model.PktLine Model.C35Utf8 Model.Packp Model.PackpV2
  Proofs.C34Pkt Proofs.C35Base Proofs.C35Utf8 Proofs.C35U Proofs.C35Msgs Proofs.C35Caps Proofs.C35Dec Proofs.C35Ul
  Proofs.C35V2Base Proofs.C35V2Caps.
Import ListNotations.

Lemma pfh_str h : hash_ok h = true -> parse_full_hash (hash_str h) = Some h.
Proof.
  intros H. unfold parse_full_hash. rewrite (hash_str_length h H), (from_hex_str h H).
  unfold hash_hexsize, hash_size. destruct (h256 h); reflexivity.
Qed.

Lemma fa_step L rest a a' : C35Utf8.clean_u L = true -> L <> [] -> fetchargs_line L a = Some a' ->
  fetchargs_decode (rdp (PData (L ++ [NL])) :: rest) a = fetchargs_decode rest a'.
Proof.
  intros Hc Hne Hl. rewrite rdp_line. cbn [fetchargs_decode rd_err rd_len rd_payload].
  rewrite !len_data_nz by lia. cbn [orb]. rewrite (C35Utf8.trim_u_clean L Hc).
  destruct L as [|c t]; [contradiction|]. now rewrite Hl.
Qed.

(* what the switch of FetchArgs.Decode does with each kind of line *)
Lemma fl_want x a : fetchargs_line (B "want " ++ x) a =
  match parse_full_hash x with Some h => Some (fa_set_wants a (fa_wants a ++ [h])) | None => None end.
Proof. reflexivity. Qed.
Lemma fl_have x a : fetchargs_line (B "have " ++ x) a =
  match parse_full_hash x with Some h => Some (fa_set_haves a (fa_haves a ++ [h])) | None => None end.
Proof. reflexivity. Qed.
Lemma fl_shallow x a : fetchargs_line (B "shallow " ++ x) a =
  match parse_full_hash x with Some h => Some (fa_set_shallows a (fa_shallows a ++ [h])) | None => None end.
Proof. reflexivity. Qed.
Lemma fl_deepen x a : fetchargs_line (B "deepen " ++ x) a =
  match parse_int x with Some n => Some (fa_set_deepen a n) | None => None end.
Proof. reflexivity. Qed.
Lemma fl_since x a : fetchargs_line (B "deepen-since " ++ x) a =
  match parse_int x with Some t => Some (fa_set_since a (since_of t)) | None => None end.
Proof. reflexivity. Qed.
Lemma fl_not x a : fetchargs_line (B "deepen-not " ++ x) a = Some (fa_set_not a (fa_not a ++ [x])).
Proof. reflexivity. Qed.
Lemma fl_filter x a : fetchargs_line (B "filter " ++ x) a = Some (fa_set_filter a x).
Proof. reflexivity. Qed.

Definition word_ok (w : bytes) : bool := match w with [] => false | _ => forallb tokc w end.

Lemma word_asciins w : word_ok w = true -> w <> [] /\ forallb C35Utf8.asciins w = true.
Proof.
  unfold word_ok. destruct w as [|c w]; [discriminate|]. intros H. split; [discriminate|].
  rewrite forallb_forall in *. intros x Hx. now apply tokc_asciins, H.
Qed.

Lemma dec_asciins z : forallb C35Utf8.asciins (dec_bytes z) = true.
Proof.
  destruct (dec_bytes_chars z) as [H _]. rewrite forallb_forall in *. intros c Hc. specialize (H c Hc).
  apply orb_prop in H. destruct H as [H|H].
  - unfold is_digit in H. apply andb_prop in H. destruct H as [H1 H2]. apply N.leb_le in H1, H2.
    unfold C35Utf8.asciins, C35Utf8.ascii, is_space.
    destruct (N.ltb_spec c 128); [|lia].
    destruct (N.eqb_spec c 9); [lia|]. destruct (N.eqb_spec c 10); [lia|]. destruct (N.eqb_spec c 11); [lia|].
    destruct (N.eqb_spec c 12); [lia|]. destruct (N.eqb_spec c 13); [lia|]. destruct (N.eqb_spec c 32); [lia|]. reflexivity.
  - apply N.eqb_eq in H. subst c. reflexivity.
Qed.

Lemma fa_kw_step kw x rest a a' : kw_ok kw = true -> x <> [] -> forallb C35Utf8.asciins x = true ->
  fetchargs_line (kw ++ x) a = Some a' ->
  fetchargs_decode (rdp (PData (kw ++ x ++ [NL])) :: rest) a = fetchargs_decode rest a'.
Proof.
  intros Hc Hne Hx Hl. rewrite app_assoc. apply fa_step; [now apply clean_kw| |exact Hl].
  destruct kw; [discriminate Hc|discriminate].
Qed.

Lemma fa_hash_step kw (upd : fetchargs -> hash -> fetchargs) h rest a :
  kw_ok kw = true -> hash_ok h = true -> fetchargs_line (kw ++ hash_str h) a = Some (upd a h) ->
  fetchargs_decode (rdp (PData (kw ++ hash_str h ++ [NL])) :: rest) a = fetchargs_decode rest (upd a h).
Proof. intros Hc Hh. exact (fa_kw_step kw _ rest a _ Hc (hash_str_ne h Hh) (hash_str_asciins h Hh)). Qed.

Lemma fa_want_step h rest a : hash_ok h = true ->
  fetchargs_decode (rdp (PData (B "want " ++ hash_str h ++ [NL])) :: rest) a = fetchargs_decode rest (fa_set_wants a (fa_wants a ++ [h])).
Proof. intros Hh. apply (fa_hash_step (B "want ") (fun a h => fa_set_wants a (fa_wants a ++ [h])) h rest a eq_refl Hh). now rewrite fl_want, pfh_str. Qed.
Lemma fa_have_step h rest a : hash_ok h = true ->
  fetchargs_decode (rdp (PData (B "have " ++ hash_str h ++ [NL])) :: rest) a = fetchargs_decode rest (fa_set_haves a (fa_haves a ++ [h])).
Proof. intros Hh. apply (fa_hash_step (B "have ") (fun a h => fa_set_haves a (fa_haves a ++ [h])) h rest a eq_refl Hh). now rewrite fl_have, pfh_str. Qed.
Lemma fa_shallow_step h rest a : hash_ok h = true ->
  fetchargs_decode (rdp (PData (B "shallow " ++ hash_str h ++ [NL])) :: rest) a = fetchargs_decode rest (fa_set_shallows a (fa_shallows a ++ [h])).
Proof. intros Hh. apply (fa_hash_step (B "shallow ") (fun a h => fa_set_shallows a (fa_shallows a ++ [h])) h rest a eq_refl Hh). now rewrite fl_shallow, pfh_str. Qed.

Lemma fa_not_step n rest a : word_ok n = true ->
  fetchargs_decode (rdp (PData (B "deepen-not " ++ n ++ [NL])) :: rest) a = fetchargs_decode rest (fa_set_not a (fa_not a ++ [n])).
Proof.
  intros H. destruct (word_asciins n H) as [Hne Hn].
  exact (fa_kw_step (B "deepen-not ") n rest a _ eq_refl Hne Hn (fl_not n a)).
Qed.

(* an optional flag line: st b is the request with that flag set to b *)
Lemma fa_flag (b : bool) (name : string) (st : bool -> fetchargs) rest :
  fetchargs_decode (rdp (PData (B name ++ [NL])) :: rest) (st false) = fetchargs_decode rest (st true) ->
  fetchargs_decode (map rdp (flag_line b name) ++ rest) (st false) = fetchargs_decode rest (st b).
Proof. intros H. destruct b; [exact H|reflexivity]. Qed.

Definition fetchargs_ok (a : fetchargs) : bool :=
  negb (Nat.eqb (List.length (fa_wants a)) 0) &&
  forallb hash_ok (fa_wants a) && forallb hash_ok (fa_haves a) && forallb hash_ok (fa_shallows a) &&
  (0 <=? fa_deepen a)%Z && int64_ok (fa_deepen a) &&
  match fa_since a with Some t => since_ok t | None => true end &&
  forallb word_ok (fa_not a) && match fa_filter a with [] => true | f => word_ok f end.

Definition fetchargs_canon (a : fetchargs) : fetchargs :=
  mkfetchargs (sort_hashes (fa_wants a)) (sort_hashes (fa_haves a)) (fa_done a) (fa_thin a) (fa_noprogress a)
              (fa_includetag a) (fa_ofsdelta a) (sort_hashes (fa_shallows a)) (fa_deepen a) (fa_deepenrel a)
              (fa_since a) (fa_not a) (fa_filter a) (fa_waitdone a).

Lemma sort_hashes_ok hs : forallb hash_ok hs = true -> Forall (fun h => hash_ok h = true) (sort_hashes hs).
Proof. intros H. apply sort_by_Forall. now apply forallb_Forall. Qed.

Lemma sort_hashes_ne hs : hs <> [] -> sort_hashes hs <> [].
Proof.
  intros H E. apply (f_equal (@List.length hash)) in E. unfold sort_hashes in E. rewrite sort_by_length in E.
  destruct hs; [contradiction|discriminate].
Qed.

Lemma fetchargs_ok_spec a : fetchargs_ok a = true ->
  fa_wants a <> [] /\ forallb hash_ok (fa_wants a) = true /\ forallb hash_ok (fa_haves a) = true /\ forallb hash_ok (fa_shallows a) = true /\
  (0 <= fa_deepen a)%Z /\ int64_ok (fa_deepen a) = true /\ match fa_since a with Some t => since_ok t | None => true end = true /\
  forallb word_ok (fa_not a) = true /\ match fa_filter a with [] => true | f => word_ok f end = true.
Proof.
  unfold fetchargs_ok. intros H. do 8 (apply andb_prop in H; let X := fresh "G" in destruct H as [H X]).
  apply Z.leb_le in G3. apply negb_true_iff, Nat.eqb_neq in H. repeat split; try assumption. intros E. now rewrite E in H.
Qed.

(* the optional lines Encode writes *)
Definition deepen_line (a : fetchargs) : list pkt :=
  if (fa_deepen a >? 0)%Z then [PData (B "deepen " ++ dec_bytes (fa_deepen a) ++ [NL])] else [].
Definition since_line (a : fetchargs) : list pkt :=
  match fa_since a with Some t => [PData (B "deepen-since " ++ dec_bytes t ++ [NL])] | None => [] end.
Definition filter_line (a : fetchargs) : list pkt :=
  match fa_filter a with [] => [] | n :: l => [PData (B "filter " ++ (n :: l) ++ [NL])] end.

Lemma fetchargs_encode_ok a al : fa_wants a <> [] -> fetchargs_encode a = Some al ->
  al = map (fun h => PData (B "want " ++ hash_str h ++ [NL])) (sort_hashes (fa_wants a)) ++
       map (fun h => PData (B "have " ++ hash_str h ++ [NL])) (sort_hashes (fa_haves a)) ++
       flag_line (fa_done a) "done" ++ flag_line (fa_thin a) "thin-pack" ++
       flag_line (fa_noprogress a) "no-progress" ++ flag_line (fa_includetag a) "include-tag" ++
       flag_line (fa_ofsdelta a) "ofs-delta" ++
       map (fun h => PData (B "shallow " ++ hash_str h ++ [NL])) (sort_hashes (fa_shallows a)) ++
       deepen_line a ++ flag_line (fa_deepenrel a) "deepen-relative" ++ since_line a ++
       map (fun r => PData (B "deepen-not " ++ r ++ [NL])) (fa_not a) ++ filter_line a ++ flag_line (fa_waitdone a) "wait-for-done".
Proof.
  intros H He. unfold fetchargs_encode in He. destruct (fa_wants a); [contradiction|]. now apply Some_inj in He.
Qed.

Theorem fetchargs_roundtrip a ps tail : fetchargs_ok a = true -> fetchargs_encode a = Some ps ->
  forallb no_errline ps = true /\
  fetchargs_decode (map rdp (ps ++ [PFlush]) ++ tail) fetchargs_zero = inl (fetchargs_canon a, tail).
Proof.
  intros H He. destruct (fetchargs_ok_spec a H) as (Hwne & Hw & Hhv & Hsh & H0 & Hi & Hsi & Hnot & Hfil).
  rewrite (fetchargs_encode_ok a ps Hwne He). clear He.
  set (D := deepen_line a). set (SI := since_line a). set (FI := filter_line a).
  split.
  - rewrite !forallb_app. repeat (apply andb_true_intro; split); try (now apply forallb_map_all);
      try (unfold flag_line; match goal with |- context [if ?b then _ else _] => destruct b end; reflexivity).
    + unfold D, deepen_line. destruct (fa_deepen a >? 0)%Z; reflexivity.
    + unfold SI, since_line. destruct (fa_since a); reflexivity.
    + unfold FI, filter_line. destruct (fa_filter a); reflexivity.
  - rewrite <- !app_assoc. rewrite !map_app, <- !app_assoc.
    unfold fetchargs_zero. rewrite !map_map.
    rewrite (lines_acc fetchargs_decode _ (fun acc => mkfetchargs acc _ _ _ _ _ _ _ _ _ _ _ _ _) _ (fun h r acc => fa_want_step h r _)) by now apply sort_hashes_ok.
    rewrite (lines_acc fetchargs_decode _ (fun acc => mkfetchargs _ acc _ _ _ _ _ _ _ _ _ _ _ _) _ (fun h r acc => fa_have_step h r _)) by now apply sort_hashes_ok.
    rewrite (fa_flag (fa_done a) "done" (fun b => mkfetchargs _ _ b false false false false _ _ false _ _ _ false)) by reflexivity.
    rewrite (fa_flag (fa_thin a) "thin-pack" (fun b => mkfetchargs _ _ (fa_done a) b false false false _ _ false _ _ _ false)) by reflexivity.
    rewrite (fa_flag (fa_noprogress a) "no-progress" (fun b => mkfetchargs _ _ (fa_done a) (fa_thin a) b false false _ _ false _ _ _ false)) by reflexivity.
    rewrite (fa_flag (fa_includetag a) "include-tag" (fun b => mkfetchargs _ _ (fa_done a) (fa_thin a) (fa_noprogress a) b false _ _ false _ _ _ false)) by reflexivity.
    rewrite (fa_flag (fa_ofsdelta a) "ofs-delta" (fun b => mkfetchargs _ _ (fa_done a) (fa_thin a) (fa_noprogress a) (fa_includetag a) b _ _ false _ _ _ false)) by reflexivity.
    rewrite (lines_acc fetchargs_decode _ (fun acc => mkfetchargs _ _ _ _ _ _ _ acc _ _ _ _ _ _) _ (fun h r acc => fa_shallow_step h r _)) by now apply sort_hashes_ok.
    (* the optional lines leave the value of the request in their field: 0 / None / nil when there is no line *)
    assert (forall (st : Z -> fetchargs) rest, (forall x z, fa_set_deepen (st x) z = st z) ->
              fetchargs_decode (map rdp D ++ rest) (st 0%Z) = fetchargs_decode rest (st (fa_deepen a))) as KD.
    { intros st rest Hst. unfold D, deepen_line. destruct (Z.gtb_spec (fa_deepen a) 0) as [Hp|Hp];
        [|now replace (fa_deepen a) with 0%Z by (clear - Hp H0; lia)]. cbn [map app].
      apply (fa_kw_step (B "deepen ") _ _ _ _ eq_refl (proj2 (dec_bytes_chars _)) (dec_asciins _)). now rewrite fl_deepen, (parse_int_dec64 _ Hi), Hst. }
    rewrite (KD (fun d => mkfetchargs _ _ _ _ _ _ _ _ d _ _ _ _ _)) by reflexivity.
    rewrite (fa_flag (fa_deepenrel a) "deepen-relative" (fun b => mkfetchargs _ _ (fa_done a) (fa_thin a) (fa_noprogress a) (fa_includetag a) (fa_ofsdelta a) _ _ b _ _ _ false)) by reflexivity.
    assert (forall (st : option Z -> fetchargs) rest, (forall x v, fa_set_since (st x) v = st v) ->
              fetchargs_decode (map rdp SI ++ rest) (st None) = fetchargs_decode rest (st (fa_since a))) as KS.
    { intros st rest Hst. unfold SI, since_line. destruct (fa_since a) as [t|]; [|reflexivity]. cbn [map app].
      apply (fa_kw_step (B "deepen-since ") _ _ _ _ eq_refl (proj2 (dec_bytes_chars t)) (dec_asciins t)). now rewrite fl_since, (parse_int_dec64 t (since_ok_int64 t Hsi)), (since_of_ok t Hsi), Hst. }
    rewrite (KS (fun v => mkfetchargs _ _ _ _ _ _ _ _ _ _ v _ _ _)) by reflexivity.
    rewrite (lines_acc fetchargs_decode _ (fun acc => mkfetchargs _ _ _ _ _ _ _ _ _ _ _ acc _ _) _ (fun n r acc => fa_not_step n r _)) by now apply forallb_Forall.
    assert (forall (st : bytes -> fetchargs) rest, (forall x v, fa_set_filter (st x) v = st v) ->
              fetchargs_decode (map rdp FI ++ rest) (st []) = fetchargs_decode rest (st (fa_filter a))) as KF.
    { intros st rest Hst. unfold FI, filter_line. destruct (fa_filter a) as [|n l] eqn:Ef; [reflexivity|]. cbn [map app].
      destruct (word_asciins (n :: l) Hfil) as [Hne Hf].
      apply (fa_kw_step (B "filter ") (n :: l) _ _ _ eq_refl Hne Hf). now rewrite fl_filter, Hst. }
    rewrite (KF (fun v => mkfetchargs _ _ _ _ _ _ _ _ _ _ _ _ v _)) by reflexivity.
    rewrite (fa_flag (fa_waitdone a) "wait-for-done" (fun b => mkfetchargs _ _ (fa_done a) (fa_thin a) (fa_noprogress a) (fa_includetag a) (fa_ofsdelta a) _ _ (fa_deepenrel a) _ _ _ b)) by reflexivity.
    cbn [map app fetchargs_decode rdp item_of fst snd rd_err rd_len Z.eqb orb]. now destruct a.
Qed.

Definition cargs_ok (a : cargs) : bool :=
  match a with CANone => true | CALs x => lsargs_ok x | CAFetch x => fetchargs_ok x end.
Definition cargs_canon (a : cargs) : cargs :=
  match a with CANone => CANone | CALs x => CALs x | CAFetch x => CAFetch (fetchargs_canon x) end.
(* the Args decoder the caller installs for a request of that kind *)
Definition cargs_zero (a : cargs) : cargs :=
  match a with CANone => CANone | CALs _ => CALs lsargs_zero | CAFetch _ => CAFetch fetchargs_zero end.

Definition cmdreq_ok (c : cmdreq) : bool :=
  negb (Nat.eqb (List.length (cr_command c)) 0) && caps2_ok (cr_caps c) && cargs_ok (cr_args c).
Definition cmdreq_canon (c : cmdreq) : cmdreq := mkcmdreq (cr_command c) (cr_caps c) (cargs_canon (cr_args c)).

(* the argument part of CommandRequest.Decode, by the kind of Args decoder installed *)
Definition cargs_decode (kind : cargs) (r1 : lines) : (cargs * lines) + v2err :=
  match kind with
  | CANone =>
    let (d2, r2) := rl_next r1 in
    match rd_err d2 with
    | Some e => inr (V2Pkt e)
    | None => if (rd_len d2 =? 0)%Z then inl (CANone, r2) else inr V2Other
    end
  | CALs a0 => match lsargs_decode r1 a0 with inl (a, r2) => inl (CALs a, r2) | inr e => inr e end
  | CAFetch a0 => match fetchargs_decode r1 a0 with inl (a, r2) => inl (CAFetch a, r2) | inr e => inr e end
  end.

Lemma cmdreq_head cmd rest kind :
  cmdreq_decode kind (rdp (PData (B "command=" ++ cmd ++ [NL])) :: rest) =
  match caps2_decode rest [] with
  | inr e => inr e
  | inl (len, l, r1) =>
    if negb (len =? 1)%Z then inr V2Other
    else match cargs_decode kind r1 with inl (a, r2) => inl (mkcmdreq cmd l a, r2) | inr e => inr e end
  end.
Proof.
  rewrite app_assoc.
  unfold cmdreq_decode. cbn [rl_next]. rewrite rdp_line. cbn [rd_err rd_len rd_payload].
  rewrite len_data_nz by lia. rewrite trim_eol_app, has_prefix_app. cbn [negb].
  rewrite (skipn_app_exact (B "command=") cmd 8 eq_refl).
  destruct (caps2_decode rest []) as [[[len l] r1]|]; [|reflexivity]. destruct (negb (len =? 1)%Z); [reflexivity|].
  destruct kind as [|a0|a0]; cbn [cargs_decode].
  - destruct (rl_next r1) as [d2 r2]. destruct (rd_err d2); [reflexivity|]. now destruct (rd_len d2 =? 0)%Z.
  - now destruct (lsargs_decode r1 a0) as [[a r2]|].
  - now destruct (fetchargs_decode r1 a0) as [[a r2]|].
Qed.

Lemma caps2_delim rest l : caps2_decode (rdp PDelim :: rest) l = inl (1%Z, l, rest).
Proof. reflexivity. Qed.
Lemma caps2_flush rest l : caps2_decode (rdp PFlush :: rest) l = inl (0%Z, l, rest).
Proof. reflexivity. Qed.

Lemma cargs_roundtrip a al tail : cargs_ok a = true -> cargs_encode a = Some al ->
  forallb no_errline al = true /\
  cargs_decode (cargs_zero a) (map rdp (al ++ [PFlush]) ++ tail) = inl (cargs_canon a, tail).
Proof.
  intros Ha He. destruct a as [|la|fa]; cbn [cargs_encode cargs_ok cargs_decode cargs_zero cargs_canon] in *.
  - apply Some_inj in He. now subst al.
  - destruct (lsargs_roundtrip la al tail Ha He) as [Hn Hd]. now rewrite Hd.
  - destruct (fetchargs_roundtrip fa al tail Ha He) as [Hn Hd]. now rewrite Hd.
Qed.

Theorem cmdreq_roundtrip c ps tail : cmdreq_ok c = true -> cmdreq_encode c = Some ps ->
  forallb no_errline ps = true /\
  cmdreq_decode (cargs_zero (cr_args c)) (map rdp ps ++ tail) = inl (cmdreq_canon c, tail).
Proof.
  unfold cmdreq_ok. intros H He. apply andb_prop in H. destruct H as [H Ha]. apply andb_prop in H. destruct H as [Hc Hcaps].
  destruct c as [cmd caps args]. cbn [cr_command cr_caps cr_args] in *.
  unfold cmdreq_encode in He. cbn [cr_command cr_caps cr_args] in He. destruct cmd as [|c0 cmd']; [discriminate Hc|].
  assert (forallb no_errline (caps2_encode caps) = true) as Hcn.
  { unfold caps2_ok in Hcaps. apply andb_prop in Hcaps. now apply caps2_noerr. }
  destruct (cargs_encode args) as [al|] eqn:El; [|discriminate]. apply Some_inj in He. subst ps.
  destruct (cargs_roundtrip args al tail Ha El) as [Hn Hd]. split.
  - cbn [forallb]. rewrite !forallb_app, Hcn, Hn. reflexivity.
  - cbn [map app]. rewrite (cmdreq_head (c0 :: cmd')).
    rewrite map_app, <- app_assoc, (caps2_all caps _ Hcaps). cbn [map app]. rewrite caps2_delim. cbn [Z.eqb Pos.eqb negb].
    now rewrite Hd.
Qed.
