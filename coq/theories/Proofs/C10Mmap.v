(* Proofs/C10Mmap.v — mmap.PackScanner (Model/Idx.v, the scan_ functions) loaded
   on git's idx layout of a well-formed table: load succeeds, FindOffset
   answers like the map (sort.Search lower bound + equality check, 32/64-bit
   offsets with the trailer bound). *)
From Coq Require Import List NArith ZArith Bool Lia ZifyBool ZifyNat ZifyN.
From GoGit Require Import Base.Out Model.PackBytes Model.Idx Spec.IdxFormat Proofs.C10Order Proofs.C10Bytes Proofs.C10Table Proofs.C10Layout Proofs.C10Lookup Proofs.C10Lazy.
Import ListNotations.
Local Open Scope N_scope.

Section Mmap.
Variable hs : nat.
Variable H : bytes -> bytes.
Variable tbl : list entry.
Variable pack rev : bytes.
Hypothesis WF : wf_tbl hs tbl.
Hypothesis Hpack : List.length pack = hs.
Hypothesis Hrev : exists hf t, rev = ([82; 73; 68; 88] ++ be32 1 ++ hf) ++ t /\ List.length hf = 4%nat.
Hypothesis Hrev16 : 16 <= blen rev.
Hypothesis Hhs20 : (20 <= hs)%nat.

Let n : N := N.of_nat (List.length tbl).
Let HS : N := N.of_nat hs.
Let file := idx_file H tbl pack.
Set Default Proof Using "hs H tbl pack rev WF Hpack Hrev Hrev16 Hhs20".

Section WithSum.
(* the digest has the size of an object id *)
Hypothesis Hsum : blen (S_SUM H tbl pack) = HS.
Set Default Proof Using "hs H tbl pack rev WF Hpack Hrev Hrev16 Hhs20 Hsum".

Definition the_scanner : scanner :=
  mkSc file rev n 1032 (1032 + n * HS) (1032 + n * HS + n * 4) (1032 + n * HS + n * 4 + n * 4)
       (blen file - 2 * HS).

Lemma trailer_eq : blen file - 2 * HS = 1032 + n * HS + n * 4 + n * 4 + n_big tbl * 8.
Proof. unfold file. rewrite (blen_file H WF Hpack), Hsum. unfold n, HS. lia. Qed.

Lemma fan_slice i : (i < 256)%nat ->
  get32 (slice file (8 + 4 * N.of_nat i) 4) = F tbl i.
Proof.
  intros Hi. unfold file. rewrite (N.mul_comm 4).
  destruct (read_at_some _ _ _ _ (read_fan H WF Hpack i Hi)) as [_ <-]. apply get32_be32'.
  pose proof (F_le tbl i). pose proof (wf_count _ _ WF). lia.
Qed.

Lemma scan_load_ok : scan_load hs file rev = Ok the_scanner.
Proof.
  unfold scan_load.
  assert (V1 : valid_file rev S_REVVER S_REVSIG S_REVMIN = true).
  { destruct Hrev as (hf & t & -> & Hl). unfold valid_file.
    change S_REVMIN with 16. replace (16 <=? blen _) with true by (symmetry; apply N.leb_le; exact Hrev16).
    reflexivity. }
  rewrite V1. cbn [negb].
  assert (V2 : valid_file file S_IDXVER S_IDXSIG S_IDXMIN = true).
  { unfold valid_file. change S_IDXMIN with 1072.
    replace (1072 <=? blen file) with true
      by (symmetry; apply N.leb_le; unfold file; rewrite (blen_file H WF Hpack), Hsum; unfold HS; lia).
    unfold file. rewrite file_parts. reflexivity. }
  rewrite V2. cbn [negb].
  change (S_HDR + S_FANOUT) with 1032. change Idx.S_CRC with 4. change S_OFF32 with 4.
  assert (Ecount : get32 (skipn (N.to_nat (1032 - 4)) file) = n).
  { change (skipn (N.to_nat (1032 - 4)) file) with (skipn (N.to_nat (8 + 4 * N.of_nat 255)) file).
    unfold n. rewrite <- (count_all WF), <- (fan_slice 255) by lia. unfold slice.
    now destruct (skipn _ file) as [|a [|b [|c [|d l']]]]. }
  rewrite Ecount. fold HS.
  replace (blen file - 2 * HS <? 1032 + n * HS + n * 4 + n * 4) with false by (rewrite trailer_eq; lia).
  reflexivity.
Qed.

Lemma scan_fanout_ok i : (i < 256)%nat -> scan_fanout the_scanner i = F tbl i.
Proof.
  intros Hi. unfold scan_fanout. replace (Nat.ltb i 256) with true by (symmetry; apply Nat.ltb_lt; exact Hi).
  cbn [s_idx]. change S_HDR with 8. now apply fan_slice.
Qed.

Lemma name_slice i : i < n -> slice file (1032 + i * HS) HS = e_hash (nth (N.to_nat i) tbl d0).
Proof. intros Hi. symmetry. apply (read_at_some _ _ _ _ (read_name H WF Hpack i Hi)). Qed.

Lemma scan_offset_ok i : i < n -> scan_offset the_scanner i = Ok (e_off (nth (N.to_nat i) tbl d0)).
Proof.
  intros Hi. unfold scan_offset, the_scanner. cbn [s_idx s_off32 s_off64 s_trailer].
  change S_OFF32 with 4. change S_OFF64 with 8. change S_MASK with P31. rewrite trailer_eq. unfold n, HS, file.
  destruct (read_at_some _ _ _ _ (read_code H WF Hpack i Hi)) as [Rb <-].
  replace (_ <? _) with false by lia.
  destruct (code_cases WF i Hi) as (Hc & Ho & [[E0 Ec]|(E1 & Hj & Ev)]); rewrite get32_be32' by exact Hc.
  - now rewrite E0, Ec.
  - apply N.eqb_neq in E1. rewrite E1. replace (_ <? _) with false by lia.
    destruct (read_at_some _ _ _ _ (read_big H WF Hpack _ Hj)) as [_ <-].
    rewrite get64_be64'; rewrite Ev; [reflexivity|exact Ho].
Qed.

(* compareObjectID on the mapped names table *)
Lemma scan_below_ok h i : blen h = HS -> i < n ->
  scan_name_below the_scanner h i = is_lt (bytes_cmp (e_hash (nth (N.to_nat i) tbl d0)) h).
Proof.
  intros Hh Hi. unfold scan_name_below, the_scanner. cbn [s_crcs s_names s_idx]. rewrite Hh.
  replace (1032 + n * HS - 1032 <? i * HS + HS) with false by nia.
  now rewrite name_slice.
Qed.

Lemma scan_eq_ok h i : blen h = HS -> i < n ->
  scan_name_eq the_scanner h i = bytes_eqb (e_hash (nth (N.to_nat i) tbl d0)) h.
Proof.
  intros Hh Hi. unfold scan_name_eq, the_scanner. cbn [s_crcs s_names s_idx]. rewrite Hh.
  replace (1032 + n * HS - 1032 <? i * HS + HS) with false by nia.
  now rewrite name_slice.
Qed.

Theorem scan_find_offset_map h : wf_hash hs h ->
  scan_find_offset the_scanner h =
    match lookup tbl h with Some e => Ok (e_off e) | None => Err ENotFound end.
Proof.
  intros Hh.
  assert (Hbl : blen h = HS) by (destruct Hh as [Hl _]; unfold blen, HS; now rewrite Hl).
  apply wf_hash_hd in Hh. unfold scan_find_offset.
  set (k := first_byte h). assert (Hf : (k < 256)%nat) by (unfold k, first_byte; lia).
  rewrite !scan_fanout_ok by lia. fold (Fp tbl k).
  cbn [s_crcs s_names the_scanner]. rewrite Hbl.
  pose proof (F_le tbl k) as Hhn. fold n in Hhn. pose proof (F_mono tbl k) as Hm.
  pose proof (lookup_none_bucket WF h Hh) as Hnone. fold k in Hnone.
  destruct (1032 + n * HS - 1032 <? HS) eqn:Eempty.
  - rewrite Hnone; [reflexivity|]. pose proof (wf_hs _ _ WF). unfold HS in *. intros; nia.
  - destruct (Fp tbl k <? F tbl k) eqn:Elh.
    2:{ replace (Fp tbl k <? F tbl k) with false by lia. rewrite Hnone; [reflexivity|intros; lia]. }
    destruct (lower_bound_cut WF h 0 (Fp tbl k) (F tbl k) (fun i => Some (scan_name_below the_scanner h i)))
      as (j & -> & Hj & Hbelow & Habove); [lia|lia|intros i _ Hi; now rewrite scan_below_ok by (auto; lia)|].
    rewrite (cut_lookup WF h j Hh (proj1 Hj) Hbelow Habove). fold k.
    destruct (j <? F tbl k) eqn:Ejh; cbn [andb]; [|reflexivity].
    rewrite scan_eq_ok by (auto; lia).
    destruct (bytes_eqb _ h); [apply scan_offset_ok; lia|reflexivity].
Qed.

End WithSum.
End Mmap.
