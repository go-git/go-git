(* Proofs/C35GitCmd.v — go-git's v2 command requests (ls-refs, fetch) are in
   git's documented grammar (Spec/GitProto.v git_cmdreq / git_lsargs /
   git_fetchargs) and mean the request. *)
From Coq Require Import List Arith NArith ZArith Bool Lia String.
From GoGit Require Import Base.Out Base.GoInt Gen.C34 Model.PktLine Model.C35Utf8 Model.Packp Model.PackpV2 Spec.GitProto
  Proofs.C34Pkt Proofs.C35Base Proofs.C35Utf8 Proofs.C35U Proofs.C35Msgs Proofs.C35Caps Proofs.C35Dec Proofs.C35Adv Proofs.C35Ul
  Proofs.C35V2Base Proofs.C35V2Caps Proofs.C35V2Fetch Proofs.C35V2Ls Proofs.C35Git Proofs.C35GitV2 Proofs.C35GitV0.
Import ListNotations.

Theorem git_cmdreq_enc c ps : cmdreq_ok c = true -> cmdreq_encode c = Some ps ->
  exists al, cargs_encode (cr_args c) = Some al /\
             git_cmdreq ps = Some (Some (cr_command c, map cap2_abs (cr_caps c), al ++ [PFlush])).
Proof.
  unfold cmdreq_ok, cmdreq_encode. destruct c as [cmd caps args]. cbn [cr_command cr_caps cr_args]. intros H He.
  apply andb_prop in H. destruct H as [H _]. apply andb_prop in H. destruct H as [Hc Hcaps].
  destruct cmd as [|c0 cmd']; [discriminate|]. set (cmd := c0 :: cmd') in *.
  destruct (cargs_encode args) as [al|]; [|discriminate]. exists al. split; [reflexivity|].
  apply Some_inj in He. subst ps. unfold git_cmdreq. kw_line (B "command=").
  now rewrite (git_caps2_lines caps ([PDelim] ++ al ++ [PFlush]) Hcaps I).
Qed.

Lemma git_ls_prefix p r pe sy un ps : prefix_ok p = true ->
  git_lsargs (PData (B "ref-prefix " ++ p ++ [NL]) :: r) (mkglsargs pe sy un ps) = git_lsargs r (mkglsargs pe sy un (ps ++ [p])).
Proof.
  intros H. cbn [git_lsargs gl_peel gl_symrefs gl_unborn gl_prefixes]. rewrite chomp_kw.
  change (beq (B "ref-prefix " ++ p) (B "peel")) with false.
  change (beq (B "ref-prefix " ++ p) (B "symrefs")) with false.
  change (beq (B "ref-prefix " ++ p) (B "unborn")) with false. cbv iota.
  rewrite has_prefix_app, (skipn_app_len (B "ref-prefix ")). now destruct p.
Qed.

Definition ls_abs (a : lsargs) : glsargs := mkglsargs (la_peel a) (la_symrefs a) (la_unborn a) (la_prefixes a).

(* an optional flag line: st b is what git has read with that flag set to b *)
Lemma git_lsargs_flag (b : bool) (kw : string) (st : bool -> glsargs) rest :
  git_lsargs (PData (B kw ++ [NL]) :: rest) (st false) = git_lsargs rest (st true) ->
  git_lsargs ((if b then [PData (B kw ++ [NL])] else []) ++ rest) (st false) = git_lsargs rest (st b).
Proof. intros H. destruct b; [exact H|reflexivity]. Qed.

Theorem git_lsargs_enc a al : lsargs_ok a = true -> lsargs_encode a = Some al ->
  git_lsargs (al ++ [PFlush]) (mkglsargs false false false []) = Some (ls_abs a).
Proof.
  intros Hok He. unfold lsargs_ok in Hok. unfold lsargs_encode in He.
  rewrite (forallb_impl _ _ _ prefix_ok_ref Hok) in He. injection He as <-. rewrite <- !app_assoc.
  rewrite (git_lsargs_flag (la_peel a) "peel" (fun b => mkglsargs b false false [])) by reflexivity.
  rewrite (git_lsargs_flag (la_symrefs a) "symrefs" (fun b => mkglsargs (la_peel a) b false [])) by reflexivity.
  rewrite (git_lsargs_flag (la_unborn a) "unborn" (fun b => mkglsargs (la_peel a) (la_symrefs a) b [])) by reflexivity.
  now rewrite (lines_acc git_lsargs _ (fun acc => mkglsargs _ _ _ acc) _ (fun p r => git_ls_prefix p r _ _ _)) by now apply forallb_Forall.
Qed.

Section FetchLine.
Variables (hexsz : nat) (w hv s : list hash) (f : list bytes) (d si : option Z) (n : list bytes) (fi : option bytes).

(* a line with an argument is none of the flag words *)
Ltac fa_line kw :=
  cbn [git_fetchargs gf_wants gf_haves gf_shallows gf_flags gf_deepen gf_since gf_not gf_filter]; kw_line kw;
  match goal with |- context [fetch_flag ?l] => assert (fetch_flag l = false) as -> by reflexivity end.

Lemma git_fa_want h r acc : sized hexsz h = true ->
  git_fetchargs hexsz (PData (B "want " ++ hash_str h ++ [NL]) :: r) (mkgfetchargs acc hv s f d si n fi)
  = git_fetchargs hexsz r (mkgfetchargs (acc ++ [h]) hv s f d si n fi).
Proof. intros H. fa_line (B "want "). now rewrite (git_oid_str hexsz h H). Qed.

Lemma git_fa_have h r acc : sized hexsz h = true ->
  git_fetchargs hexsz (PData (B "have " ++ hash_str h ++ [NL]) :: r) (mkgfetchargs w acc s f d si n fi)
  = git_fetchargs hexsz r (mkgfetchargs w (acc ++ [h]) s f d si n fi).
Proof. intros H. fa_line (B "have "). now rewrite (git_oid_str hexsz h H). Qed.

Lemma git_fa_shallow h r acc : sized hexsz h = true ->
  git_fetchargs hexsz (PData (B "shallow " ++ hash_str h ++ [NL]) :: r) (mkgfetchargs w hv acc f d si n fi)
  = git_fetchargs hexsz r (mkgfetchargs w hv (acc ++ [h]) f d si n fi).
Proof. intros H. fa_line (B "shallow "). now rewrite (git_oid_str hexsz h H). Qed.

Lemma git_fa_not x r acc : word_ok x = true ->
  git_fetchargs hexsz (PData (B "deepen-not " ++ x ++ [NL]) :: r) (mkgfetchargs w hv s f d si acc fi)
  = git_fetchargs hexsz r (mkgfetchargs w hv s f d si (acc ++ [x]) fi).
Proof. intros H. fa_line (B "deepen-not "). now destruct x. Qed.

Lemma git_fa_flag (b : bool) (name : string) r : fetch_flag (B name) = true ->
  git_fetchargs hexsz (flag_line b name ++ r) (mkgfetchargs w hv s f d si n fi)
  = git_fetchargs hexsz r (mkgfetchargs w hv s (f ++ if b then [B name] else []) d si n fi).
Proof.
  intros Hf. destruct b; [|now rewrite app_nil_r].
  cbn [flag_line app git_fetchargs gf_wants gf_haves gf_shallows gf_flags gf_deepen gf_since gf_not gf_filter]. now rewrite chomp_app, Hf.
Qed.

(* The optional lines are written when the field is not its zero value, which is what git has for it when
   there is no line. *)
Lemma git_fa_deepen z r : (0 <= z < 2 ^ 31)%Z ->
  git_fetchargs hexsz ((if (z >? 0)%Z then [PData (B "deepen " ++ dec_bytes z ++ [NL])] else []) ++ r) (mkgfetchargs w hv s f None si n fi)
  = git_fetchargs hexsz r (mkgfetchargs w hv s f (if (z >? 0)%Z then Some z else None) si n fi).
Proof.
  intros [H0 H1]. destruct (Z.gtb_spec z 0) as [Hp|_]; [|reflexivity]. cbn [app]. fa_line (B "deepen ").
  now rewrite (git_number_dec z H0), (proj2 (Z.ltb_lt 0 z) Hp), (proj2 (Z.ltb_lt _ _) H1).
Qed.

Lemma git_fa_since (t : option Z) r : match t with Some t => (0 < t < 2 ^ 63)%Z | None => True end ->
  git_fetchargs hexsz (match t with Some t => [PData (B "deepen-since " ++ dec_bytes t ++ [NL])] | None => [] end ++ r)
                (mkgfetchargs w hv s f d None n fi)
  = git_fetchargs hexsz r (mkgfetchargs w hv s f d t n fi).
Proof.
  destruct t as [t|]; [intros [H0 H1]|reflexivity]. cbn [app]. fa_line (B "deepen-since ").
  now rewrite (git_number_dec t (Z.lt_le_incl _ _ H0)), (proj2 (Z.ltb_lt _ _) H0), (proj2 (Z.ltb_lt _ _) H1).
Qed.

Lemma git_fa_filter (x : bytes) r :
  git_fetchargs hexsz (match x with [] => [] | c :: l => [PData (B "filter " ++ (c :: l) ++ [NL])] end ++ r) (mkgfetchargs w hv s f d si n None)
  = git_fetchargs hexsz r (mkgfetchargs w hv s f d si n (match x with [] => None | _ => Some x end)).
Proof. destruct x as [|c l]; [reflexivity|]. set (x := c :: l). cbn [app]. now fa_line (B "filter "). Qed.
End FetchLine.

Definition flag_words (a : fetchargs) : list bytes :=
  (if fa_done a then [B "done"] else []) ++ (if fa_thin a then [B "thin-pack"] else []) ++
  (if fa_noprogress a then [B "no-progress"] else []) ++ (if fa_includetag a then [B "include-tag"] else []) ++
  (if fa_ofsdelta a then [B "ofs-delta"] else []) ++ (if fa_deepenrel a then [B "deepen-relative"] else []) ++
  (if fa_waitdone a then [B "wait-for-done"] else []).

Definition fa_abs (a : fetchargs) : gfetchargs :=
  mkgfetchargs (fa_wants a) (fa_haves a) (fa_shallows a) (flag_words a)
               (if (fa_deepen a >? 0)%Z then Some (fa_deepen a) else None) (fa_since a) (fa_not a)
               (match fa_filter a with [] => None | f => Some f end).

Definition fa_git_ok (hexsz : nat) (a : fetchargs) : bool :=
  forallb (sized hexsz) (fa_wants a) && forallb (sized hexsz) (fa_haves a) && forallb (sized hexsz) (fa_shallows a) &&
  (fa_deepen a <? 2 ^ 31)%Z && match fa_since a with Some t => (0 <? t)%Z | None => true end.

Theorem git_fetchargs_enc hexsz a al : fetchargs_ok a = true -> fa_git_ok hexsz a = true -> fetchargs_encode a = Some al ->
  git_fetchargs hexsz (al ++ [PFlush]) (mkgfetchargs [] [] [] [] None None [] None) = Some (fa_abs (fetchargs_canon a)).
Proof.
  unfold fa_git_ok. intros H G He. destruct (fetchargs_ok_spec a H) as (Hwne & _ & _ & _ & H0 & _ & Hsi & Hnot & _).
  do 4 (apply andb_prop in G; let X := fresh "J" in destruct G as [G X]).
  rename G into Gw, J2 into Gh, J1 into Gs, J0 into Gd, J into Gt. apply Z.ltb_lt in Gd.
  rewrite (fetchargs_encode_ok a al Hwne He). unfold deepen_line, since_line, filter_line. rewrite <- !app_assoc.
  rewrite (lines_acc (git_fetchargs hexsz) _ (fun acc => mkgfetchargs acc _ _ _ _ _ _ _) _ (git_fa_want hexsz _ _ _ _ _ _ _)) by now apply sized_sorted.
  rewrite (lines_acc (git_fetchargs hexsz) _ (fun acc => mkgfetchargs _ acc _ _ _ _ _ _) _ (git_fa_have hexsz _ _ _ _ _ _ _)) by now apply sized_sorted.
  rewrite 5 git_fa_flag by reflexivity.
  rewrite (lines_acc (git_fetchargs hexsz) _ (fun acc => mkgfetchargs _ _ acc _ _ _ _ _) _ (git_fa_shallow hexsz _ _ _ _ _ _ _)) by now apply sized_sorted.
  rewrite git_fa_deepen by (split; assumption).
  rewrite git_fa_flag by reflexivity.
  rewrite git_fa_since by exact (since_range _ Hsi Gt).
  rewrite (lines_acc (git_fetchargs hexsz) _ (fun acc => mkgfetchargs _ _ _ _ _ _ acc _) _ (git_fa_not hexsz _ _ _ _ _ _ _)) by now apply forallb_Forall.
  rewrite git_fa_filter, (git_fa_flag hexsz _ _ _ _ _ _ _ _ (fa_waitdone a) "wait-for-done" [PFlush]) by reflexivity.
  cbn [git_fetchargs app]. rewrite <- !app_assoc. destruct a as [? ? ? ? ? ? ? ? ? ? ? ? fl ?]. now destruct fl.
Qed.
