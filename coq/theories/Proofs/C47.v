(* Proofs/C47.v — whenever go-git's resolver (Model/Revision.v) resolves a parsed
   revision to a commit and the items pass the boolean guard [safe], which keeps
   them outside the resolver's defect classes listed in Properties/C47.v, git's
   resolver (Spec/GitRev.v) gives the same commit. *)
From Coq Require Import List Arith NArith ZArith Bool Lia Permutation.
From GoGit Require Import Base.Out Spec.Dag Model.CommitWalk Model.Revision Spec.GitRev
  Proofs.Worklist Proofs.C43.
Import ListNotations.

Section Oneline.
  Variable g : dag.
  Hypothesis Hclosed : dag_closed g = true.
  Variable hit : node -> bool.
  Variable c0 : node.
  Hypothesis Hc0 : c0 < nnodes g.

  Lemma insert_by_date_perm : forall x l, Permutation (insert_by_date g x l) (x :: l).
  Proof.
    intros x. induction l as [|y r IH]; simpl; [reflexivity|].
    destruct (ctime g y <? ctime g x)%Z; [reflexivity|]. rewrite IH. apply perm_swap.
  Qed.

  (* git's walk marks a commit seen when it is queued: [seen] lists what was examined and what
     is pending, each once; the two form the same frontier as in Proofs/Worklist.v *)
  Record OL (l seen emitted : list node) : Prop := mkOL {
    ol_nd : NoDup seen;
    ol_seen : Permutation seen (emitted ++ l);
    ol_nohit : forall x, In x emitted -> hit x = false;
    ol_front : front (parents g) [] c0 l emitted
  }.

  Lemma oneline_spec : forall fuel l seen emitted,
    OL l seen emitted -> nnodes g - length emitted < fuel ->
    match git_oneline g hit fuel l seen with
    | Some x => hit x = true /\ reach g c0 x
    | None => forall x, reach g c0 x -> hit x = false
    end.
  Proof.
    induction fuel as [|f IH]; intros l seen emitted [Hnd Hseen Hnohit Hfr] Hf; [lia|].
    simpl. destruct l as [|c r].
    - (* nothing pending: every reachable commit was examined without a hit *)
      intros x Hr. now apply Hnohit, (front_complete _ _ _ _ Hfr), ra_reach.
    - pose proof (perm_app_in _ _ _ Hseen) as Hsn.
      assert (Hreach : forall x, In x seen -> reach g c0 x).
      { intros x Hx. apply ra_reach. apply Hsn in Hx. destruct Hx as [Hx|Hx].
        - now apply (fr_ra _ _ _ _ _ Hfr).
        - apply (front_ra _ _ _ _ _ x Hfr); [exact Hx | intros []]. }
      (* what was seen is stored and was seen once, so there is room for [c] *)
      assert (Hlen : length emitted + length (c :: r) <= nnodes g).
      { rewrite <- app_length, <- (Permutation_length Hseen), <- (seq_length (nnodes g) 0).
        apply NoDup_incl_length; [exact Hnd|]. intros x Hx. apply in_seq. split; [lia|].
        exact (reach_present g c0 x Hclosed Hc0 (Hreach x Hx)). }
      destruct (hit c) eqn:Eh; [split; [exact Eh | apply Hreach, Hsn; right; now left]|].
      set (ps := nodup Nat.eq_dec (filter (fun p => negb (mem p seen) && present g p) (parents g c))).
      assert (Hps : forall p, In p ps <-> In p (parents g c) /\ ~ In p seen).
      { intros p. unfold ps. rewrite nodup_In, filter_In, andb_true_iff, negb_true_iff, mem_false_In.
        split; [tauto|]. intros [Hp Hn]. split; [exact Hp|]. split; [exact Hn|].
        apply present_lt. eapply dag_closed_parent; eauto. }
      pose proof (fold_insert_perm _ insert_by_date_perm ps r) as Hins.
      apply (IH _ _ (c :: emitted)); [split | simpl in *; lia].
      + apply NoDup_app_disjoint; [apply NoDup_nodup | exact Hnd | intros p Hp; now apply Hps in Hp].
      + rewrite Hseen, Hins. simpl. rewrite <- !Permutation_middle. apply perm_skip.
        rewrite !app_assoc. apply Permutation_app_tail, Permutation_app_comm.
      + intros x [<-|Hx]; [exact Eh | now apply Hnohit].
      + apply (front_visit _ _ _ (c :: r) _ r ps emitted emitted c Hfr);
          [apply seen_ok_nil | intros [] | reflexivity | exact Hins | |].
        * intros p Hp. now apply Hps in Hp.
        * intros p Hp Hn. destruct (in_dec Nat.eq_dec p seen) as [Hin|Hin]; [right | left; now apply Hps].
          apply Hsn in Hin. destruct Hin as [Hin|[<-|Hin]]; [| | exact Hin]; exfalso; apply Hn; [now right | now left].
  Qed.

  Lemma oneline_walk :
    match git_oneline g hit (S (nnodes g + nedges g)) [c0] [c0] with
    | Some x => hit x = true /\ reach g c0 x
    | None => forall x, reach g c0 x -> hit x = false
    end.
  Proof.
    apply (oneline_spec _ [c0] [c0] []); [|simpl; lia]. split.
    - constructor; [intros [] | constructor].
    - reflexivity.
    - intros x [].
    - apply front_init.
  Qed.
End Oneline.

(* loaded only here: above, [length] is that of lists *)
From Coq Require Import String.
Definition lhex (c : N) : bool := is_digit c || ((97 <=? c)%N && (c <=? 102)%N).

Definition commits_ok (rp : repo) : bool :=
  forallb (fun o => match snd o with KCommit n => n <? nnodes (r_dag rp) | _ => true end) (r_objects rp).

(* no tag points at another tag (go-git peels one level, git all of them) *)
Definition flat_tags (rp : repo) : bool :=
  forallb (fun o => match snd o with
                    | KTag t => match lookup_obj t (r_objects rp) with Some (KTag _) => false | _ => true end
                    | _ => true
                    end) (r_objects rp).

Definition repo_ok (rp : repo) : bool :=
  dag_ok (r_dag rp) && dag_closed (r_dag rp) && commits_ok rp && flat_tags rp.

(* the name has no object-id reading, or exactly one (lower-case, >= 4 digits) and no reference reading *)
Definition base_safe (rp : repo) (name : bytes) : bool :=
  match resolve_hash_prefix rp name with
  | [] => true
  | [_] => match expand_ref rp name with None => true | Some _ => false end
           && forallb lhex name && (4 <=? List.length name)%nat && (List.length name <=? 40)%nat
  | _ => false
  end.

Section Safe.
  Variable matches : bytes -> bytes -> bool.

  Definition hit_of (rp : repo) (re : bytes) (neg : bool) (x : node) : bool :=
    if neg then negb (matches re (msg_of rp x)) else matches re (msg_of rp x).

  (* follows go-git's own resolution: every step must be outside the defect classes *)
  Fixpoint safe (rp : repo) (items : list item) (cur : option node) : bool :=
    match items with
    | [] => true
    | it :: rest =>
      match it with
      | IRef name =>
        base_safe rp name &&
        match resolve_ref_item rp name with ROk n => safe rp rest (Some n) | _ => true end
      | ICaret d =>
        (d <=? 2)%N &&
        match resolve_items matches rp [it] cur with ROk n => safe rp rest (Some n) | _ => true end
      | ITilde d =>
        match resolve_items matches rp [it] cur with ROk n => safe rp rest (Some n) | _ => true end
      | ICaretReg re neg =>
        match cur with
        | Some c => (List.length (filter (hit_of rp re neg) (ancs (r_dag rp) c)) <=? 1)%nat
        | None => true
        end &&
        match resolve_items matches rp [it] cur with ROk n => safe rp rest (Some n) | _ => true end
      | ICaretType t =>
        match cur with
        | Some _ => negb (bytes_eqb t (b "tree"%string) || bytes_eqb t (b "blob"%string)) && safe rp rest cur
        | None => false
        end
      | IOther => false
      end
    end.
End Safe.

Lemma lhex_lower : forall c, lhex c = true -> lower c = c.
Proof.
  intros c H. unfold lhex, is_digit in H. unfold lower.
  destruct ((65 <=? c)%N && (c <=? 90)%N) eqn:E; [|reflexivity].
  apply andb_true_iff in E. destruct E as [E1 E2]. apply N.leb_le in E1, E2.
  apply orb_true_iff in H. destruct H as [H|H]; apply andb_true_iff in H; destruct H as [H1 H2];
    apply N.leb_le in H1, H2; lia.
Qed.

Lemma lhex_hex : forall c, lhex c = true -> is_hex c = true.
Proof.
  intros c H. unfold lhex in H. unfold is_hex. apply orb_true_iff in H. destruct H as [H|H]; rewrite H; simpl.
  - reflexivity.
  - now rewrite orb_true_r.
Qed.

Lemma map_lower_lhex : forall s, forallb lhex s = true -> map lower s = s.
Proof.
  induction s as [|c r IH]; intros H; [reflexivity|]. simpl in *. apply andb_true_iff in H.
  destruct H as [H1 H2]. now rewrite (lhex_lower c H1), IH.
Qed.

Lemma forallb_lhex_hex : forall s, forallb lhex s = true -> forallb is_hex s = true.
Proof.
  induction s as [|c r IH]; intros H; [reflexivity|]. simpl in *. apply andb_true_iff in H.
  destruct H as [H1 H2]. now rewrite (lhex_hex c H1), IH.
Qed.

Lemma forallb_firstn : forall (p : N -> bool) k s, forallb p s = true -> forallb p (firstn k s) = true.
Proof.
  intros p k s H. rewrite <- (firstn_skipn k s), forallb_app in H. now apply andb_true_iff in H.
Qed.

Lemma is_prefix_firstn : forall k p h, is_prefix p h = true -> is_prefix (firstn k p) h = true.
Proof.
  induction k as [|k IH]; intros p h H; [reflexivity|].
  destruct p as [|x p']; [reflexivity|]. destruct h as [|y h']; [discriminate|]. simpl in *.
  apply andb_true_iff in H. destruct H as [H1 H2]. now rewrite H1, IH.
Qed.

Lemma hash_prefix_full : forall rp name, List.length name = 40 ->
  resolve_hash_prefix rp name = if forallb is_hex name then [map lower name] else [].
Proof. intros rp name E. unfold resolve_hash_prefix. now rewrite E. Qed.

(* for a lower-case hexadecimal name shorter than an id, go-git's candidate list is the list of ids it prefixes *)
Lemma hash_prefix_lhex : forall rp name,
  forallb lhex name = true -> 0 < List.length name -> Nat.eqb (List.length name) 40 = false ->
  resolve_hash_prefix rp name = filter (fun h => is_prefix (map lower name) h) (map fst (r_objects rp)).
Proof.
  intros rp name Hl H0 H40. unfold resolve_hash_prefix.
  rewrite (proj2 (Nat.eqb_neq _ 0)) by lia. rewrite H40.
  set (even := firstn (2 * (List.length name / 2)) name).
  assert (Hlev : forallb lhex even = true) by now apply forallb_firstn.
  rewrite (forallb_lhex_hex even Hlev), (map_lower_lhex even Hlev), (map_lower_lhex name Hl). cbn [negb].
  destruct (Nat.eqb (List.length even) (List.length name)) eqn:E.
  - (* an even length: nothing was cut off *)
    apply Nat.eqb_eq in E. unfold even in *. rewrite firstn_length in E. now rewrite firstn_all2 by lia.
  - apply filter_implied. intros h Hp. now apply is_prefix_firstn.
Qed.

Lemma bytes_eqb_true : forall h h', Revision.bytes_eqb h h' = true -> h = h'.
Proof.
  induction h as [|x a IH]; destruct h' as [|y b']; simpl; intros E; try discriminate; [reflexivity|].
  apply andb_true_iff in E. destruct E as [E1 E2]. apply N.eqb_eq in E1. subst y. f_equal. now apply IH.
Qed.

Lemma lookup_obj_in : forall h objs k, lookup_obj h objs = Some k -> In (h, k) objs.
Proof.
  induction objs as [|[h' k'] r IH]; intros k H; [discriminate|]. simpl in H.
  destruct (Revision.bytes_eqb h h') eqn:E; [|right; now apply IH].
  injection H as ->. left. f_equal. symmetry. now apply bytes_eqb_true.
Qed.

Lemma commit_lt : forall rp h n, commits_ok rp = true -> lookup_obj h (r_objects rp) = Some (KCommit n) ->
  n < nnodes (r_dag rp).
Proof.
  intros rp h n Hc Hl. apply lookup_obj_in in Hl. unfold commits_ok in Hc. rewrite forallb_forall in Hc.
  specialize (Hc _ Hl). simpl in Hc. now apply Nat.ltb_lt in Hc.
Qed.

(* one candidate: go-git's one-level peel and git's full peel agree *)
Lemma try_single : forall rp h n, try_hashes rp [h] = ROk n ->
  git_peel (peel_fuel rp) rp h = ROk n /\ (commits_ok rp = true -> n < nnodes (r_dag rp)).
Proof.
  intros rp h n H. unfold try_hashes in H. unfold peel_fuel. simpl.
  destruct (lookup_obj h (r_objects rp)) as [[m|t|]|] eqn:E; try discriminate.
  - injection H as ->. split; [reflexivity | intros Hc; eapply commit_lt; eauto].
  - destruct (lookup_obj t (r_objects rp)) as [[m| |]|] eqn:E2; try discriminate. injection H as ->.
    split; [|intros Hc; eapply commit_lt; eauto].
    (* the tag was found, so the store is not empty and there is fuel to look at its target *)
    apply lookup_obj_in in E.
    destruct (List.length (r_objects rp)) eqn:L; [destruct (r_objects rp); [contradiction | discriminate]|].
    simpl. now rewrite E2.
Qed.

(* follows git_base: a full id, else a reference, else an abbreviated id; [base_safe] leaves go-git
   one candidate in each case *)
Lemma base_sound : forall rp name n,
  base_safe rp name = true -> resolve_ref_item rp name = ROk n ->
  git_base rp name = ROk n /\ (commits_ok rp = true -> n < nnodes (r_dag rp)).
Proof.
  intros rp name n Hs HG. unfold base_safe in Hs. unfold resolve_ref_item in HG. unfold git_base.
  destruct (Nat.eqb (List.length name) 40) eqn:E40.
  - (* hexadecimal: that id, and being safe it names no reference; otherwise only a reference reading is left *)
    apply Nat.eqb_eq in E40. rewrite (hash_prefix_full rp name E40) in Hs, HG.
    destruct (forallb is_hex name), (expand_ref rp name); try discriminate; now apply try_single.
  - (* a reference is safe only without an id reading; without a reference there is exactly one id reading *)
    cbn [andb]. destruct (expand_ref rp name) as [hr|] eqn:Er;
      destruct (resolve_hash_prefix rp name) as [|h [|h2 r]] eqn:Epre; try discriminate; [now apply try_single|].
    rewrite !andb_true_iff in Hs. destruct Hs as [[[_ Hl] H4] H40]. apply Nat.leb_le in H4, H40.
    rewrite (hash_prefix_lhex rp name Hl) in Epre by (exact E40 || lia).
    unfold git_short.
    rewrite (proj2 (Nat.ltb_ge _ _) H4), (proj2 (Nat.ltb_ge _ _) H40), (forallb_lhex_hex name Hl), Epre.
    now apply try_single.
Qed.

Lemma le1_same : forall (l : list node) a b, (List.length l <= 1)%nat -> In a l -> In b l -> a = b.
Proof.
  intros l a b' H Ha Hb. destruct l as [|x [|y r]]; simpl in *; try lia; try contradiction.
Qed.

(* both walks stop at a reachable match, and there is at most one *)
Lemma regex_sound : forall g hit (c : node) l,
  dag_ok g = true -> dag_closed g = true -> c < nnodes g ->
  (List.length (filter hit (ancs g c)) <= 1)%nat ->
  pre_walk g hit (walk_fuel g) c [] = (l, WStop) ->
  git_oneline g hit (S (nnodes g + nedges g)) [c] [c] = Some (last l c) /\ last l c < nnodes g.
Proof.
  intros g hit c l Hok Hc Hlt Huniq Ew.
  pose proof (pre_walk_post g Hc hit [] c Hlt) as P. rewrite Ew in P.
  destruct P as [[He _] | [_ [l' [n [-> [Hs [Hra _]]]]]]]; [discriminate|].
  rewrite last_last. apply ra_reach in Hra.
  assert (Hone : forall x, hit x = true -> reach g c x -> x = n).
  { intros x Hx Hr. apply (le1_same (filter hit (ancs g c))); [exact Huniq | |];
      apply filter_In; split; auto; now apply ancs_spec. }
  pose proof (oneline_walk g Hc hit c Hlt) as Q.
  destruct (git_oneline g hit (S (nnodes g + nedges g)) [c] [c]) as [x|].
  - destruct Q as [Hx Hrx]. rewrite (Hone x Hx Hrx). split; [reflexivity | eapply reach_present; eauto].
  - rewrite (Q n Hra) in Hs. discriminate.
Qed.

Section Sound.
  Variable matches : bytes -> bytes -> bool.

  Lemma first_parents_lt : forall g k (c p : node), c < nnodes g -> first_parents g k c = Some p -> p < nnodes g.
  Proof.
    induction k as [|k IH]; intros c p Hc H; simpl in H; [injection H as H; now subst|].
    destruct (parents g c) as [|q r]; [discriminate|]. destruct (present g q) eqn:E; [|discriminate].
    apply (IH q p); [|exact H]. now apply present_lt.
  Qed.

  Theorem resolve_sound : forall rp items cur n,
    repo_ok rp = true ->
    (forall c, cur = Some c -> c < nnodes (r_dag rp)) ->
    safe matches rp items cur = true ->
    resolve_items matches rp items cur = ROk n ->
    git_items matches rp items cur = ROk n.
  Proof.
    intros rp items. induction items as [|it rest IH]; intros cur n Hrp Hcur Hsafe HG; [exact HG|].
    pose proof Hrp as Hrp'. unfold repo_ok in Hrp'. rewrite !andb_true_iff in Hrp'. destruct Hrp' as [[[Hok Hc] Hco] _].
    (* in every case both resolvers step to the same stored commit [m]; the rest is the induction hypothesis *)
    assert (Step : forall m, m < nnodes (r_dag rp) -> safe matches rp rest (Some m) = true ->
              resolve_items matches rp rest (Some m) = ROk n -> git_items matches rp rest (Some m) = ROk n).
    { intros m Hm. apply IH; [exact Hrp|]. now intros c [= <-]. }
    destruct it as [name | d | d | re neg | t | ].
    - simpl in Hsafe, HG |- *. apply andb_true_iff in Hsafe. destruct Hsafe as [Hb Hs].
      destruct (resolve_ref_item rp name) as [m| |] eqn:Er; try discriminate.
      destruct (base_sound rp name m Hb Er) as [Eg Hm]. rewrite Eg. apply Step; auto.
    - simpl in Hsafe, HG |- *. destruct cur as [c|]; [|discriminate].
      match type of HG with context [first_parents ?a ?k ?x] =>
        destruct (first_parents a k x) as [p|] eqn:Ef; [|discriminate HG] end.
      apply Step; auto. eapply first_parents_lt; [|exact Ef]. now apply Hcur.
    - simpl in Hsafe, HG |- *. apply andb_true_iff in Hsafe. destruct Hsafe as [Hd Hs].
      destruct cur as [c|]; [|discriminate].
      destruct (d =? 0)%N eqn:E0; [apply IH; auto|].
      destruct (parents (r_dag rp) c) as [|p1 ps] eqn:Ep; [discriminate|].
      destruct (present (r_dag rp) p1) eqn:E1; simpl in HG, Hs; [|discriminate].
      destruct (d =? 1)%N eqn:Ed1.
      + apply N.eqb_eq in Ed1. subst d. simpl. rewrite E1. apply Step; auto. now apply present_lt.
      + assert (Ed2 : d = 2%N).
        { apply N.leb_le in Hd. apply N.eqb_neq in E0, Ed1. lia. }
        subst d. simpl. destruct ps as [|p2 ps']; [discriminate|].
        destruct (present (r_dag rp) p2) eqn:E2; [|discriminate]. apply Step; auto. now apply present_lt.
    - cbn [safe resolve_items git_items] in Hsafe, HG |- *. destruct cur as [c|]; [|discriminate].
      apply andb_true_iff in Hsafe. destruct Hsafe as [Hu Hs]. apply Nat.leb_le in Hu.
      unfold hit_of in Hu.
      set (hit := fun x => if neg then negb (matches re (msg_of rp x)) else matches re (msg_of rp x)) in *.
      destruct (pre_walk (r_dag rp) hit (walk_fuel (r_dag rp)) c []) as [l e] eqn:Ew.
      destruct e; try discriminate.
      destruct (regex_sound (r_dag rp) hit c l Hok Hc (Hcur c eq_refl) Hu Ew) as [Eo Hlt].
      rewrite Eo. now apply Step.
    - simpl in Hsafe, HG |- *. destruct cur as [c|]; [|discriminate].
      apply andb_true_iff in Hsafe. destruct Hsafe as [Ht Hs]. apply negb_true_iff in Ht.
      rewrite Ht. apply IH; auto.
    - discriminate.
  Qed.
End Sound.
