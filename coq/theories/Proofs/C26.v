(* Proofs/C26.v — lexical confinement of validPath / ValidTreePath and the
   leading-symlink discipline. *)
From Coq Require Import List NArith Bool String Lia.
From GoGit Require Import Base.Out Model.Porcelain Model.WorktreePaths Proofs.PorcelainMaps.
Import ListNotations.
Local Open Scope N_scope.

Lemma words_nonnil : forall sep s, words sep s <> [].
Proof.
  intros sep s. destruct s as [|c r]; cbn; [discriminate|].
  destruct (sep c); [discriminate|]. destruct (words sep r); discriminate.
Qed.

(* splitting on two separators = splitting on one, then on the other *)
Lemma words_two : forall (s1 s2 : N -> bool) s,
  words (fun c => s1 c || s2 c) s = flat_map (words s2) (words s1 s).
Proof.
  intros s1 s2. induction s as [|c r IH]; [reflexivity|].
  cbn [words]. destruct (s1 c) eqn:E1; cbn [orb].
  - cbn [flat_map words app]. now rewrite IH.
  - destruct (words s1 r) as [|w ws] eqn:Ew; [now apply words_nonnil in Ew|].
    cbn [flat_map] in *. rewrite IH. cbn [words]. destruct (s2 c) eqn:E2.
    + reflexivity.
    + destruct (words s2 w) as [|x xs] eqn:Ex; [now apply words_nonnil in Ex|]. reflexivity.
Qed.

Lemma filter_flat_map {A B} (f : A -> list B) (p : B -> bool) (l : list A) :
  filter p (flat_map f l) = flat_map (fun x => filter p (f x)) l.
Proof. induction l as [|x l IH]; cbn; [reflexivity|]. now rewrite filter_app, IH. Qed.

Lemma flat_map_filter_nonempty (g : bytes -> list bytes) (l : list bytes) :
  g [] = [] -> flat_map g (filter nonempty l) = flat_map g l.
Proof.
  intro Hg. induction l as [|x l IH]; cbn; [reflexivity|].
  destruct x; cbn; [now rewrite Hg|]. now rewrite IH.
Qed.

Lemma fields_two : forall (s1 s2 : N -> bool) s,
  fields (fun c => s1 c || s2 c) s = flat_map (fields s2) (fields s1 s).
Proof.
  intros s1 s2 s. unfold fields at 1. rewrite words_two, filter_flat_map.
  unfold fields at 2. now rewrite flat_map_filter_nonempty.
Qed.

Lemma words_nosep : forall sep w, forallb (fun c => negb (sep c)) w = true -> words sep w = [w].
Proof.
  intros sep. induction w as [|c r IH]; cbn; [reflexivity|].
  intro H. apply andb_true_iff in H. destruct H as [H1 H2]. apply negb_true_iff in H1.
  now rewrite H1, (IH H2).
Qed.

Lemma fields_nosep : forall sep w, w <> [] -> forallb (fun c => negb (sep c)) w = true -> fields sep w = [w].
Proof.
  intros sep w Hne H. unfold fields. rewrite (words_nosep _ _ H). cbn. destruct w; [contradiction|reflexivity].
Qed.

Lemma fields_nonempty : forall sep s w, In w (fields sep s) -> w <> [].
Proof. intros sep s w H. unfold fields in H. apply filter_In in H. destruct H as [_ H]. now destruct w. Qed.

Lemma fields_sep_no_bslash : forall p, forallb (fun b => negb (is_bslash b)) p = true ->
  fields is_sep p = os_parts p.
Proof.
  intros p Hb. unfold os_parts, fields. f_equal. induction p as [|a r IH]; [reflexivity|].
  cbn [forallb] in Hb. apply andb_true_iff in Hb. destruct Hb as [H1 H2]. apply negb_true_iff in H1.
  cbn [words]. unfold is_sep at 1. now rewrite H1, orb_false_r, (IH H2).
Qed.

Lemma os_part_is_part : forall p c,
  In c (os_parts p) -> forallb (fun x => negb (is_bslash x)) c = true -> In c (fields is_sep p).
Proof.
  intros p c Hin Hb. unfold is_sep.
  rewrite (fields_two is_slash is_bslash p). apply in_flat_map. exists c. split; [exact Hin|].
  rewrite (fields_nosep _ _ (fields_nonempty _ _ _ Hin) Hb). now left.
Qed.

Lemma valid_parts_nodots : forall ntfs first parts q,
  valid_parts ntfs first parts = true -> In q parts -> q <> s_dot /\ q <> s_dotdot.
Proof.
  intros ntfs first parts. revert first. induction parts as [|x r IH]; intros first q H Hin; [destruct Hin|].
  cbn [valid_parts] in H. repeat (apply andb_true_iff in H; destruct H as [H ?]).
  destruct Hin as [->|Hin].
  - apply negb_true_iff in H. apply negb_true_iff in H3. split; intro X; subst.
    + now rewrite beqb_refl in H.
    + now rewrite beqb_refl in H3.
  - eapply IH; eauto.
Qed.

Lemma valid_parts_first : forall ntfs q r, valid_parts ntfs true (q :: r) = true -> is_dotgit_name q = false.
Proof.
  intros ntfs q r H. cbn [valid_parts] in H. repeat (apply andb_true_iff in H; destruct H as [H ?]).
  apply negb_true_iff in H2. cbn [orb] in H2. now rewrite andb_true_r in H2.
Qed.

Lemma valid_parts_nonfinal : forall ntfs first pre q x post,
  valid_parts ntfs first (pre ++ q :: x :: post) = true -> is_dotgit_name q = false.
Proof.
  intros ntfs first pre. revert first. induction pre as [|y pre IH]; intros first q x post H.
  - cbn [app valid_parts] in H. repeat (apply andb_true_iff in H; destruct H as [H ?]).
    apply negb_true_iff in H2. cbn [negb] in H2. now rewrite orb_true_r, andb_true_r in H2.
  - cbn [app valid_parts] in H. repeat (apply andb_true_iff in H; destruct H as [H ?]). eapply IH; eauto.
Qed.

Lemma ieqb_no_bslash : forall c n, ieqb c n = true ->
  forallb (fun x => negb (is_bslash x)) (map lower n) = true ->
  forallb (fun x => negb (is_bslash x)) c = true.
Proof.
  intros c n H Hn. unfold ieqb in H. apply beqb_true in H. rewrite <- H in Hn. clear H.
  induction c as [|x c IH]; [reflexivity|]. cbn [map forallb] in *.
  apply andb_true_iff in Hn. destruct Hn as [H1 H2]. rewrite (IH H2), andb_true_r.
  unfold is_bslash, BSLASH, lower in *.
  destruct ((65 <=? x) && (x <=? 90)) eqn:E.
  - apply andb_true_iff in E. destruct E as [E1 E2]. apply N.leb_le in E1, E2.
    apply negb_true_iff. apply N.eqb_neq. lia.
  - exact H1.
Qed.

Lemma dotgit_no_bslash : forall c, is_dotgit_name c = true -> forallb (fun x => negb (is_bslash x)) c = true.
Proof.
  intros c H. unfold is_dotgit_name in H. apply orb_true_iff in H. destruct H as [H|H];
    (eapply ieqb_no_bslash; [exact H | vm_compute; reflexivity]).
Qed.

Lemma lex_resolve_nodots : forall parts stack,
  (forall q, In q parts -> q <> s_dot /\ q <> s_dotdot) ->
  lex_resolve stack parts = Some (rev stack ++ parts).
Proof.
  induction parts as [|q r IH]; intros stack H; cbn [lex_resolve].
  - now rewrite app_nil_r.
  - destruct (H q (or_introl eq_refl)) as [H1 H2].
    rewrite (proj2 (beqb_false q s_dot) H1), (proj2 (beqb_false q s_dotdot) H2).
    rewrite IH by (intros; apply H; now right). cbn [rev]. now rewrite <- app_assoc.
Qed.

Lemma valid_path_parts : forall ntfs hfs p, valid_path ntfs hfs p = true ->
  fields is_sep p <> [] /\ valid_parts ntfs true (fields is_sep p) = true.
Proof.
  intros ntfs hfs p H. unfold valid_path in H. apply andb_true_iff in H. destruct H as [_ H].
  destruct (fields is_sep p); [discriminate|]. split; [discriminate|exact H].
Qed.

Lemma valid_path_os_nodots : forall ntfs hfs p c, valid_path ntfs hfs p = true ->
  In c (os_parts p) -> c <> s_dot /\ c <> s_dotdot.
Proof.
  intros ntfs hfs p c H Hin. destruct (valid_path_parts _ _ _ H) as [_ Hv].
  split; intro X; subst c.
  - destruct (valid_parts_nodots _ _ _ s_dot Hv (os_part_is_part p s_dot Hin eq_refl)) as [A _]. now apply A.
  - destruct (valid_parts_nodots _ _ _ s_dotdot Hv (os_part_is_part p s_dotdot Hin eq_refl)) as [_ A]. now apply A.
Qed.

Lemma valid_path_confined : forall ntfs hfs p, valid_path ntfs hfs p = true ->
  os_parts p <> [] /\
  lex_resolve [] (os_parts p) = Some (os_parts p) /\
  (forall c r, os_parts p = c :: r -> is_dotgit_name c = false).
Proof.
  intros ntfs hfs p H. destruct (valid_path_parts _ _ _ H) as [Hne Hv].
  assert (Hf : fields is_sep p = flat_map (fields is_bslash) (os_parts p))
    by (unfold is_sep, os_parts; apply fields_two).
  repeat split.
  - intro X. rewrite X in Hf. cbn in Hf. contradiction.
  - rewrite lex_resolve_nodots; [reflexivity|]. intros q Hq. eapply valid_path_os_nodots; eauto.
  - intros c r Hc. destruct (is_dotgit_name c) eqn:E; [|reflexivity]. exfalso.
    assert (Hin : In c (os_parts p)) by (rewrite Hc; now left).
    rewrite Hc in Hf. cbn [flat_map] in Hf.
    rewrite (fields_nosep _ _ (fields_nonempty _ _ _ Hin) (dotgit_no_bslash _ E)) in Hf.
    cbn [app] in Hf. rewrite Hf in Hv. apply valid_parts_first in Hv. congruence.
Qed.

Lemma valid_tree_path_components : forall p c, valid_tree_path p = true -> In c (os_parts p) ->
  is_dotgit_name c = false /\ c <> s_dot /\ c <> s_dotdot.
Proof.
  intros p c H Hin. unfold valid_tree_path in H. apply andb_true_iff in H. destruct H as [_ H].
  destruct (fields is_sep p) as [|x xs] eqn:Ef; [discriminate|]. rewrite <- Ef in H.
  rewrite forallb_forall in H.
  assert (Hq : forall q, In q (os_parts p) -> forallb (fun x => negb (is_bslash x)) q = true ->
               beqb q s_dot = false /\ beqb q s_dotdot = false /\ is_dotgit_name q = false).
  { intros q Hq Hb. specialize (H q (os_part_is_part p q Hq Hb)).
    repeat (apply andb_true_iff in H; destruct H as [H ?]).
    repeat split; now apply negb_true_iff. }
  repeat split.
  - destruct (is_dotgit_name c) eqn:E; [|reflexivity].
    destruct (Hq c Hin (dotgit_no_bslash _ E)) as (_ & _ & X). congruence.
  - intro X. subst. destruct (Hq s_dot Hin eq_refl) as (A & _). now rewrite beqb_refl in A.
  - intro X. subst. destruct (Hq s_dotdot Hin eq_refl) as (_ & A & _). now rewrite beqb_refl in A.
Qed.

Section Walk.
  (* the real file tree: what sits at a RESOLVED location, and where a symlink found there leads *)
  Variable node : list bytes -> ntype.
  Variable follow : list bytes -> list bytes.

  Definition wstep (cur : list bytes) (q : bytes) : list bytes :=
    let here := (cur ++ [q])%list in if is_link (node here) then follow here else here.

  (* kernel resolution of a directory path, every component followed *)
  Definition walk (parts : list bytes) : list bytes := fold_left wstep parts [].

  (* Lstat of a path: directory part resolved by the kernel, final component not followed *)
  Definition os_lstat (d : list bytes) : ntype :=
    match d with
    | [] => TDir
    | _ => node (walk (removelast d) ++ [last d []])%list
    end.

  Lemma os_lstat_snoc : forall ds q, os_lstat (ds ++ [q]) = node (walk ds ++ [q]).
  Proof.
    intros ds q. unfold os_lstat. destruct (ds ++ [q])%list eqn:E; [now destruct ds|].
    rewrite <- E. now rewrite removelast_last, last_last.
  Qed.

  Lemma walk_lexical : forall dirs,
    (forall d r, dirs = (d ++ r)%list -> d <> [] -> is_link (os_lstat d) = false) ->
    walk dirs = dirs.
  Proof.
    induction dirs as [|q ds IH] using rev_ind; intro H; [reflexivity|].
    assert (Hds : walk ds = ds).
    { apply IH. intros d r Hd Hne. apply (H d (r ++ [q])%list); [rewrite Hd; now rewrite app_assoc | exact Hne]. }
    assert (X : is_link (os_lstat (ds ++ [q])) = false)
      by (apply (H (ds ++ [q])%list []); [now rewrite app_nil_r | now destruct ds]).
    rewrite os_lstat_snoc, Hds in X.
    unfold walk in *. rewrite fold_left_app. cbn [fold_left]. rewrite Hds. unfold wstep. now rewrite X.
  Qed.

  Lemma in_proper_prefixes : forall (d r : list bytes), d <> [] -> r <> [] -> In d (proper_prefixes (d ++ r)).
  Proof.
    induction d as [|y d IH]; [contradiction|]. intros r _ Hr. cbn [app proper_prefixes].
    destruct (d ++ r)%list eqn:E.
    - destruct d; [destruct r; [contradiction|discriminate]|discriminate].
    - rewrite <- E. destruct d as [|y' d'].
      + now left.
      + right. apply in_map. apply IH; [discriminate|assumption].
  Qed.

  (* validNoLeadingSymlink accepted the path => the directory in which the final
     component is created / removed / opened is the lexical one *)
  Lemma no_leading_symlink_lexical : forall parts, parts <> [] ->
    no_leading_symlink os_lstat parts = true -> walk (removelast parts) = removelast parts.
  Proof.
    intros parts Hne H. unfold no_leading_symlink in H. rewrite forallb_forall in H.
    apply walk_lexical. intros d r Hd Hdne.
    specialize (H d). rewrite negb_true_iff in H. apply H.
    assert (E : exists lst, parts = (d ++ (r ++ [lst]))%list).
    { exists (last parts []). rewrite app_assoc, <- Hd. now apply app_removelast_last. }
    destruct E as (lst & E). rewrite E.
    apply in_proper_prefixes; [exact Hdne | now destruct r].
  Qed.
End Walk.
