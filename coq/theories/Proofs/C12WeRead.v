(* Proofs/C12WeRead.v — go-git's decoder (G = Model/IndexFile.v) reads what git writes
   (S = Spec/GitIndex.git_encode): entries of versions 2, 3, 4 and the extensions. *)
From Coq Require Import List NArith ZArith Arith Lia ZifyBool ZifyNat ZifyN Bool.
From GoGit Require Import Base.Out Model.IndexFile Spec.GitIndex Proofs.C12 Proofs.C12Size Proofs.C12Git Proofs.C12Digits
  Proofs.C12WeReadExt.
Import ListNotations.
Local Open Scope N_scope.

Definition entry_of_git (g : gentry) : entry :=
  mkEntry (ge_name g) (ge_stage g) (mk_time (ge_sec g) (ge_nsec g)) (mk_time (ge_msec g) (ge_mnsec g))
          (ge_dev g) (ge_ino g) (ge_mode g) (ge_uid g) (ge_gid g) (ge_size g) (ge_oid g) (ge_skip g) (ge_ita g).

Definition wf_gentry (hs : nat) (g : gentry) : bool :=
  nonul (ge_name g) && (ge_stage g <? 4) &&
  u32ok (ge_sec g) && u32ok (ge_nsec g) && u32ok (ge_msec g) && u32ok (ge_mnsec g) &&
  u32ok (ge_dev g) && u32ok (ge_ino g) && u32ok (ge_mode g) && u32ok (ge_uid g) && u32ok (ge_gid g) && u32ok (ge_size g) &&
  (List.length (ge_oid g) =? hs)%nat && (N.of_nat (List.length (ge_name g)) <? 4294967296).

Lemma g_common_eq : forall p name, nonul name = true -> g_common p name = common_prefix_len p name.
Proof.
  induction p as [|x p IH]; intros [|y name] Hn; cbn [g_common common_prefix_len]; try reflexivity.
  cbn in Hn. apply andb_true_iff in Hn as [Hy Hn]. apply negb_true_iff in Hy. rewrite Hy.
  destruct (x =? y); [f_equal; now apply IH|reflexivity].
Qed.

Lemma g_write_entry_bytes hs ver last e : nonul (ge_name e) = true -> ver = 2 \/ ver = 3 \/ ver = 4 ->
  g_write_entry hs ver (match last with Some p => p | None => [] end) e =
  entry_bytes hs ver last
    (mkF (ge_sec e) (ge_nsec e) (ge_msec e) (ge_mnsec e) (ge_dev e) (ge_ino e) (ge_mode e) (ge_uid e) (ge_gid e) (ge_size e)
         (ge_oid e) (flag_word (ge_stage e) (ge_ita e || ge_skip e) (ge_valid e) (name_len_field (ge_name e))))
    (ge_ita e) (ge_skip e) (ge_name e).
Proof.
  intros Hn Hver. unfold g_write_entry, entry_bytes, enc_fixed, name_part. cbv zeta.
  cbn [f_sec f_nsec f_msec f_mnsec f_dev f_ino f_mode f_uid f_gid f_size f_hash f_flags].
  destruct (ver_cases ver Hver) as [[-> ->] | [-> ->]]; rewrite <- !app_assoc; do 13 f_equal.
  - rewrite align8. do 2 f_equal. lia.
  - rewrite g_encode_varint_eq. destruct last as [ln|]; cbn [v4_strip v4_prefix]; [now rewrite g_common_eq|reflexivity].
Qed.

Lemma go_reads_git_entry hs ver last e rest :
  wf_gentry hs e = true -> ver = 2 \/ ver = 3 \/ ver = 4 -> last_ok last ->
  read_entry hs ver last (g_write_entry hs ver (match last with Some p => p | None => [] end) e ++ rest) = Ok (entry_of_git e, rest).
Proof.
  intros Hw Hver Hlast. unfold wf_gentry, u32ok in Hw. rewrite !andb_true_iff, !N.ltb_lt, Nat.eqb_eq in Hw.
  destruct Hw as (((((((((((((Hname & Hst) & ?) & ?) & ?) & ?) & ?) & ?) & ?) & ?) & ?) & ?) & ?) & _).
  rewrite g_write_entry_bytes, (read_entry_bytes hs ver last _ (ge_stage e) (ge_valid e)); try assumption; try reflexivity.
  unfold fixed_ok. cbn [f_sec f_nsec f_msec f_mnsec f_dev f_ino f_mode f_uid f_gid f_size f_hash]. tauto.
Qed.

Lemma wf_gentry_name_len hs e : wf_gentry hs e = true -> last_ok (Some (ge_name e)).
Proof. unfold wf_gentry. intros Hw. apply andb_true_iff in Hw as [_ Hw]. now apply N.ltb_lt. Qed.

Lemma go_reads_git_entries hs ver : ver = 2 \/ ver = 3 \/ ver = 4 ->
  forall l last rest acc fuel,
  forallb (wf_gentry hs) l = true -> last_ok last -> (List.length l < fuel)%nat ->
  read_entries hs fuel ver (N.of_nat (List.length l)) last
    (g_write_entries hs ver (match last with Some p => p | None => [] end) l ++ rest) acc
  = Ok (rev acc ++ map entry_of_git l, rest).
Proof.
  intros Hver. induction l as [|e l IH]; intros last rest acc fuel Hw Hlast Hfuel.
  - cbn [g_write_entries List.length app map]. now rewrite read_entries_0, app_nil_r.
  - cbn [forallb] in Hw. apply andb_true_iff in Hw as [He Hl].
    destruct fuel as [|fuel]; [cbn in Hfuel; lia|].
    cbn [List.length g_write_entries]. rewrite read_entries_S, <- app_assoc, go_reads_git_entry by assumption.
    change (e_name (entry_of_git e)) with (ge_name e).
    rewrite (IH (Some (ge_name e))) by (try apply wf_gentry_name_len with hs; cbn [List.length] in Hfuel; auto; lia).
    cbn [rev map]. rewrite <- app_assoc. reflexivity.
Qed.

Lemma g_write_entries_length hs ver : forall l prev, (List.length l <= List.length (g_write_entries hs ver prev l))%nat.
Proof.
  induction l as [|e l IH]; intros prev; cbn [g_write_entries List.length]; [lia|].
  rewrite app_length. specialize (IH (ge_name e)).
  assert (1 <= List.length (g_write_entry hs ver prev e))%nat; [|lia].
  unfold g_write_entry. destruct (ver =? 4); rewrite !app_length, u32_length; lia.
Qed.

Section Exts.
Variable hs : nat.
Variable H : bytes -> bytes.
Hypothesis hs_pos : (0 < hs)%nat.
Hypothesis hs_small : N.of_nat hs < 4294967000.
Hypothesis H_len : forall x, List.length (H x) = hs.

(* readExtensions once signature, size and data are taken off: the decoder the signature selects, then the rest *)
Definition ext_dispatch (f : nat) (skip : bool) (all sig data rest : bytes) (idx : index) : res index :=
  if bytes_eqb sig TREE then
    match read_tree_ext hs (S (List.length data)) data [] with
    | Err x => Err x
    | Ok t => read_extensions hs H f skip all rest (mkIndex (i_version idx) (i_entries idx) (Some t) (i_reuc idx) (i_eoie idx))
    end
  else if bytes_eqb sig REUC then
    match read_reuc_ext hs (S (List.length data)) data [] with
    | Err x => Err x
    | Ok r => read_extensions hs H f skip all rest (mkIndex (i_version idx) (i_entries idx) (i_cache idx) (Some r) (i_eoie idx))
    end
  else if bytes_eqb sig EOIE then
    match get_u32 data with None => Err EEof | Some (off, d1) =>
    match take hs d1 with None => Err EEof | Some (h, d2) =>
      read_extensions hs H f skip all rest (mkIndex (i_version idx) (i_entries idx) (i_cache idx) (i_reuc idx) (Some (off, h)))
    end end
  else
    match sig with
    | c :: _ => if (65 <=? c) && (c <=? 90) then read_extensions hs H f skip all rest idx else Err EUnknownExtension
    | [] => Err EEof
    end.

Lemma read_ext_step f skip all sig data rest idx :
  List.length sig = 4%nat -> N.of_nat (List.length data) < 4294967296 -> (hs <= List.length rest)%nat ->
  read_extensions hs H (S f) skip all (sig ++ u32 (N.of_nat (List.length data)) ++ data ++ rest) idx =
  ext_dispatch f skip all sig data rest idx.
Proof.
  intros Hsig Hdata Hrest. cbn [read_extensions].
  rewrite (proj2 (Nat.ltb_ge _ _)) by (rewrite !app_length, u32_length; lia).
  rewrite (take_app_n 4), get_u32_u32 by assumption.
  replace (N.to_nat (N.min (N.of_nat (List.length data)) (N.of_nat (List.length (data ++ rest))))) with (List.length data)
    by (rewrite app_length; lia).
  now rewrite firstn_length_app, skipn_length_app.
Qed.

(* the extensions go-git understands or may skip, as git writes them *)
Inductive xitem := XT (t : ctree) | XR (l : list greuc) | XO (sig data : bytes).

Definition x_pair (x : xitem) : bytes * bytes :=
  match x with XT t => (gTREE, g_write_ct [] t) | XR l => (gREUC, g_write_reuc l) | XO s d => (s, d) end.

Definition x_apply (idx : index) (x : xitem) : index :=
  match x with
  | XT t => mkIndex (i_version idx) (i_entries idx) (Some (ct_flat [] t)) (i_reuc idx) (i_eoie idx)
  | XR l => mkIndex (i_version idx) (i_entries idx) (i_cache idx) (Some (map reuc_view l)) (i_eoie idx)
  | XO _ _ => idx
  end.

(* optional: first byte 'A'..'Z'; not one of the signatures go-git decodes *)
Definition opt_sig (s : bytes) : bool :=
  (List.length s =? 4)%nat && negb (bytes_eqb s TREE) && negb (bytes_eqb s REUC) && negb (bytes_eqb s EOIE) &&
  match s with c :: _ => (65 <=? c) && (c <=? 90) | [] => false end.

Definition x_wf (x : xitem) : bool :=
  (N.of_nat (List.length (snd (x_pair x))) <? 4294967296) &&
  match x with XT t => wf_ct hs t | XR l => forallb (wf_reuc hs) l | XO s _ => opt_sig s end.

Lemma x_step f skip all x rest idx : x_wf x = true -> (hs <= List.length rest)%nat ->
  read_extensions hs H (S f) skip all (g_ext_bytes (x_pair x) ++ rest) idx =
  read_extensions hs H f skip all rest (x_apply idx x).
Proof.
  intros Hw Hrest. unfold x_wf in Hw. apply andb_true_iff in Hw as [Hsz Hw]. apply N.ltb_lt in Hsz.
  unfold g_ext_bytes, g_ext_header. rewrite <- !app_assoc.
  destruct x as [t|l|s d]; cbn [x_pair fst snd] in *.
  - rewrite read_ext_step by (try reflexivity; assumption).
    unfold ext_dispatch. change (bytes_eqb gTREE TREE) with true. cbv iota.
    rewrite (tree_ext_whole hs hs_pos) by exact Hw. reflexivity.
  - rewrite read_ext_step by (try reflexivity; assumption).
    unfold ext_dispatch. change (bytes_eqb gREUC TREE) with false. change (bytes_eqb gREUC REUC) with true. cbv iota.
    rewrite (reuc_ext_whole hs hs_pos) by exact Hw. reflexivity.
  - unfold opt_sig in Hw. rewrite !andb_true_iff, !negb_true_iff, Nat.eqb_eq in Hw.
    destruct Hw as ((((Hl & Ht) & Hr) & He) & Hc).
    rewrite read_ext_step by assumption.
    unfold ext_dispatch. rewrite Ht, Hr, He.
    destruct s as [|c s']; [discriminate|]. rewrite Hc. reflexivity.
Qed.

Lemma x_bytes_length x : (1 <= List.length (g_ext_bytes (x_pair x)))%nat.
Proof. unfold g_ext_bytes, g_ext_header. rewrite !app_length, u32_length. lia. Qed.

Lemma xs_step : forall xs f skip all rest idx,
  forallb x_wf xs = true -> (hs <= List.length rest)%nat ->
  read_extensions hs H (List.length xs + f) skip all (flat_map (fun x => g_ext_bytes (x_pair x)) xs ++ rest) idx =
  read_extensions hs H f skip all rest (fold_left x_apply xs idx).
Proof.
  induction xs as [|x xs IH]; intros f skip all rest idx Hw Hrest; [reflexivity|].
  cbn [forallb] in Hw. apply andb_true_iff in Hw as [Hx Hxs].
  cbn [List.length plus flat_map fold_left]. rewrite <- app_assoc.
  rewrite x_step; [|exact Hx|rewrite app_length; lia].
  now apply IH.
Qed.

(* the EOIE extension as git writes it, then the trailer *)
Lemma eoie_step f skip all off h rest idx :
  off < 4294967296 -> List.length h = hs -> (hs <= List.length rest)%nat ->
  read_extensions hs H (S f) skip all (g_ext_bytes (gEOIE, u32 off ++ h) ++ rest) idx =
  read_extensions hs H f skip all rest (mkIndex (i_version idx) (i_entries idx) (i_cache idx) (i_reuc idx) (Some (off, h))).
Proof.
  intros Hoff Hh Hrest.
  assert (Hdl : N.of_nat (List.length (u32 off ++ h)) < 4294967296) by (rewrite app_length, u32_length; lia).
  remember (u32 off ++ h) as data eqn:Ed.
  unfold g_ext_bytes, g_ext_header. cbn [fst snd]. rewrite <- !app_assoc.
  rewrite read_ext_step; [|reflexivity|exact Hdl|exact Hrest].
  unfold ext_dispatch. change (bytes_eqb gEOIE TREE) with false. change (bytes_eqb gEOIE REUC) with false.
  change (bytes_eqb gEOIE EOIE) with true. cbv iota. subst data.
  now rewrite get_u32_u32, (take_all hs) by assumption.
Qed.

End Exts.

Definition x_list (g : gindex) : list xitem :=
  (match gi_tree g with Some t => [XT t] | None => [] end) ++
  (match gi_reuc g with Some l => [XR l] | None => [] end) ++
  (match gi_untr g with Some d => [XO gUNTR d] | None => [] end) ++
  (match gi_fsmn g with Some d => [XO gFSMN d] | None => [] end).

Lemma g_ext_list_x g : g_ext_list g = map x_pair (x_list g) ++ (if gi_sparse g then [(gsdir, [])] else []).
Proof.
  unfold g_ext_list, x_list.
  destruct (gi_tree g), (gi_reuc g), (gi_untr g), (gi_fsmn g); reflexivity.
Qed.

(* what go-git's Index holds after reading what git wrote for the state g *)
Definition go_view (hs : nat) (H : bytes -> bytes) (eoie : bool) (g : gindex) : index :=
  mkIndex (g_written_version g) (map entry_of_git (gi_entries g))
          (match gi_tree g with Some t => Some (ct_flat [] t) | None => None end)
          (match gi_reuc g with Some l => Some (map reuc_view l) | None => None end)
          (if eoie then Some (git_eoie_offset hs g, git_eoie_hash H g) else None).

Lemma x_list_apply g idx :
  fold_left x_apply (x_list g) idx =
  mkIndex (i_version idx) (i_entries idx)
          (match gi_tree g with Some t => Some (ct_flat [] t) | None => i_cache idx end)
          (match gi_reuc g with Some l => Some (map reuc_view l) | None => i_reuc idx end) (i_eoie idx).
Proof.
  unfold x_list. destruct idx. destruct (gi_tree g), (gi_reuc g), (gi_untr g), (gi_fsmn g); reflexivity.
Qed.

(* versions 2..4, entries with 32-bit fields and C-string names, extension sizes below 2^32 (and the
   file below 4 GB when the EOIE offset is recorded); a sparse index (sdir) is the subject of
   mandatory_refused below *)
Definition wf_gstate (hs : nat) (eoie : bool) (g : gindex) : bool :=
  ((gi_version g =? 2) || (gi_version g =? 3) || (gi_version g =? 4)) &&
  forallb (wf_gentry hs) (gi_entries g) && (N.of_nat (List.length (gi_entries g)) <? 4294967296) &&
  forallb (x_wf hs) (x_list g) &&
  (if eoie then git_eoie_offset hs g <? 4294967296 else true).

Definition wf_gindex (hs : nat) (eoie : bool) (g : gindex) : bool := wf_gstate hs eoie g && negb (gi_sparse g).

Lemma flat_map_map {A B C} (f : B -> list C) (g : A -> B) l : flat_map f (map g l) = flat_map (fun x => f (g x)) l.
Proof. induction l as [|x l IH]; cbn; [reflexivity|]. now rewrite IH. Qed.

Lemma xs_bytes_length : forall xs : list xitem, (List.length xs <= List.length (flat_map (fun x => g_ext_bytes (x_pair x)) xs))%nat.
Proof.
  intros xs. apply flat_map_length_ge. intros x.
  unfold g_ext_bytes, g_ext_header. rewrite !app_length, u32_length. lia.
Qed.

Lemma written_version_ok g :
  ((gi_version g =? 2) || (gi_version g =? 3) || (gi_version g =? 4))%bool = true ->
  g_written_version g = 2 \/ g_written_version g = 3 \/ g_written_version g = 4.
Proof.
  unfold g_written_version. intros Hv.
  destruct (gi_version g =? 2) eqn:E2; [cbn [orb]; destruct (existsb _ _); auto|].
  destruct (gi_version g =? 3) eqn:E3; [cbn [orb]; destruct (existsb _ _); auto|].
  cbn [orb] in *. apply N.eqb_eq in Hv. auto.
Qed.

Section File.
Variable hs : nat.
Variable H : bytes -> bytes.
Hypothesis hs_pos : (0 < hs)%nat.
Hypothesis hs_small : N.of_nat hs < 4294967000.
Hypothesis H_len : forall x, List.length (H x) = hs.

(* header and entries of a file git wrote, whatever follows *)
Lemma decode_entries skip g rest eoie :
  wf_gstate hs eoie g = true ->
  decode hs H skip (git_encode_entries hs g ++ rest) =
  read_extensions hs H (S (List.length rest)) skip (git_encode_entries hs g ++ rest) rest
    (mkIndex (g_written_version g) (map entry_of_git (gi_entries g)) None None None).
Proof.
  unfold wf_gstate. rewrite !andb_true_iff, N.ltb_lt. intros ((((Hv & He) & Hcount) & _) & _).
  pose proof (written_version_ok g Hv) as Hver.
  destruct (ver_range _ Hver) as [Hvlt Hrange].
  unfold decode, git_encode_entries. rewrite <- !app_assoc.
  rewrite (take_app_n 4 gDIRC) by reflexivity. cbn [bytes_eqb gDIRC DIRC N.eqb Pos.eqb andb negb].
  rewrite !get_u32_u32, Hrange by assumption.
  rewrite (go_reads_git_entries hs (g_written_version g) Hver (gi_entries g) None rest []); [reflexivity|exact He|exact I|].
  rewrite app_length. pose proof (g_write_entries_length hs (g_written_version g) (gi_entries g) []). lia.
Qed.

Definition eoie_bytes (eoie : bool) (g : gindex) : bytes :=
  if eoie then g_ext_bytes (gEOIE, u32 (git_eoie_offset hs g) ++ git_eoie_hash H g) else [].
Definition xs_bytes (g : gindex) : bytes := flat_map (fun x => g_ext_bytes (x_pair x)) (x_list g).

(* up to the end of the extensions go-git knows or skips; fuel is left for whatever follows *)
Lemma decode_exts skip g rest eoie :
  wf_gstate hs eoie g = true -> (hs <= List.length rest)%nat ->
  exists f, decode hs H skip (git_encode_entries hs g ++ xs_bytes g ++ rest) =
            read_extensions hs H (S f) skip (git_encode_entries hs g ++ xs_bytes g ++ rest) rest (go_view hs H false g).
Proof.
  intros Hw Hrest. rewrite (decode_entries skip g _ eoie Hw).
  unfold wf_gstate in Hw. rewrite !andb_true_iff in Hw. destruct Hw as ((_ & Hxs) & _).
  unfold xs_bytes. pose proof (xs_bytes_length (x_list g)) as Hlen.
  eexists.
  replace (S (List.length (flat_map (fun x => g_ext_bytes (x_pair x)) (x_list g) ++ rest)))
    with (List.length (x_list g) + S (List.length (flat_map (fun x => g_ext_bytes (x_pair x)) (x_list g) ++ rest) - List.length (x_list g)))%nat
    by (rewrite app_length; lia).
  rewrite (xs_step hs H hs_pos hs_small H_len), x_list_apply by assumption. reflexivity.
Qed.

Lemma git_encode_split eoie skip_w g :
  exists body tr, git_encode hs H eoie skip_w g = body ++ tr /\ (tr = zeros hs \/ tr = H body) /\
                  body = git_encode_entries hs g ++ flat_map g_ext_bytes (g_ext_list g) ++ eoie_bytes eoie g.
Proof. eexists _, _. split; [reflexivity|]. split; [destruct skip_w; auto|reflexivity]. Qed.

Lemma trailer_ok tr body : tr = zeros hs \/ tr = H body ->
  List.length tr = hs /\ (is_zero tr = false -> tr = fit hs (H body)).
Proof.
  intros [-> | ->]; (split; [auto using zeros_length|]).
  - now rewrite is_zero_zeros.
  - intros _. symmetry. apply fit_id, H_len.
Qed.

Theorem we_read_git eoie skip_w skip_r g :
  wf_gindex hs eoie g = true ->
  decode hs H skip_r (git_encode hs H eoie skip_w g) = Ok (go_view hs H eoie g).
Proof.
  unfold wf_gindex. intros Hw. apply andb_true_iff in Hw as [Hw Hsp]. apply negb_true_iff in Hsp.
  destruct (git_encode_split eoie skip_w g) as (body & tr & -> & Htr & Ebody).
  destruct (trailer_ok tr body Htr) as [Htl Hfit].
  assert (Efile : body ++ tr = git_encode_entries hs g ++ xs_bytes g ++ eoie_bytes eoie g ++ tr).
  { rewrite Ebody, g_ext_list_x, Hsp, app_nil_r, flat_map_map, <- !app_assoc. reflexivity. }
  destruct (decode_exts skip_r g (eoie_bytes eoie g ++ tr) eoie Hw) as (f & E).
  { rewrite app_length. lia. }
  rewrite Efile, E, <- Efile. unfold eoie_bytes, go_view. destruct eoie; cbn [app].
  - unfold wf_gstate in Hw. rewrite !andb_true_iff, N.ltb_lt in Hw.
    rewrite (eoie_step hs H hs_pos hs_small H_len) by (try apply H_len; lia || apply Hw).
    now apply read_trailer.
  - now apply read_trailer.
Qed.

(* a sparse index carries the mandatory `sdir` extension: go-git refuses the file (git reads it) *)
Theorem mandatory_refused eoie skip_w skip_r g :
  wf_gstate hs eoie g = true -> gi_sparse g = true ->
  decode hs H skip_r (git_encode hs H eoie skip_w g) = Err EUnknownExtension.
Proof.
  intros Hw Hsp.
  destruct (git_encode_split eoie skip_w g) as (body & tr & -> & Htr & Ebody).
  destruct (trailer_ok tr body Htr) as [Htl _].
  assert (Efile : body ++ tr = git_encode_entries hs g ++ xs_bytes g ++
                               gsdir ++ u32 (N.of_nat (List.length (@nil N))) ++ [] ++ eoie_bytes eoie g ++ tr).
  { rewrite Ebody, g_ext_list_x, Hsp, flat_map_app, flat_map_map, <- !app_assoc. reflexivity. }
  destruct (decode_exts skip_r g (gsdir ++ u32 (N.of_nat (List.length (@nil N))) ++ [] ++ eoie_bytes eoie g ++ tr) eoie Hw) as (f & E).
  { rewrite !app_length. lia. }
  rewrite Efile, E.
  rewrite (read_ext_step hs H hs_pos hs_small H_len); [reflexivity|reflexivity|cbn; lia|rewrite app_length; lia].
Qed.

End File.
