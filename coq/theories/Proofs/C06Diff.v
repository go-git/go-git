(* Proofs/C06Diff.v — diffDelta followed by any applier gives the target back,
   for an ARBITRARY candidate function standing for the hash index. *)
From Coq Require Import List NArith Arith Lia Bool.
From Coq Require Import ZifyBool ZifyNat ZifyN.
From GoGit Require Import Base.Out Model.Delta Proofs.C06Apply.
Import ListNotations.
Local Open Scope N_scope.

Lemma prefix_res_nil r : prefix_res [] r = r.
Proof. destruct r; reflexivity. Qed.

Lemma prefix_res_app a b r : prefix_res a (prefix_res b r) = prefix_res (a ++ b) r.
Proof. destruct r; cbn; [rewrite app_assoc|]; reflexivity. Qed.

Lemma firstn_add {A} (n m : nat) (l : list A) :
  firstn (n + m) l = firstn n l ++ firstn m (skipn n l).
Proof.
  revert l. induction n as [|n IH]; intros l; [reflexivity|].
  destruct l; [cbn; rewrite firstn_nil; reflexivity|]. cbn. f_equal. apply IH.
Qed.

Lemma slice_split b off n m : slice b off (n + m) = slice b off n ++ slice b (off + n) m.
Proof.
  rewrite !slice_spec. rewrite N2Nat.inj_add, firstn_add. f_equal.
  rewrite skipn_skipn_add. f_equal. f_equal. lia.
Qed.

Lemma pd_loop_irrel src srcsz : forall f f' d rem,
  (List.length d < f)%nat -> (List.length d < f')%nat ->
  pd_loop f src srcsz d rem = pd_loop f' src srcsz d rem.
Proof.
  induction f as [|f IH]; intros f' d rem Hf Hf'; [lia|]. destruct f' as [|f']; [lia|].
  destruct (N.eqb_spec rem 0) as [->|Hrem]; [rewrite !pd_loop_0; reflexivity|].
  destruct d as [|cmd r]; [reflexivity|]. cbn [List.length] in Hf, Hf'.
  rewrite !pd_loop_S by assumption.
  destruct (pd_step src srcsz cmd r rem) as [[[p d'] sz]|] eqn:Hs; [|reflexivity].
  apply pd_step_len in Hs. f_equal. apply IH; lia.
Qed.

Definition pdc (src d : bytes) (rem : N) : res bytes := pd_loop (S (List.length d)) src (len src) d rem.

Lemma pdc_step src cmd d rem p d' sz :
  rem <> 0 -> pd_step src (len src) cmd d rem = Ok (p, d', sz) ->
  pdc src (cmd :: d) rem = prefix_res p (pdc src d' (rem - sz)).
Proof.
  intros Hrem Hs. unfold pdc. cbn [List.length]. rewrite pd_loop_S, Hs by assumption.
  apply pd_step_len in Hs. f_equal. apply pd_loop_irrel; lia.
Qed.

Lemma small_land127 x : x < 128 -> N.land x 127 = x.
Proof. exact (land_ones_small x 7). Qed.

Lemma land_small c : c < 128 -> N.land c 128 = 0.
Proof.
  intros H. rewrite <- (small_land127 c H), <- N.land_assoc. change (N.land 127 128) with 0. apply N.land_0_r.
Qed.

Lemma land127_128 n : N.land (N.land n 127) 128 = 0.
Proof. apply land_small, land127_lt. Qed.

Lemma land127_idem n : N.land (N.land n 127) 127 = N.land n 127.
Proof. apply small_land127, land127_lt. Qed.

Lemma split_low n k : N.lor (N.land n (N.ones k)) (N.shiftl (N.shiftr n k) k) = n.
Proof. rewrite <- N.ldiff_ones_r, N.lor_comm. apply N.lor_ldiff_and. Qed.

Lemma split7 n : N.lor (N.land n 127) (N.shiftl (N.shiftr n 7) 7) = n.
Proof. exact (split_low n 7). Qed.

(* a byte with the continuation flag: the flag is seen, the payload is unchanged *)
Lemma flagged_land128 c : c < 128 -> N.land (N.lor c 128) 128 =? 0 = false.
Proof. intros H. rewrite N.land_lor_distr_l, land_small by assumption. reflexivity. Qed.

Lemma flagged_land127 c : c < 128 -> N.land (N.lor c 128) 127 = c.
Proof.
  intros H. rewrite N.land_lor_distr_l, small_land127 by assumption. change (N.land 128 127) with 0. apply N.lor_0_r.
Qed.

Lemma shiftr7_fuel s f : s < 2 ^ (7 * N.of_nat (S f)) -> N.shiftr s 7 < 2 ^ (7 * N.of_nat f).
Proof. intros H. apply shiftr_lt_pow2. replace (7 + 7 * N.of_nat f) with (7 * N.of_nat (S f)) by lia. exact H. Qed.

Lemma pow7_pos x m : x <> 0 -> x < 2 ^ (7 * N.of_nat m) -> (1 <= m)%nat.
Proof. destruct m; [change (2 ^ (7 * N.of_nat 0)) with 1|]; lia. Qed.

Lemma leb_rd_enc : forall f n k acc rest,
  n < 2 ^ (7 * N.of_nat f) -> n < 2 ^ (7 * N.of_nat (9 - k)) -> (1 <= 9 - k)%nat -> (1 <= f)%nat ->
  leb_rd_go (enc_leb_go f n ++ rest) k acc = Ok (N.lor acc (N.shiftl n (7 * N.of_nat k)), rest).
Proof.
  induction f as [|f IH]; intros n k acc rest Hf Hk Hk8 Hf1; [lia|].
  cbn [enc_leb_go]. cbv zeta.
  assert (Hltb : Nat.ltb 8 k = false) by (apply Nat.ltb_ge; lia).
  destruct (N.shiftr n 7 =? 0) eqn:E.
  - apply N.eqb_eq in E.
    assert (En : N.land n 127 = n).
    { pose proof (split7 n) as S7. rewrite E, N.shiftl_0_l, N.lor_0_r in S7. exact S7. }
    cbn [app leb_rd_go]. rewrite Hltb. unfold leb_step.
    rewrite land127_128, land127_idem, En. cbn [N.eqb]. reflexivity.
  - apply N.eqb_neq in E.
    cbn [app leb_rd_go]. rewrite Hltb. unfold leb_step.
    rewrite flagged_land128, flagged_land127 by apply land127_lt.
    apply shiftr7_fuel in Hf. replace (9 - k)%nat with (S (9 - S k)) in Hk by lia. apply shiftr7_fuel in Hk.
    rewrite IH by eauto using pow7_pos.
    f_equal. f_equal.
    rewrite <- N.lor_assoc. f_equal.
    rewrite <- (split7 n) at 3. rewrite N.shiftl_lor, N.shiftl_shiftl. f_equal. f_equal. lia.
Qed.

Lemma pow_mono_2 a b : a <= b -> 2 ^ a <= 2 ^ b.
Proof. intros. apply N.pow_le_mono_r; [discriminate|assumption]. Qed.

Lemma leb_rd_enc_leb n rest : n < 2 ^ 63 -> leb_rd (enc_leb n ++ rest) = Ok (n, rest).
Proof.
  intros H. unfold leb_rd, enc_leb. rewrite leb_rd_enc.
  - rewrite N.shiftl_0_r. reflexivity.
  - apply N.lt_le_trans with (2 ^ N.size n); [apply N.size_gt|]. apply pow_mono_2. lia.
  - exact H.
  - lia.
  - lia.
Qed.

Lemma leb_buf_enc_leb n rest : n < 2 ^ 63 -> leb_buf (enc_leb n ++ rest) = Ok (n, rest).
Proof. intros H. unfold leb_buf. apply leb_rd_buf. apply (leb_rd_enc_leb n rest H). Qed.

Lemma pdc_insert src b rest rem :
  1 <= len b -> len b <= 127 -> len b <= rem ->
  pdc src (len b :: b ++ rest) rem = prefix_res b (pdc src rest (rem - len b)).
Proof.
  intros H1 H127 Hrem. apply pdc_step; [lia|].
  unfold pd_step, is_copy_src, is_copy_delta, mask_continue, invalid_size.
  rewrite land_small by lia. cbn [N.eqb negb andb].
  rewrite (proj2 (N.eqb_neq (len b) 0)), (proj2 (N.ltb_ge rem (len b))), (proj2 (N.ltb_ge (len (b ++ rest)) (len b)))
    by (rewrite ?len_app; lia).
  rewrite take_firstn, drop_skipn. unfold len.
  rewrite Nat2N.id, firstn_app, skipn_app, firstn_all, skipn_all, Nat.sub_diag, app_nil_r. reflexivity.
Qed.

Lemma pdc_enc_insert_go src : forall fuel b rest rem,
  (List.length b < fuel)%nat ->
  pdc src (enc_insert_go fuel b ++ rest) (len b + rem) = prefix_res b (pdc src rest rem).
Proof.
  induction fuel as [|fuel IH]; intros b rest rem Hf; [lia|].
  cbn [enc_insert_go]. destruct b as [|x b'] eqn:Eb.
  - cbn [is_nil app]. rewrite prefix_res_nil. reflexivity.
  - cbn [is_nil]. rewrite <- Eb in *. assert (Hb1 : 1 <= len b) by (subst b; unfold len; cbn [List.length]; lia).
    clear Eb x b'. destruct (127 <? len b) eqn:E.
    + apply N.ltb_lt in E.
      rewrite <- app_comm_cons, <- app_assoc.
      assert (Ht : len (take 127 b) = 127) by (apply len_take; lia).
      rewrite <- Ht at 1. rewrite pdc_insert by (rewrite ?Ht; lia). rewrite Ht.
      replace (len b + rem - 127) with (len (drop 127 b) + rem) by (rewrite len_drop; lia).
      rewrite IH.
      * rewrite prefix_res_app, take_drop. reflexivity.
      * rewrite drop_skipn, skipn_length. unfold len in E. lia.
    + apply N.ltb_ge in E. rewrite <- app_comm_cons.
      rewrite pdc_insert by lia. f_equal. f_equal. lia.
Qed.

Lemma pdc_enc_insert src b rest rem :
  pdc src (enc_insert b ++ rest) (len b + rem) = prefix_res b (pdc src rest rem).
Proof. unfold enc_insert. apply pdc_enc_insert_go. lia. Qed.

Lemma pdc_enc_insert_all src b : pdc src (enc_insert b) (len b) = Ok b.
Proof.
  pose proof (pdc_enc_insert src b [] 0) as H. rewrite app_nil_r, N.add_0_r in H.
  change (pdc src [] 0) with (@Ok bytes []) in H.
  rewrite H. cbn [prefix_res]. rewrite app_nil_r. reflexivity.
Qed.

(* enc_fields over the list of its field bytes *)
Fixpoint enc_list (bit : N) (es : list N) : N * bytes :=
  match es with
  | [] => (0, [])
  | e :: t =>
    let '(code, bs) := enc_list (2 * bit) t in
    if e =? 0 then (code, bs) else (N.lor bit code, e :: bs)
  end.

Lemma enc_fields_list4 v : enc_fields 4 0 1 v = enc_list (2 ^ 0) (map (field_byte v) [0; 1; 2; 3]).
Proof. reflexivity. Qed.

Lemma enc_fields_list3 v : enc_fields 3 0 16 v = enc_list (2 ^ 4) (map (field_byte v) [0; 1; 2]).
Proof. reflexivity. Qed.

Definition nonzero (e : N) : bool := negb (e =? 0).

Lemma enc_list_snd es : forall bit, snd (enc_list bit es) = filter nonzero es.
Proof.
  induction es as [|e t IH]; intros bit; [reflexivity|].
  cbn [enc_list filter]. specialize (IH (2 * bit)). destruct (enc_list (2 * bit) t) as [code bs].
  unfold nonzero at 1. destruct (e =? 0); cbn [snd negb] in *; congruence.
Qed.

(* bit j+i of the code says whether field i is present; no other bit is set *)
Lemma enc_list_bit es : forall j k,
  N.testbit (fst (enc_list (2 ^ j) es)) k =
  if k <? j then false else nonzero (nth (N.to_nat (k - j)) es 0).
Proof.
  induction es as [|e t IH]; intros j k.
  - cbn [enc_list fst]. rewrite N.bits_0. destruct (k <? j), (N.to_nat (k - j)); reflexivity.
  - cbn [enc_list]. rewrite <- N.pow_succ_r'. specialize (IH (N.succ j) k).
    destruct (enc_list (2 ^ N.succ j) t) as [code bs]. cbn [fst] in IH.
    assert (E : N.testbit (fst (if e =? 0 then (code, bs) else (N.lor (2 ^ j) code, e :: bs))) k
                = (nonzero e && (j =? k)) || N.testbit code k).
    { unfold nonzero. destruct (e =? 0); cbn [fst negb andb orb]; [reflexivity|].
      rewrite N.lor_spec, N.pow2_bits_eqb. reflexivity. }
    rewrite E, IH. clear E IH.
    destruct (N.ltb_spec k j) as [H|H].
    + replace (j =? k) with false by lia. replace (k <? N.succ j) with true by lia.
      rewrite andb_false_r. reflexivity.
    + destruct (N.eqb_spec j k) as [->|Hne].
      * replace (k <? N.succ k) with true by lia. rewrite N.sub_diag, andb_true_r, orb_false_r. reflexivity.
      * replace (k <? N.succ j) with false by lia.
        replace (N.to_nat (k - j)) with (S (N.to_nat (k - N.succ j))) by lia. rewrite andb_false_r. reflexivity.
Qed.

Lemma land_bit_eqb c k : (N.land c (2 ^ k) =? 0) = negb (N.testbit c k).
Proof.
  destruct (N.testbit c k) eqn:E; cbn [negb].
  - apply N.eqb_neq. intros H. apply (f_equal (fun x => N.testbit x k)) in H.
    rewrite N.land_spec, E, N.pow2_bits_true, N.bits_0 in H. discriminate.
  - apply N.eqb_eq, N.bits_inj. intros m. rewrite N.land_spec, N.pow2_bits_eqb, N.bits_0.
    destruct (N.eqb_spec k m) as [<-|]; [rewrite E|rewrite andb_false_r]; reflexivity.
Qed.

Definition join_fields (ss es : list N) (acc : N) : N :=
  fold_left (fun a se => N.lor a (N.shiftl (snd se) (fst se))) (combine ss es) acc.

(* a table given by (bit position, shift) pairs reads back the non-zero fields, provided the
   command byte has bit k set exactly when field k is non-zero *)
Lemma dec_params_fields cmd rest : forall (tbl : list (N * N)) es acc,
  Forall2 (fun ks e => N.testbit cmd (fst ks) = nonzero e) tbl es ->
  dec_params (map (fun ks => (2 ^ fst ks, snd ks)) tbl) cmd (filter nonzero es ++ rest) acc
  = Some (join_fields (map snd tbl) es acc, rest).
Proof.
  intros tbl es acc H. revert acc. induction H as [|[k s] e tbl es He _ IH]; intros acc; [reflexivity|].
  cbn [map dec_params filter fst snd]. cbn [fst] in He. rewrite land_bit_eqb, He.
  unfold join_fields. cbn [combine fold_left fst snd].
  destruct (nonzero e) eqn:E; cbn [negb app]; [apply IH|].
  apply negb_false_iff, N.eqb_eq in E. subst e. rewrite N.shiftl_0_l, N.lor_0_r. apply IH.
Qed.

Lemma dec_enc_copy off l rest :
  let cb1 := enc_list (2 ^ 0) (map (field_byte off) [0; 1; 2; 3]) in
  let cb2 := enc_list (2 ^ 4) (map (field_byte l) [0; 1; 2]) in
  let cmd := N.lor 128 (N.lor (fst cb1) (fst cb2)) in
  N.land cmd 128 <> 0 /\
  dec_params offsets_tbl cmd (snd cb1 ++ snd cb2 ++ rest) 0
    = Some (join_fields [0; 8; 16; 24] (map (field_byte off) [0; 1; 2; 3]) 0, snd cb2 ++ rest) /\
  dec_params sizes_tbl cmd (snd cb2 ++ rest) 0 = Some (join_fields [0; 8; 16] (map (field_byte l) [0; 1; 2]) 0, rest).
Proof.
  intros cb1 cb2 cmd.
  assert (B : forall k, N.testbit cmd k = N.testbit 128 k || (N.testbit (fst cb1) k || N.testbit (fst cb2) k))
    by (intros k; unfold cmd; rewrite !N.lor_spec; reflexivity).
  unfold cb1, cb2 in *. rewrite !enc_list_snd. split; [|split].
  - apply N.eqb_neq. change (N.land cmd (2 ^ 7) =? 0 = false). rewrite land_bit_eqb, B. reflexivity.
  - apply (dec_params_fields cmd _ [(0, 0); (1, 8); (2, 16); (3, 24)]).
    repeat constructor; cbn [fst]; rewrite B, !enc_list_bit; cbn; rewrite ?orb_false_r; reflexivity.
  - apply (dec_params_fields cmd _ [(4, 0); (5, 8); (6, 16)]).
    repeat constructor; cbn [fst]; rewrite B, !enc_list_bit; cbn; reflexivity.
Qed.

Lemma field_shift v k : N.shiftl (N.shiftr (N.land v (N.shiftl 255 k)) k) k = N.land v (N.shiftl 255 k).
Proof.
  apply N.bits_inj. intro m. destruct (N.lt_ge_cases m k) as [H|H].
  - rewrite N.shiftl_spec_low by assumption. rewrite N.land_spec, N.shiftl_spec_low by assumption.
    rewrite andb_false_r. reflexivity.
  - rewrite N.shiftl_spec_high' by assumption. rewrite N.shiftr_spec', N.sub_add by assumption. reflexivity.
Qed.

Lemma join_field_bytes v ks : forall m,
  join_fields (map (N.mul 8) ks) (map (field_byte v) ks) (N.land v m) =
  N.land v (fold_left (fun a k => N.lor a (N.shiftl 255 (8 * k))) ks m).
Proof.
  unfold join_fields. induction ks as [|k ks IH]; intros m; [reflexivity|].
  cbn [map combine fold_left fst snd].
  rewrite (field_shift v (8 * k) : N.shiftl (field_byte v k) (8 * k) = _), <- N.land_lor_distr_r. apply IH.
Qed.

Lemma recompose4 v : v < 2 ^ 32 ->
  join_fields [0; 8; 16; 24] (map (field_byte v) [0; 1; 2; 3]) 0 = v.
Proof.
  intros H. pose proof (join_field_bytes v [0; 1; 2; 3] 0) as E. rewrite N.land_0_r in E.
  exact (eq_trans E (land_ones_small v 32 H)).
Qed.

Lemma recompose3 v : v < 2 ^ 24 ->
  join_fields [0; 8; 16] (map (field_byte v) [0; 1; 2]) 0 = v.
Proof.
  intros H. pose proof (join_field_bytes v [0; 1; 2] 0) as E. rewrite N.land_0_r in E.
  exact (eq_trans E (land_ones_small v 24 H)).
Qed.

Lemma pdc_copy src off l rest rem :
  off < 2 ^ 32 -> 1 <= l -> l <= 65536 -> off + l <= len src -> l <= rem ->
  pdc src (enc_copy off l ++ rest) rem = prefix_res (slice src off l) (pdc src rest (rem - l)).
Proof.
  intros Hoff Hl1 Hl2 Hsrc Hrem. unfold enc_copy.
  rewrite enc_fields_list4, enc_fields_list3.
  pose proof (dec_enc_copy off l rest) as D. cbv zeta in D.
  destruct (enc_list (2 ^ 0) _) as [c1 b1], (enc_list (2 ^ 4) _) as [c2 b2].
  cbn [fst snd] in D. destruct D as (Dc & Do & Ds).
  assert (Hl24 : l < 2 ^ 24) by (apply N.le_lt_trans with 65536; [assumption|vm_compute; reflexivity]).
  rewrite recompose4 in Do by assumption. rewrite recompose3 in Ds by assumption.
  rewrite <- app_comm_cons, <- app_assoc. apply pdc_step; [lia|].
  unfold pd_step, is_copy_src, mask_continue, dec_offset, dec_size.
  rewrite (proj2 (N.eqb_neq _ _) Dc), Do, Ds, (proj2 (N.eqb_neq l 0)) by lia. cbn [negb].
  rewrite (proj2 (copy_check_ok src off l rem Hoff Hl24)) by (split; assumption). reflexivity.
Qed.

Lemma pdc_copies src : forall fuel off l rest rem,
  l < 65536 * N.of_nat fuel -> off + l <= len src -> len src <= 2 ^ 32 ->
  pdc src (enc_copies fuel off l ++ rest) (l + rem) = prefix_res (slice src off l) (pdc src rest rem).
Proof.
  induction fuel as [|fuel IH]; intros off l rest rem Hf Hsrc H32; [lia|].
  cbn [enc_copies]. unfold max_copy_size. destruct (l =? 0) eqn:E0.
  - apply N.eqb_eq in E0. subst l. cbn [app]. rewrite slice_spec. cbn [N.to_nat firstn].
    rewrite prefix_res_nil. reflexivity.
  - apply N.eqb_neq in E0. destruct (l <? 65536) eqn:E1.
    + apply N.ltb_lt in E1. rewrite pdc_copy by lia. f_equal. f_equal. lia.
    + apply N.ltb_ge in E1. rewrite <- app_assoc. rewrite pdc_copy by lia.
      replace (l + rem - 65536) with ((l - 65536) + rem) by lia.
      rewrite IH, prefix_res_app, <- slice_split by lia. f_equal. f_equal. lia.
Qed.

Lemma pdc_copy_run src off l rest rem :
  off + l <= len src -> len src <= 2 ^ 32 ->
  pdc src (enc_copy_run off l ++ rest) (l + rem) = prefix_res (slice src off l) (pdc src rest rem).
Proof.
  intros Hs H32. unfold enc_copy_run, max_copy_size. apply pdc_copies; try assumption.
  rewrite Nat2N.inj_succ, N2Nat.id.
  pose proof (N.div_mod l 65536 ltac:(discriminate)). pose proof (N.mod_lt l 65536 ltac:(discriminate)). lia.
Qed.

Lemma common_prefix_spec a : forall b,
  firstn (common_prefix a b) a = firstn (common_prefix a b) b /\
  (common_prefix a b <= List.length a)%nat /\ (common_prefix a b <= List.length b)%nat.
Proof.
  induction a as [|x a IH]; intros b; [cbn; repeat split; lia|].
  destruct b as [|y b]; [cbn; repeat split; lia|].
  cbn [common_prefix]. destruct (x =? y) eqn:E; [|cbn; repeat split; lia].
  apply N.eqb_eq in E. subst y. destruct (IH b) as (A & B & C).
  cbn [firstn List.length]. repeat split; [f_equal; exact A|lia|lia].
Qed.

Lemma shorter_spec {A} (l : list A) n : shorter l n = Nat.ltb (List.length l) n.
Proof.
  revert l. induction n as [|n IH]; intros l; [destruct l; reflexivity|].
  destruct l as [|x l]; [reflexivity|]. cbn [shorter List.length]. rewrite IH. reflexivity.
Qed.

(* the operation sequences diffDelta can emit with [p] pending (oldest byte first) and [t] left of
   the target: everything as inserts; l more bytes pending; or the pending bytes flushed and a
   copy of the l bytes that t shares with the source at [off] *)
Inductive diff_ops (src : bytes) : bytes -> bytes -> bytes -> Prop :=
| ops_flush p t : diff_ops src p t (enc_insert (p ++ t))
| ops_skip l p t ops : diff_ops src (p ++ firstn l t) (skipn l t) ops -> diff_ops src p t ops
| ops_copy off l p t rest :
    (0 < l <= List.length t)%nat -> (off + l <= List.length src)%nat ->
    firstn l (skipn off src) = firstn l t ->
    diff_ops src [] (skipn l t) rest ->
    diff_ops src p t (enc_insert p ++ enc_copy_run (N.of_nat off) (N.of_nat l) ++ rest).

Lemma diff_loop_ops src pick : forall fuel t i ib, (List.length t < fuel)%nat ->
  exists ops, diff_loop fuel pick src t i ib = Some ops /\ diff_ops src (rev ib) t ops.
Proof.
  induction fuel as [|fuel IH]; intros t i ib Hf; [lia|].
  cbn [diff_loop]. destruct t as [|c t'].
  - eexists. split; [reflexivity|]. rewrite <- (app_nil_r (rev ib)) at 2. constructor.
  - destruct (shorter (c :: t') blk); [eexists; split; [reflexivity|constructor]|].
    destruct (shorter src blk); [eexists; split; [reflexivity|constructor]|].
    cbn [List.length] in Hf.
    assert (Hone : exists ops, diff_loop fuel pick src t' (S i) (c :: ib) = Some ops /\
                               diff_ops src (rev ib) (c :: t') ops).
    { destruct (IH t' (S i) (c :: ib) ltac:(lia)) as (ops & E & O). exists ops. split; [exact E|].
      apply (ops_skip src 1). exact O. }
    destruct (pick i) as [off|]; [|exact Hone].
    set (l := common_prefix (skipn off src) (c :: t')).
    destruct (Nat.eqb l 0) eqn:El0; [exact Hone|]. apply Nat.eqb_neq in El0.
    assert (Hsk : (List.length (skipn l (c :: t')) < fuel)%nat) by (rewrite skipn_length; cbn [List.length]; lia).
    destruct (Nat.ltb l blk).
    + destruct (IH _ (i + l)%nat (rev (firstn l (c :: t')) ++ ib) Hsk) as (ops & E & O). exists ops. split; [exact E|].
      rewrite rev_app_distr, rev_involutive in O. apply (ops_skip src l). exact O.
    + destruct (IH _ (i + l)%nat [] Hsk) as (rest & E & O). rewrite E. eexists. split; [reflexivity|].
      destruct (common_prefix_spec (skipn off src) (c :: t')) as (Hcp & Hls & Hlt). fold l in Hcp, Hls, Hlt.
      rewrite skipn_length in Hls. apply ops_copy; [lia|lia|exact Hcp|exact O].
Qed.

Lemma diff_ops_sound src : len src <= 2 ^ 32 ->
  forall p t ops, diff_ops src p t ops -> pdc src ops (len (p ++ t)) = Ok (p ++ t).
Proof.
  intros H32 p t ops H. induction H as [p t|l p t ops _ IH|off l p t rest Hl Hoff Hcp _ IH].
  - apply pdc_enc_insert_all.
  - rewrite <- app_assoc, firstn_skipn in IH. exact IH.
  - assert (Hlen : len t = N.of_nat l + len (skipn l t)).
    { rewrite <- (firstn_skipn l t) at 1. rewrite len_app. f_equal. unfold len. rewrite firstn_length. lia. }
    cbn [app] in IH. rewrite len_app, Hlen, pdc_enc_insert, pdc_copy_run, IH by (assumption || (unfold len; lia)).
    cbn [prefix_res]. f_equal. f_equal.
    rewrite slice_spec, !Nat2N.id, Hcp. apply firstn_skipn.
Qed.

Lemma diff_delta_ops pick src tgt :
  exists ops, diff_delta pick src tgt = Some (enc_leb (len src) ++ enc_leb (len tgt) ++ ops) /\ diff_ops src [] tgt ops.
Proof.
  unfold diff_delta.
  destruct (diff_loop_ops src pick (S (List.length tgt)) tgt 0%nat [] (Nat.lt_succ_diag_r _)) as (ops & E & O).
  rewrite E. eauto.
Qed.

Lemma pow32_63 : 2 ^ 32 < 2 ^ 63.
Proof. vm_compute. reflexivity. Qed.

(* the delta of diffDelta applies back to the target, and both of its size headers are read by the
   reader-side decoder too *)
Lemma diff_roundtrip_hdrs pick src tgt :
  len src <= 2 ^ 32 -> len tgt < 2 ^ 63 ->
  exists d, diff_delta pick src tgt = Some d /\ patch_delta src d = Ok tgt /\ rd_hdrs d.
Proof.
  intros H32 H63. destruct (diff_delta_ops pick src tgt) as (ops & E & O).
  assert (Hs63 : len src < 2 ^ 63) by (pose proof pow32_63; lia).
  eexists. split; [exact E|]. split; [|do 4 eexists; split; apply leb_rd_enc_leb; assumption].
  unfold patch_delta. rewrite leb_buf_enc_leb, N.eqb_refl by assumption. cbn [negb].
  rewrite leb_buf_enc_leb by assumption. exact (diff_ops_sound src H32 _ _ _ O).
Qed.

Lemma diff_roundtrip pick src tgt :
  len src <= 2 ^ 32 -> len tgt < 2 ^ 63 ->
  exists d, diff_delta pick src tgt = Some d /\ patch_delta src d = Ok tgt.
Proof.
  intros H32 H63. destruct (diff_roundtrip_hdrs pick src tgt H32 H63) as (d & Hd & Hp & _). eauto.
Qed.
