(* Proofs/C32Porcelain.v — consequences of a sparse reset / checkout in the flat
   model of Model/SparseCheckout.v: flags, materialisation, untracked files. *)
From Coq Require Import List NArith Arith Lia Bool.
From GoGit Require Import Base.Out Model.SparseCheckout Spec.SparseSpec Proofs.C32.
Import ListNotations.
Local Open Scope N_scope.

(* maps: lookups in a filtered map or index; remove and set are instances *)
Lemma lookup_filter (p : bytes -> bool) n m :
  lookup n (filter (fun kv => p (fst kv)) m) = if p n then lookup n m else None.
Proof.
  induction m as [|[k v] m IH]; cbn; [now destruct (p n)|].
  destruct (bytes_eqb k n) eqn:E.
  - apply bytes_eqb_eq in E. subst k. destruct (p n) eqn:Ep; cbn; [now rewrite bytes_eqb_refl|exact IH].
  - destruct (p k); cbn; rewrite ?E; exact IH.
Qed.

Lemma idx_find_filter (p : bytes -> bool) n i :
  idx_find n (filter (fun e => p (e_name e)) i) = if p n then idx_find n i else None.
Proof.
  induction i as [|e i IH]; cbn; [now destruct (p n)|].
  destruct (bytes_eqb (e_name e) n) eqn:E.
  - apply bytes_eqb_eq in E. rewrite E in *. destruct (p n) eqn:Ep; cbn; [now rewrite E, bytes_eqb_refl|exact IH].
  - destruct (p (e_name e)); cbn; rewrite ?E; exact IH.
Qed.

Lemma lookup_remove_same n m : lookup n (remove n m) = None.
Proof. unfold remove. rewrite (lookup_filter (fun k => negb (bytes_eqb k n))). now rewrite bytes_eqb_refl. Qed.

Lemma lookup_remove_other n n' m : n' <> n -> lookup n' (remove n m) = lookup n' m.
Proof.
  intros Hne. unfold remove. rewrite (lookup_filter (fun k => negb (bytes_eqb k n))).
  now rewrite (proj2 (bytes_eqb_neq n' n)).
Qed.

Lemma lookup_set_same n v m : lookup n (set n v m) = Some v.
Proof. unfold set. cbn. now rewrite bytes_eqb_refl. Qed.

Lemma lookup_set_other n n' v m : n' <> n -> lookup n' (set n v m) = lookup n' m.
Proof.
  intros Hne. unfold set. cbn. rewrite (proj2 (bytes_eqb_neq n n')) by congruence.
  now apply lookup_remove_other.
Qed.

Lemma idx_find_remove_same n i : idx_find n (idx_remove n i) = None.
Proof. unfold idx_remove. rewrite (idx_find_filter (fun k => negb (bytes_eqb k n))). now rewrite bytes_eqb_refl. Qed.

Lemma idx_find_remove_other n n' i : n' <> n -> idx_find n' (idx_remove n i) = idx_find n' i.
Proof.
  intros Hne. unfold idx_remove. rewrite (idx_find_filter (fun k => negb (bytes_eqb k n))).
  now rewrite (proj2 (bytes_eqb_neq n' n)).
Qed.

Lemma idx_find_set_same e i : idx_find (e_name e) (idx_set e i) = Some e.
Proof. unfold idx_set. cbn. now rewrite bytes_eqb_refl. Qed.

Lemma idx_find_set_other e n' i : n' <> e_name e -> idx_find n' (idx_set e i) = idx_find n' i.
Proof.
  intros Hne. unfold idx_set. cbn. rewrite (proj2 (bytes_eqb_neq (e_name e) n')) by congruence.
  now apply idx_find_remove_other.
Qed.

Lemma idx_find_In n i e : idx_find n i = Some e -> In e i /\ e_name e = n.
Proof.
  induction i as [|x i IH]; cbn; [discriminate|].
  destruct (bytes_eqb (e_name x) n) eqn:E.
  - intros [= <-]. apply bytes_eqb_eq in E. auto.
  - intros H. destruct (IH H). auto.
Qed.

Lemma In_idx_find e i : NoDup (map e_name i) -> In e i -> idx_find (e_name e) i = Some e.
Proof.
  induction i as [|x i IH]; cbn; intros Hnd Hin; [contradiction|].
  inversion Hnd as [|? ? Hx Hnd']; subst.
  destruct Hin as [->|Hin]; [now rewrite bytes_eqb_refl|].
  destruct (bytes_eqb (e_name x) (e_name e)) eqn:E; [|now apply IH].
  apply bytes_eqb_eq in E. exfalso. apply Hx. rewrite E. now apply in_map.
Qed.

Lemma idx_find_None n i : idx_find n i = None <-> ~ In n (map e_name i).
Proof.
  induction i as [|e i IH]; cbn; [tauto|].
  destruct (bytes_eqb (e_name e) n) eqn:E.
  - apply bytes_eqb_eq in E. split; [discriminate|tauto].
  - apply bytes_eqb_neq in E. tauto.
Qed.

Lemma lookup_In n c (m : fmap) : lookup n m = Some c -> In (n, c) m.
Proof.
  induction m as [|[k v] m IH]; cbn; [discriminate|].
  destruct (bytes_eqb k n) eqn:E; [intros [= <-]; apply bytes_eqb_eq in E; subst; now left|intros H; right; auto].
Qed.

Lemma idx_has_true n i : idx_has n i = true -> exists e, In e i /\ e_name e = n.
Proof.
  unfold idx_has. destruct (idx_find n i) as [e|] eqn:E; [|discriminate]. intros _. exists e. now apply idx_find_In.
Qed.

Lemma In_idx_set e x i : In x (idx_set e i) -> x = e \/ (In x i /\ e_name x <> e_name e).
Proof.
  unfold idx_set, idx_remove. cbn. intros [<-|H]; [now left|]. right.
  apply filter_In in H as [H1 H2]. split; auto. apply negb_true_iff in H2. now apply bytes_eqb_neq in H2.
Qed.

(* the index after write_entries comes from idx_set steps, each for a visible entry of [todo] *)
Lemma write_entries_ind t sel (P : list entry -> Prop) : forall todo i w i' w',
  write_entries t sel todo i w = Some (i', w') ->
  (forall x c i, In x todo -> e_skip x = false -> P i -> P (idx_set (mkE (e_name x) c false) i)) ->
  P i -> P i'.
Proof.
  induction todo as [|x todo IH]; intros i w i' w' Hw Hset Hi; cbn in Hw.
  - now injection Hw as <- <-.
  - assert (Hset' : forall y c i, In y todo -> e_skip y = false -> P i -> P (idx_set (mkE (e_name y) c false) i))
      by (intros; apply Hset; auto; now right).
    destruct (negb (e_skip x) && _ && sel (e_name x))%bool eqn:Ec; [|eauto].
    destruct (lookup (e_name x) t) as [c|]; [|discriminate].
    apply andb_true_iff in Ec as [Ec _]. apply andb_true_iff in Ec as [Ec _]. apply negb_true_iff in Ec.
    eapply IH; [exact Hw|exact Hset'|]. apply Hset; auto. now left.
Qed.

Lemma write_entries_flags t sel dirs todo i w i' w' :
  write_entries t sel todo i w = Some (i', w') ->
  (forall e, In e todo -> flag_ok dirs e) -> (forall e, In e i -> flag_ok dirs e) ->
  forall e, In e i' -> flag_ok dirs e.
Proof.
  intros Hw Htodo. apply (write_entries_ind _ _ (fun i => forall e, In e i -> flag_ok dirs e) _ _ _ _ _ Hw).
  intros x c i0 Hx Es Hi e He. apply In_idx_set in He as [->|[He _]]; [|now apply Hi].
  unfold flag_ok. cbn. rewrite <- Es. now apply Htodo.
Qed.

(* a successful reset: the checks passed, resetIndex ran, then the worktree step of the mode *)
Lemma reset_core_ok prev m t dirs sv s s' :
  reset_core prev m t dirs sv s = (SOk, s') ->
  let i1 := fst (reset_index t dirs (s_idx s)) in
  match m with
  | Hard => exists i2 w2,
      write_entries t (fun _ => true) i1 i1
        (filter (fun kv => negb (has (fst kv) prev && negb (has (fst kv) t))) (s_wt s)) = Some (i2, w2) /\
      s' = mkS t i2 (filter (fun kv => negb (match idx_find (fst kv) i1 with Some e => e_skip e | None => false end)) w2)
  | Merge => s' = mkS t i1 (s_wt s) \/
      exists sel w1 i2 w2, write_entries t sel i1 i1 w1 = Some (i2, w2) /\ s' = mkS t i2 w2
  end.
Proof.
  unfold reset_core.
  destruct (match m with Merge => unstaged (s_idx s) (s_wt s) | Hard => false end); [discriminate|].
  destruct (match dirs with [] => false | _ :: _ => negb sv && negb (tree_contains_dirs t dirs) end); [discriminate|].
  destruct (reset_index t dirs (s_idx s)) as [i1 removed]. cbn [fst]. destruct m.
  - unfold reset_worktree_to_tree. destruct (write_entries t _ i1 i1 _) as [[i2 w2]|]; [|discriminate].
    intros [= <-]. eauto.
  - destruct removed; [intros [= <-]; now left|]. unfold reset_worktree.
    destruct (write_entries t _ i1 i1 _) as [[i2 w2]|] eqn:Ew; [|discriminate]. intros [= <-]. right. eauto 6.
Qed.

Lemma reset_index_flags t dirs i : dirs <> [] -> forall e, In e (fst (reset_index t dirs i)) -> flag_ok dirs e.
Proof. unfold reset_index. cbn [fst]. destruct dirs; [congruence|]. intros _ e. apply skip_unless_flag_ok. Qed.

Theorem reset_flags prev m t dirs sv s s' :
  dirs <> [] -> reset_core prev m t dirs sv s = (SOk, s') ->
  forall e, In e (s_idx s') -> e_skip e = false <-> Selected dirs (e_name e).
Proof.
  intros Hd Hr e He.
  assert (Hflag : flag_ok dirs e).
  { pose proof (reset_index_flags t dirs (s_idx s) Hd) as Hi1.
    pose proof (reset_core_ok _ _ _ _ _ _ _ Hr) as Hok. cbv zeta in Hok.
    destruct m; [destruct Hok as (i2 & w2 & Ew & ->)|destruct Hok as [->|(sel & w1 & i2 & w2 & Ew & ->)]]; cbn [s_idx] in He;
      eauto using write_entries_flags. }
  now apply flag_ok_selected.
Qed.

(* what write_entries does, name by name: an entry of [todo] that is visible, selected and whose file is
   missing or differs gets the target's blob in the index and in the worktree; every other name is left alone *)
Definition differs (e : entry) (w : fmap) : bool :=
  match lookup (e_name e) w with Some c => negb (bytes_eqb c (e_data e)) | None => true end.

Definition rewritten (sel : bytes -> bool) (w : fmap) (e : entry) : bool :=
  (negb (e_skip e) && differs e w && sel (e_name e))%bool.

Lemma write_entries_spec t sel : forall todo i w i' w',
  NoDup (map e_name todo) -> write_entries t sel todo i w = Some (i', w') ->
  forall n,
    match idx_find n todo with
    | Some e =>
      if rewritten sel w e
      then exists c, lookup n t = Some c /\ idx_find n i' = Some (mkE n c false) /\ lookup n w' = Some c
      else idx_find n i' = idx_find n i /\ lookup n w' = lookup n w
    | None => idx_find n i' = idx_find n i /\ lookup n w' = lookup n w
    end.
Proof.
  induction todo as [|x todo IH]; intros i w i' w' Hnd Hw n; cbn [write_entries idx_find] in *.
  - injection Hw as <- <-. auto.
  - inversion Hnd as [|? ? Hx Hnd']; subst. fold (differs x w) in Hw. fold (rewritten sel w x) in Hw.
    destruct (bytes_eqb (e_name x) n) eqn:En.
    + (* n is x's name: no later entry touches it *)
      apply bytes_eqb_eq in En. subst n.
      destruct (rewritten sel w x); [destruct (lookup (e_name x) t) as [c|] eqn:Et; [|discriminate]|];
        specialize (IH _ _ _ _ Hnd' Hw (e_name x)); rewrite (proj2 (idx_find_None _ _) Hx) in IH; destruct IH as [-> ->].
      * exists c. rewrite lookup_set_same. split; [reflexivity|]. split; [|reflexivity].
        exact (idx_find_set_same (mkE (e_name x) c false) i).
      * auto.
    + (* another name: writing x changes neither its index entry nor its file *)
      apply bytes_eqb_neq in En.
      destruct (rewritten sel w x); [destruct (lookup (e_name x) t) as [c|]; [|discriminate]|];
        specialize (IH _ _ _ _ Hnd' Hw n); [|exact IH].
      rewrite lookup_set_other, idx_find_set_other in IH by (cbn; congruence).
      destruct (idx_find n todo) as [e|] eqn:Ef; [|exact IH].
      destruct (idx_find_In _ _ _ Ef) as [_ <-].
      unfold rewritten, differs in *. now rewrite lookup_set_other in IH by congruence.
Qed.

Lemma NoDup_map_filter {A B} (g : A -> B) (p : A -> bool) l : NoDup (map g l) -> NoDup (map g (filter p l)).
Proof.
  induction l as [|x l IH]; cbn; intros Hnd; [constructor|]. inversion Hnd as [|? ? Hx Hnd']; subst.
  destruct (p x); cbn; [|now apply IH]. constructor; [|now apply IH].
  intros Hin. apply Hx. apply in_map_iff in Hin as [y [E Hy]]. apply filter_In in Hy as [Hy _].
  rewrite <- E. now apply in_map.
Qed.

Lemma idx_set_nodup e i : NoDup (map e_name i) -> NoDup (map e_name (idx_set e i)).
Proof.
  intros Hnd. unfold idx_set, idx_remove. cbn. constructor; [|now apply NoDup_map_filter].
  intros Hin. apply in_map_iff in Hin as [y [E Hy]]. apply filter_In in Hy as [_ Hy].
  apply negb_true_iff, bytes_eqb_neq in Hy. congruence.
Qed.

Lemma write_entries_nodup t sel todo i w i' w' :
  write_entries t sel todo i w = Some (i', w') -> NoDup (map e_name i) -> NoDup (map e_name i').
Proof.
  intros Hw. apply (write_entries_ind _ _ (fun i => NoDup (map e_name i)) _ _ _ _ _ Hw).
  intros x c i0 _ _. apply idx_set_nodup.
Qed.

Lemma NoDup_app_disjoint {A} (a b : list A) :
  NoDup a -> NoDup b -> (forall x, In x a -> ~ In x b) -> NoDup (a ++ b).
Proof.
  induction a as [|x a IH]; cbn; intros Ha Hb Hd; [exact Hb|].
  inversion Ha as [|? ? Hx Ha']; subst. constructor.
  - intros Hin. apply in_app_iff in Hin as [Hin|Hin]; [contradiction|]. apply (Hd x); auto.
  - apply IH; auto.
Qed.

(* resetIndex keeps the skipped entries and those the target has, and adds the target's new paths *)
Lemma reset_index_names t dirs i :
  map e_name (fst (reset_index t dirs i)) =
  map e_name (filter (fun e => e_skip e || has (e_name e) t)%bool i) ++
  map fst (filter (fun kv => negb (idx_has (fst kv) i)) t).
Proof.
  unfold reset_index. cbn [fst]. destruct dirs; rewrite ?skip_unless_names, map_app, !map_map.
  (* an updated entry keeps its name *)
  all: f_equal; apply map_ext; intros e.
  all: destruct (e_skip e); [reflexivity|]; now destruct (lookup (e_name e) t).
Qed.

Lemma reset_index_nodup t dirs i :
  NoDup (map e_name i) -> NoDup (map fst t) -> NoDup (map e_name (fst (reset_index t dirs i))).
Proof.
  intros Hi Ht. rewrite reset_index_names. apply NoDup_app_disjoint; try now apply NoDup_map_filter.
  intros n Hk Hn. apply in_map_iff in Hk as [e [<- He]]. apply filter_In in He as [He _].
  apply in_map_iff in Hn as [kv [E Hkv]]. apply filter_In in Hkv as [_ Hkv].
  apply negb_true_iff in Hkv. unfold idx_has in Hkv. destruct (idx_find (fst kv) i) eqn:Ef; [discriminate|].
  apply idx_find_None in Ef. apply Ef. rewrite E. now apply in_map.
Qed.

(* HardReset steps 2 and 3, name by name.  A name without entry is left alone.  An entry keeps its flag and is
   as before or rewritten from the target; a skipped one loses its file, a visible one has its blob in its file. *)
Lemma hard_steps_spec t i1 w1 i2 w2 n :
  NoDup (map e_name i1) -> write_entries t (fun _ => true) i1 i1 w1 = Some (i2, w2) ->
  let w3 := filter (fun kv => negb (match idx_find (fst kv) i1 with Some e => e_skip e | None => false end)) w2 in
  match idx_find n i1 with
  | None => idx_find n i2 = None /\ lookup n w3 = lookup n w1
  | Some e => exists e', idx_find n i2 = Some e' /\ e_skip e' = e_skip e /\
                (e' = e \/ lookup n t = Some (e_data e')) /\
                lookup n w3 = if e_skip e then None else Some (e_data e')
  end.
Proof.
  intros Hnd Ew w3. unfold w3.
  rewrite (lookup_filter (fun k => negb (match idx_find k i1 with Some e => e_skip e | None => false end))).
  generalize (write_entries_spec _ _ _ _ _ _ _ Hnd Ew n).
  destruct (idx_find n i1) as [e|] eqn:Hf; [|now cbn [negb]].
  destruct (idx_find_In _ _ _ Hf) as [_ <-]. unfold rewritten. rewrite andb_true_r.
  destruct (e_skip e) eqn:Es; cbn [negb andb].
  - intros [Hi _]. exists e. auto.
  - destruct (differs e w1) eqn:Ed.
    + intros (c & Ht & Hi & ->). exists (mkE (e_name e) c false). cbn. auto.
    + intros [Hi ->]. exists e. repeat split; auto.
      unfold differs in Ed. destruct (lookup (e_name e) w1) as [c|]; [|discriminate].
      apply negb_false_iff, bytes_eqb_eq in Ed. now subst c.
Qed.

(* HardReset / forced checkout: the worktree agrees with the index and its flags *)
Theorem hard_materialises prev t dirs sv s s' :
  NoDup (map e_name (s_idx s)) -> NoDup (map fst t) ->
  reset_core prev Hard t dirs sv s = (SOk, s') ->
  NoDup (map e_name (s_idx s')) /\
  (forall e, In e (s_idx s') ->
     has (e_name e) (s_wt s') = negb (e_skip e) /\
     (e_skip e = false -> lookup (e_name e) (s_wt s') = Some (e_data e))) /\
  (forall n, ~ In n (map e_name (s_idx s')) -> (has n prev && negb (has n t))%bool = false ->
     lookup n (s_wt s') = lookup n (s_wt s)).
Proof.
  intros Hi Ht Hr.
  destruct (reset_core_ok _ _ _ _ _ _ _ Hr) as (i2 & w2 & Ew & ->). cbn [s_idx s_wt].
  pose proof (reset_index_nodup t dirs (s_idx s) Hi Ht) as Hnd1.
  set (i1 := fst (reset_index t dirs (s_idx s))) in *.
  pose proof (write_entries_nodup _ _ _ _ _ _ _ Ew Hnd1) as Hnd2.
  pose proof (fun n => hard_steps_spec t i1 _ i2 w2 n Hnd1 Ew) as Hn. cbv zeta in Hn.
  split; [exact Hnd2|]. split.
  - intros e' He'. pose proof (In_idx_find _ _ Hnd2 He') as Hf'.
    generalize (Hn (e_name e')). destruct (idx_find (e_name e') i1) as [e|]; [|intros [Hf2 _]; congruence].
    intros (e2 & Hf2 & Hs & _ & Hw). rewrite Hf' in Hf2. injection Hf2 as <-.
    unfold has. rewrite Hw, <- Hs. destruct (e_skip e'); split; auto; discriminate.
  - intros n Hnot Hstep1. generalize (Hn n). destruct (idx_find n i1) as [e|].
    + (* a name of the old index is a name of the new one *)
      intros (e2 & Hf2 & _). exfalso. apply Hnot. apply idx_find_In in Hf2 as [Hin <-]. now apply in_map.
    + intros [_ ->]. rewrite (lookup_filter (fun k => negb (has k prev && negb (has k t))%bool) n (s_wt s)).
      now rewrite Hstep1.
Qed.

(* when no entry is SkipWorktree beforehand the index becomes the target tree *)
Definition no_skip (i : list entry) : bool := forallb (fun e => negb (e_skip e)) i.

Lemma reset_index_target t dirs i : no_skip i = true ->
  forall n c, lookup n t = Some c -> exists e, In e (fst (reset_index t dirs i)) /\ e_name e = n /\ e_data e = c.
Proof.
  intros Hns n c Hl. unfold reset_index. cbn [fst]. set (l := _ ++ _).
  assert (H0 : exists e, In e l /\ e_name e = n /\ e_data e = c).
  { unfold l, no_skip in *. rewrite forallb_forall in Hns. destruct (idx_has n i) eqn:Eh.
    - (* an entry of that name was there: it is visible, so it is kept and updated *)
      destruct (idx_has_true _ _ Eh) as [x [Hx <-]]. specialize (Hns x Hx). apply negb_true_iff in Hns.
      exists (mkE (e_name x) c false). split; [|auto]. apply in_app_iff. left. apply in_map_iff. exists x. split.
      + now rewrite Hns, Hl.
      + apply filter_In. split; [exact Hx|]. unfold has. rewrite Hl. apply orb_true_r.
    - exists (mkE n c false). split; [|auto]. apply in_app_iff. right.
      apply in_map_iff. exists (n, c). split; [reflexivity|]. apply filter_In. split; [now apply lookup_In|].
      cbn. now rewrite Eh. }
  destruct dirs as [|d dirs]; [exact H0|]. destruct H0 as (x & Hx & Hn & Hd).
  exists (mkE (e_name x) (e_data x) (negb (included (d :: dirs) (e_name x)))). split; [|auto].
  unfold skip_unless. apply in_map_iff. now exists x.
Qed.

Theorem fresh_exact prev t dirs sv s s' :
  dirs <> [] -> NoDup (map e_name (s_idx s)) -> NoDup (map fst t) -> no_skip (s_idx s) = true ->
  reset_core prev Hard t dirs sv s = (SOk, s') ->
  forall n c, lookup n t = Some c ->
    (Selected dirs n -> lookup n (s_wt s') = Some c) /\ (~ Selected dirs n -> lookup n (s_wt s') = None).
Proof.
  intros Hd Hi Ht Hns Hr n c Hl.
  pose proof (reset_flags prev Hard t dirs sv s s' Hd Hr) as Hflags.
  destruct (reset_core_ok _ _ _ _ _ _ _ Hr) as (i2 & w2 & Ew & ->). cbn [s_idx s_wt] in *.
  destruct (reset_index_target t dirs (s_idx s) Hns n c Hl) as (e & Hin & <- & <-).
  pose proof (reset_index_nodup t dirs (s_idx s) Hi Ht) as Hnd1.
  set (i1 := fst (reset_index t dirs (s_idx s))) in *.
  pose proof (hard_steps_spec t i1 _ i2 w2 (e_name e) Hnd1 Ew) as Hn. cbv zeta in Hn.
  rewrite (In_idx_find _ _ Hnd1 Hin) in Hn. destruct Hn as (e' & Hf' & Hs & Hdata & ->).
  (* the entry of that name in the new index carries the target's blob *)
  assert (Hc : e_data e' = e_data e) by (destruct Hdata as [->|Hd']; [reflexivity|rewrite Hl in Hd'; now injection Hd']).
  apply idx_find_In in Hf' as [Hin' Hname]. specialize (Hflags e' Hin'). rewrite Hname, Hs in Hflags. rewrite Hc.
  destruct (e_skip e); split; intros Hsel; auto.
  - apply Hflags in Hsel. discriminate.
  - exfalso. apply Hsel, Hflags. reflexivity.
Qed.

(* the non-forced path does not re-materialise when only the selection changes *)
Definition tA : fmap := [([97;47;88], [1]); ([98;47;90], [2])].      (* a/X, b/Z *)
Definition merge_switch_witness : list op := [OCheckout false tA [[97]]; OCheckout false tA [[98]]].

Lemma merge_switch_refuted :
  let s := fold_left (fun s o => snd (step s o)) merge_switch_witness (mkS tA [] []) in
  exists e, In e (s_idx s) /\ e_skip e = false /\ Selected [[98]] (e_name e) /\ lookup (e_name e) (s_wt s) = None.
Proof.
  cbn zeta. exists (mkE [98;47;90] [2] false). split; [vm_compute; auto|]. split; [reflexivity|]. split.
  - exists [98]. split; [now left|]. right. now exists [90].
  - vm_compute. reflexivity.
Qed.
