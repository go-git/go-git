(* Proofs/C53Tree.v — C53 for Tree.Decode (Model/TreeObj.v decode_go / decode):
   for EVERY byte string and every object-id size (0 included)
     total   the entry loop ends within |input|+1 rounds: never [inl DFuel];
     no_oob  a decoded entry has a non-empty name and an id of exactly hsz bytes
             (the id is only cut when hsz bytes remain: io.ReadFull semantics);
     alloc   the entries account for disjoint parts of the input:
             sum (|name| + hsz + 3) <= |input| and #entries * (hsz + 4) <= |input|. *)
From Coq Require Import List ZArith Lia.
From GoGit Require Import Model.TreeObj.
Import ListNotations.

Lemma tcut_len c : forall s a b, tcut c s = Some (a, b) -> List.length s = (List.length a + 1 + List.length b)%nat.
Proof.
  induction s as [|x r IH]; intros a b H; cbn [tcut] in H; [discriminate|].
  destruct (N.eqb x c).
  - injection H as <- <-. cbn [List.length]. lia.
  - destruct (tcut c r) as [[a' b']|] eqn:E; [|discriminate]. injection H as <- <-.
    specialize (IH _ _ eq_refl). cbn [List.length]. lia.
Qed.

Definition entry_ok (hsz : nat) (e : tentry) : Prop := List.length (t_hash e) = hsz /\ t_name e <> [].

Definition tsize (hsz : nat) (l : list tentry) : nat :=
  fold_right (fun e a => (List.length (t_name e) + hsz + 3 + a)%nat) 0%nat l.

Lemma tsize_cons hsz e l : tsize hsz (e :: l) = (List.length (t_name e) + hsz + 3 + tsize hsz l)%nat.
Proof. reflexivity. Qed.

Lemma tsize_app hsz a b : tsize hsz (a ++ b) = (tsize hsz a + tsize hsz b)%nat.
Proof. induction a as [|e a IH]; [reflexivity|]. cbn [app]. rewrite !tsize_cons. lia. Qed.

Lemma tsize_rev hsz a : tsize hsz (rev a) = tsize hsz a.
Proof. induction a as [|e a IH]; [reflexivity|]. cbn [rev]. rewrite tsize_app, !tsize_cons, IH. cbn. lia. Qed.

Lemma decode_go_props hsz : forall f b acc, (List.length b < f)%nat ->
  match decode_go f hsz b acc with
  | inr l => (Forall (entry_ok hsz) acc -> Forall (entry_ok hsz) l) /\ (tsize hsz l <= tsize hsz acc + List.length b)%nat
  | inl e => e <> DFuel
  end.
Proof.
  induction f as [|f IH]; intros b acc Hf; [lia|].
  destruct b as [|x b']; cbn [decode_go].
  { split; [apply Forall_rev|rewrite tsize_rev; lia]. }
  destruct (tcut 32 (x :: b')) as [[m r]|] eqn:C1; [|discriminate].
  destruct (mode_of_bytes m) eqn:M; [|discriminate].
  destruct (tcut 0 r) as [[name r2]|] eqn:C2; [|discriminate].
  destruct name as [|c n] eqn:N; [discriminate|]. rewrite <- N in *.
  destruct (Nat.ltb_spec (List.length r2) hsz); [discriminate|].
  (* the round cut |m|+1+|name|+1+hsz bytes off b, |m| >= 1: the IH applies to the rest, and tsize counts them *)
  apply tcut_len in C1, C2.
  match goal with |- context [decode_go f hsz ?b2 ?acc2] =>
    specialize (IH b2 acc2); destruct (decode_go f hsz b2 acc2) as [e|l] end;
    [apply IH; rewrite skipn_length; lia|].
  destruct IH as [He Hs]; [rewrite skipn_length; lia|]. split.
  - intros Ha. apply He. constructor; [|exact Ha]. split; cbn [t_hash t_name].
    + rewrite firstn_length. lia.
    + rewrite N. discriminate.
  - rewrite skipn_length, tsize_cons in Hs. cbn [t_name] in Hs.
    assert (1 <= List.length m)%nat.
    { unfold mode_of_bytes in M. destruct (List.length m); [discriminate|lia]. }
    lia.
Qed.

Theorem decode_props hsz b :
  match decode hsz b with
  | inr l => Forall (entry_ok hsz) l /\ (tsize hsz l <= List.length b)%nat
  | inl e => e <> DFuel
  end.
Proof.
  unfold decode. pose proof (decode_go_props hsz _ b [] (Nat.lt_succ_diag_r _)) as A.
  destruct (decode_go _ hsz b []) as [e|l]; [exact A|]. destruct A as [He Hs]. split; [apply He; constructor|exact Hs].
Qed.

Theorem decode_total hsz b : decode hsz b <> inl DFuel.
Proof. pose proof (decode_props hsz b) as A. destruct (decode hsz b); [intros [= ->]; now apply A|discriminate]. Qed.

Theorem decode_no_oob hsz b l : decode hsz b = inr l -> Forall (entry_ok hsz) l.
Proof. intros H. pose proof (decode_props hsz b) as A. rewrite H in A. apply A. Qed.

Lemma tsize_count hsz l : Forall (entry_ok hsz) l -> (List.length l * (hsz + 4) <= tsize hsz l)%nat.
Proof.
  induction 1 as [|e l [_ Hn] _ IH]; [cbn; lia|]. rewrite tsize_cons. cbn [List.length].
  destruct (t_name e); [congruence|]. cbn [List.length]. lia.
Qed.

Theorem decode_alloc hsz b l : decode hsz b = inr l ->
  (tsize hsz l <= List.length b)%nat /\ (List.length l * (hsz + 4) <= List.length b)%nat.
Proof.
  intros H. pose proof (decode_props hsz b) as A. rewrite H in A. destruct A as [He Hs].
  pose proof (tsize_count hsz l He). lia.
Qed.
