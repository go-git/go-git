(* Proofs/WorklistOrd.v — order contract of a worklist whose pop returns a
   maximum of its contents (priority queue): every emitted node is maximal
   among the frontier — the not yet emitted successors of the nodes emitted
   before it. *)
From Coq Require Import List Arith Bool Lia Permutation.
From GoGit Require Import Spec.Dag Model.CommitWalk Proofs.Worklist.
Import ListNotations.

Section Ord.
  Variable succ : node -> list node.
  Variable B : Type.
  Variable contents : B -> list node.
  Variable pop : B -> option (node * B).
  Variable push : node -> list node -> B -> B.
  Variable pushed : node -> list node -> list node.
  Variable good : B -> Prop.
  Variable R : node -> node -> Prop.      (* R x c: x is not preferred to c *)
  Hypothesis pop_some : forall b c b', pop b = Some (c, b') -> Permutation (contents b) (c :: contents b').
  Hypothesis push_perm : forall c seen b,
    Permutation (contents (push c seen b)) (pushed c seen ++ contents b).
  Hypothesis pushed_all : forall c seen p, In p (succ c) -> ~ In p seen -> In p (pushed c seen).
  Hypothesis pop_good : forall b c b', good b -> pop b = Some (c, b') -> good b'.
  Hypothesis push_good : forall c seen b, good b -> good (push c seen b).
  Hypothesis pop_max : forall b c b', good b -> pop b = Some (c, b') -> forall x, In x (contents b) -> R x c.

  Variable I : list node.

  Definition frontier_max (l : list node) : Prop :=
    prefixed (fun l1 c => forall y p, In y l1 -> In p (succ y) -> ~ In p I -> ~ In p l1 -> R p c) l.

  Record J (b : B) (seen acc : list node) : Prop := mkJ {
    j_closed : closed_in succ I (contents b) acc;
    j_seen : seen_ok I seen acc;
    j_good : good b;
    j_fm : frontier_max (rev acc)
  }.

  Lemma gloop_frontier : forall stop fuel b seen acc,
    J b seen acc -> frontier_max (fst (gloop B pop push stop fuel b seen acc)).
  Proof.
    intros stop. induction fuel as [|f IH]; intros b seen acc [Hcl Hseen Hg Hfm]; [exact Hfm|].
    simpl. destruct (pop b) as [[c b']|] eqn:Ep; [|exact Hfm].
    destruct (perm_cons_in _ _ _ (pop_some _ _ _ Ep)) as [_ [HQ _]].
    destruct (mem c seen) eqn:Es.
    - apply mem_In, Hseen in Es. apply IH. split; eauto using closed_skip.
    - (* c is popped while every pending successor of an emitted node is in the container *)
      assert (Hfm' : frontier_max (rev (c :: acc))).
      { apply prefixed_snoc; [exact Hfm|]. intros y p Hy Hp Hi Hn. rewrite <- in_rev in Hy, Hn.
        apply (pop_max b c b' Hg Ep). destruct (Hcl y p Hy Hp Hi) as [H|H]; [contradiction | exact H]. }
      destruct (stop c); [exact Hfm'|].
      pose proof (perm_app_in _ _ _ (push_perm c (c :: seen) b')) as Hpush.
      apply IH. split; [| now apply seen_ok_cons | apply push_good; eauto | exact Hfm'].
      apply (closed_visit succ I (contents b) _ seen); auto.
      + intros x Hx. destruct (HQ x Hx) as [<-|Hx']; [now left|]. right. apply Hpush. now right.
      + intros p Hp Hn. apply Hpush. left. now apply pushed_all.
  Qed.
End Ord.
