(* Proofs/C10Bytes.v — byte-level facts used by the C10 proofs: big-endian
   integers round-trip, sequential reads and ReadAt on concatenations, and
   access to the i-th fixed-width record of a table. *)
From Coq Require Import List NArith ZArith Bool Lia ZifyBool ZifyNat ZifyN.
From GoGit Require Import Base.Out Base.GoInt Model.PackBytes.
Import ListNotations.
Local Open Scope N_scope.

Ltac Zify.zify_post_hook ::= Z.div_mod_to_equations.

Lemma blen_app a b : blen (a ++ b) = blen a + blen b.
Proof. unfold blen. rewrite app_length. lia. Qed.

Lemma blen_nil : blen [] = 0.
Proof. reflexivity. Qed.

Lemma blen_be32 n : blen (be32 n) = 4.
Proof. reflexivity. Qed.

Lemma blen_be64 n : blen (be64 n) = 8.
Proof. reflexivity. Qed.

Lemma blen_flat_map {A} (f : A -> bytes) k (l : list A) :
  (forall x, In x l -> blen (f x) = k) -> blen (flat_map f l) = N.of_nat (List.length l) * k.
Proof.
  induction l as [|x l IH]; intros Hk; cbn [flat_map List.length].
  - reflexivity.
  - rewrite blen_app, IH, (Hk x) by (intros; apply Hk; now right) || now left. lia.
Qed.

Lemma get32_be32 n r : n < 4294967296 -> get32 (be32 n ++ r) = n.
Proof. intros Hn. unfold be32, get32. cbn [app]. lia. Qed.

Lemma get32_be32' n : n < 4294967296 -> get32 (be32 n) = n.
Proof. rewrite <- (app_nil_r (be32 n)). apply get32_be32. Qed.

Lemma get64_be64 n r : n < 18446744073709551616 -> get64 (be64 n ++ r) = n.
Proof.
  intros Hn. unfold get64, be64. rewrite <- app_assoc, get32_be32 by lia.
  change (skipn 4 (be32 (n / 4294967296) ++ be32 n ++ r)) with (be32 n ++ r).
  unfold be32, get32. cbn [app]. lia.
Qed.

Lemma get64_be64' n : n < 18446744073709551616 -> get64 (be64 n) = n.
Proof. rewrite <- (app_nil_r (be64 n)). apply get64_be64. Qed.

Lemma be32_bytes n : forall b, In b (be32 n) -> b < 256.
Proof. unfold be32. intros b [<-|[<-|[<-|[<-|[]]]]]; lia. Qed.

(* Go's int64(uint64) conversion is the identity below 2^63 *)
Lemma wraps64_small z : (0 <= z < 9223372036854775808)%Z -> wraps 64 z = z.
Proof.
  intros Hz. unfold wraps. change (2 ^ 64)%Z with 18446744073709551616%Z.
  change (2 ^ (64 - 1))%Z with 9223372036854775808%Z.
  rewrite Z.mod_small by lia. now replace (z <? 9223372036854775808)%Z with true by lia.
Qed.

Lemma take_app_n n a r : blen a = n -> take n (a ++ r) = Some (a, r).
Proof.
  intros <-. unfold take. rewrite blen_app. replace (blen a <=? blen a + blen r) with true by lia.
  unfold blen. rewrite Nat2N.id, firstn_app, Nat.sub_diag, firstn_all, skipn_app, Nat.sub_diag, skipn_all. cbn.
  now rewrite app_nil_r.
Qed.

Lemma take_inv n r a b : take n r = Some (a, b) ->
  a = firstn (N.to_nat n) r /\ b = skipn (N.to_nat n) r /\ n <= blen r.
Proof.
  unfold take. destruct (n <=? blen r) eqn:E; [|discriminate]. intros H. inversion H; subst.
  repeat split. lia.
Qed.

Lemma take_some n r a b : take n r = Some (a, b) -> r = a ++ b /\ blen a = n.
Proof.
  intros E. apply take_inv in E. destruct E as (-> & -> & Hn).
  split; [symmetry; apply firstn_skipn|]. unfold blen in *. rewrite firstn_length. lia.
Qed.

Lemma slice_app_mid_n pre x post off len :
  off = blen pre -> len = blen x -> slice (pre ++ x ++ post) off len = x.
Proof.
  intros -> ->. unfold slice, blen. rewrite !Nat2N.id, skipn_app, Nat.sub_diag, skipn_all. cbn [app skipn].
  rewrite firstn_app, Nat.sub_diag, firstn_all. cbn. now rewrite app_nil_r.
Qed.

Lemma read_at_app_mid pre x post off len :
  off = blen pre -> len = blen x -> read_at (pre ++ x ++ post) off len = Some x.
Proof.
  intros Ho Hl. unfold read_at. rewrite (slice_app_mid_n pre x post off len Ho Hl), !blen_app.
  now replace (off + len <=? blen pre + (blen x + blen post)) with true by lia.
Qed.

Lemma read_at_some f off len b : read_at f off len = Some b -> off + len <= blen f /\ b = slice f off len.
Proof. unfold read_at. destruct (off + len <=? blen f) eqn:E; [|discriminate]. intros H; inversion H. split; [lia|reflexivity]. Qed.

Lemma flat_map_split {A} (f : A -> bytes) (l : list A) (i : nat) d :
  (i < List.length l)%nat ->
  flat_map f l = flat_map f (firstn i l) ++ f (nth i l d) ++ flat_map f (skipn (S i) l).
Proof.
  revert i. induction l as [|x l IH]; intros i Hi; cbn in Hi; [lia|].
  destruct i as [|i]; cbn [firstn skipn nth flat_map app].
  - reflexivity.
  - rewrite (IH i) at 1 by lia. now rewrite <- app_assoc.
Qed.

Lemma record_read_at {A} (f : A -> bytes) k (l : list A) pre post (i : N) d :
  (forall x, In x l -> blen (f x) = k) -> i < N.of_nat (List.length l) ->
  read_at (pre ++ flat_map f l ++ post) (blen pre + i * k) k = Some (f (nth (N.to_nat i) l d)).
Proof.
  intros Hk Hi.
  rewrite (flat_map_split f l (N.to_nat i) d), <- !app_assoc, (app_assoc pre) by lia.
  apply read_at_app_mid.
  - rewrite blen_app, (blen_flat_map f k).
    + rewrite firstn_length_le by lia. lia.
    + intros x Hx. apply Hk. rewrite <- (firstn_skipn (N.to_nat i) l). apply in_or_app. now left.
  - symmetry. apply Hk, nth_In. lia.
Qed.

Lemma record_at0 {A} (f : A -> bytes) k (l : list A) (i : N) d :
  (forall x, In x l -> blen (f x) = k) -> i < N.of_nat (List.length l) ->
  slice (flat_map f l) (i * k) k = f (nth (N.to_nat i) l d).
Proof.
  intros Hk Hi. pose proof (record_read_at f k l [] [] i d Hk Hi) as R. cbn [app] in R. rewrite app_nil_r in R.
  symmetry. apply (read_at_some _ _ _ _ R).
Qed.

(* files given as the list of their sections *)
Lemma read_part pre x post off len :
  off = blen (concat pre) -> len = blen x -> read_at (concat (pre ++ x :: post)) off len = Some x.
Proof. rewrite concat_app. apply read_at_app_mid. Qed.

Lemma read_part_record {A} (f : A -> bytes) k (l : list A) pre post (i : N) d off :
  (forall x, In x l -> blen (f x) = k) -> i < N.of_nat (List.length l) -> off = blen (concat pre) + i * k ->
  read_at (concat (pre ++ flat_map f l :: post)) off k = Some (f (nth (N.to_nat i) l d)).
Proof. intros Hk Hi ->. rewrite concat_app. now apply record_read_at. Qed.

Lemma nth_map_N {A B} (f : A -> B) (l : list A) i d d' :
  (i < List.length l)%nat -> nth i (map f l) d' = f (nth i l d).
Proof. intros Hi. rewrite (nth_indep _ d' (f d)) by (rewrite map_length; lia). apply map_nth. Qed.

Lemma skipn_nth_cons {A} (l : list A) : forall i d, (i < List.length l)%nat -> skipn i l = nth i l d :: skipn (S i) l.
Proof.
  induction l as [|x l IH]; intros i d Hi; cbn in Hi; [lia|].
  destruct i as [|i]; [reflexivity|]. cbn [skipn nth]. apply IH. lia.
Qed.

Lemma firstn_skipn_S {A} (l : list A) (i : N) c d : i < N.of_nat (List.length l) ->
  firstn (S c) (skipn (N.to_nat i) l) = nth (N.to_nat i) l d :: firstn c (skipn (N.to_nat (i + 1)) l).
Proof.
  intros Hi. rewrite (skipn_nth_cons l (N.to_nat i) d) by lia.
  now replace (N.to_nat (i + 1)) with (S (N.to_nat i)) by lia.
Qed.
