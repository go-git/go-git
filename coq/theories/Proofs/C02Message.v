(* Proofs/C02Message.v — for EVERY stored commit that go-git decodes and git
   parses, the decoded message is the message git reports (the bytes after the
   first empty line); no guard. *)
From Coq Require Import List Arith NArith Bool String.
From GoGit Require Import Base.Out Model.ObjLines Model.Commit Spec.GitFields
     Proofs.ObjLinesFacts Proofs.C02Scan Proofs.C02Lines.
Import ListNotations.
Local Open Scope N_scope.

Fixpoint body_of (ls : list bytes) : option bytes :=
  match ls with
  | [] => None
  | l :: r => if first_is LF l then Some (List.concat r) else body_of r
  end.

Lemma git_scan_header_body ls : forall a c, snd (git_scan_header ls a c) = body_of ls.
Proof.
  induction ls as [|l r IH]; intros a c; [reflexivity|]. cbn [git_scan_header body_of].
  destruct (first_is LF l); [reflexivity|].
  destruct (starts_with (str "author "%string) l); [apply IH|].
  destruct (starts_with (str "committer "%string) l); apply IH.
Qed.

Lemma cstep_msg st c se eof l c' se' st' :
  st <> SMessage -> cstep st c se eof l = Ok (c', se', st') -> c_msg c' = c_msg c.
Proof.
  intros Hst H. destruct (cstep_header _ _ _ _ _ _ Hst H) as [[_ Hc]|[[_ E]|[_ [_ Hk]]]].
  - now inversion Hc.
  - inversion E. now destruct st.
  - transitivity (c_msg (cfinish st c)); [|now destruct st]. inversion Hk; subst; try reflexivity. now destruct se.
Qed.

Lemma crun_msg : forall ls st c0 se c m,
  st <> SMessage -> Forall line_ok ls -> all_but_last_nl ls = true ->
  crun st c0 se ls = Ok c -> body_of ls = Some m -> c_msg c = c_msg c0 ++ m.
Proof.
  induction ls as [|l r IH]; intros st c0 se c m Hst Hok Habl Hrun Hbody; [discriminate|].
  apply Forall_cons_iff in Hok as [Hl Hr]. cbn [body_of] in Hbody. rewrite (first_is_lf_blank _ Hl) in Hbody.
  destruct (abl_tail _ _ Habl) as [Hablr Hen].
  destruct (crun_header_cons _ _ _ _ _ _ Hst Hrun) as [[Hb Hm]|[Hb (c1 & se1 & st1 & Es & Hst1 & Hrun')]]; rewrite Hb in Hbody.
  - inversion Hbody; subst m. rewrite (crun_message _ Hablr) in Hm. inversion Hm. cbn [c_msg set_msg]. now destruct st.
  - assert (Een : ends_nl l = true) by (apply Hen; intros ->; discriminate Hbody). rewrite Een in *.
    rewrite (IH _ _ _ _ _ Hst1 Hr Hablr Hrun' Hbody). now rewrite (cstep_msg _ _ _ _ _ _ _ _ Hst Es).
Qed.

Lemma git_log_fields_inv raw g : git_log_fields raw = GOk g ->
  (46 < List.length raw)%nat /\ starts_with (str "tree "%string) raw = true /\ nth 45 raw 0 = LF /\
  all_hex (firstn 40 (skipn 5 raw)) = true /\
  gl_tree g = lower_hex (firstn 40 (skipn 5 raw)) /\
  git_parents (List.length raw) (skipn 46 raw) = Some (gl_parents g) /\
  (gl_an g, gl_ae g, gl_ad g) = git_person (fst (fst (git_scan_header (split_lines raw) None None))) /\
  (gl_cn g, gl_ce g, gl_cd g) = git_person (snd (fst (git_scan_header (split_lines raw) None None))) /\
  gl_enc g = match git_find_header k_encoding (split_lines raw) with Some e => e | None => [] end /\
  gl_body g = snd (git_scan_header (split_lines raw) None None).
Proof.
  unfold git_log_fields. intros Hg.
  destruct (has_nul raw); [discriminate|].
  destruct (Nat.ltb 46 (List.length raw)) eqn:E1; [|discriminate]. cbn [negb] in Hg.
  destruct (starts_with (str "tree "%string) raw) eqn:E2; [|discriminate]. cbn [negb] in Hg.
  destruct (nth 45 raw 0 =? LF) eqn:E3; [|discriminate]. cbn [negb] in Hg.
  destruct (all_hex (firstn 40 (skipn 5 raw))) eqn:E4; [|discriminate]. cbn [negb] in Hg.
  destruct (git_parents (List.length raw) (skipn 46 raw)) as [ps|]; [|discriminate].
  destruct (git_scan_header (split_lines raw) None None) as [[a0 c0] body]. cbn [fst snd].
  destruct (git_person a0) as [[an ae] ad]. destruct (git_person c0) as [[cn ce] cd].
  apply GOk_inj in Hg. subst g. cbn [gl_tree gl_parents gl_an gl_ae gl_ad gl_cn gl_ce gl_cd gl_enc gl_body fst snd].
  apply Nat.ltb_lt in E1. apply N.eqb_eq in E3. repeat split; try assumption; reflexivity.
Qed.

Theorem message_matches_git : forall raw c g m,
  decode_commit raw = Ok c -> git_log_fields raw = GOk g -> gl_body g = Some m -> c_msg c = m.
Proof.
  intros raw c g m Hd Hg Hm.
  destruct (git_log_fields_inv _ _ Hg) as (_ & _ & _ & _ & _ & _ & _ & _ & _ & Gb).
  rewrite Gb, git_scan_header_body in Hm.
  destruct (decode_commit_inv _ _ Hd) as (l & r & data & h & E & Hl & Hr & Ha & Hb & _ & _ & Hrun).
  rewrite E in Hm. cbn [body_of] in Hm. rewrite (first_is_lf_blank _ Hl), Hb in Hm.
  apply (crun_msg r SParents (commit_init h) false c m); [discriminate|exact Hr|apply (abl_tail _ _ Ha)|exact Hrun|exact Hm].
Qed.
