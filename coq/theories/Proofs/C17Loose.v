(* Proofs/C17Loose.v — the loose-object layer (DeleteLooseObject /
   ForEachObjectHash) of Model/StorageAPI.v: the filesystem model refines the
   abstract store over the extended alphabet as well. *)
From Coq Require Import List NArith Bool Lia Permutation.
From GoGit Require Import Base.Out Spec.AStore Model.StorageAPI Proofs.AStoreFacts Proofs.C17.
Import ListNotations.
Local Open Scope N_scope.

Lemma lw_track_equiv b r r' lo pk : res_equiv r r' -> lw_track b r lo pk = lw_track b r' lo pk.
Proof.
  intro H. destruct r, r'; cbn in H; try discriminate; try (injection H as <-);
    destruct b as [[]| | |]; reflexivity.
Qed.

Definition LwRel (wf : lw fstore) (ws : lw store) : Prop :=
  FsRel (lw_st wf) (lw_st ws) /\ lw_loose wf = lw_loose ws /\ lw_packed wf = lw_packed ws.

Definition xfs_ok (w : lw fstore) (o : xop) : bool :=
  match o with XOp b => fs_ok (lw_st w) b | _ => true end.

Lemma FsRel_del k f s : FsRel f s -> FsRel (fs_del_obj k f) (st_del_obj k s).
Proof.
  intro HR. apply (FsRel_rest f s); [exact HR|reflexivity|]. exact (rest_eq_objs (fm_del k) _ _ (fr_rest f s HR)).
Qed.

Lemma xfs_sim U wf ws o : LwRel wf ws -> xfs_ok wf o = true ->
  LwRel (fst (xfs_step U wf o)) (fst (xspec_step U ws o))
  /\ res_equiv (snd (xfs_step U wf o)) (snd (xspec_step U ws o)).
Proof.
  intros (HR & Hl & Hp) Hg. destruct wf as [f lo pk], ws as [s lo' pk'].
  cbn [lw_st lw_loose lw_packed] in *. subst lo' pk'.
  destruct o as [b|k|]; unfold xfs_step, xspec_step, LwRel; cbn [lw_step lw_st lw_loose lw_packed].
  - cbn [xfs_ok lw_st] in Hg. destruct (fs_sim_all U f s b HR Hg) as [HR1 Hx].
    destruct (fs_step U f b) as [f1 x]. destruct (spec_sstep U s b) as [s1 y]. cbn [fst snd] in *.
    rewrite (lw_track_equiv b x y lo pk Hx). destruct (lw_track b y lo pk) as [lo1 pk1].
    cbn [fst snd lw_st lw_loose lw_packed]. split; [|exact Hx]. split; [exact HR1|split; reflexivity].
  - destruct (nmem k lo); cbn [fst snd lw_st lw_loose lw_packed].
    + split; [|apply res_equiv_refl]. split; [|split; reflexivity].
      destruct (nmem k pk); [exact HR|apply FsRel_del; exact HR].
    + split; [|apply res_equiv_refl]. split; [exact HR|split; reflexivity].
  - cbn [fst snd lw_st lw_loose lw_packed]. split; [|apply res_equiv_refl].
    split; [exact HR|split; reflexivity].
Qed.

Fixpoint xfs_guards (U : universe) (w : lw fstore) (ops : list xop) : bool :=
  match ops with
  | [] => true
  | o :: r => xfs_ok w o && xfs_guards U (fst (xfs_step U w o)) r
  end.

Lemma xfs_run_spec U ops : forall wf ws,
  LwRel wf ws -> xfs_guards U wf ops = true ->
  LwRel (fst (run_xops (fs_step U) fs_del_obj wf ops)) (fst (run_xops (spec_sstep U) st_del_obj ws ops))
  /\ Forall2 res_equiv (snd (run_xops (fs_step U) fs_del_obj wf ops))
                       (snd (run_xops (spec_sstep U) st_del_obj ws ops)).
Proof.
  induction ops as [|o r IH]; intros wf ws HR Hg.
  - cbn. split; [exact HR|constructor].
  - cbn [xfs_guards] in Hg. apply andb_true_iff in Hg as [H1 H2].
    destruct (xfs_sim U wf ws o HR H1) as [HR1 Hx]. cbn [run_xops].
    unfold xfs_step, xspec_step in *.
    destruct (lw_step (fs_step U) fs_del_obj wf o) as [f1 x].
    destruct (lw_step (spec_sstep U) st_del_obj ws o) as [s1 y]. cbn [fst snd] in *.
    destruct (IH f1 s1 HR1 H2) as [HR2 Hall].
    destruct (run_xops (fs_step U) fs_del_obj f1 r) as [f2 xs].
    destruct (run_xops (spec_sstep U) st_del_obj s1 r) as [s2 ys].
    cbn [fst snd] in *. split; [exact HR2|constructor; assumption].
Qed.

Lemma LwRel_empty : LwRel (lw_init fs_empty) (lw_init st_empty).
Proof. split; [exact FsRel_empty|split; reflexivity]. Qed.
