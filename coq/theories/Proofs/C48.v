(* Proofs/C48.v — git's config reader (Spec/GitConfig.v) reads every
   well-formed configuration go-git's encoder (Model/ConfigEnc.v) writes back
   to the values that were written. *)
From Coq Require Import List NArith ZArith Arith Lia ZifyBool ZifyNat ZifyN Bool.
From GoGit Require Import Base.Out Model.ConfigEnc Spec.GitConfig.
Import ListNotations.
Local Open Scope N_scope.

Definition is_nil {A} (l : list A) : bool := match l with [] => true | _ => false end.
Definition nz (s : bytes) : bool := forallb (fun c => negb (c =? 0)) s.
(* section name: non-empty, ASCII alphanumerics and '-' (a '.' would be read
   by git as the deprecated [section.subsection] form) *)
Definition wf_sec (n : bytes) : bool := negb (is_nil n) && forallb iskeychar n.
(* key: a letter, then alphanumerics and '-' *)
Definition wf_key (k : bytes) : bool :=
  match k with c :: r => g_isalpha c && forallb iskeychar r | [] => false end.
(* value: any bytes but NUL *)
Definition wf_val (v : bytes) : bool := nz v.
(* subsection name: any bytes but NUL and LF *)
Definition wf_subname (s : bytes) : bool := forallb (fun c => negb (c =? 0) && negb (c =? LF)) s.
Definition wf_opt (o : copt) : bool := wf_key (fst o) && wf_val (snd o).
Definition wf_sub (s : csub) : bool := wf_subname (fst s) && forallb wf_opt (snd s).
(* a section without options and subsections emits nothing: its name is free *)
Definition wf_csec (s : csec) : bool :=
  let '(n, os, subs) := s in
  ((is_nil os && is_nil subs) || wf_sec n) && forallb wf_opt os && forallb wf_sub subs.
Definition wf (c : cfg) : bool := forallb wf_csec c.

Definition canon_opts (b : gbase) (os : list copt) : list gentry :=
  map (fun o => (b, lower (fst o), Some (snd o))) os.
Definition canon_sub (sec : bytes) (s : csub) : list gentry :=
  canon_opts (Some (lower sec, Some (fst s))) (snd s).
Definition canon_sec (s : csec) : list gentry :=
  let '(n, os, subs) := s in
  canon_opts (Some (lower n, None)) os ++ flat_map (canon_sub n) subs.
(* section and key names lower-cased, subsection and value verbatim, in the
   order the encoder emits them *)
Definition canon (c : cfg) : list gentry := flat_map canon_sec c.

Lemma keychar_facts c : iskeychar c = true ->
  (c =? RBR) = false /\ g_isspace c = false /\ (c =? 0) = false /\ (c =? LF) = false /\ (c =? CR) = false.
Proof.
  unfold iskeychar, g_isalnum, g_isalpha, g_isupper, g_islower, g_isdigit, g_isspace,
    RBR, DASH, SPC, TAB, LF, CR. lia.
Qed.

Lemma alpha_facts c : g_isalpha c = true ->
  iskeychar c = true /\ (c =? HASH) = false /\ (c =? SEMI) = false /\ (c =? LBR) = false.
Proof.
  unfold iskeychar, g_isalnum, g_isalpha, g_isupper, g_islower, g_isdigit, HASH, SEMI, LBR, DASH. lia.
Qed.

Lemma nontrigger_facts c : trigger c = false ->
  (c =? LF) = false /\ (c =? CR) = false /\ (c =? TAB) = false /\ (c =? SEMI) = false /\
  (c =? HASH) = false /\ (c =? BSL) = false /\ (c =? DQ) = false.
Proof. unfold trigger, LF, CR, TAB, SEMI, HASH, BSL, DQ. lia. Qed.

Definition Top (b : gbase) (acc : list gentry) : gstate := GS b acc (MTop false).

Lemma run_app a b st : run (a ++ b) st = run b (run a st).
Proof. apply fold_left_app. Qed.

Lemma run_cons c s st : run (c :: s) st = run s (step st c).
Proof. reflexivity. Qed.

Lemma flat_map_single {A} (l : list A) : flat_map (fun x => [x]) l = l.
Proof. induction l as [|x l IH]; [reflexivity|]. cbn. now rewrite IH. Qed.

(* In the modes [m t] that collect a text t: if the reader, fed [f c], adds
   [g c] to t for every byte c of w, then fed [flat_map f w] it adds [map g w]. *)
Lemma run_collect (m : bytes -> gmode) (f : N -> bytes) (g : N -> N) (P : N -> bool) b acc :
  (forall c t, P c = true -> run (f c) (GS b acc (m t)) = GS b acc (m (t ++ [g c]))) ->
  forall w t, forallb P w = true ->
  run (flat_map f w) (GS b acc (m t)) = GS b acc (m (t ++ map g w)).
Proof.
  intros Hf. induction w as [|c w IH]; intros t H.
  - cbn. now rewrite app_nil_r.
  - cbn [forallb] in H. apply andb_true_iff in H as [Hc Hw].
    cbn [flat_map map]. rewrite run_app, Hf, IH, <- app_assoc by assumption. reflexivity.
Qed.

Lemma step_sec c b acc t : iskeychar c = true ->
  step (GS b acc (MSec t)) c = GS b acc (MSec (t ++ [g_tolower c])).
Proof.
  intros Hc. destruct (keychar_facts c Hc) as (H1 & H2 & _).
  unfold step; cbn [g_mode]. now rewrite H1, H2, Hc.
Qed.

Lemma step_key c b acc t : iskeychar c = true ->
  step (GS b acc (MKey t)) c = GS b acc (MKey (t ++ [g_tolower c])).
Proof. intros Hc. unfold step; cbn [g_mode]. now rewrite Hc. Qed.

Lemma run_secname n b acc t : forallb iskeychar n = true ->
  run n (GS b acc (MSec t)) = GS b acc (MSec (t ++ lower n)).
Proof.
  rewrite <- (flat_map_single n) at 2.
  apply (run_collect MSec (fun c => [c]) g_tolower). intros c t'. apply step_sec.
Qed.

Lemma run_keyname k b acc t : forallb iskeychar k = true ->
  run k (GS b acc (MKey t)) = GS b acc (MKey (t ++ lower k)).
Proof.
  rewrite <- (flat_map_single k) at 2.
  apply (run_collect MKey (fun c => [c]) g_tolower). intros c t'. apply step_key.
Qed.

Lemma lower_nil_iff n : lower n = [] -> n = [].
Proof. destruct n; [reflexivity|discriminate]. Qed.

(* "[name]\n" *)
Lemma run_header n tail b acc : wf_sec n = true ->
  run (91 :: n ++ [93; 10] ++ tail) (Top b acc) = run tail (Top (Some (lower n, None)) acc).
Proof.
  intros H. apply andb_true_iff in H as [Hne Hn].
  rewrite run_cons. change (step (Top b acc) 91) with (GS b acc (MSec [])).
  rewrite run_app, run_secname by assumption. cbn [app].
  destruct n as [|c n]; [discriminate|]. reflexivity.
Qed.

(* "\tkey = " *)
Lemma run_key k tail b acc : wf_key k = true ->
  run (9 :: k ++ [32; 61; 32] ++ tail) (Top b acc) = run tail (GS b acc (MVal (lower k) false false 0 [])).
Proof.
  intros H. destruct k as [|c k]; [discriminate|]. cbn [wf_key] in H.
  apply andb_true_iff in H as [Hc Hk].
  destruct (alpha_facts c Hc) as (Hkc & H1 & H2 & H3).
  destruct (keychar_facts c Hkc) as (_ & H5 & _ & H6 & _).
  rewrite run_cons. change (step (Top b acc) 9) with (Top b acc).
  cbn [app]. rewrite run_cons. unfold step at 1, Top; cbn [g_mode].
  rewrite H6, H5, H1, H2, H3, Hc. unfold setm; cbn [orb g_base g_acc].
  rewrite run_app, run_keyname by assumption. cbn [app lower map]. reflexivity.
Qed.

Lemma run_esc_value c b acc k v :
  run (esc_value c) (GS b acc (MVal k true false 0 v)) = GS b acc (MVal k true false 0 (v ++ [c])).
Proof.
  (* the reader appends to v ++ repeat SPC 0 *)
  rewrite <- (app_nil_r v) at 2. unfold esc_value.
  destruct (c =? 34) eqn:E1; [apply N.eqb_eq in E1 as ->; reflexivity|].
  destruct (c =? 92) eqn:E2; [apply N.eqb_eq in E2 as ->; reflexivity|].
  destruct (c =? 10) eqn:E3; [apply N.eqb_eq in E3 as ->; reflexivity|].
  destruct (c =? 9) eqn:E4; [apply N.eqb_eq in E4 as ->; reflexivity|].
  destruct (c =? 8) eqn:E5; [apply N.eqb_eq in E5 as ->; reflexivity|].
  rewrite run_cons. unfold step; cbn [g_mode]. unfold LF, BSL, DQ. rewrite E3, E2, E1.
  now rewrite andb_false_r.
Qed.

Lemma run_quoted_body w b acc k v :
  run (flat_map esc_value w) (GS b acc (MVal k true false 0 v)) = GS b acc (MVal k true false 0 (v ++ w)).
Proof.
  rewrite <- (map_id w) at 2.
  apply (run_collect (MVal k true false 0) esc_value id (fun _ => true)); [|now induction w].
  intros c t _. apply run_esc_value.
Qed.

(* "\"...\"\n" *)
Lemma run_quoted v b acc k :
  run (34 :: flat_map esc_value v ++ [34; 10]) (GS b acc (MVal k false false 0 [])) =
  Top b ((b, k, Some v) :: acc).
Proof.
  rewrite run_cons. change (step (GS b acc (MVal k false false 0 [])) 34) with (GS b acc (MVal k true false 0 [])).
  rewrite run_app, run_quoted_body. cbn. now rewrite app_nil_r.
Qed.

Lemma step_raw c b acc k sp v : trigger c = false ->
  step (GS b acc (MVal k false false sp v)) c =
  GS b acc (if c =? SPC then MVal k false false (match v with [] => sp | _ => S sp end) v
            else MVal k false false 0 ((v ++ repeat SPC sp) ++ [c])).
Proof.
  intros Hc. destruct (nontrigger_facts c Hc) as (H1 & H2 & H3 & H4 & H5 & H6 & H7).
  unfold step; cbn [g_mode]. unfold g_isspace. rewrite H1, H2, H3, H4, H5, H6, H7.
  now destruct (c =? SPC).
Qed.

(* an unquoted value w read after v and sp pending blanks: a blank run inside the value is kept
   as that many spaces (one pending at the end of the line would be dropped) *)
Lemma run_raw_from w b acc k : forall v sp,
  existsb trigger w = false -> has_suffix_sp w = false ->
  (v = [] -> sp = 0%nat /\ has_prefix_sp w = false) -> (w = [] -> sp = 0%nat) ->
  run (w ++ [LF]) (GS b acc (MVal k false false sp v)) = Top b ((b, k, Some (v ++ repeat SPC sp ++ w)) :: acc).
Proof.
  induction w as [|c w IH]; intros v sp Ht Hs Hv Hw.
  - rewrite (Hw eq_refl). cbn. now rewrite app_nil_r.
  - cbn [existsb] in Ht. apply orb_false_iff in Ht as [Hc Ht].
    assert (Hs' : has_suffix_sp w = false) by (destruct w; [reflexivity|exact Hs]).
    cbn [app]. rewrite run_cons, step_raw by assumption.
    destruct (c =? SPC) eqn:Es.
    + apply N.eqb_eq in Es. subst c.
      destruct v as [|v0 v]; [destruct (Hv eq_refl) as [_ Hp]; discriminate|].
      rewrite (IH (v0 :: v) (S sp) Ht Hs'); [|discriminate|intros ->; discriminate].
      cbn [repeat]. now rewrite (@repeat_cons _ sp SPC), <- !app_assoc.
    + rewrite (IH ((v ++ repeat SPC sp) ++ [c]) 0%nat Ht Hs'); [| |reflexivity].
      * cbn [repeat app]. now rewrite <- !app_assoc.
      * intros E. destruct (v ++ repeat SPC sp); discriminate.
Qed.

Lemma run_raw v b acc k : needs_quote v = false ->
  run (v ++ [10]) (GS b acc (MVal k false false 0 [])) = Top b ((b, k, Some v) :: acc).
Proof.
  unfold needs_quote. intros H. apply orb_false_iff in H as [H Hs]. apply orb_false_iff in H as [Ht Hp].
  now apply (run_raw_from v b acc k [] 0%nat).
Qed.

Lemma run_opt o b acc : wf_opt o = true ->
  run (enc_opt o) (Top b acc) = Top b ((b, lower (fst o), Some (snd o)) :: acc).
Proof.
  destruct o as [k v]. unfold wf_opt, enc_opt. cbn [fst snd]. intros H.
  apply andb_true_iff in H as [Hk _].
  rewrite run_key by assumption.
  unfold enc_value. destruct (needs_quote v) eqn:Q.
  - cbn [app]. rewrite <- app_assoc. cbn [app]. apply run_quoted.
  - apply run_raw. exact Q.
Qed.

Lemma run_opts os : forall b acc, forallb wf_opt os = true ->
  run (enc_opts os) (Top b acc) = Top b (rev (canon_opts b os) ++ acc).
Proof.
  induction os as [|o os IH]; intros b acc H; [reflexivity|].
  cbn [forallb] in H. apply andb_true_iff in H as [Ho Hos].
  unfold enc_opts. cbn [flat_map]. rewrite run_app, run_opt by assumption.
  fold (enc_opts os). rewrite IH by assumption.
  cbn [canon_opts map rev]. rewrite <- app_assoc. reflexivity.
Qed.

Lemma run_esc_sub c b acc n s : (c =? LF) = false ->
  run (esc_sub c) (GS b acc (MExtQ n s)) = GS b acc (MExtQ n (s ++ [c])).
Proof.
  intros Hlf. unfold esc_sub.
  destruct (c =? 34) eqn:E1; [apply N.eqb_eq in E1 as ->; reflexivity|].
  destruct (c =? 92) eqn:E2; [apply N.eqb_eq in E2 as ->; reflexivity|].
  rewrite run_cons. unfold step; cbn [g_mode]. unfold BSL, DQ. now rewrite Hlf, E1, E2.
Qed.

Lemma run_sub_body w b acc n s : wf_subname w = true ->
  run (flat_map esc_sub w) (GS b acc (MExtQ n s)) = GS b acc (MExtQ n (s ++ w)).
Proof.
  rewrite <- (map_id w) at 3. apply (run_collect (MExtQ n) esc_sub id).
  intros c t Hc. apply andb_true_iff in Hc as [_ Hc]. apply negb_true_iff in Hc. now apply run_esc_sub.
Qed.

(* "[sec \"sub\"]\n" *)
Lemma run_subheader sec name tail b acc : wf_sec sec = true -> wf_subname name = true ->
  run (91 :: sec ++ [32; 34] ++ flat_map esc_sub name ++ [34; 93; 10] ++ tail) (Top b acc) =
  run tail (Top (Some (lower sec, Some name)) acc).
Proof.
  intros Hs Hn. apply andb_true_iff in Hs as [_ Hs].
  rewrite run_cons. change (step (Top b acc) 91) with (GS b acc (MSec [])).
  rewrite run_app, run_secname by assumption. cbn [app].
  rewrite run_cons, run_cons.
  change (step (step (GS b acc (MSec (lower sec))) 32) 34) with (GS b acc (MExtQ (lower sec) [])).
  rewrite run_app, run_sub_body by assumption. reflexivity.
Qed.

Lemma run_sub sec s b acc : wf_sec sec = true -> wf_sub s = true ->
  run (enc_sub sec s) (Top b acc) =
  Top (Some (lower sec, Some (fst s))) (rev (canon_sub sec s) ++ acc).
Proof.
  destruct s as [name os]. unfold wf_sub, enc_sub, canon_sub. cbn [fst snd]. intros Hs H.
  apply andb_true_iff in H as [Hn Hos].
  rewrite run_subheader, run_opts by assumption. reflexivity.
Qed.

(* pieces that each leave the reader at top level, one after the other *)
Lemma run_flat_map {A} (enc : A -> bytes) (can : A -> list gentry) (ok : A -> bool) :
  (forall x b acc, ok x = true -> exists b', run (enc x) (Top b acc) = Top b' (rev (can x) ++ acc)) ->
  forall l b acc, forallb ok l = true ->
  exists b', run (flat_map enc l) (Top b acc) = Top b' (rev (flat_map can l) ++ acc).
Proof.
  intros Hx. induction l as [|x l IH]; intros b acc H.
  - exists b. reflexivity.
  - cbn [forallb] in H. apply andb_true_iff in H as [H1 H2].
    destruct (Hx x b acc H1) as [b1 E1]. destruct (IH b1 (rev (can x) ++ acc) H2) as [b' E].
    exists b'. cbn [flat_map]. rewrite run_app, E1, E, rev_app_distr, <- app_assoc. reflexivity.
Qed.

Lemma run_subs sec subs b acc : wf_sec sec = true -> forallb wf_sub subs = true ->
  exists b', run (flat_map (enc_sub sec) subs) (Top b acc) =
             Top b' (rev (flat_map (canon_sub sec) subs) ++ acc).
Proof.
  intros Hs. apply run_flat_map. intros s b0 acc0 H. eexists. now apply run_sub.
Qed.

Lemma run_sec s b acc : wf_csec s = true ->
  exists b', run (enc_sec s) (Top b acc) = Top b' (rev (canon_sec s) ++ acc).
Proof.
  destruct s as [[n os] subs]. unfold wf_csec, enc_sec, canon_sec. intros H.
  apply andb_true_iff in H as [H Hsubs]. apply andb_true_iff in H as [Hn Hos].
  destruct os as [|o os].
  - destruct subs as [|s subs]; [exists b; reflexivity|].
    cbn [is_nil andb orb] in Hn. cbn [app canon_opts map].
    apply run_subs; assumption.
  - cbn [is_nil andb orb] in Hn.
    remember (o :: os) as os'.
    rewrite run_app, run_header, run_opts by assumption.
    destruct (run_subs n subs (Some (lower n, None)) (rev (canon_opts (Some (lower n, None)) os') ++ acc) Hn Hsubs) as [b' E].
    exists b'. rewrite E, rev_app_distr, <- app_assoc. reflexivity.
Qed.

Lemma run_cfg c b acc : wf c = true ->
  exists b', run (encode c) (Top b acc) = Top b' (rev (canon c) ++ acc).
Proof. apply run_flat_map, run_sec. Qed.

Definition unlines (ls : list bytes) : bytes := flat_map (fun b => b ++ [LF]) ls.
Definition opt_line (o : copt) : bytes := 9 :: fst o ++ [32; 61; 32] ++ enc_value (snd o).
Definition hdr_line (n : bytes) : bytes := 91 :: n ++ [93].
Definition subhdr_line (sec name : bytes) : bytes :=
  91 :: sec ++ [32; 34] ++ flat_map esc_sub name ++ [34; 93].

Lemma unlines_app a b : unlines (a ++ b) = unlines a ++ unlines b.
Proof. apply flat_map_app. Qed.

(* a line git's get_next_char passes through unchanged: no NUL, no LF, not
   ending in CR, not starting with the first BOM byte *)
Definition okc (c : N) : bool := negb (c =? 0) && negb (c =? LF).
Fixpoint lastcr (p : bool) (s : bytes) : bool :=
  match s with [] => p | c :: r => lastcr (c =? CR) r end.
Definition okline (b : bytes) : bool :=
  forallb okc b && negb (lastcr false b) &&
  match b with c :: _ => negb (c =? 239) | [] => false end.

Lemma lastcr_app a : forall p b, lastcr p (a ++ b) = lastcr (lastcr p a) b.
Proof. induction a as [|c a IH]; intros p b; [reflexivity|]. cbn [app lastcr]. apply IH. Qed.

(* p: the byte before b was a CR *)
Lemma drop_crlf_okline b : forall rest p,
  forallb okc b = true -> lastcr p b = false ->
  drop_crlf (b ++ LF :: rest) = b ++ LF :: drop_crlf rest.
Proof.
  induction b as [|c b IH]; intros rest p H Hl.
  - cbn [app]. destruct rest as [|d rest]; reflexivity.
  - cbn [forallb] in H. apply andb_true_iff in H as [Hc Hb].
    cbn [lastcr] in Hl. pose proof (IH rest _ Hb Hl) as E.
    cbn [app]. destruct b as [|d b].
    + cbn [app] in *. cbn [lastcr] in Hl. unfold drop_crlf at 1; fold drop_crlf. rewrite Hl.
      cbn [andb]. f_equal. exact E.
    + cbn [app] in *. unfold drop_crlf at 1; fold drop_crlf.
      cbn [forallb] in Hb. apply andb_true_iff in Hb as [Hd _]. unfold okc in Hd.
      apply andb_true_iff in Hd as [_ Hd]. apply negb_true_iff in Hd. rewrite Hd, andb_false_r.
      f_equal. exact E.
Qed.

Lemma unlines_ok ls : forallb okline ls = true ->
  existsb (N.eqb 0) (unlines ls) = false /\ drop_crlf (unlines ls) = unlines ls.
Proof.
  induction ls as [|b ls IH]; intros H; [split; reflexivity|].
  cbn [forallb] in H. apply andb_true_iff in H as [Hb Hls]. destruct (IH Hls) as [Z D].
  unfold okline in Hb. apply andb_true_iff in Hb as [Hb _]. apply andb_true_iff in Hb as [Hc Hl].
  apply negb_true_iff in Hl.
  cbn [unlines flat_map]. fold (unlines ls). split.
  - rewrite !existsb_app, Z. cbn [existsb]. rewrite !orb_false_r.
    clear - Hc. induction b as [|c b IHb]; [reflexivity|].
    cbn [forallb existsb] in *. apply andb_true_iff in Hc as [H1 H2].
    unfold okc in H1. apply andb_true_iff in H1 as [H1 _]. apply negb_true_iff in H1.
    rewrite N.eqb_sym, H1. auto.
  - rewrite <- app_assoc. cbn [app]. rewrite (drop_crlf_okline b _ false), D by assumption. reflexivity.
Qed.

Lemma unlines_bom ls : forallb okline ls = true -> strip_bom (unlines ls) = Some (unlines ls).
Proof.
  destruct ls as [|b ls]; [reflexivity|]. intros H. cbn [forallb] in H.
  apply andb_true_iff in H as [Hb _]. unfold okline in Hb. apply andb_true_iff in Hb as [_ Hb].
  destruct b as [|c b]; [discriminate|]. apply negb_true_iff in Hb.
  cbn [unlines flat_map app]. unfold strip_bom. rewrite Hb. reflexivity.
Qed.

Lemma forallb_flat_map {A B} (P : A -> bool) (Q : B -> bool) (f : A -> list B) l :
  (forall x, P x = true -> forallb Q (f x) = true) -> forallb P l = true -> forallb Q (flat_map f l) = true.
Proof.
  intros Hf. induction l as [|x l IH]; intros H; [reflexivity|].
  cbn [forallb flat_map] in *. apply andb_true_iff in H as [Hx Hl].
  now rewrite forallb_app, Hf, IH.
Qed.

Lemma okc_keychars n : forallb iskeychar n = true -> forallb okc n = true.
Proof.
  rewrite <- (flat_map_single n) at 2. apply forallb_flat_map. intros c Hc.
  destruct (keychar_facts c Hc) as (_ & _ & H0 & H1 & _). cbn. unfold okc. now rewrite H0, H1.
Qed.

Lemma okc_esc_value v : nz v = true -> forallb okc (flat_map esc_value v) = true.
Proof.
  apply forallb_flat_map. intros c Hc. apply negb_true_iff in Hc. unfold esc_value.
  destruct (c =? 34); [reflexivity|]. destruct (c =? 92); [reflexivity|].
  destruct (c =? 10) eqn:E; [reflexivity|]. destruct (c =? 9); [reflexivity|]. destruct (c =? 8); [reflexivity|].
  cbn [forallb]. unfold okc, LF. now rewrite Hc, E.
Qed.

Lemma okc_esc_sub v : wf_subname v = true -> forallb okc (flat_map esc_sub v) = true.
Proof.
  apply forallb_flat_map. intros c Hc. unfold esc_sub.
  destruct (c =? 34); [reflexivity|]. destruct (c =? 92); [reflexivity|].
  cbn [forallb]. unfold okc. now rewrite Hc.
Qed.

(* a value written without quotes *)
Lemma okc_raw v : nz v = true -> existsb trigger v = false ->
  forallb okc v = true /\ lastcr false v = false.
Proof.
  unfold nz. induction v as [|c v IH]; intros Hv Q; [split; reflexivity|].
  cbn [forallb existsb lastcr] in *. apply orb_false_iff in Q as [Qc Qv]. apply andb_true_iff in Hv as [Hc Hv].
  destruct (nontrigger_facts c Qc) as (H1 & H2 & _). destruct (IH Hv Qv) as [B1 B2].
  rewrite B1, H2, B2. unfold okc. rewrite Hc, H1. split; reflexivity.
Qed.

Lemma okc_enc_value v : wf_val v = true ->
  forallb okc (enc_value v) = true /\ lastcr false (enc_value v) = false.
Proof.
  intros Hv. unfold enc_value. destruct (needs_quote v) eqn:Q.
  - split; [|now rewrite app_comm_cons, lastcr_app].
    cbn [forallb]. now rewrite forallb_app, okc_esc_value.
  - apply orb_false_iff in Q as [Q _]. apply orb_false_iff in Q as [Q _]. now apply okc_raw.
Qed.

Ltac split_okline := unfold okline; apply andb_true_iff; split; [apply andb_true_iff; split|].

Lemma okline_hdr n : wf_sec n = true -> okline (hdr_line n) = true.
Proof.
  intros H. apply andb_true_iff in H as [_ H]. apply okc_keychars in H.
  unfold hdr_line. split_okline.
  - cbn [forallb]. rewrite forallb_app, H. reflexivity.
  - rewrite app_comm_cons, lastcr_app. reflexivity.
  - reflexivity.
Qed.

Lemma okline_subhdr sec name : wf_sec sec = true -> wf_subname name = true ->
  okline (subhdr_line sec name) = true.
Proof.
  intros H Hn. apply andb_true_iff in H as [_ H]. apply okc_keychars in H.
  unfold subhdr_line. split_okline.
  - cbn [forallb]. rewrite !forallb_app, H, okc_esc_sub by assumption. reflexivity.
  - rewrite app_comm_cons, !lastcr_app. reflexivity.
  - reflexivity.
Qed.

Lemma wf_key_keychars k : wf_key k = true -> forallb iskeychar k = true.
Proof.
  destruct k as [|c k]; [discriminate|]. cbn [wf_key forallb]. intros H.
  apply andb_true_iff in H as [Hc Hk]. destruct (alpha_facts c Hc) as [Hc' _]. now rewrite Hc', Hk.
Qed.

Lemma okline_opt o : wf_opt o = true -> okline (opt_line o) = true.
Proof.
  destruct o as [k v]. unfold wf_opt, opt_line. cbn [fst snd]. intros H.
  apply andb_true_iff in H as [Hk Hv]. apply wf_key_keychars, okc_keychars in Hk.
  destruct (okc_enc_value v Hv) as [B1 B2]. split_okline.
  - cbn [forallb]. now rewrite !forallb_app, Hk, B1.
  - rewrite app_comm_cons, !lastcr_app. cbn [lastcr]. change (32 =? CR) with false. now rewrite B2.
  - reflexivity.
Qed.

(* text made of lines git's get_next_char passes through unchanged *)
Definition oktext (s : bytes) : Prop := exists ls, s = unlines ls /\ forallb okline ls = true.

Lemma oktext_line b : okline b = true -> oktext (b ++ [LF]).
Proof. intros H. exists [b]. cbn. now rewrite app_nil_r, H. Qed.

Lemma oktext_app a b : oktext a -> oktext b -> oktext (a ++ b).
Proof.
  intros (la & -> & Ha) (lb & -> & Hb). exists (la ++ lb). now rewrite unlines_app, forallb_app, Ha, Hb.
Qed.

Lemma oktext_flat_map {A} (ok : A -> bool) (enc : A -> bytes) l :
  (forall x, ok x = true -> oktext (enc x)) -> forallb ok l = true -> oktext (flat_map enc l).
Proof.
  intros Hx. induction l as [|x l IH]; intros H; [now exists []|].
  cbn [forallb] in H. apply andb_true_iff in H as [H1 H2]. apply oktext_app; auto.
Qed.

Ltac norm_app := repeat (progress (cbn [app]; rewrite <- ?app_assoc)).

Lemma oktext_opt o : wf_opt o = true -> oktext (enc_opt o).
Proof.
  intros H. replace (enc_opt o) with (opt_line o ++ [LF]); [now apply oktext_line, okline_opt|].
  destruct o as [k v]. unfold opt_line, LF. cbn [fst snd enc_opt]. norm_app. reflexivity.
Qed.

Lemma oktext_opts os : forallb wf_opt os = true -> oktext (enc_opts os).
Proof. apply oktext_flat_map, oktext_opt. Qed.

Lemma oktext_sub sec s : wf_sec sec = true -> wf_sub s = true -> oktext (enc_sub sec s).
Proof.
  destruct s as [name os]. intros Hsec H. apply andb_true_iff in H as [Hname Hos]. cbn [fst snd] in *.
  replace (enc_sub sec (name, os)) with ((subhdr_line sec name ++ [LF]) ++ enc_opts os).
  - apply oktext_app; [now apply oktext_line, okline_subhdr|now apply oktext_opts].
  - unfold subhdr_line, LF. cbn [enc_sub]. norm_app. reflexivity.
Qed.

Lemma oktext_sec s : wf_csec s = true -> oktext (enc_sec s).
Proof.
  destruct s as [[n os] subs]. unfold wf_csec, enc_sec. intros H.
  apply andb_true_iff in H as [H Hsubs]. apply andb_true_iff in H as [Hn Hos].
  assert (S1 : wf_sec n = true -> oktext (flat_map (enc_sub n) subs)).
  { intros Hn'. revert Hsubs. apply oktext_flat_map. intros s. now apply oktext_sub. }
  destruct os as [|o os].
  - destruct subs as [|s subs]; [now exists []|]. cbn [is_nil andb orb] in Hn. now apply S1.
  - cbn [is_nil andb orb] in Hn. apply oktext_app; [|now apply S1].
    replace (91 :: n ++ [93; 10] ++ enc_opts (o :: os)) with ((hdr_line n ++ [LF]) ++ enc_opts (o :: os)).
    + apply oktext_app; [now apply oktext_line, okline_hdr|now apply oktext_opts].
    + unfold hdr_line, LF. norm_app. reflexivity.
Qed.

Lemma oktext_cfg c : wf c = true -> oktext (encode c).
Proof. apply oktext_flat_map, oktext_sec. Qed.

(* such text reaches the state machine as it is *)
Lemma oktext_passes s : oktext s ->
  existsb (N.eqb 0) s = false /\ drop_crlf s = s /\ strip_bom s = Some s.
Proof. intros (ls & -> & H). destruct (unlines_ok ls H). auto using unlines_bom. Qed.

Theorem git_reads_ours c : wf c = true -> git_config_parse (encode c) = inr (canon c).
Proof.
  intros H. unfold git_config_parse.
  destruct (oktext_passes _ (oktext_cfg c H)) as (Z & D & B). rewrite Z, D, B, run_app.
  destruct (run_cfg c None [] H) as [b' E]. unfold ginit. fold (Top None []). rewrite E.
  rewrite app_nil_r. cbn. rewrite rev_involutive. reflexivity.
Qed.
