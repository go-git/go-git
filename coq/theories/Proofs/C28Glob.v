(* Proofs/C28Glob.v — AddGlob / RemoveGlob against git, for every list of matches. *)
From Coq Require Import List NArith Arith Bool.
From GoGit Require Import Base.Out Model.Status Model.IndexOps Model.IndexGlob Spec.GitStatus Spec.GitIndexOps Spec.GitIndexGlob.
From GoGit Require Import Proofs.C27 Proofs.C28 Proofs.C28Add Proofs.C28AddCor.
Import ListNotations.
Local Open Scope N_scope.
Local Notation is_some := IndexOps.is_some (only parsing).

Lemma mem_path_flat_map {A} (f : A -> list path) q l :
  mem_path q (flat_map f l) = existsb (fun x => mem_path q (f x)) l.
Proof.
  induction l as [|x l IH]; [reflexivity|]. cbn [flat_map existsb]. now rewrite mem_path_app, IH.
Qed.

(* a matched file is an acceptable name; a matched directory is a directory of the worktree that is
   neither an index entry nor below a file; the names doAddFile is called with are distinct *)
Definition match_ok (s : state) (m : path) : bool :=
  if has_file s m then name_ok s m
  else is_dir_wt s m && negb (is_some (find_i (st_index s) m)).
Definition matches_guard (s : state) (ms : list path) : bool :=
  forallb (match_ok s) ms && nodup_b (names_of s ms).

Lemma noconf_under_file s m q f :
  noconf s = true -> find_w (st_wt s) m = Some f -> under m q = true ->
  find_i (st_index s) q = None /\ find_w (st_wt s) q = None.
Proof.
  intros N Hm Hu. destruct (noconf_in s f N (find_w_in _ _ _ Hm)) as [N1 N2].
  rewrite (find_w_path _ _ _ Hm) in N1, N2. split.
  - destruct (find_i (st_index s) q) as [e|] eqn:E; [|reflexivity]. exfalso.
    specialize (N1 e (find_i_in _ _ _ E)). rewrite (find_i_path _ _ _ E) in N1. unfold df_conflict in N1. now rewrite Hu in N1.
  - destruct (find_w (st_wt s) q) as [g|] eqn:E; [|reflexivity]. exfalso.
    specialize (N2 g (find_w_in _ _ _ E)). rewrite (find_w_path _ _ _ E) in N2. unfold df_conflict in N2. now rewrite Hu in N2.
Qed.

Lemma add_matches_eq s ms :
  add_guard s = true -> matches_guard s ms = true -> res_equiv (g_add_matches s ms) (s_add_matches s ms).
Proof.
  intros G M. unfold matches_guard in M. apply andb_true_iff in M as [M1 M2]. rewrite forallb_forall in M1.
  unfold g_add_matches, s_add_matches. destruct ms as [|m0 ms']; [reflexivity|].
  set (ms := m0 :: ms') in *.
  destruct (add_guard_parts s G) as (_ & Gc & _).
  apply add_scope_eq; [exact G|exact M2| |].
  - intros q Hq. unfold names_of in Hq. rewrite mem_path_flat_map in Hq. apply existsb_exists in Hq as [m [Hm Hq]].
    specialize (M1 m Hm). unfold match_ok in M1. destruct (has_file s m) eqn:Hf.
    + cbn [mem_path] in Hq. rewrite orb_false_r in Hq. apply bytes_eqb_eq in Hq. subst q. split; [|exact M1].
      unfold match_scope. apply existsb_exists. exists m. split; [exact Hm|]. now rewrite bytes_eqb_refl.
    + rewrite mem_path_filter in Hq. apply andb_true_iff in Hq as [Hu Hk]. split; [|now apply key_name_ok].
      unfold match_scope. apply existsb_exists. exists m. split; [exact Hm|]. now rewrite Hu, orb_true_r.
  - intros q Hs R. unfold match_scope in Hs. apply existsb_exists in Hs as [m [Hm Hs]].
    unfold names_of. rewrite mem_path_flat_map. apply existsb_exists. exists m. split; [exact Hm|].
    specialize (M1 m Hm). unfold match_ok in M1. destruct (has_file s m) eqn:Hf.
    + apply orb_true_iff in Hs as [Hs|Hs].
      * cbn [mem_path]. now rewrite Hs.
      * exfalso. unfold has_file in Hf. destruct (find_w (st_wt s) m) as [f|] eqn:Ew; [|discriminate].
        destruct (noconf_under_file s m q f Gc Ew Hs) as [E1 E2].
        rewrite right_change_cases, E1, E2 in R. discriminate.
    + apply andb_true_iff in M1 as [Md Mi]. apply negb_true_iff in Mi.
      apply orb_true_iff in Hs as [Hs|Hs].
      * exfalso. apply bytes_eqb_eq in Hs. subst q. unfold has_file in Hf. rewrite right_change_cases in R.
        destruct (find_i (st_index s) m), (find_w (st_wt s) m); discriminate.
      * rewrite mem_path_filter, Hs. now apply change_key.
Qed.

(* some entry matches; the matching entries are distinct, each has its file, none lies below a
   file or is a directory of the worktree; a pattern without wildcard is not a directory of entries
   (git would remove those too) *)
Definition victims_ok (s : state) (vs : list path) : bool :=
  nodup_b vs &&
  forallb (fun v => has_file s v && negb (existsb (fun f => under (wf_path f) v) (st_wt s)) && negb (is_dir_wt s v)) vs.
Definition rm_glob_guard (s : state) (pat : bytes) : bool :=
  let victims := filter (gmatch pat) (map ie_path (st_index s)) in
  negb (match victims with [] => true | _ => false end) && victims_ok s victims &&
  (has_meta pat || negb (existsb (under pat) (map ie_path (st_index s)))).

Lemma find_w_remove l p q : find_w (wt_remove l p) q = if bytes_eqb p q then None else find_w l q.
Proof.
  rewrite wt_remove_filter, !find_w_find, (look_filter wf_path (fun x => negb (bytes_eqb x p))), bytes_eqb_sym.
  now destruct (bytes_eqb p q).
Qed.

Lemma existsb_wt_remove (P : wfile -> bool) l p : existsb P l = false -> existsb P (wt_remove l p) = false.
Proof. rewrite wt_remove_filter, !existsb_false. intros H f Hf. apply H. now apply filter_In in Hf. Qed.

(* used on the reversed path, where it splits off the base name: dirname cuts at the last '/' *)
Lemma drop_to_slash_split r :
  existsb (fun c => c =? SLASH) r = true -> exists b, r = b ++ SLASH :: drop_to_slash r.
Proof.
  induction r as [|c r IH]; [discriminate|]. cbn [existsb drop_to_slash]. destruct (c =? SLASH) eqn:E.
  - intros _. apply N.eqb_eq in E. subst c. exists []. reflexivity.
  - cbn [orb]. intros H. destruct (IH H) as [b Hb]. exists (c :: b). cbn [app]. now rewrite <- Hb.
Qed.

Lemma is_prefix_app a b : is_prefix a (a ++ b) = true.
Proof. induction a as [|x a IH]; [reflexivity|]. cbn [app is_prefix]. now rewrite N.eqb_refl, IH. Qed.

Lemma existsb_rev {A} (P : A -> bool) l : existsb P (rev l) = existsb P l.
Proof.
  induction l as [|x l IH]; [reflexivity|]. cbn [rev existsb]. rewrite existsb_app, IH. cbn [existsb].
  rewrite orb_false_r. apply orb_comm.
Qed.

Lemma under_dirname v : has_slash_b v = true -> under (dirname v) v = true.
Proof.
  unfold has_slash_b, dirname, under. intros H. rewrite <- existsb_rev in H.
  destruct (drop_to_slash_split (rev v) H) as [b Hb].
  assert (E : v = rev (drop_to_slash (rev v)) ++ [SLASH] ++ rev b).
  { rewrite <- (rev_involutive v) at 1. rewrite Hb at 1. rewrite rev_app_distr. cbn [rev]. now rewrite <- app_assoc. }
  rewrite E at 2. rewrite app_assoc. apply is_prefix_app.
Qed.

Lemma fold_rm_glob vs : forall s,
  victims_ok s vs = true ->
  fold_left rm_glob1 vs (ROk s) =
  ROk (with_both s (fold_left idx_remove vs (st_index s)) (fold_left wt_remove vs (st_wt s))).
Proof.
  induction vs as [|v vs IH]; intros s G.
  - cbn [fold_left]. destruct s; reflexivity.
  - unfold victims_ok in G. cbn [nodup_b forallb] in G. rewrite !andb_true_iff in G.
    destruct G as ((Gn1 & Gn) & ((G1 & G2) & G3) & G). apply negb_true_iff in Gn1, G2, G3.
    cbn [fold_left]. unfold rm_glob1 at 2. rewrite G2, G3. cbn [andb].
    assert (D : has_slash_b v && negb (is_dir_wt s (dirname v)) = false).
    { destruct (has_slash_b v) eqn:Hs; [|reflexivity]. cbn [andb]. apply negb_false_iff.
      unfold is_dir_wt. apply existsb_exists. unfold has_file in G1.
      destruct (find_w (st_wt s) v) as [f|] eqn:Ew; [|discriminate].
      exists f. split; [eapply find_w_in; eassumption|]. rewrite (find_w_path _ _ _ Ew). now apply under_dirname. }
    rewrite D.
    set (s2 := with_both s (idx_remove (st_index s) v) (wt_remove (st_wt s) v)).
    (* the other victims are distinct from v, so they keep their files once v is removed *)
    assert (G' : victims_ok s2 vs = true).
    { unfold victims_ok. rewrite Gn. cbn [andb]. apply forallb_forall. intros v' Hv'.
      rewrite forallb_forall in G. specialize (G v' Hv').
      rewrite !andb_true_iff, !negb_true_iff in G. destruct G as ((Ga & Gb) & Gc).
      assert (Ne : bytes_eqb v v' = false).
      { destruct (bytes_eqb v v') eqn:E; [|reflexivity]. apply bytes_eqb_eq in E. subst v'.
        apply mem_path_in in Hv'. congruence. }
      assert (F1 : has_file s2 v' = true).
      { unfold has_file, s2. cbn [with_both st_wt]. rewrite find_w_remove, Ne. exact Ga. }
      assert (F2 : existsb (fun f => under (wf_path f) v') (st_wt s2) = false) by apply existsb_wt_remove, Gb.
      assert (F3 : is_dir_wt s2 v' = false) by apply existsb_wt_remove, Gc.
      now rewrite F1, F2, F3. }
    rewrite (IH s2 G'). destruct s; reflexivity.
Qed.

Lemma rm_glob_eq s pat : rm_glob_guard s pat = true -> g_rm_glob s pat = s_rm_glob s pat.
Proof.
  unfold rm_glob_guard, g_rm_glob, s_rm_glob. cbv zeta. intros G. apply andb_true_iff in G as [G G3].
  assert (Ef : filter (git_rm_match pat) (map ie_path (st_index s)) = filter (gmatch pat) (map ie_path (st_index s))).
  { apply filter_ext_in. intros q Hq. unfold git_rm_match. destruct (has_meta pat); cbn [negb andb orb] in *; [now rewrite orb_false_r|].
    apply negb_true_iff in G3. rewrite existsb_false in G3. now rewrite (G3 q Hq), orb_false_r. }
  rewrite Ef. clear Ef G3.
  set (victims := filter (gmatch pat) (map ie_path (st_index s))) in *.
  apply andb_true_iff in G as [G1 G2].
  rewrite (fold_rm_glob victims s G2).
  destruct victims as [|v0 vr] eqn:Ev; [discriminate|]. rewrite <- Ev in *.
  assert (Hf : first_fails s victims = false).
  { apply first_fails_files, forallb_forall. intros v Hv.
    unfold victims_ok in G2. apply andb_true_iff in G2 as [_ G2].
    rewrite forallb_forall in G2. specialize (G2 v Hv). now rewrite !andb_true_iff in G2. }
  rewrite Hf. destruct s; reflexivity.
Qed.
