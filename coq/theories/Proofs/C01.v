(* Proofs/C01.v — lemmas for C01 (object IDs and loose objects), about Model/ObjFile.v
   and Spec/LooseGit.v: the decimal printer and its readers (strconv.ParseInt,
   git's canonical decimal); go-git's and git's header scanners as instances of
   read_until; the type names; the header writer and reader; the object writers,
   which see only the concatenation of the chunks. *)
From Coq Require Import List NArith ZArith Bool Arith Lia ZifyBool ZifyNat ZifyN.
From GoGit Require Import Base.Out Spec.SHA Gen.C01 Model.ObjFile Spec.LooseGit Proofs.SHA.
Import ListNotations.
Local Open Scope N_scope.

Lemma digits_fuel_S f n acc :
  digits_fuel (S f) n acc =
  if n / 10 =? 0 then (48 + n mod 10) :: acc else digits_fuel f (n / 10) ((48 + n mod 10) :: acc).
Proof. reflexivity. Qed.

Lemma digits_fuel_app : forall f n acc, digits_fuel f n acc = digits_fuel f n [] ++ acc.
Proof.
  induction f as [|f IH]; intros n acc; cbn [digits_fuel]; [reflexivity|].
  destruct (n / 10 =? 0); [reflexivity|].
  rewrite (IH (n / 10) ((48 + n mod 10) :: acc)), (IH (n / 10) [48 + n mod 10]).
  now rewrite <- app_assoc.
Qed.

Lemma parse_digits_app : forall a b acc,
  parse_digits (a ++ b) acc =
  match parse_digits a acc with Some v => parse_digits b v | None => None end.
Proof.
  induction a as [|c a IH]; intros b acc; cbn [app parse_digits]; [reflexivity|].
  destruct (is_digit c); [apply IH | reflexivity].
Qed.

Lemma digit_is_digit d : d < 10 -> is_digit (48 + d) = true.
Proof. unfold is_digit. lia. Qed.

Lemma div10_lt_pow2 n k : n < 2 ^ (N.succ k) -> n / 10 < 2 ^ k.
Proof.
  intros Hn. rewrite N.pow_succ_r' in Hn.
  apply N.div_lt_upper_bound; lia.
Qed.

(* print_dec n is one digit, or the text of n / 10 followed by the last digit:
   what is known of the printed text is proved along this *)
Lemma print_dec_ind (P : N -> bytes -> Prop) :
  (forall d, d < 10 -> P d [48 + d]) ->
  (forall n l, 10 <= n -> P (n / 10) l -> P n (l ++ [48 + n mod 10])) ->
  forall n, P n (print_dec n).
Proof.
  intros Hone Hmore.
  assert (F : forall f n, n < 2 ^ N.of_nat f -> P n (digits_fuel (S f) n [])).
  { induction f as [|f IH]; intros n Hn.
    - replace n with 0 by (cbn in Hn; lia). now apply (Hone 0).
    - rewrite digits_fuel_S. destruct (n / 10 =? 0) eqn:E.
      + replace (n mod 10) with n by lia. apply Hone. lia.
      + rewrite digits_fuel_app. apply Hmore; [lia|]. apply IH, div10_lt_pow2. now rewrite <- Nat2N.inj_succ. }
  intros n. apply F. rewrite N2Nat.id. apply N.size_gt.
Qed.

Lemma parse_print n : parse_digits (print_dec n) 0 = Some n.
Proof.
  apply (print_dec_ind (fun n l => parse_digits l 0 = Some n)).
  - intros d Hd. cbn [parse_digits]. rewrite digit_is_digit by exact Hd. f_equal. lia.
  - intros m l Hm IH. rewrite parse_digits_app, IH. cbn [parse_digits]. rewrite digit_is_digit by lia. f_equal. lia.
Qed.

Lemma print_dec_digits n : Forall (fun c => is_digit c = true) (print_dec n).
Proof.
  apply (print_dec_ind (fun _ l => Forall (fun c => is_digit c = true) l)).
  - intros d Hd. constructor; [now apply digit_is_digit|constructor].
  - intros m l _ IH. apply Forall_app. split; [exact IH|]. constructor; [apply digit_is_digit; lia|constructor].
Qed.

Lemma print_dec_zero : print_dec 0 = [48].
Proof. reflexivity. Qed.

(* no leading zero *)
Lemma print_dec_head n : 0 < n -> exists d r, print_dec n = d :: r /\ 49 <= d /\ d <= 57.
Proof.
  apply (print_dec_ind (fun n l => 0 < n -> exists d r, l = d :: r /\ 49 <= d /\ d <= 57)).
  - intros d Hd Hpos. exists (48 + d), []. split; [reflexivity|lia].
  - intros m l Hm IH _. destruct IH as (d & r & -> & Hd); [lia|]. now exists d, (r ++ [48 + m mod 10]).
Qed.

Lemma print_dec_length n k :
  (1 <= k)%nat -> n < 10 ^ N.of_nat k -> (List.length (print_dec n) <= k)%nat.
Proof.
  revert k.
  apply (print_dec_ind (fun n l => forall k, (1 <= k)%nat -> n < 10 ^ N.of_nat k -> (List.length l <= k)%nat)).
  - intros d _ k Hk _. exact Hk.
  - intros m l Hm IH [|k] Hk Hlt; [lia|]. rewrite Nat2N.inj_succ, N.pow_succ_r' in Hlt.
    assert (Hk' : (1 <= k)%nat) by (destruct k; [cbn in Hlt|]; lia).
    specialize (IH k Hk' ltac:(lia)). rewrite app_length. cbn [List.length]. lia.
Qed.

Lemma two63_lt : two63 < 10 ^ N.of_nat 19. Proof. vm_compute. reflexivity. Qed.
Lemma two64_lt : two64 < 10 ^ N.of_nat 20. Proof. vm_compute. reflexivity. Qed.

Lemma print_int_nonneg z : (0 <= z)%Z -> print_int z = print_dec (Z.to_N z).
Proof. destruct z; [reflexivity | reflexivity | lia]. Qed.

Lemma print_int_of_nat k : print_int (Z.of_nat k) = print_dec (N.of_nat k).
Proof. rewrite print_int_nonneg by lia. f_equal. lia. Qed.

Lemma parse_digits_mono : forall l a n, parse_digits l a = Some n -> a <= n.
Proof.
  induction l as [|c l IH]; intros a n Hp; cbn [parse_digits] in Hp.
  - injection Hp as <-. lia.
  - destruct (is_digit c); [|discriminate]. apply IH in Hp. lia.
Qed.

(* git's canonical-decimal reader agrees with parse_digits below 2^64 *)
Lemma git_digits_of_parse : forall l a n,
  parse_digits l a = Some n -> n < two64 -> git_digits l a = Some n.
Proof.
  induction l as [|c l IH]; intros a n Hp Hn; cbn [parse_digits git_digits] in *; [assumption|].
  destruct (is_digit c); [|discriminate].
  pose proof (parse_digits_mono _ _ _ Hp) as Hm.
  replace (two64 <=? 10 * a + (c - 48)) with false by lia. now apply IH.
Qed.

Lemma parse_of_git_digits : forall l a n, git_digits l a = Some n -> parse_digits l a = Some n.
Proof.
  induction l as [|c l IH]; intros a n Hg; cbn [parse_digits git_digits] in *; [assumption|].
  destruct (is_digit c); [|discriminate].
  destruct (two64 <=? 10 * a + (c - 48)); [discriminate|]. now apply IH.
Qed.

Lemma git_size_print n : n < two64 -> git_size (print_dec n) = Some n.
Proof.
  intros Hn. destruct (N.eq_dec n 0) as [->|Hz]; [reflexivity|].
  destruct (print_dec_head n ltac:(lia)) as (d & r & E & Hlo & Hhi).
  pose proof (parse_print n) as P. rewrite E in *. unfold git_size.
  assert (Hd : is_digit d = true) by (unfold is_digit; lia).
  rewrite Hd. cbn [negb]. replace (d =? 48) with false by lia.
  cbn [parse_digits] in P. rewrite Hd in P.
  replace (10 * 0 + (d - 48)) with (d - 48) in P by lia.
  now apply git_digits_of_parse.
Qed.

(* go-git's ParseInt accepts every size text git accepts ... *)
Lemma parse_int64_of_git_size sz n :
  git_size sz = Some n -> n < two63 -> parse_int64 sz = Some (Z.of_N n).
Proof.
  unfold git_size, parse_int64. destruct sz as [|c r]; [discriminate|].
  destruct (is_digit c) eqn:Hd; [|discriminate]. cbn [negb].
  assert (H43 : (c =? 43) = false) by (unfold is_digit in Hd; lia).
  assert (H45 : (c =? 45) = false) by (unfold is_digit in Hd; lia).
  rewrite H43, H45. cbn [parse_digits]. rewrite Hd.
  replace (10 * 0 + (c - 48)) with (c - 48) by lia.
  destruct (c =? 48) eqn:E0.
  - destruct r; [|discriminate]. intros [= <-] _. cbn [parse_digits].
    apply N.eqb_eq in E0. subst c. reflexivity.
  - intros Hg Hn. apply parse_of_git_digits in Hg. rewrite Hg.
    replace (two63 <=? n) with false by lia. reflexivity.
Qed.

(* ... in particular what FormatInt printed *)
Lemma parse_int64_print n : n < two63 -> parse_int64 (print_dec n) = Some (Z.of_N n).
Proof.
  intros Hn. apply parse_int64_of_git_size; [|exact Hn]. apply git_size_print. unfold two63, two64 in *. lia.
Qed.

Lemma read_until_app : forall pre delim budget r acc,
  Forall (fun c => c <> delim) pre -> (List.length pre < budget)%nat ->
  read_until delim budget (pre ++ delim :: r) acc
  = Ok (rev acc ++ pre, (budget - List.length pre - 1)%nat, r).
Proof.
  induction pre as [|c pre IH]; intros delim budget r acc Hno Hlen.
  - destruct budget as [|b]; [cbn in Hlen; lia|]. cbn [app read_until].
    rewrite N.eqb_refl, app_nil_r. cbn [List.length]. do 3 f_equal. lia.
  - destruct budget as [|b]; [cbn in Hlen; lia|]. cbn [app read_until].
    inversion Hno as [|? ? Hc Hno']; subst.
    apply N.eqb_neq in Hc. rewrite Hc.
    rewrite IH by (try assumption; cbn [List.length] in Hlen; lia).
    cbn [rev List.length]. rewrite <- app_assoc. reflexivity.
Qed.

Lemma read_until_inv : forall l delim budget acc v b r,
  read_until delim budget l acc = Ok (v, b, r) ->
  exists pre, l = pre ++ delim :: r /\ v = rev acc ++ pre /\ Forall (fun c => c <> delim) pre
              /\ (List.length pre < budget)%nat /\ b = (budget - List.length pre - 1)%nat.
Proof.
  induction l as [|c l IH]; intros delim budget acc v b r Hr.
  - destruct budget; discriminate.
  - destruct budget as [|bd]; [discriminate|]. cbn [read_until] in Hr.
    destruct (c =? delim) eqn:E.
    + apply N.eqb_eq in E. subst c. injection Hr as <- <- <-.
      exists []. cbn. rewrite app_nil_r. repeat split; [constructor | lia..].
    + apply IH in Hr. destruct Hr as (pre & -> & -> & Hno & Hlen & ->).
      exists (c :: pre). cbn [app rev List.length]. rewrite <- app_assoc.
      repeat split; try lia. constructor; [now apply N.eqb_neq | assumption].
Qed.

(* git's two scanners are read_until: find_nul with delimiter NUL, forgetting
   the remaining budget; split_sp with delimiter SP and budget to spare *)
Definition scanned (x : res (bytes * nat * bytes)) : option (bytes * bytes) :=
  match x with Ok (v, _, r) => Some (v, r) | Err _ => None end.

Lemma find_nul_read : forall budget l acc, find_nul budget l acc = scanned (read_until 0 budget l acc).
Proof.
  induction budget as [|b IH]; intros [|c l] acc; cbn [find_nul read_until]; try reflexivity.
  destruct (c =? 0); [reflexivity|apply IH].
Qed.

Lemma split_sp_read : forall l acc budget, (List.length l < budget)%nat ->
  split_sp l acc = scanned (read_until 32 budget l acc).
Proof.
  induction l as [|c l IH]; intros acc [|b] L; cbn [List.length] in L; try lia; cbn [split_sp read_until]; [reflexivity|].
  destruct (c =? 32); [reflexivity|]. apply IH. lia.
Qed.

Lemma find_nul_app pre budget r acc :
  Forall (fun c => c <> 0) pre -> (List.length pre < budget)%nat ->
  find_nul budget (pre ++ 0 :: r) acc = Some (rev acc ++ pre, r).
Proof. intros Hno Hlen. now rewrite find_nul_read, read_until_app. Qed.

Lemma find_nul_inv l budget acc h r :
  find_nul budget l acc = Some (h, r) ->
  exists pre, l = pre ++ 0 :: r /\ h = rev acc ++ pre /\ Forall (fun c => c <> 0) pre
              /\ (List.length pre < budget)%nat.
Proof.
  rewrite find_nul_read. destruct (read_until 0 budget l acc) as [[[v b] r']|] eqn:E; [|discriminate].
  intros [= <- <-]. apply read_until_inv in E as (pre & ? & ? & ? & ? & _). now exists pre.
Qed.

Lemma split_sp_app pre r acc :
  Forall (fun c => c <> 32) pre -> split_sp (pre ++ 32 :: r) acc = Some (rev acc ++ pre, r).
Proof.
  intros Hno. rewrite (split_sp_read _ _ _ (Nat.lt_succ_diag_r _)), read_until_app; [reflexivity|exact Hno|].
  rewrite app_length. cbn [List.length]. lia.
Qed.

Lemma split_sp_inv l acc ty sz :
  split_sp l acc = Some (ty, sz) ->
  exists pre, l = pre ++ 32 :: sz /\ ty = rev acc ++ pre /\ Forall (fun c => c <> 32) pre.
Proof.
  rewrite (split_sp_read _ _ _ (Nat.lt_succ_diag_r _)).
  destruct (read_until 32 _ l acc) as [[[v b] r']|] eqn:E; [|discriminate].
  intros [= <- <-]. apply read_until_inv in E as (pre & ? & ? & ? & _). now exists pre.
Qed.

Lemma bytes_eqb_eq : forall a b, bytes_eqb a b = true -> a = b.
Proof.
  induction a as [|x a IH]; intros [|y b] Hb; cbn in Hb; try discriminate; [reflexivity|].
  apply andb_prop in Hb. destruct Hb as [H1 H2]. apply N.eqb_eq in H1. subst. f_equal. now apply IH.
Qed.

Lemma type_bytes_no_sp t : Forall (fun c => c <> 32) (type_bytes t).
Proof. destruct t; cbn; repeat constructor; discriminate. Qed.

Lemma type_bytes_no_nul t : Forall (fun c => c <> 0) (type_bytes t).
Proof. destruct t; cbn; repeat constructor; discriminate. Qed.

Lemma type_bytes_len t : (List.length (type_bytes t) <= 9)%nat.
Proof. destruct t; cbn; lia. Qed.

Lemma type_bytes_len_git t : type_git t = true -> (List.length (type_bytes t) <= 6)%nat.
Proof. destruct t; cbn; intros; try discriminate; lia. Qed.

Lemma parse_type_bytes t : type_valid t = true -> parse_type (type_bytes t) = Some t.
Proof. destruct t; intros Hv; try discriminate; reflexivity. Qed.

Lemma git_type_bytes t : type_git t = true -> git_type (type_bytes t) = Some t.
Proof. destruct t; intros Hv; try discriminate; reflexivity. Qed.

Lemma type_git_valid t : type_git t = true -> type_valid t = true.
Proof. destruct t; intros; try discriminate; reflexivity. Qed.

Lemma git_type_parse ty t : git_type ty = Some t -> parse_type ty = Some t /\ type_git t = true.
Proof.
  unfold git_type. destruct (parse_type ty) as [t'|]; [|discriminate].
  destruct (type_git t') eqn:E; [|discriminate]. intros [= <-]. now split.
Qed.

Lemma digits_no_nul l : Forall (fun c => is_digit c = true) l -> Forall (fun c => c <> 0) l.
Proof. apply Forall_impl. intros c Hc. unfold is_digit in Hc. lia. Qed.

Lemma max_header_len_32 : max_header_len = 32%nat.
Proof. reflexivity. Qed.

Lemma hdr_nonneg t z : (0 <= z)%Z ->
  hdr t z = type_bytes t ++ 32 :: print_dec (Z.to_N z) ++ [0].
Proof. intros Hz. unfold hdr. now rewrite print_int_nonneg. Qed.

Lemma hdr_length t z : (0 <= z < Z.of_N two63)%Z -> (List.length (hdr t z) <= 30)%nat.
Proof.
  intros Hz. rewrite hdr_nonneg by lia. rewrite app_length. cbn [List.length]. rewrite app_length. cbn [List.length].
  pose proof (type_bytes_len t).
  pose proof (print_dec_length (Z.to_N z) 19 ltac:(lia) ltac:(pose proof two63_lt; lia)). lia.
Qed.

(* what Reader.Header accepts: see header_shape in Proofs/C01main.v *)
Lemma read_header_shape ty sz c t n :
  Forall (fun b => b <> 32) ty -> Forall (fun b => b <> 0) sz ->
  (List.length ty + List.length sz + 2 <= max_header_len)%nat ->
  parse_type ty = Some t -> parse_int64 sz = Some n ->
  read_header (ty ++ 32 :: sz ++ 0 :: c) = Ok (t, n, c).
Proof.
  intros Hno1 Hno2 Hlen Hpt Hpi. unfold read_header.
  rewrite read_until_app by (try assumption; lia). cbn [rev app]. rewrite Hpt.
  rewrite read_until_app by (try assumption; lia). cbn [rev app]. now rewrite Hpi.
Qed.

Lemma read_header_hdr t z r :
  type_valid t = true -> (0 <= z < Z.of_N two63)%Z ->
  read_header (hdr t z ++ r) = Ok (t, z, r).
Proof.
  intros Hv Hz. rewrite hdr_nonneg by lia. rewrite <- (Z2N.id z) at 2 by lia.
  rewrite <- app_assoc. cbn [app]. rewrite <- app_assoc. cbn [app].
  pose proof (type_bytes_len t) as Ht.
  pose proof (print_dec_length (Z.to_N z) 19 ltac:(lia) ltac:(pose proof two63_lt; lia)) as Hd.
  apply read_header_shape; [apply type_bytes_no_sp|apply digits_no_nul, print_dec_digits|rewrite max_header_len_32; lia| |].
  - now apply parse_type_bytes.
  - apply parse_int64_print. lia.
Qed.

Lemma w_header_ok t z :
  type_valid t = true -> (0 <= z < Z.of_N two63)%Z ->
  w_header t z = Ok (mkW (hdr t z) (hdr t z) z).
Proof.
  intros Hv Hz. unfold w_header. rewrite Hv. cbn [negb].
  replace (z <? 0)%Z with false by lia.
  fold (hdr t z). pose proof (hdr_length t z Hz) as Hl. rewrite max_header_len_32.
  replace (32 <? List.length (hdr t z))%nat with false by (symmetry; apply Nat.ltb_ge; lia).
  reflexivity.
Qed.

Lemma w_header_pending t size st : w_header t size = Ok st -> (0 <= w_pending st)%Z.
Proof.
  unfold w_header. destruct (negb (type_valid t)); [discriminate|].
  destruct (size <? 0)%Z eqn:E; [discriminate|].
  destruct (Nat.ltb max_header_len _); [discriminate|]. intros [= <-]. cbn [w_pending]. lia.
Qed.

Lemma blen_app a b : blen (a ++ b) = (blen a + blen b)%Z.
Proof. unfold blen. rewrite app_length. lia. Qed.

Lemma blen_nonneg a : (0 <= blen a)%Z.
Proof. unfold blen. lia. Qed.

Lemma firstn_blen (p : bytes) k : (blen p <= k)%Z -> firstn (Z.to_nat k) p = p.
Proof. intros H. apply firstn_all2. unfold blen in H. lia. Qed.

(* the writer sees only the concatenation of the chunks *)
Lemma w_writes_concat : forall chunks st,
  (0 <= w_pending st)%Z -> w_writes st chunks = w_write st (concat chunks).
Proof.
  induction chunks as [|p chunks IH]; intros [z h pend] Hpos; cbn [w_writes concat w_pending] in *.
  - unfold w_write, hasher_write. cbn [w_z w_h w_pending]. change (blen []) with 0%Z.
    replace (pend <? 0)%Z with false by lia. now rewrite !app_nil_r, Z.sub_0_r.
  - pose proof (blen_nonneg p) as Hp. pose proof (blen_nonneg (concat chunks)) as Hc.
    unfold w_write at 1. cbn [w_z w_h w_pending]. destruct (pend <? blen p)%Z eqn:E.
    + (* this chunk overflows: so does the concatenation, at the same byte *)
      unfold w_write. cbn [w_z w_h w_pending]. rewrite blen_app.
      replace (pend <? blen p + blen (concat chunks))%Z with true by lia.
      rewrite firstn_app. replace (Z.to_nat pend - List.length p)%nat with 0%nat by (unfold blen in E; lia).
      cbn [firstn]. now rewrite app_nil_r.
    + rewrite IH by (cbn [w_pending]; lia). unfold w_write, hasher_write. cbn [w_z w_h w_pending].
      rewrite blen_app.
      replace (pend - blen p <? blen (concat chunks))%Z with (pend <? blen p + blen (concat chunks))%Z by lia.
      rewrite firstn_app, (firstn_blen p) by lia.
      replace (Z.to_nat pend - List.length p)%nat with (Z.to_nat (pend - blen p)) by (unfold blen; lia).
      destruct (pend <? blen p + blen (concat chunks))%Z; rewrite <- !app_assoc, blen_app; do 2 f_equal; lia.
Qed.

Lemma w_writes_fit chunks st :
  (blen (concat chunks) <= w_pending st)%Z ->
  w_writes st chunks =
  (mkW (w_z st ++ concat chunks) (w_h st ++ concat chunks) (w_pending st - blen (concat chunks)), None).
Proof.
  intros Hfit. pose proof (blen_nonneg (concat chunks)). rewrite w_writes_concat by lia.
  unfold w_write. now replace (w_pending st <? blen (concat chunks))%Z with false by lia.
Qed.

Lemma m_write_fold : forall chunks o,
  fold_left m_write chunks o =
  mkM (m_t o) (m_h o) (m_cont o ++ concat chunks)
      (match chunks with [] => m_sz o | _ => blen (m_cont o ++ concat chunks) end).
Proof.
  induction chunks as [|p chunks IH]; intros o; cbn [fold_left concat].
  - rewrite app_nil_r. now destruct o.
  - rewrite IH. cbn [m_write m_t m_h m_cont m_sz]. rewrite <- app_assoc.
    destruct chunks; [cbn [concat]; now rewrite app_nil_r|reflexivity].
Qed.

Lemma m_fill_eq t chunks :
  m_fill t (blen (concat chunks)) chunks = mkM t None (concat chunks) (blen (concat chunks)).
Proof. unfold m_fill. rewrite m_write_fold. now destruct chunks. Qed.
