(* Proofs/C03CommitSig.v — commits: the signature go-git's scanner accumulates
   in Commit.Signature (SHA-1 repositories, header "gpgsig") or
   Commit.SignatureSHA256 (SHA-256 repositories, header "gpgsig-sha256", what
   `git verify-commit` checks there) is the signature buffer of git's
   parse_buffer_signed_by_header run with that header, for every object whose
   gpgsig-prefixed header lines are signature headers and whose header lines
   are LF-terminated.  One proof for both formats. *)
From Coq Require Import List NArith ZArith Bool Lia.
From GoGit Require Import Base.Out Model.ObjLines Model.Ident Model.Commit Model.Tag Model.SigPayload
     Spec.GitSig Spec.ObjWf Spec.SigGuards Proofs.ObjLinesFacts Proofs.C03Commit Proofs.C03Mutated Proofs.C02Scan.
Import ListNotations.
Local Open Scope N_scope.

Lemma cut_at_spec c b k v f :
  cut_at c b = (k, v, f) -> b = k ++ (if f then c :: v else []) /\ forallb (fun x => negb (x =? c)) k = true.
Proof.
  revert k v f; induction b as [|x b IH]; intros k v f H; cbn in H.
  - inversion H; subst. now split.
  - destruct (x =? c) eqn:E.
    + inversion H; subst. apply N.eqb_eq in E. subst. now split.
    + destruct (cut_at c b) as [[k0 v0] f0] eqn:Ec. inversion H; subst.
      destruct (IH _ _ _ eq_refl) as [-> Hk]. split; [reflexivity|]. cbn. now rewrite E, Hk.
Qed.

Lemma trim_right_app_lf p : no_lf p = true -> trim_right LF (p ++ [LF]) = p.
Proof.
  induction p as [|c p IH]; intros H; [reflexivity|]. rewrite no_lf_cons in H.
  apply andb_true_iff in H as [H1 H2]. apply negb_true_iff in H1.
  change (trim_right LF ((c :: p) ++ [LF])) with
    (match trim_right LF (p ++ [LF]) with [] => if c =? LF then [] else [c] | t => c :: t end).
  rewrite (IH H2), H1. now destruct p.
Qed.

Lemma line_lf_form l : line_ok l -> ends_nl l = true -> exists p, no_lf p = true /\ l = p ++ [LF].
Proof.
  intros [Hne [p [Hp [-> | ->]]]] He; [now exists p|]. now rewrite (ends_nl_no_lf _ Hp) in He.
Qed.

Lemma split_header_line p : no_lf p = true ->
  split_header (p ++ [LF]) = (let '(k, v, _) := cut_at SPC p in (k, v)).
Proof. intros H. unfold split_header. now rewrite (trim_right_app_lf _ H). Qed.

(* a line whose key is K starts with K *)
Lemma key_prefix l k : line_ok l -> ends_nl l = true -> fst (split_header l) = k -> starts_with k l = true.
Proof.
  intros Hl He Hk. destruct (line_lf_form _ Hl He) as [p [Hp ->]].
  rewrite (split_header_line _ Hp) in Hk. destruct (cut_at SPC p) as [[k0 v0] f0] eqn:Ec. cbn in Hk. subst k0.
  destruct (cut_at_spec _ _ _ _ _ Ec) as [-> _]. rewrite <- app_assoc. apply starts_with_app.
Qed.

(* a signature header line: its key and its value *)
Lemma key_sig_header h l : sig_hdr h -> line_ok l -> ends_nl l = true -> starts_with (h ++ [SPC]) l = true ->
  fst (split_header l) = h /\ snd (split_header l) ++ [LF] = skipn (List.length h + 1) l.
Proof.
  intros Hh Hl He H7. destruct (line_lf_form _ Hl He) as [p [Hp ->]].
  apply starts_with_spec in H7 as [r Hr].
  assert (exists v, p = (h ++ [SPC]) ++ v) as [v ->].
  { destruct (exists_last (l := r)) as [v [x Hv]].
    - intros ->. rewrite app_nil_r in Hr. apply app_inj_tail in Hr as [_ Hx]. discriminate Hx.
    - subst r. rewrite app_assoc in Hr. apply app_inj_tail in Hr as [-> _]. now exists v. }
  rewrite (split_header_line _ Hp). destruct Hh as [-> | ->]; split; reflexivity.
Qed.

(* a line starting with a blank has the empty key *)
Lemma key_of_sp l : first_is SPC l = true -> fst (split_header l) = [].
Proof.
  intros H. apply first_is_true in H as [r ->]. unfold split_header.
  assert (exists t, trim_right LF (SPC :: r) = SPC :: t) as [t ->].
  { change (trim_right LF (SPC :: r)) with
      (match trim_right LF r with [] => if SPC =? LF then [] else [SPC] | t => SPC :: t end).
    destruct (trim_right LF r); [now exists []|eexists; reflexivity]. }
  reflexivity.
Qed.

(* how one scanner step changes the signature field of the format *)
Definition sig_of (f : repo_fmt) (c : commit) : bytes := match f with SHA1 => c_sig c | SHA256 => c_sig256 c end.
Definition pgp_of (f : repo_fmt) : cstate := match f with SHA1 => SPgp | SHA256 => SPgp256 end.
Definition in_sig (f : repo_fmt) (st : cstate) : bool :=
  match f, st with SHA1, SPgp | SHA256, SPgp256 => true | _, _ => false end.

Lemma in_sig_pgp f : in_sig f (pgp_of f) = true.
Proof. now destruct f. Qed.

Lemma pgp_not_message f : pgp_of f <> SMessage.
Proof. now destruct f. Qed.

Lemma cstep_sig f st c se l c' se' st' : st <> SMessage -> cstep st c se false l = Ok (c', se', st') ->
  if is_blank l then st' = SMessage /\ sig_of f c' = sig_of f c
  else if first_is SPC l then
    st' <> SMessage /\
    if in_sig f st then sig_of f c' = sig_of f c ++ tl l /\ st' = pgp_of f
    else sig_of f c' = sig_of f c /\ in_sig f st' = false
  else if beqb (fst (split_header l)) (sig_header_of f)
    then sig_of f c' = sig_of f c ++ snd (split_header l) ++ [LF] /\ st' = pgp_of f
    else sig_of f c' = sig_of f c /\ in_sig f st' = false /\ st' <> SMessage.
Proof.
  intros Hst H. destruct (cstep_header _ _ _ _ _ _ Hst H) as [[Hsp Hc]|[[Hb E]|[Hb [Hn Hk]]]].
  - destruct (sp_line _ Hsp) as (_ & -> & _). rewrite Hsp. inversion Hc; subst; now destruct f.
  - rewrite Hb. inversion E. split; [reflexivity|]. now destruct st, f.
  - rewrite Hb. assert (Hfin : sig_of f (cfinish st c) = sig_of f c) by now destruct st, f.
    rewrite <- Hfin. destruct (first_is SPC l) eqn:Hsp.
    + cbn [andb] in Hn. replace (in_sig f st) with false by (now destruct st, f).
      rewrite (key_of_sp _ Hsp) in Hk. inversion Hk; subst; now destruct f.
    + revert Hk. generalize (fst (split_header l)) as key, (snd (split_header l)) as data. intros key data Hk.
      destruct (beqb key (sig_header_of f)) eqn:Ek; [apply beqb_eq in Ek; subst key|];
        inversion Hk; subst; destruct f; try easy; try (now destruct se); intuition easy.
Qed.

(* the signature part of pbsh does not depend on other_signature *)
Fixpoint pbsh_sig (h : bytes) (i : bool) (ls : list bytes) : bytes :=
  match ls with
  | [] => []
  | l :: r =>
    if i && first_is SPC l then tl l ++ pbsh_sig h true r
    else if starts_with (h ++ [SPC]) l then skipn (List.length h + 1) l ++ pbsh_sig h true r
    else if first_is LF l then [] else pbsh_sig h false r
  end.

Lemma pbsh_sig_eq h : forall ls i o, snd (fst (pbsh h i o ls)) = pbsh_sig h i ls.
Proof.
  induction ls as [|l r IH]; intros i o; [reflexivity|]. cbn [pbsh pbsh_sig].
  destruct (i && first_is SPC l).
  - specialize (IH true o). destruct (pbsh h true o r) as [[p s] f]. cbn in *. now rewrite IH.
  - destruct (starts_with (h ++ [SPC]) l).
    + specialize (IH true false). destruct (pbsh h true false r) as [[p s] f]. cbn in *. now rewrite IH.
    + cbv zeta. destruct (first_is LF l); [reflexivity|].
      match goal with |- context [pbsh h false ?a r] =>
        specialize (IH false a); destruct (pbsh h false a r) as [[p s] f] end.
      cbn in *. exact IH.
Qed.

(* a "gpgsig-sha256"-prefixed line is "gpgsig"-prefixed and not a "gpgsig " header *)
Lemma gpgsig256_gpgsig l : starts_with k_gpgsig256 l = true -> starts_with k_gpgsig l = true /\ starts_with (k_gpgsig ++ [SPC]) l = false.
Proof. intros H. apply starts_with_spec in H as [r ->]. split; reflexivity. Qed.

(* a key that is the signature header of one format, on a line the guard lets through, makes the line such a header *)
Lemma guard_key_sig f l : line_ok l -> ends_nl l = true ->
  (negb (starts_with k_gpgsig l) || is_sig_header l) = true ->
  fst (split_header l) = sig_header_of f -> starts_with (sig_header_of f ++ [SPC]) l = true.
Proof.
  intros Hl Een Hgl Hk. pose proof (key_prefix _ _ Hl Een Hk) as Hpre. unfold is_sig_header in Hgl.
  destruct f; cbn [sig_header_of] in *.
  - rewrite Hpre in Hgl. cbn [negb orb] in Hgl. apply orb_true_iff in Hgl as [G|G]; [exact G|].
    destruct (key_sig_header _ _ (or_intror eq_refl) Hl Een G) as [K _]. rewrite Hk in K. discriminate K.
  - destruct (gpgsig256_gpgsig _ Hpre) as [G1 G2]. now rewrite G1, G2 in Hgl.
Qed.

Lemma crun_sig f : forall ls st c0 se c,
  st <> SMessage -> Forall line_ok ls -> foreign_gpgsig_free ls = true ->
  forallb ends_nl (header_of ls) = true ->
  crun st c0 se ls = Ok c ->
  sig_of f c = sig_of f c0 ++ pbsh_sig (sig_header_of f) (in_sig f st) ls.
Proof.
  induction ls as [|l r IH]; intros st c0 se c Hst Hok Hg He.
  - cbn [crun pbsh_sig]. intros H. inversion H; subst. rewrite app_nil_r. now destruct st, f.
  - inversion Hok as [|? ? Hl Hr]; subst. cbn [crun pbsh_sig]. pose proof (first_is_lf_blank _ Hl) as Eb.
    assert (Een : ends_nl l = true).
    { destruct (first_is LF l) eqn:Elf; [destruct l as [|x [|y l]]; try discriminate; now symmetry|].
      now apply forallb_header_cons in He. }
    rewrite Een. cbn [negb]. destruct (cstep st c0 se false l) as [[[c1 se1] st1]|e] eqn:Es; [|discriminate].
    intros H. pose proof (cstep_sig f _ _ _ _ _ _ _ Hst Es) as P. rewrite <- Eb in P.
    destruct (first_is LF l) eqn:Elf.
    + (* the blank line: the scanner enters the message, pbsh dumps the remainder *)
      destruct P as [-> Hc1]. destruct (crun_message_fields _ _ _ _ H) as [m ->].
      destruct (lf_line _ Elf) as (-> & _ & Eh). rewrite andb_false_r, (not_sighdr_h _ _ (sig_hdr_of f) Eh), app_nil_r, <- Hc1. now destruct f.
    + apply (forallb_header_cons _ _ _ Elf) in He as [_ Her].
      destruct (guard_tail _ _ Elf Hg) as [Hgl Hgr].
      destruct (first_is SPC l) eqn:Esp.
      * (* continuation-looking line *)
        destruct P as [Hst1 P]. rewrite (IH _ _ _ _ Hst1 Hr Hgr Her H).
        destruct (sp_line _ Esp) as (_ & _ & _ & Eh). rewrite andb_true_r, (not_sighdr_h _ _ (sig_hdr_of f) Eh).
        destruct (in_sig f st).
        -- destruct P as [-> ->]. now rewrite in_sig_pgp, app_assoc.
        -- destruct P as [-> P1]. now rewrite P1.
      * rewrite andb_false_r.
        destruct (starts_with (sig_header_of f ++ [SPC]) l) eqn:E7.
        -- destruct (key_sig_header _ _ (sig_hdr_of f) Hl Een E7) as [Hk Hd]. rewrite Hk, beqb_refl, Hd in P.
           destruct P as [P1 ->]. now rewrite (IH _ _ _ _ (pgp_not_message f) Hr Hgr Her H), P1, in_sig_pgp, <- app_assoc.
        -- replace (beqb (fst (split_header l)) (sig_header_of f)) with false in P.
           ++ destruct P as [P1 [P2 P3]]. now rewrite (IH _ _ _ _ P3 Hr Hgr Her H), P1, P2.
           ++ symmetry. apply beqb_neq. intros Hk. now rewrite (guard_key_sig f l Hl Een Hgl Hk) in E7.
Qed.

Theorem sig_eq_pbsh_fmt : forall f raw c,
  decode_commit raw = Ok c -> commit_sig_guard raw = true -> hdr_terminated raw = true ->
  sig_of f c = snd (fst (git_commit_payload_fmt f raw)).
Proof.
  intros f raw c Hd Hg He. unfold decode_commit, commit_sig_guard, hdr_terminated, git_commit_payload_fmt in *.
  rewrite pbsh_sig_eq.
  pose proof (split_lines_ok raw) as Hok.
  destruct (split_lines raw) as [|l r]; [discriminate|].
  inversion Hok as [|? ? Hl Hr]; subst.
  (* decode_commit takes the mandatory tree line itself and starts the scanner on the rest;
     pbsh_sig passes over that line as over any header that is no signature header *)
  cbn [decode_commit_lines] in Hd.
  destruct (is_blank l) eqn:Hb; [discriminate|].
  destruct (split_header l) as [key data] eqn:Es.
  destruct (beqb key k_tree) eqn:Ek; [|discriminate]. cbn [negb] in Hd.
  destruct (parse_oid data) as [h|]; [|discriminate].
  assert (Elf : first_is LF l = false) by now rewrite (first_is_lf_blank _ Hl).
  apply (forallb_header_cons _ _ _ Elf) in He as [Een Her].
  destruct (guard_tail _ _ Elf Hg) as [_ Hgr].
  rewrite Een in Hd.
  apply beqb_eq in Ek. subst key.
  assert (Hpre : starts_with k_tree l = true) by (apply (key_prefix _ _ Hl Een); now rewrite Es).
  apply starts_with_spec in Hpre as [x ->].
  assert (Hne : SParents <> SMessage) by discriminate.
  rewrite (crun_sig f _ _ _ _ _ Hne Hr Hgr Her Hd). now destruct f.
Qed.

(* payload and signature of a freshly decoded commit are git's, in a repository of either format *)
Theorem payload_eq_pbsh_fmt : forall f raw c,
  decode_commit raw = Ok c -> commit_sig_guard raw = true ->
  commit_payload raw true c = fst (fst (git_commit_payload_fmt f raw)).
Proof. intros f raw c Hd Hg. rewrite (payload_fresh _ _ Hd). now apply strip_eq_pbsh_fmt. Qed.

Theorem accepts_iff_fmt : forall f (V : bytes -> bytes -> bool) raw c,
  decode_commit raw = Ok c -> commit_sig_guard raw = true -> hdr_terminated raw = true ->
  V (commit_payload raw true c) (sig_of f c) =
  V (fst (fst (git_commit_payload_fmt f raw))) (snd (fst (git_commit_payload_fmt f raw))).
Proof. intros f V raw c Hd Hg Ht. now rewrite (payload_eq_pbsh_fmt f _ _ Hd Hg), (sig_eq_pbsh_fmt f _ _ Hd Hg Ht). Qed.

Theorem sig_eq_pbsh : forall raw c,
  decode_commit raw = Ok c -> commit_sig_guard raw = true -> hdr_terminated raw = true ->
  c_sig c = snd (fst (git_commit_payload raw)).
Proof. exact (sig_eq_pbsh_fmt SHA1). Qed.

Theorem sig256_eq_pbsh : forall raw c,
  decode_commit raw = Ok c -> commit_sig_guard raw = true -> hdr_terminated raw = true ->
  c_sig256 c = snd (fst (git_commit_payload_fmt SHA256 raw)).
Proof. exact (sig_eq_pbsh_fmt SHA256). Qed.
