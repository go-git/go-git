(* Proofs/C35GitAdv.v — go-git's reference advertisement (v0 / v1) is in git's
   documented grammar (Spec/GitProto.v git_advrefs) and means the message:
   the capability words, the references in wire order, the shallows. *)
From Coq Require Import List Arith NArith ZArith Bool Lia String.
From GoGit Require Import Base.Out Base.GoInt Gen.C34 Model.PktLine Model.C35Utf8 Model.Packp Spec.GitProto
  Proofs.C34Pkt Proofs.C35Base Proofs.C35Utf8 Proofs.C35U Proofs.C35Msgs Proofs.C35Caps Proofs.C35Dec Proofs.C35Adv Proofs.C35Ul
  Proofs.C35Git Proofs.C35GitV0.
Import ListNotations.

Definition CAPSREF : bytes := B "capabilities^{}".

(* what git's grammar asks of an advertised reference *)
Definition gref_ok (hexsz : nat) (r : bytes * hash) : bool :=
  sized hexsz (snd r) && negb (Nat.eqb (List.length (fst r)) 0) && negb (beq (fst r) CAPSREF).

Lemma git_adv_ref hexsz x r acc : gref_ok hexsz x = true ->
  git_adv_refs hexsz (PData (ref_line (snd x) (fst x)) :: r) acc = git_adv_refs hexsz r (acc ++ [x]).
Proof.
  destruct x as [n h]. unfold gref_ok, CAPSREF. cbn [fst snd]. intros H.
  apply andb_prop in H. destruct H as [H Hc]. apply andb_prop in H. destruct H as [Hs Hn]. apply negb_true_iff in Hc.
  cbn [git_adv_refs]. rewrite ref_line_eq, chomp_app, (oid_sp_str hexsz h n Hs), Hc. now destruct n.
Qed.

Definition is_sized_str (hexsz : nat) (s : bytes) : Prop := exists h, sized hexsz h = true /\ s = hash_str h.

Lemma git_adv_shallow hexsz s r acc : is_sized_str hexsz s ->
  git_adv_shallows hexsz (PData (B "shallow " ++ s ++ [NL]) :: r) (map new_hash acc) = git_adv_shallows hexsz r (map new_hash (acc ++ [s])).
Proof.
  intros (h & Hs & ->). cbn [git_adv_shallows]. rewrite chomp_kw, (kw_oid_str hexsz "shallow" (B "shallow ") h eq_refl Hs), map_app.
  cbn [map]. now rewrite (new_hash_str h (proj1 (sized_spec hexsz h Hs))).
Qed.

Lemma oid_sp_shallow hexsz x : (0 < hexsz)%nat -> oid_sp hexsz (B "shallow " ++ x) = None.
Proof.
  intros H. destruct hexsz as [|k]; [lia|]. unfold oid_sp.
  change (B "shallow " ++ x) with (115%N :: skipn 1 (B "shallow ") ++ x). cbn [firstn]. unfold git_oid. cbn [forallb].
  change (ishex 115) with false. cbn [andb]. now rewrite andb_false_r.
Qed.

Lemma sized_sorted_strs hexsz shs : forallb (sized hexsz) shs = true ->
  Forall (is_sized_str hexsz) (sort_by bytes_ltb (map hash_str shs)).
Proof.
  intros H. apply sort_by_Forall. apply Forall_forall. intros s Hin. apply in_map_iff in Hin. destruct Hin as (h & <- & Hh).
  rewrite forallb_forall in H. exists h. split; [now apply H|reflexivity].
Qed.

Lemma git_adv_tail hexsz R shs acc : (0 < hexsz)%nat -> forallb (gref_ok hexsz) R = true -> forallb (sized hexsz) shs = true ->
  git_adv_refs hexsz (ref_lines R ++ shallow_lines shs ++ [PFlush]) acc
  = Some (acc ++ R, map new_hash (sort_by bytes_ltb (map hash_str shs))).
Proof.
  intros Hz HR Hs. unfold ref_lines.
  rewrite (lines_acc (git_adv_refs hexsz) _ (fun acc => acc) _ (fun x r acc => git_adv_ref hexsz x r acc)) by now apply forallb_Forall.
  unfold shallow_lines. pose proof (sized_sorted_strs hexsz shs Hs) as Hf.
  destruct (sort_by bytes_ltb (map hash_str shs)) as [|s ss] eqn:E; [reflexivity|].
  (* the first shallow line is no reference line: the shallow loop takes over *)
  cbn [map app git_adv_refs]. rewrite chomp_kw, (oid_sp_shallow hexsz s Hz).
  pose proof (lines_acc (git_adv_shallows hexsz) (fun s : list N => PData (B "shallow " ++ s ++ [NL])) (map new_hash) _ (git_adv_shallow hexsz) (s :: ss) [PFlush] [] Hf) as K.
  cbn [map app] in K. now rewrite K.
Qed.

Lemma nonul_first fh fname : hash_ok fh = true -> no_byte NUL fname = true -> no_byte NUL (hash_str fh ++ SP :: fname) = true.
Proof.
  intros Hh Hn. rewrite (no_byte_app NUL _ (SP :: fname)). cbn [no_byte forallb]. unfold no_byte in Hn. rewrite Hn.
  unfold no_byte. now rewrite (hash_str_all (fun x => negb (N.eqb x NUL))).
Qed.

Lemma first_not_version h x : hash_ok h = true -> beq (hash_str h ++ x) (B "version 1") = false.
Proof.
  now apply (hash_str_not_kw 118 (skipn 1 (B "version 1"))).
Qed.

Definition adv_abs (a : advrefs) : gadv :=
  mkgadv (cap_tokens (ar_caps a)) (ar_refs (adv_canon a)) (ar_shallows (adv_canon a)).

(* beyond adv_ok: one object format (with references; without, the zero id is written with 40 digits), no reference
   called capabilities^{} *)
Definition adv_git_ok (hexsz : nat) (a : advrefs) : bool :=
  Nat.ltb 0 hexsz && forallb (gref_ok hexsz) (adv_wire (ar_refs a)) && forallb (sized hexsz) (ar_shallows a) &&
  match first_ref (ar_refs a) with Some _ => true | None => Nat.eqb hexsz 40 end.

(* the optional "version 1" line *)
Lemma git_advrefs_version hexsz v p r : ((v =? 0)%Z || (v =? 1)%Z) = true -> beq (chomp p) (B "version 1") = false ->
  git_advrefs hexsz (version_line v ++ PData p :: r) = git_advrefs hexsz (PData p :: r).
Proof.
  intros Hv Hp. unfold version_line. destruct (v =? 0)%Z; [reflexivity|]. destruct (v =? 1)%Z; [|discriminate]. cbn [app].
  unfold git_advrefs. change (beq (chomp (B "version 1" ++ [NL])) (B "version 1")) with true. cbv iota. now rewrite Hp.
Qed.

Lemma git_advrefs_first hexsz v fh fname caps rest : ((v =? 0)%Z || (v =? 1)%Z) = true ->
  sized hexsz fh = true -> name_ok fname = true -> caps_ok caps = true ->
  git_advrefs hexsz (version_line v ++ PData ((hash_str fh ++ [SP] ++ fname ++ [NUL] ++ cap_encode caps) ++ [NL]) :: rest) =
  (if beq fname CAPSREF then
     (if hash_is_zero fh then match git_adv_refs hexsz rest [] with Some ([], sh) => Some (mkgadv (cap_tokens caps) [] sh) | _ => None end else None)
   else match git_adv_refs hexsz rest [(fname, fh)] with
        | Some (refs, sh) => Some (mkgadv (cap_tokens caps) refs sh)
        | None => None
        end).
Proof.
  intros Hv Hs Hn Hc. destruct (sized_spec hexsz fh Hs) as [Hok _].
  unfold name_ok in Hn. destruct fname as [|c0 fn] eqn:Ef; [discriminate|]. rewrite <- Ef in *. apply andb_prop in Hn. destruct Hn as [_ Hnn].
  rewrite git_advrefs_version; [|exact Hv|rewrite chomp_app; apply (first_not_version fh _ Hok)].
  unfold git_advrefs. rewrite chomp_app. rewrite <- !app_assoc. rewrite (first_not_version fh _ Hok).
  assert ((hash_str fh ++ [SP] ++ fname ++ [NUL] ++ cap_encode caps ++ [NL]) = (hash_str fh ++ SP :: fname) ++ NUL :: (cap_encode caps ++ [NL])) as ->
    by (cbn [app]; now rewrite <- !app_assoc).
  rewrite (cut_app NUL _ _ (nonul_first fh fname Hok Hnn)), (oid_sp_str hexsz fh fname Hs).
  rewrite chomp_app, (cap_words_encode caps Hc). rewrite Ef. rewrite <- Ef. reflexivity.
Qed.

Theorem git_advrefs_enc hexsz a ps : adv_ok a = true -> adv_git_ok hexsz a = true -> adv_encode a = Some ps ->
  git_advrefs hexsz ps = Some (adv_abs a).
Proof.
  unfold adv_git_ok. intros H G He. destruct (adv_ok_spec a H) as (Hv & Hcaps & Hrefs & Hsh & Hfirst).
  apply andb_prop in G. destruct G as [G Gf]. apply andb_prop in G. destruct G as [G Gs]. apply andb_prop in G. destruct G as [Gz Gw].
  apply Nat.ltb_lt in Gz. unfold adv_abs, adv_canon. cbn [ar_caps ar_refs ar_shallows].
  destruct (first_ref (ar_refs a)) as [[fname fh]|] eqn:Ef.
  - destruct (Hfirst fname fh eq_refl) as (Hn & Hfn & Hh & _).
    rewrite (adv_encode_some a fname fh Hv Ef Hfn) in He.
    apply Some_inj in He. subst ps.
    unfold adv_wire in Gw |- *. rewrite Ef in Gw |- *.
    change (wire_of (ar_refs a) (fname, fh)) with ((fname, fh) :: tl (wire_of (ar_refs a) (fname, fh))) in Gw.
    cbn [app forallb] in Gw. apply andb_prop in Gw. destruct Gw as [Gf1 Gtl].
    unfold gref_ok in Gf1. cbn [fst snd] in Gf1. apply andb_prop in Gf1. destruct Gf1 as [Gf1 Gcap]. apply andb_prop in Gf1. destruct Gf1 as [Gsz _].
    apply negb_true_iff in Gcap.
    now rewrite (git_advrefs_first hexsz _ fh fname (ar_caps a) _ Hv Gsz Hn Hcaps), Gcap, (git_adv_tail hexsz _ _ _ Gz Gtl Gs).
  - rewrite (adv_encode_none a Hv Ef) in He.
    apply Some_inj in He. subst ps.
    apply Nat.eqb_eq in Gf. subst hexsz.
    unfold adv_wire. rewrite Ef, (adv_sorted_none _ Ef). cbn [flat_map].
    now rewrite (git_advrefs_first 40 _ zero_hash CAPSREF (ar_caps a) _ Hv eq_refl eq_refl Hcaps), (git_adv_tail 40 [] (ar_shallows a) [] Gz eq_refl Gs).
Qed.
