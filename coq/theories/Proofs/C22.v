(* Proofs/C22.v — the walker's seen set contains everything live; Prune and
   RepackObjects keep every live object. *)
From Coq Require Import List NArith ZArith Arith Bool.
From GoGit Require Import Base.Out Gen.C22 Model.Gc Spec.Reach.
Import ListNotations.
Local Open Scope N_scope.

Definition blob_or_unknown (r : repo) (h : oid) : bool :=
  match assoc r.(objs) h with Some OBlob | None => true | _ => false end.

(* a tree entry with a file mode names a blob *)
Definition wf_modes (r : repo) : bool :=
  forallb (fun o => match snd o with
                    | OTree es => forallb (fun e => negb (is_file_mode (fst e)) || blob_or_unknown r (snd e)) es
                    | _ => true
                    end) r.(objs).

(* a (non-gitlink) index entry names a blob *)
Definition wf_index (r : repo) : bool :=
  forallb (fun e => fst e || blob_or_unknown r (snd e)) r.(index).

Lemma mem_In h l : mem h l = true <-> In h l.
Proof.
  unfold mem. rewrite existsb_exists. split.
  - intros (x & Hx & E). apply N.eqb_eq in E. now subst.
  - intro H. exists h. split; [assumption|apply N.eqb_refl].
Qed.

Lemma mem_nIn h l : mem h l = false <-> ~ In h l.
Proof. rewrite <- mem_In. symmetry. apply not_true_iff_false. Qed.

Lemma assoc_In {A} (l : list (oid * A)) h v : assoc l h = Some v -> In (h, v) l.
Proof.
  induction l as [|[k w] l IH]; cbn; [discriminate|].
  destruct (k =? h) eqn:E.
  - intro H. inversion H; subst. apply N.eqb_eq in E. subst. now left.
  - intro H. right. now apply IH.
Qed.

Lemma get_assoc r h o : get r h = Some o -> assoc r.(objs) h = Some o.
Proof. unfold get. destruct (stored r h); [auto|discriminate]. Qed.

Lemma has_get r h : has r h = false <-> get r h = None.
Proof. unfold has. destruct (get r h); split; congruence. Qed.

Lemma blob_no_child r h c : blob_or_unknown r h = true -> ~ child r h c.
Proof.
  unfold blob_or_unknown, child. intro H.
  destruct (get r h) as [o|] eqn:E; [|auto].
  apply get_assoc in E. rewrite E in H. destruct o; try discriminate. auto.
Qed.

Lemma add_seen_seen h st x : In x (add_seen h st).(seen) <-> x = h \/ In x st.(seen).
Proof.
  unfold add_seen. destruct (mem h st.(seen)) eqn:E; cbn.
  - apply mem_In in E. split; [auto|]. intros [->|H]; assumption.
  - split; intros [H|H]; auto.
Qed.

Lemma add_missing_seen h st : (add_missing h st).(seen) = st.(seen).
Proof. unfold add_missing. destruct (mem h st.(missing)); reflexivity. Qed.

Lemma add_seen_missing h st : (add_seen h st).(missing) = st.(missing).
Proof. unfold add_seen. destruct (mem h st.(seen)); reflexivity. Qed.

Lemma add_missing_missing h st x : In x (add_missing h st).(missing) <-> x = h \/ In x st.(missing).
Proof.
  unfold add_missing. destruct (mem h st.(missing)) eqn:E; cbn.
  - apply mem_In in E. split; [auto|]. intros [->|H]; assumption.
  - split; intros [H|H]; auto.
Qed.

(* s' extends the set s: nothing forgotten, and every new member satisfies Q
   and has all its kids in s' *)
Definition grows (Q : oid -> Prop) (kids : oid -> oid -> Prop) (s s' : list oid) : Prop :=
  incl s s' /\ forall x, In x s' -> ~ In x s -> Q x /\ forall c, kids x c -> In c s'.

Lemma grows_refl Q kids s : grows Q kids s s.
Proof. split; [apply incl_refl|]. intros x H1 H2. contradiction. Qed.

Lemma grows_trans Q kids a b c : grows Q kids a b -> grows Q kids b c -> grows Q kids a c.
Proof.
  intros [I1 C1] [I2 C2]. split; [eapply incl_tran; eassumption|].
  intros x Hx Hn. destruct (mem x b) eqn:E.
  - apply mem_In in E. destruct (C1 x E Hn) as [q K]. split; [assumption|]. intros ch Hch. apply I2. now apply K.
  - apply mem_nIn in E. now apply (C2 x Hx E).
Qed.

(* adding o: every extension of s + o in which o is fine extends s *)
Lemma grows_add Q kids o s1 s s' :
  (forall x, In x s1 <-> x = o \/ In x s) ->
  grows Q kids s1 s' -> Q o -> (forall c, kids o c -> In c s') -> grows Q kids s s' /\ In o s'.
Proof.
  intros H1 [I C] Hq Hc. assert (Ho : In o s') by (apply I, H1; now left).
  split; [split|assumption].
  - intros x Hx. apply I, H1. now right.
  - intros x Hx Hn. destruct (N.eq_dec x o) as [->|Hne]; [auto|].
    apply (C x Hx). intro H. apply H1 in H as [H|H]; contradiction.
Qed.

(* walker states: everything newly seen has all its children seen *)
Definition ext (r : repo) (st st' : wst) : Prop := grows (fun _ => True) (child r) st.(seen) st'.(seen).

Lemma ext_refl r st : ext r st st.
Proof. apply grows_refl. Qed.

Lemma ext_trans r a b c : ext r a b -> ext r b c -> ext r a c.
Proof. apply grows_trans. Qed.

Lemma ext_add r h st st' :
  ext r (add_seen h st) st' -> (forall c, child r h c -> In c st'.(seen)) -> ext r st st' /\ In h st'.(seen).
Proof. intros E Hc. now apply (grows_add _ _ h (add_seen h st).(seen)); [intro; apply add_seen_seen| | |]. Qed.

(* a marked object without children: a file entry, an absent object *)
Lemma seen_leaf (b : bool) h st x :
  In x (if b then add_missing h (add_seen h st) else add_seen h st).(seen) <-> x = h \/ In x st.(seen).
Proof. destruct b; [rewrite add_missing_seen|]; apply add_seen_seen. Qed.

Lemma incl_leaf (b : bool) h st : incl st.(seen) (if b then add_missing h (add_seen h st) else add_seen h st).(seen).
Proof. intros x Hx. apply seen_leaf. now right. Qed.

Lemma leaf_ext r (b : bool) h st : (forall c, ~ child r h c) ->
  let st' := if b then add_missing h (add_seen h st) else add_seen h st in
  ext r st st' /\ In h st'.(seen).
Proof.
  intros Hc st'. apply (grows_add _ _ h st'.(seen)); [intro; apply seen_leaf|apply grows_refl|exact I|].
  intros c Hch. now apply Hc in Hch.
Qed.

(* a fold of steps that each respect a preorder on walker states respects it *)
Lemma fold_res_rel {A} (R : wst -> wst -> Prop) (f : wst -> A -> res wst) :
  (forall st, R st st) -> (forall a b c, R a b -> R b c -> R a c) ->
  (forall st a st', f st a = Ok st' -> R st st') ->
  forall l st st', fold_res f l st = Ok st' -> R st st'.
Proof.
  intros Hr Ht Hf l. induction l as [|a l IH]; intros st st' H; cbn in H.
  - inversion H; subst. apply Hr.
  - destruct (f st a) as [st1|e] eqn:E; [|discriminate]. eapply Ht; [eapply Hf; eassumption|eapply IH; eassumption].
Qed.

Lemma fold_res_ext {A} r (f : wst -> A -> res wst) (key : A -> oid) l :
  (forall st a st', In a l -> f st a = Ok st' -> ext r st st' /\ In (key a) st'.(seen)) ->
  forall st st', fold_res f l st = Ok st' ->
  ext r st st' /\ forall a, In a l -> In (key a) st'.(seen).
Proof.
  induction l as [|a l IH]; intros Hf st st' H; cbn in H.
  - inversion H; subst. split; [apply ext_refl|intros a []].
  - destruct (f st a) as [st1|e] eqn:E; [|discriminate].
    destruct (Hf _ _ _ (or_introl eq_refl) E) as [E1 K1].
    destruct (IH (fun s b s' Hb => Hf s b s' (or_intror Hb)) _ _ H) as [E2 K2].
    split; [eapply ext_trans; eassumption|].
    intros b [->|Hb]; [|now apply K2]. destruct E2 as [I2 _]. now apply I2.
Qed.

Section Walk.
  Variable r : repo.
  Hypothesis Hwf : wf_modes r = true.

  Lemma tree_entry_blob h es e :
    get r h = Some (OTree es) -> In e es -> is_file_mode (fst e) = true -> blob_or_unknown r (snd e) = true.
  Proof.
    intros Hg He Hm. apply get_assoc, assoc_In in Hg.
    unfold wf_modes in Hwf. rewrite forallb_forall in Hwf. specialize (Hwf _ Hg). cbn in Hwf.
    rewrite forallb_forall in Hwf. specialize (Hwf _ He). rewrite Hm in Hwf. exact Hwf.
  Qed.

  Lemma walk_ext fuel : forall st h st',
    walk fuel r st h = Ok st' -> ext r st st' /\ In h st'.(seen).
  Proof.
    (* h is marked before its children are walked; every kind of object then
       shows its children seen and closes with ext_add *)
    induction fuel as [|f IH]; intros st h st' H; cbn [walk] in H;
      destruct (mem h st.(seen)) eqn:Es;
      try (inversion H; subst; split; [apply ext_refl|now apply mem_In]); try discriminate.
    destruct (get r h) as [o|] eqn:Eg.
    - destruct o as [|es|t ps|t].
      + discriminate.
      + apply (fold_res_ext r _ snd) in H as [E K].
        2:{ intros st0 e st1 He Hfe. cbn beta in Hfe. destruct (is_file_mode (fst e)) eqn:Em; [|now apply IH].
          inversion Hfe; subst. apply leaf_ext. intro c.
          apply blob_no_child. now apply (tree_entry_blob h es e). }
        apply ext_add; [assumption|].
        intros c Hc. unfold child in Hc. rewrite Eg in Hc. destruct Hc as (m & Hin & _).
        apply (K (m, c) Hin).
      + destruct (walk f r (add_seen h st) t) as [st2|e] eqn:Et; [|discriminate].
        destruct (IH _ _ _ Et) as [E1 K1].
        destruct (mem h r.(shallow)) eqn:Esh.
        * inversion H; subst. apply ext_add; [assumption|].
          intros c Hc. unfold child in Hc. rewrite Eg in Hc. destruct Hc as [->|[Hs _]]; [assumption|congruence].
        * destruct (fold_res_ext r (walk f r) (fun x => x) ps (fun st0 a st1 _ => IH st0 a st1) _ _ H) as [E2 K2].
          apply ext_add; [eapply ext_trans; eassumption|].
          intros c Hc. unfold child in Hc. rewrite Eg in Hc. destruct Hc as [->|[_ Hin]].
          -- destruct E2 as [I2 _]. now apply I2.
          -- now apply K2.
      + destruct (IH _ _ _ H) as [E1 K1]. apply ext_add; [assumption|].
        intros c Hc. unfold child in Hc. rewrite Eg in Hc. now subst.
    - destruct (promisor r); [|discriminate]. inversion H; subst. apply (leaf_ext r true).
      intros c Hc. unfold child in Hc. now rewrite Eg in Hc.
  Qed.

  (* objects recorded as missing are not stored *)
  Definition missing_ok (st : wst) : Prop := forall x, In x st.(missing) -> has r x = false.

  Lemma fold_res_missing {A} (f : wst -> A -> res wst) :
    (forall st a st', f st a = Ok st' -> missing_ok st -> missing_ok st') ->
    forall l st st', fold_res f l st = Ok st' -> missing_ok st -> missing_ok st'.
  Proof. apply (fold_res_rel (fun a b => missing_ok a -> missing_ok b)); auto. Qed.

  Lemma leaf_missing (b : bool) h st : (b = true -> has r h = false) -> missing_ok st ->
    missing_ok (if b then add_missing h (add_seen h st) else add_seen h st).
  Proof.
    intros Hb Hm x Hx. destruct b; [apply add_missing_missing in Hx as [->|Hx]; [auto|]|];
      rewrite add_seen_missing in Hx; now apply Hm.
  Qed.

  (* the walk respects every preorder that marking an object respects *)
  Lemma walk_rel (R : wst -> wst -> Prop) :
    (forall st, R st st) -> (forall a b c, R a b -> R b c -> R a c) ->
    (forall (b : bool) h st, (b = true -> has r h = false) ->
       R st (if b then add_missing h (add_seen h st) else add_seen h st)) ->
    forall fuel st h st', walk fuel r st h = Ok st' -> R st st'.
  Proof.
    intros Hr Ht Hleaf. induction fuel as [|f IH]; intros st h st' H; cbn [walk] in H;
      destruct (mem h st.(seen)) eqn:Es; try (inversion H; subst; apply Hr); try discriminate.
    assert (R1 : R st (add_seen h st)) by (apply (Hleaf false); discriminate).
    destruct (get r h) as [[|es|t ps|t]|] eqn:Eg.
    - discriminate.
    - apply (Ht _ _ _ R1). revert H. apply fold_res_rel; [assumption..|].
      intros s0 e s1 He. cbn beta in He. destruct (is_file_mode (fst e)); [|now apply (IH _ _ _ He)].
      inversion He; subst. apply Hleaf. intro Ep. apply andb_true_iff in Ep as [_ Ep]. now apply negb_true_iff in Ep.
    - destruct (walk f r (add_seen h st) t) as [st2|e] eqn:Et; [|discriminate].
      apply (Ht _ _ _ R1), (Ht _ _ _ (IH _ _ _ Et)).
      destruct (mem h r.(shallow)); [inversion H; subst; apply Hr|]. revert H. now apply fold_res_rel.
    - apply (Ht _ _ _ R1). now apply (IH _ _ _ H).
    - destruct (promisor r); [|discriminate]. inversion H; subst. apply (Hleaf true). intros _. now apply has_get.
  Qed.

  Lemma walk_missing fuel st h st' : walk fuel r st h = Ok st' -> missing_ok st -> missing_ok st'.
  Proof. apply (walk_rel (fun a b => missing_ok a -> missing_ok b)); auto. intros b h0 s0 Hb. now apply leaf_missing. Qed.
End Walk.

(* walkIndex adds exactly the stored blobs staged in the index *)
Lemma walk_index_spec r st :
  (walk_index r st).(missing) = st.(missing) /\
  forall x, In x (walk_index r st).(seen) <->
    In x st.(seen) \/ exists e, In e r.(index) /\ fst e = false /\ has r (snd e) = true /\ snd e = x.
Proof.
  unfold walk_index. generalize r.(index) as l. intro l. revert st.
  induction l as [|e l IH]; intro st; cbn [fold_left].
  - split; [reflexivity|]. intro x. split; [auto|]. now intros [H|(e & [] & _)].
  - set (st1 := if fst e || mem (snd e) st.(seen) then st else if has r (snd e) then add_seen (snd e) st else st).
    assert (H1 : st1.(missing) = st.(missing) /\
                 forall x, In x st1.(seen) <-> In x st.(seen) \/ (fst e = false /\ has r (snd e) = true /\ snd e = x)).
    { unfold st1. destruct (fst e), (mem (snd e) st.(seen)) eqn:Em, (has r (snd e)); cbn [orb];
        (split; [auto using add_seen_missing|]); intro x; rewrite ?add_seen_seen; try apply mem_In in Em;
        intuition (subst; auto; congruence). }
    destruct H1 as [M1 S1]. destruct (IH st1) as [M2 S2]. split; [congruence|]. intro x. rewrite S2, S1. split.
    + intros [[H|H]|(e0 & He0 & H)]; [now left|right; exists e; split; [now left|exact H]|].
      right. exists e0. split; [now right|exact H].
    + intros [H|(e0 & [<-|He0] & H)]; [left; now left|left; now right|right; exists e0; auto].
Qed.

Lemma walk_all_live fuel r st :
  wf_modes r = true -> wf_index r = true ->
  walk_all fuel r = Ok st ->
  (forall h, live r h -> In h st.(seen) \/ get r h = None) /\
  (forall x, In x st.(missing) -> has r x = false).
Proof.
  intros Hwm Hwi H. unfold walk_all in H.
  destruct (fold_res (walk fuel r) r.(roots) {| seen := []; missing := [] |}) as [st0|e] eqn:E; [|discriminate].
  inversion H; subst. clear H.
  destruct (fold_res_ext r (walk fuel r) (fun x => x) _ (fun a b c _ => walk_ext r Hwm fuel a b c) _ _ E) as [[_ C0] K0].
  destruct (walk_index_spec r st0) as [M S].
  assert (I : incl st0.(seen) (walk_index r st0).(seen)) by (intros x Hx; apply S; now left).
  assert (Hclosed : forall x, In x (walk_index r st0).(seen) -> forall c, child r x c -> In c (walk_index r st0).(seen)).
  { intros x Hx c Hc. apply S in Hx as [H0|(e & He & Hf & _ & Hs)].
    - apply I. now apply (proj2 (C0 x H0 (fun F => F))).
    - exfalso. subst x. unfold wf_index in Hwi. rewrite forallb_forall in Hwi.
      specialize (Hwi e He). rewrite Hf in Hwi. cbn in Hwi. now apply (blob_no_child r (snd e) c). }
  split.
  - intros h Hl. unfold live in Hl. induction Hl as [h Hr|h c Hl IH Hc].
    + apply in_app_or in Hr as [Hr|Hr].
      * left. apply I. now apply K0.
      * unfold index_roots in Hr. apply in_map_iff in Hr as (e & <- & He).
        apply filter_In in He as [He Hf]. apply negb_true_iff in Hf.
        destruct (has r (snd e)) eqn:Eh; [left; apply S; right; now exists e|right; now apply has_get].
    + destruct IH as [IH|IH].
      * left. now apply (Hclosed h).
      * exfalso. unfold child in Hc. now rewrite IH in Hc.
  - intros x Hx. rewrite M in Hx.
    assert (Hm0 : missing_ok r {| seen := []; missing := [] |}) by (intros y []).
    exact (fold_res_missing r (walk fuel r) (fun a b c => walk_missing r fuel a b c) _ _ _ E Hm0 x Hx).
Qed.

(* a live readable object is seen, and present in the walker's sense *)
Lemma live_present fuel r st h :
  wf_modes r = true -> wf_index r = true -> walk_all fuel r = Ok st ->
  live r h -> has r h = true -> In h st.(seen) /\ In h (present st).
Proof.
  intros Hwm Hwi E Hl Hh. destruct (walk_all_live _ _ _ Hwm Hwi E) as [Hlive Hmiss].
  destruct (Hlive h Hl) as [Hs|Hn]; [|apply has_get in Hn; congruence].
  split; [assumption|]. apply filter_In. split; [assumption|]. apply negb_true_iff, mem_nIn.
  intro Hm. apply Hmiss in Hm. congruence.
Qed.

Lemma stored_loose r h : mem h (map fst r.(loose)) = true \/ existsb (fun p => mem h p.(p_objs)) r.(packs) = true
  <-> stored r h = true.
Proof. unfold stored. rewrite orb_true_iff. reflexivity. Qed.

Lemma get_set_store r l p h :
  stored (set_store r l p) h = true -> stored r h = true -> get (set_store r l p) h = get r h.
Proof. unfold get. intros -> ->. reflexivity. Qed.

Lemma has_stored r h : has r h = true -> stored r h = true.
Proof. unfold has, get. destruct (stored r h); [reflexivity|discriminate]. Qed.

Lemma kept r l p h : stored (set_store r l p) h = true -> has r h = true ->
  has (set_store r l p) h = true /\ get (set_store r l p) h = get r h.
Proof.
  intros Hs Hh. assert (Eg := get_set_store r l p h Hs (has_stored _ _ Hh)).
  split; [|assumption]. unfold has in *. now rewrite Eg.
Qed.

Lemma prune_keeps_live fuel r lim r' :
  wf_modes r = true -> wf_index r = true ->
  prune fuel r lim = Ok r' ->
  forall h, live r h -> has r h = true -> has r' h = true /\ get r' h = get r h.
Proof.
  intros Hwm Hwi H h Hl Hh. unfold prune in H.
  destruct (walk_all fuel r) as [st|e] eqn:E; [|discriminate]. inversion H; subst. clear H.
  destruct (live_present _ _ _ h Hwm Hwi E Hl Hh) as [Hs _].
  assert (Hst := has_stored _ _ Hh). apply kept; [|assumption].
  { unfold stored in *. cbn. apply orb_true_iff in Hst as [Hst|Hst]; [|rewrite Hst; apply orb_true_r].
    apply orb_true_iff. left. apply mem_In in Hst. apply mem_In.
    apply in_map_iff in Hst as ([k o] & Hk & Hin). cbn in Hk. subst k.
    apply in_map_iff. exists (h, o). split; [reflexivity|]. apply filter_In. split; [assumption|].
    cbn. apply mem_In in Hs. now rewrite Hs. }
Qed.

Lemma In_insert_n x y l : In x (insert_n y l) <-> x = y \/ In x l.
Proof.
  induction l as [|z l IH]; cbn [insert_n].
  - cbn. intuition congruence.
  - destruct (y =? z) eqn:E.
    + apply N.eqb_eq in E. subst. cbn. intuition congruence.
    + destruct (y <? z); cbn [In]; [intuition congruence|]. rewrite IH. intuition congruence.
Qed.

Lemma In_sort_n x l : In x (sort_n l) <-> In x l.
Proof.
  unfold sort_n. induction l as [|y l IH]; cbn [fold_right]; [tauto|].
  rewrite In_insert_n, IH. cbn. intuition congruence.
Qed.

Lemma ids_eqb_eq a b : ids_eqb a b = true <-> a = b.
Proof.
  revert b. induction a as [|x a IH]; destruct b as [|y b]; cbn; split; try congruence; intro H.
  - apply andb_true_iff in H as [H1 H2]. apply N.eqb_eq in H1. apply IH in H2. congruence.
  - inversion H; subst. rewrite N.eqb_refl. cbn. now apply IH.
Qed.

Lemma ids_eqb_refl l : ids_eqb l l = true.
Proof. now apply ids_eqb_eq. Qed.

(* content addressing: a pack's name starts with its sorted object set *)
Definition wf_names (r : repo) : bool :=
  forallb (fun p => ids_eqb (fst p.(p_name)) (sort_n p.(p_objs))) r.(packs).

Lemma repack_keeps_live fuel r lim v r' :
  wf_modes r = true -> wf_index r = true -> wf_names r = true ->
  repack fuel r lim v = Ok r' ->
  forall h, live r h -> has r h = true -> has r' h = true /\ get r' h = get r h.
Proof.
  intros Hwm Hwi Hwn H h Hl Hh. unfold repack in H.
  destruct (walk_all fuel r) as [st|e] eqn:E; [|discriminate].
  destruct (forallb (has r) (present st)); [|discriminate]. inversion H; subst. clear H.
  destruct (live_present _ _ _ h Hwm Hwi E Hl Hh) as [_ Hp].
  set (nm := (sort_n (present st), v)). apply kept; [|assumption].
  { unfold stored. cbn [set_store loose packs]. apply orb_true_iff. right. apply existsb_exists.
    destruct (existsb (fun p => name_eqb (p_name p) nm) (packs r)) eqn:Ex.
    - (* a pack of that name is already there: it holds the same objects, and it is kept *)
      apply existsb_exists in Ex as (p & Hin & Hnm).
      exists p. split; [apply filter_In; split; [assumption|now rewrite Hnm]|].
      unfold wf_names in Hwn. rewrite forallb_forall in Hwn. specialize (Hwn p Hin).
      unfold name_eqb in Hnm. apply andb_true_iff in Hnm as [Hnm _]. cbn [fst nm] in Hnm.
      apply ids_eqb_eq in Hnm. apply ids_eqb_eq in Hwn. rewrite Hnm in Hwn.
      apply mem_In. apply In_sort_n. rewrite <- Hwn. now apply In_sort_n.
    - eexists. split; [apply filter_In; split; [now left|]|].
      + cbn [p_name]. unfold name_eqb. now rewrite ids_eqb_refl, N.eqb_refl.
      + cbn [p_objs]. now apply mem_In. }
Qed.

Definition op_ok (r : repo) (op : gcop) : bool :=
  match op with GStage o => blob_or_unknown r o | _ => true end.

Definition inv (r : repo) : Prop := wf_modes r = true /\ wf_index r = true /\ wf_names r = true.

Lemma repack_shape fuel r lim v r' : repack fuel r lim v = Ok r' ->
  objs r' = objs r /\ roots r' = roots r /\ shallow r' = shallow r /\ index r' = index r /\
  forall p, In p r'.(packs) -> In p r.(packs) \/ ids_eqb (fst p.(p_name)) (sort_n p.(p_objs)) = true.
Proof.
  unfold repack. destruct (walk_all fuel r); [|discriminate].
  destruct (forallb (has r) (present a)); [|discriminate]. intro H. inversion H; subst. clear H.
  cbn [set_store objs roots shallow index packs]. repeat split; try reflexivity.
  intros p Hp. apply filter_In in Hp as [Hp _].
  destruct (existsb _ (packs r)); [now left|]. destruct Hp as [<-|Hp]; [right; cbn; apply ids_eqb_refl|now left].
Qed.

Lemma prune_shape fuel r lim r' : prune fuel r lim = Ok r' ->
  objs r' = objs r /\ roots r' = roots r /\ shallow r' = shallow r /\ index r' = index r /\ packs r' = packs r.
Proof.
  unfold prune. destruct (walk_all fuel r); [|discriminate]. intro H. inversion H; subst. now cbn.
Qed.

(* what one round leaves alone: the object table, the roots, the index up to a
   staged entry, and the packs up to a new content-addressed one *)
Lemma step_shape op r r' : gc_step op r = Ok r' ->
  objs r' = objs r /\ roots r' = roots r /\ shallow r' = shallow r /\
  (index r' = index r \/ exists o, op = GStage o /\ index r' = (false, o) :: index r) /\
  forall p, In p r'.(packs) -> In p r.(packs) \/ ids_eqb (fst p.(p_name)) (sort_n p.(p_objs)) = true.
Proof.
  destruct op; cbn [gc_step]; intro H.
  - apply prune_shape in H as (? & ? & ? & ? & ->). repeat split; auto.
  - apply repack_shape in H as (? & ? & ? & ? & ?). repeat split; auto.
  - inversion H; subst. destruct (mem o (map fst (loose r))); cbn; repeat split; auto.
  - inversion H; subst. cbn. repeat split; eauto.
Qed.

Lemma step_inv op r r' : inv r -> op_ok r op = true -> gc_step op r = Ok r' -> inv r'.
Proof.
  intros (Wm & Wi & Wn) Hok H. destruct (step_shape _ _ _ H) as (E1 & _ & _ & Ei & Ep).
  unfold inv, wf_modes, wf_index, wf_names, blob_or_unknown in *. rewrite E1. repeat split; [assumption| |].
  - destruct Ei as [->|(o & -> & ->)]; [assumption|]. cbn in Hok. unfold blob_or_unknown in Hok.
    cbn [forallb fst snd orb]. now rewrite Hok, Wi.
  - apply forallb_forall. intros p Hp. destruct (Ep p Hp) as [Hin|Hn]; [|assumption].
    now apply (proj1 (forallb_forall _ _) Wn).
Qed.

Lemma step_keeps op r r' : inv r -> gc_step op r = Ok r' ->
  forall h, live r h -> has r h = true -> has r' h = true /\ get r' h = get r h.
Proof.
  intros (Wm & Wi & Wn) H h Hl Hh. destruct op; cbn [gc_step] in H.
  - eapply prune_keeps_live; eassumption.
  - eapply repack_keeps_live; eassumption.
  - inversion H; subst. destruct (mem o (map fst (loose r))); [auto|].
    assert (Hst := has_stored _ _ Hh). apply kept; [|assumption].
    { unfold stored in *. cbn [set_store loose packs map fst mem existsb] in *. unfold mem in *. cbn [existsb].
      apply orb_true_iff in Hst as [Hst|Hst]; [rewrite Hst; now rewrite orb_true_r|rewrite Hst; apply orb_true_r]. }
  - inversion H; subst. unfold has, get, stored in *. cbn [loose packs objs] in *. auto.
Qed.

Lemma index_roots_step op r r' : gc_step op r = Ok r' -> forall x, In x (index_roots r) -> In x (index_roots r').
Proof.
  intros H x Hx. destruct (step_shape _ _ _ H) as (_ & _ & _ & [Ei|(o & _ & Ei)] & _); unfold index_roots; rewrite Ei;
    [assumption|now right].
Qed.

Lemma step_live op r r' : inv r -> gc_step op r = Ok r' -> forall h, live r h -> live r' h.
Proof.
  intros I H h Hl. destruct (step_shape _ _ _ H) as (E1 & E2 & E3 & _).
  unfold live in *. induction Hl as [h Hr|h c Hl IH Hc].
  - apply reach_root. apply in_app_or in Hr as [Hr|Hr]; apply in_or_app; [left; now rewrite E2|right].
    eapply index_roots_step; eassumption.
  - apply reach_step with (h := h); [assumption|].
    assert (Hh : has r h = true).
    { unfold child in Hc. unfold has. destruct (get r h); [reflexivity|contradiction]. }
    destruct (step_keeps _ _ _ I H h Hl Hh) as [_ Eg].
    unfold child in *. rewrite Eg, E3. exact Hc.
Qed.

Lemma ops_ok_objs r r' ops : objs r' = objs r -> forallb (op_ok r) ops = true -> forallb (op_ok r') ops = true.
Proof.
  intros E H. apply forallb_forall. intros x Hx. apply (proj1 (forallb_forall _ _) H) in Hx.
  unfold op_ok, blob_or_unknown in *. now rewrite E.
Qed.

Lemma run_seq_spec ops : forall r, inv r -> forallb (op_ok r) ops = true ->
  inv (run_seq ops r) /\ objs (run_seq ops r) = objs r /\
  forall h, live r h -> has r h = true ->
    has (run_seq ops r) h = true /\ get (run_seq ops r) h = get r h.
Proof.
  induction ops as [|op ops IH]; intros r I Hok; [auto|].
  cbn [forallb] in Hok. apply andb_true_iff in Hok as [Ho Hok].
  cbn [run_seq fold_left]. fold (run_seq ops (gc_apply op r)).
  unfold gc_apply. destruct (gc_step op r) as [r1|e] eqn:E; [|now apply IH].
  destruct (step_shape _ _ _ E) as (E1 & _).
  destruct (IH r1 (step_inv _ _ _ I Ho E)) as (I2 & E2 & K2).
  { now apply (ops_ok_objs r). }
  split; [assumption|]. split; [congruence|]. intros h Hl Hh.
  destruct (step_keeps _ _ _ I E h Hl Hh) as [Hh1 Eg1].
  destruct (K2 h (step_live _ _ _ I E h Hl) Hh1). split; [assumption|congruence].
Qed.
