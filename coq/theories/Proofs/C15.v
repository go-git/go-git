(* Proofs/C15.v — one step and whole histories of the reference store refine the map. *)
From Coq Require Import List Arith NArith ZArith Bool String Lia.
From GoGit Require Import Base.Out Model.RefStrings Model.RefName Model.RefGuard Model.RefStore Spec.RefMap
  Proofs.C13 Proofs.C15a Proofs.C15b Proofs.C15c.
Import ListNotations.
Local Open Scope N_scope.

(* a compare-and-swap is only guaranteed to leave no debris when the loose file exists *)
Definition cas_guard (s : store) (o : op) : bool :=
  match o with OSet n _ (Some _) => is_file (fs s) n | _ => true end.

(* what "behaves like the map" means for one operation *)
Definition refines_step (s : store) (o : op) (s' : store) (r : tres) : Prop :=
  match o, r with
  | OSet n v old, TUnit r =>
    (r = Er EFs /\ s' = s) \/
    (r = snd (spec_set (abs s) n v old) /\ abs_eq (abs s') (fst (spec_set (abs s) n v old)))
  | ORef n, TRef n' r => n' = n /\ s' = s /\ r = spec_get (abs s) n
  | ORefs, TList r =>
    s' = s /\ exists l, r = Ok l /\ forall n v, In (n, v) l <-> (listed n = true /\ abs s n = Some v)
  | ORm n, TUnit r =>
    (* the name leaves the map even when the OS refuses to remove the loose path
       (packed-refs is rewritten first; no loose file of that name can exist then) *)
    (r = Er EFs \/ r = Ok tt) /\ abs_eq (abs s') (m_del (abs s) n)
  | OPack, TUnit r => r = Ok tt /\ abs_eq (abs s') (abs s)
  | _, _ => False
  end.

(* one operation: its answer is the map's, and under the guard the invariant is
   kept, so the next operation refines too.  Only the debris of a failed
   compare-and-swap needs the guard. *)
Lemma step_spec s o : wfb s = true -> op_okb o = true ->
  let (s', r) := step_t s o in refines_step s o s' r /\ (cas_guard s o = true -> wfb s' = true).
Proof.
  intros Hw Ho. destruct o as [n v old|n| |n|]; cbn [step_t op_okb cas_guard] in *.
  - apply andb_true_iff in Ho as [Hn Hv].
    pose proof (set_ref_spec s n v old Hw Hn Hv) as H. destruct (set_ref s n v old) as [s' r].
    cbn [refines_step]. destruct H as [[-> ->]|(H1 & H2 & H3)]; [split; [now left|auto]|].
    split; [right; auto|]. intro Hg. apply H3. destruct old; [right; now left|now left].
  - cbn [refines_step]. repeat split; [|auto]. apply get_ref_spec; [assumption|now apply name_okb_parts].
  - cbn [refines_step]. destruct (list_refs_spec s Hw) as [l [-> Hl]]. repeat split; [now exists l|auto].
  - pose proof (remove_ref_spec s n Hw Ho) as H. destruct (remove_ref s n) as [s' r].
    cbn [refines_step]. destruct H as (H1 & H2 & H3). auto.
  - pose proof (pack_refs_spec s Hw) as H. destruct (pack_refs s) as [s' r].
    cbn [refines_step]. destruct H as (H1 & H2 & H3). auto.
Qed.

Fixpoint guards (s : store) (ops : list op) : bool :=
  match ops with
  | [] => true
  | o :: r => op_okb o && cas_guard s o && guards (fst (step_t s o)) r
  end.

Fixpoint run_refines (s : store) (ops : list op) : Prop :=
  match ops with
  | [] => True
  | o :: r => refines_step s o (fst (step_t s o)) (snd (step_t s o)) /\ run_refines (fst (step_t s o)) r
  end.

(* the witness of C15_failed_cas_refuted: a fresh repository (HEAD -> refs/heads/a,
   no branch yet) and a compare-and-swap on the absent branch *)
Local Open Scope string_scope.
Definition hA : string := "e6c47f5d909abcf69dd810014ec7d771b68c27f4".
Definition nameA : bytes := bytes_of_string "refs/heads/a".
Definition s_fresh : store :=
  c15_init [("48454144", "7265663a20726566732f68656164732f610a")] ["726566732f6865616473"; "726566732f74616773"] None.
Definition cas_absent : op := OSet nameA (mk_hash hA) (Some (mk_hash hA)).
