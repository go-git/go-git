(* Proofs/C05.v — the published collisions are collisions of the executable
   SHA-1, for every common suffix; wiring of the entry points. *)
From Coq Require Import List String Bool NArith Arith Lia.
From GoGit Require Import Base.Out Spec.SHA Spec.ShaAttack Proofs.SHA Gen.C05 Model.HashWiring.
Import ListNotations.

(* Two block-aligned messages of equal length with the same chaining value
   that differ at byte [i] collide under every common suffix. *)
Lemma collision_family k i (a b : bytes) :
  List.length a = (64 * k)%nat -> List.length b = (64 * k)%nat ->
  sha1_state a = sha1_state b -> nth i a 0%N <> nth i b 0%N ->
  forall s, sha1 (a ++ s) = sha1 (b ++ s) /\ a ++ s <> b ++ s.
Proof.
  intros La Lb St Hn s. split; [now apply (sha1_extend k)|].
  intros E. apply Hn. now rewrite (app_inv_tail _ _ _ E).
Qed.

(* The finite facts (the lengths, the chaining values, the differing byte, the
   padding block) are evaluated, each block once: the two shattered messages
   share their first three blocks. *)
Lemma shattered_length : List.length shattered_1 = (64 * 5)%nat /\ List.length shattered_2 = (64 * 5)%nat.
Proof. split; vm_compute; reflexivity. Qed.

Lemma shattered_prefix : firstn 192 shattered_2 = firstn 192 shattered_1.
Proof. vm_compute. reflexivity. Qed.

Lemma shattered_prefix_length : List.length (firstn 192 shattered_1) = (64 * 3)%nat.
Proof. vm_compute. reflexivity. Qed.

Lemma shattered_prefix_state :
  sha1_state (firstn 192 shattered_1) = (1319723625, 2089250342, 1959856112, 4274420100, 351649605)%N.
Proof. vm_compute. reflexivity. Qed.

Lemma shattered_state_1 :
  sha1_state shattered_1 = (514634334, 3583446288, 4050872675, 1467071546, 397707973)%N.
Proof.
  rewrite <- (firstn_skipn 192 shattered_1).
  rewrite (sha1_state_app 3), shattered_prefix_state by exact shattered_prefix_length.
  vm_compute. reflexivity.
Qed.

Lemma shattered_state_2 :
  sha1_state shattered_2 = (514634334, 3583446288, 4050872675, 1467071546, 397707973)%N.
Proof.
  rewrite <- (firstn_skipn 192 shattered_2), shattered_prefix.
  rewrite (sha1_state_app 3), shattered_prefix_state by exact shattered_prefix_length.
  vm_compute. reflexivity.
Qed.

(* SHA-256 tells the two apart; the shared blocks are again absorbed once. *)

Lemma shattered_prefix_state256 :
  sha256_state (firstn 192 shattered_1) =
  (4149879198, 3113383824, 959242939, 3115705905, 373636337, 2912938670, 1234278763, 2078029610)%N.
Proof. vm_compute. reflexivity. Qed.

Lemma shattered_sha256_differ : sha256 shattered_1 <> sha256 shattered_2.
Proof.
  rewrite <- (firstn_skipn 192 shattered_1), <- (firstn_skipn 192 shattered_2), shattered_prefix.
  rewrite !(sha256_of_prefix 3), shattered_prefix_state256 by exact shattered_prefix_length.
  vm_compute. discriminate.
Qed.

Lemma shattered_family s :
  sha1 (shattered_1 ++ s) = sha1 (shattered_2 ++ s) /\ shattered_1 ++ s <> shattered_2 ++ s.
Proof.
  apply (collision_family 5 192); [apply shattered_length .. | | vm_compute; discriminate].
  now rewrite shattered_state_1, shattered_state_2.
Qed.

Lemma shambles_length : List.length shambles_1 = (64 * 10)%nat /\ List.length shambles_2 = (64 * 10)%nat.
Proof. split; vm_compute; reflexivity. Qed.

Lemma shambles_state_1 :
  sha1_state shambles_1 = (3994925028, 931974344, 3021488928, 3019802739, 2806013927)%N.
Proof. vm_compute. reflexivity. Qed.

Lemma shambles_state_2 :
  sha1_state shambles_2 = (3994925028, 931974344, 3021488928, 3019802739, 2806013927)%N.
Proof. vm_compute. reflexivity. Qed.

Lemma shambles_family s :
  sha1 (shambles_1 ++ s) = sha1 (shambles_2 ++ s) /\ shambles_1 ++ s <> shambles_2 ++ s.
Proof.
  apply (collision_family 10 1); [apply shambles_length .. | | vm_compute; discriminate].
  now rewrite shambles_state_1, shambles_state_2.
Qed.

Lemma shattered_digest : sha1 shattered_1 = unhex "f92d74e3874587aaf443d1db961d4e26dde13e9c"%string.
Proof.
  rewrite (sha1_of_state 5), shattered_state_1, (proj1 shattered_length) by apply shattered_length.
  vm_compute. reflexivity.
Qed.

Lemma shambles_digest : sha1 shambles_1 = unhex "8ac60ba76f1999a1ab70223f225aefdc78d4ddc0"%string.
Proof.
  rewrite (sha1_of_state 10), shambles_state_1, (proj1 shambles_length) by apply shambles_length.
  vm_compute. reflexivity.
Qed.

Lemma shattered_collides :
  sha1 shattered_1 = sha1 shattered_2 /\ shattered_1 <> shattered_2 /\
  sha1 shattered_1 = unhex "f92d74e3874587aaf443d1db961d4e26dde13e9c"%string.
Proof.
  destruct (shattered_family []) as [E N]. rewrite !app_nil_r in *.
  exact (conj E (conj N shattered_digest)).
Qed.

Lemma bytes_eqb_refl : forall a, bytes_eqb a a = true.
Proof. induction a as [|x a IH]; cbn; [reflexivity|]. now rewrite N.eqb_refl, IH. Qed.

(* an entry point on plain SHA-1 answers "collides" on any two messages with
   the same digest *)
Lemma pair_out_collides ks a b :
  has_plain ks = true -> sha1 a = sha1 b -> pair_out ks true a b = OOk [OSym "collides"%string].
Proof. intros Hp E. unfold pair_out. now rewrite Hp, E, bytes_eqb_refl. Qed.

Lemma wiring_all : forallb (safe table) entry_points = true.
Proof. vm_compute. reflexivity. Qed.

Lemma wiring e : In e entry_points -> safe table e = true.
Proof. intros Hin. exact (proj1 (forallb_forall _ _) wiring_all e Hin). Qed.

Lemma detecting_has k ks : forallb detecting ks = true -> detecting k = false -> has k ks = false.
Proof.
  intros Hall Hk. apply not_true_is_false. intros Hex.
  apply existsb_exists in Hex as (x & Hin & Hx). rewrite forallb_forall in Hall. specialize (Hall x Hin).
  destruct k, x; cbn in *; congruence.
Qed.

Lemma safe_no_plain tbl e : safe tbl e = true -> has_plain (sha1_ctors tbl e) = false.
Proof.
  unfold safe, has_plain. destruct (sha1_ctors tbl e); [discriminate|].
  intros Hall. now rewrite !(detecting_has _ _ Hall).
Qed.

(* the tree before the repair (call lists recorded from the unfixed sources,
   commit 74be39e): the same predicate rejects it *)
Definition table_unfixed : list entry := [
  mkE "plumbing" "NewHasher" ["crypto.SHA256.New"; "crypto.SHA1.New"; "h.Reset"]%string;
  mkE "plumbing" "FromObjectFormat" ["crypto.SHA256.New"; "crypto.SHA1.New"]%string;
  mkE "phash" "New" ["panic"; "fmt.Sprintf"; "hh"]%string;
  mkE "packfile" "NewScanner" ["crc32.NewIEEE"; "gogithash.New"; "plumbing.NewHasher"; "packhash.Size"]%string;
  mkE "revfile" "readHashFunction" ["binary.ReadUint32"; "d.hasher.Available"; "d.hasher.New"]%string;
  mkE "dotgit" "PackWriter.save" ["crypto.SHA1.New"; "crypto.SHA256.New"; "w.encodeIdx"; "w.encodeRev"]%string;
  mkE "objfile" "Writer.prepareForWrite" ["plumbing.NewHasher"; "io.MultiWriter"]%string
].

Lemma unfixed_refuted :
  safe table_unfixed "plumbing.NewHasher" = false /\
  safe table_unfixed "plumbing.FromObjectFormat" = false /\
  safe table_unfixed "packfile.NewScanner" = false /\
  safe table_unfixed "revfile.readHashFunction" = false /\
  safe table_unfixed "dotgit.PackWriter.save" = false /\
  safe table_unfixed "objfile.Writer.prepareForWrite" = false /\
  safe table_unfixed "phash.New" = true.
Proof. vm_compute. repeat split. Qed.

