(* Proofs/C02Scan.v — the commit scanner (commit_scanner.go) step by step.  cstep_header describes one step of a
   header state (scanParents .. scanHeaders with their push-backs, the three continuation states); what a step
   does to one field is read off it by case analysis in the C02/C03 proofs.  Then scanMessage (crun_message_fields,
   crun_message), one iteration of the loop of Commit.Decode in a header state (crun_header_cons) and scanTree
   (decode_commit_inv), from which the inductions over the header lines start. *)
From Coq Require Import List NArith Bool Lia.
From GoGit Require Import Base.Out Model.ObjLines Model.Ident Model.Commit Proofs.ObjLinesFacts.
Import ListNotations.
Local Open Scope N_scope.

(* how far the scanner has come: parents, author, committer are read in this order only *)
Definition rank (st : cstate) : nat :=
  match st with SParents => 0 | SAuthor => 1 | SCommitter => 2 | _ => 3 end.

(* the states that take a line starting with a blank as a continuation *)
Definition takes_cont (st : cstate) : bool := match st with SPgp | SPgp256 | SExtra _ _ => true | _ => false end.

Inductive cont_step (c : commit) (se eof : bool) (l : bytes) : cstate -> commit * bool * cstate -> Prop :=
| cs_pgp : cont_step c se eof l SPgp (set_sig c (c_sig c ++ tl l), se, SPgp)
| cs_pgp256 : cont_step c se eof l SPgp256 (set_sig256 c (c_sig256 c ++ tl l), se, SPgp256)
| cs_extra k v : eof = false -> cont_step c se eof l (SExtra k v) (c, se, SExtra k (v ++ tl l))
| cs_extra_eof k v : eof = true -> cont_step c se eof l (SExtra k v) (finalise_extra c k (v ++ tl l), se, SHeaders).

(* a non-blank line with key [key] and value [data], dispatched by a state of rank n *)
Inductive key_step (n : nat) (c : commit) (se : bool) (l key data : bytes) : commit * bool * cstate -> Prop :=
| ks_parent h : n = 0%nat -> key = k_parent -> parse_oid data = Some h ->
    key_step n c se l key data (set_parents c (c_parents c ++ [h]), se, SParents)
| ks_author : (n <= 1)%nat -> key = k_author ->
    key_step n c se l key data (set_author c (decode_ident data), se, SCommitter)
| ks_committer : (n <= 2)%nat -> key = k_committer ->
    key_step n c se l key data (set_committer c (decode_ident data), se, SHeaders)
| ks_std : key = k_tree \/ key = k_parent \/ key = k_author \/ key = k_committer ->
    key_step n c se l key data (c, se, SHeaders)
| ks_enc : key = k_encoding ->
    key_step n c se l key data (if se then c else set_enc c data, true, SHeaders)
| ks_sig : key = k_gpgsig ->
    key_step n c se l key data (set_sig c (c_sig c ++ data ++ [LF]), se, SPgp)
| ks_sig256 : key = k_gpgsig256 ->
    key_step n c se l key data (set_sig256 c (c_sig256 c ++ data ++ [LF]), se, SPgp256)
| ks_extra k v : is_standard_header key = false -> parse_extra_header l = (k, v, true) ->
    key_step n c se l key data (c, se, SExtra k v)
| ks_extra_one k v : is_standard_header key = false -> parse_extra_header l = (k, v, false) ->
    key_step n c se l key data (set_extra c (c_extra c ++ [(k, v)]), se, SHeaders).

(* scanHeaders on a line whose key is none of the seven it knows: parseExtraHeader *)
Lemma on_headers_extra c se l : is_blank l = false -> is_standard_header (fst (split_header l)) = false ->
  on_headers c se l = let '(k, v, multi) := parse_extra_header l in
                      if multi then (c, se, SExtra k v) else (set_extra c (c_extra c ++ [(k, v)]), se, SHeaders).
Proof.
  intros Hb H. unfold on_headers. rewrite Hb. destruct (split_header l) as [key data]. unfold is_standard_header in H. cbn [fst] in H.
  apply orb_false_iff in H as [H H7]. apply orb_false_iff in H as [H H6]. apply orb_false_iff in H as [H H5].
  now rewrite H, H5, H6, H7.
Qed.

Lemma on_headers_key n c se l : is_blank l = false ->
  key_step n c se l (fst (split_header l)) (snd (split_header l)) (on_headers c se l).
Proof.
  intros Hb. unfold on_headers. rewrite Hb. destruct (split_header l) as [key data]. cbn [fst snd].
  destruct (beqb key k_tree || beqb key k_parent || beqb key k_author || beqb key k_committer) eqn:E4.
  - apply ks_std. rewrite !orb_true_iff, !beqb_eq in E4. tauto.
  - destruct (beqb key k_encoding) eqn:E5; [apply ks_enc; now apply beqb_eq|].
    destruct (beqb key k_gpgsig) eqn:E6; [apply ks_sig; now apply beqb_eq|].
    destruct (beqb key k_gpgsig256) eqn:E7; [apply ks_sig256; now apply beqb_eq|].
    assert (Es : is_standard_header key = false) by (unfold is_standard_header; now rewrite E4, E5, E6, E7).
    destruct (parse_extra_header l) as [[k v] [|]] eqn:Ep; [now apply ks_extra|now apply ks_extra_one].
Qed.

Lemma on_committer_key n c se l : (n <= 2)%nat -> is_blank l = false ->
  key_step n c se l (fst (split_header l)) (snd (split_header l)) (on_committer c se l).
Proof.
  intros Hn Hb. pose proof (on_headers_key n c se l Hb) as H. unfold on_committer. rewrite Hb.
  destruct (split_header l) as [key data]. cbn [fst snd] in *.
  destruct (beqb key k_committer) eqn:E; [apply ks_committer; [exact Hn|now apply beqb_eq]|exact H].
Qed.

Lemma on_author_key n c se l : (n <= 1)%nat -> is_blank l = false ->
  key_step n c se l (fst (split_header l)) (snd (split_header l)) (on_author c se l).
Proof.
  intros Hn Hb. pose proof (on_committer_key n c se l ltac:(lia) Hb) as H. unfold on_author. rewrite Hb.
  destruct (split_header l) as [key data]. cbn [fst snd] in *.
  destruct (beqb key k_author) eqn:E; [apply ks_author; [exact Hn|now apply beqb_eq]|exact H].
Qed.

Lemma blank_not_sp l : is_blank l = true -> first_is SPC l = false.
Proof. destruct l as [|x [|y l]]; try discriminate. cbn. intros H. apply N.eqb_eq in H. now subst. Qed.

Lemma blank_ends_nl l : is_blank l = true -> ends_nl l = true.
Proof. now destruct l as [|x [|y l]]. Qed.

(* every step of a header state is a continuation, the blank line, or a keyed line;
   a pending multi-line extra header is finalised before the last two *)
Theorem cstep_header st c se eof l r : st <> SMessage -> cstep st c se eof l = Ok r ->
  (first_is SPC l = true /\ cont_step c se eof l st r) \/
  (is_blank l = true /\ r = (cfinish st c, se, SMessage)) \/
  (is_blank l = false /\ first_is SPC l && takes_cont st = false /\
   key_step (rank st) (cfinish st c) se l (fst (split_header l)) (snd (split_header l)) r).
Proof.
  intros Hst H. destruct (is_blank l) eqn:Hb.
  - right; left. split; [reflexivity|]. pose proof (blank_not_sp _ Hb) as Hsp.
    destruct st; try contradiction; cbn [cstep cfinish] in *; rewrite ?Hsp in H;
      unfold on_author, on_committer, on_headers in H; rewrite ?Hb in H; now inversion H.
  - destruct st; try contradiction; cbn [cstep cfinish rank takes_cont] in *; rewrite ?andb_false_r.
    + right; right. repeat split. rewrite Hb in H.
      pose proof (on_author_key 0 c se l (le_S _ _ (le_n 0)) Hb) as K.
      destruct (split_header l) as [key data]. cbn [fst snd] in *. destruct (beqb key k_parent) eqn:E.
      * destruct (parse_oid data) as [h|] eqn:Ep; inversion H.
        apply (ks_parent 0 c se l key data h); [reflexivity|now apply beqb_eq|exact Ep].
      * now inversion H.
    + right; right. repeat split. inversion H. now apply on_author_key.
    + right; right. repeat split. inversion H. now apply on_committer_key.
    + right; right. repeat split. inversion H. now apply on_headers_key.
    + destruct (first_is SPC l) eqn:Hsp; inversion H; [left; split; [reflexivity|constructor]|].
      right; right. repeat split. now apply on_headers_key.
    + destruct (first_is SPC l) eqn:Hsp; inversion H; [left; split; [reflexivity|constructor]|].
      right; right. repeat split. now apply on_headers_key.
    + destruct (first_is SPC l) eqn:Hsp.
      * left. split; [reflexivity|]. destruct eof; inversion H; now constructor.
      * inversion H. right; right. repeat split. now apply on_headers_key.
Qed.

Lemma cstep_blank st c se eof l r : st <> SMessage -> is_blank l = true ->
  cstep st c se eof l = Ok r -> r = (cfinish st c, se, SMessage).
Proof.
  intros Hst Hb H. destruct (cstep_header _ _ _ _ _ _ Hst H) as [[Hsp _]|[[_ E]|[Hb' _]]]; [|exact E|congruence].
  now rewrite (blank_not_sp _ Hb) in Hsp.
Qed.

Lemma cstep_stays st c se eof l c' se' st' : st <> SMessage -> is_blank l = false ->
  cstep st c se eof l = Ok (c', se', st') -> st' <> SMessage.
Proof.
  intros Hst Hb H. destruct (cstep_header _ _ _ _ _ _ Hst H) as [[_ Hc]|[[Hb' _]|[_ [_ Hk]]]];
    [inversion Hc; discriminate|congruence|inversion Hk; discriminate].
Qed.

(* scanMessage changes no field but the message *)
Lemma crun_message_fields ls : forall c0 se c, crun SMessage c0 se ls = Ok c -> exists m, c = set_msg c0 m.
Proof.
  induction ls as [|l r IH]; intros c0 se c; cbn [crun cfinish cstep].
  - intros H. inversion H. exists (c_msg c). now destruct c.
  - destruct (negb (ends_nl l)); intros H.
    + inversion H. now eexists.
    + destruct (IH _ _ _ H) as [m ->]. now eexists.
Qed.

(* scanMessage: the rest of the lines is the message *)
Lemma crun_message ls : all_but_last_nl ls = true -> forall c se,
  crun SMessage c se ls = Ok (set_msg c (c_msg c ++ List.concat ls)).
Proof.
  induction ls as [|l r IH]; intros Habl c se.
  - cbn [crun cfinish List.concat]. rewrite app_nil_r. now destruct c.
  - cbn [crun cstep List.concat]. destruct r as [|l2 r].
    + cbn [List.concat]. rewrite app_nil_r. destruct (negb (ends_nl l)); cbn [crun cfinish]; reflexivity.
    + rewrite abl_cons in Habl. apply andb_true_iff in Habl as [H1 H2]. rewrite H1. cbn [negb].
      rewrite (IH H2). destruct c as [t0 ps a0 cm0 e0 x0 s0 s1 m0]. unfold set_msg.
      cbn [c_tree c_parents c_author c_committer c_enc c_extra c_sig c_sig256 c_msg]. now rewrite <- app_assoc.
Qed.

Lemma crun_cons st c0 se l r : crun st c0 se (l :: r) =
  match cstep st c0 se (negb (ends_nl l)) l with
  | Err e => Err e
  | Ok (c', se', st') => if negb (ends_nl l) then Ok c' else crun st' c' se' r
  end.
Proof. reflexivity. Qed.

(* the loop of Commit.Decode at a line read in a header state: the blank line hands the rest to
   scanMessage; any other line is a step that stays in the header, and the loop goes on unless the
   line came with EOF *)
Lemma crun_header_cons st c0 se l r c : st <> SMessage -> crun st c0 se (l :: r) = Ok c ->
  (is_blank l = true /\ crun SMessage (cfinish st c0) se r = Ok c) \/
  (is_blank l = false /\ exists c1 se1 st1, cstep st c0 se (negb (ends_nl l)) l = Ok (c1, se1, st1) /\ st1 <> SMessage /\
     if ends_nl l then crun st1 c1 se1 r = Ok c else c = c1).
Proof.
  intros Hst H. rewrite crun_cons in H.
  destruct (cstep st c0 se (negb (ends_nl l)) l) as [[[c1 se1] st1]|e] eqn:Es; [|discriminate]. destruct (is_blank l) eqn:Hb.
  - left. split; [reflexivity|]. apply (cstep_blank _ _ _ _ _ _ Hst Hb) in Es. inversion Es; subst.
    now rewrite (blank_ends_nl _ Hb) in H.
  - right. split; [reflexivity|]. exists c1, se1, st1. split; [reflexivity|]. split; [exact (cstep_stays _ _ _ _ _ _ _ _ Hst Hb Es)|].
    destruct (ends_nl l); cbn [negb] in H; [exact H|now inversion H].
Qed.

(* scanTree, then the loop of Commit.Decode over the remaining lines; a tree
   line that came without its LF is the last one, and the loop ends at once *)
Lemma decode_commit_inv raw c : decode_commit raw = Ok c ->
  exists l r data h, split_lines raw = l :: r /\ line_ok l /\ Forall line_ok r /\ all_but_last_nl (l :: r) = true /\
    is_blank l = false /\ split_header l = (k_tree, data) /\ parse_oid data = Some h /\
    crun SParents (commit_init h) false r = Ok c.
Proof.
  unfold decode_commit. intros H. pose proof (split_lines_ok raw) as Hok. pose proof (split_lines_abl raw) as Ha.
  destruct (split_lines raw) as [|l r]; [discriminate|]. apply Forall_cons_iff in Hok as [Hl Hr].
  cbn [decode_commit_lines] in H. destruct (is_blank l) eqn:Hb; [discriminate|].
  destruct (split_header l) as [key data] eqn:Es. destruct (beqb key k_tree) eqn:Ek; [|discriminate]. apply beqb_eq in Ek. subst key.
  cbn [negb] in H. destruct (parse_oid data) as [h|] eqn:Ep; [|discriminate].
  exists l, r, data, h. do 7 (split; [assumption || reflexivity|]).
  destruct (ends_nl l) eqn:E; [exact H|]. rewrite (abl_eof _ _ Ha E). exact H.
Qed.
