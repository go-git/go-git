(* Proofs/C35GitV2.v — go-git's protocol-v2 encodings are in git's documented
   grammars (Spec/GitProto.v) and mean the message. *)
From Coq Require Import List Arith NArith ZArith Bool Lia String.
From GoGit Require Import Base.Out Base.GoInt Gen.C34 Model.PktLine Model.C35Utf8 Model.Packp Model.PackpV2 Spec.GitProto
  Proofs.C34Pkt Proofs.C35Base Proofs.C35Utf8 Proofs.C35U Proofs.C35Msgs Proofs.C35Caps Proofs.C35Dec Proofs.C35Adv
  Proofs.C35V2Base Proofs.C35V2Caps Proofs.C35V2Fetch Proofs.C35V2Ls Proofs.C35Git.
Import ListNotations.

Definition cap2_abs (e : bytes * list bytes) : bytes * option bytes :=
  (fst e, match snd e with [] => None | vs => Some (join [SP] vs) end).

Lemma git_cap2_line e : key_ok (fst e) = true -> git_cap2 (cap2_line e) = Some (cap2_abs e).
Proof.
  destruct e as [k vs]. cbn [fst]. intros Hk. destruct (key_noeq k Hk) as [Hne Hnn]. unfold EQ in *.
  unfold cap2_line, cap2_abs, git_cap2. cbn [fst snd]. unfold EQ. destruct vs as [|v vs].
  - destruct k as [|c k]; [contradiction|]. now rewrite (cut_none 61%N _ Hne).
  - destruct (k ++ [61%N] ++ join [SP] (v :: vs)) as [|c0 t0] eqn:E; [destruct k; discriminate|]. rewrite <- E.
    change (k ++ [61%N] ++ join [SP] (v :: vs)) with (k ++ 61%N :: join [SP] (v :: vs)). rewrite (cut_app 61%N k _ Hne).
    destruct k as [|c k]; [contradiction|reflexivity].
Qed.

Lemma git_caps2_step e r acc : key_ok (fst e) = true ->
  git_caps2 (PData (cap2_line e ++ [NL]) :: r) (map cap2_abs acc) = git_caps2 r (map cap2_abs (acc ++ [e])).
Proof. intros H. cbn [git_caps2]. now rewrite chomp_app, (git_cap2_line e H), map_app. Qed.

Lemma git_caps2_lines l rest : caps2_ok l = true -> (match rest with PData _ :: _ => False | _ => True end) ->
  git_caps2 (caps2_encode l ++ rest) [] = Some (map cap2_abs l, rest).
Proof.
  intros H Hr. pose proof (lines_acc git_caps2 _ (map cap2_abs) _ git_caps2_step l rest []) as K. cbn [map app] in K.
  rewrite caps2_encode_eq, K.
  - destruct rest as [|[p| | |] r]; try reflexivity. contradiction.
  - unfold caps2_ok in H. apply andb_prop in H. destruct H as [H _]. apply forallb_Forall in H. revert H. apply Forall_impl.
    intros e He. now apply andb_prop in He.
Qed.

Theorem git_capadv_enc l ps : caps2_ok l = true -> capadv_encode 2 l = Some ps -> git_capadv ps = Some (map cap2_abs l).
Proof.
  intros Hok He. unfold capadv_encode in He. cbn [Z.eqb Pos.eqb] in He.
  apply Some_inj in He. subst ps.
  unfold git_capadv. change (beq (chomp (B "version 2" ++ [NL])) (B "version 2")) with true. cbv iota.
  now rewrite (git_caps2_lines l [PFlush] Hok I).
Qed.

Definition gls_of (refs : list lsref) (x : lsref) : list glsref :=
  let (name, v) := x in
  if is_peeled name then []
  else match v with
  | RSym t => [(name, match hash_by_name refs t None with
                      | Some h => if hash_is_zero h then None else Some h
                      | None => None
                      end, Some t, None)]
  | RHash h => [(name, Some h, None, hash_by_name refs (name ++ peeled_suffix) None)]
  end.

Definition lsref_sized (hexsz : nat) (x : lsref) : bool := match snd x with RHash h => sized hexsz h | RSym _ => true end.

Lemma word_nospace w : word_ok w = true -> no_byte SP w = true /\ w <> [].
Proof.
  unfold word_ok. destruct w as [|c w]; [discriminate|]. intros H. split; [now apply tokc_nosp|discriminate].
Qed.

Lemma hash_by_name_sized hexsz : forall refs name found h, forallb (lsref_sized hexsz) refs = true ->
  (forall h0, found = Some h0 -> sized hexsz h0 = true) ->
  hash_by_name refs name found = Some h -> sized hexsz h = true.
Proof.
  induction refs as [|[n v] refs IH]; intros name found h Hr Hf E; [cbn in E; now apply Hf|].
  cbn [forallb] in Hr. apply andb_prop in Hr. destruct Hr as [H1 H2].
  cbn [hash_by_name] in E. destruct v as [h1|t].
  - destruct (beq n name).
    + apply (IH name (Some h1) h H2); [|exact E]. intros h0 [= <-]. exact H1.
    + now apply (IH name found h H2).
  - now apply (IH name found h H2).
Qed.

(* a line of ls-refs output is its words joined by SP; the first is an id, or "unborn" for o = None *)
Lemma git_lsref_words hexsz oid (o : option hash) name attrs sym peeled :
  match o with Some h => sized hexsz h = true /\ oid = hash_str h | None => oid = UNBORN end ->
  word_ok name = true -> forallb (no_byte SP) attrs = true -> git_ref_attrs hexsz attrs None None = Some (sym, peeled) ->
  git_lsref hexsz (join [SP] (oid :: name :: attrs)) = Some (name, o, sym, peeled).
Proof.
  intros Ho Hn Ha Hat. destruct (word_nospace name Hn) as [Hns Hnn]. unfold git_lsref. destruct o as [h|].
  - destruct Ho as [Hh ->]. destruct (sized_spec hexsz h Hh) as [Hok _].
    rewrite split_join; [|discriminate|cbn [forallb]; now rewrite (proj1 (hash_str_nospace h Hok)), Hns, Ha].
    destruct name; [contradiction|]. change (B "unborn") with UNBORN. now rewrite Hat, (hash_not_unborn h Hok), (git_oid_str hexsz h Hh).
  - subst oid. rewrite split_join; [|discriminate|cbn [forallb]; now rewrite Hns, Ha].
    destruct name; [contradiction|]. now rewrite Hat.
Qed.

Lemma git_attr_symref hexsz t : git_ref_attrs hexsz [B "symref-target:" ++ t] None None = Some (Some t, None).
Proof. cbn [git_ref_attrs]. now rewrite has_prefix_app, (skipn_app_len (B "symref-target:")). Qed.

Lemma git_attr_peeled hexsz ph : sized hexsz ph = true -> git_ref_attrs hexsz [B "peeled:" ++ hash_str ph] None None = Some (None, Some ph).
Proof.
  intros H. cbn [git_ref_attrs]. rewrite (has_prefix_clash _ (B "peeled:")) by reflexivity.
  now rewrite has_prefix_app, (skipn_app_len (B "peeled:")), (git_oid_str hexsz ph H).
Qed.

Lemma git_lsout_step hexsz L L' r acc x : L' = L ++ [NL] -> git_lsref hexsz L = Some x ->
  git_lsout hexsz ([PData L'] ++ r) acc = git_lsout hexsz r (acc ++ [x]).
Proof. intros -> H. cbn [app git_lsout]. now rewrite chomp_app, H. Qed.

(* what go-git writes for one reference is what git reads as gls_of that reference *)
Lemma git_lsout_ref hexsz refs x r acc : forallb (lsref_sized hexsz) refs = true -> lsref_ok x = true -> lsref_sized hexsz x = true ->
  git_lsout hexsz (lsout_line refs x ++ r) acc = git_lsout hexsz r (acc ++ gls_of refs x).
Proof.
  intros Hsz Hx Hsx. destruct x as [name v]. unfold lsref_ok in Hx. cbn [fst snd] in Hx. apply andb_prop in Hx. destruct Hx as [Hn Hv].
  unfold lsref_sized in Hsx. cbn [snd] in Hsx. unfold lsout_line, gls_of. cbv zeta.
  destruct (is_peeled name); [now rewrite app_nil_r|].
  assert (forall t h, hash_by_name refs t None = Some h -> sized hexsz h = true) as Hby.
  { intros t h. now apply (hash_by_name_sized hexsz refs t None h Hsz). }
  destruct v as [h|t].
  - destruct (hash_by_name refs (name ++ peeled_suffix) None) as [ph|] eqn:Ep.
    + apply (git_lsout_step hexsz (join [SP] [hash_str h; name; B "peeled:" ++ hash_str ph])); [cbn [join]; now rewrite <- !app_assoc|].
      apply git_lsref_words; [now split|exact Hn| |now apply git_attr_peeled, (Hby _ _ Ep)].
      cbn [forallb]. rewrite no_byte_app, andb_true_r. now apply (hash_str_nospace ph), (sized_spec hexsz), (Hby _ _ Ep).
    + apply (git_lsout_step hexsz (join [SP] [hash_str h; name])); [reflexivity|]. now apply git_lsref_words.
  - set (oid := match hash_by_name refs t None with
                | Some h => if hash_is_zero h then UNBORN else hash_str h
                | None => UNBORN
                end).
    apply (git_lsout_step hexsz (join [SP] [oid; name; B "symref-target:" ++ t])); [cbn [join]; now rewrite <- !app_assoc|].
    apply git_lsref_words; [|exact Hn| |apply git_attr_symref].
    + unfold oid. destruct (hash_by_name refs t None) as [h|] eqn:Eh; [|reflexivity].
      destruct (hash_is_zero h); [reflexivity|]. split; [exact (Hby _ _ Eh)|reflexivity].
    + cbn [forallb]. rewrite no_byte_app, andb_true_r. now rewrite (proj1 (word_nospace t Hv)).
Qed.

Lemma git_lsout_lines hexsz refs : forallb (lsref_sized hexsz) refs = true ->
  forall l acc, forallb lsref_ok l = true -> forallb (lsref_sized hexsz) l = true ->
  git_lsout hexsz (flat_map (lsout_line refs) l ++ [PFlush]) acc = Some (acc ++ flat_map (gls_of refs) l).
Proof.
  intros Hsz. induction l as [|x l IH]; intros acc Hl Hs; [cbn; now rewrite app_nil_r|].
  cbn [forallb] in Hl, Hs. apply andb_prop in Hl, Hs. destruct Hl as [Hx Hl], Hs as [Hsx Hs].
  cbn [flat_map]. now rewrite <- app_assoc, (git_lsout_ref hexsz refs x _ acc Hsz Hx Hsx), (IH _ Hl Hs), app_assoc.
Qed.

Theorem git_lsout_enc hexsz refs : forallb lsref_ok refs = true -> forallb (lsref_sized hexsz) refs = true ->
  git_lsout hexsz (lsout_encode refs ++ [PFlush]) [] = Some (flat_map (gls_of refs) refs).
Proof. intros H Hs. unfold lsout_encode. now rewrite (git_lsout_lines hexsz refs Hs refs [] H Hs). Qed.
