(* Proofs/C10Main.v — from the objects handed to idxfile.Writer to the table
   of the C10 theorems: the boolean domain guard, the table (Add + sort), and
   the statement about the written index. *)
From Coq Require Import List NArith ZArith Bool Lia ZifyBool ZifyNat ZifyN Sorting.Permutation.
From GoGit Require Import Base.Out Model.PackBytes Model.Idx Spec.IdxFormat Proofs.C10Order Proofs.C10Layout Proofs.C10Create.
Import ListNotations.
Local Open Scope N_scope.

(* the table the writer builds: Writer.Add (first occurrence of each non-zero id) then sort by id *)
Definition table (es : list entry) : list entry := sort_entries (writer_add es [] []).

(* domain of the theorems, decidable: ids of the format's size made of bytes, 64-bit offsets,
   32-bit CRCs, fewer than 2^31 objects *)
Definition entry_okb (hs : nat) (e : entry) : bool :=
  Nat.eqb (List.length (e_hash e)) hs && forallb (fun b => b <? 256) (e_hash e)
  && (e_off e <? 18446744073709551616) && (e_crc e <? 4294967296).
Definition wf_entries (hs : nat) (es : list entry) : bool :=
  forallb (entry_okb hs) es && (N.of_nat (List.length es) <? 2147483648) && Nat.ltb 0 hs.

Lemma writer_add_length : forall es seen acc,
  (List.length (writer_add es seen acc) <= List.length es + List.length acc)%nat.
Proof.
  induction es as [|e es IH]; intros seen acc; cbn [writer_add List.length].
  - rewrite rev_length. lia.
  - destruct (is_zero_hash (e_hash e) || mem_hash (e_hash e) seen).
    + specialize (IH seen acc). lia.
    + specialize (IH (e_hash e :: seen) (e :: acc)). cbn [List.length] in IH. lia.
Qed.

Lemma table_in es e : In e (table es) -> In e es.
Proof.
  intros He. unfold table in He.
  apply (Permutation_in _ (Permutation_sym (sort_perm _))) in He.
  destruct (writer_add_spec es [] []) as [_ B]; [constructor|intros x []|].
  destruct (B e He) as [[]|(Hi & _)]. exact Hi.
Qed.

Lemma table_length es : (List.length (table es) <= List.length es)%nat.
Proof.
  unfold table. rewrite <- (Permutation_length (sort_perm _)).
  pose proof (writer_add_length es [] []). cbn in *. lia.
Qed.

Lemma entry_okb_spec hs e : entry_okb hs e = true ->
  List.length (e_hash e) = hs /\ (forall b, In b (e_hash e) -> b < 256) /\
  e_off e < 18446744073709551616 /\ e_crc e < 4294967296.
Proof.
  unfold entry_okb. rewrite !andb_true_iff, forallb_forall, Nat.eqb_eq.
  intros [[[Hl Hb] Ho] Hc]. repeat split; try lia. intros b Hi. specialize (Hb b Hi). lia.
Qed.

Lemma wf_entries_tbl hs es : wf_entries hs es = true -> wf_tbl hs (table es).
Proof.
  unfold wf_entries. rewrite !andb_true_iff, forallb_forall. intros [[Wall Wn] Wh].
  assert (Hall : forall e, In e (table es) -> _) by (intros e He; exact (entry_okb_spec hs e (Wall e (table_in es e He)))).
  constructor; try (intros e; intros; now apply (Hall e)).
  - unfold table. apply sort_sorted, writer_add_distinct.
  - pose proof (table_length es). lia.
  - now apply Nat.ltb_lt.
Qed.

(* what the map answers for an id is one of the objects given to the writer, with that id *)
Lemma table_lookup_in es h e : lookup (table es) h = Some e -> In e es /\ e_hash e = h.
Proof.
  unfold lookup. intros Hf. apply find_some in Hf. destruct Hf as [Hi He].
  split; [now apply table_in|now apply bytes_eqb_eq].
Qed.

Section Main.
Variable hs : nat.
Variable Hsz : nat -> bytes -> bytes.

(* C08/C10: what Writer + Encode write is git's idx v2 layout of the table *)
Theorem written_idx_is_git_layout es pack :
  wf_entries hs es = true ->
  exists m, create_index hs (writer_add es [] []) pack = Ok m /\
            encode hs Hsz m = Ok (idx_file (Hsz hs) (table es) pack).
Proof.
  intros W. apply (create_encode_layout hs Hsz (writer_add es [] []) (table es) pack); [reflexivity|].
  now apply wf_entries_tbl.
Qed.

End Main.
