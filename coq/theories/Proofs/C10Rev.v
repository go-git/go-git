(* Proofs/C10Rev.v — the reverse index: revfile.Encode writes git's rev v1 layout
   (positions of the table's entries in offset order); with distinct offsets below 2^63,
   LazyIndex.FindHash (binary search through the .rev) and EntriesByOffset answer like the map
   ([search_lookup_off] and [rev_entry] also serve PackScanner.FindHash, Proofs/C10MmapHash.v). *)
From Coq Require Import List NArith ZArith Bool Lia ZifyBool ZifyNat ZifyN Sorting.Sorted Sorting.Permutation.
From GoGit Require Import Base.Out Model.PackBytes Model.Idx Spec.IdxFormat
  Proofs.C10Search Proofs.C10Order Proofs.C10Bytes Proofs.C10Layout Proofs.C10Lazy.
Import ListNotations.
Local Open Scope N_scope.

(* S: git's rev v1 layout *)
Definition pos_of (tbl : list entry) (o : N) : N := assoc_get (pos_of_offset tbl 0 []) o.
Definition rev_positions (tbl : list entry) : list N := map (fun e => pos_of tbl (e_off e)) (sort_by_off tbl).
Definition rev_body (hf : N) (tbl : list entry) (pack : bytes) : bytes :=
  ([82; 73; 68; 88] ++ be32 1 ++ be32 hf) ++ flat_map be32 (rev_positions tbl) ++ pack.
Definition rev_file (H : bytes -> bytes) (hf : N) (tbl : list entry) (pack : bytes) : bytes :=
  rev_body hf tbl pack ++ H (rev_body hf tbl pack).

(* revfile.Encode of an index whose Entries() are the table *)
Lemma rev_encode_layout hs Hsz m tbl :
  mem_entries hs m = (tbl, None) ->
  rev_encode hs Hsz m = Ok (rev_file (Hsz hs) (rev_hf hs) tbl (m_pack m)).
Proof.
  intros E. unfold rev_encode. rewrite E. unfold rev_file, rev_body, rev_positions, pos_of.
  now rewrite (flat_map_concat_map be32), map_map, <- flat_map_concat_map, <- !app_assoc.
Qed.

Definition distinct_offsets (l : list entry) : Prop := NoDup (map e_off l).
Definition olt (a b : entry) : Prop := e_off a < e_off b.

Lemma insert_by_off_cons e x l :
  (insert_by_off e (x :: l) = e :: x :: l /\ (e_off x <> e_off e -> olt e x)) \/
  (insert_by_off e (x :: l) = x :: insert_by_off e l /\ (e_off x <> e_off e -> olt x e)).
Proof.
  unfold olt. cbn [insert_by_off]. unfold off_le.
  destruct (e_off e <? e_off x) eqn:E1; [left; split; [reflexivity|lia]|].
  destruct (e_off x <? e_off e) eqn:E2; [right; split; [reflexivity|lia]|].
  destruct (negb _); [left|right]; split; auto; lia.
Qed.

Lemma sort_off_perm l : Permutation l (sort_by_off l).
Proof. apply (isort_perm e_off olt); auto using insert_by_off_cons. Qed.

Lemma sort_off_sorted l : distinct_offsets l -> StronglySorted olt (sort_by_off l).
Proof. apply (isort_sorted e_off olt); auto using insert_by_off_cons. unfold olt. intros a b c. lia. Qed.

Lemma sorted_len tbl : List.length (sort_by_off tbl) = List.length tbl.
Proof. symmetry. apply Permutation_length, sort_off_perm. Qed.

Lemma sorted_in tbl i : i < N.of_nat (List.length tbl) -> In (nth (N.to_nat i) (sort_by_off tbl) d0) tbl.
Proof.
  intros Hi. eapply Permutation_in; [symmetry; apply sort_off_perm|]. apply nth_In. rewrite sorted_len. lia.
Qed.

(* positions: offsetToPos of buildReverseIndex *)
Lemma pos_of_offset_absent : forall l i acc o,
  ~ In o (map e_off l) -> assoc_get (pos_of_offset l i acc) o = assoc_get acc o.
Proof.
  induction l as [|e l IH]; intros i acc o Hn; cbn [pos_of_offset]; [reflexivity|].
  rewrite IH by (intros Hi; apply Hn; now right). cbn [assoc_get].
  destruct (e_off e =? o) eqn:E; [|reflexivity]. apply N.eqb_eq in E. exfalso. apply Hn. now left.
Qed.

Lemma pos_of_offset_nth : forall l i acc k d,
  NoDup (map e_off l) -> (k < List.length l)%nat ->
  assoc_get (pos_of_offset l i acc) (e_off (nth k l d)) = i + N.of_nat k.
Proof.
  induction l as [|e l IH]; intros i acc k d Hd Hk; cbn in Hk; [lia|].
  inversion Hd as [|? ? Hn Hd']; subst. cbn [pos_of_offset]. destruct k as [|k]; cbn [nth].
  - rewrite pos_of_offset_absent by exact Hn. cbn [assoc_get]. rewrite N.eqb_refl. lia.
  - rewrite IH by (try assumption; lia). lia.
Qed.

Lemma pos_of_nth tbl k d : distinct_offsets tbl -> (k < List.length tbl)%nat ->
  pos_of tbl (e_off (nth k tbl d)) = N.of_nat k.
Proof. intros Hd Hk. unfold pos_of. rewrite pos_of_offset_nth by assumption. lia. Qed.

Lemma rev_positions_length tbl : List.length (rev_positions tbl) = List.length tbl.
Proof. unfold rev_positions. now rewrite map_length, sorted_len. Qed.

(* the table position of the i-th entry by offset, as the .rev file records it *)
Definition rev_pos (tbl : list entry) (i : N) : N := nth (N.to_nat i) (rev_positions tbl) 0.

Lemma rev_pos_ok tbl i : distinct_offsets tbl -> i < N.of_nat (List.length tbl) ->
  rev_pos tbl i < N.of_nat (List.length tbl) /\
  nth (N.to_nat (rev_pos tbl i)) tbl d0 = nth (N.to_nat i) (sort_by_off tbl) d0.
Proof.
  intros Hd Hi. unfold rev_pos, rev_positions.
  rewrite (nth_map_N (fun e => pos_of tbl (e_off e)) (sort_by_off tbl) _ d0 0) by (rewrite sorted_len; lia).
  destruct (In_nth tbl _ d0 (sorted_in tbl i Hi)) as (p & Hp & <-).
  rewrite pos_of_nth, Nat2N.id by assumption. split; [lia|reflexivity].
Qed.

Lemma lookup_off_nth tbl k : distinct_offsets tbl -> (k < List.length tbl)%nat ->
  lookup_off tbl (e_off (nth k tbl d0)) = Some (nth k tbl d0).
Proof. apply (find_key_nth e_off N.eqb N.eqb_eq). Qed.

Lemma lookup_off_in tbl e : distinct_offsets tbl -> In e tbl -> lookup_off tbl (e_off e) = Some e.
Proof. intros Hd He. destruct (In_nth tbl e d0 He) as (k & Hk & <-). now apply lookup_off_nth. Qed.

Lemma lookup_off_none tbl o : (forall e, In e tbl -> e_off e <> o) -> lookup_off tbl o = None.
Proof. apply (find_key_none e_off N.eqb N.eqb_eq). Qed.

(* the domain of the offset-to-id theorems, decidable: distinct offsets below 2^63 *)
Fixpoint nodupb (l : list N) : bool :=
  match l with [] => true | x :: r => negb (existsb (N.eqb x) r) && nodupb r end.
Definition offsets_okb (tbl : list entry) : bool :=
  nodupb (map e_off tbl) && forallb (fun e => e_off e <? 9223372036854775808) tbl.

Lemma nodupb_NoDup l : nodupb l = true -> NoDup l.
Proof.
  induction l as [|x l IH]; intros E; [constructor|]. cbn in E. apply andb_true_iff in E. destruct E as [E1 E2].
  constructor; [|auto]. intros Hi. apply negb_true_iff in E1.
  assert (existsb (N.eqb x) l = true) by (apply existsb_exists; exists x; split; [exact Hi|apply N.eqb_refl]). congruence.
Qed.

Lemma offsets_okb_spec tbl : offsets_okb tbl = true ->
  distinct_offsets tbl /\ forall e, In e tbl -> e_off e < 9223372036854775808.
Proof.
  unfold offsets_okb. intros E. apply andb_true_iff in E. destruct E as [E1 E2]. split.
  - now apply nodupb_NoDup.
  - rewrite forallb_forall in E2. intros e He. specialize (E2 e He). lia.
Qed.

Lemma i64_small o : o < 9223372036854775808 -> to_i64 o = Z.of_N o.
Proof. intros Ho. apply wraps64_small. lia. Qed.

(* a search for the offset o through the positions in offset order; the last hypothesis is one
   of the [bs_*_fuel] lemmas *)
Lemma search_lookup_off tbl o P r : distinct_offsets tbl ->
  (forall i, i < N.of_nat (List.length tbl) -> P i = Some (o ?= e_off (nth (N.to_nat i) (sort_by_off tbl) d0))) ->
  (mono P 0 (N.of_nat (List.length tbl)) -> total P 0 (N.of_nat (List.length tbl)) ->
   search_spec P 0 (N.of_nat (List.length tbl)) r) ->
  match r with
  | Found i => i < N.of_nat (List.length tbl) /\ lookup_off tbl o = Some (nth (N.to_nat i) (sort_by_off tbl) d0)
  | NotFound => lookup_off tbl o = None
  | _ => False
  end.
Proof.
  intros Hd Pv Sp.
  assert (M : mono P 0 (N.of_nat (List.length tbl))).
  { intros i j Hi Hij Hj. rewrite !Pv by lia.
    destruct (N.eq_dec i j) as [<-|Hne]; [split; auto|].
    assert (Hs := sorted_nth olt _ (sort_off_sorted tbl Hd) (N.to_nat i) (N.to_nat j) d0
                    ltac:(lia) ltac:(rewrite sorted_len; lia)). unfold olt in Hs.
    split; intros E; injection E as E1; f_equal; [rewrite N.compare_lt_iff in *|rewrite N.compare_gt_iff in *]; lia. }
  assert (T : total P 0 (N.of_nat (List.length tbl))) by (intros i Hi Hj; rewrite Pv by lia; discriminate).
  specialize (Sp M T). destruct r as [i| | |]; cbn in Sp; try contradiction.
  - destruct Sp as [Hr Hp]. split; [lia|]. rewrite Pv in Hp by lia. injection Hp as Hc.
    apply N.compare_eq in Hc. subst o. apply (lookup_off_in tbl _ Hd), sorted_in. lia.
  - apply lookup_off_none. intros e He Eo.
    assert (Hin : In e (sort_by_off tbl)) by (eapply Permutation_in; [apply sort_off_perm|exact He]).
    destruct (In_nth _ _ d0 Hin) as (i & Hi & Ei). rewrite sorted_len in Hi.
    apply (Sp (N.of_nat i)); [lia|lia|]. rewrite Pv, Nat2N.id, Ei, Eo by lia. now rewrite N.compare_refl.
Qed.

Lemma rev_file_hdr H hf tbl pack :
  exists hfb t, rev_file H hf tbl pack = ([82; 73; 68; 88] ++ be32 1 ++ hfb) ++ t /\ List.length hfb = 4%nat.
Proof.
  exists (be32 hf), (flat_map be32 (rev_positions tbl) ++ pack ++ H (rev_body hf tbl pack)).
  split; [|reflexivity]. unfold rev_file, rev_body. now rewrite <- !app_assoc.
Qed.

Lemma rev_entry H hf tbl pack i : i < N.of_nat (List.length tbl) ->
  read_at (rev_file H hf tbl pack) (12 + i * 4) 4 = Some (be32 (rev_pos tbl i)).
Proof.
  intros Hi. unfold rev_file, rev_body, rev_pos.
  rewrite <- !app_assoc, (app_assoc [82; 73; 68; 88]), (app_assoc _ (be32 hf)).
  apply (record_read_at be32 4 (rev_positions tbl) (([82; 73; 68; 88] ++ be32 1) ++ be32 hf));
    [auto using blen_be32|now rewrite rev_positions_length].
Qed.

Section RevLazy.
Variable hs : nat.
Variable H : bytes -> bytes.
Variable tbl : list entry.
Variable pack : bytes.
Variable hf : N.
Hypothesis WF : wf_tbl hs tbl.
Hypothesis Hpack : List.length pack = hs.
Hypothesis Hdist : distinct_offsets tbl.

Let n : N := N.of_nat (List.length tbl).
Let rev := rev_file H hf tbl pack.
Let L := the_lazy hs H tbl pack rev.
Set Default Proof Using "hs H tbl pack hf WF Hpack Hdist".

Lemma lazy_rev_at_ok i : i < n -> lazy_rev_at L i = Ok (rev_pos tbl i).
Proof.
  intros Hi. destruct (rev_pos_ok tbl i Hdist Hi) as [Hp _].
  unfold lazy_rev_at, L, the_lazy. cbn [l_rev l_count]. change L_REVHDR with 12.
  unfold rev. rewrite (rev_entry H hf tbl pack i Hi), get32_be32' by (pose proof (wf_count _ _ WF); lia).
  now replace (N.of_nat (List.length tbl) <=? rev_pos tbl i) with false by lia.
Qed.

Lemma lazy_rev_walk_ok : forall k i,
  i + N.of_nat k <= n -> lazy_rev_walk hs L i k = (firstn k (skipn (N.to_nat i) (sort_by_off tbl)), None).
Proof.
  induction k as [|k IH]; intros i Hi; cbn [lazy_rev_walk]; [now rewrite firstn_O|].
  assert (Hin : i < n) by lia. destruct (rev_pos_ok tbl i Hdist Hin) as [Hp En].
  rewrite lazy_rev_at_ok, (lazy_entry_ok hs H tbl pack rev WF Hpack) by assumption.
  now rewrite IH, En, (firstn_skipn_S (sort_by_off tbl) i k d0) by (rewrite ?sorted_len; lia).
Qed.

Theorem lazy_by_offset_map : lazy_by_offset hs L = (sort_by_off tbl, None).
Proof.
  unfold lazy_by_offset. change (l_count L) with n. rewrite lazy_rev_walk_ok by lia.
  unfold n. rewrite Nat2N.id. cbn [skipn]. rewrite <- sorted_len. now rewrite firstn_all.
Qed.

(* FindHash compares int64 offsets *)
Hypothesis Hsmall : forall e, In e tbl -> e_off e < 9223372036854775808.

Theorem lazy_find_hash_map o : o < 9223372036854775808 ->
  lazy_find_hash hs L (Z.of_N o) =
    match lookup_off tbl o with Some e => Ok (e_hash e) | None => Err ENotFound end.
Proof using hs H tbl pack hf WF Hpack Hdist Hsmall.
  intros Ho. unfold lazy_find_hash.
  set (probe := fun mid => match lazy_rev_at L mid with
                           | Err _ => None
                           | Ok p => match lazy_offset L p with
                                     | Err _ => None
                                     | Ok got => Some (Z.compare (Z.of_N o) (to_i64 got))
                                     end
                           end).
  assert (Pv : forall i, i < n -> probe i = Some (o ?= e_off (nth (N.to_nat i) (sort_by_off tbl) d0))).
  { intros i Hi. unfold probe. destruct (rev_pos_ok tbl i Hdist Hi) as [Hp En].
    rewrite lazy_rev_at_ok, (lazy_offset_ok hs H tbl pack rev WF Hpack) by assumption.
    now rewrite En, i64_small, N2Z.inj_compare by (apply Hsmall, sorted_in, Hi). }
  change (l_count L) with n.
  pose proof (search_lookup_off tbl o probe _ Hdist Pv (bs_while_fuel probe 0 n)) as S.
  destruct (bs_while (bs_fuel 0 n) probe 0 n) as [mid| | |]; try contradiction; [|now rewrite S].
  destruct S as [Hm ->]. destruct (rev_pos_ok tbl mid Hdist Hm) as [Hp En].
  rewrite lazy_rev_at_ok, (lazy_name_ok hs H tbl pack rev WF Hpack) by assumption. now rewrite En.
Qed.

End RevLazy.
