(* Proofs/C42.v — IsAncestor and isFastForward through the pre-order walker
   theorem of Proofs/C43.v. *)
From Coq Require Import List Arith ZArith Bool Lia.
From GoGit Require Import Spec.Dag Model.CommitWalk Model.MergeBase Proofs.Worklist Proofs.C43.
Import ListNotations.

Lemma stop_walk_decides : forall g (a s : node) r,
  dag_ok g = true -> Post (parents g) (Nat.eqb a) [] s r ->
  (snd r = WStop /\ is_anc g a s = true) \/ (snd r = WEof /\ is_anc g a s = false).
Proof.
  intros g a s r Hok P. pose proof (is_anc_spec g a s Hok) as E. rewrite <- ra_reach in E.
  destruct (post_stop_at _ _ _ _ _ P) as [[He Hr] | [He [Hn _]]]; [left | right]; split; try exact He.
  - now apply E.
  - apply not_true_is_false. intros H. now apply Hn, E.
Qed.

Theorem is_ancestor_spec : forall g (a b : node),
  dag_ok g = true -> dag_closed g = true -> b < nnodes g ->
  is_ancestor g a b = BOk (is_anc g a b).
Proof.
  intros g a b Hok Hc Hb. unfold is_ancestor.
  destruct (stop_walk_decides g a b _ Hok (pre_walk_post g Hc (Nat.eqb a) [] b Hb)) as [[He ->] | [He ->]];
    destruct (pre_walk g (Nat.eqb a) (walk_fuel g) b []) as [l e]; simpl in He; now subst e.
Qed.

(* isFastForward without shallow boundaries is the same walk as IsAncestor *)
Theorem is_fast_forward_spec : forall g (old new : node),
  dag_ok g = true -> dag_closed g = true -> new < nnodes g ->
  is_fast_forward g old new [] = BOk (is_anc g old new).
Proof.
  intros g old new Hok Hc Hn. rewrite <- (is_ancestor_spec g old new Hok Hc Hn).
  unfold is_fast_forward, is_ancestor. rewrite (proj2 (present_lt g new) Hn). simpl.
  destruct (pre_walk g (Nat.eqb old) (walk_fuel g) new []) as [l []]; try reflexivity.
  f_equal. induction l as [|x r IH]; [reflexivity | exact IH].
Qed.
