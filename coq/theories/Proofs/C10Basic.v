(* Proofs/C10Basic.v — first layer of C10: rejection of malformed headers by
   the three readers and the range check of the 64-bit offset table. *)
From Coq Require Import List NArith Bool Lia ZifyBool ZifyNat ZifyN.
From GoGit Require Import Base.Out Model.PackBytes Model.Idx Proofs.C10Bytes Proofs.C10Table.
Import ListNotations.
Local Open Scope N_scope.

(* getOffset: a 64-bit entry is answered from inside Offset64 or not at all *)
Lemma mem_get_offset_in_range m b i o :
  mem_get_offset m b i = Ok o ->
  let ofs := get32 (slice (b_off32 b) (4 * i) 4) in
  (N.land ofs O64MASK = 0 /\ o = ofs) \/
  (N.land ofs O64MASK <> 0 /\ 8 * N.ldiff ofs O64MASK + 8 <= blen (m_off64 m) /\
   o = get64 (slice (m_off64 m) (8 * N.ldiff ofs O64MASK) 8)).
Proof.
  unfold mem_get_offset. cbv zeta.
  destruct (N.land (get32 (slice (b_off32 b) (4 * i) 4)) O64MASK =? 0) eqn:E0.
  - intros E; inversion E. left. split; [now apply N.eqb_eq|reflexivity].
  - destruct ((blen (m_off64 m) <? 8) || (blen (m_off64 m) - 8 <? 8 * N.ldiff _ O64MASK)) eqn:Eb; [discriminate|].
    intros E; inversion E. right. apply N.eqb_neq in E0. apply orb_false_iff in Eb. destruct Eb as [E1 E2].
    apply N.ltb_ge in E1, E2. repeat split; auto. lia.
Qed.

(* LazyIndex.offset: the same, against the count of 64-bit entries found at open time *)
Lemma lazy_offset_in_range s pos o :
  lazy_offset s pos = Ok o ->
  exists b, read_at (l_file s) (l_off32 s + pos * L_OFF32) L_OFF32 = Some b /\
  ((N.land (get32 b) L_MASK = 0 /\ o = get32 b) \/
   (N.land (get32 b) L_MASK <> 0 /\ N.ldiff (get32 b) L_MASK < l_count64 s /\
    exists b64, read_at (l_file s) (l_off64 s + N.ldiff (get32 b) L_MASK * L_OFF64) L_OFF64 = Some b64 /\ o = get64 b64)).
Proof.
  unfold lazy_offset.
  destruct (read_at (l_file s) (l_off32 s + pos * L_OFF32) L_OFF32) as [b|]; [|discriminate].
  intros E. exists b. split; [reflexivity|].
  destruct (N.land (get32 b) L_MASK =? 0) eqn:E0.
  - inversion E. left. split; [now apply N.eqb_eq|reflexivity].
  - right. apply N.eqb_neq in E0.
    destruct (l_count64 s <=? N.ldiff (get32 b) L_MASK) eqn:Ec; [discriminate|]. apply N.leb_gt in Ec.
    destruct (read_at (l_file s) _ L_OFF64) as [b64|]; [|discriminate].
    inversion E. repeat split; auto. exists b64. auto.
Qed.

(* PackScanner.offset: a 64-bit entry lies wholly before the trailer *)
Lemma scan_offset_in_range s pos o :
  scan_offset s pos = Ok o ->
  let start := s_off32 s + pos * S_OFF32 in
  start + S_OFF32 <= blen (s_idx s) /\
  let off32 := get32 (slice (s_idx s) start S_OFF32) in
  ((N.land off32 S_MASK = 0 /\ o = off32) \/
   (N.land off32 S_MASK <> 0 /\ s_off64 s + N.ldiff off32 S_MASK * S_OFF64 + S_OFF64 <= s_trailer s)).
Proof.
  unfold scan_offset. cbv zeta.
  destruct (blen (s_idx s) <? s_off32 s + pos * S_OFF32 + S_OFF32) eqn:E1; [discriminate|]. apply N.ltb_ge in E1.
  intros E. split; [exact E1|].
  destruct (N.land _ S_MASK =? 0) eqn:E0.
  - inversion E. left. split; [now apply N.eqb_eq|reflexivity].
  - right. apply N.eqb_neq in E0.
    destruct (s_trailer s <? _) eqn:E2; [discriminate|]. apply N.ltb_ge in E2. split; assumption.
Qed.

Lemma Ok_inj {A} (a b : A) : Ok a = Ok b -> a = b.
Proof. intros E. now injection E. Qed.

(* PackScanner: an index whose object count does not fit the file is rejected at load time *)
Lemma scan_load_fits hs idx rev s :
  scan_load hs idx rev = Ok s ->
  s_off64 s <= s_trailer s /\ s_trailer s + 2 * N.of_nat hs = blen idx /\ S_IDXMIN <= blen idx.
Proof.
  unfold scan_load.
  destruct (negb (valid_file rev S_REVVER S_REVSIG S_REVMIN)); [discriminate|].
  destruct (valid_file idx S_IDXVER S_IDXSIG S_IDXMIN) eqn:Ev; [|discriminate]. cbn [negb]. cbv zeta.
  set (cnt := get32 _). set (tr := blen idx - 2 * N.of_nat hs). set (o64 := _ + cnt * S_OFF32).
  destruct (tr <? o64) eqn:Ec; [discriminate|].
  (* [injection] on the record with its offsets written out is slow here and at Qed *)
  intros E. apply Ok_inj in E. subst s. cbn [s_off64 s_trailer].
  unfold valid_file in Ev. rewrite !andb_true_iff in Ev. destruct Ev as [[Ev _] _].
  change (S_HDR + S_FANOUT) with 1032 in o64. lia.
Qed.

Section Basic.
Variable hs : nat.
Variable Hsz : nat -> bytes -> bytes.

Lemma decode_bad_magic file :
  bytes_eqb (firstn 4 file) IDX_MAGIC = false -> decode hs Hsz file = Err EReject.
Proof.
  intros Hm. unfold decode.
  destruct (take 4 file) as [[mg r1]|] eqn:E; [|reflexivity].
  apply take_inv in E. destruct E as (-> & -> & _). change (N.to_nat 4) with 4%nat.
  now rewrite Hm.
Qed.

Lemma decode_bad_version file :
  (get32 (firstn 4 (skipn 4 file)) =? IDX_VERSION) = false -> decode hs Hsz file = Err EReject.
Proof.
  intros Hv. unfold decode.
  destruct (take 4 file) as [[mg r1]|] eqn:E; [|reflexivity].
  apply take_inv in E. destruct E as (-> & -> & _). change (N.to_nat 4) with 4%nat.
  destruct (negb (bytes_eqb (firstn 4 file) IDX_MAGIC)); [reflexivity|].
  destruct (take 4 (skipn 4 file)) as [[vb r2]|] eqn:E2; [|reflexivity].
  apply take_inv in E2. destruct E2 as (-> & -> & _). change (N.to_nat 4) with 4%nat.
  now rewrite Hv.
Qed.

Lemma read_fanout_nondec n : forall r prev acc fo r',
  read_fanout n r prev acc = Some (fo, r') ->
  exists l, fo = rev acc ++ l /\ List.length l = n /\ nondecN prev l.
Proof.
  induction n as [|n IH]; intros r prev acc fo r' E; cbn [read_fanout] in E.
  - inversion E; subst. exists []. now rewrite app_nil_r.
  - destruct (take 4 r) as [[w r1]|]; [|discriminate].
    destruct (get32 w <? prev) eqn:Hlt; [discriminate|].
    apply IH in E. destruct E as (l & -> & Hlen & Hs).
    exists (get32 w :: l). cbn [rev]. rewrite <- app_assoc. cbn. repeat split; auto; lia.
Qed.

(* what an accepted file went through: the fanout table was read and the size check held *)
Lemma decode_ok_inv file m :
  decode hs Hsz file = Ok m ->
  (exists r2 r3, read_fanout NFANOUT r2 0 [] = Some (m_fanout m, r3)) /\
  size_ok hs (last (m_fanout m) 0) (blen file) = true.
Proof.
  unfold decode. intros E.
  destruct (take 4 file) as [[mg r1]|]; [|discriminate].
  destruct (negb (bytes_eqb mg IDX_MAGIC)); [discriminate|].
  destruct (take 4 r1) as [[vb r2]|]; [|discriminate].
  destruct (negb (get32 vb =? IDX_VERSION)); [discriminate|].
  destruct (read_fanout NFANOUT r2 0 []) as [[fo r3]|] eqn:Ef; [|discriminate].
  destruct (size_ok hs (last fo 0) (blen file)) eqn:Hs; [|discriminate]. cbn [negb] in E.
  destruct (read_seq _ r3) as [[names r4]|]; [|discriminate].
  destruct (read_seq _ r4) as [[crcs r5]|]; [|discriminate].
  destruct (read_seq _ r5) as [[offs r6]|]; [|discriminate].
  destruct (take _ r6) as [[off64 r7]|]; [|discriminate].
  destruct (take _ r7) as [[pack r8]|]; [|discriminate].
  destruct (take _ r8) as [[sum r9]|]; [|discriminate].
  destruct (negb (bytes_eqb sum _)); [discriminate|].
  inversion E; subst; cbn [m_fanout]. eauto.
Qed.

Lemma decode_fanout_monotone file m :
  decode hs Hsz file = Ok m ->
  List.length (m_fanout m) = NFANOUT /\
  forall a b pre post, m_fanout m = pre ++ a :: b :: post -> a <= b.
Proof.
  intros E. destruct (decode_ok_inv file m E) as [(r2 & r3 & Ef) _].
  apply read_fanout_nondec in Ef. destruct Ef as (l & -> & Hlen & Hs). cbn [rev app].
  split; [exact Hlen|].
  intros a b pre post Hl. apply (nondecN_adjacent l 0 Hs a b (0 :: pre) post). cbn. now rewrite Hl.
Qed.

Lemma decode_size_ok file m :
  decode hs Hsz file = Ok m -> size_ok hs (last (m_fanout m) 0) (blen file) = true.
Proof. apply decode_ok_inv. Qed.

End Basic.
