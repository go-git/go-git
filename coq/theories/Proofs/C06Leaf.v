(* Proofs/C06Leaf.v — the leaf predicates and constants that gotrans regenerates
   from plumbing/format/packfile (Gen/C06.v) mean what Model/Delta.v says.
   A source edit that changes a mask, a bound or a comparison breaks a lemma here. *)
From Coq Require Import List NArith ZArith Lia Bool.
From GoGit Require Import Base.GoInt Gen.C06 Model.Delta.
Import ListNotations.

Local Open Scope Z_scope.

Lemma Zeqb_N (a : N) : (Z.of_N a =? 0) = (a =? 0)%N.
Proof. destruct a; reflexivity. Qed.

Lemma Zland_N (a b : N) : Z.land (Z.of_N a) (Z.of_N b) = Z.of_N (N.land a b).
Proof. destruct a, b; reflexivity. Qed.

Lemma isCopyFromSrc_gen_spec (c : N) : packfile_isCopyFromSrc (Z.of_N c) = is_copy_src c.
Proof.
  unfold packfile_isCopyFromSrc, is_copy_src, packfile_maskContinue, mask_continue.
  change 128 with (Z.of_N 128). rewrite Zland_N, Zeqb_N. reflexivity.
Qed.

Lemma isCopyFromDelta_gen_spec (c : N) : packfile_isCopyFromDelta (Z.of_N c) = is_copy_delta c.
Proof.
  unfold packfile_isCopyFromDelta, is_copy_delta, packfile_maskContinue, mask_continue.
  change 128 with (Z.of_N 128). rewrite Zland_N, !Zeqb_N. reflexivity.
Qed.

Lemma Zltb_N (a b : N) : (Z.of_N a <? Z.of_N b) = (a <? b)%N.
Proof. unfold Z.ltb, N.ltb. rewrite N2Z.inj_compare. reflexivity. Qed.

Lemma invalidSize_gen_spec (sz r : N) : packfile_invalidSize (Z.of_N sz) (Z.of_N r) = invalid_size sz r.
Proof. unfold packfile_invalidSize, invalid_size. rewrite Z.gtb_ltb. apply Zltb_N. Qed.

Lemma wrapu64_N (a : N) : wrapu 64 (Z.of_N a) = Z.of_N (a mod 2 ^ 64)%N.
Proof. unfold wrapu. rewrite N2Z.inj_mod. reflexivity. Qed.

Lemma sumOverflows_gen_spec (a b : N) : packfile_sumOverflows (Z.of_N a) (Z.of_N b) = sum_overflows a b.
Proof.
  unfold packfile_sumOverflows, sum_overflows. rewrite <- N2Z.inj_add, wrapu64_N. apply Zltb_N.
Qed.

Lemma invalidOffsetSize_gen_spec (o s n : N) :
  packfile_invalidOffsetSize (Z.of_N o) (Z.of_N s) (Z.of_N n) = invalid_offset_size o s n.
Proof.
  unfold packfile_invalidOffsetSize, invalid_offset_size.
  rewrite sumOverflows_gen_spec, <- N2Z.inj_add, wrapu64_N, Z.gtb_ltb, Zltb_N. reflexivity.
Qed.

(* the LEB128 length rule of packutil: `sz*7 > uintBits-7` with uintBits = 64 *)
Lemma leb_rule_gen_spec (k : nat) :
  (Z.of_nat k * 7 >? packutil_uintBits - 7) = Nat.ltb 8 k.
Proof.
  unfold packutil_uintBits.
  destruct (Nat.ltb_spec 8 k); [apply Z.gtb_lt | rewrite Z.gtb_ltb; apply Z.ltb_ge]; lia.
Qed.

(* the model's (mask, shift) tables in the form Gen/C06.v has those of decodeOffset / decodeSize (packfile_offsets, packfile_sizes) *)
Definition tbl_to_Z (t : list (N * N)) : list (Z * Z) := map (fun p => (Z.of_N (fst p), Z.of_N (snd p))) t.
