(* Proofs/C28Order.v — the per-directory order of BuildTree (sort by sortName) is the order
   git's base_name_compare demands. *)
From Coq Require Import List NArith ZArith Bool Arith Lia Permutation.
From GoGit Require Import Base.Out Gen.C04.
From GoGit Require Import Model.TreeObj Spec.GitTree Spec.GitWriteTree.
Import ListNotations.
Local Open Scope N_scope.

Fixpoint lexcmp (a b : bytes) : comparison :=
  match a, b with
  | [], [] => Eq
  | [], _ :: _ => Lt
  | _ :: _, [] => Gt
  | x :: a', y :: b' => if x =? y then lexcmp a' b' else if x <? y then Lt else Gt
  end.

Lemma lexcmp_refl a : lexcmp a a = Eq.
Proof. induction a as [|x a IH]; [reflexivity|]. cbn [lexcmp]. now rewrite N.eqb_refl. Qed.

Lemma bgt_lexcmp a : forall b, bgt a b = match lexcmp a b with Gt => true | _ => false end.
Proof.
  induction a as [|x a IH]; intros [|y b]; cbn [bgt lexcmp]; try reflexivity.
  destruct (x =? y) eqn:E; [apply IH|].
  destruct (x <? y) eqn:L, (y <? x) eqn:L2; try reflexivity; exfalso;
    apply N.eqb_neq in E; try apply N.ltb_lt in L; try apply N.ltb_lt in L2; try apply N.ltb_ge in L; try apply N.ltb_ge in L2; lia.
Qed.

Definition ble (a b : bytes) : bool := negb (bgt a b).

Lemma ble_trans a : forall b c, ble a b = true -> ble b c = true -> ble a c = true.
Proof.
  unfold ble. induction a as [|x a IH]; intros b c H1 H2; [reflexivity|].
  destruct b as [|y b]; [cbn in H1; discriminate|]. destruct c as [|z c].
  - cbn [bgt] in H2. discriminate.
  - cbn [bgt] in *.
    destruct (x =? y) eqn:E1; destruct (y =? z) eqn:E2.
    + apply N.eqb_eq in E1, E2. subst. rewrite N.eqb_refl. eapply IH; eassumption.
    + apply N.eqb_eq in E1. subst y. rewrite E2. exact H2.
    + apply N.eqb_eq in E2. subst z. rewrite E1. exact H1.
    + apply negb_true_iff in H1, H2. apply N.ltb_ge in H1, H2. apply N.eqb_neq in E1, E2.
      assert (x <> z) by lia. assert (E3 : (x =? z) = false) by now apply N.eqb_neq. rewrite E3.
      apply negb_true_iff. apply N.ltb_ge. lia.
Qed.

Lemma bgt_asym a : forall b, bgt a b = true -> bgt b a = false.
Proof.
  induction a as [|x a IH]; intros [|y b] H; cbn [bgt] in *; try discriminate; try reflexivity.
  destruct (x =? y) eqn:E.
  - apply N.eqb_eq in E. subst. rewrite N.eqb_refl. now apply IH.
  - rewrite N.eqb_sym, E. apply N.ltb_lt in H. apply N.ltb_ge. lia.
Qed.

Notation sn := sort_name.

Fixpoint sorted_sn (l : list tentry) : bool :=
  match l with [] => true | x :: r => forallb (fun y => ble (sn x) (sn y)) r && sorted_sn r end.

Lemma forallb_insert (P : tentry -> bool) e l : forallb P (insert_entry e l) = P e && forallb P l.
Proof.
  induction l as [|x r IH]; [reflexivity|]. cbn [insert_entry].
  destruct (bgt (sn x) (sn e)); cbn [forallb]; [reflexivity|]. rewrite IH.
  destruct (P x), (P e); reflexivity.
Qed.

Lemma insert_sorted e l : sorted_sn l = true -> sorted_sn (insert_entry e l) = true.
Proof.
  induction l as [|x r IH]; intros H; [reflexivity|].
  cbn [sorted_sn] in H. apply andb_true_iff in H as [H1 H2]. cbn [insert_entry].
  destruct (bgt (sn x) (sn e)) eqn:G.
  - cbn [sorted_sn forallb]. rewrite H1, H2, !andb_true_r.
    assert (Hex : ble (sn e) (sn x) = true) by (unfold ble; now rewrite (bgt_asym _ _ G)).
    rewrite Hex. cbn [andb]. apply forallb_forall. intros y Hy. rewrite forallb_forall in H1.
    eapply ble_trans; [exact Hex|now apply H1].
  - cbn [sorted_sn]. rewrite (IH H2), andb_true_r. rewrite forallb_insert, H1, andb_true_r.
    unfold ble. now rewrite G.
Qed.

Lemma sort_sorted es : sorted_sn (sort_entries es) = true.
Proof. induction es as [|e es IH]; [reflexivity|]. cbn [sort_entries fold_right]. now apply insert_sorted. Qed.

Lemma insert_entry_perm e l : Permutation (insert_entry e l) (e :: l).
Proof.
  induction l as [|x r IH]; [reflexivity|]. cbn [insert_entry].
  destruct (bgt (sn x) (sn e)); [reflexivity|]. rewrite IH. apply perm_swap.
Qed.

Lemma sort_entries_perm es : Permutation (sort_entries es) es.
Proof.
  induction es as [|e es IH]; [reflexivity|]. cbn [sort_entries fold_right]. fold (sort_entries es).
  now rewrite insert_entry_perm, IH.
Qed.

(* a name git can store: no NUL, no '/' *)
Definition plain (n : bytes) : bool := forallb (fun c => negb (c =? 0) && negb (c =? 47)) n.
(* the mode is a directory for git exactly when it is filemode.Dir *)
Definition mode_plain (m : Z) : bool := Bool.eqb (is_dir_mode m) (m =? fmode_Dir)%Z.
Definition entry_plain (e : tentry) : bool := plain (t_name e) && mode_plain (t_mode e).

Definition suffix_of (m : Z) : bytes := if (m =? fmode_Dir)%Z then [47] else [].

Lemma cmp_names_cons x a y b :
  cmp_names (x :: a) (y :: b) = if x =? y then cmp_names a b else (if x <? y then Lt else Gt, x, y).
Proof. reflexivity. Qed.

(* memcmp's verdict on two different bytes is the lexicographic one *)
Lemma compare_ne x y (r : comparison) :
  (x =? y) = false -> (x ?= y) = if x =? y then r else if x <? y then Lt else Gt.
Proof.
  intros E. rewrite E. apply N.eqb_neq in E. unfold N.ltb.
  destruct (x ?= y) eqn:C; [apply N.compare_eq_iff in C; contradiction|reflexivity|reflexivity].
Qed.

Lemma bnc_lex n1 : forall n2 m1 m2,
  plain n1 = true -> plain n2 = true -> mode_plain m1 = true -> mode_plain m2 = true ->
  base_name_compare n1 m1 n2 m2 = lexcmp (n1 ++ suffix_of m1) (n2 ++ suffix_of m2).
Proof.
  (* where one name ends git compares '/' (directory) or NUL with the other name's next byte,
     which is neither, the names being plain *)
  unfold mode_plain, suffix_of.
  induction n1 as [|x a IH]; intros n2 m1 m2 P1 P2 M1 M2; apply eqb_prop in M1, M2.
  - destruct n2 as [|y b]; unfold base_name_compare; cbn [cmp_names app].
    + rewrite M1, M2. cbn [N.eqb andb]. destruct (m1 =? fmode_Dir)%Z, (m2 =? fmode_Dir)%Z; reflexivity.
    + cbn [plain forallb] in P2. apply andb_true_iff in P2 as [Py _]. apply andb_true_iff in Py as [Py0 Py47].
      apply negb_true_iff in Py0, Py47. rewrite Py0, M1. cbn [N.eqb andb].
      destruct (m1 =? fmode_Dir)%Z; cbn [lexcmp].
      * apply compare_ne. now rewrite N.eqb_sym.
      * apply N.eqb_neq in Py0. destruct (N.compare_spec 0 y) as [E|L|L]; try reflexivity; exfalso; lia.
  - destruct n2 as [|y b].
    + unfold base_name_compare. cbn [cmp_names app].
      cbn [plain forallb] in P1. apply andb_true_iff in P1 as [Px _]. apply andb_true_iff in Px as [Px0 Px47].
      apply negb_true_iff in Px0, Px47. rewrite Px0, M2. cbn [N.eqb andb].
      destruct (m2 =? fmode_Dir)%Z; cbn [lexcmp].
      * apply compare_ne, Px47.
      * apply N.eqb_neq in Px0. destruct (N.compare_spec x 0) as [E|L|L]; try reflexivity; exfalso; lia.
    + cbn [plain forallb] in P1, P2. apply andb_true_iff in P1 as [_ P1]. apply andb_true_iff in P2 as [_ P2].
      unfold base_name_compare. rewrite cmp_names_cons. cbn [app lexcmp].
      destruct (x =? y) eqn:E.
      * specialize (IH b m1 m2 P1 P2). unfold base_name_compare, mode_plain in IH. rewrite M1, M2 in IH.
        rewrite !eqb_reflx in IH. specialize (IH eq_refl eq_refl). rewrite M1, M2. exact IH.
      * destruct (x <? y); reflexivity.
Qed.

(* the order git requires between consecutive (hence all) entries *)
Fixpoint ordered_git (l : list tentry) : bool :=
  match l with
  | [] => true
  | x :: r =>
    forallb (fun y => match base_name_compare (t_name x) (t_mode x) (t_name y) (t_mode y) with Gt => false | _ => true end) r &&
    ordered_git r
  end.

Lemma sn_suffix e : sn e = t_name e ++ suffix_of (t_mode e).
Proof. unfold sort_name, suffix_of. destruct (t_mode e =? fmode_Dir)%Z; [reflexivity|now rewrite app_nil_r]. Qed.

Lemma sorted_ordered l : forallb entry_plain l = true -> sorted_sn l = true -> ordered_git l = true.
Proof.
  induction l as [|x r IH]; intros P S; [reflexivity|].
  cbn [forallb] in P. apply andb_true_iff in P as [Px P]. cbn [sorted_sn] in S. apply andb_true_iff in S as [S1 S2].
  cbn [ordered_git]. rewrite (IH P S2), andb_true_r.
  apply forallb_forall. intros y Hy. rewrite forallb_forall in S1, P. specialize (S1 y Hy). specialize (P y Hy).
  unfold entry_plain in Px, P. apply andb_true_iff in Px as [Px1 Px2]. apply andb_true_iff in P as [Py1 Py2].
  rewrite (bnc_lex _ _ _ _ Px1 Py1 Px2 Py2), <- !sn_suffix.
  unfold ble in S1. apply negb_true_iff in S1. rewrite bgt_lexcmp in S1.
  destruct (lexcmp (sn x) (sn y)); [reflexivity|reflexivity|discriminate].
Qed.

Lemma sort_ordered es : forallb entry_plain es = true -> ordered_git (sort_entries es) = true.
Proof.
  intros P. apply sorted_ordered; [|apply sort_sorted]. rewrite forallb_forall in *.
  intros e He. apply P, (Permutation_in _ (sort_entries_perm es)), He.
Qed.
