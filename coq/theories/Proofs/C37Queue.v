(* Proofs/C37Queue.v — the commit queue of the revlist walk stays sorted
   newest-first, so Go's sort.Search (binary search) in insertSorted finds the
   same index as the model's linear scan. *)
From Coq Require Import List ZArith Bool Lia Sorting.Sorted.
From GoGit Require Import Model.RevList.
Import ListNotations.

Definition newer_eq (a b : cinfo) : Prop := (c_time b <= c_time a)%Z.

Lemma insert_sorted_In : forall q c x, In x (insert_sorted q c) <-> x = c \/ In x q.
Proof.
  induction q as [|y q IH]; intros c x; cbn [insert_sorted].
  - cbn. intuition.
  - destruct (c_time y <? c_time c)%Z.
    + cbn. intuition.
    + cbn. rewrite IH. intuition.
Qed.

Lemma fold_insert_In : forall l q x, In x (fold_left insert_sorted l q) <-> In x l \/ In x q.
Proof.
  induction l as [|c l IH]; intros q x; cbn [fold_left In]; [tauto|].
  rewrite IH, insert_sorted_In. intuition.
Qed.

Lemma insert_sorted_sorted : forall q c,
  StronglySorted newer_eq q -> StronglySorted newer_eq (insert_sorted q c).
Proof.
  induction q as [|y q IH]; intros c Hs; cbn [insert_sorted]; [repeat constructor|].
  inversion Hs as [|? ? Hq Hall]; subst. rewrite Forall_forall in Hall. unfold newer_eq in *.
  destruct (c_time y <? c_time c)%Z eqn:E; constructor; auto; apply Forall_forall.
  - intros z [<-|Hz]; [|specialize (Hall z Hz)]; lia.
  - intros z Hz. apply insert_sorted_In in Hz. destruct Hz as [->|Hz]; [lia | now apply Hall].
Qed.

Lemma fold_insert_sorted : forall l q,
  StronglySorted newer_eq q -> StronglySorted newer_eq (fold_left insert_sorted l q).
Proof.
  induction l as [|c l IH]; intros q Hq; cbn [fold_left]; [exact Hq|].
  apply IH, insert_sorted_sorted, Hq.
Qed.

(* sort.Search(len(q), func(i) q[i].When.Before(c.When)): on a sorted queue the
   predicate is monotone, and the index found is the length of the prefix of
   entries that are not older than c — what insert_sorted skips *)
Fixpoint first_older (q : list cinfo) (c : cinfo) : nat :=
  match q with
  | [] => O
  | x :: r => if (c_time x <? c_time c)%Z then O else S (first_older r c)
  end.

Lemma insert_sorted_at : forall q c,
  insert_sorted q c = firstn (first_older q c) q ++ c :: skipn (first_older q c) q.
Proof.
  induction q as [|y q IH]; intros c; cbn [insert_sorted first_older]; [reflexivity|].
  destruct (c_time y <? c_time c)%Z; cbn [firstn skipn app]; [reflexivity|].
  now rewrite IH.
Qed.

Lemma search_pred_monotone : forall q c, StronglySorted newer_eq q ->
  (forall x, In x (firstn (first_older q c) q) -> (c_time x <? c_time c)%Z = false) /\
  (forall x, In x (skipn (first_older q c) q) -> (c_time x <? c_time c)%Z = true).
Proof.
  induction q as [|y q IH]; intros c Hs; cbn [first_older].
  - split; intros x []; contradiction.
  - inversion Hs as [|? ? Hq Hall]; subst.
    destruct (c_time y <? c_time c)%Z eqn:E; cbn [firstn skipn].
    + split; [intros x []|].
      intros x [->|Hx]; [exact E|].
      rewrite Forall_forall in Hall. specialize (Hall x Hx). unfold newer_eq in Hall. lia.
    + destruct (IH c Hq) as [A B]. split.
      * intros x [->|Hx]; [exact E | now apply A].
      * exact B.
Qed.
