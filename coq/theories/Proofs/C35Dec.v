(* Proofs/C35Dec.v — fmt "%d" / strconv.Atoi: parse_int (dec_bytes z) = Some z
   for every 64-bit z. *)
From Coq Require Import List NArith ZArith Bool Lia Arith String Ascii.
From GoGit Require Import Base.Out Model.Packp.
Import ListNotations.

Definition is_digit (c : N) : bool := N.leb 48 c && N.leb c 57.

Lemma digit_ok m : (m < 10)%N -> (48 <=? 48 + m)%N && (48 + m <=? 57)%N = true.
Proof. intros H. apply andb_true_intro. split; apply N.leb_le; lia. Qed.

(* what a string of digits ds with value n does to the accumulator of parse_dec_go *)
Definition digits_of (ds : bytes) (n : N) : Prop :=
  ds <> [] /\ forallb is_digit ds = true /\
  forall r a, parse_dec_go (ds ++ r) a = parse_dec_go r (a * 10 ^ Z.of_nat (List.length ds) + Z.of_N n)%Z.

Lemma one_digit n : (n < 10)%N -> digits_of [(48 + n)%N] n.
Proof.
  intros H. pose proof (digit_ok n H) as D. repeat split; [discriminate|cbn [forallb]; unfold is_digit; now rewrite D|].
  intros r a. cbn [app parse_dec_go]. rewrite D. f_equal. cbn [List.length]. change (10 ^ Z.of_nat 1)%Z with 10%Z. lia.
Qed.

Lemma snoc_digit ds q m : digits_of ds q -> (m < 10)%N -> digits_of (ds ++ [(48 + m)%N]) (10 * q + m).
Proof.
  intros (Hne & Hd & Hp) Hm. pose proof (digit_ok m Hm) as D. repeat split; [destruct ds; discriminate| |].
  - rewrite forallb_app, Hd. cbn [forallb]. unfold is_digit. now rewrite D.
  - intros r a. rewrite <- app_assoc, Hp. cbn [app parse_dec_go]. rewrite D. f_equal.
    rewrite app_length, Nat2Z.inj_add, Z.pow_add_r by lia. cbn [List.length]. change (10 ^ Z.of_nat 1)%Z with 10%Z. lia.
Qed.

(* the digits printed by dec_digits *)
Lemma dec_digits_spec : forall f n acc, (n < 10 ^ N.of_nat (S f))%N ->
  exists ds, bytes_of_string (dec_digits (S f) n acc) = ds ++ bytes_of_string acc /\ digits_of ds n.
Proof.
  induction f as [|f IH]; intros n acc Hn.
  - assert (n < 10)%N as Hlt by (cbn in Hn; lia). cbn [dec_digits]. rewrite (N.div_small n 10 Hlt), (N.mod_small n 10 Hlt). cbn [N.eqb].
    exists [(48 + n)%N]. cbn [bytes_of_string app]. rewrite N_ascii_embedding by lia. split; [reflexivity|now apply one_digit].
  - change (dec_digits (S (S f)) n acc) with
      (let acc' := String (ascii_of_N (48 + n mod 10)) acc in if (n / 10 =? 0)%N then acc' else dec_digits (S f) (n / 10) acc').
    cbv zeta. pose proof (N.mod_lt n 10 ltac:(lia)) as Hm. destruct (N.eqb_spec (n / 10) 0) as [E|E].
    + assert (n < 10)%N as Hlt by (apply N.div_small_iff; [lia|exact E]). rewrite (N.mod_small n 10 Hlt).
      exists [(48 + n)%N]. cbn [bytes_of_string app]. rewrite N_ascii_embedding by lia. split; [reflexivity|now apply one_digit].
    + assert (n / 10 < 10 ^ N.of_nat (S f))%N as Hq.
      { apply N.div_lt_upper_bound; [lia|]. rewrite <- N.pow_succ_r'. now rewrite <- Nat2N.inj_succ. }
      destruct (IH (n / 10)%N (String (ascii_of_N (48 + n mod 10)) acc) Hq) as (ds & Hb & Hds).
      exists (ds ++ [(48 + n mod 10)%N]). rewrite Hb. cbn [bytes_of_string]. rewrite N_ascii_embedding, <- app_assoc by lia.
      split; [reflexivity|]. rewrite (N.div_mod n 10) at 2 by lia. now apply snoc_digit.
Qed.

Lemma size_pow10 n : (n < 10 ^ N.of_nat (S (N.to_nat (N.size n))))%N.
Proof.
  rewrite Nat2N.inj_succ, N2Nat.id.
  assert (n < 2 ^ N.size n)%N as H by (apply N.size_gt).
  eapply N.lt_le_trans; [exact H|]. etransitivity; [apply N.pow_le_mono_r; [lia|apply N.le_succ_diag_r]|].
  apply N.pow_le_mono_l. lia.
Qed.

Lemma dec_of_N_spec n : exists ds, bytes_of_string (dec_of_N n) = ds /\ ds <> [] /\ forallb is_digit ds = true /\
  parse_dec_go ds 0 = Some (Z.of_N n).
Proof.
  unfold dec_of_N. destruct (dec_digits_spec (N.to_nat (N.size n)) n EmptyString (size_pow10 n)) as (ds & Hb & Hne & Hd & Hp).
  exists ds. cbn [bytes_of_string] in Hb. rewrite app_nil_r in Hb. repeat split; auto.
  specialize (Hp [] 0%Z). rewrite app_nil_r in Hp. rewrite Hp. cbn [parse_dec_go]. f_equal; lia.
Qed.

Theorem parse_int_dec z : (- 2 ^ 63 <= z < 2 ^ 63)%Z -> parse_int (dec_bytes z) = Some z.
Proof.
  intros Hz. unfold dec_bytes, dec_of_Z. destruct z as [|p|p].
  - reflexivity.
  - destruct (dec_of_N_spec (Npos p)) as (ds & Hb & Hne & Hd & Hp). rewrite Hb.
    destruct ds as [|c ds]; [contradiction|].
    assert (48 <= c <= 57)%N as Hc.
    { cbn [forallb] in Hd. apply andb_prop in Hd. destruct Hd as [Hd _]. unfold is_digit in Hd. apply andb_prop in Hd.
      destruct Hd as [H1 H2]. apply N.leb_le in H1, H2. lia. }
    assert (((- 2 ^ 63 <=? Z.pos p) && (Z.pos p <? 2 ^ 63))%Z = true) as Hrange.
    { apply andb_true_intro. split; [apply Z.leb_le|apply Z.ltb_lt]; lia. }
    change (Z.of_N (N.pos p)) with (Z.pos p) in Hp.
    assert (c = 48 \/ c = 49 \/ c = 50 \/ c = 51 \/ c = 52 \/ c = 53 \/ c = 54 \/ c = 55 \/ c = 56 \/ c = 57)%N as C by lia.
    unfold parse_int.
    repeat (destruct C as [-> | C]; [cbv beta iota; rewrite Hp; cbv beta iota zeta; rewrite Hrange; reflexivity|]).
    subst c. cbv beta iota. rewrite Hp. cbv beta iota zeta. rewrite Hrange. reflexivity.
  - destruct (dec_of_N_spec (Npos p)) as (ds & Hb & Hne & Hd & Hp). cbn [bytes_of_string]. rewrite Hb.
    change (N_of_ascii "-"%char) with 45%N. unfold parse_int.
    destruct ds as [|c ds]; [contradiction|]. rewrite Hp. change (Z.of_N (N.pos p)) with (Z.pos p).
    change (- Z.pos p)%Z with (Z.neg p).
    assert (((- 2 ^ 63 <=? Z.neg p) && (Z.neg p <? 2 ^ 63))%Z = true) as ->; [|reflexivity].
    apply andb_true_intro. split; [apply Z.leb_le|apply Z.ltb_lt]; lia.
Qed.

(* a printed number is made of digits and "-", so it has no blank, no NL *)
Lemma dec_bytes_chars z : forallb (fun c => is_digit c || N.eqb c 45) (dec_bytes z) = true /\ dec_bytes z <> [].
Proof.
  unfold dec_bytes, dec_of_Z. destruct z as [|p|p].
  - split; [reflexivity|discriminate].
  - destruct (dec_of_N_spec (Npos p)) as (ds & -> & Hne & Hd & _). split; [|assumption].
    rewrite forallb_forall in *. intros x Hx. now rewrite (Hd x Hx).
  - destruct (dec_of_N_spec (Npos p)) as (ds & Hb & Hne & Hd & _). cbn [bytes_of_string]. rewrite Hb. split; [|discriminate].
    cbn [forallb]. change (N_of_ascii "-"%char) with 45%N. cbn. rewrite forallb_forall in *. intros x Hx. now rewrite (Hd x Hx).
Qed.
