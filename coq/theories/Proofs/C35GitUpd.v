(* Proofs/C35GitUpd.v — go-git's update-request is in git's documented grammar
   (Spec/GitProto.v git_updreq) and means the request. *)
From Coq Require Import List Arith NArith ZArith Bool Lia String.
From GoGit Require Import Base.Out Base.GoInt Gen.C34 Model.PktLine Model.C35Utf8 Model.Packp Spec.GitProto
  Proofs.C34Pkt Proofs.C35Base Proofs.C35Utf8 Proofs.C35U Proofs.C35Msgs Proofs.C35Caps Proofs.C35Dec Proofs.C35Adv Proofs.C35Upd
  Proofs.C35Git Proofs.C35GitV0.
Import ListNotations.

Definition cmd_sized (hexsz : nat) (c : bytes * hash * hash) : bool := let '(_, o, n) := c in sized hexsz o && sized hexsz n.

Lemma last_tokc_nonl s : s <> [] -> forallb tokc s = true -> N.eqb NL (last s 0%N) = false.
Proof.
  intros Hne H. pose proof (tokc_range _ (forallb_last tokc s Hne H)). apply N.eqb_neq. unfold NL. lia.
Qed.

Lemma git_command_fmt hexsz c : cmd_ok c = true -> cmd_sized hexsz c = true -> git_command hexsz (fmt_cmd c) = Some c /\ chomp (fmt_cmd c) = fmt_cmd c.
Proof.
  destruct c as [[n o] nw]. unfold cmd_sized. intros H Hs. destruct (cmd_ok_spec n o nw H) as (Hn & Ho & Hnw).
  apply andb_prop in Hs. destruct Hs as [So Sn]. destruct (name_props n Hn) as (Hne & _ & _ & _).
  unfold fmt_cmd. split.
  - unfold git_command. change (hash_str o ++ [SP] ++ hash_str nw ++ [SP] ++ n) with (hash_str o ++ SP :: (hash_str nw ++ SP :: n)).
    rewrite (oid_sp_str hexsz o _ So), (oid_sp_str hexsz nw n Sn). destruct n; [contradiction|reflexivity].
  - apply chomp_id.
    rewrite !app_assoc. rewrite (last_app_ne _ n _ Hne). apply last_tokc_nonl; [exact Hne|].
    unfold cmd_name_ok in Hn. destruct n; [contradiction|exact Hn].
Qed.

Lemma git_cmds_step hexsz c r acc : cmd_ok c = true /\ cmd_sized hexsz c = true ->
  git_cmds hexsz (PData (fmt_cmd c) :: r) acc = git_cmds hexsz r (acc ++ [c]).
Proof. intros [H Hs]. cbn [git_cmds]. destruct (git_command_fmt hexsz c H Hs) as [Hg Hc]. now rewrite Hc, Hg. Qed.

Lemma cap_words_sp s : cap_words (SP :: s) = cap_words s.
Proof. unfold cap_words. cbn [split_on]. rewrite N.eqb_refl. reflexivity. Qed.

Lemma kw_shallow_cmd hexsz c x : cmd_ok c = true -> kw_oid hexsz "shallow" (fmt_cmd c ++ x) = None.
Proof.
  intros H. unfold kw_oid. change (B "shallow" ++ [SP]) with (115%N :: skipn 1 (B "shallow" ++ [SP])).
  now rewrite (fmt_cmd_no_prefix 115 _ c x eq_refl H).
Qed.

Lemma git_updreq_shallow hexsz h r acc : sized hexsz h = true ->
  git_updreq_go hexsz (PData (B "shallow " ++ hash_str h) :: r) acc = git_updreq_go hexsz r (acc ++ [h]).
Proof.
  intros H. destruct (sized_spec hexsz h H) as [Hok _]. cbn [git_updreq_go].
  rewrite chomp_id, (kw_oid_str hexsz "shallow" (B "shallow ") h eq_refl H); [reflexivity|].
  rewrite (last_app_ne _ (hash_str h) _ (hash_str_ne h Hok)). now destruct (hash_str_nospace h Hok).
Qed.

Definition ur_abs (u : updreq) : gupdreq := mkgupdreq (cap_tokens (ur_caps u)) (ur_cmds u) (ur_shallows u).
Definition ur_git_ok (hexsz : nat) (u : updreq) : bool := forallb (cmd_sized hexsz) (ur_cmds u) && forallb (sized hexsz) (ur_shallows u).

Theorem git_updreq_enc hexsz u ps : ur_ok u = true -> ur_git_ok hexsz u = true -> ur_encode u = Some ps ->
  git_updreq hexsz ps = Some (ur_abs u).
Proof.
  unfold ur_ok, ur_git_ok. intros H G He.
  apply andb_prop in H. destruct H as [H _]. apply andb_prop in H. destruct H as [H Hsh]. apply andb_prop in H. destruct H as [Hcaps Hcmds].
  apply andb_prop in G. destruct G as [Gc Gs].
  unfold ur_encode in He. destruct (ur_cmds u) as [|c0 cs] eqn:Ec; [discriminate|].
  destruct (existsb cmd_invalid (c0 :: cs)); [discriminate|].
  apply Some_inj in He. subst ps.
  cbn [forallb] in Hcmds, Gc. apply andb_prop in Hcmds, Gc. destruct Hcmds as [Hc0 Hcs], Gc as [Gc0 Gcs].
  unfold git_updreq. rewrite (lines_acc (git_updreq_go hexsz) _ (fun a => a) _ (git_updreq_shallow hexsz)) by now apply forallb_Forall.
  cbn [app git_updreq_go].
  fold (cmd_caps (ur_caps u)). change (fmt_cmd c0 ++ [NUL] ++ cmd_caps (ur_caps u)) with (fmt_cmd c0 ++ NUL :: cmd_caps (ur_caps u)).
  rewrite (chomp_id _ (cmd_line_nonl _ _ Hcaps)).
  rewrite (kw_shallow_cmd hexsz c0 _ Hc0), (cut_app NUL _ _ (fmt_cmd_nonul _ Hc0)).
  destruct (git_command_fmt hexsz c0 Hc0 Gc0) as [Hg _]. rewrite Hg, (lines_acc (git_cmds hexsz) _ (fun a => a) _ (git_cmds_step hexsz))
    by (apply Forall_and; now apply forallb_Forall).
  cbn [app git_cmds].
  unfold ur_abs. rewrite Ec. do 2 f_equal.
  rewrite <- (cap_words_encode _ Hcaps). unfold cmd_caps. pose proof (cap_encode_nonl _ Hcaps) as Hl.
  destruct (cap_encode (ur_caps u)) as [|n l]; [reflexivity|].
  rewrite chomp_id; [apply cap_words_sp|].
  change (SP :: n :: l) with ([SP] ++ n :: l). now rewrite last_app_ne by discriminate.
Qed.
