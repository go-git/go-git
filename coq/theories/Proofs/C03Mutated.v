(* Proofs/C03Mutated.v — matchesSource compares exactly the exported fields
   other than Signature / SignatureSHA256: EncodeWithoutSignature takes the
   raw-source path iff the decoded-again source has the same such fields; in
   particular a freshly decoded object takes it. *)
From Coq Require Import List NArith ZArith Bool Lia ZifyBool ZifyNat ZifyN.
From GoGit Require Import Base.Out Model.ObjLines Model.Ident Model.Commit Model.Tag Model.SigPayload
     Proofs.ObjLinesFacts Proofs.C02Dec.
Import ListNotations.
Local Open Scope N_scope.

Lemma digits_val_pad2 n : digits_val (pad2 n) = Some n.
Proof.
  unfold pad2. destruct (n <? 10); [|apply digits_val_print_dec].
  pose proof (digits_val_print_dec n) as H. unfold digits_val in *. cbn [digits_acc].
  replace (is_digit 48) with true by reflexivity.
  destruct (print_dec n) eqn:E; [now apply print_dec_nonempty in E|]. exact H.
Qed.

Lemma pad2_inj a b : pad2 a = pad2 b -> a = b.
Proof. intros H. pose proof (digits_val_pad2 a) as Ha. rewrite H, digits_val_pad2 in Ha. now inversion Ha. Qed.

Lemma app_eq_len {A} (u1 v1 u2 v2 : list A) :
  u1 ++ v1 = u2 ++ v2 -> List.length v1 = List.length v2 -> u1 = u2 /\ v1 = v2.
Proof.
  revert u2. induction u1 as [|x u1 IH]; intros [|y u2] H L; cbn in *.
  - now split.
  - subst v1. cbn in L. rewrite app_length in L. lia.
  - subst v2. cbn in L. rewrite app_length in L. lia.
  - inversion H; subst. destruct (IH _ H2 L) as [-> ->]. now split.
Qed.

Lemma pad2_mod_len a : List.length (pad2 (a mod 60)) = 2%nat.
Proof. pose proof (N.mod_lt a 60 ltac:(lia)). rewrite pad2_two by lia. reflexivity. Qed.

Lemma fmt_zone_inj x y : fmt_zone x = fmt_zone y -> x = y.
Proof.
  unfold fmt_zone. intros H. inversion H as [[Hs Hr]].
  destruct (app_eq_len _ _ _ _ Hr) as [H1 H2]; [now rewrite !pad2_mod_len|].
  apply pad2_inj in H1, H2.
  pose proof (N.div_mod (Z.to_N (Z.abs x)) 60 ltac:(lia)). pose proof (N.div_mod (Z.to_N (Z.abs y)) 60 ltac:(lia)).
  assert (Z.to_N (Z.abs x) = Z.to_N (Z.abs y)) by lia.
  destruct (x <? 0)%Z eqn:Ex, (y <? 0)%Z eqn:Ey; try discriminate; lia.
Qed.

Lemma ident_eqb_eq a b : ident_eqb a b = true <-> a = b.
Proof.
  unfold ident_eqb. split; [|intros ->; now rewrite !beqb_refl, Z.eqb_refl].
  intros H. apply andb_true_iff in H as [H H4]. apply andb_true_iff in H as [H H3].
  apply andb_true_iff in H as [H1 H2]. apply beqb_eq in H1, H2, H4. apply Z.eqb_eq in H3. apply fmt_zone_inj in H4.
  destruct a, b. cbn in *. now subst.
Qed.

Lemma list_eqb_eq {A} (eq : A -> A -> bool) : (forall x y, eq x y = true <-> x = y) ->
  forall a b, list_eqb eq a b = true <-> a = b.
Proof.
  intros Heq. induction a as [|x a IH]; intros [|y b]; cbn; split; try discriminate; try reflexivity; intros H.
  - apply andb_true_iff in H as [H1 H2]. apply Heq in H1. apply IH in H2. now subst.
  - inversion H; subst. apply andb_true_iff. split; [now apply Heq|now apply IH].
Qed.

(* the two branches of EncodeWithoutSignature, the test given as a proposition *)
Lemma if_cases {A} (b : bool) (P : Prop) (x y : A) : (b = true <-> P) ->
  (P -> (if b then x else y) = x) /\ (~ P -> (if b then x else y) = y).
Proof. intros H. destruct b; split; intros HP; try reflexivity; [destruct HP|apply H in HP; discriminate]. now apply H. Qed.

(* matchesSource: the source decodes, and to an object that passes the field comparison *)
Lemma decoded_iff {A} (d : result A) (eqb : A -> bool) (R : A -> Prop) : (forall f, eqb f = true <-> R f) ->
  match d with Ok f => true && eqb f | Err _ => false end = true <-> exists f, d = Ok f /\ R f.
Proof.
  intros H. destruct d as [f|e]; cbn [andb].
  - rewrite H. split; [intros HR; now exists f|intros [f' [Hf HR]]; now inversion Hf; subst].
  - split; [discriminate|intros [f [Hf _]]; discriminate].
Qed.

(* a commit with both signature fields blanked *)
Definition without_sigs (c : commit) : commit := set_sig (set_sig256 c []) [].

Lemma commit_fields_eqb_eq c f : commit_fields_eqb c f = true <-> without_sigs c = without_sigs f.
Proof.
  unfold commit_fields_eqb, without_sigs. destruct c as [t1 p1 a1 c1 e1 x1 s1 z1 m1], f as [t2 p2 a2 c2 e2 x2 s2 z2 m2].
  cbn [c_tree c_parents c_author c_committer c_enc c_extra c_sig c_sig256 c_msg set_sig set_sig256].
  assert (Hx : forall x y : bytes * bytes, (beqb (fst x) (fst y) && beqb (snd x) (snd y)) = true <-> x = y).
  { intros [k1 v1] [k2 v2]. cbn. rewrite andb_true_iff, !beqb_eq. split; [intros [-> ->]; reflexivity|intros H; inversion H; now split]. }
  rewrite !andb_true_iff, !ident_eqb_eq, !beqb_eq, (list_eqb_eq beqb beqb_eq), (list_eqb_eq _ Hx).
  split.
  - intros [[[[[[-> ->] ->] ->] ->] ->] ->]. reflexivity.
  - intros H. inversion H. subst. repeat split.
Qed.

Theorem matches_source_iff src c :
  commit_matches_source src true c = true <-> exists f, decode_commit src = Ok f /\ without_sigs c = without_sigs f.
Proof. exact (decoded_iff (decode_commit src) (commit_fields_eqb c) _ (commit_fields_eqb_eq c)). Qed.

Theorem matches_source_fresh : forall raw c,
  decode_commit raw = Ok c -> commit_matches_source raw true c = true.
Proof. intros raw c H. apply matches_source_iff. now exists c. Qed.

Theorem payload_fresh : forall raw c,
  decode_commit raw = Ok c -> commit_payload raw true c = strip_header_sigs raw.
Proof. intros raw c H. unfold commit_payload. now rewrite (matches_source_fresh _ _ H). Qed.

Definition tag_without_sigs (t : tag) : tag :=
  mk_tag (t_target t) (t_type t) (t_name t) (t_tagger t) [] (t_msg t) [].

Lemma tag_fields_eqb_eq t f : tag_fields_eqb t f = true <-> tag_without_sigs t = tag_without_sigs f.
Proof.
  unfold tag_fields_eqb, tag_without_sigs. destruct t as [a1 b1 c1 d1 e1 f1 g1], f as [a2 b2 c2 d2 e2 f2 g2].
  cbn [t_target t_type t_name t_tagger t_sig256 t_msg t_sig].
  rewrite !andb_true_iff, !ident_eqb_eq, !beqb_eq. split.
  - intros [[[[-> ->] ->] ->] ->]. reflexivity.
  - intros H. inversion H. subst. repeat split.
Qed.

Theorem tag_matches_source_iff src t :
  tag_matches_source src true t = true <-> exists f, decode_tag src = Ok f /\ tag_without_sigs t = tag_without_sigs f.
Proof. exact (decoded_iff (decode_tag src) (tag_fields_eqb t) _ (tag_fields_eqb_eq t)). Qed.

Theorem tag_matches_source_fresh : forall raw t,
  decode_tag raw = Ok t -> tag_matches_source raw true t = true.
Proof. intros raw t H. apply tag_matches_source_iff. now exists t. Qed.

Theorem tag_payload_fresh : forall raw t,
  decode_tag raw = Ok t -> tag_payload raw true t = strip_tag raw.
Proof. intros raw t H. unfold tag_payload. now rewrite (tag_matches_source_fresh _ _ H). Qed.
