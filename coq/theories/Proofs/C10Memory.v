(* Proofs/C10Memory.v — MemoryIndex (Model/Idx.v, the mem_ functions) on the index
   Decoder.Decode builds from git's idx layout ([spec_index], Proofs/C10Decode.v):
   the bucket of each first byte, findHashIndex, getOffset, getCRC32, Contains,
   FindOffset (with its offset cache), FindCRC32, Entries, EntriesByOffset. *)
From Coq Require Import List NArith ZArith Bool Lia ZifyBool ZifyNat ZifyN.
From GoGit Require Import Base.Out Model.PackBytes Model.Idx Spec.IdxFormat
  Proofs.C10Search Proofs.C10Bytes Proofs.C10Table Proofs.C10Layout Proofs.C10Lookup Proofs.C10Lazy
  Proofs.C10Splits Proofs.C10Decode.
Import ListNotations.
Local Open Scope N_scope.

Lemma bucket_counts_nth : forall l p k,
  (k < List.length l)%nat ->
  nth_error (bucket_counts l p) k = Some (nth k l 0 - (if Nat.eqb k 0 then p else nth (k - 1) l 0)).
Proof.
  induction l as [|x l IH]; intros p k Hk; cbn in Hk; [lia|].
  destruct k as [|k]; cbn [bucket_counts nth_error nth Nat.eqb]; [reflexivity|].
  rewrite IH by lia. destruct k as [|k]; cbn [Nat.eqb nth Nat.sub]; [reflexivity|].
  now rewrite Nat.sub_0_r.
Qed.

Lemma bucket_counts_prefix : forall l p k,
  nondecN p l -> (k <= List.length l)%nat ->
  fold_right N.add 0 (firstn k (bucket_counts l p)) = (if Nat.eqb k 0 then p else nth (k - 1) l 0) - p.
Proof.
  induction l as [|x l IH]; intros p k Hn Hk; destruct k as [|k]; cbn in Hk; try lia; try (cbn; lia).
  destruct Hn as [Hp Hn]. cbn [bucket_counts firstn fold_right Nat.eqb]. rewrite (IH x k Hn) by lia.
  rewrite Nat.sub_succ, Nat.sub_0_r. destruct k as [|k]; cbn [Nat.eqb nth]; [lia|].
  rewrite Nat.sub_succ, Nat.sub_0_r. pose proof (nondecN_nth l x k Hn ltac:(lia)). lia.
Qed.

Lemma zip_map_nth {A B} (f g : list A -> bytes) (h : list B -> bytes) :
  forall (la : list (list A)) (lb : list (list B)) r,
  List.length la = List.length lb -> (r < List.length la)%nat ->
  nth r (zip_buckets (map f la) (map g la) (map h lb)) emptyB
  = mkB (f (nth r la [])) (h (nth r lb [])) (g (nth r la [])).
Proof.
  intros la lb r Hl Hr. rewrite zip_buckets_nth by (rewrite !map_length; lia).
  now rewrite (nth_map_N f la r []), (nth_map_N g la r []), (nth_map_N h lb r []) by lia.
Qed.

Lemma zip_map_length {A B} (f g : list A -> bytes) (h : list B -> bytes) :
  forall (la : list (list A)) (lb : list (list B)),
  List.length la = List.length lb -> List.length (zip_buckets (map f la) (map g la) (map h lb)) = List.length la.
Proof. intros la lb Hl. rewrite zip_buckets_length; rewrite !map_length; auto. Qed.

Section Memory.
Variable hs : nat.
Variable Hsz : nat -> bytes -> bytes.
Variable tbl : list entry.
Variable pack sum : bytes.
Hypothesis WF : wf_tbl hs tbl.
Hypothesis Hpack : List.length pack = hs.

Let H := Hsz hs.
Let n : N := N.of_nat (List.length tbl).
Let HS : N := N.of_nat hs.
Let m := spec_index tbl pack sum.
Set Default Proof Using "hs Hsz tbl pack sum WF Hpack".

Lemma counts_nth k : (k < 256)%nat -> nth_error (counts tbl) k = Some (cnt tbl k).
Proof.
  intros Hk. unfold counts. now rewrite bucket_counts_nth, fanout_nth, fanout_prev by (rewrite ?fanout_length; exact Hk).
Qed.

Lemma counts_prefix k : (k < 256)%nat -> fold_right N.add 0 (firstn k (counts tbl)) = Fp tbl k.
Proof.
  intros Hk. unfold counts.
  rewrite (bucket_counts_prefix (fanout_of tbl) 0 k (fanout_nondec tbl)), fanout_prev by (rewrite ?fanout_length; lia).
  lia.
Qed.

Lemma sizes_sum' : nsum (sizes tbl) = List.length tbl.
Proof. exact (sizes_sum hs tbl WF). Qed.

Lemma bk_lengths :
  List.length (map (flat_map e_hash) (splits (sizes tbl) tbl)) = List.length (sizes tbl) /\
  List.length (map (flat_map (fun e => be32 (e_crc e))) (splits (sizes tbl) tbl)) = List.length (sizes tbl) /\
  List.length (map (flat_map be32) (splits (sizes tbl) (codes tbl))) = List.length (sizes tbl).
Proof. rewrite !map_length, !splits_length. auto. Qed.

Definition G (k : nat) : list entry := seg tbl (Fp tbl k) (cnt tbl k).
Definition Cg (k : nat) : list N := seg (codes tbl) (Fp tbl k) (cnt tbl k).
Definition bucket_of (k : nat) : bucket :=
  mkB (flat_map e_hash (G k)) (flat_map be32 (Cg k)) (flat_map (fun e => be32 (e_crc e)) (G k)).

Lemma bucket_some k : (k < 256)%nat -> cnt tbl k <> 0 ->
  exists r, fmap_at m k = Some r /\ r < N.of_nat (List.length (m_bk m)) /\ nthN (m_bk m) r emptyB = bucket_of k.
Proof.
  intros Hk Hc.
  destruct (bucket_of_count (counts tbl) tbl 0 k (cnt tbl k) (counts_nth k Hk) Hc) as (r & R1 & R2 & R3).
  destruct (bucket_of_count (counts tbl) (codes tbl) 0 k (cnt tbl k) (counts_nth k Hk) Hc) as (r' & R1' & R2' & R3').
  rewrite R1 in R1'. assert (Er : r' = r) by (inversion R1'; lia). subst r'.
  rewrite N.add_0_l in R1. rewrite counts_prefix in R2, R2' by exact Hk.
  assert (Hl : List.length (splits (nz_sizes (counts tbl)) tbl) = List.length (splits (nz_sizes (counts tbl)) (codes tbl)))
    by now rewrite !splits_length.
  assert (Hr : (N.to_nat r < List.length (splits (nz_sizes (counts tbl)) tbl))%nat) by (rewrite splits_length; lia).
  exists r. split; [exact R1|]. split.
  - unfold m, spec_index, sizes. cbn [m_bk]. rewrite (zip_map_length _ _ _ _ _ Hl), splits_length. exact R3.
  - unfold m, spec_index, sizes, nthN. cbn [m_bk]. rewrite (zip_map_nth _ _ _ _ _ _ Hl Hr).
    rewrite R2, R2'. reflexivity.
Qed.

Lemma bucket_none k : (k < 256)%nat -> cnt tbl k = 0 -> fmap_at m k = None.
Proof.
  intros Hk Hc. unfold fmap_at, m, spec_index. cbn [m_fmap].
  apply fmap_of_counts_zero. rewrite counts_nth by exact Hk. now rewrite Hc.
Qed.

Lemma bucket_fits k : Fp tbl k + cnt tbl k <= N.of_nat (List.length tbl).
Proof. pose proof (F_mono tbl k). pose proof (F_le tbl k). unfold cnt. lia. Qed.

Lemma G_len k : N.of_nat (List.length (G k)) = cnt tbl k.
Proof. apply seg_len, bucket_fits. Qed.

Lemma Cg_len k : N.of_nat (List.length (Cg k)) = cnt tbl k.
Proof. apply seg_len. unfold codes. rewrite off32_codes_length. apply bucket_fits. Qed.

Lemma pos_lt k i : i < cnt tbl k -> Fp tbl k + i < n.
Proof. intros Hi. pose proof (F_le tbl k). unfold cnt, n in *. lia. Qed.

Lemma name_at_ok k i : i < cnt tbl k ->
  name_at hs (bucket_of k) i = e_hash (nth (N.to_nat (Fp tbl k + i)) tbl d0).
Proof.
  intros Hi. unfold name_at, bucket_of. cbn [b_names]. rewrite (record_at0 e_hash (N.of_nat hs) (G k) i d0).
  - unfold G. now rewrite seg_nth.
  - intros e He. apply (blen_hash WF), (seg_in tbl _ _ e He).
  - now rewrite G_len.
Qed.

Lemma crc_at_ok k i : i < cnt tbl k ->
  mem_get_crc (bucket_of k) i = e_crc (nth (N.to_nat (Fp tbl k + i)) tbl d0).
Proof.
  intros Hi. unfold mem_get_crc, bucket_of. cbn [b_crc32].
  rewrite N.mul_comm, (record_at0 (fun e => be32 (e_crc e)) 4 (G k) i d0); [|auto using blen_be32|now rewrite G_len].
  unfold G. rewrite seg_nth by exact Hi. apply get32_be32', (wf_crc _ _ WF), nth_in, pos_lt, Hi.
Qed.

Lemma offset_at_ok k i : i < cnt tbl k ->
  mem_get_offset m (bucket_of k) i = Ok (e_off (nth (N.to_nat (Fp tbl k + i)) tbl d0)).
Proof.
  intros Hi. pose proof (pos_lt k i Hi) as Hp.
  unfold mem_get_offset, bucket_of. cbn [b_off32]. change O64MASK with P31.
  rewrite (N.mul_comm 4 i), (record_at0 be32 4 (Cg k) i 0); [|auto using blen_be32|now rewrite Cg_len].
  unfold Cg. rewrite seg_nth by exact Hi. unfold codes.
  destruct (code_cases WF _ Hp) as (Hc & Ho & [[E0 Ec]|(E1 & Hj & Ev)]); rewrite get32_be32' by exact Hc.
  - now rewrite E0, Ec.
  - apply N.eqb_neq in E1. rewrite E1. unfold m, spec_index. cbn [m_off64]. rewrite blen_O64.
    replace ((n_big tbl * 8 <? 8) || (n_big tbl * 8 - 8 <? 8 * _)) with false by lia.
    unfold S_O64. rewrite N.mul_comm, (record_at0 be64 8 (big_offsets tbl) _ 0);
      [|auto using blen_be64|now rewrite big_offsets_length].
    rewrite get64_be64'; rewrite Ev; [reflexivity|exact Ho].
Qed.

Lemma entry_at_ok k i : i < cnt tbl k ->
  mem_entry_at hs m (bucket_of k) i = Ok (nth (N.to_nat (Fp tbl k + i)) tbl d0).
Proof.
  intros Hi. unfold mem_entry_at. rewrite offset_at_ok, name_at_ok, crc_at_ok by exact Hi.
  now destruct (nth (N.to_nat (Fp tbl k + i)) tbl d0).
Qed.

Lemma bucket_n_ok k : bucket_n (bucket_of k) = cnt tbl k.
Proof.
  unfold bucket_n, bucket_of. cbn [b_off32].
  rewrite (blen_flat_map be32 4) by auto using blen_be32. rewrite Cg_len. lia.
Qed.

Lemma mem_find_spec h : wf_hash hs h ->
  match mem_find hs m h with
  | (Found ib, r) => exists k, ib < cnt tbl k /\ nthN (m_bk m) r emptyB = bucket_of k /\
                               lookup tbl h = Some (nth (N.to_nat (Fp tbl k + ib)) tbl d0)
  | (NotFound, _) => lookup tbl h = None
  | _ => False
  end.
Proof.
  intros Hh. apply wf_hash_hd in Hh.
  set (k := first_byte h). assert (Hf : (k < 256)%nat) by (unfold k, first_byte; lia).
  pose proof (F_mono tbl k) as Hm. unfold mem_find. fold k.
  destruct (N.eq_dec (cnt tbl k) 0) as [Hc|Hc].
  - rewrite (bucket_none k Hf Hc). apply (lookup_none_bucket WF h Hh). fold k. unfold cnt in Hc. intros; lia.
  - destruct (bucket_some k Hf Hc) as (r & R1 & R2 & R3). rewrite R1.
    replace (N.of_nat (List.length (m_bk m)) <=? r) with false by lia.
    rewrite R3, bucket_n_ok. replace (cnt tbl k =? 0) with false by lia.
    set (P := fun mid => Some (bytes_cmp h (name_at hs (bucket_of k) mid))).
    assert (Pv : forall i, 0 <= i -> i < cnt tbl k ->
                 P i = Some (bytes_cmp h (e_hash (nth (N.to_nat (Fp tbl k + i)) tbl d0)))).
    { intros i _ Hi. unfold P. now rewrite name_at_ok. }
    pose proof (search_lookup WF h (Fp tbl k) 0 (cnt tbl k) P _ Hh (N.add_0_r _) ltac:(unfold cnt, k in *; lia) Pv
                  (bs_do_fuel P (cnt tbl k) ltac:(lia))) as SL.
    destruct (bs_do _ P 0 (cnt tbl k)); try exact SL. exists k. split; [lia|]. split; [exact R3|apply SL].
Qed.

Theorem mem_contains_map h : wf_hash hs h ->
  mem_contains hs m h = Ok (match lookup tbl h with Some _ => true | None => false end).
Proof.
  intros Hh. unfold mem_contains. pose proof (mem_find_spec h Hh) as S.
  destruct (mem_find hs m h) as [[ib| | |] r]; try contradiction; [|now rewrite S].
  destruct S as (k & _ & _ & ->). reflexivity.
Qed.

Theorem mem_find_offset_map st h : wf_hash hs h ->
  fst (mem_find_offset hs m st h) =
    match lookup tbl h with Some e => Ok (to_i64 (e_off e)) | None => Err ENotFound end.
Proof.
  intros Hh. unfold mem_find_offset. pose proof (mem_find_spec h Hh) as S.
  destruct (mem_find hs m h) as [[ib| | |] r]; try contradiction; [|now rewrite S].
  destruct S as (k & Hi & -> & ->). now rewrite offset_at_ok.
Qed.

Theorem mem_find_crc_map h : wf_hash hs h ->
  mem_find_crc hs m h =
    match lookup tbl h with Some e => Ok (e_crc e) | None => Err ENotFound end.
Proof.
  intros Hh. unfold mem_find_crc. pose proof (mem_find_spec h Hh) as S.
  destruct (mem_find hs m h) as [[ib| | |] r]; try contradiction; [|now rewrite S].
  destruct S as (k & Hi & -> & ->). now rewrite crc_at_ok.
Qed.

Lemma mem_bucket_entries_ok k : forall c s,
  s + N.of_nat c <= cnt tbl k ->
  mem_bucket_entries hs m (bucket_of k) s c = (firstn c (skipn (N.to_nat (Fp tbl k + s)) tbl), None).
Proof.
  induction c as [|c IH]; intros s Hs; cbn [mem_bucket_entries]; [now rewrite firstn_O|].
  rewrite entry_at_ok, IH, (firstn_skipn_S tbl (Fp tbl k + s) c d0), N.add_assoc; auto; try lia.
  apply pos_lt. lia.
Qed.

Lemma fan_at_ok k : (k < 256)%nat -> fan_at m k = F tbl k.
Proof. apply fanout_nth. Qed.

Lemma mem_entries_from_ok : forall j k, (k + j = 256)%nat ->
  mem_entries_from hs m (seq k j) (Fp tbl k) = (skipn (N.to_nat (Fp tbl k)) tbl, None).
Proof.
  induction j as [|j IH]; intros k Hk; cbn [seq mem_entries_from].
  - assert (k = 256%nat) by lia. subst k. change (Fp tbl 256) with (F tbl 255).
    rewrite (count_all WF), Nat2N.id. now rewrite skipn_all.
  - assert (Hk' : (k < 256)%nat) by lia. rewrite fan_at_ok by exact Hk'.
    pose proof (F_mono tbl k) as Hm. pose proof (Fp_S tbl k) as ES.
    destruct (F tbl k <=? Fp tbl k) eqn:El.
    + assert (E : Fp tbl (S k) = Fp tbl k) by lia. rewrite <- E. apply IH. lia.
    + assert (Hc : cnt tbl k <> 0) by (unfold cnt; lia).
      destruct (bucket_some k Hk' Hc) as (r & R1 & R2 & R3). rewrite R1, R3.
      change (N.to_nat (F tbl k - Fp tbl k)) with (N.to_nat (cnt tbl k)).
      rewrite mem_bucket_entries_ok by lia. rewrite N.add_0_r.
      rewrite <- ES, IH, ES by lia. f_equal.
      rewrite <- (firstn_skipn (N.to_nat (cnt tbl k)) (skipn (N.to_nat (Fp tbl k)) tbl)) at 2.
      f_equal. rewrite skipn_add. f_equal. unfold cnt. lia.
Qed.

Theorem mem_entries_map : mem_entries hs m = (tbl, None).
Proof. exact (mem_entries_from_ok 256 0 eq_refl). Qed.

Theorem mem_by_offset_map : mem_by_offset hs m = (sort_by_off tbl, None).
Proof. unfold mem_by_offset. now rewrite mem_entries_map. Qed.

Theorem mem_count_map : mem_count m = n.
Proof. unfold mem_count. change (NFANOUT - 1)%nat with 255%nat. rewrite fan_at_ok by lia. exact (count_all WF). Qed.

End Memory.
