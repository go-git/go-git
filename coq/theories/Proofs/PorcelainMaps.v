(* Proofs/PorcelainMaps.v — lemmas about the association-list maps of
   Model/Porcelain.v and the folds the porcelain model is made of. *)
From Coq Require Import List NArith ZArith Bool.
From GoGit Require Import Base.Out Model.Porcelain.
Import ListNotations.
Local Open Scope N_scope.
Arguments beqb : simpl never.

Lemma bcmp_eq : forall a b, bcmp a b = Eq <-> a = b.
Proof.
  induction a as [|x a IH]; destruct b as [|y b]; cbn; split; intro H; try reflexivity; try discriminate.
  - destruct (N.compare x y) eqn:E; try discriminate.
    apply N.compare_eq in E. apply IH in H. now subst.
  - inversion H; subst. rewrite N.compare_refl. now apply IH.
Qed.

Lemma beqb_true : forall a b, beqb a b = true <-> a = b.
Proof.
  intros a b. unfold beqb. split.
  - destruct (bcmp a b) eqn:E; try discriminate. intros _. now apply bcmp_eq.
  - intros ->. now rewrite (proj2 (bcmp_eq b b) eq_refl).
Qed.

Lemma beqb_refl : forall a, beqb a a = true.
Proof. intro a. now apply beqb_true. Qed.

Lemma beqb_false : forall a b, beqb a b = false <-> a <> b.
Proof.
  intros a b. split.
  - intros H E. apply beqb_true in E. congruence.
  - intro H. destruct (beqb a b) eqn:E; [apply beqb_true in E; contradiction | reflexivity].
Qed.

Lemma beqb_sym : forall a b, beqb a b = beqb b a.
Proof.
  intros a b. destruct (beqb a b) eqn:E.
  - apply beqb_true in E. subst. now rewrite beqb_refl.
  - symmetry. apply beqb_false. apply beqb_false in E. congruence.
Qed.

Section Maps.
Context {A : Type}.
Implicit Types (m : amap A) (p q : bytes).

Lemma lookup_insert : forall m p q (v : A),
  lookup p (insert q v m) = if beqb p q then Some v else lookup p m.
Proof.
  induction m as [|[k w] r IH]; intros p q v; cbn; [reflexivity|].
  destruct (bcmp q k) eqn:E; cbn; [| reflexivity |].
  - apply bcmp_eq in E. subst k. now destruct (beqb p q).
  - rewrite IH. destruct (beqb p k) eqn:Ek, (beqb p q) eqn:Eq; try reflexivity.
    (* p = k and p = q, but q sorts after k *)
    apply beqb_true in Ek, Eq. subst. now rewrite (proj2 (bcmp_eq _ _) eq_refl) in E.
Qed.

Lemma lookup_remove : forall m p q, lookup p (remove q m) = if beqb p q then None else lookup p m.
Proof.
  induction m as [|[k w] r IH]; intros p q; [now destruct (beqb p q)|].
  change (remove q ((k, w) :: r)) with (if negb (beqb q k) then (k, w) :: remove q r else remove q r).
  destruct (beqb q k) eqn:E; cbn [negb lookup]; rewrite IH.
  - apply beqb_true in E. subst k. now destruct (beqb p q).
  - destruct (beqb p k) eqn:Ek, (beqb p q) eqn:Eq; try reflexivity.
    apply beqb_true in Ek, Eq. subst. now rewrite beqb_refl in E.
Qed.

Lemma lookup_insert_eq : forall m p (v : A), lookup p (insert p v m) = Some v.
Proof. intros. now rewrite lookup_insert, beqb_refl. Qed.

Lemma lookup_insert_neq : forall m p q (v : A), p <> q -> lookup p (insert q v m) = lookup p m.
Proof. intros m p q v H. apply beqb_false in H. now rewrite lookup_insert, H. Qed.

Lemma lookup_some_in_keys : forall m p (v : A), lookup p m = Some v -> In p (keys m).
Proof.
  induction m as [|[k w] r IH]; intros p v; cbn; [discriminate|].
  destruct (beqb p k) eqn:E.
  - apply beqb_true in E. now left.
  - intro H. right. eapply IH; eauto.
Qed.

Lemma lookup_in : forall m p (v : A), lookup p m = Some v -> In (p, v) m.
Proof.
  induction m as [|[q w] r IH]; intros p v; cbn; [discriminate|].
  destruct (beqb p q) eqn:E.
  - apply beqb_true in E. subst. intro H. inversion H. now left.
  - intro H. right. now apply IH.
Qed.

Lemma lookup_none_not_in_keys : forall m p, lookup p m = None -> ~ In p (keys m).
Proof.
  induction m as [|[k w] r IH]; intros p; cbn; [tauto|].
  destruct (beqb p k) eqn:E; [discriminate|].
  intros H [H1|H1]; [subst; now rewrite beqb_refl in E | now apply (IH p H)].
Qed.

Lemma in_keys_lookup : forall m p, In p (keys m) -> exists v, lookup p m = Some v.
Proof.
  intros m p H. destruct (lookup p m) eqn:E; [eauto|].
  now apply lookup_none_not_in_keys in E.
Qed.
End Maps.

Definition mem (p : bytes) (l : list bytes) : bool := existsb (beqb p) l.

Lemma mem_in : forall p l, mem p l = true <-> In p l.
Proof.
  intros p l. unfold mem. rewrite existsb_exists. split.
  - intros (x & Hx & E). apply beqb_true in E. now subst.
  - intro H. exists p. split; [assumption | apply beqb_refl].
Qed.

Lemma mem_false : forall p l, mem p l = false <-> ~ In p l.
Proof.
  intros p l. rewrite <- mem_in. destruct (mem p l); split; intro H; congruence.
Qed.

Lemma in_union_keys : forall a b p, In p (union_keys a b) <-> In p a \/ In p b.
Proof.
  induction a as [|x a IH]; intros b p; cbn; [tauto|].
  destruct (existsb (beqb x) b) eqn:E.
  - rewrite IH. split; [tauto|]. intros [[H|H]|H]; try tauto.
    subst x. right. now apply (proj1 (mem_in p b)).
  - cbn. rewrite IH. tauto.
Qed.

Lemma kind_eqb_true : forall a b, kind_eqb a b = true <-> a = b.
Proof. destruct a, b; cbn; split; intro; congruence. Qed.

Lemma fent_eqb_true : forall a b, fent_eqb a b = true <-> a = b.
Proof.
  intros [k1 c1] [k2 c2]. unfold fent_eqb. cbn. rewrite andb_true_iff, kind_eqb_true, beqb_true.
  split; [intros [-> ->]; reflexivity | intro H; inversion H; tauto].
Qed.

Lemma ofent_eqb_true : forall a b, ofent_eqb a b = true <-> a = b.
Proof.
  intros [a|] [b|]; cbn; try (split; intro; congruence).
  rewrite fent_eqb_true. split; intro H; [now subst | now inversion H].
Qed.

Lemma differs_false : forall a b p, differs a b p = false <-> lookup p a = lookup p b.
Proof.
  intros a b p. unfold differs. rewrite negb_false_iff. apply ofent_eqb_true.
Qed.

Lemma differs_true : forall a b p, differs a b p = true <-> lookup p a <> lookup p b.
Proof.
  intros a b p. rewrite <- differs_false. destruct (differs a b p); split; intro H; congruence.
Qed.

Lemma in_changed_paths : forall a b p, In p (changed_paths a b) <-> lookup p a <> lookup p b.
Proof.
  intros a b p. unfold changed_paths. rewrite filter_In, in_union_keys, differs_true.
  split; [tauto|]. intro H. split; [|assumption].
  destruct (lookup p a) eqn:Ea.
  - left. eapply lookup_some_in_keys; eauto.
  - destruct (lookup p b) eqn:Eb; [|congruence]. right. eapply lookup_some_in_keys; eauto.
Qed.

Lemma mem_filter : forall (f : bytes -> bool) p l, mem p (filter f l) = mem p l && f p.
Proof.
  intros f p l. apply eq_true_iff_eq. rewrite andb_true_iff, !mem_in, filter_In. reflexivity.
Qed.

Lemma mem_changed_paths : forall a b p, mem p (changed_paths a b) = differs a b p.
Proof.
  intros a b p. destruct (differs a b p) eqn:E.
  - apply mem_in, in_changed_paths. now apply differs_true.
  - apply mem_false. rewrite in_changed_paths, <- differs_true. congruence.
Qed.

(* a fold whose step sets the value at its own path and leaves the others *)
Lemma fold_pointwise {A} (g : bytes -> option A) (f : amap A -> bytes -> amap A) :
  (forall acc q p, lookup p (f acc q) = if beqb p q then g q else lookup p acc) ->
  forall l acc p, lookup p (fold_left f l acc) = if mem p l then g p else lookup p acc.
Proof.
  intros Hf. induction l as [|q l IH]; intros acc p; cbn [fold_left]; [reflexivity|].
  rewrite IH, Hf. change (mem p (q :: l)) with (beqb p q || mem p l).
  destruct (mem p l), (beqb p q) eqn:E; try reflexivity. apply beqb_true in E. now subst.
Qed.

Lemma remove_fold : forall l (w : fmap) p,
  lookup p (fold_left (fun acc q => remove q acc) l w) = if mem p l then None else lookup p w.
Proof.
  intros l w p. apply (fold_pointwise (fun _ => None) (fun acc q => remove q acc)).
  intros. apply lookup_remove.
Qed.

Lemma reset_index_fold : forall t l ix p,
  lookup p (fold_left (reset_index_step t) l ix) = if mem p l then lookup p t else lookup p ix.
Proof.
  intros t. apply (fold_pointwise (fun q => lookup q t) (reset_index_step t)).
  intros acc q p. unfold reset_index_step.
  destruct (lookup q t); rewrite ?lookup_insert, lookup_remove; now destruct (beqb p q).
Qed.

Lemma reset_index_lookup : forall t ix p, lookup p (fst (reset_index t ix)) = lookup p t.
Proof.
  intros t ix p. unfold reset_index. cbn [fst]. rewrite reset_index_fold, mem_changed_paths.
  destruct (differs ix t p) eqn:E; [reflexivity | now apply differs_false].
Qed.

Lemma reset_index_removed : forall t ix, snd (reset_index t ix) = changed_paths ix t.
Proof. reflexivity. Qed.

Definition agree (a b : fmap) : Prop := forall p, lookup p a = lookup p b.

Lemma checkout_change_ok : forall t ix w q, lookup q ix = lookup q t ->
  exists ix' w', checkout_change t (None, (ix, w)) q = (None, (ix', w')) /\
    (forall p, lookup p ix' = lookup p ix) /\
    (forall p, lookup p w' = if beqb p q then lookup q t else lookup p w).
Proof.
  intros t ix w q H. unfold checkout_change. rewrite H. destruct (lookup q t) as [e|] eqn:Et.
  - do 2 eexists. split; [reflexivity|]. split; intro p; rewrite lookup_insert, lookup_remove.
    + destruct (beqb p q) eqn:E; [|reflexivity]. apply beqb_true in E. subst. congruence.
    + now destruct (beqb p q).
  - do 2 eexists. split; [reflexivity|]. split; intro p; [reflexivity | apply lookup_remove].
Qed.

Lemma checkout_fold_on : forall t l ix w,
  (forall q, In q l -> lookup q ix = lookup q t) ->
  exists ix' w',
    fold_left (checkout_change t) l (None, (ix, w)) = (None, (ix', w')) /\
    (forall p, lookup p ix' = lookup p ix) /\
    forall p, lookup p w' = if mem p l then lookup p t else lookup p w.
Proof.
  intros t. induction l as [|q l IH]; intros ix w H; cbn [fold_left].
  - now exists ix, w.
  - destruct (checkout_change_ok t ix w q (H q (or_introl eq_refl))) as (ix1 & w1 & -> & Hi & Hw).
    destruct (IH ix1 w1) as (ix' & w' & Hf & Hi' & Hw').
    { intros p Hp. rewrite Hi. apply H. now right. }
    exists ix', w'. split; [exact Hf|]. split; intro p.
    + now rewrite Hi'.
    + rewrite Hw', Hw. change (mem p (q :: l)) with (beqb p q || mem p l).
      destruct (mem p l), (beqb p q) eqn:E; try reflexivity. apply beqb_true in E. now subst.
Qed.

Lemma checkout_fold : forall t l ix w,
  agree ix t ->
  exists ix' w',
    fold_left (checkout_change t) l (None, (ix, w)) = (None, (ix', w')) /\
    agree ix' t /\
    forall p, lookup p w' = if mem p l then lookup p t else lookup p w.
Proof.
  intros t l ix w Hag.
  destruct (checkout_fold_on t l ix w (fun q _ => Hag q)) as (ix' & w' & Hf & Hi & Hw).
  exists ix', w'. repeat split; auto. intro p. now rewrite Hi.
Qed.
