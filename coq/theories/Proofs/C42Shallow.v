(* Proofs/C42Shallow.v — isFastForward on a shallow history: the parents of the
   shallow commits are ignored by the walk; the answer is "true" exactly when
   old is reached, or the walk visits a shallow commit. *)
From Coq Require Import List Arith ZArith Bool Lia.
From GoGit Require Import Spec.Dag Model.CommitWalk Model.MergeBase Proofs.Worklist Proofs.C43.
Import ListNotations.

Section Shallow.
  Variable g : dag.
  Variable I : list node.
  (* every parent that is not ignored is in the store *)
  Hypothesis Hcl : forall c p : node, c < nnodes g -> In p (parents g c) -> ~ In p I -> p < nnodes g.
  Variable stop : node -> bool.

  Let n := nnodes g.

  Definition succ_I (c : node) : list node := filter (fun p => negb (mem p I)) (parents g c).

  Lemma succ_I_lt : forall c p : node, c < n -> In p (succ_I c) -> p < n.
  Proof.
    intros c p Hc Hp. unfold succ_I in Hp. apply filter_In in Hp. destruct Hp as [Hp Hn].
    apply negb_true_iff, mem_false_In in Hn. eapply Hcl; eauto.
  Qed.

  Definition preI_push (c : node) (seen : list node) (st : list (list node)) :=
    filter (fun p => negb (mem p seen)) (succ_I c) :: st.

  (* once the ignored commits are marked seen, filtering them out again changes nothing *)
  Lemma preI_loop_eq : forall fuel (st : list (list node)) (seen acc : list node),
    incl I seen -> Forall (fun x => x < n) (concat st) ->
    pre_loop g stop fuel st seen acc = gloop _ pop_frames preI_push stop fuel st seen acc.
  Proof.
    induction fuel as [|f IH]; intros st seen acc HI Hst; [reflexivity|].
    simpl. destruct (pop_frames st) as [[h st']|] eqn:Ep; [|reflexivity].
    rewrite (pop_frames_some _ _ _ Ep) in Hst. inversion_clear Hst as [|? ? Hh Hst'].
    rewrite (proj2 (present_lt g h) Hh). simpl.
    destruct (mem h seen); [now apply IH|]. destruct (stop h); [reflexivity|].
    rewrite <- IH.
    - f_equal. unfold preI_push. f_equal. symmetry. apply filter_implied.
      intros p Hp. apply negb_true_iff, mem_false_In. apply negb_true_iff, (mem_false_In p (h :: seen)) in Hp.
      intros Hi. apply Hp. right. now apply HI.
    - now apply incl_tl.
    - apply Forall_app. split; [|exact Hst']. apply Forall_forall. intros p Hp.
      apply filter_In in Hp. now apply (succ_I_lt h).
  Qed.

  Theorem pre_walk_post_I : forall s : node, s < n ->
    Post succ_I stop I s (pre_walk g stop (walk_fuel g) s I).
  Proof.
    intros s Hs. unfold pre_walk.
    rewrite preI_loop_eq by (try apply incl_refl; repeat constructor; exact Hs).
    apply (gloop_walk_post g stop succ_I _ (@concat node) _ _ (fun c seen => filter (fun p => negb (mem p seen)) (succ_I c)));
      [exact succ_I_lt | exact pops_frames | reflexivity | | exact Hs | reflexivity].
    apply selects_unseen. intros c. apply filter_length_le'.
  Qed.
End Shallow.

Definition ff_ignore (g : dag) (shallows : list node) : list node :=
  flat_map (fun s => if present g s then parents g s else []) shallows.

Theorem is_fast_forward_shallow : forall g (old new : node) (shallows : list node),
  new < nnodes g ->
  (* every parent missing from the store belongs to a commit listed as shallow *)
  (forall c p : node, c < nnodes g -> In p (parents g c) -> nnodes g <= p -> In c shallows) ->
  let I := ff_ignore g shallows in
  exists b, is_fast_forward g old new shallows = BOk b /\
    (b = true <-> ra (succ_I g I) I new old \/ exists s, In s shallows /\ ra (succ_I g I) I new s).
Proof.
  intros g old new shallows Hn Hsh I.
  assert (Hcl : forall c p : node, c < nnodes g -> In p (parents g c) -> ~ In p I -> p < nnodes g).
  { intros c p Hc Hp Hni. destruct (Nat.lt_ge_cases p (nnodes g)) as [H|H]; [exact H|].
    exfalso. apply Hni. unfold I, ff_ignore. apply in_flat_map. exists c. split; [now apply (Hsh c p)|].
    now rewrite (proj2 (present_lt g c) Hc). }
  unfold is_fast_forward.
  rewrite (proj2 (present_lt g new) Hn). simpl negb. cbv iota. fold (ff_ignore g shallows). fold I.
  pose proof (pre_walk_post_I g I Hcl (Nat.eqb old) new Hn) as P.
  destruct (pre_walk g (Nat.eqb old) (walk_fuel g) new I) as [l e].
  destruct (post_stop_at _ _ _ _ _ P) as [[He Hra] | [He [Hnot Hin]]]; cbn [fst snd] in *; subst e.
  - exists true. split; [reflexivity|]. split; [now left | reflexivity].
  - exists (existsb (fun c => mem c shallows) l). split; [reflexivity|].
    rewrite existsb_exists. split.
    + intros [s [Hs1 Hs2]]. right. exists s. split; [now apply mem_In | now apply Hin].
    + intros [Ho | [s [Hs1 Hs2]]]; [contradiction|]. exists s. split; [now apply Hin | now apply mem_In].
Qed.
