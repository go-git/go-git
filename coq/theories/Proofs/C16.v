(* Proofs/C16.v — the inductive invariant J of the interleaving machine of
   Model/RefCAS.v when every thread is a CAS writer or a reader: the lock
   holder is the only thread between Lock and Close, the register follows the
   chain of successful updates, and a reader's ghost record is taken at a
   state of the run. *)
From Coq Require Import List Arith Bool Lia.
From GoGit Require Import Base.Out Model.RefCAS.
Import ListNotations.

Definition cas_or_read (k : kind) : bool := match k with KCas _ _ | KRead => true | _ => false end.
Definition cas_only (kinds : nat -> kind) : Prop := forall t, cas_or_read (kinds t) = true.

Definition pc_kind_ok (k : kind) (p : pc) : bool :=
  match k, p with
  | (KCas _ _ | KSet _), (W0 | W1 _ | W2 _ | W3 _ | W4 _ _ | W5 _ | W6 _ | W7 _ _ | Done _) => true
  | KRead, (R0 | R1 | R2 _ | R3 | R4 _ | Done _) => true
  | KPack, (P0 | P1 | P2 | P3 | P4 | P5 _ | P6 _ | P7 _ | P8 | P9 _ | Done _) => true
  | _, _ => false
  end.

Definition has_fd (p : pc) : option nat :=
  match p with
  | W1 fd | W2 fd | W3 fd | W4 fd _ | W5 fd | W6 fd | W7 fd _ | R2 fd => Some fd
  | _ => None
  end.

Definition in_cs (p : pc) : option nat :=
  match p with
  | W2 fd | W3 fd | W4 fd _ | W5 fd | W6 fd | W7 fd _ => Some fd
  | _ => None
  end.

Definition of_reg (r : option value) : res := match r with Some v => RFound v | None => RNotFound end.

(* successful updates form a chain: each saw (modulo Hash()) the value the previous one wrote *)
Fixpoint chain_ok (r0 : option value) (l : list (option value * value * value)) : Prop :=
  match l with
  | [] => True
  | (r, o, n) :: rest => r = r0 /\ (exists v, r = Some v /\ same v o = true) /\ chain_ok (Some n) rest
  end.

Fixpoint last_reg (r0 : option value) (l : list (option value * value * value)) : option value :=
  match l with
  | [] => r0
  | (_, _, n) :: rest => last_reg (Some n) rest
  end.

Lemma chain_ok_app : forall l r0 o n v, chain_ok r0 l -> Some v = last_reg r0 l -> same v o = true ->
  chain_ok r0 (l ++ [(Some v, o, n)]) /\ Some n = last_reg r0 (l ++ [(Some v, o, n)]).
Proof.
  induction l as [|[[r o'] n'] l IH]; cbn; intros r0 o n v Hc Hl Hs.
  - subst. repeat split; eauto.
  - destruct Hc as (-> & Hv & Hc). destruct (IH _ o n v Hc Hl Hs) as [A B]. repeat split; auto.
Qed.

Record J (kinds : nat -> kind) (r0 : option value) (pk0 : option (option value)) (s : st) : Prop := mkJ {
  j_kind : forall t, pc_kind_ok (kinds t) (pc_of kinds s t) = true;
  j_fd : forall t fd, has_fd (pc_of kinds s t) = Some fd -> loose s = Some fd;
  j_lock : forall t fd, in_cs (pc_of kinds s t) = Some fd -> lockh s fd = Some t;
  j_w6 : forall t fd, pc_of kinds s t = W6 fd ->
      win s = true /\ inode s fd = None /\
      exists v old new, kinds t = KCas old new /\ reg s = Some v /\ same v old = true;
  j_win : win s = true -> exists t fd, pc_of kinds s t = W6 fd;
  j_reg : win s = false -> logical s = reg s;
  j_w5 : forall t fd, pc_of kinds s t = W5 fd ->
      exists v old new, kinds t = KCas old new /\ reg s = Some v /\ same v old = true;
  j_w3 : forall t fd, pc_of kinds s t = W3 fd -> inode s fd = None;
  j_w4 : forall t fd pv, pc_of kinds s t = W4 fd pv -> inode s fd = None /\ pfile s = Some pv;
  j_chain : chain_ok r0 (log s) /\ reg s = last_reg r0 (log s);
  j_pk : pfile s = pk0;
  j_r3 : forall t, pc_of kinds s t = R3 -> exists r w, rexp s t = Some (r, w) /\ (w = false -> packed_val s = r);
  j_r4 : forall t pv, pc_of kinds s t = R4 pv -> exists r w, rexp s t = Some (r, w) /\ (w = false -> pv = r);
  j_rd : forall t res, kinds t = KRead -> pc_of kinds s t = Done res ->
      exists r w, rexp s t = Some (r, w) /\ (w = false -> res = of_reg r)
}.

Lemma upd_same : forall A (m : nat -> A) k v, upd m k v k = v.
Proof. intros. unfold upd. now rewrite Nat.eqb_refl. Qed.
Lemma upd_other : forall A (m : nat -> A) k v x, x <> k -> upd m k v x = m x.
Proof. intros. unfold upd. destruct (Nat.eqb_spec x k); congruence. Qed.

Lemma pc_of_set_pc_same : forall kinds s t p, pc_of kinds (set_pc s t p) t = p.
Proof. intros. unfold pc_of, set_pc. cbn. now rewrite upd_same. Qed.
Lemma pc_of_set_pc_other : forall kinds s t p t', t' <> t -> pc_of kinds (set_pc s t p) t' = pc_of kinds s t'.
Proof. intros. unfold pc_of, set_pc. cbn. now rewrite upd_other. Qed.

(* what J says of one thread standing at p *)
Definition local (kinds : nat -> kind) (s : st) (t : nat) (p : pc) : Prop :=
  pc_kind_ok (kinds t) p = true
  /\ (forall fd, has_fd p = Some fd -> loose s = Some fd)
  /\ (forall fd, in_cs p = Some fd -> lockh s fd = Some t)
  /\ match p with
     | W3 fd => inode s fd = None
     | W4 fd pv => inode s fd = None /\ pfile s = Some pv
     | W5 fd => exists v old new, kinds t = KCas old new /\ reg s = Some v /\ same v old = true
     | W6 fd => win s = true /\ inode s fd = None /\
                exists v old new, kinds t = KCas old new /\ reg s = Some v /\ same v old = true
     | R3 => exists r w, rexp s t = Some (r, w) /\ (w = false -> packed_val s = r)
     | R4 pv => exists r w, rexp s t = Some (r, w) /\ (w = false -> pv = r)
     | Done res => kinds t = KRead -> exists r w, rexp s t = Some (r, w) /\ (w = false -> res = of_reg r)
     | _ => True
     end.

Lemma J_local kinds r0 pk0 s t : J kinds r0 pk0 s -> local kinds s t (pc_of kinds s t).
Proof.
  intro HJ. repeat (split; [apply HJ|]).
  destruct (pc_of kinds s t) eqn:E; eauto using j_w3, j_w4, j_w5, j_w6, j_r3, j_r4, j_rd.
Qed.

Lemma J_intro kinds r0 pk0 s :
  (forall t, local kinds s t (pc_of kinds s t)) ->
  (win s = true -> exists t fd, pc_of kinds s t = W6 fd) ->
  (win s = false -> logical s = reg s) ->
  chain_ok r0 (log s) /\ reg s = last_reg r0 (log s) -> pfile s = pk0 ->
  J kinds r0 pk0 s.
Proof.
  intros L Hw Hr Hc Hp.
  assert (L' : forall t p, pc_of kinds s t = p -> local kinds s t p) by (intros t p <-; apply L).
  constructor; auto; try (intro t; apply L).
  all: intros; match goal with E : pc_of _ _ _ = _ |- _ => apply L' in E; now apply E end.
Qed.

Lemma J_init : forall kinds lo pk, J kinds (logical (mk_init lo pk)) pk (mk_init lo pk).
Proof.
  intros kinds lo pk.
  assert (Hpc : forall t, pc_of kinds (mk_init lo pk) t = start (kinds t)) by (intro t; destruct lo; reflexivity).
  apply J_intro.
  - intro t. rewrite Hpc. unfold local. destruct (kinds t); repeat split; reflexivity || discriminate.
  - destruct lo; discriminate.
  - destruct lo; reflexivity.
  - destruct lo; cbn; auto.
  - destruct lo; reflexivity.
Qed.

Lemma in_cs_has_fd p fd : in_cs p = Some fd -> has_fd p = Some fd.
Proof. destruct p; cbn; congruence. Qed.

Lemma mutex : forall kinds r0 pk0 s t t' fd fd', J kinds r0 pk0 s ->
  in_cs (pc_of kinds s t) = Some fd -> in_cs (pc_of kinds s t') = Some fd' -> t = t'.
Proof.
  intros kinds r0 pk0 s t t' fd fd' I H H'.
  pose proof (j_fd _ _ _ _ I _ _ (in_cs_has_fd _ _ H)) as E.
  pose proof (j_fd _ _ _ _ I _ _ (in_cs_has_fd _ _ H')) as E'.
  rewrite E in E'. inversion E'; subst.
  pose proof (j_lock _ _ _ _ I _ _ H) as L. pose proof (j_lock _ _ _ _ I _ _ H') as L'. congruence.
Qed.

Lemma cs_alone kinds r0 pk0 s t fd : J kinds r0 pk0 s -> in_cs (pc_of kinds s t) = Some fd ->
  ~ exists t', t' <> t /\ in_cs (pc_of kinds s t') <> None.
Proof.
  intros HJ H (t' & Hne & H'). destruct (in_cs (pc_of kinds s t')) eqn:E; [|congruence].
  apply Hne. eapply mutex; eauto.
Qed.

Lemma cs_no_window kinds r0 pk0 s t p fd : J kinds r0 pk0 s ->
  pc_of kinds s t = p -> in_cs p = Some fd -> (forall fd', p <> W6 fd') -> win s = false.
Proof.
  intros HJ <- H Hn. destruct (win s) eqn:Hw; [|reflexivity].
  destruct (j_win _ _ _ _ HJ Hw) as (t' & fd' & E).
  rewrite (mutex _ _ _ _ t t' fd fd' HJ H) in Hn; [now apply Hn in E|now rewrite E].
Qed.

(* the frame of a step: what a thread that does not move relies on *)
Lemma local_frame kinds s s' t p : local kinds s t p ->
  (forall fd, loose s = Some fd -> loose s' = Some fd) ->
  (forall fd, lockh s fd = Some t -> lockh s' fd = Some t) ->
  pfile s' = pfile s -> rexp s' t = rexp s t ->
  (in_cs p <> None -> inode s' = inode s /\ reg s' = reg s /\ win s' = win s) ->
  local kinds s' t p.
Proof.
  intros (L1 & L2 & L3 & L4) Hlo Hlk Hpf Hrx Hcs. repeat (split; [now auto|]).
  unfold packed_val. rewrite Hpf, Hrx.
  destruct p; auto; destruct Hcs as (Hi & Hrg & Hw); try discriminate; now rewrite ?Hi, ?Hrg, ?Hw.
Qed.

(* one step of thread t: its own part of J is re-established, the others are framed *)
Lemma J_upd kinds r0 pk0 s s' t p p' : J kinds r0 pk0 s ->
  pc_of kinds s t = p -> pcs s' = upd (pcs s) t (Some p') ->
  local kinds s' t p' ->
  (forall fd, loose s = Some fd -> loose s' = Some fd) ->
  (forall t' fd, t' <> t -> lockh s fd = Some t' -> lockh s' fd = Some t') ->
  pfile s' = pfile s ->
  (forall t', t' <> t -> rexp s' t' = rexp s t') ->
  ((exists t', t' <> t /\ in_cs (pc_of kinds s t') <> None) ->
   inode s' = inode s /\ reg s' = reg s /\ win s' = win s) ->
  (win s' = true -> (exists fd, p' = W6 fd) \/ win s = true /\ forall fd, p <> W6 fd) ->
  (win s' = false -> logical s' = reg s') ->
  chain_ok r0 (log s') /\ reg s' = last_reg r0 (log s') ->
  J kinds r0 pk0 s'.
Proof.
  intros HJ <- Hpcs Lt Hlo Hlk Hpf Hrx Hsh Hwin Hreg Hch.
  assert (PS : pc_of kinds s' t = p') by (unfold pc_of; now rewrite Hpcs, upd_same).
  assert (PO : forall t', t' <> t -> pc_of kinds s' t' = pc_of kinds s t')
    by (intros; unfold pc_of; now rewrite Hpcs, upd_other).
  apply J_intro; auto.
  - intro t'. destruct (Nat.eq_dec t' t) as [->|Hne]; [now rewrite PS|]. rewrite (PO _ Hne).
    apply (local_frame kinds s); eauto using J_local.
  - intro Hw. destruct (Hwin Hw) as [[fd ->]|[Hw' Hn]]; [eauto|].
    destruct (j_win _ _ _ _ HJ Hw') as (t' & fd & E). exists t', fd.
    destruct (Nat.eq_dec t' t) as [->|Hne]; [now apply Hn in E|now rewrite PO].
  - rewrite Hpf. apply HJ.
Qed.

(* a step that moves only the pc, and possibly takes the reader's ghost record *)
Lemma J_set_pc kinds r0 pk0 s s' t p p' : J kinds r0 pk0 s ->
  pc_of kinds s t = p -> s' = set_pc s t p' \/ s' = set_pc (set_rexp s t) t p' ->
  (forall fd, p <> W6 fd) ->
  local kinds s' t p' -> J kinds r0 pk0 s'.
Proof.
  intros HJ Hp [-> | ->] N L; apply (J_upd kinds r0 pk0 s _ t p p'); auto; try apply HJ.
  intros t' Hne. cbn. now rewrite upd_other.
Qed.

(* the ghost record a reader takes at its decisive step *)
Lemma decisive kinds r0 pk0 s t (P : option value -> Prop) : J kinds r0 pk0 s ->
  (win s = false -> P (logical s)) ->
  exists r w, upd (rexp s) t (Some (reg s, win s)) t = Some (r, w) /\ (w = false -> P r).
Proof.
  intros HJ HP. exists (reg s), (win s). split; [apply upd_same|].
  intro Hw. rewrite <- (j_reg _ _ _ _ HJ Hw). auto.
Qed.

Lemma logical_loose : forall s fd, loose s = Some fd ->
  logical s = match inode s fd with Some v => Some v | None => packed_val s end.
Proof. intros s fd H. unfold logical. now rewrite H. Qed.

Section Steps.
Variable kinds : nat -> kind.
Variable r0 : option value.
Variable pk0 : option (option value).
Hypothesis CO : cas_only kinds.

Lemma after_compare_local : forall s t fd old new cur, kinds t = KCas old new ->
  loose s = Some fd -> lockh s fd = Some t -> (forall v, cur = Some v -> reg s = Some v) ->
  local kinds s t (after_compare fd old cur).
Proof.
  intros s t fd old new cur Hk Hlo Hlk Hreg. unfold after_compare.
  destruct cur as [v|]; [destruct (same v old) eqn:E|];
    repeat split; rewrite ?Hk; cbn; try congruence; eauto 8.
Qed.

Lemma J_step : forall s t s', J kinds r0 pk0 s -> step kinds s t = Some s' -> J kinds r0 pk0 s'.
Proof.
  intros s t s' HJ H. pose proof (CO t) as C.
  pose proof (J_local _ _ _ s t HJ) as (Kd & Lfd & Llk & L4). unfold step in H.
  (* a writer stands at a writer's pc, a reader at a reader's; the cases are W0..W7, then R0..R4 *)
  destruct (kinds t) as [old new| | |] eqn:Hk; try discriminate;
    destruct (pc_of kinds s t) eqn:Hpc; try discriminate.
  - (* OpenFile binds the path to a fresh empty inode if there is none *)
    destruct (loose s) as [i|] eqn:Hl; injection H as <-.
    + eapply J_set_pc; eauto; try discriminate.
      repeat split; rewrite ?Hk; cbn; congruence.
    + apply (J_upd _ _ _ s _ t W0 (W1 (nexti s))); auto; try discriminate; try apply HJ.
      * repeat split; rewrite ?Hk; cbn; congruence.
      * congruence.
      * (* nobody holds a descriptor yet *)
        intros (t' & _ & Hcs). exfalso. destruct (in_cs (pc_of kinds s t')) eqn:E; [|congruence].
        apply in_cs_has_fd, (j_fd _ _ _ _ HJ) in E. congruence.
      * intro Hw. right. split; [exact Hw|discriminate].
      * intro Hw. unfold logical. cbn. rewrite upd_same, <- (j_reg _ _ _ _ HJ Hw). unfold logical. now rewrite Hl.
  - destruct (lockh s fd) eqn:Hlk; [discriminate|].
    injection H as <-.
    apply (J_upd _ _ _ s _ t (W1 fd) (W2 fd)); auto; try discriminate; try apply HJ.
    + repeat split; rewrite ?Hk; auto. cbn. intros fd' [= <-]. apply upd_same.
    + intros t' fd' Hne E. cbn. rewrite upd_other; congruence.
    + intro Hw. right. split; [exact Hw|discriminate].
  - destruct (inode s fd) as [v|] eqn:Hi; injection H as <-.
    + assert (L : local kinds s t (after_compare fd old (Some v))).
      { apply (after_compare_local s t fd old new (Some v) Hk); auto.
        intros v' [= <-]. rewrite <- (j_reg _ _ _ _ HJ), (logical_loose s fd), Hi; auto.
        now apply (cs_no_window _ _ _ s t (W2 fd) fd HJ). }
      eapply J_set_pc; eauto; discriminate.
    + eapply J_set_pc; eauto; try discriminate.
      repeat split; rewrite ?Hk; auto.
  - destruct (pfile s) as [pv|] eqn:Hp; injection H as <-.
    + eapply J_set_pc; eauto; try discriminate.
      repeat split; rewrite ?Hk; auto.
    + eapply J_set_pc; eauto; try discriminate.
      repeat split; rewrite ?Hk; auto.
  - injection H as <-. destruct L4 as [Hi Hp].
    assert (L : local kinds s t (after_compare fd old pv)).
    { apply (after_compare_local s t fd old new pv Hk); auto.
      intros v ->. rewrite <- (j_reg _ _ _ _ HJ), (logical_loose s fd), Hi; auto.
      - unfold packed_val. now rewrite Hp.
      - now apply (cs_no_window _ _ _ s t (W4 fd (Some v)) fd HJ). }
    eapply J_set_pc; eauto; discriminate.
  - (* Truncate opens the window *)
    injection H as <-. destruct L4 as (v & ? & ? & [= <- <-] & Hreg & Hsame).
    apply (J_upd _ _ _ s _ t (W5 fd) (W6 fd)); auto; try discriminate; try apply HJ.
    + repeat split; rewrite ?Hk; auto. cbn. apply upd_same. eauto 8.
    + intro X. now apply (cs_alone _ _ _ s t fd HJ) in X; [|rewrite Hpc].
    + eauto.
  - (* Write closes it; the register and the log move *)
    destruct L4 as (Hwin & Hino & v & ? & ? & [= <- <-] & Hreg & Hsame). rewrite Hino in H.
    injection H as <-.
    apply (J_upd _ _ _ s _ t (W6 fd) (W7 fd ROk)); auto; try discriminate; try apply HJ.
    + repeat split; rewrite ?Hk; auto.
    + intro X. now apply (cs_alone _ _ _ s t fd HJ) in X; [|rewrite Hpc].
    + intros _. unfold logical. cbn. now rewrite (Lfd _ eq_refl), upd_same.
    + destruct (j_chain _ _ _ _ HJ) as [A B]. cbn. rewrite Hreg in *. now apply chain_ok_app.
  - (* Close releases the lock *)
    rewrite (Llk _ eq_refl), Nat.eqb_refl in H. injection H as <-.
    apply (J_upd _ _ _ s _ t (W7 fd r) (Done r)); auto; try discriminate; try apply HJ.
    + repeat split; rewrite ?Hk; auto; discriminate.
    + intros t' fd' Hne E. cbn. rewrite upd_other; auto. intros ->. rewrite (Llk _ eq_refl) in E. congruence.
    + intro Hw. right. split; [exact Hw|discriminate].
  - destruct (loose s) as [i|] eqn:Hl; injection H as <-.
    + eapply J_set_pc; eauto; try discriminate.
      repeat split; rewrite ?Hk; auto; discriminate.
    + eapply J_set_pc; eauto; try discriminate.
      repeat split; rewrite ?Hk; auto; try discriminate.
      apply (decisive _ _ _ s t (fun r => packed_val s = r) HJ). unfold logical. now rewrite Hl.
  - destruct (loose s) as [i|] eqn:Hl; injection H as <-.
    + eapply J_set_pc; eauto; try discriminate.
      repeat split; rewrite ?Hk; auto; cbn; congruence.
    + eapply J_set_pc; eauto; try discriminate.
      repeat split; rewrite ?Hk; auto; try discriminate.
      apply (decisive _ _ _ s t (fun r => packed_val s = r) HJ). unfold logical. now rewrite Hl.
  - destruct (inode s fd) as [v|] eqn:Hi; injection H as <-.
    + eapply J_set_pc; eauto; try discriminate.
      repeat split; rewrite ?Hk; auto; try discriminate. intros _.
      apply (decisive _ _ _ s t (fun r => RFound v = of_reg r) HJ).
      now rewrite (logical_loose s fd), Hi by auto.
    + eapply J_set_pc; eauto; try discriminate.
      repeat split; rewrite ?Hk; auto; try discriminate.
      apply (decisive _ _ _ s t (fun r => packed_val s = r) HJ).
      now rewrite (logical_loose s fd), Hi by auto.
  - destruct L4 as (r & w & Hr & Hw). unfold packed_val in Hw.
    destruct (pfile s) as [pv|] eqn:Hp; injection H as <-.
    + eapply J_set_pc; eauto; try discriminate.
      repeat split; rewrite ?Hk; auto; try discriminate. eauto.
    + eapply J_set_pc; eauto; try discriminate.
      repeat split; rewrite ?Hk; auto; try discriminate. intros _. exists r, w. split; [exact Hr|].
      intro E. now rewrite <- (Hw E).
  - destruct L4 as (r & w & Hr & Hw). injection H as <-.
    eapply J_set_pc; eauto; try discriminate.
    repeat split; rewrite ?Hk; auto; try discriminate. intros _. exists r, w. split; [exact Hr|].
    intro E. now rewrite (Hw E).
Qed.

Lemma J_run : forall sched s, J kinds r0 pk0 s -> J kinds r0 pk0 (run kinds s sched).
Proof.
  induction sched as [|t sched IH]; cbn; intros s I; auto.
  destruct (step kinds s t) eqn:E; [apply IH; eapply J_step; eauto | auto].
Qed.
End Steps.

Lemma chain_ok_In : forall l r0 r o n, chain_ok r0 l -> In (r, o, n) l -> exists v, r = Some v /\ same v o = true.
Proof.
  induction l as [|[[r' o'] n'] l IH]; cbn; intros r0 r o n Hc Hin; [tauto|].
  destruct Hc as (_ & Hv & Hc). destruct Hin as [E|Hin]; [inversion E; subst; auto | eauto].
Qed.

Lemma same_hash_exact : forall v k, k <> 0 -> same v (VHash k) = true -> v = VHash k.
Proof.
  intros v k Hk H. unfold same in H. apply Nat.eqb_eq in H. destruct v; cbn in H; congruence.
Qed.

(* the states a run goes through, blocked steps included *)
Fixpoint states (kinds : nat -> kind) (s : st) (sched : list nat) : list st :=
  s :: match sched with
       | [] => []
       | t :: r => states kinds (match step kinds s t with Some s' => s' | None => s end) r
       end.

Lemma step_rexp : forall kinds s t0 s1 t, step kinds s t0 = Some s1 ->
  rexp s1 t = rexp s t \/ rexp s1 t = Some (reg s, win s).
Proof.
  (* by cases of what step looks at: of the setters only set_rexp touches rexp *)
  intros kinds s t0 s1 t H. unfold step in H.
  destruct (pc_of kinds s t0);
    repeat match type of H with
           | context [match loose s with _ => _ end] => destruct (loose s)
           | context [match ?x with _ => _ end] => destruct x
           end; try discriminate; inversion H; subst; clear H; cbn; auto;
    unfold upd; destruct (Nat.eqb t t0); auto.
Qed.

(* a ghost record is (reg, win) of a state the run went through *)
Lemma rexp_visited : forall kinds sched s t r w, rexp (run kinds s sched) t = Some (r, w) ->
  rexp s t = Some (r, w) \/ exists s', In s' (states kinds s sched) /\ reg s' = r /\ win s' = w.
Proof.
  induction sched as [|t0 sched IH]; intros s t r w H; cbn in H; [auto|].
  destruct (step kinds s t0) as [s1|] eqn:E.
  - destruct (IH _ _ _ _ H) as [H1|(s' & Hin & Hr & Hw)].
    + destruct (step_rexp kinds s t0 s1 t E) as [E1|E1]; rewrite E1 in H1; [auto|].
      inversion H1; subst. right. exists s. split; [cbn; auto|auto].
    + right. exists s'. split; auto. cbn. rewrite E. auto.
  - destruct (IH _ _ _ _ H) as [H1|(s' & Hin & Hr & Hw)]; auto.
    right. exists s'. split; auto. cbn. rewrite E. auto.
Qed.

Lemma mk_init_rexp : forall lo pk t, rexp (mk_init lo pk) t = None.
Proof. intros. unfold mk_init. destruct lo; reflexivity. Qed.

Lemma value_eqb_refl : forall v, value_eqb v v = true.
Proof. destruct v; cbn; auto using Nat.eqb_refl. Qed.

Lemma regs_never : forall x l, forallb (fun s' => negb (ovalue_eqb (reg s') x)) l = true ->
  forall s', In s' l -> reg s' <> x.
Proof.
  intros x l H s' Hin E. rewrite forallb_forall in H. specialize (H _ Hin). rewrite E in H.
  destruct x; cbn in H; [rewrite value_eqb_refl in H|]; discriminate.
Qed.
