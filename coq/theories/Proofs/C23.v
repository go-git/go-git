(* Proofs/C23.v — safety of the index publication protocol for every interleaving. *)
From Coq Require Import List NArith Bool Lia PeanoNat.
From GoGit Require Import Model.IndexPublish.
Import ListNotations.
Local Open Scope N_scope.
Local Arguments Nat.ltb : simpl never.

Section Inv.
(* the repository when the storage was opened *)
Variable ipacks : list pid.
Variable iloose : N.

Definition sub (a b : N) : Prop := forall k, memo k a = true -> memo k b = true.

Lemma sub_refl : forall a, sub a a.
Proof. intros a k H; exact H. Qed.

(* what may only grow / never go back *)
Record sh_le (s s' : shared) : Prop := {
  le_disk : incl (disk s) (disk s');
  le_loose : sub (dloose s) (dloose s');
  le_pub : pub s <> None -> pub s' <> None;
  le_gen : (gen_pop s <= gen_pop s')%nat
}.

Definition list_ok (s : shared) (l : list pid) : Prop := incl ipacks l /\ incl l (disk s).

Definition rq_ok (s : shared) (r : rq) : Prop :=
  match r with
  | RqPublish local => list_ok s local
  | RqLeave | RqDone => pub s <> None
  | _ => True
  end.

Definition init_has (k : N) : bool := in_packs k ipacks || memo k iloose.
Definition now_has (s : shared) (k : N) : bool := in_packs k (disk s) || memo k (dloose s).

Definition thread_ok (s : shared) (t : thread) : Prop :=
  match t with
  | TLookup _ r | TNotify _ r => rq_ok s r
  | TLookupSnap _ | TNotifyWrite _ => pub s <> None
  | TNotifyPublish p => pub s <> None /\ In p (disk s)
  | TLookupSearch _ snap => list_ok s snap
  | TLookupDone k b => (init_has k = true -> b = true) /\ (b = true -> now_has s k = true)
  | TRePublish local => list_ok s local
  | _ => True
  end.

Lemma sh_le_refl : forall s, sh_le s s.
Proof. intros. constructor; auto using incl_refl, sub_refl. Qed.

Lemma has_pack_In : forall p l, has_pack p l = true <-> In p l.
Proof.
  intros p l. unfold has_pack. rewrite existsb_exists. split.
  - intros [x [Hx He]]. apply N.eqb_eq in He. now subst.
  - intros H. exists p. split; [assumption | apply N.eqb_refl].
Qed.

Lemma incl_add_pack : forall p l, incl l (add_pack p l).
Proof. intros p l. unfold add_pack. destruct (has_pack p l); [apply incl_refl | apply incl_appl, incl_refl]. Qed.

Lemma in_add_pack : forall p l, In p (add_pack p l).
Proof.
  intros p l. unfold add_pack. destruct (has_pack p l) eqn:E.
  - now apply has_pack_In.
  - apply in_or_app. right. now left.
Qed.

Lemma add_pack_incl : forall p l m, incl l m -> In p m -> incl (add_pack p l) m.
Proof.
  intros p l m H Hp. unfold add_pack. destruct (has_pack p l); [assumption|].
  apply incl_app; [assumption|]. intros x [->|[]]. assumption.
Qed.

Lemma in_packs_incl : forall k a b, incl a b -> in_packs k a = true -> in_packs k b = true.
Proof.
  intros k a b H E. unfold in_packs in *. apply existsb_exists in E. destruct E as [p [Hp Hm]].
  apply existsb_exists. exists p. split; [now apply H | assumption].
Qed.

Lemma sub_setbit : forall a k, sub a (N.setbit a k).
Proof.
  intros a k j H. unfold memo in *. rewrite N.setbit_eqb, H. apply orb_true_r.
Qed.

Lemma list_ok_le : forall s s' l, sh_le s s' -> list_ok s l -> list_ok s' l.
Proof. intros s s' l L [A B]. split; [assumption|]. eapply incl_tran; [exact B | apply L]. Qed.

Lemma now_has_le : forall s s' k, sh_le s s' -> now_has s k = true -> now_has s' k = true.
Proof.
  intros s s' k L H. unfold now_has in *. apply orb_true_iff in H. apply orb_true_iff. destruct H as [H|H].
  - left. eapply in_packs_incl; [apply L | exact H].
  - right. now apply L.
Qed.

Lemma rq_ok_le : forall s s' r, sh_le s s' -> rq_ok s r -> rq_ok s' r.
Proof. intros s s' r L. destruct r; cbn; eauto using list_ok_le, le_pub. Qed.

Lemma thread_ok_le : forall s s' t, sh_le s s' -> thread_ok s t -> thread_ok s' t.
Proof.
  intros s s' t L H. destruct t; cbn in *; eauto using rq_ok_le, list_ok_le, le_pub.
  - destruct H as [A B]. split; [assumption|]. intros E. eapply now_has_le; eauto.
  - destruct H as [A B]. split; [now apply L | now apply L].
Qed.

Definition sinv (s : shared) : Prop :=
  incl ipacks (disk s) /\ sub iloose (dloose s) /\
  (forall l, pub s = Some l -> incl ipacks l /\ incl l (disk s)) /\
  ((0 < gen_pop s)%nat -> pub s <> None) /\ panicked s = false.

Definition inv (st : state) : Prop :=
  sinv (sh st) /\ Forall (thread_ok (sh st)) (threads st).

(* on a destructed record: unfolds sinv / list_ok / sh_le, splits, and closes the
   leaves that are reflexive inclusions, arithmetic or congruences; the calls are
   followed by the leaves that need an argument *)
Ltac fin :=
  unfold sinv, list_ok, sub in *; cbn in *; unfold list_ok in *; cbn in *;
  repeat match goal with
         | |- _ /\ _ => split
         | |- sh_le _ _ => constructor; cbn
         end;
  auto using incl_refl; try discriminate; try lia; try congruence.

Lemma rq_step_ok : forall s r,
  sinv s -> rq_ok s r ->
  sh_le s (fst (rq_step s r)) /\ rq_ok (fst (rq_step s r)) (snd (rq_step s r)) /\ sinv (fst (rq_step s r)).
Proof.
  intros s r I R.
  destruct s as [dk dl pb fp gp fr gr no np nc pn].
  destruct I as (ID & IL & IP & IG & IN). cbn in *.
  destruct r; cbn.
  - (* RqCheck *) destruct pb; fin.
  - (* RqFlight *) destruct fp; fin.
  - (* RqWait *) destruct (Nat.ltb g gp) eqn:E; fin. apply Nat.ltb_lt in E. apply IG. lia.
  - (* RqRecheck *) destruct pb; fin.
  - (* RqPopulate *) fin.
  - (* RqPublish *) destruct R as [R1 R2]. destruct pb as [l0|]; fin.
    intros l Hl. inversion Hl; subst. auto.
  - (* RqLeave *) fin.
  - (* RqDone *) fin.
Qed.

Lemma in_packs_init : forall s k l, list_ok s l -> sub iloose (dloose s) ->
  init_has k = true -> in_packs k l || memo k (dloose s) = true.
Proof.
  intros s k l [A _] B H. unfold init_has in H. apply orb_true_iff in H. apply orb_true_iff.
  destruct H as [H|H]; [left; eapply in_packs_incl; eauto | right; now apply B].
Qed.

Lemma stays_ok : forall s t, sinv s -> thread_ok s t -> sh_le s s /\ thread_ok s t /\ sinv s.
Proof. intros s t I T. split; [apply sh_le_refl | now split]. Qed.

Lemma step_thread_ok : forall s t,
  sinv s -> thread_ok s t ->
  sh_le s (fst (step_thread s t)) /\ thread_ok (fst (step_thread s t)) (snd (step_thread s t))
  /\ sinv (fst (step_thread s t)).
Proof.
  intros s t I T. pose proof I as (ID & IL & IP & IG & IN).
  (* the steps that leave the shared state alone *)
  destruct t; cbn [step_thread];
    try (apply stays_ok; [exact I|]; cbn in T |- *; try exact T).
  1, 9: (* requireIndex *)
    (pose proof (rq_step_ok s r I T) as Q; destruct r; cbn [step_thread];
     try (revert Q; destruct (rq_step s _); intro Q; exact Q); now apply stays_ok).
  4: (* TReWait *) (destruct (Nat.ltb g (gen_re s)); exact Logic.I).
  (* the steps that write the shared state: TReFlight ... TExtLoose *)
  3-10: (destruct s as [dk dl pb fp gp fr gr no np nc pn]; clear I; cbn in * ).
  - (* TLookupSnap *) destruct (pub s) as [l|] eqn:P; try congruence. apply (IP l eq_refl).
  - (* TLookupSearch *) split.
    + intros Hk. eapply in_packs_init; eauto.
    + intros Hf. unfold now_has. apply orb_true_iff in Hf. apply orb_true_iff. destruct Hf as [Hf|Hf]; [left|right; assumption].
      eapply in_packs_incl; [apply T | exact Hf].
  - (* TReFlight *) destruct fr; fin.
  - (* TRePopulate *) fin.
  - (* TRePublish *)
    destruct T as [T1 T2]. fin.
    intros l Hl. inversion Hl; subst. auto.
  - (* TReLeave *) fin.
  - (* TNotifyWrite *)
    fin;
      try apply in_add_pack;
      try (match goal with |- incl _ _ => apply incl_add_pack end);
      try (eapply incl_tran; [exact ID | apply incl_add_pack]).
    intros l Hl. destruct (IP l Hl). split; [assumption|]. eapply incl_tran; [eassumption | apply incl_add_pack].
  - (* TNotifyPublish *)
    destruct T as [T1 T2]. destruct pb as [l0|]; [|congruence].
    fin.
    intros l Hl. inversion Hl; subst. destruct (IP l0 eq_refl) as [A B]. split.
    + eapply incl_tran; [exact A | apply incl_add_pack].
    + now apply add_pack_incl.
  - (* TExtPack *)
    fin.
    + apply incl_add_pack.
    + eapply incl_tran; [exact ID | apply incl_add_pack].
    + intros l Hl. destruct (IP l Hl). split; [assumption|]. eapply incl_tran; [eassumption | apply incl_add_pack].
  - (* TExtLoose *)
    fin.
    + intros j Hj. now apply sub_setbit.
    + intros j Hj. apply sub_setbit. auto.
Qed.

Lemma Forall_upd : forall A (P : A -> Prop) l i x, Forall P l -> P x -> Forall P (upd l i x).
Proof.
  intros A P l. induction l as [|y r IH]; intros i x F Hx; cbn; [constructor|].
  inversion F; subst. destruct i; constructor; auto.
Qed.

Lemma step_inv : forall st i, inv st -> inv (step st i) /\ sh_le (sh st) (sh (step st i)).
Proof.
  intros [s ts] i [I F]. unfold step. cbn [threads sh] in *.
  destruct (nth_error ts i) as [t|] eqn:N; [|split; [split; assumption | apply sh_le_refl]].
  assert (T : thread_ok s t) by (eapply Forall_forall; [exact F | eapply nth_error_In; eauto]).
  destruct (step_thread_ok s t I T) as (L & T' & I'). destruct (step_thread s t) as [s' t'].
  split; [|exact L]. split; [exact I'|]. cbn.
  apply Forall_upd; [|exact T'].
  eapply Forall_impl; [|exact F]. intros a Ha. eapply thread_ok_le; eauto.
Qed.

Lemma sh_le_trans : forall a b c, sh_le a b -> sh_le b c -> sh_le a c.
Proof.
  intros a b c [A1 A2 A3 A4] [B1 B2 B3 B4]. constructor; auto.
  - eapply incl_tran; eauto.
  - intros k H. auto.
  - lia.
Qed.

Lemma run_inv : forall sched st, inv st -> inv (run st sched) /\ sh_le (sh st) (sh (run st sched)).
Proof.
  induction sched as [|i r IH]; intros st I; cbn.
  - split; [assumption | apply sh_le_refl].
  - destruct (step_inv st i I) as [I1 L1]. destruct (IH _ I1) as [I2 L2].
    split; [assumption | eapply sh_le_trans; eauto].
Qed.

(* every thread at the start of its program *)
Definition starting (t : thread) : bool :=
  match t with
  | TLookup _ RqCheck | TNotify _ RqCheck | TReFlight | TExtPack _ | TExtLoose _ => true
  | _ => false
  end.

Lemma inv_init : forall ts, forallb starting ts = true -> inv (init_state ipacks iloose ts).
Proof.
  intros ts H. split.
  - unfold sinv. cbn. repeat split; auto using incl_refl, sub_refl; try discriminate; lia.
  - cbn. apply Forall_forall. intros t Ht. rewrite forallb_forall in H. specialize (H t Ht).
    destruct t; cbn in *; try discriminate; auto; destruct r; cbn in *; try discriminate; auto.
Qed.

End Inv.

Theorem lookup_stable : forall ipacks iloose ts sched k b,
  forallb starting ts = true ->
  let st := run (init_state ipacks iloose ts) sched in
  In (TLookupDone k b) (threads st) ->
  (init_has ipacks iloose k = true -> b = true) /\
  (now_has (sh st) k = false -> b = false).
Proof.
  intros ipacks iloose ts sched k b S st H.
  destruct (run_inv ipacks iloose sched _ (inv_init ipacks iloose ts S)) as [[I F] _].
  fold st in I, F. rewrite Forall_forall in F. specialize (F _ H). cbn in F. destruct F as [A B].
  split; [assumption|]. intros N. destruct b; [|reflexivity]. rewrite (B eq_refl) in N. discriminate.
Qed.

Theorem snapshot_consistent : forall ipacks iloose ts sched,
  forallb starting ts = true ->
  let st := run (init_state ipacks iloose ts) sched in
  (forall l, pub (sh st) = Some l -> incl ipacks l /\ incl l (disk (sh st))) /\
  (forall k snap, In (TLookupSearch k snap) (threads st) -> incl ipacks snap /\ incl snap (disk (sh st))) /\
  (forall k, In (TLookupSnap k) (threads st) -> pub (sh st) <> None) /\
  (forall p, In (TNotifyPublish p) (threads st) -> pub (sh st) <> None) /\
  panicked (sh st) = false.
Proof.
  intros ipacks iloose ts sched S st.
  destruct (run_inv ipacks iloose sched _ (inv_init ipacks iloose ts S)) as [[I F] _].
  fold st in I, F. rewrite Forall_forall in F. destruct I as (ID & IL & IP & IG & IN).
  repeat split; auto.
  - apply (IP l H). - apply (IP l H).
  - apply (F _ H). - apply (F _ H).
  - intros k H. apply (F _ H).
  - intros p H. apply (F _ H).
Qed.

Theorem published_forever : forall ipacks iloose ts sched1 sched2,
  forallb starting ts = true ->
  pub (sh (run (init_state ipacks iloose ts) sched1)) <> None ->
  pub (sh (run (init_state ipacks iloose ts) (sched1 ++ sched2))) <> None.
Proof.
  intros ipacks iloose ts sched1 sched2 S H. unfold run in *. rewrite fold_left_app.
  destruct (run_inv ipacks iloose sched1 _ (inv_init ipacks iloose ts S)) as [I1 _].
  destruct (run_inv ipacks iloose sched2 _ I1) as [_ L]. now apply L.
Qed.

(* index sets built by populateIndex are installed or closed, never lost *)
Definition holds (t : thread) : nat :=
  match t with
  | TLookup _ (RqPublish _) | TNotify _ (RqPublish _) | TRePublish _ => 1
  | _ => 0
  end.
Definition holders (ts : list thread) : nat := fold_right (fun t n => holds t + n)%nat O ts.

Lemma rq_step_count : forall s r,
  let s' := fst (rq_step s r) in let r' := snd (rq_step s r) in
  (n_open s' + n_pub s + n_closed s + match r with RqPublish _ => 1 | _ => 0 end =
   n_open s + n_pub s' + n_closed s' + match r' with RqPublish _ => 1 | _ => 0 end)%nat.
Proof.
  intros [dk dl pb fp gp fr gr no np nc pn] r.
  destruct r; cbn; try destruct pb; try destruct fp; try destruct (Nat.ltb g gp); cbn; lia.
Qed.

Lemma step_thread_count : forall s t,
  let s' := fst (step_thread s t) in let t' := snd (step_thread s t) in
  (n_open s' + n_pub s + n_closed s + holds t = n_open s + n_pub s' + n_closed s' + holds t')%nat.
Proof.
  intros s t. destruct t; cbn [step_thread].
  1, 11: (* requireIndex *)
    (pose proof (rq_step_count s r) as Q; destruct r; cbn [step_thread];
     try (revert Q; destruct (rq_step s _) as [s1 r1]; cbn; destruct r1; cbn; lia); cbn; lia).
  (* every other step writes the counters at most once: by cases on what it tests *)
  all: destruct s as [dk dl pb fp gp fr gr no np nc pn]; cbn;
       try destruct pb; try destruct fr; try destruct (Nat.ltb _ _); cbn; lia.
Qed.

Lemma holders_upd : forall ts i t t', nth_error ts i = Some t ->
  (holders (upd ts i t') + holds t = holders ts + holds t')%nat.
Proof.
  induction ts as [|y r IH]; intros i t t' H; destruct i; cbn in *; try discriminate.
  - inversion H; subst. lia.
  - specialize (IH _ _ t' H). unfold holders in *. lia.
Qed.

Definition balanced (st : state) : Prop :=
  (n_open (sh st) = n_pub (sh st) + n_closed (sh st) + holders (threads st))%nat.

Lemma step_balanced : forall st i, balanced st -> balanced (step st i).
Proof.
  intros [s ts] i B. unfold step, balanced in *. cbn [threads sh] in *.
  destruct (nth_error ts i) as [t|] eqn:N; [|exact B].
  pose proof (step_thread_count s t) as C. destruct (step_thread s t) as [s' t']. cbn in *.
  pose proof (holders_upd _ _ _ t' N). unfold holders in *. lia.
Qed.

Theorem no_leak : forall ipacks iloose ts sched,
  forallb starting ts = true ->
  balanced (run (init_state ipacks iloose ts) sched).
Proof.
  intros ipacks iloose ts sched S.
  assert (B0 : balanced (init_state ipacks iloose ts)).
  { unfold balanced. cbn. induction ts as [|t r IH]; cbn in *; [reflexivity|].
    apply andb_true_iff in S. destruct S as [S1 S2]. specialize (IH S2).
    destruct t; cbn in *; try discriminate; try lia; destruct r0; cbn in *; try discriminate; lia. }
  revert B0. generalize (init_state ipacks iloose ts). induction sched as [|i r IH]; intros st B; cbn; [exact B|].
  apply IH. now apply step_balanced.
Qed.

