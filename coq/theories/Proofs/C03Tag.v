(* Proofs/C03Tag.v — tags: on buf[:match], go-git's stripHeaderSignatures
   equals git's two-slot remove_signature whenever the gpgsig regions are at
   most two, not adjacent, and no other gpgsig-prefixed header occurs
   (Spec/SigGuards.tag_regions_ok). *)
From Coq Require Import List NArith ZArith Bool Lia ZifyBool ZifyNat.
From GoGit Require Import Base.Out Model.ObjLines Model.Ident Model.Commit Model.Tag Model.SigPayload
     Spec.GitSig Spec.ObjWf Spec.SigGuards Proofs.ObjLinesFacts Proofs.C03Commit.
Import ListNotations.

Definition mark (s0 s1 : slot) (j : nat) : bool := in_slot s0 j || in_slot s1 j.

(* a region that ended before line i; a region whose last line so far is i-1 *)
Definition closed (i : nat) (s : slot) : Prop := exists a b, s = Some (a, b) /\ b <= i.
Definition open (i : nat) (s : slot) : Prop := exists a, s = Some (a, i) /\ a < i.

(* the scanner state before line i: k slots are closed, the next one is open iff in_sig *)
Definition inv (i : nat) (in_sig : bool) (k : nat) (s0 s1 : slot) : Prop :=
  match k, in_sig with
  | 0, false => s0 = None /\ s1 = None
  | 0, true => open i s0 /\ s1 = None
  | 1, false => closed i s0 /\ s1 = None
  | 1, true => closed i s0 /\ open i s1
  | 2, false => closed i s0 /\ closed i s1
  | _, _ => False
  end.

Lemma closed_past i s j : closed i s -> i <= j -> in_slot s j = false.
Proof. intros (a & b & -> & Hb) Hj. unfold in_slot. lia. Qed.

Lemma closed_S i s : closed i s -> closed (S i) s.
Proof. intros (a & b & -> & Hb). exists a, b. split; [reflexivity|lia]. Qed.

Lemma open_closed i s : open i s -> closed i s.
Proof. intros (a & -> & _). now exists a, i. Qed.

Lemma inv_past i in_sig k s0 s1 j : inv i in_sig k s0 s1 -> i <= j -> mark s0 s1 j = false.
Proof.
  unfold inv, mark. intros H Hj.
  destruct k as [|[|[|k]]], in_sig; try contradiction; destruct H as [H0 H1]; subst;
    rewrite ?(closed_past i s0 j), ?(closed_past i s1 j); auto using open_closed.
Qed.

Definition b2n (b : bool) : nat := if b then 1 else 0.

(* a line that is neither a continuation nor a signature header closes the open region *)
Lemma inv_close i in_sig k s0 s1 : inv i in_sig k s0 s1 ->
  let k' := if in_sig && negb (Nat.eqb k 2) then S k else k in
  inv (S i) false k' s0 s1 /\ k + b2n in_sig = k' + 0.
Proof.
  unfold inv. destruct k as [|[|[|k]]], in_sig; try contradiction; intros [H0 H1];
    (split; [|reflexivity]); split; auto using closed_S, open_closed.
Qed.

(* [res] holds final slots that mark the lines before i as s0, s1 do, and leave [out] of ls *)
Definition scanned (i : nat) (s0 s1 : slot) (ls : list bytes) (out : bytes) (res : option (slot * slot)) : Prop :=
  exists s0' s1', res = Some (s0', s1') /\ (forall j, j < i -> mark s0' s1' j = mark s0 s1 j) /\
                  drop_slots i s0' s1' ls = out.

Lemma scanned_stop i s0 s1 ls :
  (forall j, i <= j -> mark s0 s1 j = false) -> scanned i s0 s1 ls (List.concat ls) (Some (s0, s1)).
Proof.
  intros H. exists s0, s1. repeat split. revert i H.
  induction ls as [|l r IH]; intros i H; [reflexivity|]. cbn [drop_slots List.concat].
  fold (mark s0 s1 i). rewrite (H i (le_n i)), IH; [reflexivity|]. intros j Hj. apply H. lia.
Qed.

(* line i is dropped (b) or kept, under slots t0, t1 that agree with s0, s1 before i *)
Lemma scanned_step i s0 s1 t0 t1 (b : bool) l r out res :
  (forall j, j < i -> mark t0 t1 j = mark s0 s1 j) -> mark t0 t1 i = b ->
  scanned (S i) t0 t1 r out res -> scanned i s0 s1 (l :: r) ((if b then [] else l) ++ out) res.
Proof.
  intros Hlt Hi (s0' & s1' & R & P & D). exists s0', s1'. split; [exact R|]. split.
  - intros j Hj. rewrite <- (Hlt j Hj). apply P. lia.
  - cbn [drop_slots]. fold (mark s0' s1' i). now rewrite (P i (Nat.lt_succ_diag_r i)), Hi, D.
Qed.

Lemma rs_strip : forall ls i in_sig k s0 s1 nreg,
  Forall line_ok ls -> tag_regions_ok in_sig nreg ls = true -> nreg = k + b2n in_sig -> inv i in_sig k s0 s1 ->
  scanned i s0 s1 ls (strip_lines in_sig ls) (rs_scan i in_sig k s0 s1 ls).
Proof.
  induction ls as [|l r IH]; intros i in_sig k s0 s1 nreg Hok Hg Hn Hinv.
  - apply (scanned_stop i s0 s1 []). intros j. now apply inv_past with (1 := Hinv).
  - inversion Hok as [|x0 y0 Hl Hr]. subst x0 y0. cbn [rs_scan tag_regions_ok strip_lines] in *.
    rewrite <- (first_is_lf_blank _ Hl). destruct (first_is LF l) eqn:Elf.
    + (* the blank line: git stops scanning, go-git copies the rest *)
      destruct (lf_line _ Elf) as (-> & -> & ->). rewrite andb_false_r.
      apply (scanned_stop i s0 s1 (l :: r)). intros j. now apply inv_past with (1 := Hinv).
    + destruct (in_sig && first_is SPC l) eqn:Ec.
      * (* continuation line of the open region: its slot grows by one line *)
        apply andb_true_iff in Ec as [-> Esp]. destruct k as [|[|[|k]]]; try contradiction.
        -- destruct Hinv as [(a & -> & Ha) ->].
           apply (scanned_step i _ _ (Some (a, S i)) None true); unfold mark, in_slot; try (intros; lia).
           apply (IH _ true 0 _ _ nreg Hr Hg Hn). split; [exists a; split; [reflexivity|lia]|reflexivity].
        -- destruct Hinv as [H0 (a & -> & Ha)]. pose proof H0 as (a0 & b0 & -> & Hb0).
           apply (scanned_step i _ _ (Some (a0, b0)) (Some (a, S i)) true); unfold mark, in_slot; try (intros; lia).
           apply (IH _ true 1 _ _ nreg Hr Hg Hn). split; [now apply closed_S|exists a; split; [reflexivity|lia]].
      * destruct (is_sig_header l) eqn:Eh.
        -- (* a signature header opens a region: by the guard no region is open and fewer than two were seen *)
           apply andb_true_iff in Hg as [Hg Hg3]. apply andb_true_iff in Hg as [Hg1 Hg2].
           apply negb_true_iff in Hg1. subst in_sig. cbn [b2n] in Hn. rewrite Nat.add_0_r in Hn. subst nreg.
           destruct (sighdr_line _ Eh) as [-> _]. change (is_git_sig_header l) with (is_sig_header l). rewrite Eh.
           destruct k as [|[|k]]; [| |apply Nat.ltb_lt in Hg2; lia].
           ++ destruct Hinv as [-> ->].
              apply (scanned_step i _ _ (Some (i, S i)) None true); unfold mark, in_slot; try (intros; lia).
              apply (IH _ true 0 _ _ 1 Hr Hg3 eq_refl). split; [exists i; split; [reflexivity|lia]|reflexivity].
           ++ destruct Hinv as [H0 ->]. pose proof H0 as (a0 & b0 & -> & Hb0).
              apply (scanned_step i _ _ (Some (a0, b0)) (Some (i, S i)) true); unfold mark, in_slot; try (intros; lia).
              apply (IH _ true 1 _ _ 2 Hr Hg3 eq_refl). split; [now apply closed_S|exists i; split; [reflexivity|lia]].
        -- (* any other header line: kept by both; it closes an open region *)
           apply andb_true_iff in Hg as [Hg1 Hg2]. apply negb_true_iff in Hg1. rewrite Hg1.
           destruct (inv_close _ _ _ _ _ Hinv) as [Hinv' Hn']. rewrite Hn' in Hn.
           apply (scanned_step i _ _ s0 s1 false); [reflexivity|now apply inv_past with (1 := Hinv)|].
           exact (IH _ _ _ _ _ nreg Hr Hg2 Hn Hinv').
Qed.

Theorem strip_eq_remove_signature : forall buf,
  tag_regions_ok false 0 (split_lines buf) = true ->
  git_remove_signature buf = Some (strip_header_sigs buf).
Proof.
  intros buf Hg. unfold git_remove_signature, strip_header_sigs.
  destruct (rs_strip (split_lines buf) 0 false 0 None None 0 (split_lines_ok buf) Hg eq_refl (conj eq_refl eq_refl))
    as (s0' & s1' & R & _ & D).
  now rewrite R, D.
Qed.

(* what go-git hands to a verifier for a tag is git's payload, beside git's signature *)
Theorem tag_payload_sig : forall raw m,
  parse_signed_bytes raw = Some m -> tag_sig_guard raw = true ->
  git_tag_payload raw = Some (Some (strip_tag raw, skipn m raw)).
Proof.
  intros raw m Hm Hg. unfold tag_sig_guard in Hg. rewrite Hm in Hg.
  unfold git_tag_payload, strip_tag. now rewrite Hm, (strip_eq_remove_signature _ Hg).
Qed.

Theorem tag_payload_eq : forall raw m,
  parse_signed_bytes raw = Some m -> tag_sig_guard raw = true ->
  exists s, git_tag_payload raw = Some (Some (strip_tag raw, s)).
Proof. intros raw m Hm Hg. eexists. exact (tag_payload_sig _ _ Hm Hg). Qed.
