(* Proofs/C09.v — soundness of the pack reader model (Model/PackParse.v):
   whatever Parser.Parse accepts, every object it announces has the id
   H("<type> <len>\0" ++ content) of its own content, resolves through the
   declared delta structure, has a chain depth within the limit; an accepted
   pack passed every structural check of the scanner.
   The parser part rests on [resolve_steps]: resolveDeltas, whatever the order of its walk, is a
   sequence of processDelta steps ([Steps]) from the scanned cache that leaves every delta done;
   what each step keeps ([pinv] here, the growth of the cache in Proofs/C08.v) then holds at the end. *)
From Coq Require Import List NArith ZArith Bool Lia ZifyBool.
From GoGit Require Import Base.Out Base.GoInt Model.PackBytes Model.PackParse Gen.C08
  Proofs.C10Order Proofs.C10Bytes.
Import ListNotations.
Local Open Scope N_scope.

Lemma masked_bytes_bound : forall masks cmd r acc v r',
  acc < 18446744073709551616 -> masked_bytes masks cmd r acc = Some (v, r') -> v < 18446744073709551616.
Proof.
  induction masks as [|[mask shift] ms IH]; intros cmd r acc v r' Ha E; cbn [masked_bytes] in E.
  - inversion E; subst. exact Ha.
  - destruct (N.land cmd mask =? 0); [eapply IH; eauto|].
    destruct r as [|b r0]; [discriminate|]. eapply IH; [|exact E].
    apply N.mod_upper_bound. discriminate.
Qed.

Lemma invalidSize_false sz remaining :
  packfile_invalidSize (Z.of_N sz) (Z.of_N remaining) = false -> sz <= remaining.
Proof. unfold packfile_invalidSize. lia. Qed.

(* uint64 operands: if the sum wrapped it is below the first operand, which sumOverflows catches *)
Lemma invalidOffsetSize_false offset sz n :
  offset < 18446744073709551616 -> sz < 18446744073709551616 ->
  packfile_invalidOffsetSize (Z.of_N offset) (Z.of_N sz) (Z.of_N n) = false -> offset + sz <= n.
Proof.
  unfold packfile_invalidOffsetSize, packfile_sumOverflows, wrapu. change (2 ^ 64)%Z with 18446744073709551616%Z.
  intros Ho Hs E.
  pose proof (Z.div_mod (Z.of_N offset + Z.of_N sz) 18446744073709551616 ltac:(discriminate)).
  pose proof (Z.mod_pos_bound (Z.of_N offset + Z.of_N sz) 18446744073709551616 ltac:(reflexivity)).
  lia.
Qed.

Lemma blen_firstn n b : n <= blen b -> blen (firstn (N.to_nat n) b) = n.
Proof. unfold blen. rewrite firstn_length. lia. Qed.

Lemma blen_slice b off len : off + len <= blen b -> blen (slice b off len) = len.
Proof. unfold slice, blen. rewrite firstn_length, skipn_length. lia. Qed.

Lemma delta_loop_length : forall fuel src d remaining out res,
  delta_loop fuel src d remaining out = Some res -> blen res = blen out + remaining.
Proof.
  induction fuel as [|f IH]; intros src d remaining out res E; cbn [delta_loop] in E; [discriminate|].
  destruct (remaining =? 0) eqn:E0.
  - destruct d; [|discriminate]. inversion E; subst. lia.
  - destruct d as [|cmd d1]; [discriminate|].
    destruct (packfile_isCopyFromSrc (Z.of_N cmd)).
    + destruct (masked_bytes OFFSET_MASKS cmd d1 0) as [[offset d2]|] eqn:Mo; [|discriminate].
      destruct (masked_bytes SIZE_MASKS cmd d2 0) as [[sz0 d3]|] eqn:Ms; [|discriminate].
      apply masked_bytes_bound in Mo; [|lia]. apply masked_bytes_bound in Ms; [|lia].
      set (sz := if sz0 =? 0 then MAX_COPY else sz0) in *.
      assert (Hsz : sz < 18446744073709551616) by (unfold sz; destruct (sz0 =? 0); [reflexivity|exact Ms]).
      destruct (packfile_invalidSize _ _ || _) eqn:Ev; [discriminate|].
      apply orb_false_iff in Ev. destruct Ev as [Ev1 Ev2].
      apply invalidSize_false in Ev1. apply invalidOffsetSize_false in Ev2; [|assumption..].
      apply IH in E. rewrite E, blen_app, blen_slice by exact Ev2. lia.
    + destruct (packfile_isCopyFromDelta (Z.of_N cmd)); [|discriminate].
      destruct (packfile_invalidSize (Z.of_N cmd) (Z.of_N remaining)) eqn:Ev; [discriminate|].
      destruct (blen d1 <? cmd) eqn:El; [discriminate|]. apply invalidSize_false in Ev.
      apply IH in E. rewrite E, blen_app, blen_firstn by lia. lia.
Qed.

Lemma apply_delta_length src delta tsz out :
  apply_delta src delta = Some (tsz, out) -> blen out = tsz.
Proof.
  unfold apply_delta.
  destruct (leb128 10 delta 0 0) as [[srcSz d1]|]; [|discriminate].
  destruct (negb (srcSz =? blen src)); [discriminate|].
  destruct (leb128 10 d1 0 0) as [[tgtSz d2]|]; [|discriminate].
  destruct (delta_loop _ src d2 tgtSz []) as [o|] eqn:E; [|discriminate].
  intros H; inversion H; subst. apply delta_loop_length in E. cbn in E. lia.
Qed.

(* the depth rule of checkDeltaChainDepth, both paths: exactly "parent depth + 1 <= maxDeltaChainDepth" *)
Lemma chain_depth_spec pd :
  chain_depth pd = if pd + 1 <=? MAX_DEPTH then Some (pd + 1) else None.
Proof.
  destruct pd as [|p]; [reflexivity|].
  change (chain_depth (N.pos p)) with (if MAX_DEPTH <? 1 + N.pos p then None else Some (1 + N.pos p)).
  rewrite (N.add_comm 1), N.ltb_antisym. now destruct (N.pos p + 1 <=? MAX_DEPTH).
Qed.

Section Sound.
Variable hs : nat.
Variable Hsz : nat -> bytes -> bytes.
Variable inflate : bytes -> option (bytes * N).
Variable crc32 : bytes -> N.

Notation obj_id := (obj_id hs Hsz).

(* what objectEntry guarantees about an accepted entry *)
Definition entry_ok (e : ohdr) : Prop :=
  blen (oh_data e) = oh_size e /\
  (is_delta (oh_type e) = false -> oh_id e = obj_id (oh_type e) (blen (oh_data e)) (oh_data e)) /\
  (oh_type e = TOfs -> 0 < oh_base_off e < oh_off e) /\
  (oh_type e = TRef -> List.length (oh_base_id e) = hs).

Lemma scan_entry_ok pack off r e next :
  scan_entry hs Hsz inflate crc32 pack off r = Some (e, next) -> entry_ok e /\ oh_off e = off.
Proof.
  unfold scan_entry. destruct r as [|b r1]; [discriminate|].
  destruct (otype_of_num (N.land (N.shiftr b 4) 7)) as [t|]; [|discriminate].
  destruct (entry_size b r1) as [[size r2]|]; [|discriminate].
  set (base := match t with TOfs => _ | TRef => _ | _ => _ end).
  destruct base as [[[boff bid] r3]|] eqn:Eb; [|discriminate].
  destruct (inflate r3) as [[data consumed]|]; [|discriminate].
  destruct (blen data =? size) eqn:Es; [|discriminate]. apply N.eqb_eq in Es. subst size.
  intros [= <- <-]. split; [|reflexivity]. unfold entry_ok. cbn [oh_data oh_size oh_type oh_id oh_base_off oh_off oh_base_id].
  split; [reflexivity|]. split; [now intros ->|]. split; intros ->; unfold base in Eb.
  - destruct (vwint r2) as [[no r3']|]; [|discriminate].
    destruct (packfile_ValidateOFSDeltaBase (Z.of_N off) (Z.of_N no)) eqn:Ev; [discriminate|].
    inversion Eb; subst. unfold packfile_ValidateOFSDeltaBase in Ev.
    destruct ((Z.of_N no <=? 0)%Z || (Z.of_N no >=? Z.of_N off)%Z) eqn:Eo; [discriminate|]. lia.
  - destruct (take (N.of_nat hs) r2) as [[id r3']|] eqn:Et; [|discriminate].
    inversion Eb; subst. apply take_some in Et. destruct Et as [_ Hl]. unfold blen in Hl. lia.
Qed.

(* the entries are well formed and, since every entry starts where the one before it ended, at distinct offsets *)
Lemma scan_entries_ok : forall fuel pack count idx pos acc es end_,
  Forall entry_ok acc -> (forall e, In e acc -> oh_off e < pos) -> NoDup (map oh_off acc) ->
  scan_entries hs Hsz inflate crc32 fuel pack count idx pos acc = Some (es, end_) ->
  Forall entry_ok es /\ NoDup (map oh_off es).
Proof.
  induction fuel as [|f IH]; intros pack count idx pos acc es end_ Ha Hlt Hnd E; cbn [scan_entries] in E; [discriminate|].
  destruct (count <=? idx).
  - inversion E; subst. rewrite map_rev. split; [now apply Forall_rev|now apply NoDup_rev].
  - destruct (PackParse.scan_entry hs Hsz inflate crc32 pack pos (skipn (N.to_nat pos) pack)) as [[oh next]|] eqn:Ee; [|discriminate].
    destruct (next <=? pos) eqn:En; [discriminate|]. apply scan_entry_ok in Ee. destruct Ee as [Hoh <-].
    eapply IH; [| | |exact E].
    + now constructor.
    + intros e [<-|He]; [lia|]. specialize (Hlt e He). lia.
    + cbn [map]. constructor; [|exact Hnd]. intros Hin. apply in_map_iff in Hin.
      destruct Hin as (e & Ee' & He). specialize (Hlt e He). lia.
Qed.

(* what an accepted pack went through: header, the entries, the trailer *)
Lemma scan_pack_inv pack es sum :
  scan_pack hs Hsz inflate crc32 pack = Some (es, sum) ->
  firstn 4 pack = PACK_SIG /\ get32 (firstn 4 (skipn 4 pack)) = PACK_VERSION /\
  Forall entry_ok es /\ NoDup (map oh_off es) /\
  exists pos, sum = Hsz hs (firstn (N.to_nat pos) pack) /\
              firstn hs (skipn (N.to_nat pos) pack) = sum.
Proof.
  unfold scan_pack. intros E.
  destruct (take 4 pack) as [[sg r1]|] eqn:T1; [|discriminate].
  destruct (negb (bytes_eqb sg PACK_SIG)) eqn:Es; [discriminate|].
  destruct (take 4 r1) as [[vb r2]|] eqn:T2; [|discriminate].
  destruct (negb (get32 vb =? PACK_VERSION)) eqn:Ev; [discriminate|].
  destruct (take 4 r2) as [[qb r3]|] eqn:T3; [|discriminate].
  destruct (scan_entries hs Hsz inflate crc32 _ pack (get32 qb) 0 12 []) as [[es' pos]|] eqn:Ee; [|discriminate].
  destruct (take (N.of_nat hs) (skipn (N.to_nat pos) pack)) as [[sm r4]|] eqn:T4; [|discriminate].
  destruct (bytes_eqb sm (Hsz hs (firstn (N.to_nat pos) pack))) eqn:Eq; [|discriminate].
  inversion E; subst; clear E.
  apply take_inv in T1. destruct T1 as (-> & -> & L1).
  apply take_inv in T2. destruct T2 as (-> & -> & L2).
  apply take_inv in T4. destruct T4 as (-> & -> & L4).
  change (N.to_nat 4) with 4%nat in *.
  apply negb_false_iff, bytes_eqb_eq in Es. apply negb_false_iff, N.eqb_eq in Ev. apply bytes_eqb_eq in Eq.
  apply scan_entries_ok in Ee; [|constructor|intros e []|constructor].
  rewrite Nat2N.id in *. intuition eauto.
Qed.

Theorem scan_pack_wellformed pack es sum :
  scan_pack hs Hsz inflate crc32 pack = Some (es, sum) ->
  firstn 4 pack = PACK_SIG /\ get32 (firstn 4 (skipn 4 pack)) = PACK_VERSION /\
  Forall entry_ok es /\
  exists pos, sum = Hsz hs (firstn (N.to_nat pos) pack) /\
              firstn hs (skipn (N.to_nat pos) pack) = sum.
Proof. intros E. apply scan_pack_inv in E. tauto. Qed.

Theorem scan_pack_offsets pack es sum :
  scan_pack hs Hsz inflate crc32 pack = Some (es, sum) -> NoDup (map oh_off es).
Proof. intros E. apply scan_pack_inv in E. tauto. Qed.

(* the declarative resolution relation: what an entry stands for, whatever the order of the walk *)
Inductive Resolves (es : list ohdr) (ext : store) : N -> otype -> bytes -> N -> Prop :=
| R_base e : In e es -> is_delta (oh_type e) = false ->
    Resolves es ext (oh_off e) (oh_type e) (oh_data e) 0
| R_ofs e t c d tsz out : In e es -> oh_type e = TOfs ->
    Resolves es ext (oh_base_off e) t c d -> apply_delta c (oh_data e) = Some (tsz, out) ->
    Resolves es ext (oh_off e) t out (d + 1)
| R_ref e boff t c d tsz out : In e es -> oh_type e = TRef ->
    Resolves es ext boff t c d -> obj_id t (blen c) c = oh_base_id e ->
    apply_delta c (oh_data e) = Some (tsz, out) ->
    Resolves es ext (oh_off e) t out (d + 1)
| R_ext e t c tsz out : In e es -> oh_type e = TRef ->
    store_get ext (oh_base_id e) = Some (t, c) ->
    apply_delta c (oh_data e) = Some (tsz, out) ->
    Resolves es ext (oh_off e) t out 1.

End Sound.

Section Parser.
Variable hs : nat.
Variable Hsz : nat -> bytes -> bytes.

Notation obj_id := (obj_id hs Hsz).
Notation entry_ok := (entry_ok hs Hsz).
Notation Resolves := (Resolves hs Hsz).

(* [r_depth] is the number of delta links between the object and the whole object (or external base) under it *)
Definition good (es : list ohdr) (ext : store) (o : robj) : Prop :=
  r_id o = obj_id (r_type o) (blen (r_content o)) (r_content o) /\
  r_size o = blen (r_content o) /\
  r_depth o <= MAX_DEPTH /\
  Resolves es ext (r_off o) (r_type o) (r_content o) (r_depth o).

Definition pinv (es : list ohdr) (ext : store) (s : pstate) : Prop :=
  Forall (good es ext) (p_oi s) /\
  (forall id v, store_get (p_ext s) id = Some v -> store_get ext id = Some v).

(* where processDelta found the parent (type, content, depth) of [d], and the thin-pack
   placeholders known afterwards *)
Inductive Parent (ext : store) (s : pstate) (d : ohdr) : otype -> bytes -> N -> store -> Prop :=
| P_ofs p : oh_type d = TOfs -> by_offset s (oh_base_off d) = Some p ->
    Parent ext s d (r_type p) (r_content p) (r_depth p) (p_ext s)
| P_ref p : oh_type d <> TOfs -> by_hash s (oh_base_id d) = Some p ->
    Parent ext s d (r_type p) (r_content p) (r_depth p) (p_ext s)
| P_seen t c : oh_type d <> TOfs -> store_get (p_ext s) (oh_base_id d) = Some (t, c) ->
    Parent ext s d t c 0 (p_ext s)
| P_ext t c : oh_type d <> TOfs -> store_get ext (oh_base_id d) = Some (t, c) ->
    Parent ext s d t c 0 ((oh_base_id d, (t, c)) :: p_ext s).

(* processDelta puts one object, at the offset of the delta, on top of the cache and marks the delta done *)
Lemma process_delta_some ext s d s' :
  process_delta hs Hsz ext s d = Some s' ->
  exists pt pc pd xs tsz out,
    Parent ext s d pt pc pd xs /\ pd + 1 <= MAX_DEPTH /\ oh_data d <> [] /\
    apply_delta pc (oh_data d) = Some (tsz, out) /\
    s' = mkP (mkR (oh_off d) pt tsz (obj_id pt tsz out) out (oh_crc d) (pd + 1) :: p_oi s)
             (oh_off d :: p_done s) xs.
Proof.
  unfold process_delta.
  set (parent := match oh_type d with TOfs => _ | _ => _ end).
  assert (Hp : forall pt pc pd s1, parent = Some (pt, pc, pd, s1) ->
               Parent ext s d pt pc pd (p_ext s1) /\ p_oi s1 = p_oi s /\ p_done s1 = p_done s).
  { unfold parent. intros pt pc pd s1.
    set (found := match by_hash s (oh_base_id d) with Some p => _ | None => _ end).
    assert (Href : oh_type d <> TOfs -> found = Some (pt, pc, pd, s1) ->
                   Parent ext s d pt pc pd (p_ext s1) /\ p_oi s1 = p_oi s /\ p_done s1 = p_done s).
    { intros Hn Ep. unfold found in Ep.
      destruct (by_hash s (oh_base_id d)) eqn:Eh; [inversion Ep; subst; eauto using Parent|].
      destruct (store_get (p_ext s) (oh_base_id d)) as [[t c]|] eqn:E1; [inversion Ep; subst; eauto using Parent|].
      destruct (store_get ext (oh_base_id d)) as [[t c]|] eqn:E2; [|discriminate].
      inversion Ep; subst. cbn [p_oi p_done p_ext]. eauto using Parent. }
    destruct (oh_type d) eqn:Et; [apply Href; congruence.. | |apply Href; congruence].
    destruct (by_offset s (oh_base_off d)) eqn:Eo; [|discriminate]. intros Ep. inversion Ep; subst. eauto using Parent. }
  destruct parent as [[[[pt pc] pd] s1]|]; [|discriminate].
  destruct (Hp pt pc pd s1 eq_refl) as (P & <- & <-).
  rewrite chain_depth_spec. destruct (pd + 1 <=? MAX_DEPTH) eqn:Edp; [|discriminate].
  destruct (oh_data d) as [|x dd] eqn:Edata; [discriminate|]. rewrite <- Edata.
  destruct (apply_delta pc (oh_data d)) as [[tsz out]|] eqn:Ea; [|discriminate].
  intros E; inversion E; subst. exists pt, pc, pd, (p_ext s1), tsz, out.
  repeat split; [exact P|lia|congruence|exact Ea].
Qed.

Lemma process_delta_inv es ext s d s' :
  pinv es ext s -> In d es -> is_delta (oh_type d) = true ->
  process_delta hs Hsz ext s d = Some s' -> pinv es ext s'.
Proof.
  intros [Ig Ie] Hd Ht E.
  destruct (process_delta_some ext s d s' E) as (pt & pc & pd & xs & tsz & out & P & Hpd & _ & Ea & ->).
  pose proof (apply_delta_length _ _ _ _ Ea) as <-.
  assert (Er : oh_type d <> TOfs -> oh_type d = TRef) by (destruct (oh_type d); easy).
  rewrite Forall_forall in Ig.
  assert (Hp : (forall id v, store_get xs id = Some v -> store_get ext id = Some v) /\
               Resolves es ext (oh_off d) pt out (pd + 1)).
  { destruct P as [p Et Ep | p Et Ep | t c Et Eg | t c Et Eg]; (split; [try exact Ie|]).
    - apply find_some in Ep. destruct Ep as [Hin Hoff]. apply N.eqb_eq in Hoff.
      destruct (Ig p Hin) as (_ & _ & _ & G). rewrite Hoff in G. eapply R_ofs; eauto.
    - apply find_some in Ep. destruct Ep as [Hin Hid]. apply bytes_eqb_eq in Hid.
      destruct (Ig p Hin) as (G & _ & _ & G'). eapply R_ref; eauto. now rewrite <- G.
    - eapply R_ext; eauto.
    - intros id v. cbn [store_get]. destruct (bytes_eqb (oh_base_id d) id) eqn:Eb; [|apply Ie].
      apply bytes_eqb_eq in Eb. subst id. intros [= <-]. exact Eg.
    - eapply R_ext; eauto. }
  split; cbn [p_oi p_ext]; [|apply Hp]. apply Forall_forall. intros o [<-|Ho]; [|now apply Ig].
  unfold good. cbn [r_id r_type r_content r_size r_depth r_off]. repeat split; [exact Hpd|apply Hp].
Qed.

(* a fold that stops at the first failure relates its ends by any preorder its steps respect, and
   every element was stepped over on the way *)
Lemma fold_opt_rel {A B} (R : A -> A -> Prop) (step : option A -> B -> option A) l :
  (forall a, R a a) -> (forall a b c, R a b -> R b c -> R a c) -> (forall b, step None b = None) ->
  (forall a b a', In b l -> step (Some a) b = Some a' -> R a a') ->
  forall acc r, fold_left step l acc = Some r ->
  exists a, acc = Some a /\ R a r /\
            forall b, In b l -> exists a1 a2, step (Some a1) b = Some a2 /\ R a2 r.
Proof.
  intros Rr Rt Hn. induction l as [|b l IH]; intros Hs acc r E; cbn [fold_left] in E.
  - exists r. repeat split; [exact E|apply Rr|intros b []].
  - destruct (IH (fun a b' a' Hb => Hs a b' a' (or_intror Hb)) _ _ E) as (a1 & E1 & R1 & Hl).
    destruct acc as [a|]; [|now rewrite Hn in E1].
    exists a. repeat split; [eapply Rt; [eapply Hs; [now left|exact E1]|exact R1]|].
    intros b' [<-|Hb']; [eauto|now apply Hl].
Qed.

Section Walk.
Variable ext : store.
Variable D : ohdr -> Prop.

(* whatever its order, the walk is a sequence of processDelta steps on deltas of [D] *)
Inductive Steps : pstate -> pstate -> Prop :=
| steps_refl s : Steps s s
| steps_step s d s1 s' : D d -> process_delta hs Hsz ext s d = Some s1 -> Steps s1 s' -> Steps s s'.

Lemma Steps_trans a b c : Steps a b -> Steps b c -> Steps a c.
Proof. induction 1; eauto using Steps. Qed.

Lemma process_delta_done s d s' off :
  process_delta hs Hsz ext s d = Some s' -> is_done s' off = (off =? oh_off d) || is_done s off.
Proof.
  intros E. destruct (process_delta_some ext s d s' E) as (pt & pc & pd & xs & tsz & out & _ & _ & _ & _ & ->).
  reflexivity.
Qed.

Lemma Steps_done s s' off : Steps s s' -> is_done s off = true -> is_done s' off = true.
Proof.
  induction 1 as [|s d s1 s' _ E _ IH]; [auto|]. intros Hd. apply IH.
  rewrite (process_delta_done _ _ _ _ E), Hd. apply orb_true_r.
Qed.

(* one child of the walk: skipped when done, else resolved and walked below by [v] *)
Definition child (v : bytes -> N -> pstate -> option pstate) (s : pstate) (c : ohdr) : option pstate :=
  if is_done s (oh_off c) then Some s else
  match process_delta hs Hsz ext s c with
  | None => None
  | Some s1 => match by_offset s1 (oh_off c) with None => None | Some o => v (r_id o) (r_off o) s1 end
  end.

Section Children.
Variable v : bytes -> N -> pstate -> option pstate.
Hypothesis v_steps : forall pid poff s s', v pid poff s = Some s' -> Steps s s'.

Lemma child_steps s c s' : D c -> child v s c = Some s' -> Steps s s' /\ is_done s' (oh_off c) = true.
Proof.
  intros Hc. unfold child. destruct (is_done s (oh_off c)) eqn:Ed.
  - intros [= <-]. split; [apply steps_refl|exact Ed].
  - destruct (process_delta hs Hsz ext s c) as [s1|] eqn:Ep; [|discriminate].
    destruct (by_offset s1 (oh_off c)) as [o|]; [|discriminate]. intros Ev. apply v_steps in Ev. split.
    + eapply steps_step; eauto.
    + apply (Steps_done s1); [exact Ev|]. rewrite (process_delta_done _ _ _ _ Ep), N.eqb_refl. reflexivity.
Qed.

Lemma children_steps l acc r : (forall c, In c l -> D c) ->
  fold_left (fun acc c => match acc with None => None | Some s => child v s c end) l acc = Some r ->
  exists s, acc = Some s /\ Steps s r /\ forall c, In c l -> is_done r (oh_off c) = true.
Proof.
  intros Hl E. apply fold_opt_rel with (R := Steps) in E;
    [|apply steps_refl|apply Steps_trans|reflexivity|intros a c a' Hc Ec; now apply (child_steps a c a' (Hl c Hc))].
  destruct E as (s & -> & S & Hdone). exists s. repeat split; [exact S|].
  intros c Hc. destruct (Hdone c Hc) as (a1 & a2 & Ec & S2).
  apply (Steps_done a2); [exact S2|]. now apply (child_steps a1 c a2 (Hl c Hc)).
Qed.
End Children.

Lemma visit_steps refs ofss : (forall c, In c refs -> D c) -> (forall c, In c ofss -> D c) ->
  forall fuel pid poff s s', visit hs Hsz fuel ext refs ofss pid poff s = Some s' -> Steps s s'.
Proof.
  intros Hr Ho. induction fuel as [|f IH]; intros pid poff s s' E; cbn [visit] in E; [discriminate|].
  apply (children_steps _ IH) in E; [|intros c Hc; apply filter_In in Hc; apply Ho, Hc].
  destruct E as (s1 & E & S2 & _).
  apply (children_steps _ IH) in E; [|intros c Hc; apply filter_In in Hc; apply Hr, Hc].
  destruct E as (s0 & [= <-] & S1 & _). exact (Steps_trans _ _ _ S1 S2).
Qed.
End Walk.

(* the cache after the scan: the whole objects, in pack order *)
Definition whole (e : ohdr) : robj := mkR (oh_off e) (oh_type e) (oh_size e) (oh_id e) (oh_data e) (oh_crc e) 0.
Definition scanned (es : list ohdr) : pstate :=
  mkP (rev (map whole (filter (fun e => negb (is_delta (oh_type e))) es))) [] [].

(* resolveDeltas: some sequence of processDelta steps from the scanned cache, after which every delta is done *)
Theorem resolve_steps ext es s : resolve hs Hsz ext es = Some s ->
  Steps ext (fun d => In d es /\ is_delta (oh_type d) = true) (scanned es) s /\
  forall d, In d es -> is_delta (oh_type d) = true -> is_done s (oh_off d) = true.
Proof.
  unfold resolve.
  set (D := fun d => In d es /\ is_delta (oh_type d) = true).
  set (refs := filter (fun e => match oh_type e with TRef => true | _ => false end) es).
  set (ofss := filter (fun e => match oh_type e with TOfs => true | _ => false end) es).
  assert (Hr : forall c, In c refs -> D c)
    by (intros c Hc; apply filter_In in Hc; split; [apply Hc|now destruct (oh_type c)]).
  assert (Ho : forall c, In c ofss -> D c)
    by (intros c Hc; apply filter_In in Hc; split; [apply Hc|now destruct (oh_type c)]).
  pose proof (visit_steps ext D refs ofss Hr Ho (S (List.length es))) as Hv.
  destruct (fold_left _ refs _) as [s2|] eqn:E2; [|discriminate].
  destruct (forallb _ ofss) eqn:Eall; [|discriminate]. intros [= ->].
  apply (children_steps ext D _ Hv) in E2; [|exact Hr]. destruct E2 as (s1 & E1 & S2 & Drefs).
  apply fold_opt_rel with (R := Steps ext D) in E1;
    [|apply steps_refl|apply Steps_trans|reflexivity|intros a b a' _; apply Hv].
  destruct E1 as (s0 & [= <-] & S1 & _). split; [exact (Steps_trans _ _ _ _ _ S1 S2)|].
  intros d Hd Ht. destruct (oh_type d) eqn:Et; try discriminate.
  - rewrite forallb_forall in Eall. apply Eall, filter_In. now rewrite Et.
  - apply Drefs, filter_In. now rewrite Et.
Qed.

Theorem resolve_inv ext es s :
  Forall entry_ok es -> resolve hs Hsz ext es = Some s -> pinv es ext s.
Proof.
  intros Hok E. apply resolve_steps in E. destruct E as [S _].
  assert (I0 : pinv es ext (scanned es)).
  { split; [|discriminate]. apply Forall_forall. intros o Ho. apply in_rev, in_map_iff in Ho.
    destruct Ho as (e & <- & He). apply filter_In in He. destruct He as [Hi Ht]. apply negb_true_iff in Ht.
    rewrite Forall_forall in Hok. destruct (Hok e Hi) as (K1 & K2 & _).
    unfold good, whole. cbn [r_id r_type r_content r_size r_depth r_off].
    repeat split; [now apply K2|now rewrite K1|discriminate|now apply R_base]. }
  induction S as [|s d s1 s' [Hd Ht] E _ IH]; [exact I0|]. apply IH. eapply process_delta_inv; eauto.
Qed.

Theorem parse_sound inflate crc32 ext pack objs sum :
  parse hs Hsz inflate crc32 ext pack = Some (objs, sum) ->
  exists es, scan_pack hs Hsz inflate crc32 pack = Some (es, sum) /\
  forall o, In o objs ->
    r_id o = obj_id (r_type o) (blen (r_content o)) (r_content o) /\
    r_size o = blen (r_content o) /\ r_depth o <= MAX_DEPTH /\
    Resolves es ext (r_off o) (r_type o) (r_content o) (r_depth o).
Proof.
  unfold parse. destruct (scan_pack hs Hsz inflate crc32 pack) as [[es sm]|] eqn:Es; [|discriminate].
  destruct (resolve hs Hsz ext es) as [s|] eqn:Er; [|discriminate].
  intros E; inversion E; subst; clear E. exists es. split; [reflexivity|].
  apply scan_pack_wellformed in Es. destruct Es as (_ & _ & Hok & _).
  apply resolve_inv in Er; [|exact Hok]. destruct Er as [Ig _].
  intros o Ho. apply in_rev in Ho. rewrite Forall_forall in Ig. exact (Ig o Ho).
Qed.

End Parser.
