(* Proofs/C20.v — the cached index view equals the on-disk index.  One invariant of the
   aliasing model, [Inv deep], serves both copy modes: it is kept by every operation when
   copyIndex copies the cells, and by every operation but a write through a returned entry
   when it does not; the shallow counter-example closes the file. *)
From Coq Require Import List NArith Arith Lia Bool.
From GoGit Require Import Base.Out Model.IndexCache.
Import ListNotations.

(* the cache is consulted only when its key equals the file's key; then it must hold the file's content *)
Definition cache_ok (s : st) : Prop :=
  match cache s, disk s with
  | Some (addrs, k), Some (content, k') => k = k' -> view s addrs = content
  | _, _ => True
  end.
(* what Index() returns now is what decoding .git/index returns *)
Definition reads_disk (deep : bool) (s : st) : Prop := fst (read_now deep s) = disk_content s.

Fixpoint no_mutate (ops : list op) : bool :=
  match ops with
  | [] => true
  | OMutate _ _ _ :: _ => false
  | _ :: r => no_mutate r
  end.

Lemma cache_ok_iff s :
  cache_ok s <-> forall c k content, cache s = Some (c, k) -> disk s = Some (content, k) -> view s c = content.
Proof.
  unfold cache_ok. split.
  - intros O c k content Ec Ed. rewrite Ec, Ed in O. now apply O.
  - intros H. destruct (cache s) as [[c k]|]; [|exact I]. destruct (disk s) as [[content k']|]; [|exact I].
    intros <-. now apply (H c k).
Qed.

Definition bounded (s : st) : Prop := forall a v, In (a, v) (heap s) -> a < next s.

Definition lt_all (n : nat) (l : list nat) : Prop := Forall (fun a => a < n) l.

Lemma lt_all_In n l : lt_all n l <-> forall a, In a l -> a < n.
Proof. apply Forall_forall. Qed.

Lemma in_alloc vals s a : In a (fst (alloc vals s)) <-> next s <= a < next s + List.length vals.
Proof. apply in_seq. Qed.

Lemma lookup_app_fresh a n vals h :
  a < n -> lookup a (combine (seq n (List.length vals)) vals ++ h) = lookup a h.
Proof.
  revert n. induction vals as [|v vals IH]; intros n Ha; cbn; [reflexivity|].
  destruct (Nat.eqb_spec a n); [lia|]. apply IH. lia.
Qed.

Lemma view_alloc_old s vals l : lt_all (next s) l -> view (snd (alloc vals s)) l = view s l.
Proof.
  intros Hl. apply map_ext_in. intros a Ha. apply lt_all_In with (a := a) in Hl; [|exact Ha].
  unfold deref, alloc. cbn [snd heap]. now rewrite lookup_app_fresh.
Qed.

Lemma view_alloc_new s vals : view (snd (alloc vals s)) (fst (alloc vals s)) = vals.
Proof.
  unfold view, deref, alloc. cbn [fst snd heap]. generalize (next s) (heap s).
  induction vals as [|x vals IH]; intros n h; [reflexivity|].
  cbn [List.length seq combine app map lookup]. rewrite Nat.eqb_refl. f_equal.
  rewrite <- (IH (S n) h) at 2. apply map_ext_in. intros a Ha. apply in_seq in Ha.
  destruct (Nat.eqb_spec a n); [lia|reflexivity].
Qed.

Lemma view_length s l : List.length (view s l) = List.length l.
Proof. apply map_length. Qed.

Lemma set_cache_fields c s :
  heap (set_cache c s) = heap s /\ next (set_cache c s) = next s /\ disk (set_cache c s) = disk s /\
  clock (set_cache c s) = clock s /\ cache (set_cache c s) = c /\ handles (set_cache c s) = handles s.
Proof. repeat split. Qed.

Lemma view_set_cache c s l : view (set_cache c s) l = view s l.
Proof. reflexivity. Qed.

(* a write to cell [a] is invisible through a slice that does not hold [a] *)
Lemma view_write s a v nx dk ck ca hs l :
  ~ In a l -> view (mkSt ((a, v) :: heap s) nx dk ck ca hs) l = view s l.
Proof.
  intros Hl. apply map_ext_in. intros b Hb. unfold deref. cbn [heap lookup].
  destruct (Nat.eqb_spec b a) as [->|_]; [contradiction|reflexivity].
Qed.

(* pointwise facts about a slice survive the edits callers make *)
Lemma Forall_set_nth {A} (P : A -> Prop) k x l : Forall P l -> P x -> Forall P (set_nth k x l).
Proof. intros H Hx. revert k. induction H; intros [|k]; cbn; auto. Qed.

Lemma Forall_remove_nth {A} (P : A -> Prop) k l : Forall P l -> Forall P (remove_nth k l).
Proof. intros H. revert k. induction H; intros [|k]; cbn; auto. Qed.

Lemma handles_impl (P Q : nat -> Prop) (hs : list (list nat)) :
  (forall a, P a -> Q a) -> Forall (Forall P) hs -> Forall (Forall Q) hs.
Proof. intros PQ. apply Forall_impl. intros l. now apply Forall_impl. Qed.

Lemma Forall_sort_addrs (P : nat -> Prop) s l : Forall P l -> Forall P (sort_addrs s l).
Proof.
  unfold sort_addrs. induction 1 as [|x l Hx _ IH]; cbn; [constructor|].
  induction IH as [|y r Hy Hr IH]; cbn; [auto|]. destruct (N.leb _ _); auto.
Qed.

Definition cached (s : st) : list nat := match cache s with Some (c, _) => c | None => [] end.
Definition key_le {A} (n : nat) (f : option (A * nat)) : Prop := match f with Some (_, k) => k <= n | None => True end.

(* an address a caller may hold: allocated and, with deep copies, not a cell of the cache *)
Definition own (deep : bool) (s : st) (a : nat) : Prop := a < next s /\ (deep = true -> ~ In a (cached s)).

(* stat keys never run ahead of the clock, so the key of the next write is new *)
Record Inv (deep : bool) (s : st) : Prop := mkInv {
  inv_handles : Forall (Forall (own deep s)) (handles s);
  inv_cached : lt_all (next s) (cached s);
  inv_cache_key : key_le (clock s) (cache s);
  inv_disk_key : key_le (clock s) (disk s);
  inv_ok : cache_ok s }.

Lemma Inv_init deep : Inv deep init.
Proof. split; cbn; auto. constructor. Qed.

Lemma Inv_handle deep s h l : Inv deep s -> nth_error (handles s) h = Some l -> Forall (own deep s) l.
Proof. intros I E. apply nth_error_In in E. revert l E. apply Forall_forall, I. Qed.

Lemma Inv_set_handles deep hs s : Inv deep s -> Forall (Forall (own deep s)) hs -> Inv deep (set_handles hs s).
Proof. intros [_ C K D O] H. now split. Qed.

Lemma Inv_update_handle deep h l s :
  Inv deep s -> Forall (own deep s) l -> Inv deep (set_handles (set_nth h l (handles s)) s).
Proof. intros I L. apply Inv_set_handles; [exact I|]. apply Forall_set_nth; [apply I|exact L]. Qed.

(* cache_ok looks at the cache, the file, and the cells of the cache only *)
Lemma cache_ok_same s s' :
  cache s' = cache s -> disk s' = disk s -> view s' (cached s) = view s (cached s) -> cache_ok s -> cache_ok s'.
Proof.
  unfold cache_ok, cached. intros -> -> V O. destruct (cache s) as [[c k]|]; [|exact I].
  destruct (disk s) as [[content k']|]; [|exact I]. intros E. rewrite V. now apply O.
Qed.

Lemma own_alloc_old deep vals s a : own deep s a -> own deep (snd (alloc vals s)) a.
Proof. intros [L F]. split; [cbn; lia|exact F]. Qed.

Lemma own_alloc_new deep vals s a :
  lt_all (next s) (cached s) -> In a (fst (alloc vals s)) -> own deep (snd (alloc vals s)) a.
Proof.
  intros C Ha. apply in_alloc in Ha. split; [cbn; lia|]. intros _ Hc.
  apply (proj1 (lt_all_In _ _) C) in Hc. lia.
Qed.

Lemma Inv_alloc deep vals s : Inv deep s -> Inv deep (snd (alloc vals s)).
Proof.
  intros [H C K D O]. split; try assumption.
  - revert H. apply handles_impl, own_alloc_old.
  - eapply Forall_impl; [|exact C]. cbn. intros a. lia.
  - apply (cache_ok_same s); try reflexivity; [|exact O]. now apply view_alloc_old.
Qed.

(* fresh cells holding the file's content become the cache, under the file's key:
   the decode path of Index(), and the copy SetIndex caches when copies are deep *)
Lemma Inv_cache_fresh deep vals key s :
  Inv deep s -> disk s = Some (vals, key) ->
  Inv deep (set_cache (Some (fst (alloc vals s), key)) (snd (alloc vals s))).
Proof.
  intros [H C K D O] Ed. split.
  - revert H. apply handles_impl. intros a [L _].
    split; [cbn; lia|]. intros _ Ha. apply (in_alloc vals s) in Ha. lia.
  - apply lt_all_In. intros a Ha. apply (in_alloc vals s) in Ha. cbn. lia.
  - rewrite Ed in D. exact D.
  - exact D.
  - apply cache_ok_iff. intros c k content [= <- <-] Ed'.
    cbn in Ed'. rewrite Ed in Ed'. injection Ed' as <-. apply view_alloc_new.
Qed.

Definition index_post (deep : bool) (content : list val) (r : list nat * st) : Prop :=
  Inv deep (snd r) /\ Forall (own deep (snd r)) (fst r) /\ view (snd r) (fst r) = content.

(* copyIndex of a cache entry stored under the file's key *)
Lemma copy_cached deep s c key content :
  Inv deep s -> cache s = Some (c, key) -> disk s = Some (content, key) ->
  index_post deep content (copy_index deep c s).
Proof.
  intros I Ec Ed.
  assert (V : view s c = content) by (now apply (proj1 (cache_ok_iff s) (inv_ok _ _ I) c key)).
  assert (C : cached s = c) by (unfold cached; now rewrite Ec).
  pose proof (inv_cached _ _ I) as L. rewrite C in L. destruct deep; cbn [copy_index].
  - split; [now apply Inv_alloc|split].
    + apply Forall_forall. intros a. apply own_alloc_new. now rewrite C.
    + now rewrite view_alloc_new.
  - split; [exact I|split]; [|exact V]. eapply Forall_impl; [|exact L]. now split.
Qed.

(* no file: cache.Clear() *)
Lemma Inv_clear deep s : Inv deep s -> Inv deep (set_cache None s).
Proof.
  intros [H C K D O]. split; try assumption.
  - revert H. apply handles_impl. intros a [L _]. now split.
  - constructor.
  - exact I.
  - apply cache_ok_iff. discriminate.
Qed.

Lemma index_core_spec deep s : Inv deep s -> index_post deep (disk_content s) (index_core deep s).
Proof.
  intros I. unfold index_core, disk_content. destruct (disk s) as [[content key]|] eqn:Ed.
  - pose proof (copy_cached deep _ _ key content (Inv_cache_fresh deep content key s I Ed) eq_refl Ed) as Miss.
    destruct (cache s) as [[c k]|] eqn:Ec; [|exact Miss].
    destruct (Nat.eqb_spec k key) as [->|_]; [|exact Miss].
    now apply copy_cached with key.
  - split; [now apply Inv_clear|split; constructor].
Qed.

Lemma reads_disk_inv deep s : Inv deep s -> reads_disk deep s.
Proof.
  intros I. unfold reads_disk, read_now. destruct (index_core_spec deep s I) as (_ & _ & V).
  now destruct (index_core deep s).
Qed.

Lemma Inv_index deep s : Inv deep s -> Inv deep (step deep s OIndex).
Proof.
  intros I. cbn [step]. destruct (index_core_spec deep s I) as (I1 & L & _).
  destruct (index_core deep s) as [l s1]. apply Inv_set_handles; [exact I1|].
  apply Forall_app. split; [apply I1|auto].
Qed.

(* with deep copies the written cell is none of the cache's *)
Lemma Inv_mutate s h k v : Inv true s -> Inv true (step true s (OMutate h k v)).
Proof.
  intros I. cbn [step]. destruct (nth_error (handles s) h) as [l|] eqn:El; [|exact I].
  destruct (nth_error l k) as [a|] eqn:Ea; [|exact I].
  assert (Ha : ~ In a (cached s)).
  { apply nth_error_In in Ea. apply (proj1 (Forall_forall _ _) (Inv_handle _ _ _ _ I El)) in Ea. now apply Ea. }
  destruct I as [H C K D O]. split; try assumption.
  apply (cache_ok_same s); try reflexivity; [|exact O]. now apply view_write.
Qed.

Lemma Inv_replace deep s h k x : Inv deep s -> Inv deep (step deep s (OReplace h k x)).
Proof.
  intros I. cbn [step]. destruct (nth_error (handles s) h) as [l|] eqn:El; [|exact I].
  destruct (Nat.ltb k (List.length l)); [|exact I].
  pose proof (Inv_alloc deep [x] s I) as I1. apply (Inv_update_handle deep h _ _ I1).
  apply Forall_set_nth.
  - exact (Inv_handle deep _ h l I1 El).
  - apply own_alloc_new; [apply I|now left].
Qed.

Lemma Inv_append deep s h x : Inv deep s -> Inv deep (step deep s (OAppend h x)).
Proof.
  intros I. cbn [step]. destruct (nth_error (handles s) h) as [l|] eqn:El; [|exact I].
  pose proof (Inv_alloc deep [x] s I) as I1. apply (Inv_update_handle deep h _ _ I1).
  apply Forall_app. split.
  - exact (Inv_handle deep _ h l I1 El).
  - apply Forall_forall. intros a. apply own_alloc_new, I.
Qed.

Lemma Inv_remove deep s h k : Inv deep s -> Inv deep (step deep s (ORemove h k)).
Proof.
  intros I. cbn [step]. destruct (nth_error (handles s) h) as [l|] eqn:El; [|exact I].
  apply Inv_update_handle; [exact I|]. apply Forall_remove_nth. now apply Inv_handle with h.
Qed.

(* the file is written: new content under a key the cache cannot have *)
Definition write_disk (content : list val) (s : st) : st :=
  mkSt (heap s) (next s) (Some (content, S (clock s))) (S (clock s)) (cache s) (handles s).

Lemma Inv_write_disk deep content s : Inv deep s -> Inv deep (write_disk content s).
Proof.
  intros [H C K D O]. split; try assumption.
  - cbn. destruct (cache s) as [[c k]|]; cbn in *; lia.
  - cbn. lia.
  - apply cache_ok_iff. intros c k ct Ec [= _ <-]. cbn in Ec. rewrite Ec in K. cbn in K. lia.
Qed.

(* shallow copies: SetIndex caches the caller's own (sorted) slice *)
Lemma Inv_cache_shared l key s :
  Inv false s -> lt_all (next s) l -> disk s = Some (view s l, key) -> Inv false (set_cache (Some (l, key)) s).
Proof.
  intros [H C K D O] L Ed. split; try assumption.
  - revert H. apply handles_impl. intros a [La _]. now split.
  - rewrite Ed in D. exact D.
  - apply cache_ok_iff. intros c k content [= <- <-] Ed'. cbn in Ed'. rewrite Ed in Ed'. now injection Ed'.
Qed.

Lemma Inv_set_index deep s h : Inv deep s -> Inv deep (step deep s (OSetIndex h)).
Proof.
  intros I. cbn [step]. destruct (nth_error (handles s) h) as [l|] eqn:El; [|exact I].
  set (l' := sort_addrs s l).
  assert (L : Forall (own deep s) l') by (apply Forall_sort_addrs; now apply Inv_handle with h).
  pose proof (Inv_update_handle deep h l' _ (Inv_write_disk deep (view s l') s I) L) as I1.
  destruct deep; cbn [copy_index].
  - exact (Inv_cache_fresh true (view s l') _ _ I1 eq_refl).
  - apply Inv_cache_shared; [exact I1| |reflexivity]. eapply Forall_impl; [|exact L]. now intros a [La _].
Qed.

Lemma Inv_ext_delete deep s : Inv deep s -> Inv deep (step deep s OExtDelete).
Proof.
  intros [H C K D O]. split; try assumption; [exact I|]. apply cache_ok_iff. discriminate.
Qed.

Lemma step_inv deep s o : deep = true \/ no_mutate [o] = true -> Inv deep s -> Inv deep (step deep s o).
Proof.
  intros Hok I. destruct o.
  - now apply Inv_index.
  - destruct Hok as [->|[=]]. now apply Inv_mutate.
  - now apply Inv_replace.
  - now apply Inv_append.
  - now apply Inv_remove.
  - now apply Inv_set_index.
  - now apply Inv_write_disk.
  - now apply Inv_ext_delete.
Qed.

Lemma no_mutate_cons deep o r : deep = true \/ no_mutate (o :: r) = true ->
  (deep = true \/ no_mutate [o] = true) /\ (deep = true \/ no_mutate r = true).
Proof. intros [->|N]; [auto|]. destruct o; try discriminate; auto. Qed.

Lemma run_inv deep ops : deep = true \/ no_mutate ops = true -> Inv deep (run deep ops).
Proof.
  unfold run. generalize init (Inv_init deep).
  induction ops as [|o ops IH]; intros s I Hok; [exact I|].
  apply no_mutate_cons in Hok as [Ho Hr]. apply IH; [|exact Hr]. now apply step_inv.
Qed.

Lemma all_histories deep ops :
  deep = true \/ no_mutate ops = true -> reads_disk deep (run deep ops) /\ cache_ok (run deep ops).
Proof. intros Hok. pose proof (run_inv deep ops Hok) as I. split; [now apply reads_disk_inv|apply I]. Qed.

(* the counter-example: Index(); write through the returned entry; no SetIndex; Index() *)
Definition alias_witness : list op := [OExternal [(1%N, 10%N)]; OIndex; OMutate 0 0 99%N].
