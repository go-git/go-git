(* Proofs/Worklist.v — the one invariant proof shared by every commit walker.

   A walker is a loop "pop a candidate from a container; skip it if seen;
   otherwise emit it, mark it seen, push (some of) its successors".  For ANY
   container discipline (stack of frames, stack, FIFO, binary heap) that keeps
   its contents as a multiset and pushes at least the unseen successors, the
   emitted sequence has no duplicates and is exactly the set reachable from the
   start through nodes outside the ignore list; every emitted node other than
   the start was discovered through an earlier emitted node.  Fuel
   1 + |contents| + (push budget of the nodes not yet emitted) suffices. *)
From Coq Require Import List Arith Bool Lia Permutation.
From GoGit Require Import Spec.Dag Model.CommitWalk.
Import ListNotations.

(* [P l1 x] holds of every element [x] of [l] and the elements [l1] before it.
   The order contracts of the walkers all have this shape. *)
Definition prefixed {A : Type} (P : list A -> A -> Prop) (l : list A) : Prop :=
  forall l1 x l2, l = l1 ++ x :: l2 -> P l1 x.

Lemma prefixed_nil : forall A (P : list A -> A -> Prop), prefixed P [].
Proof. intros A P l1 x l2 E. destruct l1; discriminate. Qed.

Lemma prefixed_snoc : forall A (P : list A -> A -> Prop) l c,
  prefixed P l -> P l c -> prefixed P (l ++ [c]).
Proof.
  intros A P l c H Hc l1 x l2. induction l2 as [|y l2 _] using rev_ind; intros E.
  - apply app_inj_tail in E. destruct E as [-> ->]. exact Hc.
  - rewrite app_comm_cons, app_assoc in E. apply app_inj_tail in E. exact (H _ _ _ (proj1 E)).
Qed.

Lemma perm_cons_in : forall (l l' : list node) c, Permutation l (c :: l') ->
  In c l /\ incl l (c :: l') /\ incl l' l.
Proof.
  intros l l' c H. pose proof (Permutation_in (l := c :: l') (l' := l)) as Hin.
  split; [|split].
  - apply Hin; [now apply Permutation_sym | now left].
  - intros x. now apply Permutation_in.
  - intros x Hx. apply Hin; [now apply Permutation_sym | now right].
Qed.

Lemma perm_app_in : forall (l p q : list node), Permutation l (p ++ q) ->
  forall x, In x l <-> In x p \/ In x q.
Proof.
  intros l p q H x. rewrite <- in_app_iff.
  split; apply Permutation_in; [exact H | now apply Permutation_sym].
Qed.

(* inserting one by one, wherever each insertion puts its element *)
Lemma fold_insert_perm : forall (ins : node -> list node -> list node),
  (forall x l, Permutation (ins x l) (x :: l)) ->
  forall ps l, Permutation (fold_left (fun acc p => ins p acc) ps l) (ps ++ l).
Proof.
  intros ins H. induction ps as [|p r IH]; intros l; simpl; [reflexivity|].
  rewrite IH, H. symmetry. apply Permutation_middle.
Qed.

Lemma NoDup_app_disjoint : forall (l1 l2 : list node),
  NoDup l1 -> NoDup l2 -> (forall x, In x l1 -> ~ In x l2) -> NoDup (l1 ++ l2).
Proof.
  induction l1 as [|a r IH]; intros l2 H1 H2 Hd; [exact H2|]. inversion_clear H1 as [|? ? Ha Hr].
  simpl. constructor.
  - rewrite in_app_iff. intros [H|H]; [contradiction | apply (Hd a); [now left | exact H]].
  - apply IH; auto. intros x Hx. apply Hd. now right.
Qed.

Lemma filter_length_le' : forall (f : node -> bool) l, length (filter f l) <= length l.
Proof. induction l as [|x r IH]; simpl; [lia|]. destruct (f x); simpl; lia. Qed.

Lemma filter_implied : forall (A : Type) (p q : A -> bool) l,
  (forall x, p x = true -> q x = true) -> filter p (filter q l) = filter p l.
Proof.
  intros A p q l H. induction l as [|x r IH]; [reflexivity|]. simpl.
  destruct (q x) eqn:Eq; simpl.
  - destruct (p x); now rewrite IH.
  - destruct (p x) eqn:Ep; [apply H in Ep; congruence | exact IH].
Qed.

(* what a container has to do: [pop] takes one element out, nothing else changes *)
Record pops (B : Type) (contents : B -> list node) (pop : B -> option (node * B)) : Prop := mkPops {
  pop_none : forall b, pop b = None -> contents b = [];
  pop_some : forall b c b', pop b = Some (c, b') -> Permutation (contents b) (c :: contents b')
}.

(* what is pushed when [c] is emitted: successors only, all the unseen ones, at most [w c] of them *)
Record selects (succ : node -> list node) (w : node -> nat) (pushed : node -> list node -> list node) : Prop := mkSelects {
  pushed_sub : forall c seen, incl (pushed c seen) (succ c);
  pushed_all : forall c seen p, In p (succ c) -> ~ In p seen -> In p (pushed c seen);
  pushed_w : forall c seen, length (pushed c seen) <= w c
}.

Section Reach.
  Variable succ : node -> list node.
  Variable I : list node.     (* ignored nodes: never emitted, never walked through *)
  Variable s : node.          (* start *)

  (* reachable from s through nodes outside I *)
  Inductive ra : node -> Prop :=
  | ra_start : ~ In s I -> ra s
  | ra_step : forall y x, ra y -> In x (succ y) -> ~ In x I -> ra x.

  Lemma ra_notin : forall x, ra x -> ~ In x I.
  Proof. intros x H. destruct H; assumption. Qed.
End Reach.

Section Worklist.
  Variable succ : node -> list node.
  Variable n : nat.
  Variable w : node -> nat.
  Hypothesis succ_lt : forall c p, c < n -> In p (succ c) -> p < n.

  Variable B : Type.
  Variable contents : B -> list node.
  Variable pop : B -> option (node * B).
  Variable push : node -> list node -> B -> B.
  Variable pushed : node -> list node -> list node.
  Hypothesis Hpop : pops B contents pop.
  Hypothesis push_perm : forall c seen b,
    Permutation (contents (push c seen b)) (pushed c seen ++ contents b).
  Hypothesis Hsel : selects succ w pushed.

  Variable stop : node -> bool.
  Variable I : list node.
  Variable s : node.

  Fixpoint gloop (fuel : nat) (b : B) (seen acc : list node) : wres :=
    match fuel with
    | O => (rev acc, WFuel)
    | S f =>
      match pop b with
      | None => (rev acc, WEof)
      | Some (c, b') =>
        if mem c seen then gloop f b' seen acc
        else if stop c then (rev (c :: acc), WStop)
        else gloop f (push c (c :: seen) b') (c :: seen) (c :: acc)
      end
    end.

  Lemma ra_lt : s < n -> forall x, ra succ I s x -> x < n.
  Proof. intros Hs x H. induction H as [_ | y x _ IH Hx _]; [exact Hs | exact (succ_lt y x IH Hx)]. Qed.

  (* emission order: every element but the start has a successor-parent before it *)
  Definition discovered (l : list node) : Prop :=
    prefixed (fun l1 x => x = s \/ exists y, In y l1 /\ In x (succ y)) l.

  Definition seen_ok (seen acc : list node) : Prop := forall x, In x seen <-> In x acc \/ In x I.

  Lemma seen_ok_cons : forall seen acc c, seen_ok seen acc -> seen_ok (c :: seen) (c :: acc).
  Proof. intros seen acc c H x. simpl. rewrite (H x). symmetry. apply or_assoc. Qed.

  (* every successor of an emitted node is emitted, pending or ignored *)
  Definition closed_in (Q acc : list node) : Prop :=
    forall y p, In y acc -> In p (succ y) -> ~ In p I -> In p acc \/ In p Q.

  Lemma closed_skip : forall Q Q' acc c,
    closed_in Q acc -> incl Q (c :: Q') -> In c acc \/ In c I -> closed_in Q' acc.
  Proof.
    intros Q Q' acc c H HQ Hc y p Hy Hp Hn.
    destruct (H y p Hy Hp Hn) as [Ha|Hq]; [now left|].
    destruct (HQ p Hq) as [<-|Hq']; [|now right]. destruct Hc; [now left | contradiction].
  Qed.

  Lemma closed_visit : forall Q Q' seen acc c,
    closed_in Q acc -> seen_ok seen acc -> incl Q (c :: Q') ->
    (forall p, In p (succ c) -> ~ In p (c :: seen) -> In p Q') ->
    closed_in Q' (c :: acc).
  Proof.
    intros Q Q' seen acc c H Hseen HQ Hnew y p [<-|Hy] Hp Hn.
    - destruct (in_dec Nat.eq_dec p (c :: seen)) as [[Hps|Hps]|Hps]; [left; now left | | right; now apply Hnew].
      apply Hseen in Hps. destruct Hps; [left; now right | contradiction].
    - destruct (H y p Hy Hp Hn) as [Ha|Hq]; [left; now right|].
      destruct (HQ p Hq) as [<-|Hq']; [left; now left | now right].
  Qed.

  (* the frontier: [acc] emitted so far, [Q] pending *)
  Record front (Q acc : list node) : Prop := mkFront {
    fr_ra : forall x, In x acc -> ra succ I s x;
    fr_from : forall x, In x Q -> x = s \/ exists y, In y acc /\ In x (succ y);
    fr_closed : closed_in Q acc;
    fr_start : ~ In s I -> In s acc \/ In s Q
  }.

  Lemma front_init : front [s] [].
  Proof.
    split.
    - intros x [].
    - intros x [<-|[]]. now left.
    - intros y p [].
    - intros _. right. now left.
  Qed.

  Lemma front_ra : forall Q acc c, front Q acc -> In c Q -> ~ In c I -> ra succ I s c.
  Proof.
    intros Q acc c H Hc Hn. destruct (fr_from _ _ H c Hc) as [->|[y [Hy Hp]]].
    - now apply ra_start.
    - apply (ra_step succ I s y); auto. now apply (fr_ra _ _ H).
  Qed.

  Lemma front_skip : forall Q Q' acc c,
    front Q acc -> Permutation Q (c :: Q') -> In c acc \/ In c I -> front Q' acc.
  Proof.
    intros Q Q' acc c [h1 h2 h3 h4] HQ Hc. destruct (perm_cons_in _ _ _ HQ) as [_ [HQ1 HQ2]].
    split; [exact h1 | | now apply (closed_skip Q _ _ c) |].
    - intros x Hx. apply h2. now apply HQ2.
    - intros Hs. destruct (h4 Hs) as [H|H]; [now left|].
      destruct (HQ1 s H) as [<-|H']; [|now right]. destruct Hc; [now left | contradiction].
  Qed.

  (* [c] is taken out of the pending [Q] and emitted; [add], among them its unseen successors, goes in *)
  Lemma front_visit : forall Q Q' r add seen acc c,
    front Q acc -> seen_ok seen acc -> ~ In c I ->
    Permutation Q (c :: r) -> Permutation Q' (add ++ r) -> incl add (succ c) ->
    (forall p, In p (succ c) -> ~ In p (c :: seen) -> In p add \/ In p r) ->
    front Q' (c :: acc).
  Proof.
    intros Q Q' r add seen acc c H Hseen HcI HQ HQ' Hadd Hnew.
    destruct (perm_cons_in _ _ _ HQ) as [Hc [HQ1 HQ2]]. pose proof (perm_app_in _ _ _ HQ') as Hin.
    assert (Hsub : incl Q (c :: Q')).
    { intros x Hx. destruct (HQ1 x Hx) as [<-|Hr]; [now left | right; apply Hin; now right]. }
    pose proof (front_ra _ _ _ H Hc HcI) as Hra. destruct H as [h1 h2 h3 h4]. split.
    - intros x [<-|Hx]; [exact Hra | now apply h1].
    - intros x Hx. apply Hin in Hx. destruct Hx as [Hp|Hq].
      + right. exists c. split; [now left | now apply Hadd].
      + destruct (h2 x (HQ2 x Hq)) as [->|[y [Hy Hp]]]; [now left|]. right. exists y. split; [now right | exact Hp].
    - apply (closed_visit Q _ seen); auto. intros p Hp Hn. now apply Hin, Hnew.
    - intros Hs. destruct (h4 Hs) as [H|H]; [left; now right|].
      destruct (Hsub s H) as [<-|H']; [left; now left | now right].
  Qed.

  Lemma front_complete : forall acc, front [] acc -> forall x, ra succ I s x -> In x acc.
  Proof.
    intros acc H x Hr. induction Hr as [Hs | y x Hy IH Hp Hx].
    - destruct (fr_start _ _ H Hs) as [Hin|[]]. exact Hin.
    - destruct (fr_closed _ _ H y x IH Hp Hx) as [Hin|[]]. exact Hin.
  Qed.

  (* fuel: the push budget of the nodes not yet emitted *)
  Fixpoint budget_on (L : list node) (acc : list node) : nat :=
    match L with
    | [] => 0
    | x :: r => (if mem x acc then 0 else w x) + budget_on r acc
    end.
  Definition budget (acc : list node) : nat := budget_on (seq 0 n) acc.

  Lemma budget_on_cons : forall L c acc, NoDup L -> ~ In c acc ->
    budget_on L (c :: acc) + (if mem c L then w c else 0) = budget_on L acc.
  Proof.
    induction L as [|x r IH]; intros c acc Hnd Hc; simpl; [reflexivity|].
    inversion Hnd as [|? ? Hx Hr]; subst.
    specialize (IH c acc Hr Hc).
    destruct (Nat.eqb_spec c x) as [<-|Ecx].
    - rewrite Nat.eqb_refl. simpl.
      apply mem_false_In in Hc, Hx. rewrite Hc. rewrite Hx in IH. lia.
    - apply not_eq_sym, Nat.eqb_neq in Ecx. rewrite Ecx. simpl. destruct (mem x acc); lia.
  Qed.

  Lemma budget_cons : forall (c : node) (acc : list node), c < n -> ~ In c acc -> budget (c :: acc) + w c = budget acc.
  Proof.
    intros c acc Hlt Hc. unfold budget.
    rewrite <- (budget_on_cons (seq 0 n) c acc (seq_NoDup n 0) Hc).
    assert (Hm : mem c (seq 0 n) = true) by (apply mem_In, in_seq; lia).
    now rewrite Hm.
  Qed.

  Record Inv (b : B) (seen acc : list node) : Prop := mkInv {
    i_nodup : NoDup acc;
    i_seen : seen_ok seen acc;
    i_front : front (contents b) acc;
    i_stop : forall x, In x acc -> stop x = false;
    i_disc : discovered (rev acc)
  }.

  Definition Post (r : wres) : Prop :=
    let '(l, e) := r in
    (e = WEof /\ NoDup l /\ (forall x, In x l <-> ra succ I s x) /\ (forall x, In x l -> stop x = false) /\ discovered l)
    \/ (e = WStop /\ exists l' c, l = l' ++ [c] /\ stop c = true /\ ra succ I s c /\ NoDup l /\
        (forall x, In x l -> ra succ I s x) /\ (forall x, In x l' -> stop x = false) /\ discovered l).

  Lemma gloop_post : forall fuel b seen acc, s < n ->
    Inv b seen acc -> length (contents b) + budget acc < fuel -> Post (gloop fuel b seen acc).
  Proof.
    intros fuel b seen acc Hs. revert b seen acc.
    induction fuel as [|f IH]; intros b seen acc [Hnd Hseen Hfr Hst Hdisc] Hf; [lia|].
    simpl. destruct (pop b) as [[c b']|] eqn:Ep.
    - pose proof (pop_some _ _ _ Hpop _ _ _ Ep) as Hperm.
      pose proof (proj1 (perm_cons_in _ _ _ Hperm)) as Hc.
      pose proof (Permutation_length Hperm) as Hlen. simpl in Hlen.
      destruct (mem c seen) eqn:Ems.
      + apply mem_In, Hseen in Ems.
        apply IH; [split; auto; now apply (front_skip (contents b) _ _ c) | lia].
      + apply mem_false_In in Ems.
        assert (HcI : ~ In c I) by (intros H; apply Ems, Hseen; now right).
        assert (Hcacc : ~ In c acc) by (intros H; apply Ems, Hseen; now left).
        assert (Hnd' : NoDup (c :: acc)) by now constructor.
        assert (Hcra : ra succ I s c) by now apply (front_ra (contents b) acc).
        assert (Hra' : forall x, In x (c :: acc) -> ra succ I s x).
        { intros x [<-|Hx]; [exact Hcra | now apply (fr_ra _ _ Hfr)]. }
        assert (Hdisc' : discovered (rev (c :: acc))).
        { apply prefixed_snoc; [exact Hdisc|].
          destruct (fr_from _ _ Hfr c Hc) as [->|[y [Hy Hp]]]; [now left|].
          right. exists y. now rewrite <- in_rev. }
        destruct (stop c) eqn:Est.
        * right. split; [reflexivity|]. exists (rev acc), c.
          split; [reflexivity|]. split; [exact Est|]. split; [exact Hcra|].
          split; [exact (NoDup_rev Hnd')|]. split; [|split; [|exact Hdisc']].
          -- intros x Hx. apply Hra'. now apply in_rev.
          -- intros x Hx. apply Hst. now apply in_rev.
        * apply IH.
          -- split; [exact Hnd' | now apply seen_ok_cons | | | exact Hdisc'].
             ++ apply (front_visit (contents b) _ (contents b') (pushed c (c :: seen)) seen); auto.
                ** apply (pushed_sub _ _ _ Hsel).
                ** intros p Hp Hn. left. now apply (pushed_all _ _ _ Hsel).
             ++ intros x [<-|Hx]; [exact Est | now apply Hst].
          -- rewrite (Permutation_length (push_perm c (c :: seen) b')), app_length.
             pose proof (pushed_w _ _ _ Hsel c (c :: seen)).
             pose proof (budget_cons c acc (ra_lt Hs c Hcra) Hcacc). lia.
    - rewrite (pop_none _ _ _ Hpop _ Ep) in Hfr.
      left. split; [reflexivity|]. split; [now apply NoDup_rev|]. split; [|split; [|exact Hdisc]].
      + intros x. rewrite <- in_rev. split; [apply (fr_ra _ _ Hfr) | now apply front_complete].
      + intros x Hx. apply Hst. now apply in_rev.
  Qed.
End Worklist.

Lemma seen_ok_nil : forall acc, seen_ok [] acc acc.
Proof. intros acc x. split; [now left | now intros [H|[]]]. Qed.

(* stopping the loop early yields a prefix of the unstopped emission *)
Fixpoint cut_at (stop : node -> bool) (l : list node) : list node :=
  match l with
  | [] => []
  | c :: r => if stop c then [c] else c :: cut_at stop r
  end.

Lemma gloop_stop_prefix : forall (B : Type) pop push stop fuel (b : B) seen acc,
  exists suf,
    fst (gloop B pop push nostop fuel b seen acc) = rev acc ++ suf /\
    fst (gloop B pop push stop fuel b seen acc) = rev acc ++ cut_at stop suf.
Proof.
  intros B pop push stop. induction fuel as [|f IH]; intros b seen acc.
  - exists []. simpl. now rewrite app_nil_r.
  - simpl. destruct (pop b) as [[c b']|].
    + destruct (mem c seen); [apply IH|].
      change (nostop c) with false. cbv iota.
      destruct (IH (push c (c :: seen) b') (c :: seen) (c :: acc)) as [suf [H1 H2]].
      exists (c :: suf). split.
      * rewrite H1. simpl. now rewrite <- app_assoc.
      * destruct (stop c) eqn:Es.
        -- simpl. now rewrite Es.
        -- rewrite H2. simpl. rewrite Es. now rewrite <- app_assoc.
    + exists []. simpl. now rewrite app_nil_r.
Qed.

Lemma post_nostop : forall succ I s r, Post succ nostop I s r ->
  exists l, r = (l, WEof) /\ NoDup l /\ (forall x, In x l <-> ra succ I s x) /\ discovered succ s l.
Proof.
  intros succ I s [l e] [[-> [H1 [H2 [_ H4]]]] | [_ [l' [c [_ [Hs _]]]]]]; [eauto | discriminate].
Qed.

Lemma walk_exactly_once : forall succ s r (R : node -> Prop),
  (forall x, ra succ [] s x <-> R x) -> Post succ nostop [] s r ->
  exists l, r = (l, WEof) /\ NoDup l /\ (forall x, In x l <-> R x).
Proof.
  intros succ s r R HR P. destruct (post_nostop _ _ _ _ P) as (l & E & N & H & _).
  exists l. split; [exact E|]. split; [exact N|]. intros x. now rewrite H.
Qed.

Lemma post_stop_at : forall succ I s (a : node) r, Post succ (Nat.eqb a) I s r ->
  (snd r = WStop /\ ra succ I s a) \/
  (snd r = WEof /\ ~ ra succ I s a /\ forall x, In x (fst r) <-> ra succ I s x).
Proof.
  intros succ I s a [l e] [[-> [_ [Hin [Hst _]]]] | [-> [l' [c [_ [Hs [Hra _]]]]]]]; simpl.
  - right. split; [reflexivity|]. split; [|exact Hin].
    intros Hr. apply Hin, Hst in Hr. now rewrite Nat.eqb_refl in Hr.
  - left. split; [reflexivity|]. apply Nat.eqb_eq in Hs. now subst c.
Qed.
