(* Proofs/C35U.v — the hexadecimal strings and fixed keywords of the packp
   messages are non-blank ASCII, so the Unicode-aware TrimSpace (Model/C35Utf8.v)
   leaves the lines of the round-trip proofs alone. *)
From Coq Require Import List Arith NArith Bool Lia.
From GoGit Require Import Base.Out Model.PktLine Model.C35Utf8 Model.Packp Proofs.C35Base Proofs.C35Utf8.
Import ListNotations.

Lemma hash_str_asciins h : hash_ok h = true -> forallb asciins (hash_str h) = true.
Proof. now apply hash_str_all. Qed.

(* a line "<c><pre><hex>" begins and ends with a non-blank ASCII byte *)
Lemma clean_u_prefix_hex c pre hx : asciins c = true -> hx <> [] -> forallb asciins hx = true ->
  clean_u (c :: pre ++ hx) = true.
Proof.
  intros Hc Hne Hh. unfold clean_u. rewrite Hc. cbn [andb].
  change (c :: pre ++ hx) with ((c :: pre) ++ hx). rewrite (last_app_ne _ hx _ Hne).
  now apply forallb_last.
Qed.

Lemma clean_u_hex hx : forallb asciins hx = true -> clean_u hx = true.
Proof.
  destruct hx as [|c t]; [reflexivity|]. intros H. unfold clean_u.
  rewrite (forallb_last asciins (c :: t) ltac:(discriminate) H). cbn [forallb] in H. apply andb_prop in H. now destruct H as [-> _].
Qed.

Definition kw_ok (kw : bytes) : bool := match kw with c :: _ => asciins c | [] => false end.

Lemma clean_kw kw x : kw_ok kw = true -> x <> [] -> forallb asciins x = true -> clean_u (kw ++ x) = true.
Proof. destruct kw as [|c kw]; [discriminate|]. intros Hc Hne Hx. now apply (clean_u_prefix_hex c kw). Qed.

Lemma clean_kw_hash kw h : kw_ok kw = true -> hash_ok h = true -> clean_u (kw ++ hash_str h) = true.
Proof. intros Hc Hh. exact (clean_kw kw _ Hc (hash_str_ne h Hh) (hash_str_asciins h Hh)). Qed.
