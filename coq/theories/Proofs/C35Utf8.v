(* Proofs/C35Utf8.v — facts about the UTF-8 layer (Model/C35Utf8.v) used by the
   C35 round-trip proofs: on lines that begin and end with a non-blank ASCII
   byte the Unicode-aware TrimSpace is the identity, ASCII strings split into
   their bytes, Fields of blank-separated ASCII tokens returns the tokens. *)
From Coq Require Import List Arith NArith Bool Lia ZifyBool ZifyNat ZifyN.
From GoGit Require Import Base.Out Model.PktLine Model.C35Utf8.
Import ListNotations.
Local Open Scope N_scope.

Definition ascii (c : N) : bool := c <? 128.

Lemma decode_rune_ascii b r : ascii b = true -> decode_rune (b :: r) = (b, 1%nat).
Proof. unfold ascii. intros H. cbn [decode_rune]. now rewrite H. Qed.

Lemma decode_rune_width s : s <> [] -> (1 <= snd (decode_rune s) <= List.length s)%nat.
Proof.
  destruct s as [|b0 r]; [contradiction|]. intros _. unfold decode_rune.
  destruct (b0 <? 128); [cbn; lia|]. destruct (b0 <? 194); [cbn; lia|].
  destruct (b0 <? 224).
  { destruct r as [|b1 r]; [cbn; lia|]. destruct (u8cont b1); cbn; lia. }
  destruct (b0 <? 240).
  { destruct r as [|b1 [|b2 r]]; try (cbn; lia).
    destruct (_ && _); cbn; lia. }
  destruct (b0 <? 245); [|cbn; lia].
  destruct r as [|b1 [|b2 [|b3 r]]]; try (cbn; lia).
  destruct (_ && _); cbn; lia.
Qed.

Lemma runes_go_concat : forall fuel s, (List.length s <= fuel)%nat -> List.concat (map snd (runes_go fuel s)) = s.
Proof.
  induction fuel as [|f IH]; intros s H.
  - destruct s; [reflexivity|cbn in H; lia].
  - destruct s as [|b r]; [reflexivity|]. cbn [runes_go].
    pose proof (decode_rune_width (b :: r) ltac:(discriminate)) as W.
    destruct (decode_rune (b :: r)) as [rn n]. cbn [snd] in W. cbn [map snd List.concat].
    rewrite IH; [apply firstn_skipn|]. rewrite skipn_length. cbn [List.length] in *. lia.
Qed.

Lemma runes_concat s : List.concat (map snd (runes s)) = s.
Proof. apply runes_go_concat. lia. Qed.

Lemma runes_cons_ascii b r : ascii b = true -> runes (b :: r) = (b, [b]) :: runes r.
Proof. intros H. unfold runes. cbn [List.length runes_go]. rewrite (decode_rune_ascii b r H). reflexivity. Qed.

Lemma runes_ascii s : forallb ascii s = true -> runes s = map (fun b => (b, [b])) s.
Proof.
  induction s as [|b r IH]; [reflexivity|]. cbn [forallb]. intros H. apply andb_prop in H. destruct H as [H1 H2].
  rewrite (runes_cons_ascii b r H1), (IH H2). reflexivity.
Qed.

Lemma is_space_rune_ascii c : ascii c = true -> is_space_rune c = is_space c.
Proof.
  unfold ascii, is_space_rune, is_space. intros H.
  destruct (N.eqb_spec c 9); [subst; reflexivity|]. destruct (N.eqb_spec c 10); [subst; reflexivity|].
  destruct (N.eqb_spec c 11); [subst; reflexivity|]. destruct (N.eqb_spec c 12); [subst; reflexivity|].
  destruct (N.eqb_spec c 13); [subst; reflexivity|]. destruct (N.eqb_spec c 32); [subst; reflexivity|].
  cbn [orb]. lia.
Qed.

(* a non-blank ASCII byte *)
Definition asciins (c : N) : bool := ascii c && negb (is_space c).

Lemma asciins_spec c : asciins c = true -> ascii c = true /\ is_space_rune c = false /\ is_space c = false.
Proof.
  unfold asciins. intros H. apply andb_prop in H. destruct H as [H1 H2]. apply negb_true_iff in H2.
  rewrite (is_space_rune_ascii c H1). auto.
Qed.

Lemma trim_left_u_ns c r : asciins c = true -> trim_left_u (c :: r) = c :: r.
Proof.
  intros H. destruct (asciins_spec c H) as (A & Sp & _). unfold trim_left_u.
  rewrite (runes_cons_ascii c r A). cbn [drop_space_runes fst]. rewrite Sp.
  rewrite <- (runes_cons_ascii c r A). apply runes_concat.
Qed.

Lemma decode_last_ascii s b : ascii b = true -> decode_last_rune (s ++ [b]) = (b, 1%nat).
Proof. unfold ascii. intros H. unfold decode_last_rune. rewrite rev_unit. now rewrite H. Qed.

Lemma trim_right_u_ns s b : asciins b = true -> trim_right_u (s ++ [b]) = s ++ [b].
Proof.
  intros H. destruct (asciins_spec b H) as (A & Sp & _). unfold trim_right_u.
  rewrite app_length. cbn [List.length]. replace (List.length s + 1)%nat with (S (List.length s)) by lia.
  cbn [trim_right_go]. destruct (s ++ [b]) as [|x l] eqn:E; [destruct s; discriminate|].
  rewrite <- E, (decode_last_ascii s b A), Sp. reflexivity.
Qed.

(* the newline goes in one round, what is left is as above *)
Lemma trim_right_u_nl s b : asciins b = true -> trim_right_u ((s ++ [b]) ++ [NL]) = s ++ [b].
Proof.
  intros H. rewrite <- (trim_right_u_ns s b H) at 2. set (x := s ++ [b]). unfold trim_right_u.
  rewrite app_length. cbn [List.length]. rewrite Nat.add_1_r. cbn [trim_right_go].
  destruct (x ++ [NL]) as [|y l] eqn:E; [destruct x; discriminate|]. rewrite <- E, (decode_last_ascii x NL eq_refl).
  change (is_space_rune NL) with true. cbv iota.
  rewrite app_length. cbn [List.length]. now rewrite Nat.add_sub, firstn_app, Nat.sub_diag, firstn_all, app_nil_r.
Qed.

(* lines that begin and end with a non-blank ASCII byte (or are empty) *)
Definition clean_u (text : bytes) : bool :=
  match text with
  | [] => true
  | c :: _ => asciins c && asciins (last text 0)
  end.

Lemma last_split {A} (l : list A) d : l <> [] -> l = removelast l ++ [last l d].
Proof. intros H. now apply app_removelast_last. Qed.

Theorem trim_u_clean text : clean_u text = true -> trim_space_u (text ++ [NL]) = text.
Proof.
  destruct text as [|c t]; [reflexivity|]. unfold clean_u. intros H. apply andb_prop in H. destruct H as [H1 H2].
  unfold trim_space_u. cbn [app]. rewrite (trim_left_u_ns c _ H1).
  change (c :: t ++ [NL]) with ((c :: t) ++ [NL]).
  rewrite (last_split (c :: t) 0 ltac:(discriminate)) at 1 2.
  now apply trim_right_u_nl.
Qed.

Theorem trim_u_id s : clean_u s = true -> trim_space_u s = s.
Proof.
  destruct s as [|c t]; [reflexivity|]. unfold clean_u. intros H. apply andb_prop in H. destruct H as [H1 H2].
  unfold trim_space_u. rewrite (trim_left_u_ns c _ H1).
  rewrite (last_split (c :: t) 0 ltac:(discriminate)) at 1 2.
  now apply trim_right_u_ns.
Qed.

Lemma contains_rune_ascii f s : forallb ascii s = true -> contains_rune f s = existsb f s.
Proof.
  intros H. unfold contains_rune. rewrite (runes_ascii s H). induction s as [|b r IH]; [reflexivity|].
  cbn [map existsb fst]. cbn [forallb] in H. apply andb_prop in H. now rewrite IH.
Qed.

Definition tok_u (t : bytes) : bool := negb (Nat.eqb (List.length t) 0) && forallb asciins t.

Lemma fields_go_tok : forall t rest cur,
  forallb asciins t = true ->
  fields_go (map (fun b => (b, [b])) t ++ rest) cur true
  = fields_go rest (rev (map (fun b => [b]) t) ++ cur) true.
Proof.
  induction t as [|b t IH]; intros rest cur H; [reflexivity|].
  cbn [forallb] in H. apply andb_prop in H. destruct H as [H1 H2].
  destruct (asciins_spec b H1) as (_ & Sp & _).
  cbn [map app fields_go fst snd]. rewrite Sp. cbv iota.
  refine (eq_trans (IH rest ([b] :: cur) H2) _). cbn [rev map]. rewrite <- app_assoc. reflexivity.
Qed.

Lemma concat_singletons (t : bytes) : List.concat (map (fun b => [b]) t) = t.
Proof. induction t as [|b t IH]; [reflexivity|]. cbn. now rewrite IH. Qed.

Lemma fields_go_first : forall t rest,
  tok_u t = true ->
  fields_go (map (fun b => (b, [b])) t ++ rest) [] false
  = fields_go rest (rev (map (fun b => [b]) t)) true.
Proof.
  intros t rest H. unfold tok_u in H. apply andb_prop in H. destruct H as [H0 H].
  destruct t as [|b t]; [discriminate|]. cbn [forallb] in H. apply andb_prop in H. destruct H as [H1 H2].
  destruct (asciins_spec b H1) as (_ & Sp & _).
  cbn [map app fields_go fst snd]. rewrite Sp. cbv iota. refine (eq_trans (fields_go_tok t rest [[b]] H2) _). reflexivity.
Qed.

Fixpoint join_sp (l : list bytes) : bytes :=
  match l with
  | [] => []
  | [x] => x
  | x :: r => x ++ [32] ++ join_sp r
  end.

Lemma fields_go_join : forall toks, toks <> [] -> forallb tok_u toks = true ->
  fields_go (map (fun b => (b, [b])) (join_sp toks)) [] false = toks.
Proof.
  induction toks as [|t toks IH]; [contradiction|]. intros _ H.
  cbn [forallb] in H. apply andb_prop in H. destruct H as [H1 H2].
  destruct toks as [|t2 toks].
  - cbn [join_sp]. rewrite <- (app_nil_r (map _ t)), (fields_go_first t [] H1).
    cbn [fields_go]. rewrite rev_involutive, concat_singletons. reflexivity.
  - change (join_sp (t :: t2 :: toks)) with (t ++ [32] ++ join_sp (t2 :: toks)).
    rewrite map_app, (fields_go_first t _ H1). cbn [app map fields_go fst].
    change (is_space_rune 32) with true. cbv iota.
    rewrite rev_involutive, concat_singletons. f_equal. apply IH; [discriminate|assumption].
Qed.

Lemma tok_u_ascii t : tok_u t = true -> forallb ascii t = true.
Proof.
  unfold tok_u. intros H. apply andb_prop in H. destruct H as [_ H].
  rewrite forallb_forall in *. intros x Hx. specialize (H x Hx). unfold asciins in H. now apply andb_prop in H.
Qed.

Lemma join_sp_ascii toks : forallb tok_u toks = true -> forallb ascii (join_sp toks) = true.
Proof.
  induction toks as [|t toks IH]; [reflexivity|]. cbn [forallb]. intros H. apply andb_prop in H. destruct H as [H1 H2].
  destruct toks as [|t2 toks]; [now apply tok_u_ascii|].
  change (join_sp (t :: t2 :: toks)) with (t ++ [32] ++ join_sp (t2 :: toks)).
  rewrite !forallb_app. rewrite (tok_u_ascii t H1), (IH H2). reflexivity.
Qed.

Theorem fields_join toks : toks <> [] -> forallb tok_u toks = true -> fields_u (join_sp toks) = toks.
Proof.
  intros Hne H. unfold fields_u. rewrite (runes_ascii _ (join_sp_ascii toks H)). now apply fields_go_join.
Qed.
