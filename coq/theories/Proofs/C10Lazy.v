(* Proofs/C10Lazy.v — LazyIndex (Model/Idx.v, the lazy_ functions) opened on git's idx
   layout of a well-formed table answers like the map: init, findHashPos,
   offset (32/64-bit), crc32, Contains, FindOffset, FindCRC32, Entries. *)
From Coq Require Import List NArith ZArith Bool Lia ZifyBool ZifyNat ZifyN.
From GoGit Require Import Base.Out Model.PackBytes Model.Idx Spec.IdxFormat
  Proofs.C10Search Proofs.C10Order Proofs.C10Bytes Proofs.C10Table Proofs.C10Layout Proofs.C10Lookup.
Import ListNotations.
Local Open Scope N_scope.

Lemma parse_fanout_flat : forall l prev,
  nondecN prev l -> (forall x, In x l -> x < 4294967296) ->
  parse_fanout (List.length l) (flat_map be32 l) prev = Some l.
Proof.
  induction l as [|x l IH]; intros prev Hn Hb; [reflexivity|].
  destruct Hn as [Hp Hn]. cbn [List.length parse_fanout flat_map].
  rewrite get32_be32 by (apply Hb; now left).
  replace (x <? prev) with false by lia.
  change (skipn 4 (be32 x ++ flat_map be32 l)) with (flat_map be32 l).
  rewrite IH; auto. intros; apply Hb; now right.
Qed.

Lemma count_msb32_flat : forall codes,
  (forall c, In c codes -> c < 4294967296) ->
  count_msb32 (List.length codes) (flat_map be32 codes)
  = N.of_nat (List.length (filter (fun c => P31 <=? c) codes)).
Proof.
  induction codes as [|c l IH]; intros Hb; [reflexivity|].
  cbn [List.length count_msb32 flat_map filter].
  rewrite get32_be32 by (apply Hb; now left).
  change (skipn 4 (be32 c ++ flat_map be32 l)) with (flat_map be32 l).
  rewrite IH by (intros; apply Hb; now right).
  change L_MASK with P31. rewrite land_mask31 by (apply Hb; now left).
  destruct (c <? P31) eqn:E.
  - replace (P31 <=? c) with false by lia. cbn. lia.
  - replace (P31 <=? c) with true by lia. cbn [List.length]. unfold P31. cbn [N.eqb]. lia.
Qed.

Section Lazy.
Variable hs : nat.
Variable H : bytes -> bytes.
Variable tbl : list entry.
Variable pack rev : bytes.
Hypothesis WF : wf_tbl hs tbl.
Hypothesis Hpack : List.length pack = hs.
(* the rev file starts with "RIDX", version 1 and a 4-byte hash-function id *)
Hypothesis Hrev : exists hf t, rev = ([82; 73; 68; 88] ++ be32 1 ++ hf) ++ t /\ List.length hf = 4%nat.

Let n : N := N.of_nat (List.length tbl).
Let HS : N := N.of_nat hs.
Let file := idx_file H tbl pack.
Set Default Proof Using "WF Hpack".

Definition the_lazy : lazyidx :=
  mkL file rev (fanout_of tbl) n (n_big tbl) 1032 (1032 + n * HS) (1032 + n * HS + n * 4) (1032 + n * HS + n * 4 + n * 4).

Lemma lazy_init_ok : lazy_init hs file rev pack = Ok the_lazy.
Proof using WF Hpack Hrev.
  unfold lazy_init. change L_HDR with 8. change L_FANOUT with 1024. change L_REVHDR with 12.
  change L_OFF32 with 4. change L_OFF64 with 8.
  unfold file. rewrite (read_header hs H tbl pack WF Hpack).
  replace (bytes_eqb (firstn 4 S_HDRB) IDX_MAGIC) with true by reflexivity.
  replace (get32 (skipn 4 S_HDRB) =? IDX_VERSION) with true by reflexivity. cbn [negb].
  destruct Hrev as (hf & t & Er & Ht).
  assert (R : read_at rev 0 12 = Some ([82; 73; 68; 88] ++ be32 1 ++ hf)).
  { rewrite Er. apply (read_at_app_mid [] ([82; 73; 68; 88] ++ be32 1 ++ hf) t); [reflexivity|].
    unfold blen. rewrite !app_length, Ht. reflexivity. }
  rewrite R. clear R.
  replace (bytes_eqb (firstn 4 ([82; 73; 68; 88] ++ be32 1 ++ hf)) [82; 73; 68; 88]) with true by reflexivity.
  replace (get32 (skipn 4 ([82; 73; 68; 88] ++ be32 1 ++ hf)) =? 1) with true by reflexivity. cbn [negb].
  rewrite (read_fanout_tbl H WF Hpack). unfold S_FAN.
  rewrite <- (fanout_length tbl), (parse_fanout_flat _ 0 (fanout_nondec tbl) (fanout_lt WF)).
  rewrite (fanout_nth tbl 255), (count_all WF) by lia. fold n. fold HS.
  pose proof (n_big_le tbl) as Hbig. pose proof (wf_count _ _ WF) as Hcnt. fold n in Hbig, Hcnt.
  assert (C : (if n =? 0 then Some 0
               else match read_at (idx_file H tbl pack) (8 + 1024 + n * HS + n * 4) (n * 4) with
                    | Some tbl0 => Some (count_msb32 (N.to_nat n) tbl0)
                    | None => None
                    end) = Some (n_big tbl)).
  { destruct (n =? 0) eqn:E0; [f_equal; lia|].
    change (8 + 1024) with 1032. unfold n, HS. rewrite (read_o32_table H WF Hpack). f_equal.
    unfold S_O32. rewrite Nat2N.id, <- (off32_codes_length tbl 0), count_msb32_flat by apply (codes_lt WF).
    now rewrite big_codes_count by lia. }
  rewrite C. clear C.
  change (8 + 1024) with 1032. unfold n, HS. rewrite (read_pack H WF Hpack).
  now rewrite (proj2 (bytes_eqb_eq pack pack) eq_refl).
Qed.

Lemma lazy_name_ok i : i < n -> lazy_name hs the_lazy i = Some (e_hash (nth (N.to_nat i) tbl d0)).
Proof. apply (read_name H WF Hpack). Qed.

Lemma lazy_crc_ok i : i < n -> lazy_crc the_lazy i = Ok (e_crc (nth (N.to_nat i) tbl d0)).
Proof.
  intros Hi. unfold lazy_crc, the_lazy. cbn [l_file l_crc].
  unfold n, HS, file. rewrite (read_crc H WF Hpack i Hi).
  now rewrite get32_be32' by apply (wf_crc _ _ WF), nth_in, Hi.
Qed.

Lemma lazy_offset_ok i : i < n -> lazy_offset the_lazy i = Ok (e_off (nth (N.to_nat i) tbl d0)).
Proof.
  intros Hi. unfold lazy_offset, the_lazy. cbn [l_file l_off32 l_off64 l_count64].
  change L_OFF32 with 4. change L_OFF64 with 8. change L_MASK with P31.
  unfold n, HS, file. rewrite (read_code H WF Hpack i Hi).
  destruct (code_cases WF i Hi) as (Hc & Ho & [[E0 Ec]|(E1 & Hj & Ev)]); rewrite get32_be32' by exact Hc.
  - now rewrite E0, Ec.
  - apply N.eqb_neq in E1. rewrite E1. replace (n_big tbl <=? _) with false by lia.
    rewrite (read_big H WF Hpack _ Hj), get64_be64'; rewrite Ev; [reflexivity|exact Ho].
Qed.

Lemma lazy_entry_ok i : i < n -> lazy_entry_at hs the_lazy i = Ok (nth (N.to_nat i) tbl d0).
Proof.
  intros Hi. unfold lazy_entry_at. rewrite lazy_name_ok, lazy_offset_ok, lazy_crc_ok by assumption.
  now destruct (nth (N.to_nat i) tbl d0).
Qed.

Lemma lazy_bounds_ok fb : (fb < 256)%nat -> lazy_bounds the_lazy fb = (Fp tbl fb, F tbl fb).
Proof.
  intros Hf. unfold lazy_bounds, the_lazy. cbn [l_fanout]. now rewrite fanout_prev, fanout_nth.
Qed.

Definition wf_hash (h : bytes) : Prop := List.length h = hs /\ forall b, In b h -> b < 256.

Lemma wf_hash_hd h : wf_hash h -> hd 0 h < 256.
Proof using. intros [_ Hb]. destruct h as [|b r]; [reflexivity|]. apply Hb. now left. Qed.

Lemma lazy_find_pos_spec h : wf_hash h ->
  match lazy_find_pos hs the_lazy h with
  | Found i => i < n /\ lookup tbl h = Some (nth (N.to_nat i) tbl d0)
  | NotFound => lookup tbl h = None
  | _ => False
  end.
Proof.
  intros Hh. apply wf_hash_hd in Hh. unfold lazy_find_pos.
  rewrite lazy_bounds_ok by (unfold first_byte; lia).
  set (k := first_byte h). pose proof (F_le tbl k) as Hn. fold n in Hn.
  set (P := fun mid => match lazy_name hs the_lazy mid with None => None | Some nm => Some (bytes_cmp h nm) end).
  assert (Pv : forall i, Fp tbl k <= i -> i < F tbl k -> P i = Some (bytes_cmp h (e_hash (nth (N.to_nat (0 + i)) tbl d0)))).
  { intros i _ Hi. unfold P. now rewrite lazy_name_ok by lia. }
  pose proof (fun r => search_lookup WF h 0 (Fp tbl k) (F tbl k) P r Hh eq_refl eq_refl Pv) as SL.
  destruct (F tbl k <=? Fp tbl k) eqn:E.
  - apply (SL NotFound). intros _ _. apply spec_empty. lia.
  - specialize (SL _ (bs_while_fuel P _ _)).
    destruct (bs_while _ P _ _); try exact SL. split; [lia|apply SL].
Qed.

Theorem lazy_contains_map h : wf_hash h ->
  lazy_contains hs the_lazy h = Ok (match lookup tbl h with Some _ => true | None => false end).
Proof.
  intros Hh. unfold lazy_contains. pose proof (lazy_find_pos_spec h Hh) as S.
  destruct (lazy_find_pos hs the_lazy h); try contradiction; [destruct S as [_ ->]|rewrite S]; reflexivity.
Qed.

Theorem lazy_find_offset_map h : wf_hash h ->
  lazy_find_offset hs the_lazy h =
    match lookup tbl h with Some e => Ok (to_i64 (e_off e)) | None => Err ENotFound end.
Proof.
  intros Hh. unfold lazy_find_offset. pose proof (lazy_find_pos_spec h Hh) as S.
  destruct (lazy_find_pos hs the_lazy h); try contradiction; [destruct S as [Hi ->]|now rewrite S].
  now rewrite lazy_offset_ok.
Qed.

Theorem lazy_find_crc_map h : wf_hash h ->
  lazy_find_crc hs the_lazy h =
    match lookup tbl h with Some e => Ok (e_crc e) | None => Err ENotFound end.
Proof.
  intros Hh. unfold lazy_find_crc. pose proof (lazy_find_pos_spec h Hh) as S.
  destruct (lazy_find_pos hs the_lazy h); try contradiction; [destruct S as [Hi ->]|now rewrite S].
  now rewrite lazy_crc_ok.
Qed.

Lemma lazy_walk_ok : forall k i,
  i + N.of_nat k <= n -> lazy_walk hs the_lazy i k = (firstn k (skipn (N.to_nat i) tbl), None).
Proof.
  induction k as [|k IH]; intros i Hi; cbn [lazy_walk]; [now rewrite firstn_O|].
  now rewrite lazy_entry_ok, IH, (firstn_skipn_S tbl i k d0) by (unfold n in *; lia).
Qed.

Theorem lazy_entries_map : lazy_entries hs the_lazy = (tbl, None).
Proof.
  unfold lazy_entries, the_lazy. cbn [l_count]. fold the_lazy.
  rewrite lazy_walk_ok by lia. unfold n. rewrite Nat2N.id. cbn [skipn]. now rewrite firstn_all.
Qed.

Theorem lazy_count_map : l_count the_lazy = N.of_nat (List.length tbl).
Proof using hs H tbl pack rev WF Hpack Hrev. reflexivity. Qed.

End Lazy.
