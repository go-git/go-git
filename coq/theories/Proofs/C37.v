(* Proofs/C37.v — revlist.Objects: seeding (seedHaves, seedWants), the walk
   without have commits (walkFull), the painted walk (phase 1 with its early
   stop, the deferred missing-parent check, phase 2 with the per-commit tree
   diffs), and the assembly: what is returned is closed under the child
   relation up to what the haves reach, contains the wants, lies inside the
   wants' history, and has no duplicates. *)
From Coq Require Import List NArith Bool.
From GoGit Require Import Model.RevList Spec.ObjReach Proofs.C37Queue Proofs.C37Trees.
Import ListNotations.
Local Open Scope N_scope.

Lemma conj5 : forall A B C D E : Prop, A -> B -> C -> D -> E -> A /\ B /\ C /\ D /\ E.
Proof. tauto. Qed.

Section Objects.
  Variable st : store.
  Variable sh : list oid.
  Variables wants haves : list oid.
  Hypothesis Hwf : wf_store st = true.

  Notation Had := (Had st sh haves).
  Notation I1 := (I1 st sh haves).
  Notation I2 := (I2 st sh haves).
  Definition Wanted (o : oid) : Prop := reach_set st sh wants o.

  (* a queue entry is the decoded form of a stored commit *)
  Definition cok (c : cinfo) : Prop := get_commit st (c_id c) = Some (c_tree c, c_parents c, c_time c).

  Lemma Wanted_closed : forall a b, Wanted a -> reach st sh a b -> Wanted b.
  Proof. intros; eapply reach_set_closed; eauto. Qed.

  (* what is selected so far: closed one step down up to what the receiver
     holds, never listed twice, inside the wanted history *)
  Record sel (s : wstate) : Prop := {
    sel_I1 : I1 s;
    sel_I2 : I2 [] s;
    sel_tidy : tidy s;
    sel_res : forall x, In x (snd s) -> Wanted x }.

  Lemma sel_emit : forall h s,
    sel s -> mem h (fst s) = false -> get_tree st h = None -> Wanted h -> sel (emit h s).
  Proof.
    intros h s [i1 i2 td rs] M T W.
    constructor; [now apply I1_emit | now apply I2_emit_leaf | now apply tidy_emit|]. intros x [<-|Hx]; auto.
  Qed.

  Lemma sel_collect_all : forall th s s', sel s -> all_post st sh haves th s s' -> Wanted th -> sel s'.
  Proof.
    intros th s s' [i1 i2 td rs] [[m fr j1 jt] j2] W. constructor; auto.
    intros x Hx. destruct (fr x Hx) as [|Hr]; [auto | eapply Wanted_closed; eauto].
  Qed.

  Lemma seed_haves_spec : forall fuel hv hseen hq seen hq' seen',
    seed_haves fuel st hv hseen hq seen = Ok (hq', seen') ->
    (forall h, In h hv -> Had h) -> (forall x, In x seen -> Had x) ->
    (forall c, In c hq -> cok c /\ Had (c_id c)) ->
    (forall x, In x seen' -> Had x) /\ (forall c, In c hq' -> cok c /\ Had (c_id c)).
  Proof.
    induction fuel as [|f IH]; intros hv hseen hq seen hq' seen' H Hhv Hseen Hq; cbn [seed_haves] in H; [discriminate|].
    destruct hv as [|h r]; [inversion H; subst; auto|].
    assert (Hr : forall x, In x r -> Had x) by (intros; apply Hhv; now right).
    assert (Hh : Had h) by (apply Hhv; now left).
    destruct (mem h hseen || mem h seen); [eapply IH; eauto|].
    destruct (get st h) as [[t ps tm|es| |tg]|] eqn:G.
    - assert (Hq' : forall c, In c (insert_sorted hq (mkC h t ps tm)) -> cok c /\ Had (c_id c)).
      { intros c Hc. apply insert_sorted_In in Hc. destruct Hc as [->|Hc]; [|now apply Hq].
        split; [unfold cok; cbn; now apply get_commit_get | exact Hh]. }
      destruct (get_tree st t) as [es|] eqn:T.
      + destruct (mark_tree (tree_fuel st) st t es seen) as [sn|] eqn:M; [|discriminate].
        eapply IH; eauto. intros x Hx.
        destruct (mark_tree_spec st sh _ _ _ _ _ M T) as [_ B]. destruct (B x Hx) as [|Hr']; [now apply Hseen|].
        eapply Had_closed; [exact Hh|]. econstructor; [eapply ch_tree; eauto | exact Hr'].
      + eapply IH; eauto.
    - destruct (mark_tree (tree_fuel st) st h es seen) as [sn|] eqn:M; [|discriminate].
      eapply IH; eauto. intros x Hx.
      destruct (mark_tree_spec st sh _ _ _ _ _ M (proj2 (get_tree_get _ _ _) G)) as [_ B].
      destruct (B x Hx) as [|Hr']; [now apply Hseen | eapply Had_closed; eauto].
    - eapply IH; eauto. intros x [<-|Hx]; auto.
    - eapply IH; eauto.
      + intros x Hx. apply in_app_or in Hx. destruct Hx as [Hx|[<-|[]]]; [now apply Hr|].
        eapply Had_closed; [exact Hh|]. apply reach_child. eapply ch_tag; eauto.
      + intros x [<-|Hx]; auto.
    - eapply IH; eauto.
  Qed.

  Definition in_q (q : list cinfo) (x : oid) : Prop := exists c, In c q /\ c_id c = x.

  Lemma in_q_incl : forall q q' x, incl q q' -> in_q q x -> in_q q' x.
  Proof. intros q q' x H (c & A & B). exists c. split; [now apply H | exact B]. Qed.

  (* the commits queued for the walk: decoded from the store, wanted, marked as seen *)
  Definition queued (wseen : list oid) (q : list cinfo) : Prop :=
    forall c, In c q -> cok c /\ Wanted (c_id c) /\ In (c_id c) wseen.

  Lemma queued_insert : forall wseen q h t ps tm,
    queued wseen q -> get_commit st h = Some (t, ps, tm) -> Wanted h ->
    queued (h :: wseen) (insert_sorted q (mkC h t ps tm)).
  Proof.
    intros wseen q h t ps tm Hq G W c Hc. apply insert_sorted_In in Hc. destruct Hc as [->|Hc].
    - split; [exact G|]. split; [exact W | now left].
    - destruct (Hq c Hc) as (a & b & d). split; [exact a|]. split; [exact b | now right].
  Qed.

  (* handled: held by the receiver, already selected, or queued as a commit *)
  Definition Hd (s : wstate) (wseen : list oid) (x : oid) : Prop := Had x \/ In x (snd s) \/ In x wseen.

  Lemma Hd_mono : forall s s' ws ws' x, mono s s' -> incl ws ws' -> Hd s ws x -> Hd s' ws' x.
  Proof. intros s s' ws ws' x [_ B] C [H|[H|H]]; [now left | right; left; now apply B | right; right; now apply C]. Qed.

  (* still on the work list, or handled *)
  Definition pend (wl : list oid) (s : wstate) (wseen : list oid) (x : oid) : Prop := In x wl \/ Hd s wseen x.

  Record winv (wl wseen : list oid) (wq : list cinfo) (s : wstate) : Prop := {
    wi_sel : sel s;
    wi_nc : forall x, In x (snd s) -> get_commit st x = None;
    wi_q : queued wseen wq;
    wi_seen : forall x, In x wseen -> in_q wq x;
    wi_wl : forall w, In w wl -> Wanted w;
    wi_want : forall w, In w wants -> pend wl s wseen w;
    wi_tag : forall g tg, In g (snd s) -> get st g = Some (Tag tg) -> pend wl s wseen tg }.

  (* one step of seeding: h leaves the work list handled; what is newly
     selected is no commit, and if it is a tag its target goes on the list *)
  Lemma winv_next : forall h r wl1 wseen wq s wseen1 wq1 s1,
    winv (h :: r) wseen wq s -> mono s s1 -> incl wseen wseen1 -> incl r wl1 -> Hd s1 wseen1 h -> sel s1 ->
    (forall x, In x (snd s1) -> In x (snd s) \/
       (get_commit st x = None /\ forall tg, get st x = Some (Tag tg) -> In tg wl1)) ->
    queued wseen1 wq1 -> (forall x, In x wseen1 -> in_q wq1 x) -> (forall w, In w wl1 -> In w r \/ Wanted w) ->
    winv wl1 wseen1 wq1 s1.
  Proof.
    intros h r wl1 wseen wq s wseen1 wq1 s1 [sl nc q sn wl wa tg] M Ws Ri Hh Sl New Q Sn Wl.
    assert (P : forall x, pend (h :: r) s wseen x -> pend wl1 s1 wseen1 x).
    { intros x [[<-|Hr]|Hx]; [now right | left; now apply Ri | right; eapply Hd_mono; eauto]. }
    constructor.
    - exact Sl.
    - intros x Hx. destruct (New x Hx) as [|[A _]]; auto.
    - exact Q.
    - exact Sn.
    - intros w Hw. destruct (Wl w Hw); [apply wl; now right | assumption].
    - intros w Hw. apply P, wa, Hw.
    - intros g t Hg G. destruct (New g Hg) as [Hg'|[_ B]]; [eapply P, tg; eauto | left; eapply B; eauto].
  Qed.

  Lemma seed_wants_spec : forall fuel wl wseen wq s wseen' wq' s',
    seed_wants fuel st wl wseen wq s = Ok (wseen', wq', s') -> winv wl wseen wq s -> winv [] wseen' wq' s'.
  Proof.
    induction fuel as [|f IH]; intros wl wseen wq s wseen' wq' s' H Inv; cbn [seed_wants] in H; [discriminate|].
    destruct wl as [|h r]; [inversion H; subst; exact Inv|].
    pose proof Inv as [sl nc q sn wl wa tg].
    assert (Wh : Wanted h) by (apply wl; now left).
    destruct (mem h wseen || mem h (fst s)) eqn:M.
    - apply (IH _ _ _ _ _ _ _ H). apply (winv_next h r r wseen wq s wseen wq s Inv); auto using mono_refl, incl_refl.
      apply orb_true_iff in M. destruct M as [M|M]; apply mem_In in M.
      + right; right; exact M.
      + destruct (sel_I1 _ sl h M); [right; left; assumption | left; assumption].
    - apply orb_false_iff in M. destruct M as [M1 M2].
      destruct (get st h) as [[t ps tm|es| |tg0]|] eqn:G; [| | | |discriminate].
      + apply (IH _ _ _ _ _ _ _ H).
        apply (winv_next h r r wseen wq s (h :: wseen) (insert_sorted wq (mkC h t ps tm)) s Inv);
          auto using mono_refl, incl_tl, incl_refl.
        * right; right; now left.
        * apply queued_insert; [exact q | now apply get_commit_get | exact Wh].
        * intros x [E|Hx].
          -- exists (mkC h t ps tm). split; [apply insert_sorted_In; now left | exact E].
          -- destruct (sn x Hx) as (c & Hc & E). exists c. split; [apply insert_sorted_In; now right | exact E].
      + destruct (collect_all (tree_fuel st) st h es s) as [s1|] eqn:CA; [|discriminate].
        assert (Ht : get_tree st h = Some es) by now apply get_tree_get.
        destruct (collect_all_spec st sh haves Hwf _ _ _ _ _ CA Ht) as [P Hs].
        assert (Sl1 : sel s1) by (eapply sel_collect_all; eauto).
        destruct P as [[m fr _ _] _].
        apply (IH _ _ _ _ _ _ _ H). apply (winv_next h r r wseen wq s wseen wq s1 Inv); auto using incl_refl.
        * destruct (sel_I1 _ Sl1 _ Hs); [right; now left | now left].
        * (* below a tree there is neither commit nor tag, in a typed store *)
          intros x Hx. destruct (fr x Hx) as [|Hr]; [now left | right].
          destruct (below_tree_kind st sh Hwf _ _ Hr _ Ht) as [A B]. split; [exact A|]. intros tg1 G1. destruct (B _ G1).
      + apply (IH _ _ _ _ _ _ _ H).
        apply (winv_next h r r wseen wq s wseen wq (emit h s) Inv); auto using mono_emit, incl_refl.
        * right; left; cbn; now left.
        * apply sel_emit; auto. unfold get_tree. now rewrite G.
        * intros x [<-|Hx]; [right | now left]. unfold get_commit. rewrite G. split; [reflexivity | discriminate].
      + apply (IH _ _ _ _ _ _ _ H).
        apply (winv_next h r (r ++ [tg0]) wseen wq s wseen wq (emit h s) Inv); auto using mono_emit, incl_refl, incl_appl.
        * right; left; cbn; now left.
        * apply sel_emit; auto. unfold get_tree. now rewrite G.
        * intros x [<-|Hx]; [right | now left]. unfold get_commit. rewrite G. split; [reflexivity|].
          intros t0 E. inversion E; subst. apply in_or_app. right. now left.
        * intros w Hw. apply in_app_or in Hw. destruct Hw as [|[<-|[]]]; [now left | right].
          eapply Wanted_closed; [exact Wh|]. apply reach_child. eapply ch_tag; eauto.
  Qed.

  Section Full.
  (* what seeding established about the targets of the selected tags *)
  Variable T0 : oid -> Prop.

  Record finv (wseen : list oid) (q : list cinfo) (s : wstate) : Prop := {
    fi_sel : sel s;
    fi_q : queued wseen q;
    fi_seen : forall x, In x wseen -> in_q q x \/ In x (fst s);
    fi_tag : forall g tg, In g (snd s) -> get st g = Some (Tag tg) -> T0 tg;
    fi_com : forall x t ps tm, In x (snd s) -> get_commit st x = Some (t, ps, tm) ->
               In t (fst s) /\ (mem x sh = true \/ forall p, In p ps -> In p wseen) }.

  Lemma full_parents_spec : forall ps wseen q wseen' q' x,
    full_parents st ps wseen q = Ok (wseen', q') ->
    Wanted x -> (forall p, In p ps -> child st sh x p) ->
    queued wseen q ->
    incl wseen wseen' /\ (forall p, In p ps -> In p wseen') /\ queued wseen' q' /\
    (forall c, In c q -> In c q') /\
    (forall y, In y wseen' -> In y wseen \/ in_q q' y).
  Proof.
    induction ps as [|p ps IH]; intros wseen q wseen' q' x H Wx Hch Hq; cbn [full_parents] in H.
    - inversion H; subst. apply conj5; [apply incl_refl | intros p [] | exact Hq | auto | intros y Hy; now left].
    - assert (Hch' : forall p0, In p0 ps -> child st sh x p0) by (intros; apply Hch; now right).
      destruct (mem p wseen) eqn:M.
      + destruct (IH _ _ _ _ _ H Wx Hch' Hq) as (A & B & C & D & E). apply conj5; auto.
        intros p0 [<-|Hp]; [apply A; now apply mem_In | now apply B].
      + destruct (get_commit st p) as [[[t pps] tm]|] eqn:G; [|discriminate].
        assert (Hq' : queued (p :: wseen) (insert_sorted q (mkC p t pps tm))).
        { apply queued_insert; auto. eapply Wanted_closed; [exact Wx | apply reach_child, Hch; now left]. }
        destruct (IH _ _ _ _ _ H Wx Hch' Hq') as (A & B & C & D & E). apply conj5; auto.
        * eapply incl_tran; [|exact A]. apply incl_tl, incl_refl.
        * intros p0 [<-|Hp]; [apply A; now left | now apply B].
        * intros c Hc. apply D, insert_sorted_In. now right.
        * intros y Hy. destruct (E y Hy) as [[Ey|Hy']|Hy']; [|now left|now right].
          right. exists (mkC p t pps tm). split; [apply D, insert_sorted_In; now left | exact Ey].
  Qed.

  Lemma walk_full_spec : forall fuel wseen q s s',
    walk_full fuel st sh wseen q s = Ok s' -> finv wseen q s ->
    exists wseen', finv wseen' [] s' /\ mono s s' /\ incl wseen wseen'.
  Proof.
    induction fuel as [|f IH]; intros wseen q s s' H Inv; cbn [walk_full] in H; [discriminate|].
    destruct q as [|lc q].
    { inversion H; subst. exists wseen. split; [exact Inv|]. split; [apply mono_refl | apply incl_refl]. }
    destruct (fi_q _ _ _ Inv lc (or_introl eq_refl)) as (Hok & Wlc & Hlcs).
    assert (Hq' : queued wseen q) by (intros c Hc; apply (fi_q _ _ _ Inv); now right).
    destruct (mem (c_id lc) (fst s)) eqn:M.
    - apply IH in H; [exact H|]. destruct Inv as [sl fq fs ft fc]. constructor; auto.
      intros x Hx. destruct (fs x Hx) as [(c & [<-|Hc] & E)|Hs]; [right; subst x; now apply mem_In | left; exists c; auto | now right].
    - destruct (get_tree st (c_tree lc)) as [es|] eqn:T; [|discriminate].
      destruct (collect_all (tree_fuel st) st (c_tree lc) es (emit (c_id lc) s)) as [s2|] eqn:CA; [|discriminate].
      destruct (collect_all_spec st sh haves Hwf _ _ _ _ _ CA T) as [P Hts].
      assert (Gt : get_tree st (c_id lc) = None).
      { unfold cok in Hok. unfold get_tree. unfold get_commit in Hok.
        destruct (get st (c_id lc)) as [[]|]; try discriminate; reflexivity. }
      assert (Sl2 : sel s2).
      { eapply sel_collect_all; [apply sel_emit; eauto using (fi_sel _ _ _ Inv) | exact P |].
        eapply Wanted_closed; [exact Wlc|]. apply reach_child. eapply ch_tree; apply get_commit_get; exact Hok. }
      destruct P as [[m fr _ _] _].
      assert (Htag2 : forall g tg, In g (snd s2) -> get st g = Some (Tag tg) -> T0 tg).
      { intros g tg Hg G. destruct (fr g Hg) as [[<-|Hg']|Hr].
        - unfold cok, get_commit in Hok. rewrite G in Hok. discriminate.
        - eapply (fi_tag _ _ _ Inv); eauto.
        - exfalso. eapply (proj2 (below_tree_kind st sh Hwf _ _ Hr _ T)); eauto. }
      (* the walk goes on from s2, whatever is seen and queued next *)
      assert (Next : forall wseen1 q1, incl wseen wseen1 ->
                queued wseen1 q1 ->
                (forall c, In c q -> In c q1) ->
                (forall y, In y wseen1 -> In y wseen \/ in_q q1 y) ->
                (mem (c_id lc) sh = true \/ forall p, In p (c_parents lc) -> In p wseen1) ->
                walk_full f st sh wseen1 q1 s2 = Ok s' ->
                exists wseen', finv wseen' [] s' /\ mono s s' /\ incl wseen wseen').
      { intros wseen1 q1 A C D E B H'. apply IH in H'.
        - destruct H' as (w' & A' & B' & C'). exists w'. split; [exact A'|]. split; [|eapply incl_tran; eauto].
          eapply mono_trans; [apply mono_emit|]. eapply mono_trans; eauto.
        - constructor; auto.
          + intros x Hx. destruct (E x Hx) as [Hx'|Hx']; [|now left].
            destruct (fi_seen _ _ _ Inv x Hx') as [(c & [<-|Hc] & E0)|Hs].
            * right. apply (proj1 m). cbn. now left.
            * left. exists c. split; [now apply D | exact E0].
            * right. apply (proj1 m). cbn. now right.
          + intros x t ps tm Hx G.
            destruct (from_tree_no_commit st sh Hwf _ _ _ _ T fr x Hx) as [[<-|Hx']|Hn]; [| |congruence].
            * unfold cok in Hok. rewrite Hok in G. inversion G; subst. split; [exact Hts | exact B].
            * destruct (fi_com _ _ _ Inv x t ps tm Hx' G) as [X Y]. split.
              -- apply (proj1 m). cbn. now right.
              -- destruct Y as [Y|Y]; [now left | right; intros p Hp; apply A, Y, Hp]. }
      destruct (mem (c_id lc) sh) eqn:S.
      + (* shallow: parents are not followed *)
        apply (Next wseen q); auto using incl_refl.
      + destruct (full_parents st (c_parents lc) wseen q) as [[wseen1 q1]|] eqn:FP; [|discriminate].
        assert (Hpc : forall p, In p (c_parents lc) -> child st sh (c_id lc) p).
        { intros p Hp. eapply ch_parent; [apply get_commit_get; exact Hok | exact S | exact Hp]. }
        destruct (full_parents_spec _ _ _ _ _ _ FP Wlc Hpc Hq') as (A & B & C & D & E).
        apply (Next wseen1 q1); auto.
  Qed.
  End Full.

  (* the phase-1 invariant, between two iterations of the loop *)
  Record pinv (p : paint) (newc : list cinfo) : Prop := {
    pi_q : forall c, In c (p_q p) -> cok c;
    pi_newc : forall c, In c newc -> cok c /\ In (c_id c) (p_w p);
    pi_w : forall x, In x (p_w p) -> Wanted x;
    pi_h : forall x, In x (p_h p) -> Had x;
    pi_J : forall x t ps tm, In x (p_w p) -> get_commit st x = Some (t, ps, tm) ->
             In x (p_h p) \/ in_q (p_q p) x \/
             (in_q newc x /\ (mem x sh = true \/ forall q, In q ps -> In q (p_w p)));
    pi_M : forall x, In x (p_w p) -> get_commit st x = None ->
             exists c, In (x, c) (p_miss p) /\ child st sh c x }.

  Definition pext (p p' : paint) : Prop := incl (p_w p) (p_w p') /\ incl (p_h p) (p_h p').

  Lemma pext_refl : forall p, pext p p.
  Proof. intros; split; apply incl_refl. Qed.
  Lemma pext_trans : forall a b c, pext a b -> pext b c -> pext a c.
  Proof. intros a b c [A1 A2] [B1 B2]; split; eapply incl_tran; eauto. Qed.

  (* setting a flag on x unless it is set already *)
  Lemma paint_flag : forall (f : bool) x l, let l' := if f && negb (mem x l) then x :: l else l in
    incl l l' /\ (f = true -> In x l') /\ forall y, In y l' -> In y l \/ (y = x /\ f = true).
  Proof.
    intros f x l. cbv zeta. destruct f; cbn [andb]; [|split; [apply incl_refl | split; [discriminate | auto]]].
    destruct (mem x l) eqn:M; cbn [negb].
    - split; [apply incl_refl|]. split; [intros _; now apply mem_In | auto].
    - split; [apply incl_tl, incl_refl|]. split; [intros _; now left|]. intros y [<-|Hy]; auto.
  Qed.

  (* what painting parents of lcid with the flags fw, fh does to the paint state:
     flags, queue and missing list only grow; what enters the queue is a stored
     commit; a commit newly want-painted is a parent, queued if it is stored
     and recorded as missing if not *)
  Record painted (fw fh : bool) (lcid : oid) (p p' : paint) : Prop := {
    pt_ext : pext p p';
    pt_q : incl (p_q p) (p_q p');
    pt_miss : incl (p_miss p) (p_miss p');
    pt_newq : forall c, In c (p_q p') -> In c (p_q p) \/ cok c;
    pt_neww : forall x, In x (p_w p') -> In x (p_w p) \/
                (fw = true /\ child st sh lcid x /\
                 (forall t ps tm, get_commit st x = Some (t, ps, tm) -> in_q (p_q p') x) /\
                 (get_commit st x = None -> In (x, lcid) (p_miss p')));
    pt_newh : forall x, In x (p_h p') -> In x (p_h p) \/ (fh = true /\ child st sh lcid x) }.

  Lemma painted_refl : forall fw fh lcid p, painted fw fh lcid p p.
  Proof. intros; constructor; auto using pext_refl, incl_refl. Qed.

  Lemma painted_trans : forall fw fh lcid a b c,
    painted fw fh lcid a b -> painted fw fh lcid b c -> painted fw fh lcid a c.
  Proof.
    intros fw fh lcid a b c [e1 q1 m1 nq1 nw1 nh1] [e2 q2 m2 nq2 nw2 nh2]. constructor.
    - eapply pext_trans; eauto.
    - eapply incl_tran; eauto.
    - eapply incl_tran; eauto.
    - intros x Hx. destruct (nq2 x Hx) as [Hx'|]; [apply nq1, Hx' | now right].
    - intros x Hx. destruct (nw2 x Hx) as [Hx'|]; [|now right].
      destruct (nw1 x Hx') as [|(F & Hc & Hq & Hm)]; [now left|]. right.
      split; [exact F|]. split; [exact Hc|]. split.
      + intros t ps tm G. eapply in_q_incl; [exact q2 | eapply Hq; exact G].
      + intros G. apply m2, Hm, G.
    - intros x Hx. destruct (nh2 x Hx) as [Hx'|]; [apply nh1, Hx' | now right].
  Qed.

  Lemma propagate_painted : forall fw fh lcid ps p,
    (forall q, In q ps -> child st sh lcid q) ->
    let p' := propagate st fw fh lcid ps p in
    painted fw fh lcid p p' /\ (fw = true -> forall q, In q ps -> In q (p_w p')).
  Proof.
    intros fw fh lcid ps. induction ps as [|ph r IH]; intros p Hch; cbn [propagate].
    - split; [apply painted_refl | intros _ q []].
    - assert (Hch' : forall q, In q r -> child st sh lcid q) by (intros; apply Hch; now right).
      assert (Hcp : child st sh lcid ph) by (apply Hch; now left).
      destruct (implb fw (mem ph (p_w p)) && implb fh (mem ph (p_h p))) eqn:SK.
      + destruct (IH p Hch') as [A C]. split; [exact A|].
        intros F q [<-|Hq]; [|now apply C].
        apply andb_true_iff in SK. destruct SK as [SK _]. rewrite F in SK. cbn in SK. apply mem_In in SK.
        apply (proj1 (pt_ext _ _ _ _ _ A)). exact SK.
      + destruct (paint_flag fw ph (p_w p)) as (Ww & Wph & Nw). destruct (paint_flag fh ph (p_h p)) as (Wh & _ & Nh).
        cbv zeta in *.
        set (w' := if fw && negb (mem ph (p_w p)) then ph :: p_w p else p_w p) in *.
        set (h' := if fh && negb (mem ph (p_h p)) then ph :: p_h p else p_h p) in *.
        (* ph is queued if it is stored and recorded as missing if not *)
        assert (Step : forall q' m', incl (p_q p) q' -> incl (p_miss p) m' ->
                  (forall c, In c q' -> In c (p_q p) \/ cok c) ->
                  (forall t pps tm, get_commit st ph = Some (t, pps, tm) -> in_q q' ph) ->
                  (get_commit st ph = None -> In (ph, lcid) m') ->
                  let p' := propagate st fw fh lcid r (mkP w' h' q' m') in
                  painted fw fh lcid p p' /\ (fw = true -> forall q, In q (ph :: r) -> In q (p_w p'))).
        { intros q' m' Qi Mi Qn Hq Hm.
          assert (One : painted fw fh lcid p (mkP w' h' q' m')).
          { constructor; cbn; auto.
            - split; assumption.
            - intros x Hx. destruct (Nw x Hx) as [|[-> F]]; [now left|]. right.
              split; [exact F|]. split; [exact Hcp|]. split; assumption.
            - intros x Hx. destruct (Nh x Hx) as [|[-> F]]; [now left | right; split; assumption]. }
          destruct (IH (mkP w' h' q' m') Hch') as [A C]. split; [eapply painted_trans; eauto|].
          intros F q [<-|Hq0]; [|now apply C]. apply (proj1 (pt_ext _ _ _ _ _ A)). cbn. now apply Wph. }
        destruct (get_commit st ph) as [[[t pps] tm]|] eqn:G.
        * apply Step.
          -- intros c Hc. apply insert_sorted_In. now right.
          -- apply incl_refl.
          -- intros c Hc. apply insert_sorted_In in Hc. destruct Hc as [->|Hc]; [right; exact G | now left].
          -- intros _ _ _ _. exists (mkC ph t pps tm). split; [apply insert_sorted_In; now left | reflexivity].
          -- discriminate.
        * apply Step.
          -- apply incl_refl.
          -- apply incl_appl, incl_refl.
          -- auto.
          -- discriminate.
          -- intros _. apply in_or_app. right. now left.
  Qed.

  Lemma all_stale_spec : forall q p, all_stale q p = true ->
    forall c, In c q -> In (c_id c) (p_w p) /\ In (c_id c) (p_h p).
  Proof.
    intros q p H c Hc. unfold all_stale in H. rewrite forallb_forall in H. specialize (H c Hc).
    apply andb_true_iff in H. destruct H as [A B]. split; now apply mem_In.
  Qed.

  (* phase 1: on return every want-painted stored commit is have-painted, or is
     a recorded new commit all of whose parents (unless it is shallow) are
     want-painted *)
  Definition settled (p : paint) (newc : list cinfo) : Prop :=
    forall x t ps tm, In x (p_w p) -> get_commit st x = Some (t, ps, tm) ->
      In x (p_h p) \/ (in_q newc x /\ (mem x sh = true \/ forall q, In q ps -> In q (p_w p))).

  Lemma pinv_settled : forall p newc,
    pinv p newc -> (forall c, In c (p_q p) -> In (c_id c) (p_h p)) -> settled p newc.
  Proof.
    intros p newc Inv Hq x t ps tm Hx G.
    destruct (pi_J _ _ Inv x t ps tm Hx G) as [A|[(c & Hc & <-)|A]]; [now left | left; now apply Hq | now right].
  Qed.

  Lemma paint_loop_spec : forall fuel p newc p' newc',
    paint_loop fuel st sh p newc = Ok (p', newc') -> pinv p newc ->
    pinv p' newc' /\ settled p' newc' /\ incl (p_w p) (p_w p').
  Proof.
    induction fuel as [|f IH]; intros p newc p' newc' H Inv; cbn [paint_loop] in H; [discriminate|].
    destruct (p_q p) as [|lc q] eqn:Q.
    - inversion H; subst. split; [exact Inv|]. split; [|apply incl_refl].
      apply pinv_settled; [exact Inv|]. rewrite Q. intros c [].
    - set (fw := mem (c_id lc) (p_w p)) in *. set (fh := mem (c_id lc) (p_h p)) in *.
      set (newc1 := if fw && negb fh then newc ++ [lc] else newc) in *.
      set (p0 := mkP (p_w p) (p_h p) q (p_miss p)) in *.
      set (p1 := if mem (c_id lc) sh then p0 else propagate st fw fh (c_id lc) (c_parents lc) p0) in *.
      destruct Inv as [iq inew iw ih iJ iM].
      assert (Hlc : cok lc) by (apply iq; rewrite Q; now left).
      assert (Core : painted fw fh (c_id lc) p0 p1 /\
                     (mem (c_id lc) sh = true \/ (fw = true -> forall q0, In q0 (c_parents lc) -> In q0 (p_w p1)))).
      { unfold p1. destruct (mem (c_id lc) sh) eqn:S; [split; [apply painted_refl | now left]|].
        destruct (propagate_painted fw fh (c_id lc) (c_parents lc) p0) as [A C]; [|split; [exact A | right; exact C]].
        intros q0 Hq0. eapply ch_parent; [apply get_commit_get; exact Hlc | exact S | exact Hq0]. }
      destruct Core as ([[Ew Eh] Eq Em Nq Nw Nh] & Par).
      unfold p0 in Ew, Eh, Eq, Em, Nq, Nw, Nh. cbn [p_w p_h p_q p_miss] in Ew, Eh, Eq, Em, Nq, Nw, Nh.
      assert (N1 : forall c, In c newc1 -> In c newc \/ (c = lc /\ fw = true)).
      { unfold newc1. intros c Hc. destruct (fw && negb fh) eqn:F; [|now left].
        apply in_app_or in Hc. destruct Hc as [Hc|[<-|[]]]; [now left | right].
        apply andb_true_iff in F. split; [reflexivity | apply F]. }
      assert (N2 : incl newc newc1) by (unfold newc1; destruct (fw && negb fh); [apply incl_appl|]; apply incl_refl).
      (* the invariant holds again: the popped commit lc is settled by what was done to its parents *)
      assert (Inv1 : pinv p1 newc1).
      { constructor.
        - intros c Hc. destruct (Nq c Hc) as [Hc'|]; [apply iq; rewrite Q; now right | assumption].
        - intros c Hc. destruct (N1 c Hc) as [Hc'|[-> F]].
          + destruct (inew c Hc'). split; [assumption | now apply Ew].
          + split; [exact Hlc | apply Ew, mem_In; exact F].
        - intros x Hx. destruct (Nw x Hx) as [Hx'|(F & Hc & _)]; [now apply iw|].
          apply (Wanted_closed (c_id lc)); [apply iw, mem_In; exact F | now apply reach_child].
        - intros x Hx. destruct (Nh x Hx) as [Hx'|(F & Hc)]; [now apply ih|].
          apply (Had_closed st sh haves (c_id lc)); [apply ih, mem_In; exact F | now apply reach_child].
        - intros x t ps tm Hx G. destruct (Nw x Hx) as [Hx'|(F & Hc & Hq & _)]; [|right; left; eapply Hq; eauto].
          destruct (iJ x t ps tm Hx' G) as [A|[(c & Hc & E)|[A B]]].
          + left. now apply Eh.
          + rewrite Q in Hc. destruct Hc as [<-|Hc]; [|right; left; exists c; split; [now apply Eq | exact E]].
            subst x. unfold cok in Hlc. rewrite Hlc in G. inversion G; subst t ps tm.
            destruct fh eqn:Fh; [left; apply Eh; now apply mem_In|]. right. right.
            assert (Fw : fw = true) by (unfold fw; now apply mem_In).
            split.
            * exists lc. split; [|reflexivity]. unfold newc1. rewrite Fw. cbn. apply in_or_app. right. now left.
            * destruct Par as [S|Par]; [now left | right; now apply Par].
          + right. right. split; [eapply in_q_incl; eauto|].
            destruct B as [B|B]; [now left | right; intros q0 Hq0; apply Ew, B, Hq0].
        - intros x Hx G. destruct (Nw x Hx) as [Hx'|(F & Hc & _ & Hm)].
          + destruct (iM x Hx' G) as (c & A & B). exists c. split; [now apply Em | exact B].
          + exists (c_id lc). split; [now apply Hm | exact Hc]. }
      destruct (all_stale (p_q p1) p1) eqn:AS.
      + inversion H; subst. split; [exact Inv1|]. split; [|exact Ew].
        apply pinv_settled; [exact Inv1|]. intros c Hc. apply (all_stale_spec _ _ AS c Hc).
      + destruct (IH _ _ _ _ H Inv1) as (A & B & C). split; [exact A|]. split; [exact B|].
        eapply incl_tran; eauto.
  Qed.

  Lemma parent_trees_spec : forall ps olds, parent_trees st ps = Ok olds ->
    olds_ok st olds /\
    forall old, In old olds -> exists p pps tm, In p ps /\ get_commit st p = Some (fst old, pps, tm).
  Proof.
    induction ps as [|p ps IH]; intros olds H; cbn [parent_trees] in H.
    - inversion H; subst. split; [intros x [] | intros x []].
    - destruct (get_commit st p) as [[[t pps] tm]|] eqn:G.
      + destruct (get_tree st t) as [es|] eqn:T; [|discriminate].
        destruct (parent_trees st ps) as [l|] eqn:R; [|discriminate]. inversion H; subst.
        destruct (IH _ eq_refl) as [A B]. split.
        * intros x [<-|Hx]; [exact T | now apply A].
        * intros x [<-|Hx]; [exists p, pps, tm; split; [now left | exact G]|].
          destruct (B x Hx) as (p0 & a & b & Hp & E). exists p0, a, b. split; [now right | exact E].
      + destruct (IH _ H) as [A B]. split; [exact A|].
        intros x Hx. destruct (B x Hx) as (p0 & a & b & Hp & E). exists p0, a, b. split; [now right | exact E].
  Qed.

  (* below the tree of a stored parent of c (c not shallow) *)
  Definition par_below (c : cinfo) (o : oid) : Prop :=
    mem (c_id c) sh = false /\
    exists p tp pps tm, In p (c_parents c) /\ get_commit st p = Some (tp, pps, tm) /\ reach st sh tp o.

  Record pc_post (lc : cinfo) (s s' : wstate) : Prop := {
    pc_mono : mono s s';
    pc_I1 : I1 s';
    pc_tidy : tidy s';
    pc_in : In (c_id lc) (fst s');
    pc_prov : forall x, In x (snd s') -> In x (snd s) \/ x = c_id lc \/ reach st sh (c_tree lc) x;
    pc_cover : forall o, reach st sh (c_tree lc) o -> In o (snd s') \/ Had o \/ par_below lc o }.

  Lemma process_commit_spec : forall lc s s',
    process_commit st sh lc s = Ok s' -> I1 s -> tidy s -> pc_post lc s s'.
  Proof.
    intros lc s s' H HI HT. unfold process_commit in H.
    destruct (emit_unseen st sh haves (c_id lc) s) as (M1 & J1 & T1 & In1 & New1). cbv zeta in H, M1, J1, T1, In1, New1.
    set (s1 := if mem (c_id lc) (fst s) then s else emit (c_id lc) s) in *.
    destruct (get_tree st (c_tree lc)) as [es|] eqn:T; [|discriminate].
    destruct (parent_trees st (if mem (c_id lc) sh then [] else c_parents lc)) as [olds|] eqn:PT; [|discriminate].
    destruct (parent_trees_spec _ _ PT) as [Ook Opar].
    destruct (collect_changed_spec st sh haves Hwf _ _ _ _ _ _ H T Ook) as [[m fr i1 td] Cov].
    constructor; auto.
    - eapply mono_trans; eauto.
    - apply (proj1 m). exact In1.
    - intros x Hx. destruct (fr x Hx) as [Hx'|Hr]; [|now right; right].
      destruct (New1 x Hx'); [now left | right; now left].
    - intros o Ho. destruct (Cov (J1 HI) o Ho) as [A|[A|(old & Hin & Hr)]]; [now left | right; now left|].
      right. right. destruct (mem (c_id lc) sh) eqn:S.
      + cbn in PT. inversion PT; subst. contradiction.
      + split; [exact S|]. destruct (Opar old Hin) as (p & pps & tm & Hp & G). exists p, (fst old), pps, tm. auto.
  Qed.

  Lemma phase2_spec : forall hp newc s s',
    phase2 st sh hp newc s = Ok s' -> I1 s -> tidy s ->
    mono s s' /\ I1 s' /\ tidy s' /\
    (forall c, In c newc -> ~ In (c_id c) hp ->
       In (c_id c) (fst s') /\ forall o, reach st sh (c_tree c) o -> In o (snd s') \/ Had o \/ par_below c o) /\
    (forall x, In x (snd s') -> In x (snd s) \/
       exists c, In c newc /\ ~ In (c_id c) hp /\ (x = c_id c \/ reach st sh (c_tree c) x)).
  Proof.
    intros hp newc. induction newc as [|lc r IH]; intros s s' H HI HT; cbn [phase2] in H.
    - inversion H; subst.
      apply conj5; [apply mono_refl | exact HI | exact HT | intros c [] | intros x Hx; now left].
    - destruct (mem (c_id lc) hp) eqn:M.
      + destruct (IH _ _ H HI HT) as (A & B & C & D & E). apply conj5; auto.
        * intros c [<-|Hc] Hn; [apply mem_In in M; contradiction | now apply D].
        * intros x Hx. destruct (E x Hx) as [|(c & Hc & F)]; [now left|]. right. exists c. split; [now right | exact F].
      + destruct (process_commit st sh lc s) as [s1|] eqn:PC; [|discriminate].
        destruct (process_commit_spec _ _ _ PC HI HT) as [m i1 td inn prov cov].
        destruct (IH _ _ H i1 td) as (A & B & C & D & E). apply conj5; auto.
        * eapply mono_trans; eauto.
        * intros c [<-|Hc] Hn; [|now apply D]. split; [apply (proj1 A), inn|].
          intros o Ho. destruct (cov o Ho) as [X|[X|X]]; [left; now apply (proj2 A) | right; now left | right; now right].
        * intros x Hx. destruct (E x Hx) as [Hx'|(c & Hc & F)].
          -- destruct (prov x Hx') as [|X]; [now left|]. right. exists lc. split; [now left|]. split; [now apply mem_false | exact X].
          -- right. exists c. split; [now right | exact F].
  Qed.

  Definition Good (R : list oid) (o : oid) : Prop := In o R \/ Had o.
  Definition Closed (R : list oid) : Prop := forall o c, In o R -> child st sh o c -> Good R c.

  Lemma closed_reach : forall R, Closed R -> forall a b, reach st sh a b -> Good R a -> Good R b.
  Proof.
    intros R HC a b Hr. induction Hr as [a|a b c Hc Hr IH]; intros Ha; [exact Ha|].
    apply IH. destruct Ha as [Ha|Ha]; [eapply HC; eauto|].
    right. eapply Had_closed; [exact Ha | now apply reach_child].
  Qed.

  Lemma check_missing_spec : forall miss hp, check_missing miss hp = true ->
    forall x c, In (x, c) miss -> In c hp.
  Proof.
    induction miss as [|[x0 c0] r IH]; intros hp H x c Hin; cbn [check_missing] in H; [destruct Hin|].
    destruct (mem c0 hp) eqn:M; [|discriminate].
    destruct Hin as [E|Hin]; [inversion E; subst; now apply mem_In | eapply IH; eauto].
  Qed.

  Lemma wf_parent_lt : forall c t ps tm p, get_commit st c = Some (t, ps, tm) -> In p ps -> p < c.
  Proof.
    intros c t ps tm p G Hp. apply get_commit_get in G. pose proof (wf_get _ _ _ Hwf G) as W.
    cbn in W. apply andb_true_iff in W. destruct W as [_ W]. rewrite forallb_forall in W.
    apply W in Hp. now apply N.ltb_lt in Hp.
  Qed.

  Record result_ok (R : list oid) : Prop := {
    ro_closed : Closed R;
    ro_wants : forall w, In w wants -> Good R w;
    ro_wanted : forall x, In x R -> Wanted x;
    ro_nodup : NoDup R }.

  Lemma seeded_handled : forall wseen wq s0, winv [] wseen wq s0 ->
    (forall w, In w wants -> Hd s0 wseen w) /\
    (forall g tg, In g (snd s0) -> get st g = Some (Tag tg) -> Hd s0 wseen tg).
  Proof.
    intros wseen wq s0 W. split; [intros w Hw; destruct (wi_want _ _ _ _ W w Hw) as [[]|] |
      intros g tg Hg G; destruct (wi_tag _ _ _ _ W g tg Hg G) as [[]|]]; assumption.
  Qed.

  (* no have commit: walkFull *)
  Lemma walk_full_ok : forall wseen wq s0 s',
    winv [] wseen wq s0 -> walk st sh wseen wq [] s0 = Ok s' -> result_ok (snd s').
  Proof.
    intros wseen wq s0 s' Sd WK. destruct (seeded_handled _ _ _ Sd) as [Hwants Tag0].
    destruct Sd as [sl nc wq_ok wseen_ok _ _ _]. unfold walk in WK.
    assert (F0 : finv (Hd s0 wseen) wseen wq s0).
    { constructor; [exact sl | exact wq_ok | | exact Tag0 |].
      - intros x Hx. left. now apply wseen_ok.
      - intros x t ps tm Hx G. rewrite (nc x Hx) in G. discriminate. }
    destruct (walk_full_spec _ _ _ _ _ _ WK F0) as (ws' & F & M & Wi).
    destruct F as [[j1 j2 [_ jnd] jres] _ jseen jtag jcom].
    assert (SeenGood : forall x, In x ws' -> Good (snd s') x).
    { intros x Hx. destruct (jseen x Hx) as [(c & [] & _)|Hs]. exact (j1 x Hs). }
    assert (HdGood : forall x, Hd s0 wseen x -> Good (snd s') x).
    { intros x [Hx|[Hx|Hx]]; [now right | left; now apply (proj2 M) | apply SeenGood, Wi, Hx]. }
    constructor.
    - intros o c Ho Hc. inversion Hc; subst.
      + destruct (jcom o c ps tm Ho (proj2 (get_commit_get _ _ _ _ _) H)) as [A _].
        exact (j1 c A).
      + destruct (jcom o t ps tm Ho (proj2 (get_commit_get _ _ _ _ _) H)) as [_ [B|B]]; [congruence|].
        apply SeenGood, B, H1.
      + exact (j2 o es e Ho (fun X => X) (proj2 (get_tree_get _ _ _) H) H0 H1).
      + apply HdGood. eapply jtag; eauto.
    - intros w Hw. apply HdGood, Hwants, Hw.
    - exact jres.
    - exact jnd.
  Qed.

  (* some have commit: the painted walk *)
  Lemma painted_ok : forall wseen wq hq s0 s',
    winv [] wseen wq s0 -> (forall c, In c hq -> cok c /\ Had (c_id c)) -> hq <> [] ->
    walk st sh wseen wq hq s0 = Ok s' -> result_ok (snd s').
  Proof.
    intros wseen wq hq s0 s' Sd Hhq Hne WK. destruct (seeded_handled _ _ _ Sd) as [Hwants Tag0].
    destruct Sd as [[i1 i2 td res_ok] nc wq_ok wseen_ok _ _ _]. unfold walk in WK.
    destruct hq as [|hc hq']; [congruence|]. clear Hne.
    remember (hc :: hq') as hq eqn:Ehq.
    set (q1 := fold_left insert_sorted wq []) in *.
    set (q2 := fold_left insert_sorted hq q1) in *.
    set (p0 := mkP (map c_id wq) (map c_id hq) q2 []) in *.
    destruct (paint_loop (paint_fuel st (List.length q2)) st sh p0 []) as [[p' newc]|] eqn:PL; [|discriminate].
    destruct (check_missing (p_miss p') (p_h p')) eqn:CM; [|discriminate].
    assert (P0 : pinv p0 []).
    { constructor; cbn.
      - intros c Hc. unfold q2, q1 in Hc. apply fold_insert_In in Hc. destruct Hc as [Hc|Hc]; [now apply Hhq|].
        apply fold_insert_In in Hc. destruct Hc as [Hc|[]]. now apply wq_ok.
      - intros c [].
      - intros x Hx. apply in_map_iff in Hx. destruct Hx as (c & <- & Hc). now apply wq_ok.
      - intros x Hx. apply in_map_iff in Hx. destruct Hx as (c & <- & Hc). now apply Hhq.
      - intros x t ps tm Hx G. right. left. apply in_map_iff in Hx. destruct Hx as (c & E & Hc).
        exists c. split; [|exact E]. unfold q2, q1. apply fold_insert_In. right. apply fold_insert_In. now left.
      - intros x Hx G. apply in_map_iff in Hx. destruct Hx as (c & <- & Hc).
        destruct (wq_ok c Hc) as (K & _). unfold cok in K. congruence. }
    destruct (paint_loop_spec _ _ _ _ _ PL P0) as (PI & Settled & Winit).
    pose proof (check_missing_spec _ _ CM) as Miss.
    assert (NewcOk : forall c, In c newc -> cok c) by (intros c Hc; apply (pi_newc _ _ PI c Hc)).
    destruct (phase2_spec _ _ _ _ WK i1 td) as (M & J1 & [JR JN] & Proc & Prov).
    set (R := snd s') in *.
    assert (WpGood : forall x, In x (p_w p') -> Good R x).
    { intros x Hx. destruct (get_commit st x) as [[[t ps] tm]|] eqn:G.
      - destruct (mem x (p_h p')) eqn:MH; [right; apply (pi_h _ _ PI); now apply mem_In|]. apply mem_false in MH.
        destruct (Settled x t ps tm Hx G) as [A|[(c & Hc & E) _]]; [contradiction|].
        subst x. destruct (Proc c Hc MH) as [A _]. exact (J1 _ A).
      - destruct (pi_M _ _ PI x Hx G) as (c & A & B). right.
        eapply Had_closed; [apply (pi_h _ _ PI), (Miss x c A) | now apply reach_child]. }
    (* every object below the tree of a processed commit is selected or held *)
    assert (GoodTree : forall n c, c_id c = n -> In c newc -> ~ In (c_id c) (p_h p') ->
              forall o, reach st sh (c_tree c) o -> Good R o).
    { intro n. induction n as [n IHn] using (well_founded_induction N.lt_wf_0).
      intros c En Hc Hnh o Ho. destruct (Proc c Hc Hnh) as [_ Cov].
      destruct (Cov o Ho) as [A|[A|(S & p & tp & pps & tm & Hp & Gp & Hr)]]; [now left | now right|].
      destruct (pi_newc _ _ PI c Hc) as [Kc Wc].
      destruct (Settled (c_id c) _ _ _ Wc Kc) as [A|[_ [A|A]]]; [contradiction | congruence|].
      assert (Wp : In p (p_w p')) by now apply A.
      destruct (mem p (p_h p')) eqn:MH.
      - (* the parent is have-painted: its tree is held *)
        right. apply mem_In in MH. apply (Had_closed st sh haves p o); [apply (pi_h _ _ PI), MH|].
        econstructor; [eapply ch_tree; apply get_commit_get; exact Gp | exact Hr].
      - (* else it is a processed commit itself, and older *)
        apply mem_false in MH. destruct (Settled p tp pps tm Wp Gp) as [B|[(c' & Hc' & E') _]]; [contradiction|].
        pose proof (NewcOk c' Hc') as Kc'. unfold cok in Kc'. rewrite E' in Kc'. rewrite Gp in Kc'.
        inversion Kc'; subst tp.
        assert (Lt : p < n) by (subst n; eapply wf_parent_lt; eauto).
        apply (IHn p Lt c' E' Hc'); [now rewrite E' | exact Hr]. }
    assert (HdGood : forall x, Hd s0 wseen x -> Good R x).
    { intros x [Hx|[Hx|Hx]]; [now right | left; now apply (proj2 M)|].
      destruct (wseen_ok x Hx) as (c & Hc & <-). apply WpGood, Winit. cbn. apply in_map_iff. eauto. }
    constructor.
    - intros o c Ho Hc. destruct (Prov o Ho) as [Ho0|(cm & Hcm & Hnh & [->|Hr])].
      + (* selected while seeding *)
        inversion Hc; subst.
        1-2: exfalso; pose proof (nc o Ho0) as X; unfold get_commit in X; rewrite H in X; discriminate.
        * destruct (i2 o es e Ho0 (fun X => X) (proj2 (get_tree_get _ _ _) H) H0 H1); [left; now apply (proj2 M) | now right].
        * apply HdGood. eapply Tag0; eauto.
      + (* a processed commit *)
        pose proof (NewcOk cm Hcm) as K. unfold cok in K. apply get_commit_get in K.
        inversion Hc; subst; rewrite K in H; inversion H; subst.
        * eapply GoodTree; eauto. constructor.
        * destruct (pi_newc _ _ PI cm Hcm) as [Kc Wc].
          destruct (Settled (c_id cm) _ _ _ Wc Kc) as [A|[_ [A|A]]]; [contradiction | congruence|].
          apply WpGood, A, H1.
      + (* below the tree of a processed commit *)
        eapply GoodTree; eauto. eapply reach_trans; [exact Hr | now apply reach_child].
    - intros w Hw. apply HdGood, Hwants, Hw.
    - intros x Hx. destruct (Prov x Hx) as [Hx0|(cm & Hcm & Hnh & Hx')]; [now apply res_ok|].
      destruct (pi_newc _ _ PI cm Hcm) as [Kc Wc].
      pose proof (pi_w _ _ PI _ Wc) as Wcm.
      destruct Hx' as [->|Hr]; [exact Wcm|].
      eapply Wanted_closed; [exact Wcm|]. econstructor; [eapply ch_tree; apply get_commit_get; exact Kc | exact Hr].
    - exact JN.
  Qed.

  Lemma objects_ok : forall R, objects st sh wants haves = Ok R -> result_ok R.
  Proof.
    intros R H. unfold objects in H.
    destruct (seed_haves (S (List.length haves + List.length st)) st haves [] [] []) as [[hq seen]|] eqn:SH; [|discriminate].
    destruct (seed_wants (S (List.length wants + List.length st)) st wants [] [] (seen, [])) as [[[wseen wq] s0]|] eqn:SW; [|discriminate].
    destruct (walk st sh wseen wq hq s0) as [s'|] eqn:WK; [|discriminate]. inversion H; subst R. clear H.
    destruct (seed_haves_spec _ _ _ _ _ _ _ SH) as [Hseen Hhq].
    { intros h Hh. exists h. split; [exact Hh | constructor]. }
    { intros x []. }
    { intros c []. }
    assert (Inv0 : winv wants [] [] (seen, [])).
    { constructor; cbn; try (intros; contradiction).
      - constructor; cbn; try (intros; contradiction).
        + intros x Hx. right. now apply Hseen.
        + intros t es e [].
        + split; [intros x [] | constructor].
      - intros c [].
      - intros w Hw. exists w. split; [exact Hw | constructor].
      - intros w Hw. now left. }
    pose proof (seed_wants_spec _ _ _ _ _ _ _ _ SW Inv0) as W0.
    destruct hq as [|hc hq'].
    - apply (walk_full_ok wseen wq s0 s'); [exact W0 | exact WK].
    - apply (painted_ok wseen wq (hc :: hq') s0 s'); [exact W0 | exact Hhq | discriminate | exact WK].
  Qed.

  (* what is not selected and reachable from the wants is reachable from the haves *)
  Lemma covers : forall R, objects st sh wants haves = Ok R ->
    forall o, reach_set st sh wants o -> In o R \/ reach_set st sh haves o.
  Proof.
    intros R H o (w & Hw & Hr). destruct (objects_ok R H) as [C W _ _].
    exact (closed_reach R C w o Hr (W w Hw)).
  Qed.

  Lemma complete : forall R, objects st sh wants haves = Ok R ->
    forall o, reach_set st sh wants o -> ~ reach_set st sh haves o -> In o R.
  Proof. intros R H o Hw Hn. destruct (covers R H o Hw) as [A|A]; [exact A | contradiction]. Qed.

  Lemma only_wanted : forall R, objects st sh wants haves = Ok R ->
    forall o, In o R -> reach_set st sh wants o.
  Proof. intros R H o Ho. now apply (ro_wanted R (objects_ok R H)). Qed.
End Objects.
