(* Proofs/C04.v — the tree codec against git: Tree.Decode and git's parser each on what the other
   accepts; what Validate's acceptance says of each entry and of their order; the fsck messages
   that remain possible on a written tree; Validate accepts every sorted duplicate-free valid set. *)
From Coq Require Import List NArith ZArith Bool Lia ZifyBool ZifyNat ZifyN Permutation.
From GoGit Require Import Base.Out Gen.C04 Model.TreeObj Spec.GitTree.
Import ListNotations.
Local Open Scope N_scope.

Ltac norm := repeat (rewrite <- app_assoc || (progress (cbn [app]))).

Definition tlacks (c : N) (s : bytes) : bool := forallb (fun x => negb (x =? c)) s.

Lemma tlacks_cons x c s : tlacks x (c :: s) = true <-> c <> x /\ tlacks x s = true.
Proof. unfold tlacks. cbn [forallb]. rewrite andb_true_iff, negb_true_iff, N.eqb_neq. tauto. Qed.

Lemma tlacks_app c a b : tlacks c (a ++ b) = tlacks c a && tlacks c b.
Proof. apply forallb_app. Qed.

Lemma tlacks_app_r c a b : tlacks c (a ++ b) = true -> tlacks c b = true.
Proof. rewrite tlacks_app. now intros [_ H]%andb_true_iff. Qed.

Lemma tlacks_skipn x n s : tlacks x s = true -> tlacks x (skipn n s) = true.
Proof.
  revert s; induction n as [|n IH]; intros s H; [exact H|]. destruct s as [|c s]; [exact H|].
  cbn [skipn]. apply IH. now apply tlacks_cons in H.
Qed.

Lemma tcut_app c a b : tlacks c a = true -> tcut c (a ++ c :: b) = Some (a, b).
Proof.
  induction a as [|x a IH]; cbn [app tcut]; intros H.
  - now rewrite N.eqb_refl.
  - apply tlacks_cons in H as [Hx Ha]. apply N.eqb_neq in Hx. now rewrite Hx, IH.
Qed.

Lemma tcut_inv c s a b : tcut c s = Some (a, b) -> s = a ++ c :: b /\ tlacks c a = true.
Proof.
  revert a b; induction s as [|x s IH]; intros a b; cbn [tcut]; [discriminate|].
  destruct (x =? c) eqn:E.
  - intros [= <- <-]. apply N.eqb_eq in E. subst. now split.
  - destruct (tcut c s) as [[a' b']|]; [|discriminate]. intros [= <- <-].
    destruct (IH a' b' eq_refl) as [-> H]. split; [reflexivity|].
    apply tlacks_cons. now apply N.eqb_neq in E.
Qed.

Lemma beq_eq a b : beq a b = true <-> a = b.
Proof.
  revert b; induction a as [|x a IH]; intros [|y b]; cbn; try easy.
  rewrite andb_true_iff, IH, N.eqb_eq. split; [intros [-> ->]|intros [= -> ->]]; auto.
Qed.

Lemma canon_same m : treeobj_canonicalTreeMode m = canon_mode m.
Proof.
  unfold treeobj_canonicalTreeMode, canon_mode. cbv zeta.
  destruct (Z.land m 61440 =? 16384)%Z eqn:A, (Z.land m 61440 =? 32768)%Z eqn:B, (Z.land m 61440 =? 40960)%Z eqn:C;
    try reflexivity; try lia.
  all: destruct (Z.land m 64 =? 0)%Z; reflexivity.
Qed.

Definition valid_modes : list Z := [33188; 33261; 40960; 16384; 57344; 33204]%Z.

Lemma valid_mode_in m : treeobj_isValidTreeMode m = true -> In m valid_modes.
Proof.
  unfold treeobj_isValidTreeMode, valid_modes. cbn [In].
  destruct ((m =? 33188) || (m =? 33261) || (m =? 40960) || (m =? 16384) || (m =? 57344) || (m =? 33204))%Z eqn:E;
    [lia|discriminate].
Qed.

Lemma oct_valid m : In m valid_modes ->
  mode_of_bytes (oct_of m) = Some m /\ tlacks 32 (oct_of m) = true /\
  match oct_of m with c :: _ => negb (c =? 48) | [] => true end = true.
Proof.
  unfold valid_modes. intros H.
  repeat (destruct H as [<-|H]; [vm_compute; repeat split; reflexivity|]). destruct H.
Qed.

(* Deprecated (0100664) is the one accepted mode that does not read back as written *)
Lemma canon_valid m : In m valid_modes -> m <> 33204%Z -> treeobj_canonicalTreeMode m = m.
Proof.
  unfold valid_modes. intros H Hd.
  repeat (destruct H as [<-|H]; [try reflexivity; now elim Hd|]). destruct H.
Qed.

Definition entry_ok (e : tentry) : Prop :=
  t_name e <> [] /\ tlacks 0 (t_name e) = true /\ tlacks 47 (t_name e) = true /\
  treeobj_isValidTreeMode (t_mode e) = true /\ is_zero_hash (t_hash e) = false /\
  valid_tree_path (t_name e) = true.

Lemma control_free_no_nul n : existsb is_control n = false -> tlacks 0 n = true.
Proof.
  induction n as [|c n IH]; cbn [existsb]; [easy|].
  intros H. apply orb_false_iff in H as [Hc Hn]. apply tlacks_cons. split; [|auto].
  unfold is_control in Hc. lia.
Qed.

Lemma slash_free n : existsb (fun c => c =? 47) n = false <-> tlacks 47 n = true.
Proof.
  induction n as [|x l IH]; [easy|]. cbn [existsb]. rewrite orb_false_iff, tlacks_cons, IH, N.eqb_neq. tauto.
Qed.

Definition name_ok (n : bytes) : bool :=
  match n with [] => false | _ => negb (existsb (fun c => c =? 47) n) end.

(* the eight tests of one loop iteration of Validate, one by one *)
Lemma validate_entry_inv seen prev e : v_invalid (validate_entry seen prev e) = false <->
  is_zero_hash (t_hash e) = false /\ name_ok (t_name e) = true /\ valid_tree_path (t_name e) = true /\
  existsb (beq (t_name e)) seen = false /\
  (treeobj_maxTreeEntryNameLen <? Z.of_nat (List.length (t_name e)))%Z = false /\
  treeobj_isValidTreeMode (t_mode e) = true /\
  ((t_mode e =? fmode_Symlink)%Z && dot_symlink_name (t_name e)) = false /\
  match prev with Some p => bgt p (sort_name e) | None => false end = false.
Proof.
  unfold validate_entry. cbv zeta. cbn [v_invalid]. fold (name_ok (t_name e)).
  rewrite !orb_false_iff, !negb_false_iff. destruct (name_ok (t_name e)); cbn [andb]; intuition congruence.
Qed.

Lemma name_ok_inv n : name_ok n = true -> n <> [] /\ tlacks 47 n = true.
Proof. destruct n; [discriminate|]. cbn [name_ok]. rewrite negb_true_iff, slash_free. now split. Qed.

Lemma seen_update n (seen : list bytes) : name_ok n = true ->
  match n with [] => seen | _ :: _ => if existsb (fun c => c =? 47) n then seen else n :: seen end = n :: seen.
Proof. destruct n; [discriminate|]. cbn [name_ok]. intros H. apply negb_true_iff in H. now rewrite H. Qed.

Lemma validate_entry_ok seen prev e :
  v_invalid (validate_entry seen prev e) = false -> entry_ok e.
Proof.
  intros H. apply validate_entry_inv in H as (Hz & Hn & Hp & _ & _ & Hm & _).
  destruct (name_ok_inv _ Hn) as [Hne Hsl]. repeat split; auto.
  unfold valid_tree_path in Hp. apply andb_true_iff in Hp as [K _].
  apply negb_true_iff in K. now apply control_free_no_nul.
Qed.

(* Validate accepts only if every loop iteration does, in whatever state it runs *)
Definition entry_passes (e : tentry) : Prop := exists seen prev, v_invalid (validate_entry seen prev e) = false.

Lemma validate_go_inv es : forall seen prev acc,
  v_invalid (validate_go es seen prev acc) = false ->
  v_invalid acc = false /\ Forall entry_passes es.
Proof.
  induction es as [|e es IH]; intros seen prev acc H; cbn [validate_go] in H.
  - now split.
  - apply IH in H as [H1 H2]. cbn [v_invalid] in H1. apply orb_false_iff in H1 as [Ha Hv].
    split; [exact Ha|]. constructor; [now exists seen, prev|exact H2].
Qed.

Lemma validate_all es : v_invalid (validate es) = false -> Forall entry_passes es.
Proof. intros H. now apply (validate_go_inv es [] None _ H). Qed.

Lemma validate_all_ok es : v_invalid (validate es) = false -> Forall entry_ok es.
Proof.
  intros H. apply (Forall_impl _ (P := entry_passes)); [|now apply validate_all].
  intros e (seen & prev & He). now apply (validate_entry_ok seen prev).
Qed.

(* raw entries: the buffer as both parsers see it *)
Record wfraw (r : rawent) : Prop := {
  wf_mtext : mode_of_bytes (r_mtext r) = Some (r_mode r);
  wf_name : r_name r <> [];
  wf_nul : tlacks 0 (r_name r) = true;
  wf_oid : List.length (r_oid r) = 20%nat }.

Definition raw_bytes (r : rawent) : bytes := r_mtext r ++ 32 :: r_name r ++ 0 :: r_oid r.
Definition raw_canon (r : rawent) : tentry := mkT (treeobj_canonicalTreeMode (r_mode r)) (r_name r) (r_oid r).

Lemma firstn_skipn_app {A} (h r : list A) n : List.length h = n -> firstn n (h ++ r) = h /\ skipn n (h ++ r) = r.
Proof.
  intros <-. split.
  - rewrite firstn_app, Nat.sub_diag, firstn_all. cbn. apply app_nil_r.
  - rewrite skipn_app, Nat.sub_diag, skipn_all. reflexivity.
Qed.

Lemma firstn_skipn_len {A} (l : list A) n : (n <= List.length l)%nat -> List.length (firstn n l) = n /\ l = firstn n l ++ skipn n l.
Proof. intros H. split; [now apply firstn_length_le|symmetry; apply firstn_skipn]. Qed.

Lemma mode_of_bytes_octal m v : mode_of_bytes m = Some v ->
  forallb is_octal m = true /\ (1 <= List.length m <= 7)%nat /\ v = Z.of_N (octal_val m 0).
Proof.
  unfold mode_of_bytes. destruct (Nat.eqb (List.length m) 0 || Nat.ltb 7 (List.length m)) eqn:L; [discriminate|].
  destruct (forallb is_octal m) eqn:O; [|discriminate]. intros [= <-]. repeat split; lia.
Qed.

Lemma octal_no_sp m : forallb is_octal m = true -> tlacks 32 m = true.
Proof.
  induction m as [|c m IH]; [reflexivity|]. cbn [forallb]. intros H. apply andb_true_iff in H as [A B].
  apply tlacks_cons. split; [unfold is_octal in A; lia|auto].
Qed.

Lemma raw_bytes_length r : wfraw r -> (24 <= List.length (raw_bytes r))%nat.
Proof.
  intros [Wm Wn _ Wo]. apply mode_of_bytes_octal in Wm as (_ & Lm & _).
  unfold raw_bytes. rewrite app_length. cbn [List.length]. rewrite app_length. cbn [List.length]. rewrite Wo.
  destruct (r_name r); [easy|]. cbn [List.length]. lia.
Qed.

Definition short_modes (rs : list rawent) : bool := forallb (fun r => Nat.leb (List.length (r_mtext r)) 7) rs.

Lemma wfraw_short rs : Forall wfraw rs -> short_modes rs = true.
Proof.
  intros H. apply forallb_forall. intros r Hr. rewrite Forall_forall in H. destruct (H r Hr) as [Wm _ _ _].
  apply mode_of_bytes_octal in Wm as (_ & L & _). apply Nat.leb_le. lia.
Qed.

Lemma decode_go_inv : forall fuel b acc l,
  decode_go fuel 20 b acc = inr l ->
  exists rs, b = concat (map raw_bytes rs) /\ Forall wfraw rs /\ l = rev acc ++ map raw_canon rs.
Proof.
  induction fuel as [|f IH]; intros b acc l H;
    (destruct b as [|x b']; cbn [decode_go] in H; [injection H as <-; exists []; cbn; now rewrite app_nil_r|]);
    [discriminate|].
  - set (b := x :: b') in *.
    destruct (tcut 32 b) as [[m r]|] eqn:C1; [|discriminate].
    destruct (mode_of_bytes m) as [mode|] eqn:M; [|discriminate].
    destruct (tcut 0 r) as [[name r2]|] eqn:C2; [|discriminate].
    destruct name as [|c n] eqn:N; [discriminate|]. rewrite <- N in *.
    destruct (Nat.ltb (List.length r2) 20) eqn:L; [discriminate|]. apply Nat.ltb_ge in L.
    apply IH in H as (rs & Hb & Hwf & Hl).
    destruct (tcut_inv _ _ _ _ C1) as [E1 _]. destruct (tcut_inv _ _ _ _ C2) as [E2 Hnul].
    destruct (firstn_skipn_len r2 20 L) as [Hlen Hsplit].
    exists (mkR m mode name (firstn 20 r2) :: rs). repeat split.
    + cbn [map concat]. unfold raw_bytes at 1. cbn [r_mtext r_name r_oid]. rewrite <- Hb.
      rewrite E1, E2. norm. now rewrite <- Hsplit.
    + constructor; [|exact Hwf]. constructor; cbn [r_mtext r_mode r_name r_oid]; auto. rewrite N. discriminate.
    + rewrite Hl. cbn [rev map]. unfold raw_canon at 2. cbn [r_mode r_name r_oid]. now norm.
Qed.

Lemma octal_val_bound s acc : forallb is_octal s = true -> octal_val s acc < (acc + 1) * 8 ^ N.of_nat (List.length s).
Proof.
  revert acc; induction s as [|c s IH]; intros acc H.
  - cbn. lia.
  - cbn [forallb] in H. apply andb_true_iff in H as [Hc Hs]. cbn [octal_val List.length].
    specialize (IH (8 * acc + (c - 48)) Hs). rewrite Nat2N.inj_succ, N.pow_succ_r'.
    unfold is_octal in Hc.
    assert (8 * acc + (c - 48) + 1 <= (acc + 1) * 8) by lia.
    eapply N.lt_le_trans; [exact IH|]. nia.
Qed.

(* the test on the first byte is a test for SP *)
Lemma get_mode_eq s : get_mode s = match s with c :: _ => if c =? 32 then None else get_mode_go s 0 [] | [] => get_mode_go s 0 [] end.
Proof.
  destruct s as [|c r]; [reflexivity|]. destruct (c =? 32) eqn:E.
  - apply N.eqb_eq in E. now subst.
  - destruct c as [|p]; [reflexivity|]. cbn [get_mode].
    do 6 (try (destruct p as [p|p|]; try reflexivity)). discriminate E.
Qed.

Lemma get_mode_go_octal s : forall acc seen rest,
  forallb is_octal s = true -> (acc + 1) * 8 ^ N.of_nat (List.length s) <= 2 ^ 32 ->
  get_mode_go (s ++ 32 :: rest) acc seen = Some (rev seen ++ s, octal_val s acc, rest).
Proof.
  induction s as [|c s IH]; intros acc seen rest H B.
  - cbn. now rewrite app_nil_r.
  - cbn [forallb] in H. apply andb_true_iff in H as [Hc Hs]. cbn [app get_mode_go].
    assert (E : (c =? 32) = false) by (unfold is_octal in Hc; lia). rewrite E, Hc.
    cbn [List.length] in B. rewrite Nat2N.inj_succ, N.pow_succ_r' in B.
    assert (P : 0 < 8 ^ N.of_nat (List.length s)) by (apply N.neq_0_lt_0, N.pow_nonzero; lia).
    unfold is_octal in Hc. rewrite N.mod_small by nia.
    rewrite IH; [cbn [rev octal_val]; now norm|exact Hs|nia].
Qed.

Lemma get_mode_go_inv s : forall acc seen mt v rest,
  get_mode_go s acc seen = Some (mt, v, rest) ->
  exists d, s = d ++ 32 :: rest /\ mt = rev seen ++ d /\ forallb is_octal d = true.
Proof.
  induction s as [|c s IH]; intros acc seen mt v rest H; cbn [get_mode_go] in H; [discriminate|].
  destruct (c =? 32) eqn:E.
  - injection H as <- <- <-. apply N.eqb_eq in E. subst. exists []. cbn. rewrite app_nil_r. auto.
  - destruct (is_octal c) eqn:O; [|discriminate].
    apply IH in H as (d & -> & -> & Hd). exists (c :: d). repeat split.
    + cbn [rev]. now rewrite <- app_assoc.
    + cbn [forallb]. now rewrite O, Hd.
Qed.

Lemma short_no_wrap n : (n <= 7)%nat -> (0 + 1) * 8 ^ N.of_nat n <= 2 ^ 32.
Proof.
  intros L. assert (8 ^ N.of_nat n <= 8 ^ 7) by (apply N.pow_le_mono_r; lia).
  change (8 ^ 7) with 2097152 in *. change (2 ^ 32) with 4294967296. lia.
Qed.

Lemma get_mode_octal m rest : forallb is_octal m = true -> (1 <= List.length m <= 7)%nat ->
  get_mode (m ++ 32 :: rest) = Some (m, octal_val m 0, rest).
Proof.
  intros H L. rewrite get_mode_eq. destruct m as [|c m']; [cbn in L; lia|].
  pose proof (octal_no_sp _ H) as SP. apply tlacks_cons in SP as [SP _]. apply N.eqb_neq in SP.
  cbn [app]. rewrite SP. apply (get_mode_go_octal (c :: m')); [exact H|apply short_no_wrap, L].
Qed.

Lemma get_mode_inv s mt v rest : get_mode s = Some (mt, v, rest) ->
  s = mt ++ 32 :: rest /\ forallb is_octal mt = true /\ mt <> [] /\
  ((List.length mt <= 7)%nat -> v = octal_val mt 0).
Proof.
  rewrite get_mode_eq. destruct s as [|c s']; [discriminate|]. destruct (c =? 32) eqn:E; [discriminate|].
  intros H. destruct (get_mode_go_inv _ _ _ _ _ _ H) as (d & Hs & -> & Hd). cbn [rev app]. repeat split; auto.
  - intros ->. injection Hs as -> _. now rewrite N.eqb_refl in E.
  - intros L. rewrite Hs, (get_mode_go_octal d) in H by (auto using short_no_wrap). now injection H.
Qed.

Lemma nth_last_nul (pre h : bytes) : List.length h = 20%nat ->
  nth (List.length (pre ++ 0 :: h) - 21) (pre ++ 0 :: h) 1 = 0.
Proof.
  intros H. rewrite app_length. cbn [List.length]. rewrite H.
  replace (List.length pre + 21 - 21)%nat with (List.length pre + 0)%nat by lia.
  rewrite app_nth2_plus. reflexivity.
Qed.

(* the last entry ends in NUL + 20 bytes, which is what git tests first *)
Lemma raw_last_nul rs : forall pre r, Forall wfraw (r :: rs) ->
  let b := pre ++ concat (map raw_bytes (r :: rs)) in nth (List.length b - 21) b 1 = 0.
Proof.
  induction rs as [|r' rs IH]; intros pre r H; inversion H as [|? ? W H']; subst; cbn [map concat].
  - rewrite app_nil_r. unfold raw_bytes.
    replace (pre ++ r_mtext r ++ 32 :: r_name r ++ 0 :: r_oid r) with ((pre ++ r_mtext r ++ 32 :: r_name r) ++ 0 :: r_oid r)
      by now norm.
    apply nth_last_nul, W.
  - rewrite app_assoc. apply (IH (pre ++ raw_bytes r) r' H').
Qed.

Lemma git_parse_go_step f r rest acc : wfraw r ->
  nth (List.length (raw_bytes r ++ rest) - 21) (raw_bytes r ++ rest) 1 = 0 ->
  git_parse_go (S f) 20 (raw_bytes r ++ rest) acc = git_parse_go f 20 rest (r :: acc).
Proof.
  (* the tests of git's loop body in their order: the NUL 21 bytes from the end, the length,
     get_mode, the name up to NUL, the id *)
  intros W NUL. pose proof (raw_bytes_length r W) as LB.
  destruct W as [Wm Wn Wz Wo]. destruct (mode_of_bytes_octal _ _ Wm) as (Oct & Len & Val).
  cbn [git_parse_go]. destruct (raw_bytes r ++ rest) eqn:B; [destruct (raw_bytes r); [cbn in LB; lia|discriminate]|].
  rewrite <- B in NUL |- *. change (20 + 1)%nat with 21%nat. rewrite NUL. cbn [N.eqb negb].
  replace (Nat.ltb (List.length (raw_bytes r ++ rest)) (20 + 3)) with false
    by (rewrite app_length; symmetry; apply Nat.ltb_ge; lia).
  unfold raw_bytes. norm. rewrite (get_mode_octal _ _ Oct Len), (tcut_app 0) by exact Wz.
  destruct (r_name r) eqn:N; [easy|]. rewrite <- N.
  destruct (firstn_skipn_app (r_oid r) rest 20 Wo) as [-> ->].
  replace (Nat.ltb (List.length (r_oid r ++ rest)) 20) with false
    by (rewrite app_length, Wo; symmetry; apply Nat.ltb_ge, Nat.le_add_r).
  rewrite <- Val. now destruct r.
Qed.

Lemma git_parse_wf rs : forall fuel acc,
  Forall wfraw rs -> (List.length (concat (map raw_bytes rs)) < fuel)%nat ->
  git_parse_go fuel 20 (concat (map raw_bytes rs)) acc = (None, rev acc ++ rs).
Proof.
  induction rs as [|r rs IH]; intros fuel acc Hwf Hfuel.
  - destruct fuel; cbn [map concat git_parse_go]; now rewrite app_nil_r.
  - pose proof (raw_last_nul rs [] r Hwf) as NUL.
    inversion Hwf as [|? ? W Hwf']; subst. cbn [map concat app] in *.
    rewrite app_length in Hfuel. pose proof (raw_bytes_length r W). destruct fuel as [|f]; [lia|].
    rewrite (git_parse_go_step f r _ acc W), IH by (assumption || lia).
    cbn [rev]. now norm.
Qed.

Lemma mode_of_bytes_short mt : forallb is_octal mt = true -> mt <> [] -> (List.length mt <= 7)%nat ->
  mode_of_bytes mt = Some (Z.of_N (octal_val mt 0)).
Proof.
  intros Oct Ne L. unfold mode_of_bytes. rewrite Oct.
  now replace (Nat.eqb (List.length mt) 0 || Nat.ltb 7 (List.length mt)) with false
    by (destruct mt; [easy|cbn [List.length] in *; lia]).
Qed.

(* wherever git's parser gets through, Tree.Decode follows step by step as long as the mode texts are short *)
Lemma git_decode_go : forall fuel b accg accd l,
  git_parse_go fuel 20 b accg = (None, l) ->
  exists rs, l = rev accg ++ rs /\
    (short_modes rs = true -> decode_go fuel 20 b accd = inr (rev accd ++ map raw_canon rs)).
Proof.
  induction fuel as [|f IH]; intros b accg accd l H;
    (destruct b as [|x b']; cbn [git_parse_go] in H; cbn [decode_go]; [injection H as <-; exists []; now rewrite !app_nil_r|]);
    [discriminate|].
  - set (b := x :: b') in *.
    destruct (Nat.ltb (List.length b) (20 + 3)); [discriminate|].
    destruct (negb (nth (List.length b - (20 + 1)) b 1 =? 0)); [discriminate|].
    destruct (get_mode b) as [[[mt v] path]|] eqn:GM; [|discriminate].
    destruct (tcut 0 path) as [[name rest]|] eqn:C; [|discriminate].
    destruct name as [|c n] eqn:N; [discriminate|]. rewrite <- N in *.
    destruct (Nat.ltb (List.length rest) 20) eqn:L; [discriminate|].
    apply (IH _ _ (mkT (treeobj_canonicalTreeMode (Z.of_N v)) name (firstn 20 rest) :: accd)) in H as (rs & -> & D).
    exists (mkR mt (Z.of_N v) name (firstn 20 rest) :: rs). split; [cbn [rev]; now norm|].
    intros S. cbn [short_modes forallb r_mtext] in S. apply andb_true_iff in S as [S1 S2]. apply Nat.leb_le in S1.
    destruct (get_mode_inv _ _ _ _ GM) as (E1 & Oct & Ne & Val).
    rewrite E1, (tcut_app 32), (mode_of_bytes_short mt Oct Ne S1), <- (Val S1), C by now apply octal_no_sp.
    rewrite N, <- N, L, (D S2). cbn [rev map]. now norm.
Qed.

(* the two readers meet at git's parse: ls-tree canonicalises it, Decode succeeds exactly into it *)
Lemma ls_tree_parse b :
  git_ls_tree 20 b = match git_parse 20 b with inl e => inl e | inr rs => inr (map raw_canon rs) end.
Proof.
  unfold git_ls_tree. destruct (git_parse 20 b); [reflexivity|].
  f_equal. apply map_ext. intros r. unfold raw_canon. now rewrite canon_same.
Qed.

Lemma decode_git_parse b es : decode 20 b = inr es ->
  exists rs, git_parse 20 b = inr rs /\ Forall wfraw rs /\ es = map raw_canon rs.
Proof.
  intros H. apply decode_go_inv in H as (rs & -> & Hwf & ->). exists rs.
  unfold git_parse, git_parse_partial. now rewrite (git_parse_wf rs _ [] Hwf (Nat.lt_succ_diag_r _)).
Qed.

Lemma git_parse_decode b rs : git_parse 20 b = inr rs -> short_modes rs = true -> decode 20 b = inr (map raw_canon rs).
Proof.
  unfold git_parse, git_parse_partial, decode.
  destruct (git_parse_go (S (List.length b)) 20 b []) as [[e|] l] eqn:G; [discriminate|]. intros [= <-].
  destruct (git_decode_go _ b [] [] l G) as (rs & -> & D). exact D.
Qed.

Definition canon_entry (e : tentry) : tentry :=
  mkT (treeobj_canonicalTreeMode (t_mode e)) (t_name e) (t_hash e).

Definition raw_of (e : tentry) : rawent := mkR (oct_of (t_mode e)) (t_mode e) (t_name e) (t_hash e).

Lemma raw_of_bytes es : concat (map raw_bytes (map raw_of es)) = concat (map encode_entry es).
Proof. induction es as [|e es IH]; [reflexivity|]. cbn [map concat]. now rewrite IH. Qed.

Lemma raw_of_wf es :
  Forall entry_ok es -> Forall (fun e => List.length (t_hash e) = 20%nat) es -> Forall wfraw (map raw_of es).
Proof.
  intros H1 H2. induction es as [|e es IH]; [constructor|].
  inversion H1 as [|? ? (Hn & Hnul & Hsl & Hm & Hz & Hp) H1']; inversion H2 as [|? ? Hh H2']; subst.
  cbn [map]. constructor; [|now apply IH].
  destruct (oct_valid _ (valid_mode_in _ Hm)) as (O1 & _). now constructor.
Qed.

Lemma encode_inv es b : encode es = Some b -> v_invalid (validate es) = false /\ b = concat (map encode_entry es).
Proof. unfold encode. destruct (v_invalid (validate es)); [discriminate|]. now intros [= <-]. Qed.

Lemma encode_raw es b :
  Forall (fun e => List.length (t_hash e) = 20%nat) es -> encode es = Some b ->
  b = concat (map raw_bytes (map raw_of es)) /\ Forall wfraw (map raw_of es).
Proof.
  intros Hlen H. apply encode_inv in H as [V ->].
  split; [symmetry; apply raw_of_bytes|exact (raw_of_wf es (validate_all_ok es V) Hlen)].
Qed.

Lemma encode_git_parse es b :
  Forall (fun e => List.length (t_hash e) = 20%nat) es ->
  encode es = Some b -> git_parse_partial 20 b = (None, map raw_of es).
Proof.
  intros Hlen Henc. destruct (encode_raw es b Hlen Henc) as [-> Hwf].
  exact (git_parse_wf _ _ [] Hwf (Nat.lt_succ_diag_r _)).
Qed.

Lemma bgt_app_same p x y : bgt (p ++ x) (p ++ y) = bgt x y.
Proof. induction p as [|c p IH]; cbn [app bgt]; [reflexivity|]. now rewrite N.eqb_refl. Qed.

(* cmp_names: a common prefix, then either a decisive byte pair or the end of a name *)
Lemma cmp_names_spec a b :
  match cmp_names a b with
  | (Eq, c1, c2) => exists p ra rb, a = p ++ ra /\ b = p ++ rb /\ (ra = [] \/ rb = []) /\ c1 = hd 0 ra /\ c2 = hd 0 rb
  | (o, _, _) => exists p x y ra rb, a = p ++ x :: ra /\ b = p ++ y :: rb /\ (x ?= y) = o
  end.
Proof.
  revert b; induction a as [|x a IH]; intros [|y b]; cbn [cmp_names].
  - exists [], [], []. repeat split; auto.
  - exists [], [], (y :: b). repeat split; auto.
  - exists [], (x :: a), []. repeat split; auto.
  - destruct (x =? y) eqn:E.
    + apply N.eqb_eq in E. subst y. specialize (IH b).
      destruct (cmp_names a b) as [[[| |] c1] c2].
      1: { destruct IH as (p & ra & rb & -> & -> & H). exists (x :: p), ra, rb. now cbn. }
      all: destruct IH as (p & x0 & y0 & ra & rb & -> & -> & H); exists (x :: p), x0, y0, ra, rb; now cbn.
    + destruct (x <? y) eqn:L; exists [], x, y, a, b; repeat split; [apply N.compare_lt_iff|apply N.compare_gt_iff]; lia.
Qed.

Lemma dir_mode_valid m : In m valid_modes -> is_dir_mode m = (m =? fmode_Dir)%Z.
Proof.
  unfold valid_modes. intros H. repeat (destruct H as [<-|H]; [reflexivity|]). destruct H.
Qed.

Lemma symlink_mode m : In m valid_modes -> (Z.land m 61440 =? 40960)%Z = (m =? fmode_Symlink)%Z.
Proof. unfold valid_modes. intros H. repeat (destruct H as [<-|H]; [reflexivity|]). destruct H. Qed.

Lemma sort_name_app e : treeobj_isValidTreeMode (t_mode e) = true ->
  sort_name e = t_name e ++ (if is_dir_mode (t_mode e) then [47] else []).
Proof.
  intros V. unfold sort_name. rewrite (dir_mode_valid _ (valid_mode_in _ V)).
  destruct (t_mode e =? fmode_Dir)%Z; [reflexivity|now rewrite app_nil_r].
Qed.

Lemma skip_prefix_nil s p : skip_prefix s p = Some [] -> s = p.
Proof.
  revert s; induction p as [|y p IH]; intros [|x s]; cbn [skip_prefix]; try easy.
  destruct (x =? y) eqn:E; [|discriminate]. apply N.eqb_eq in E. subst. intros H. f_equal. now apply IH.
Qed.

Lemma pop_loop_in n st :
  (fst (pop_loop n st) = true -> In n st) /\ (forall z, In z (snd (pop_loop n st)) -> In z st).
Proof.
  induction st as [|f rest [IH1 IH2]]; cbn [pop_loop]; [now split|].
  destruct (skip_prefix n f) as [[|c r]|] eqn:SP.
  - apply skip_prefix_nil in SP. subst. split; [now left|now right].
  - destruct (lt_slash c); [split; [discriminate|auto]|split; [right|right]; auto].
  - split; [right|right]; auto.
Qed.

(* go-git's adjacent test passing means git's verify_ordered does not say "unordered";
   it says "duplicates" only for an equal name or a name found on the stack *)
Lemma verify_ordered_sorted a b st :
  entry_ok a -> entry_ok b ->
  bgt (sort_name a) (sort_name b) = false ->
  let '(o, st') := verify_ordered (t_mode a) (t_name a) (t_mode b) (t_name b) st in
  o <> Unordered /\ (o = HasDups -> t_name a = t_name b \/ In (t_name b) st) /\
  (forall x, In x st' -> x = t_name a \/ In x st).
Proof.
  intros (_ & Za & Sa & Ma & _) (_ & Zb & Sb & Mb & _) H.
  rewrite (sort_name_app a Ma), (sort_name_app b Mb) in H. clear Ma Mb.
  unfold verify_ordered. pose proof (cmp_names_spec (t_name a) (t_name b)) as C.
  destruct (cmp_names (t_name a) (t_name b)) as [[[| |] c1] c2].
  - (* a common prefix p, then one name has ended: the byte after p decides, with
       '/' standing in for the end of a directory name *)
    destruct C as (p & ra & rb & Ea & Eb & Hend & -> & ->).
    rewrite Ea, Eb, <- !app_assoc, bgt_app_same in H.
    rewrite Ea in Za, Sa. rewrite Eb in Zb, Sb. apply tlacks_app_r in Za, Sa, Zb, Sb.
    destruct ra as [|x ra'], rb as [|y rb']; try (now destruct Hend); cbn [hd app] in *.
    + (* equal names *)
      repeat split; try discriminate; auto. intros _. left. now rewrite Ea, Eb.
    + (* the first name is a proper prefix of the second *)
      apply tlacks_cons in Zb as [Y0 _]. apply tlacks_cons in Sb as [Y47 _].
      replace (y =? 0) with false by lia. cbn [andb].
      destruct (is_dir_mode (t_mode a)); cbn [bgt] in H; cbn [N.eqb andb].
      * replace (47 =? y) with false in H by lia.
        replace (47 <? y) with true by lia.
        replace (y =? 47) with false by lia. repeat split; try discriminate; auto.
      * replace (0 <? y) with true by lia.
        replace (y =? 47) with false by lia. cbn [andb].
        destruct (lt_slash y); repeat split; try discriminate; auto. intros z [<-|Hz]; auto.
    + (* the second name is a proper prefix of the first: go-git's test passes
         only if the second is a directory and the next byte sorts before '/' *)
      apply tlacks_cons in Za as [X0 _]. apply tlacks_cons in Sa as [X47 _].
      destruct (is_dir_mode (t_mode b)); [|discriminate H]. cbn [app bgt] in H.
      replace (x =? 47) with false in H by lia.
      assert (E0 : (x =? 0) = false) by lia.
      rewrite E0. cbn [andb N.eqb Pos.eqb]. rewrite E0. cbn [andb].
      replace (x <? 47) with true by lia.
      replace (lt_slash x) with true by (unfold lt_slash; lia).
      destruct (pop_loop_in (t_name b) st) as [P1 P2].
      destruct (pop_loop (t_name b) st) as [[] st2]; cbn [fst snd] in P1, P2; repeat split; try discriminate; auto.
  - repeat split; try discriminate; auto.
  - (* a decisive byte pair with the first larger: go-git's test fails *)
    destruct C as (p & x & y & ra & rb & Ea & Eb & Hlt). apply N.compare_gt_iff in Hlt. exfalso.
    rewrite Ea, Eb, <- !app_assoc, bgt_app_same in H. cbn [app bgt] in H.
    replace (x =? y) with false in H by (clear -Hlt; lia). clear -H Hlt. lia.
Qed.

(* the chain of adjacent tests and the seen-set of Validate *)
Fixpoint chain_ok (prev : option bytes) (seen : list bytes) (es : list tentry) : Prop :=
  match es with
  | [] => True
  | e :: r =>
    match prev with Some p => bgt p (sort_name e) = false | None => True end /\
    ~ In (t_name e) seen /\ chain_ok (Some (sort_name e)) (t_name e :: seen) r
  end.

Lemma existsb_beq_in n seen : existsb (beq n) seen = false <-> ~ In n seen.
Proof.
  rewrite <- not_true_iff_false, existsb_exists. split; intros H K; apply H.
  - exists n. split; [exact K|now apply beq_eq].
  - destruct K as (x & Hx & Hb). apply beq_eq in Hb. now subst.
Qed.

Lemma validate_go_chain es : forall seen prev acc,
  v_invalid (validate_go es seen prev acc) = false -> chain_ok prev seen es.
Proof.
  induction es as [|e es IH]; intros seen prev acc H; [exact I|].
  cbn [validate_go] in H. pose proof H as H'. apply validate_go_inv in H' as [Hacc _].
  cbn [v_invalid] in Hacc. apply orb_false_iff in Hacc as [_ Hv].
  apply validate_entry_inv in Hv as (_ & Hn & _ & Hdup & _ & _ & _ & Huns).
  cbn [chain_ok]. split; [destruct prev; [exact Huns|exact I]|]. split; [now apply existsb_beq_in|].
  rewrite (seen_update _ seen Hn) in H. now apply IH in H.
Qed.

Lemma order_flags_clean es : forall p seen stack uns dup,
  entry_ok p -> Forall entry_ok es ->
  chain_ok (Some (sort_name p)) seen es -> In (t_name p) seen -> (forall x, In x stack -> In x seen) ->
  order_flags (Some (t_mode p, t_name p)) (map raw_of es) stack uns dup = (uns, dup).
Proof.
  induction es as [|e es IH]; intros p seen stack uns dup Hp Hes Hc Hin Hst; [reflexivity|].
  inversion Hes as [|? ? He Hes']; subst. cbn [chain_ok] in Hc. destruct Hc as (Hs & Hnew & Hc).
  cbn [map order_flags raw_of r_mode r_name].
  pose proof (verify_ordered_sorted p e stack Hp He Hs) as V.
  destruct (verify_ordered (t_mode p) (t_name p) (t_mode e) (t_name e) stack) as [o st'].
  destruct V as (V1 & V2 & V3).
  assert (NoDup' : o <> HasDups).
  { intros ->. destruct (V2 eq_refl) as [E|E]; [apply Hnew; now rewrite <- E|apply Hnew; auto]. }
  rewrite (IH e (t_name e :: seen) st' _ _ He Hes' Hc (or_introl eq_refl)).
  - destruct o; try easy; now rewrite !orb_false_r.
  - intros x Hx. destruct (V3 x Hx) as [->|Hx']; [right; exact Hin|right; auto].
Qed.

Lemma existsb_map_false {A B} (f : A -> B) (p : B -> bool) l :
  (forall x, In x l -> p (f x) = false) -> existsb p (map f l) = false.
Proof.
  intros H. induction l as [|x l IH]; [reflexivity|]. cbn [map existsb].
  rewrite (H x (or_introl eq_refl)), IH; [reflexivity|]. intros y Hy. apply H. now right.
Qed.

Lemma not_dot_names n : valid_tree_path n = true -> beq n [46] = false /\ beq n [46; 46] = false.
Proof.
  intros H. split; apply not_true_is_false; intros E; apply beq_eq in E; subst; discriminate H.
Qed.

Definition structural (m : fmsg) : bool :=
  match m with MHasDotgit | MGitmodulesSymlink => false | _ => true end.

(* the messages that remain possible on a written tree: the two name disguises *)
Lemma written_fsck_shape es b :
  Forall (fun e => List.length (t_hash e) = 20%nat) es ->
  encode es = Some b ->
  git_fsck_tree 20 b =
  (if existsb (fun e => git_has_dotgit (r_name e)) (map raw_of es) then [MHasDotgit] else []) ++
  (if existsb (fun e => (Z.land (r_mode e) 61440 =? 40960)%Z && git_is_dotgitmodules (r_name e)) (map raw_of es)
   then [MGitmodulesSymlink] else []).
Proof.
  intros Hlen Henc. unfold git_fsck_tree. rewrite (encode_git_parse es b Hlen Henc).
  apply encode_inv in Henc as [V _].
  pose proof (validate_all_ok es V) as Hok. pose proof (validate_go_chain es [] None _ V) as Hch.
  unfold fsck_entries, fsck_with.
  assert (OF : order_flags None (map raw_of es) [] false false = (false, false)).
  { destruct es as [|e es]; [reflexivity|]. cbn [map order_flags raw_of r_mode r_name].
    inversion Hok as [|? ? He Hes]; subst. cbn [chain_ok] in Hch. destruct Hch as (_ & _ & Hc).
    apply (order_flags_clean es e [t_name e]); auto. now left. intros x []. }
  rewrite OF.
  rewrite Forall_forall in Hok.
  assert (A1 : existsb (fun e => is_zero_hash (r_oid e)) (map raw_of es) = false).
  { apply existsb_map_false. intros e He. apply (Hok e He). }
  assert (A2 : existsb (fun e => existsb (fun c => c =? 47) (r_name e)) (map raw_of es) = false).
  { apply existsb_map_false. intros e He. apply slash_free, (Hok e He). }
  assert (A3 : existsb (fun e => beq (r_name e) [46]) (map raw_of es) = false).
  { apply existsb_map_false. intros e He. apply not_dot_names, (Hok e He). }
  assert (A4 : existsb (fun e => beq (r_name e) [46; 46]) (map raw_of es) = false).
  { apply existsb_map_false. intros e He. apply not_dot_names, (Hok e He). }
  assert (A5 : existsb (fun e => match r_mtext e with c :: _ => c =? 48 | [] => false end) (map raw_of es) = false).
  { apply existsb_map_false. intros e He. destruct (Hok e He) as (_ & _ & _ & M & _).
    destruct (oct_valid _ (valid_mode_in _ M)) as (_ & _ & O). cbn [raw_of r_mtext].
    destruct (oct_of (t_mode e)) as [|c r]; [reflexivity|]. now apply negb_true_iff in O. }
  rewrite A1, A2, A3, A4, A5. reflexivity.
Qed.

Lemma bgt_irrefl x : bgt x x = false.
Proof. induction x as [|c x IH]; cbn [bgt]; [reflexivity|]. now rewrite N.eqb_refl. Qed.

Lemma bgt_asym a b : bgt a b = true -> bgt b a = false.
Proof.
  revert b; induction a as [|x a IH]; intros [|y b]; cbn [bgt]; try easy.
  destruct (x =? y) eqn:E.
  - apply N.eqb_eq in E. subst. rewrite N.eqb_refl. apply IH.
  - intros H. rewrite N.eqb_sym, E. lia.
Qed.

Lemma bgt_trans a b c : bgt a b = false -> bgt b c = false -> bgt a c = false.
Proof.
  revert b c; induction a as [|x a IH]; intros [|y b] [|z c]; cbn [bgt]; try easy.
  destruct (x =? y) eqn:E1; destruct (y =? z) eqn:E2.
  - apply N.eqb_eq in E1, E2. subst. rewrite N.eqb_refl. apply IH.
  - apply N.eqb_eq in E1. subst. rewrite E2. auto.
  - apply N.eqb_eq in E2. subst. rewrite E1. auto.
  - intros H1 H2. destruct (x =? z) eqn:E3; [apply N.eqb_eq in E3; subst; lia|lia].
Qed.

Fixpoint sorted_by (l : list tentry) : Prop :=
  match l with
  | x :: ((y :: _) as r) => bgt (sort_name x) (sort_name y) = false /\ sorted_by r
  | _ => True
  end.

Lemma insert_perm e l : Permutation (e :: l) (insert_entry e l).
Proof.
  induction l as [|x l IH]; cbn [insert_entry]; [reflexivity|].
  destruct (bgt (sort_name x) (sort_name e)); [reflexivity|].
  rewrite perm_swap. now apply perm_skip.
Qed.

Lemma sort_perm es : Permutation es (sort_entries es).
Proof.
  induction es as [|e es IH]; [reflexivity|]. cbn [sort_entries fold_right].
  rewrite <- insert_perm. now apply perm_skip.
Qed.

Lemma insert_sorted e l : sorted_by l -> sorted_by (insert_entry e l).
Proof.
  induction l as [|x l IH]; intros H; [exact I|].
  cbn [insert_entry]. destruct (bgt (sort_name x) (sort_name e)) eqn:B.
  - cbn [sorted_by]. split; [now apply bgt_asym|exact H].
  - destruct l as [|y l'].
    + cbn [insert_entry sorted_by]. auto.
    + cbn [sorted_by] in H. destruct H as [H1 H2]. specialize (IH H2).
      cbn [insert_entry] in IH |- *. destruct (bgt (sort_name y) (sort_name e)) eqn:B2.
      * cbn [sorted_by]. repeat split; auto. now apply bgt_asym.
      * cbn [sorted_by]. split; [exact H1|exact IH].
Qed.

Lemma sort_sorted es : sorted_by (sort_entries es).
Proof. induction es as [|e es IH]; [exact I|]. cbn [sort_entries fold_right]. now apply insert_sorted. Qed.

(* the rules of Validate that look at one entry only *)
Definition entry_valid (e : tentry) : bool := negb (v_invalid (validate_entry [] None e)).

Lemma validate_sorted l : forall seen prev acc,
  Forall (fun e => entry_valid e = true) l ->
  NoDup (map t_name l) -> (forall e, In e l -> ~ In (t_name e) seen) ->
  match prev, l with Some p, e :: _ => bgt p (sort_name e) = false | _, _ => True end ->
  sorted_by l -> v_invalid acc = false ->
  v_invalid (validate_go l seen prev acc) = false.
Proof.
  induction l as [|e l IH]; intros seen prev acc Hv Hnd Hseen Hprev Hs Hacc; [exact Hacc|].
  inversion Hv as [|? ? He Hv']; subst. cbn [map] in Hnd. inversion Hnd as [|? ? Hnin Hnd']; subst.
  unfold entry_valid in He. apply negb_true_iff, validate_entry_inv in He as (Hz & Hn & Hp & _ & Hl & Hm & Hk & _).
  assert (EV : v_invalid (validate_entry seen prev e) = false).
  { apply validate_entry_inv. repeat split; try assumption.
    - apply existsb_beq_in, Hseen. now left.
    - destruct prev; [exact Hprev|reflexivity]. }
  cbn [validate_go]. rewrite (seen_update _ seen Hn). apply IH.
  - exact Hv'.
  - exact Hnd'.
  - intros x Hx [E|E]; [apply Hnin; rewrite E; now apply in_map|apply (Hseen x); [now right|exact E]].
  - destruct l as [|y l']; [exact I|]. apply Hs.
  - destruct l as [|y l']; [exact I|]. apply Hs.
  - cbn [v_invalid]. now rewrite Hacc, EV.
Qed.

Lemma never_refuses es :
  Forall (fun e => entry_valid e = true) es -> NoDup (map t_name es) ->
  v_invalid (validate (sort_entries es)) = false.
Proof.
  intros Hv Hnd. unfold validate. apply validate_sorted.
  - eapply Permutation_Forall; [apply sort_perm|exact Hv].
  - eapply Permutation_NoDup; [apply Permutation_map, sort_perm|exact Hnd].
  - intros e _ [].
  - exact I.
  - apply sort_sorted.
  - reflexivity.
Qed.
