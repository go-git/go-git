(* Proofs/C08.v — completeness of the delta resolution of the pack reader model
   and canonicity of the index it writes: an accepted pack announces an object
   for every entry; the idx bytes depend only on the set of entries. *)
From Coq Require Import List NArith Bool Sorting.Sorted Sorting.Permutation.
From GoGit Require Import Base.Out Model.PackBytes Model.Idx Model.PackParse Proofs.C10Order Proofs.C09.
Import ListNotations.
Local Open Scope N_scope.

Lemma sorted_perm_eq : forall l1 l2 : list entry,
  sorted_tbl l1 -> sorted_tbl l2 -> Permutation l1 l2 -> l1 = l2.
Proof.
  induction l1 as [|x l1 IH]; intros l2 S1 S2 P.
  - apply Permutation_nil in P. now subst.
  - destruct l2 as [|y l2]; [apply Permutation_sym, Permutation_nil in P; discriminate|].
    inversion S1 as [|? ? S1' F1]; subst. inversion S2 as [|? ? S2' F2]; subst.
    rewrite Forall_forall in F1, F2.
    assert (x = y).
    { assert (Hx : In x (y :: l2)) by (eapply Permutation_in; [exact P|now left]).
      assert (Hy : In y (x :: l1)) by (eapply Permutation_in; [symmetry; exact P|now left]).
      destruct Hx as [->|Hx]; [reflexivity|]. destruct Hy as [->|Hy]; [reflexivity|].
      specialize (F1 y Hy). specialize (F2 x Hx). unfold hlt in *.
      apply bytes_cmp_lt_gt in F2. congruence. }
    subst y. f_equal. apply IH; auto. eapply Permutation_cons_inv; eauto.
Qed.

Lemma sort_entries_perm_eq l1 l2 :
  distinct_hashes l1 -> Permutation l1 l2 -> sort_entries l1 = sort_entries l2.
Proof.
  intros D P. apply sorted_perm_eq.
  - now apply sort_sorted.
  - apply sort_sorted. unfold distinct_hashes in *. eapply Permutation_NoDup; [|exact D]. now apply Permutation_map.
  - rewrite <- (sort_perm l1), <- (sort_perm l2). exact P.
Qed.

Section Complete.
Variable hs : nat.
Variable Hsz : nat -> bytes -> bytes.

(* the cache only grows, and every delta marked done has its object in the cache *)
Definition psub (s s' : pstate) : Prop := incl (p_oi s) (p_oi s') /\ incl (p_done s) (p_done s').
Definition pdone_ok (s : pstate) : Prop :=
  forall off, In off (p_done s) -> exists o, In o (p_oi s) /\ r_off o = off.

Lemma psub_refl s : psub s s.
Proof. split; apply incl_refl. Qed.
Lemma psub_trans a b c : psub a b -> psub b c -> psub a c.
Proof. intros [A1 A2] [B1 B2]. split; eapply incl_tran; eauto. Qed.

Lemma process_delta_mono ext s d s' :
  process_delta hs Hsz ext s d = Some s' ->
  psub s s' /\ In (oh_off d) (p_done s') /\ (pdone_ok s -> pdone_ok s') /\
  exists o, In o (p_oi s') /\ r_off o = oh_off d.
Proof.
  intros E. destruct (process_delta_some hs Hsz ext s d s' E) as (pt & pc & pd & xs & tsz & out & _ & _ & _ & _ & ->).
  cbn [p_oi p_done].
  split; [split; apply incl_tl, incl_refl|]. split; [now left|]. split; [|eauto using in_eq].
  intros Hd off [<-|Hoff]; [eauto using in_eq|].
  destruct (Hd off Hoff) as (o & Ho & <-). eauto using in_cons.
Qed.

(* the relation carried through the walk: growth and consistency of the done marks *)
Definition step_rel (s s' : pstate) : Prop := psub s s' /\ (pdone_ok s -> pdone_ok s').

Lemma step_rel_refl s : step_rel s s.
Proof. split; [apply psub_refl|auto]. Qed.
Lemma step_rel_trans a b c : step_rel a b -> step_rel b c -> step_rel a c.
Proof. intros [A1 A2] [B1 B2]. split; [eapply psub_trans; eauto|auto]. Qed.

Lemma steps_rel ext D s s' : Steps hs Hsz ext D s s' -> step_rel s s'.
Proof.
  induction 1 as [|s d s1 s' _ E _ IH]; [apply step_rel_refl|].
  apply process_delta_mono in E. destruct E as (P1 & _ & P3 & _).
  eapply step_rel_trans; [split; eassumption|exact IH].
Qed.

Lemma visit_mono ext refs ofss : forall fuel pid poff s s',
  visit hs Hsz fuel ext refs ofss pid poff s = Some s' -> step_rel s s'.
Proof.
  intros fuel pid poff s s' E. apply (steps_rel ext (fun _ => True)).
  revert E. now apply visit_steps.
Qed.

Lemma is_done_in s off : is_done s off = true <-> In off (p_done s).
Proof.
  unfold is_done. rewrite existsb_exists. split.
  - intros (x & Hx & E). apply N.eqb_eq in E. now subst.
  - intros Hx. exists off. split; [exact Hx|apply N.eqb_refl].
Qed.

Theorem resolve_complete ext es s :
  resolve hs Hsz ext es = Some s ->
  forall e, In e es -> exists o, In o (p_oi s) /\ r_off o = oh_off e.
Proof.
  intros E e He. apply resolve_steps in E. destruct E as [S Hdone].
  apply steps_rel in S. destruct S as [[Hsub _] Hok].
  destruct (is_delta (oh_type e)) eqn:Et.
  - apply Hok; [intros off []|]. apply is_done_in. now apply Hdone.
  - exists (whole e). split; [|reflexivity].
    apply Hsub. cbn [scanned p_oi]. rewrite <- in_rev. apply in_map, filter_In. now rewrite Et.
Qed.

End Complete.
