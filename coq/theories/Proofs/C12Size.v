(* Proofs/C12Size.v — the on-disk size of a V2/V3 entry is git's ondisk_ce_size. *)
From Coq Require Import List NArith ZArith Arith Lia ZifyBool ZifyNat ZifyN Bool.
From GoGit Require Import Base.Out Model.IndexFile Proofs.C12.
Import ListNotations.
Local Open Scope N_scope.

(* read-cache.c: #define align_flex_name(STRUCT,len) ((offsetof(struct STRUCT,data) + (len) + 8) & ~7)
   with offsetof = 40 + hash size + 2 (flags) [+ 2 (flags2)] *)
Definition git_ondisk_size (hs : nat) (ext : bool) (namelen : nat) : nat :=
  ((40 + hs + 2 + (if ext then 2 else 0) + namelen + 8) / 8 * 8)%nat.

Lemma encode_entry_v23_size hs ver last e b :
  ver = 2 \/ ver = 3 -> List.length (e_hash e) = hs ->
  encode_entry hs ver last e = Ok b ->
  List.length b = git_ondisk_size hs (e_ita e || e_skip e) (List.length (e_name e)).
Proof.
  intros Hver Hh. unfold encode_entry, git_ondisk_size.
  destruct (time_to_u32 (e_ctime e)) as [[sec nsec]|]; [|discriminate].
  destruct (time_to_u32 (e_mtime e)) as [[msec mnsec]|]; [|discriminate].
  replace ((ver =? 2) || (ver =? 3))%bool with true by (destruct Hver as [-> | ->]; reflexivity).
  cbv zeta. intros Hb.
  apply (f_equal (fun r => match r with Ok x => List.length x | Err _ => 0%nat end)) in Hb. cbv beta iota in Hb. rewrite <- Hb.
  replace (40 + hs + 2 + (if (e_ita e || e_skip e)%bool then 2 else 0) + List.length (e_name e))%nat
    with (42 + hs + (if (e_ita e || e_skip e)%bool then 2 else 0) + List.length (e_name e))%nat by lia.
  rewrite align8, !app_length, !u32_length, Hh, zeros_length.
  destruct (e_ita e || e_skip e)%bool; rewrite ?app_length, !u16_length; lia.
Qed.
