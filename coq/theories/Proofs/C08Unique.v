(* Proofs/C08Unique.v — the resolution relation is a function of the pack.
   The scanner announces strictly increasing offsets; on entries with distinct offsets, a
   store that files objects under their own ids and no id collision among the objects of
   this pack and store, [Resolves] assigns at most one (type, content) to an offset, and
   under an offset whose chain is made of OFS links one chain depth; hence the depth
   boundary: a pack with a chain of more than maxDeltaChainDepth OFS links is never
   accepted, whatever the order of the walk. *)
From Coq Require Import List NArith Bool Lia ZifyBool.
From GoGit Require Import Base.Out Model.PackBytes Model.PackParse Proofs.C09 Proofs.C08.
Import ListNotations.
Local Open Scope N_scope.

Section Unique.
Variable hs : nat.
Variable Hsz : nat -> bytes -> bytes.

Notation obj_id := (obj_id hs Hsz).
Notation Resolves := (Resolves hs Hsz).

Lemma same_offset es e e' :
  NoDup (map oh_off es) -> In e es -> In e' es -> oh_off e = oh_off e' -> e = e'.
Proof.
  induction es as [|x es IH]; intros Hnd He He' Eo; [contradiction|].
  cbn [map] in Hnd. inversion Hnd as [|? ? Hn Hnd']; subst.
  destruct He as [<-|He]; destruct He' as [<-|He']; auto.
  - exfalso. apply Hn. rewrite Eo. now apply in_map.
  - exfalso. apply Hn. rewrite <- Eo. now apply in_map.
Qed.

(* objects of this pack and of the store *)
Definition known (es : list ohdr) (ext : store) (t : otype) (c : bytes) : Prop :=
  (exists off d, Resolves es ext off t c d) \/ (exists id, store_get ext id = Some (t, c)).

(* no two of them share an id *)
Definition no_collision (es : list ohdr) (ext : store) : Prop :=
  forall t c t' c', known es ext t c -> known es ext t' c' ->
    obj_id t (blen c) c = obj_id t' (blen c') c' -> t = t' /\ c = c'.

(* the store files every object under its own id *)
Definition store_ok (ext : store) : Prop :=
  forall id t c, store_get ext id = Some (t, c) -> obj_id t (blen c) c = id.

(* the rule that resolved the offset of a given entry *)
Lemma resolves_at es ext e t c d :
  NoDup (map oh_off es) -> In e es -> Resolves es ext (oh_off e) t c d ->
  (is_delta (oh_type e) = false /\ t = oh_type e /\ c = oh_data e /\ d = 0) \/
  (oh_type e = TOfs /\ exists c0 d0 tsz, Resolves es ext (oh_base_off e) t c0 d0 /\
     apply_delta c0 (oh_data e) = Some (tsz, c) /\ d = d0 + 1) \/
  (oh_type e = TRef /\ exists c0 tsz, apply_delta c0 (oh_data e) = Some (tsz, c) /\
     ((exists boff d0, Resolves es ext boff t c0 d0 /\ obj_id t (blen c0) c0 = oh_base_id e /\ d = d0 + 1) \/
      (store_get ext (oh_base_id e) = Some (t, c0) /\ d = 1))).
Proof.
  intros Hnd He R.
  inversion R as [e' He' Hb' Eo | e' t2 c2 d2 tsz2 out2 He' Ht' Rb' Ha' Eo | e' boff2 t2 c2 d2 tsz2 out2 He' Ht' Rb' Hid' Ha' Eo | e' t2 c2 tsz2 out2 He' Ht' Hg' Ha' Eo];
    subst; pose proof (same_offset es e' e Hnd He' He Eo) as ->.
  - left. auto.
  - right. left. eauto 8.
  - right. right. split; [assumption|]. exists c2, tsz2. split; [assumption|]. left. eauto.
  - right. right. split; [assumption|]. exists c2, tsz2. auto.
Qed.

(* content first: REF deltas find their base by id, so its depth is not yet determined *)
Theorem resolves_functional es ext :
  NoDup (map oh_off es) -> store_ok ext -> no_collision es ext ->
  forall off t c d, Resolves es ext off t c d ->
  forall t' c' d', Resolves es ext off t' c' d' -> t = t' /\ c = c'.
Proof.
  intros Hnd Hst Hnc off t c d R.
  induction R as [e He Hb | e t c d tsz out He Ht Rb IH Ha | e boff t c d tsz out He Ht Rb IH Hid Ha | e t c tsz out He Ht Hg Ha];
    intros t' c' d' R';
    destruct (resolves_at es ext e t' c' d' Hnd He R')
      as [(Hb' & -> & -> & _)|[(Ht' & c2 & d2 & tsz2 & Rb' & Ha' & _)|(Ht' & c2 & tsz2 & Ha' & [(boff2 & d2 & Rb' & Hid' & _)|[Hg' _]])]];
    try (rewrite Ht' in Hb; discriminate); try (rewrite Ht in Hb'; discriminate); try congruence; auto.
  - destruct (IH _ _ _ Rb') as [-> ->]. rewrite Ha in Ha'. inversion Ha'. auto.
  - destruct (Hnc t c t' c2) as [-> ->]; [left; eauto|left; eauto|congruence|].
    rewrite Ha in Ha'. inversion Ha'. auto.
  - destruct (Hnc t c t' c2) as [-> ->]; [left; eauto|right; eauto|rewrite (Hst _ _ _ Hg'); exact Hid|].
    rewrite Ha in Ha'. inversion Ha'. auto.
  - destruct (Hnc t c t' c2) as [-> ->]; [right; eauto|left; eauto|rewrite (Hst _ _ _ Hg); now rewrite Hid'|].
    rewrite Ha in Ha'. inversion Ha'. auto.
  - rewrite Hg in Hg'. inversion Hg'; subst. rewrite Ha in Ha'. inversion Ha'. auto.
Qed.

Lemma resolves_entry es ext off t c d : Resolves es ext off t c d -> exists e, In e es /\ oh_off e = off.
Proof. intros R; inversion R; subst; eauto. Qed.

(* the chain under an OFS-only offset has one length: for chains made of OFS links (what git writes
   by default) no assumption on ids is needed *)
Inductive OfsChain (es : list ohdr) : N -> N -> Prop :=
| C_base e : In e es -> is_delta (oh_type e) = false -> OfsChain es (oh_off e) 0
| C_ofs e d : In e es -> oh_type e = TOfs -> OfsChain es (oh_base_off e) d -> OfsChain es (oh_off e) (d + 1).

Lemma ofs_chain_depth es ext : NoDup (map oh_off es) ->
  forall off n, OfsChain es off n -> forall t c d, Resolves es ext off t c d -> d = n.
Proof.
  intros Hnd off n C. induction C as [e He Hb | e n He Ht C IH]; intros t c d R;
    destruct (resolves_at es ext e t c d Hnd He R)
      as [(Hb' & _ & _ & ->)|[(Ht' & c2 & d2 & tsz2 & Rb' & _ & ->)|(Ht' & _)]];
    try (rewrite Ht' in Hb; discriminate); try (rewrite Ht in Hb'; discriminate); try congruence; auto.
  f_equal. eapply IH; eauto.
Qed.

(* accepted packs: every object's recorded depth is within the bound, so an offset whose chain is longer
   cannot belong to an accepted pack *)
Theorem deep_chain_rejected inflate crc32 ext pack es sum off n :
  scan_pack hs Hsz inflate crc32 pack = Some (es, sum) ->
  OfsChain es off n -> MAX_DEPTH < n ->
  parse hs Hsz inflate crc32 ext pack = None.
Proof.
  intros Es C Hn. unfold parse. rewrite Es.
  destruct (resolve hs Hsz ext es) as [s|] eqn:Er; [exfalso|reflexivity].
  apply scan_pack_inv in Es. destruct Es as (_ & _ & Hok & Hnd & _).
  assert (He : exists e, In e es /\ oh_off e = off) by (inversion C; subst; eauto).
  destruct He as (e & He & <-).
  destruct (resolve_complete hs Hsz ext es s Er e He) as (o & Ho & Eoff).
  destruct (resolve_inv hs Hsz ext es s Hok Er) as [Ig _].
  rewrite Forall_forall in Ig. destruct (Ig o Ho) as (_ & _ & Hd & R). rewrite Eoff in R.
  rewrite (ofs_chain_depth es ext Hnd _ n C _ _ _ R) in Hd. lia.
Qed.

(* one link: with the parent at depth pd the delta is taken iff pd + 1 <= maxDeltaChainDepth
   (so the link that completes a chain of exactly maxDeltaChainDepth is taken, the next one is not) *)
Lemma process_delta_ofs_depth ext s d p :
  oh_type d = TOfs -> by_offset s (oh_base_off d) = Some p ->
  (MAX_DEPTH < r_depth p + 1 -> process_delta hs Hsz ext s d = None) /\
  (r_depth p + 1 <= MAX_DEPTH -> oh_data d <> [] ->
   forall tsz out, apply_delta (r_content p) (oh_data d) = Some (tsz, out) ->
   exists s' o, process_delta hs Hsz ext s d = Some s' /\ by_offset s' (oh_off d) = Some o /\
                r_depth o = r_depth p + 1 /\ r_content o = out).
Proof.
  intros Ht Ep. unfold process_delta. rewrite Ht, Ep, chain_depth_spec. split.
  - intros Hd. replace (r_depth p + 1 <=? MAX_DEPTH) with false by lia. reflexivity.
  - intros Hd Hne tsz out Ea. replace (r_depth p + 1 <=? MAX_DEPTH) with true by lia.
    destruct (oh_data d) as [|x dd] eqn:Edata; [congruence|]. rewrite Ea.
    eexists. eexists. split; [reflexivity|]. unfold by_offset. cbn [p_oi find r_off].
    rewrite N.eqb_refl. repeat split; reflexivity.
Qed.

End Unique.

(* the link-by-link walk of a chain of n links (the boundary cases of the suite): accepted iff n <= maxDeltaChainDepth *)
Lemma chain_walk_from : forall n pd, pd <= MAX_DEPTH ->
  chain_walk n pd = if pd + N.of_nat n <=? MAX_DEPTH then Some (pd + N.of_nat n) else None.
Proof.
  induction n as [|n IH]; intros pd Hpd; cbn [chain_walk].
  - rewrite N.add_0_r. replace (pd <=? MAX_DEPTH) with true by lia. reflexivity.
  - rewrite chain_depth_spec. destruct (pd + 1 <=? MAX_DEPTH) eqn:E.
    + rewrite IH by lia. replace (pd + 1 + N.of_nat n) with (pd + N.of_nat (S n)) by lia. reflexivity.
    + replace (pd + N.of_nat (S n) <=? MAX_DEPTH) with false by lia. reflexivity.
Qed.

Lemma chain_walk_0 n : chain_walk n 0 = if N.of_nat n <=? MAX_DEPTH then Some (N.of_nat n) else None.
Proof. rewrite chain_walk_from by (unfold MAX_DEPTH; cbn; lia). reflexivity. Qed.
