(* Proofs/C35Adv.v — AdvRefs: decoding go-git's (repaired) encoding returns the
   references in wire order: the first reference (HEAD if present), its peeled
   line, then the other references sorted by name, each followed by its peeled
   line; shallows sorted; capabilities and version preserved. *)
From Coq Require Import List NArith ZArith Bool Lia Arith String.
From GoGit Require Import Base.Out Model.PktLine Model.Packp Proofs.C34Pkt Proofs.C35Base Proofs.C35Msgs Proofs.C35Caps.
Import ListNotations.

Definition name_ok (n : bytes) : bool :=
  match n with [] => false | _ => no_byte SP n && no_byte NUL n end.
Definition ref_ok (r : bytes * hash) : bool := name_ok (fst r) && hash_ok (snd r).

(* the references of the message in wire order *)
Definition wire_of (refs : list (bytes * hash)) (r : bytes * hash) : list (bytes * hash) :=
  r :: match peeled_lookup refs (fst r) None with Some ph => [(fst r ++ peeled_suffix, ph)] | None => [] end.

Definition adv_sorted (refs : list (bytes * hash)) : list (bytes * hash) :=
  let fname := match first_ref refs with Some (n, _) => n | None => [] end in
  sort_by (fun x y => bytes_ltb (fst x) (fst y))
          (filter (fun r => negb (is_peeled (fst r)) && negb (beq (fst r) fname)) refs).

Definition adv_wire (refs : list (bytes * hash)) : list (bytes * hash) :=
  match first_ref refs with
  | None => []
  | Some f => wire_of refs f ++ flat_map (wire_of refs) (adv_sorted refs)
  end.

Definition adv_canon (a : advrefs) : advrefs :=
  mkadv (ar_version a) (ar_caps a) (adv_wire (ar_refs a))
        (map new_hash (sort_by bytes_ltb (map hash_str (ar_shallows a)))).

Definition adv_ok (a : advrefs) : bool :=
  ((ar_version a =? 0)%Z || (ar_version a =? 1)%Z) && caps_ok (ar_caps a) &&
  forallb ref_ok (ar_refs a) && forallb hash_ok (ar_shallows a) &&
  match first_ref (ar_refs a) with Some (_, fh) => negb (hash_is_zero fh) | None => true end.

Lemma ref_line_eq h name : ref_line h name = (hash_str h ++ SP :: name) ++ [NL].
Proof. unfold ref_line. cbn [app]. now rewrite <- app_assoc. Qed.

Lemma peeled_line_eq h name : peeled_line h name = ref_line h (name ++ peeled_suffix).
Proof. unfold peeled_line, ref_line. now rewrite <- !app_assoc. Qed.

Lemma line_of_data b : line_of (item_of (PData (b ++ [NL]))) = b.
Proof.
  rewrite item_of_ne by (rewrite app_length; cbn; lia). unfold line_of. cbn [fst snd].
  rewrite item_nz. apply trim_eol_app.
Qed.

Definition refline_ok (r : bytes * hash) : bool := no_byte SP (fst r) && hash_ok (snd r).

Lemma adv_rest_ref r items fin v cp rs ss : refline_ok r = true ->
  adv_rest (item_of (PData (ref_line (snd r) (fst r))) :: items) fin false (mkadv v cp rs ss)
  = adv_rest items fin false (mkadv v cp (rs ++ [r]) ss).
Proof.
  destruct r as [name h]. unfold refline_ok. cbn [fst snd]. intros H. apply andb_prop in H. destruct H as [Hn Hok].
  destruct (hash_str_nospace h Hok) as [Hns _]. pose proof (hash_str_ne h Hok) as Hne.
  cbn [adv_rest]. rewrite ref_line_eq, line_of_data.
  destruct (hash_str h ++ SP :: name) as [|c0 l0] eqn:E; [destruct (hash_str h); [contradiction|discriminate]|].
  rewrite <- E, (hash_str_no_prefix 115 (skipn 1 (B "shallow ")) h _ eq_refl Hok).
  rewrite (cut_app SP (hash_str h) name Hns), (index_byte_none SP name Hn), (new_hash_str h Hok). reflexivity.
Qed.

Definition is_hash_str (s : bytes) : Prop := exists h, hash_ok h = true /\ s = hash_str h.

Lemma adv_rest_shallow s items fin b v cp rs ss : is_hash_str s ->
  adv_rest (item_of (PData (B "shallow " ++ s ++ [NL])) :: items) fin b (mkadv v cp rs ss)
  = adv_rest items fin true (mkadv v cp rs (ss ++ [new_hash s])).
Proof.
  intros (h & Hok & ->). pose proof (hash_str_length h Hok) as HL.
  cbn [adv_rest]. change (B "shallow " ++ hash_str h ++ [NL]) with ((B "shallow " ++ hash_str h) ++ [NL]).
  rewrite line_of_data.
  destruct (B "shallow " ++ hash_str h) as [|c0 l0] eqn:E; [discriminate|]. rewrite <- E.
  rewrite has_prefix_app. rewrite (skipn_app_exact (B "shallow ") (hash_str h) 8 eq_refl), HL.
  rewrite hexsize_ok, (from_hex_str h Hok), (new_hash_str h Hok). reflexivity.
Qed.

Lemma adv_rest_shallows : forall ss0 fin b v cp rs ss, Forall is_hash_str ss0 ->
  adv_rest (map item_of (map (fun s => PData (B "shallow " ++ s ++ [NL])) ss0 ++ [PFlush])) fin b (mkadv v cp rs ss)
  = inl (mkadv v cp rs (ss ++ map new_hash ss0)).
Proof.
  induction ss0 as [|s l IH]; intros fin b v cp rs ss H; [cbn; now rewrite app_nil_r|].
  inversion_clear H. cbn [map app]. rewrite adv_rest_shallow by assumption. cbn [map]. now rewrite IH, <- app_assoc.
Qed.

Lemma peeled_lookup_In : forall refs name found ph,
  peeled_lookup refs name found = Some ph -> found = Some ph \/ exists n, In (n, ph) refs.
Proof.
  induction refs as [|[n h] refs IH]; intros name found ph H; [now left|].
  cbn [peeled_lookup] in H. destruct (is_peeled n && beq (firstn (List.length n - 3) n) name).
  - apply IH in H. destruct H as [H|[n' H]]; [injection H as <-; right; exists n; now left|right; exists n'; now right].
  - apply IH in H. destruct H as [H|[n' H]]; [now left|right; exists n'; now right].
Qed.

Lemma wire_of_ok refs r : forallb ref_ok refs = true -> In r refs -> forallb refline_ok (wire_of refs r) = true.
Proof.
  intros Hall Hin. rewrite forallb_forall in Hall. pose proof (Hall r Hin) as Hr.
  unfold ref_ok in Hr. apply andb_prop in Hr. destruct Hr as [Hn Hh].
  assert (no_byte SP (fst r) = true) as Hsp.
  { unfold name_ok in Hn. destruct (fst r); [discriminate|]. apply andb_prop in Hn. apply Hn. }
  unfold wire_of. cbn [forallb]. unfold refline_ok at 1. rewrite Hsp, Hh. cbn [andb].
  destruct (peeled_lookup refs (fst r) None) as [ph|] eqn:E; [|reflexivity].
  apply peeled_lookup_In in E. destruct E as [E|[n E]]; [discriminate|].
  specialize (Hall _ E). unfold ref_ok in Hall. apply andb_prop in Hall. destruct Hall as [_ Hph]. cbn [snd] in Hph.
  cbn [forallb]. unfold refline_ok. cbn [fst snd]. rewrite no_byte_app, Hsp, Hph. reflexivity.
Qed.

Lemma find_first_In {A} (f : A -> bool) l x : find_first f l = Some x -> In x l.
Proof.
  induction l as [|y l IH]; [discriminate|]. cbn. destruct (f y); [intros [= <-]; now left|intros H; right; auto].
Qed.

Lemma first_ref_In refs f : first_ref refs = Some f -> In f refs.
Proof.
  unfold first_ref. destruct (find_first _ refs) as [r|] eqn:E.
  - intros [= <-]. eapply find_first_In; eauto.
  - apply find_first_In.
Qed.

Lemma adv_sorted_ok refs : forallb ref_ok refs = true ->
  forallb refline_ok (flat_map (wire_of refs) (adv_sorted refs)) = true.
Proof.
  intros Hall. apply forallb_forall. intros x Hx. apply in_flat_map in Hx. destruct Hx as (r & Hr & Hx).
  unfold adv_sorted in Hr. apply sort_by_In in Hr. apply filter_In in Hr. destruct Hr as [Hr _].
  pose proof (wire_of_ok refs r Hall Hr) as W. rewrite forallb_forall in W. auto.
Qed.

Lemma wire_lines refs r :
  (PData (ref_line (snd r) (fst r)) ::
   match peeled_lookup refs (fst r) None with Some ph => [PData (peeled_line ph (fst r))] | None => [] end)
  = map (fun x => PData (ref_line (snd x) (fst x))) (wire_of refs r).
Proof.
  unfold wire_of. destruct (peeled_lookup refs (fst r) None); cbn [map fst snd]; [now rewrite peeled_line_eq|reflexivity].
Qed.

Lemma flat_map_lines refs l :
  flat_map (fun r => PData (ref_line (snd r) (fst r)) ::
                     match peeled_lookup refs (fst r) None with Some ph => [PData (peeled_line ph (fst r))] | None => [] end) l
  = map (fun x => PData (ref_line (snd x) (fst x))) (flat_map (wire_of refs) l).
Proof.
  induction l as [|r l IH]; [reflexivity|]. cbn [flat_map]. rewrite wire_lines, IH, map_app. reflexivity.
Qed.

Lemma adv_first_ref fname fh capstr cp items fin ver :
  name_ok fname = true -> hash_ok fh = true -> hash_is_zero fh = false ->
  ((ver =? 0)%Z || (ver =? 1)%Z) = true ->
  cap_decode capstr [] = cp ->
  adv_first (hash_str fh ++ [SP] ++ fname ++ [NUL] ++ capstr) items fin (mkadv ver [] [] [])
  = adv_rest items fin false (mkadv ver cp [(fname, fh)] []).
Proof.
  intros Hn Hok Hz Hv Hcp. unfold adv_first. cbn [ar_version ar_caps ar_refs ar_shallows]. rewrite Hv. cbn [negb].
  pose proof (hash_str_length fh Hok) as HL. pose proof (hash_str_ne fh Hok) as Hne.
  remember (hash_str fh ++ [SP] ++ fname ++ [NUL] ++ capstr) as line eqn:El.
  (* <id> SP <name> NUL <capabilities>: hashFrom reads the id up to the SP, and the name, free of NUL, ends at the first NUL *)
  assert (line = hash_str fh ++ SP :: (fname ++ NUL :: capstr)) as El2 by (subst line; reflexivity).
  destruct line as [|c0 l0]; [destruct (hash_str fh); [contradiction|discriminate]|].
  destruct (Nat.ltb_spec (List.length (c0 :: l0)) 40) as [Hlen|_].
  { pose proof (hash_str_min fh Hok). rewrite El2, app_length in Hlen. lia. }
  rewrite El2, (hash_from_sp fh _ Hok), Hz, <- HL, skipn_app_len.
  unfold name_ok in Hn. destruct fname as [|n0 nt]; [discriminate|]. apply andb_prop in Hn. destruct Hn as [Hsp Hnu].
  cbn [List.length app]. destruct (Nat.ltb_spec (S (S (List.length (nt ++ NUL :: capstr)))) 3).
  { rewrite app_length in *. cbn [List.length] in *. lia. }
  change (N.eqb SP SP) with true. cbn [negb].
  change (n0 :: nt ++ NUL :: capstr) with ((n0 :: nt) ++ NUL :: capstr).
  rewrite (cut_app NUL (n0 :: nt) capstr Hnu), Hcp. reflexivity.
Qed.

Lemma adv_first_zero capstr cp items fin ver :
  ((ver =? 0)%Z || (ver =? 1)%Z) = true -> cap_decode capstr [] = cp ->
  adv_first (hash_str zero_hash ++ [SP] ++ B "capabilities^{}" ++ [NUL] ++ capstr) items fin (mkadv ver [] [] [])
  = adv_rest items fin false (mkadv ver cp [] []).
Proof.
  intros Hv Hcp. unfold adv_first. cbn [ar_version ar_caps ar_refs ar_shallows]. rewrite Hv. cbn [negb].
  change (hash_str zero_hash ++ [SP] ++ B "capabilities^{}" ++ [NUL] ++ capstr)
    with (hash_str zero_hash ++ noHeadMark ++ capstr).
  remember (hash_str zero_hash ++ noHeadMark ++ capstr) as line eqn:El.
  destruct line as [|c0 l0]; [discriminate|].
  assert (Hlen : (40 <= List.length (c0 :: l0))%nat) by (rewrite El, app_length; cbn; lia).
  destruct (Nat.ltb_spec (List.length (c0 :: l0)) 40); [lia|].
  rewrite El, (hash_from_sp zero_hash (skipn 1 noHeadMark ++ capstr) eq_refl : hash_from (_ ++ noHeadMark ++ capstr) = _).
  change (hash_is_zero zero_hash) with true. cbv iota. change (hash_hexsize zero_hash) with (List.length (hash_str zero_hash)). rewrite skipn_app_len.
  rewrite app_length. destruct (Nat.ltb_spec (List.length noHeadMark + List.length capstr) (List.length noHeadMark)); [lia|].
  rewrite has_prefix_app. cbn [negb]. rewrite skipn_app_len, Hcp. reflexivity.
Qed.

Lemma sorted_strs_ok shs : forallb hash_ok shs = true -> Forall is_hash_str (sort_by bytes_ltb (map hash_str shs)).
Proof.
  intros H. apply sort_by_Forall. apply Forall_forall. intros s Hs. apply in_map_iff in Hs.
  destruct Hs as (h & <- & Hin). rewrite forallb_forall in H. exists h. split; [auto|reflexivity].
Qed.

Lemma adv_tail R shs fin a0 : forallb refline_ok R = true -> forallb hash_ok shs = true ->
  adv_rest (map item_of (map (fun x => PData (ref_line (snd x) (fst x))) R ++
                         map (fun s => PData (B "shallow " ++ s ++ [NL])) (sort_by bytes_ltb (map hash_str shs)) ++ [PFlush]))
           fin false a0
  = inl (mkadv (ar_version a0) (ar_caps a0) (ar_refs a0 ++ R)
               (ar_shallows a0 ++ map new_hash (sort_by bytes_ltb (map hash_str shs)))).
Proof.
  intros HR Hs. destruct a0 as [v cp rs ss]. cbn [ar_version ar_caps ar_refs ar_shallows]. apply forallb_Forall in HR.
  rewrite map_app, map_map.
  rewrite (lines_acc (fun l => adv_rest l fin false) _ (fun acc => mkadv v cp acc ss) _ (fun r i acc => adv_rest_ref r i fin v cp acc ss)) by exact HR.
  apply adv_rest_shallows, sorted_strs_ok, Hs.
Qed.

Definition version_line (v : Z) : list pkt := if (v =? 0)%Z then [] else [PData (B "version 1" ++ [NL])].
Definition shallow_lines (shs : list hash) : list pkt :=
  map (fun s => PData (B "shallow " ++ s ++ [NL])) (sort_by bytes_ltb (map hash_str shs)).
Definition ref_lines (rs : list (bytes * hash)) : list pkt := map (fun x => PData (ref_line (snd x) (fst x))) rs.

Lemma version_line_eq v : ((v =? 0)%Z || (v =? 1)%Z) = true ->
  (if (v =? 0)%Z then Some [] else if (v =? 1)%Z then Some [PData (B "version 1" ++ [NL])] else None) = Some (version_line v).
Proof. unfold version_line. destruct (v =? 0)%Z; [reflexivity|]. now destruct (v =? 1)%Z. Qed.

Lemma adv_encode_some a fname fh : ((ar_version a =? 0)%Z || (ar_version a =? 1)%Z) = true ->
  first_ref (ar_refs a) = Some (fname, fh) -> fname <> [] ->
  adv_encode a = Some (version_line (ar_version a) ++
    PData ((hash_str fh ++ [SP] ++ fname ++ [NUL] ++ cap_encode (ar_caps a)) ++ [NL]) ::
    ref_lines (tl (wire_of (ar_refs a) (fname, fh)) ++ flat_map (wire_of (ar_refs a)) (adv_sorted (ar_refs a))) ++
    shallow_lines (ar_shallows a) ++ [PFlush]).
Proof.
  intros Hv Ef Hne. unfold adv_encode, adv_sorted, shallow_lines, ref_lines. rewrite Ef, (version_line_eq _ Hv). do 2 f_equal.
  destruct fname as [|n0 nt]; [contradiction|].
  rewrite map_app, <- flat_map_lines. unfold wire_of. cbn [tl fst snd].
  destruct (peeled_lookup (ar_refs a) (n0 :: nt) None); cbn [map fst snd]; rewrite ?peeled_line_eq, <- !app_assoc; reflexivity.
Qed.

Lemma adv_encode_none a : ((ar_version a =? 0)%Z || (ar_version a =? 1)%Z) = true ->
  first_ref (ar_refs a) = None ->
  adv_encode a = Some (version_line (ar_version a) ++
    PData ((hash_str zero_hash ++ [SP] ++ B "capabilities^{}" ++ [NUL] ++ cap_encode (ar_caps a)) ++ [NL]) ::
    ref_lines (flat_map (wire_of (ar_refs a)) (adv_sorted (ar_refs a))) ++
    shallow_lines (ar_shallows a) ++ [PFlush]).
Proof.
  intros Hv Ef. unfold adv_encode, adv_sorted, shallow_lines, ref_lines. rewrite Ef, (version_line_eq _ Hv). do 2 f_equal.
  rewrite <- flat_map_lines, <- !app_assoc. reflexivity.
Qed.

(* decoding: version line (if any), first line, reference lines, shallows, flush *)
Lemma adv_decode_lines ver fl R shs cp frefs :
  ((ver =? 0)%Z || (ver =? 1)%Z) = true -> fl <> [] -> has_prefix (B "version ") fl = false ->
  (forall items fin, adv_first fl items fin (mkadv ver [] [] []) = adv_rest items fin false (mkadv ver cp frefs [])) ->
  forallb refline_ok R = true -> forallb hash_ok shs = true ->
  adv_decode (mksrc (map item_of (version_line ver ++ PData (fl ++ [NL]) :: ref_lines R ++ shallow_lines shs ++ [PFlush])) None)
  = inl (mkadv ver cp (frefs ++ R) (map new_hash (sort_by bytes_ltb (map hash_str shs)))).
Proof.
  intros Hv Hne Hnp Hfirst HR Hs. unfold adv_decode, version_line. cbn [s_items s_fin].
  pose proof (line_of_data fl) as Hl.
  destruct (ver =? 0)%Z eqn:V0.
  - apply Z.eqb_eq in V0. subst ver. cbn [app map]. rewrite Hl.
    destruct fl as [|c0 l0]; [contradiction|]. rewrite Hnp. change adv_empty with (mkadv 0 [] [] []).
    rewrite Hfirst. unfold ref_lines, shallow_lines. rewrite (adv_tail R shs None _ HR Hs). reflexivity.
  - assert ((ver =? 1)%Z = true) as V1 by (destruct ((ver =? 1)%Z); [reflexivity|discriminate]).
    apply Z.eqb_eq in V1. subst ver. cbn [app map].
    change (line_of (item_of (PData (B "version 1" ++ [NL])))) with (B "version 1").
    change (has_prefix (B "version ") (B "version 1")) with true. cbv iota.
    change (parse_version (skipn 8 (B "version 1"))) with (Some 1%Z). cbv iota.
    rewrite Hl, Hfirst. unfold ref_lines, shallow_lines. rewrite (adv_tail R shs None _ HR Hs). reflexivity.
Qed.

Lemma find_first_none {A} (f : A -> bool) l : find_first f l = None -> filter f l = [].
Proof.
  induction l as [|x l IH]; [reflexivity|]. cbn. destruct (f x); [discriminate|auto].
Qed.

Lemma adv_sorted_none refs : first_ref refs = None -> adv_sorted refs = [].
Proof.
  intros H. assert (find_first (fun r : bytes * hash => negb (is_peeled (fst r))) refs = None) as Hn.
  { unfold first_ref in H. destruct (find_first (fun r => negb (is_peeled (fst r)) && beq (fst r) HEADn) refs); [discriminate|exact H]. }
  unfold adv_sorted.
  assert (forall X : bytes * hash -> bool, filter (fun r => negb (is_peeled (fst r)) && X r) refs = []) as K.
  { intros X. clear H. induction refs as [|r refs IH]; [reflexivity|].
    cbn in *. destruct (negb (is_peeled (fst r))); [discriminate|]. cbn [andb]. auto. }
  rewrite K. reflexivity.
Qed.

(* the guard, and what it says of the first reference *)
Lemma adv_ok_spec a : adv_ok a = true ->
  ((ar_version a =? 0)%Z || (ar_version a =? 1)%Z) = true /\ caps_ok (ar_caps a) = true /\
  forallb ref_ok (ar_refs a) = true /\ forallb hash_ok (ar_shallows a) = true /\
  forall fname fh, first_ref (ar_refs a) = Some (fname, fh) ->
    name_ok fname = true /\ fname <> [] /\ hash_ok fh = true /\ hash_is_zero fh = false.
Proof.
  unfold adv_ok. intros H. do 4 (apply andb_prop in H; let X := fresh "G" in destruct H as [H X]).
  repeat split; try assumption; rewrite H0 in G; rewrite forallb_forall in G1; specialize (G1 _ (first_ref_In _ _ H0));
    unfold ref_ok in G1; cbn [fst snd] in G1; apply andb_prop in G1; destruct G1 as [Hn Hh];
    [assumption|intros ->; discriminate|assumption|now apply negb_true_iff].
Qed.

Lemma adv_wire_tail_ok refs f : forallb ref_ok refs = true -> first_ref refs = Some f ->
  forallb refline_ok (tl (wire_of refs f) ++ flat_map (wire_of refs) (adv_sorted refs)) = true.
Proof.
  intros Hrefs Ef. rewrite forallb_app, (adv_sorted_ok _ Hrefs), andb_true_r.
  pose proof (wire_of_ok _ _ Hrefs (first_ref_In _ _ Ef)) as W. unfold wire_of in *. cbn [tl forallb] in *. now apply andb_prop in W.
Qed.

Theorem adv_roundtrip a ps : adv_ok a = true -> adv_encode a = Some ps ->
  adv_decode (mksrc (map item_of ps) None) = inl (adv_canon a).
Proof.
  intros H He. destruct (adv_ok_spec a H) as (Hv & Hcaps & Hrefs & Hsh & Hfirst).
  pose proof (caps_roundtrip _ Hcaps) as Hcr.
  destruct (first_ref (ar_refs a)) as [[fname fh]|] eqn:Ef.
  - destruct (Hfirst fname fh eq_refl) as (Hn & Hfn & Hh & Hz).
    rewrite (adv_encode_some a fname fh Hv Ef Hfn) in He. apply Some_inj in He. subst ps.
    rewrite (adv_decode_lines (ar_version a) _ _ (ar_shallows a) (ar_caps a) [(fname, fh)] Hv).
    + unfold adv_canon, adv_wire. rewrite Ef. reflexivity.
    + pose proof (hash_str_ne fh Hh). destruct (hash_str fh); [contradiction|discriminate].
    + now apply (hash_str_no_prefix 118 (skipn 1 (B "version "))).
    + intros items fin. apply adv_first_ref; auto.
    + exact (adv_wire_tail_ok _ (fname, fh) Hrefs Ef).
    + assumption.
  - rewrite (adv_encode_none a Hv Ef) in He. apply Some_inj in He. subst ps.
    rewrite (adv_decode_lines (ar_version a) _ _ (ar_shallows a) (ar_caps a) [] Hv).
    + unfold adv_canon, adv_wire. rewrite Ef, (adv_sorted_none _ Ef). reflexivity.
    + discriminate.
    + reflexivity.
    + intros items fin. apply adv_first_zero; auto.
    + now apply adv_sorted_ok.
    + assumption.
Qed.

Lemma ref_lines_noerr R : forallb refline_ok R = true -> forallb no_errline (ref_lines R) = true.
Proof.
  apply forallb_map_impl. intros r Hr. apply andb_prop in Hr. unfold ref_line. now apply hash_str_no_errline.
Qed.

Lemma adv_no_errline a ps : adv_ok a = true -> adv_encode a = Some ps -> forallb no_errline ps = true.
Proof.
  intros H He. destruct (adv_ok_spec a H) as (Hv & _ & Hrefs & _ & Hfirst).
  assert (forallb no_errline (version_line (ar_version a)) = true) as Hvl by (unfold version_line; now destruct (ar_version a =? 0)%Z).
  destruct (first_ref (ar_refs a)) as [[fname fh]|] eqn:Ef.
  - destruct (Hfirst fname fh eq_refl) as (_ & Hfn & Hh & _).
    rewrite (adv_encode_some a fname fh Hv Ef Hfn) in He. apply Some_inj in He. subst ps.
    rewrite forallb_app, Hvl. cbn [forallb]. rewrite <- app_assoc, (hash_str_no_errline fh _ Hh), !forallb_app.
    rewrite (ref_lines_noerr _ (adv_wire_tail_ok _ _ Hrefs Ef)). unfold shallow_lines. now rewrite forallb_map_all.
  - rewrite (adv_encode_none a Hv Ef) in He. apply Some_inj in He. subst ps.
    rewrite forallb_app, Hvl. cbn [forallb]. rewrite !forallb_app, (ref_lines_noerr _ (adv_sorted_ok _ Hrefs)).
    unfold shallow_lines. now rewrite forallb_map_all.
Qed.
