(* Proofs/C04Ntfs.v — go-git's pathutil.IsNTFSDotGit / IsNTFSDot are git's
   is_ntfs_dotgit / is_ntfs_dot_generic (path.c), the latter transcribed
   index-wise over a NUL-terminated string in Spec/GitTree.v. *)
From Coq Require Import List NArith ZArith Bool Lia ZifyBool ZifyNat ZifyN.
From GoGit Require Import Base.Out Gen.C04 Model.TreeObj Spec.GitTree Proofs.C04 Proofs.C04Utf8 Proofs.C04Hfs.
Import ListNotations.
Local Open Scope N_scope.

Lemma tolower_is c x : 97 <= x <= 122 -> (c_tolower c =? x) = is_ch c x.
Proof. intros H. unfold c_tolower, is_ch. destruct ((65 <=? c) && (c <=? 90)) eqn:E; lia. Qed.

Lemma ntfs_tail_osp r : tlacks 47 r = true -> tlacks 92 r = true -> ntfs_tail r = only_spaces_periods r.
Proof.
  induction r as [|c r IH]; intros H1 H2; [reflexivity|].
  apply tlacks_cons in H1 as [C1 H1]. apply tlacks_cons in H2 as [C2 H2].
  cbn [ntfs_tail only_spaces_periods]. rewrite (IH H1 H2).
  assert (E1 : (c =? 47) = false) by lia. assert (E2 : (c =? 92) = false) by lia. rewrite E1, E2. reflexivity.
Qed.

Lemma ntfs_dotgit_eq_git p : tlacks 47 p = true -> tlacks 92 p = true ->
  is_ntfs_dotgit p = git_is_ntfs_dotgit p.
Proof.
  intros H1 H2. unfold is_ntfs_dotgit, git_is_ntfs_dotgit.
  destruct p as [|a [|g [|i [|t r]]]]; try (destruct (a =? 46), (is_ch a 103); reflexivity); [reflexivity|].
  rewrite !lower_c, !tolower_is by lia.
  apply (tlacks_skipn 47 4) in H1. apply (tlacks_skipn 92 4) in H2. cbn [skipn] in H1, H2.
  destruct (a =? 46) eqn:A; cbn [andb].
  - (* ".git": a letter g cannot follow, so go-git's second case is off *)
    replace (is_ch a 103) with false by (unfold is_ch; lia). rewrite <- (ntfs_tail_osp r H1 H2).
    destruct (is_ch g 103), (is_ch i 105), (is_ch t 116), r; reflexivity.
  - destruct r as [|e r']; [destruct (is_ch a 103); reflexivity|].
    apply tlacks_cons in H1 as [_ H1]. apply tlacks_cons in H2 as [_ H2]. rewrite (ntfs_tail_osp r' H1 H2).
    destruct (is_ch a 103), (is_ch g 105), (is_ch i 116), (t =? 126), (e =? 49); reflexivity.
Qed.

Lemma chr_skipn : forall i s, chr s i = hd 0 (skipn i s).
Proof. unfold chr. induction i as [|i IH]; intros [|c s]; try reflexivity. cbn [nth skipn]. apply IH. Qed.

Lemma skipn_S_tl {A} : forall i (s : list A), skipn (S i) s = tl (skipn i s).
Proof. induction i as [|i IH]; intros [|c s]; try reflexivity. cbn [skipn] in *. apply IH. Qed.

Lemma only_sp_eq name : tlacks 0 name = true -> forall f i, (List.length (skipn i name) < f)%nat ->
  only_sp_git f name i = only_spaces_periods (skipn i name).
Proof.
  intros H0. induction f as [|f IH]; intros i L; [lia|].
  cbn [only_sp_git]. rewrite chr_skipn. pose proof (tlacks_skipn 0 i name H0) as T.
  pose proof (skipn_S_tl i name) as E. specialize (IH (S i)). rewrite E in IH.
  destruct (skipn i name) as [|c r]; [reflexivity|].
  apply tlacks_cons in T as [C0 _]. cbn [hd tl only_spaces_periods List.length] in *.
  assert (Z : (c =? 0) = false) by lia. rewrite Z. cbn [orb].
  destruct (c =? 58); [reflexivity|]. rewrite IH by lia.
  destruct (c =? 46), (c =? 32); reflexivity.
Qed.

Lemma only_sp_git_eq name i : tlacks 0 name = true ->
  only_sp_git (S (List.length name)) name i = only_spaces_periods (skipn i name).
Proof. intros H0. apply only_sp_eq; [exact H0|]. rewrite skipn_length. apply Nat.lt_succ_r, Nat.le_sub_l. Qed.

Fixpoint strn_list (n : nat) (x y : bytes) : bool :=
  match n with
  | O => true
  | S n' =>
    let cx := c_tolower (hd 0 x) in
    let cy := c_tolower (hd 0 y) in
    if negb (cx =? cy) then false else if cx =? 0 then true else strn_list n' (tl x) (tl y)
  end.

Lemma strncase_list : forall n a ia b ib, strncase_eq n a ia b ib = strn_list n (skipn ia a) (skipn ib b).
Proof.
  induction n as [|n IH]; intros a ia b ib; [reflexivity|].
  cbn [strncase_eq strn_list]. rewrite !chr_skipn, IH, !skipn_S_tl. reflexivity.
Qed.

Definition ascii_text (s : bytes) : bool := forallb (fun c => (0 <? c) && (c <? 128)) s.

Lemma strn_fold : forall n x y, tlacks 0 x = true -> (n <= List.length y)%nat -> ascii_text (firstn n y) = true ->
  strn_list n x y = Nat.leb n (List.length x) && fold_eq (firstn n x) (firstn n y).
Proof.
  induction n as [|n IH]; intros x y H0 L A; [reflexivity|].
  destruct y as [|cy y]; [cbn in L; lia|]. cbn [firstn ascii_text forallb] in A.
  apply andb_true_iff in A as [Ay A]. cbn [List.length] in L.
  cbn [strn_list hd tl]. destruct x as [|cx x].
  - (* x has ended: C reads its terminating NUL, which no byte of ASCII text folds to *)
    cbn [hd]. assert (E : negb (c_tolower 0 =? c_tolower cy) = true).
    { clear -Ay. unfold c_tolower. change ((65 <=? 0) && (0 <=? 90)) with false. cbv iota.
      destruct ((65 <=? cy) && (cy <=? 90)); lia. }
    rewrite E. reflexivity.
  - apply tlacks_cons in H0 as [C0 H0]. cbn [hd tl firstn fold_eq List.length]. rewrite !lower_c.
    change (Nat.leb (S n) (S (List.length x))) with (Nat.leb n (List.length x)).
    destruct (c_tolower cx =? c_tolower cy) eqn:E; cbn [negb andb].
    + assert (Z : (c_tolower cx =? 0) = false) by (unfold c_tolower; destruct ((65 <=? cx) && (cx <=? 90)); lia).
      assert (S7 : (cx <? 128) = true).
      { clear -E Ay. unfold c_tolower in E. destruct ((65 <=? cx) && (cx <=? 90)) eqn:X, ((65 <=? cy) && (cy <=? 90)) eqn:Y; lia. }
      rewrite Z, S7. cbn [andb]. apply IH; auto; lia.
    + now rewrite andb_false_r.
Qed.

Lemma ntfs_short_end i s pre saw : Nat.leb 8 i = true -> ntfs_short i s pre saw = only_spaces_periods s.
Proof. intros E. destruct s; cbn [ntfs_short]; now rewrite E. Qed.

Lemma is_bytes_hd n s : is_bytes s = true -> hd 0 (skipn n s) < 256.
Proof.
  intros H. pose proof (is_bytes_skipn n s H) as K. destruct (skipn n s) as [|c r]; [cbn; lia|].
  now apply is_bytes_cons in K.
Qed.

Lemma short_eq name short : is_bytes name = true -> tlacks 0 name = true -> (6 <= List.length short)%nat ->
  forall f i saw, (i <= 8)%nat -> (9 <= f + i)%nat -> (saw = false -> i <= 6)%nat ->
  ntfs_short i (skipn i name) (skipn i short) saw = short_loop_git f name short i saw.
Proof.
  intros HB H0 LS. induction f as [|f IH]; intros i saw I8 F INV; [lia|].
  cbn [short_loop_git]. destruct (Nat.leb 8 i) eqn:E8.
  { rewrite ntfs_short_end by exact E8. symmetry. now apply only_sp_git_eq. }
  (* git reads name[i] and short[i], go-git the heads of the suffixes it carries along *)
  rewrite chr_skipn.
  pose proof (tlacks_skipn 0 i name H0) as T. pose proof (is_bytes_hd i name HB) as B.
  pose proof (skipn_S_tl i name) as E. pose proof (skipn_S_tl i short) as ES.
  destruct (skipn i name) as [|c r] eqn:EN; cbn [ntfs_short]; rewrite E8; [reflexivity|].
  apply Nat.leb_gt in E8.
  apply tlacks_cons in T as [C0 _]. cbn [hd tl] in *.
  assert (Z : (c =? 0) = false) by lia. rewrite Z.
  destruct saw.
  - destruct ((c <? 48) || (57 <? c)); [reflexivity|]. rewrite <- E, <- ES. apply IH; lia.
  - specialize (INV eq_refl). destruct (c =? 126) eqn:T126.
    + assert (E7 : Nat.eqb i 7 = false) by (apply Nat.eqb_neq; lia). rewrite E7.
      rewrite chr_skipn, E. pose proof (skipn_S_tl (S i) name) as E2. rewrite E in E2. cbn [tl] in E2.
      pose proof (skipn_S_tl (S i) short) as ES2. rewrite ES in ES2.
      destruct r as [|d r']; [reflexivity|]. cbn [hd tl] in *.
      destruct ((d <? 49) || (57 <? d)); [reflexivity|]. rewrite <- E2, <- ES2. apply IH; lia.
    + destruct (Nat.leb 6 i) eqn:E6; [reflexivity|]. apply Nat.leb_gt in E6.
      destruct (lead_byte c B) as (_ & _ & _ & _ & L128 & _). rewrite L128.
      destruct (c <? 128) eqn:A.
      * assert (A' : (128 <=? c) = false) by lia. rewrite A'. cbn [negb].
        rewrite chr_skipn. assert (LP : (0 < List.length (skipn i short))%nat) by (rewrite skipn_length; lia).
        destruct (skipn i short) as [|e pre'] eqn:EP; [cbn in LP; lia|]. cbn [hd tl] in *.
        rewrite lower_c. destruct (c_tolower c =? e); [|reflexivity]. cbn [negb].
        rewrite <- E, <- ES. apply IH; lia.
      * assert (A' : (128 <=? c) = true) by lia. rewrite A'. reflexivity.
Qed.

(* a successful short-name match consumed 8 bytes and ended in the tail test at 8 *)
Lemma ntfs_short_tail : forall n s i pre saw, (List.length s <= n)%nat ->
  ntfs_short i s pre saw = true ->
  (8 - i <= List.length s)%nat /\ only_spaces_periods (skipn (8 - i) s) = true.
Proof.
  induction n as [|n IH]; intros s i pre saw LN H; destruct (Nat.leb 8 i) eqn:E8.
  1, 3: rewrite ntfs_short_end in H by exact E8; apply Nat.leb_le in E8;
        replace (8 - i)%nat with 0%nat by lia; split; [lia|exact H].
  - destruct s; [|cbn in LN; lia]. cbn [ntfs_short] in H. rewrite E8 in H. discriminate.
  - destruct s as [|c r]; cbn [ntfs_short] in H; rewrite E8 in H; [discriminate|].
    apply Nat.leb_gt in E8. cbn [List.length] in LN.
    assert (STEP : forall pre' saw', ntfs_short (S i) r pre' saw' = true ->
                   (8 - i <= List.length (c :: r))%nat /\ only_spaces_periods (skipn (8 - i) (c :: r)) = true).
    { intros pre' saw' K. destruct (IH r _ _ _ ltac:(lia) K) as [L T].
      replace (8 - i)%nat with (S (8 - S i)) by lia. cbn [skipn List.length]. split; [lia|exact T]. }
    destruct saw.
    + destruct ((c <? 48) || (57 <? c)); [discriminate|]. now apply STEP in H.
    + destruct (c =? 126).
      * destruct (Nat.eqb i 7) eqn:E7; [discriminate|]. apply Nat.eqb_neq in E7.
        destruct r as [|d r']; [discriminate|]. destruct ((d <? 49) || (57 <? d)); [discriminate|].
        cbn [List.length] in LN.
        destruct (IH r' _ _ _ ltac:(lia) H) as [L T].
        replace (8 - i)%nat with (S (S (8 - S (S i)))) by lia. cbn [skipn List.length]. split; [lia|exact T].
      * destruct (Nat.leb 6 i); [discriminate|]. destruct (128 <=? c); [discriminate|].
        destruct pre as [|e pre']; [discriminate|]. destruct (lower c =? e); [|discriminate]. now apply STEP in H.
Qed.

(* the needles: ASCII text of at least 6 bytes and a short-name prefix of at
   least 6 bytes, neither starting with a period (true of all four pairs) *)
Definition ntfs_needles_ok (dotgit short : bytes) : bool :=
  ascii_text dotgit && Nat.leb 6 (List.length dotgit) && negb (hd 0 dotgit =? 46) &&
  Nat.leb 6 (List.length short) && negb (hd 0 short =? 46).

Lemma needles_ok_inv dotgit short : ntfs_needles_ok dotgit short = true ->
  ascii_text dotgit = true /\ (6 <= List.length dotgit)%nat /\ hd 0 dotgit <> 46 /\
  (6 <= List.length short)%nat /\ hd 0 short <> 46.
Proof.
  unfold ntfs_needles_ok. intros OK. repeat (apply andb_true_iff in OK as [OK ?]).
  repeat split; try (now apply Nat.leb_le); try assumption; lia.
Qed.

Lemma ascii_firstn n s : ascii_text s = true -> ascii_text (firstn n s) = true.
Proof.
  revert s; induction n as [|n IH]; intros [|c s] H; try reflexivity.
  cbn [firstn ascii_text forallb] in *. apply andb_true_iff in H as [H1 H2]. rewrite H1. cbn [andb]. now apply IH.
Qed.

(* IsNTFSDot tries three patterns: '.' + dotgit, six letters of dotgit + '~' + a digit 1-4,
   the short-name loop; each is one of the three tests of is_ntfs_dot_generic *)
Lemma pattern1_eq name dotgit : tlacks 0 name = true -> ascii_text dotgit = true ->
  strncase_eq (List.length dotgit) name 1 dotgit 0 =
  Nat.leb (List.length dotgit) (List.length (skipn 1 name)) && fold_eq (firstn (List.length dotgit) (skipn 1 name)) dotgit.
Proof.
  intros H0 A. rewrite strncase_list. cbn [skipn]. change (match name with [] => [] | _ :: l => l end) with (skipn 1 name).
  rewrite strn_fold; [now rewrite firstn_all|now apply tlacks_skipn|lia|now rewrite firstn_all].
Qed.

Lemma pattern2_eq name dotgit : tlacks 0 name = true -> ascii_text dotgit = true -> (6 <= List.length dotgit)%nat ->
  strncase_eq 6 name 0 dotgit 0 = Nat.leb 6 (List.length name) && fold_eq (firstn 6 name) (firstn 6 dotgit).
Proof.
  intros H0 A L6. rewrite strncase_list. cbn [skipn].
  rewrite strn_fold; [reflexivity|exact H0|exact L6|now apply ascii_firstn].
Qed.

Lemma pattern3_eq name short : is_bytes name = true -> tlacks 0 name = true -> (6 <= List.length short)%nat ->
  ntfs_short 0 name short false = short_loop_git 9 name short 0 false.
Proof. intros HB H0 LS. apply (short_eq name short HB H0 LS 9 0 false); lia. Qed.

Lemma pattern3_tail name short : ntfs_short 0 name short false = true ->
  (8 <= List.length name)%nat /\ only_spaces_periods (skipn 8 name) = true.
Proof. intros H. exact (ntfs_short_tail _ name 0 short false (Nat.le_refl _) H). Qed.

Lemma tolower_46 c : (c_tolower 46 =? c_tolower c) = (c =? 46).
Proof. change (c_tolower 46) with 46. now rewrite N.eqb_sym, tolower_is_46. Qed.

Lemma dot_first r dotgit short : ntfs_needles_ok dotgit short = true ->
  fold_eq (firstn 6 (46 :: r)) (firstn 6 dotgit) = false /\ ntfs_short 0 (46 :: r) short false = false.
Proof.
  intros OK. destruct (needles_ok_inv _ _ OK) as (_ & L6 & D46 & LS & S46). split.
  - destruct dotgit as [|d0 dg]; [cbn in L6; lia|]. cbn [firstn fold_eq hd] in *.
    rewrite !lower_c, tolower_46. assert (E : (d0 =? 46) = false) by lia. rewrite E. reflexivity.
  - cbn [ntfs_short Nat.leb]. change (46 =? 126) with false. cbv iota.
    change (128 <=? 46) with false. cbv iota.
    destruct short as [|e pre]; [reflexivity|]. cbn [hd] in S46.
    rewrite lower_c. change (c_tolower 46) with 46. assert (E : (46 =? e) = false) by lia. now rewrite E.
Qed.

Lemma ntfs_dot_eq name dotgit short :
  is_bytes name = true -> tlacks 0 name = true -> ntfs_needles_ok dotgit short = true ->
  is_ntfs_dot name dotgit short = git_is_ntfs_dot_generic name dotgit short.
Proof.
  intros HB H0 OK. destruct (needles_ok_inv _ _ OK) as (A & L6 & D46 & LS & S46).
  unfold is_ntfs_dot, git_is_ntfs_dot_generic. cbv zeta.
  rewrite (pattern1_eq name dotgit H0 A), (pattern2_eq name dotgit H0 A L6), <- (pattern3_eq name short HB H0 LS).
  rewrite (proj2 (Nat.leb_le _ _) L6), (proj2 (Nat.leb_le _ _) LS). cbn [andb].
  pose proof (pattern3_tail name short) as PT.
  pose proof (fun i => only_sp_git_eq name i H0) as OSP.
  set (N3 := ntfs_short 0 name short false) in *.
  (* pattern 3 only matches names of at least 8 bytes *)
  replace (Nat.leb 8 (List.length name) && N3) with N3
    by (destruct N3; [destruct (PT eq_refl) as [K _]; apply Nat.leb_le in K; now rewrite K|now rewrite andb_false_r]).
  destruct name as [|c r]; [reflexivity|].
  set (name := c :: r) in *.
  change (chr name 0) with c. change (skipn 1 name) with r.
  destruct (c =? 46) eqn:C46.
  - (* ".": pattern 1 or nothing *)
    apply N.eqb_eq in C46. subst c. destruct (dot_first r dotgit short OK) as [F6 N3f].
    fold name in F6, N3f. fold N3 in N3f.
    rewrite F6, N3f, !andb_false_r. cbn [andb orb]. rewrite !orb_false_r.
    destruct (Nat.leb (List.length dotgit) (List.length r) && fold_eq (firstn (List.length dotgit) r) dotgit);
      [|reflexivity].
    cbn [andb]. now rewrite OSP, Nat.add_1_r.
  - (* no leading period: pattern 2 (six letters, '~', a digit 1-4) or pattern 3 *)
    cbn [andb orb].
    rewrite !chr_skipn. replace (skipn 7 name) with (tl (skipn 6 name)) by (symmetry; apply skipn_S_tl).
    assert (SK8 : skipn 8 name = tl (tl (skipn 6 name))) by (now rewrite !skipn_S_tl).
    assert (LEN : List.length (skipn 6 name) = (List.length name - 6)%nat) by apply skipn_length.
    set (F := fold_eq (firstn 6 name) (firstn 6 dotgit)) in *.
    destruct (skipn 6 name) as [|t [|d r2]] eqn:E6; cbn [hd tl List.length] in LEN, SK8 |- *.
    + change (0 =? 126) with false. now rewrite !andb_false_r.
    + change (49 <=? 0) with false. now rewrite !andb_false_r.
    + replace (Nat.leb 8 (List.length name)) with true by (clear -LEN; symmetry; apply Nat.leb_le; lia).
      replace (Nat.leb 6 (List.length name)) with true by (clear -LEN; symmetry; apply Nat.leb_le; lia).
      cbn [andb]. rewrite OSP, SK8.
      assert (TL : N3 = true -> only_spaces_periods r2 = true).
      { intros K. destruct (PT K) as [_ T]. now rewrite SK8 in T. }
      destruct F, (t =? 126), (49 <=? d), (d <=? 52); cbn [andb orb]; try reflexivity.
      destruct (only_spaces_periods r2); [reflexivity|]. destruct N3; [discriminate (TL eq_refl)|reflexivity].
Qed.

Lemma needles_ok_all :
  ntfs_needles_ok N_gitmodules S_gi7eba = true /\ ntfs_needles_ok N_gitattributes S_gi7d29 = true /\
  ntfs_needles_ok N_gitignore S_gi250a = true /\ ntfs_needles_ok N_mailmap S_maba30 = true.
Proof. vm_compute. repeat split. Qed.

Lemma ntfs_gitmodules_eq name : is_bytes name = true -> tlacks 0 name = true ->
  is_ntfs_dot name N_gitmodules S_gi7eba = git_is_ntfs_dotgitmodules name.
Proof. intros HB H0. apply ntfs_dot_eq; auto; apply needles_ok_all. Qed.
