(* Proofs/C53Reflog.v — C53 for reflog.Decode (Model/Reflog.v decode_go / decode):
   a structural pass over the input (no fuel: total by construction); it yields at
   most one entry per non-empty line, hence at most |input| entries. *)
From Coq Require Import List ZArith Lia.
From GoGit Require Import Model.Reflog.
Import ListNotations.

Lemma decode_go_count : forall s cur l, decode_go s cur = Some l -> (List.length l <= List.length s + List.length cur)%nat.
Proof.
  induction s as [|c r IH]; intros cur l E; cbn [decode_go] in E.
  - destruct cur as [|x cur']; [injection E as <-; cbn; lia|].
    destruct (decode_line (rev (x :: cur'))); [|discriminate]. injection E as <-. cbn [List.length]. lia.
  - destruct (N.eqb c LF).
    + destruct cur as [|x cur'].
      * apply IH in E. cbn [List.length] in *. lia.
      * destruct (decode_line (rev (x :: cur'))); [|discriminate].
        destruct (decode_go r []) as [l'|] eqn:E'; [|discriminate]. injection E as <-.
        apply IH in E'. cbn [List.length] in *. lia.
    + apply IH in E. cbn [List.length] in *. lia.
Qed.

Theorem decode_alloc file l : decode file = Some l -> (List.length l <= List.length file)%nat.
Proof. intros E. apply decode_go_count in E. cbn [List.length] in E. lia. Qed.
