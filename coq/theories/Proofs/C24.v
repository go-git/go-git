(* Proofs/C24.v — inductive invariants of the SharedFile / fdpool state machine
   (Inv: references, LRU list, open descriptors; InvT: the grace timer), and
   what Properties/C24.v reads off them: the descriptor bound with its
   overshoot witness, and the idle-close lemmas. *)
From Coq Require Import List Arith Bool Lia.
From GoGit Require Import Base.Out Model.SharedFile.
Import ListNotations.

Arguments hold_eqb : simpl never.

Definition on_file (f : nat) (x : nat * nat * nat) : bool :=
  match x with (_, f', _) => Nat.eqb f' f end.
Definition hcount (f : nat) (hs : list (nat * nat * nat)) : nat := List.length (filter (on_file f) hs).

Definition reachable (c : cfg) (s : st) : Prop := exists ls, run c init ls = Some s.

Lemma upd_same : forall A (m : nat -> A) k v, upd m k v k = v.
Proof. intros. unfold upd. now rewrite Nat.eqb_refl. Qed.
Lemma upd_other : forall A (m : nat -> A) k v x, x <> k -> upd m k v x = m x.
Proof. intros. unfold upd. destruct (Nat.eqb_spec x k); congruence. Qed.

Lemma run_preserves : forall c (P : st -> Prop),
  (forall s l s', P s -> step c s l = Some s' -> P s') ->
  forall ls s s', P s -> run c s ls = Some s' -> P s'.
Proof.
  intros c P HP. induction ls as [|l ls IH]; cbn; intros s s' I H; [inversion H; subst; auto|].
  destruct (step c s l) eqn:E; [|discriminate]. eauto.
Qed.

Lemma hold_eqb_spec : forall a b, hold_eqb a b = true <-> a = b.
Proof.
  intros [[t f] h] [[t' f'] h']. unfold hold_eqb. rewrite !andb_true_iff, !Nat.eqb_eq.
  split; [intros [[-> ->] ->]; reflexivity | intros H; inversion H; auto].
Qed.

(* membership tests and remove1, for any equality test that reflects equality *)
Section Eqb.
  Context {A : Type} {eqb : A -> A -> bool}.
  Hypothesis eqb_eq : forall a b, eqb a b = true <-> a = b.

  Lemma eqb_reflect : forall a b, reflect (a = b) (eqb a b).
  Proof. intros a b. apply iff_reflect. symmetry. apply eqb_eq. Qed.

  Lemma existsb_eqb_In : forall x l, existsb (eqb x) l = true <-> In x l.
  Proof.
    intros x l. rewrite existsb_exists. split.
    - intros [y [Hy He]]. apply eqb_eq in He. now subst.
    - intros H. exists x. split; auto. now apply eqb_eq.
  Qed.

  Lemma In_remove1 : forall x y l, In y (remove1 eqb x l) -> In y l.
  Proof. induction l as [|a l IH]; cbn; auto. destruct (eqb x a); cbn; intuition. Qed.

  Lemma In_remove1_other : forall x y l, y <> x -> In y l -> In y (remove1 eqb x l).
  Proof.
    induction l as [|a l IH]; cbn; auto. intros Hne Hin.
    destruct (eqb_reflect x a) as [<-|_]; destruct Hin; [congruence | assumption | now left | right; auto].
  Qed.

  Lemma NoDup_remove1 : forall x l, NoDup l -> NoDup (remove1 eqb x l).
  Proof.
    induction l as [|a l IH]; cbn; auto. intros H. inversion H; subst.
    destruct (eqb x a); auto. constructor; auto. intros Hin. now apply In_remove1 in Hin.
  Qed.

  Lemma NoDup_remove1_notin : forall x l, NoDup l -> ~ In x (remove1 eqb x l).
  Proof.
    induction l as [|a l IH]; cbn; auto. intros H. inversion H; subst.
    destruct (eqb_reflect x a); [subst; auto|]. cbn. intros [E|E]; [congruence | now apply IH].
  Qed.

  Lemma In_remove1_iff : forall x y l, NoDup l -> (In y (remove1 eqb x l) <-> y <> x /\ In y l).
  Proof.
    intros x y l Hnd. split.
    - intros H. split; [intros -> | eapply In_remove1; eauto]. now apply (NoDup_remove1_notin x l).
    - intros [H1 H2]. now apply In_remove1_other.
  Qed.

  Lemma length_remove1 : forall x l, In x l -> S (List.length (remove1 eqb x l)) = List.length l.
  Proof.
    induction l as [|a l IH]; cbn; [tauto|]. intros H.
    destruct (eqb_reflect x a); [reflexivity|]. destruct H; [congruence | cbn; auto].
  Qed.
End Eqb.

Lemma hmemb_In : forall x l, hmemb x l = true <-> In x l.
Proof. exact (existsb_eqb_In hold_eqb_spec). Qed.

Lemma memb_In : forall x l, memb x l = true <-> In x l.
Proof. exact (existsb_eqb_In Nat.eqb_eq). Qed.

Lemma In_remove1_nat' : forall x y l, In y (remove1 Nat.eqb x l) -> In y l.
Proof. intros x y l. apply In_remove1. Qed.

Lemma hcount_cons : forall g x l, hcount g (x :: l) = (if on_file g x then 1 else 0) + hcount g l.
Proof. intros. unfold hcount. cbn. destruct (on_file g x); reflexivity. Qed.

Lemma hcount_remove1 : forall g x l, In x l ->
  hcount g l = (if on_file g x then 1 else 0) + hcount g (remove1 hold_eqb x l).
Proof.
  induction l as [|a l IH]; [contradiction|]. intros Hin. cbn [remove1].
  destruct (eqb_reflect hold_eqb_spec x a) as [<-|Hne]; [apply hcount_cons|].
  destruct Hin as [->|Hin]; [contradiction|]. rewrite !hcount_cons, (IH Hin). lia.
Qed.

Lemma hcount_pos_of_In : forall f l t h, In (t, f, h) l -> hcount f l <> 0.
Proof. intros f l t h H. rewrite (hcount_remove1 f _ l H). cbn. now rewrite Nat.eqb_refl. Qed.

Record Inv (c : cfg) (s : st) : Prop := mkInv {
  i_refs : forall f, frefs (files s f) = hcount f (holds s);
  i_pin : forall t f h, In (t, f, h) (holds s) -> fclosed (files s f) = false -> ffile (files s f) = Some h;
  i_pchold : forall t f, pcs s t = PTouch f -> exists h, In (t, f, h) (holds s);
  i_pcpool : forall t f, pcs s t = PTouch f -> epooled c f = true;
  i_nodup : NoDup (lru s);
  i_inlru : forall f, finlru (files s f) = true <-> In f (lru s);
  i_len : List.length (lru s) <= cap c;
  i_closed : forall f, fclosed (files s f) = true -> ffile (files s f) = None;
  i_forget : forall t f, pcs s t = PForget f -> fclosed (files s f) = true;
  i_open : forall f, epooled c f = true -> is_open (files s f) = true ->
      In f (lru s) \/ In f (inflight s)
      \/ (flatch (files s f) = true /\ frefs (files s f) <> 0)
      \/ (exists t, pcs s t = PTouch f)
}.

Lemma inv_init : forall c, Inv c init.
Proof.
  intros c. constructor; cbn; intros; try discriminate; try tauto; try lia.
  constructor.
Qed.

Lemma release_now_cases : forall x,
  (fclosed x = true /\ release_now x = x)
  \/ (fclosed x = false /\ frefs x = 0 /\ ffile (release_now x) = None /\ frefs (release_now x) = 0
      /\ fclosed (release_now x) = false /\ flatch (release_now x) = flatch x /\ finlru (release_now x) = finlru x)
  \/ (fclosed x = false /\ frefs x <> 0 /\ ffile (release_now x) = ffile x /\ frefs (release_now x) = frefs x
      /\ fclosed (release_now x) = false /\ flatch (release_now x) = true /\ finlru (release_now x) = finlru x).
Proof.
  intros x. unfold release_now. destruct (fclosed x) eqn:Ec; [left; auto|].
  destruct (Nat.eqb_spec (frefs x) 0) as [E|E]; cbn; [right; left | right; right]; repeat split; auto.
Qed.

Lemma release_cases : forall p g n x, frefs x <> 0 ->
  frefs (release p g n x) = pred (frefs x) /\ fclosed (release p g n x) = fclosed x
  /\ finlru (release p g n x) = finlru x
  /\ ((ffile (release p g n x) = ffile x /\ flatch (release p g n x) = flatch x)
      \/ (ffile (release p g n x) = None /\ pred (frefs x) = 0 /\ fclosed x = false)).
Proof.
  intros p g n x Hr. unfold release. destruct (Nat.eqb_spec (frefs x) 0); [contradiction|].
  destruct (Nat.eqb_spec (pred (frefs x)) 0) as [E0|E0]; cbn.
  - destruct (fclosed x) eqn:Ec; cbn; [repeat split; auto|].
    destruct (ffile x) eqn:Ef; cbn; [|repeat split; auto; left; now rewrite Ef].
    destruct (flatch x) eqn:El; cbn; [repeat split; auto|].
    destruct p; cbn; repeat split; auto; left; rewrite ?Ef, ?El; auto.
  - repeat split; auto.
Qed.

Lemma timer_body_cases : forall g x,
  timer_body g x = x
  \/ (frefs x = 0 /\ fclosed x = false /\ ffile (timer_body g x) = None /\ frefs (timer_body g x) = 0
      /\ fclosed (timer_body g x) = false /\ flatch (timer_body g x) = flatch x /\ finlru (timer_body g x) = finlru x).
Proof.
  intros g x. unfold timer_body.
  destruct (fclosed x) eqn:Ec; cbn; [left; auto|].
  destruct (Nat.eqb_spec (fgen x) g); cbn; [|left; auto].
  destruct (Nat.eqb_spec (frefs x) 0) as [E|E]; cbn; [|left; auto].
  destruct (ffile x); cbn; [right; repeat split; auto | left; auto].
Qed.

(* is g the file f whose record the step wrote? *)
Ltac fcase g f := destruct (Nat.eqb_spec g f) as [->|?]; [rewrite ?upd_same in * | rewrite ?upd_other in * by assumption].

Lemma inv_acq : forall c s t f h g' tm pcs' nexth',
  Inv c s -> pcs s t = PIdle -> fclosed (files s f) = false ->
  (ffile (files s f) = Some h \/ ffile (files s f) = None) ->
  (pcs' = pcs s /\ epooled c f = false \/ pcs' = upd (pcs s) t (PTouch f) /\ epooled c f = true) ->
  let x := files s f in
  let x' := mkF (Some h) (S (frefs x)) g' tm (fcbs x) false (flatch x) (finlru x) (fidle x) in
  Inv c (mkSt (upd (files s) f x') (lru s) (inflight s) ((t, f, h) :: holds s) pcs' nexth' (now s)).
Proof.
  intros c s t f h g' tm pcs' nexth' I Hidle Hcl Hfile Hpc x x'. subst x x'.
  destruct I as [i_refs0 i_pin0 i_pchold0 i_pcpool0 i_nodup0 i_inlru0 i_len0 i_closed0 i_forget0 i_open0].
  (* the only new pc is t's PTouch f, and only when f is pooled *)
  assert (Hq : forall t0 q, pcs' t0 = q -> pcs s t0 = q \/ (t0 = t /\ q = PTouch f /\ epooled c f = true)).
  { intros t0 q. destruct Hpc as [[-> _]|[-> He]]; [auto|]. unfold upd. destruct (Nat.eqb_spec t0 t); auto. }
  constructor; cbn [files lru inflight holds pcs nexth now]; auto.
  - intros g. rewrite hcount_cons. fcase g f; cbn.
    + rewrite Nat.eqb_refl. now rewrite i_refs0.
    + destruct (Nat.eqb_spec f g); [congruence|]. apply i_refs0.
  - intros t0 g h0 [E|Hin] Hc.
    + inversion E; subst. now rewrite upd_same.
    + fcase g f; cbn in *.
      * destruct Hfile as [Hf|Hf]; specialize (i_pin0 _ _ _ Hin Hcl); congruence.
      * eauto.
  - intros t0 g Hp. destruct (Hq _ _ Hp) as [Hp'|(-> & E & _)].
    + destruct (i_pchold0 _ _ Hp') as [h0 ?]. exists h0. now right.
    + inversion E; subst. exists h. now left.
  - intros t0 g Hp. destruct (Hq _ _ Hp) as [Hp'|(_ & E & He)]; [eauto | inversion E; subst; auto].
  - intros g. fcase g f; cbn; auto.
  - intros g. fcase g f; cbn; [discriminate | auto].
  - intros t0 g Hp. destruct (Hq _ _ Hp) as [Hp'|(_ & E & _)]; [|discriminate].
    specialize (i_forget0 _ _ Hp'). fcase g f; cbn; [congruence | auto].
  - intros g Hg Ho. fcase g f; cbn in *.
    + destruct Hpc as [[-> He]|[-> _]]; [congruence|].
      right; right; right. exists t. apply upd_same.
    + destruct (i_open0 _ Hg Ho) as [?|[?|[?|[t0 Ht0]]]]; auto.
      right; right; right. exists t0. destruct Hpc as [[-> _]|[-> _]]; auto.
      rewrite upd_other; auto. intros ->. congruence.
Qed.

(* the record of f is rewritten with the same reference count and LRU token (the
   descriptor may go, the file may become closed); holds, pcs and the list stay *)
Lemma inv_upd_file : forall c s f x' infl',
  Inv c s ->
  let x := files s f in
  frefs x' = frefs x -> finlru x' = finlru x ->
  (ffile x' = ffile x \/ (ffile x' = None /\ (frefs x = 0 \/ fclosed x' = true))) ->
  (fclosed x = true -> fclosed x' = true) ->
  (fclosed x' = true -> ffile x' = None) ->
  (fclosed x' = false -> fclosed x = false) ->
  (is_open x' = true -> flatch x = true -> flatch x' = true) ->
  (forall g, g <> f -> In g (inflight s) -> In g infl') ->
  (In f (inflight s) -> In f infl' \/ is_open x' = false \/ (flatch x' = true /\ frefs x' <> 0)) ->
  Inv c (mkSt (upd (files s) f x') (lru s) infl' (holds s) (pcs s) (nexth s) (now s)).
Proof.
  intros c s f x' infl' I x Hr Hl Hf Hc1 Hc2 Hc3 Hla Hi1 Hi2. subst x.
  destruct I as [i_refs0 i_pin0 i_pchold0 i_pcpool0 i_nodup0 i_inlru0 i_len0 i_closed0 i_forget0 i_open0].
  constructor; cbn [files lru inflight holds pcs nexth now]; auto.
  - intros g. fcase g f; [now rewrite Hr | auto].
  - intros t g h Hin Hc. fcase g f; [|eauto].
    specialize (i_pin0 _ _ _ Hin (Hc3 Hc)).
    destruct Hf as [Hf|[Hf [Hz|Hz]]]; [congruence| |congruence].
    exfalso. rewrite i_refs0 in Hz. eapply hcount_pos_of_In; eauto.
  - intros g. fcase g f; [rewrite Hl; auto | auto].
  - intros g. fcase g f; auto.
  - intros t g Hp. specialize (i_forget0 _ _ Hp). fcase g f; auto.
  - intros g Hg Ho. fcase g f; [|destruct (i_open0 _ Hg Ho) as [?|[?|?]]; auto].
    assert (Ho' : is_open (files s f) = true).
    { unfold is_open in *. destruct Hf as [Hf|[Hf _]]; rewrite Hf in Ho; [auto|discriminate]. }
    destruct (i_open0 _ Hg Ho') as [?|[Hin|[[Hlt Hrf]|?]]]; auto.
    + destruct (Hi2 Hin) as [?|[?|?]]; auto. congruence.
    + right; right; left. split; [auto | congruence].
Qed.

Lemma inv_release : forall c s t f h p,
  Inv c s -> pcs s t = PIdle -> In (t, f, h) (holds s) ->
  Inv c (mkSt (upd (files s) f (release p (grace c) (now s) (files s f))) (lru s) (inflight s)
              (remove1 hold_eqb (t, f, h) (holds s)) (pcs s) (nexth s) (now s)).
Proof.
  intros c s t f h p I Hidle Hin.
  destruct I as [i_refs0 i_pin0 i_pchold0 i_pcpool0 i_nodup0 i_inlru0 i_len0 i_closed0 i_forget0 i_open0].
  assert (Hnz : frefs (files s f) <> 0) by (rewrite i_refs0; eapply hcount_pos_of_In; eauto).
  destruct (release_cases p (grace c) (now s) (files s f) Hnz) as (Hr & Hc & Hl & Hf).
  assert (Hrefs : forall g, frefs (upd (files s) f (release p (grace c) (now s) (files s f)) g)
                            = hcount g (remove1 hold_eqb (t, f, h) (holds s))).
  { intros g. pose proof (hcount_remove1 g _ _ Hin) as E. rewrite <- i_refs0 in E. cbn [on_file] in E.
    fcase g f; [rewrite Nat.eqb_refl in E; lia | destruct (Nat.eqb_spec f g); [congruence | lia]]. }
  constructor; cbn [files lru inflight holds pcs nexth now]; auto.
  - intros t0 g h0 Hin0 Hcl. pose proof (In_remove1 _ _ _ Hin0) as Hin1. fcase g f; [|eauto].
    rewrite Hc in Hcl. specialize (i_pin0 _ _ _ Hin1 Hcl).
    destruct Hf as [[Hf _]|[Hf [Hz _]]]; [congruence|].
    (* the last reference is gone, yet a hold on f is left *)
    exfalso. apply (hcount_pos_of_In _ _ _ _ Hin0). rewrite <- Hrefs, upd_same. lia.
  - intros t0 g Hp. destruct (i_pchold0 _ _ Hp) as [h0 Hh]. exists h0.
    apply (In_remove1_other hold_eqb_spec); auto. intros E. inversion E; subst. congruence.
  - intros g. fcase g f; [rewrite Hl; auto | auto].
  - intros g. fcase g f; auto. rewrite Hc. intros Hcl.
    destruct Hf as [[Hf _]|[Hf _]]; [rewrite Hf; auto | auto].
  - intros t0 g Hp. specialize (i_forget0 _ _ Hp). fcase g f; [congruence | auto].
  - intros g Hg Ho. fcase g f; [|auto].
    destruct Hf as [[Hf Hla]|[Hf _]]; [|unfold is_open in Ho; rewrite Hf in Ho; discriminate].
    assert (Ho' : is_open (files s f) = true) by (unfold is_open in *; now rewrite Hf in Ho).
    destruct (i_open0 _ Hg Ho') as [?|[?|[[Hlt Hrf]|?]]]; auto.
    destruct (Nat.eq_dec (pred (frefs (files s f))) 0) as [Hz|Hz].
    + (* last reference with the latch set: release closes the file *)
      exfalso. unfold release in Ho. destruct (Nat.eqb_spec (frefs (files s f)) 0); [contradiction|].
      rewrite Hz in Ho. cbn in Ho. unfold is_open in Ho, Ho'.
      destruct (fclosed (files s f)) eqn:Ec; cbn in Ho.
      * rewrite (i_closed0 _ Ec) in Ho'. discriminate.
      * destruct (ffile (files s f)); cbn in Ho; [|discriminate]. rewrite Hlt in Ho. cbn in Ho. discriminate.
    + right; right; left. split; [congruence | rewrite Hr; auto].
Qed.

(* the LRU list is relinked: no descriptor is opened or closed *)
Lemma inv_relink : forall c s files' lru' infl',
  Inv c s ->
  (forall g, ffile (files' g) = ffile (files s g) /\ frefs (files' g) = frefs (files s g)
             /\ fclosed (files' g) = fclosed (files s g) /\ flatch (files' g) = flatch (files s g)) ->
  NoDup lru' -> (forall g, finlru (files' g) = true <-> In g lru') -> List.length lru' <= cap c ->
  (forall g, In g (lru s) -> In g lru' \/ In g infl' \/ fclosed (files s g) = true) ->
  (forall g, In g (inflight s) -> In g infl') ->
  Inv c (mkSt files' lru' infl' (holds s) (pcs s) (nexth s) (now s)).
Proof.
  intros c s files' lru' infl' I Hsame Hnd Hin Hlen Hl Hi.
  destruct I as [i_refs0 i_pin0 i_pchold0 i_pcpool0 i_nodup0 i_inlru0 i_len0 i_closed0 i_forget0 i_open0].
  constructor; cbn [files lru inflight holds pcs nexth now]; auto.
  - intros g. destruct (Hsame g) as (_ & -> & _). auto.
  - intros t0 g h H Hc. destruct (Hsame g) as (-> & _ & Hcc & _). rewrite Hcc in Hc. eauto.
  - intros g. destruct (Hsame g) as (-> & _ & -> & _). auto.
  - intros t0 g Hq. destruct (Hsame g) as (_ & _ & -> & _). eauto.
  - intros g Hg Ho. destruct (Hsame g) as (Hf & Hr & Hc & Hla).
    assert (Ho' : is_open (files s g) = true) by (unfold is_open in *; now rewrite <- Hf).
    destruct (i_open0 _ Hg Ho') as [H|[H|[H|H]]]; auto.
    + destruct (Hl _ H) as [?|[?|Hcl]]; auto.
      unfold is_open in Ho'. rewrite (i_closed0 _ Hcl) in Ho'. discriminate.
    + right; right; left. now rewrite Hla, Hr.
Qed.

(* thread t moves on to pc p: it starts no Touch, starts a Forget only of a
   closed file, and ends a Touch only once the file is linked *)
Lemma inv_setpc : forall c s t p, Inv c s ->
  (forall g, p <> PTouch g) -> (forall g, p = PForget g -> fclosed (files s g) = true) ->
  (forall g, pcs s t = PTouch g -> In g (lru s)) ->
  Inv c (setpc s t p).
Proof.
  intros c s t p I Hpt Hpf Ht.
  destruct I as [i_refs0 i_pin0 i_pchold0 i_pcpool0 i_nodup0 i_inlru0 i_len0 i_closed0 i_forget0 i_open0].
  assert (Hp : forall t0 g, upd (pcs s) t p t0 = PTouch g -> pcs s t0 = PTouch g).
  { intros t0 g. unfold upd. destruct (Nat.eqb_spec t0 t); [intros E; now apply Hpt in E | auto]. }
  constructor; cbn [setpc set_pcs files lru inflight holds pcs nexth now]; auto.
  - intros t0 g Hq. eauto.
  - intros t0 g. unfold upd. destruct (Nat.eqb_spec t0 t); [apply Hpf | apply i_forget0].
  - intros g Hg Ho. destruct (i_open0 _ Hg Ho) as [?|[?|[?|[t0 Ht0]]]]; auto.
    destruct (Nat.eq_dec t0 t) as [->|Hne]; [auto|].
    right; right; right. exists t0. now rewrite upd_other.
Qed.

Lemma inv_set_now : forall c s n, Inv c s -> Inv c (set_now s n).
Proof. intros c s n []. constructor; auto. Qed.

Lemma is_idle_true : forall p, is_idle p = true -> p = PIdle.
Proof. destruct p; cbn; congruence. Qed.

Lemma inv_step_acquire : forall c s t f ok s', Inv c s -> step c s (LAcquire t f ok) = Some s' -> Inv c s'.
Proof.
  intros c s t f ok s' I H. cbn in H.
  destruct (is_idle (pcs s t)) eqn:Hi; cbn in H; [|discriminate]. apply is_idle_true in Hi.
  destruct (fclosed (files s f)) eqn:Hc; [inversion H; subst; auto|].
  destruct (ffile (files s f)) as [h|] eqn:Hf.
  - destruct (epooled c f) eqn:He; inversion H; subst; clear H;
      apply (inv_acq c s t f h _ _ _ _ I Hi Hc (or_introl Hf)); auto.
  - destruct ok.
    + destruct (epooled c f) eqn:He; inversion H; subst; clear H;
        apply (inv_acq c s t f (nexth s) _ _ _ _ I Hi Hc (or_intror Hf)); auto.
    + inversion H; subst; clear H.
      apply (inv_upd_file c s f _ (inflight s) I); cbn; auto; try tauto; try congruence.
Qed.

Lemma inv_step_touch : forall c s t v s', Inv c s -> step c s (LTouch t v) = Some s' -> Inv c s'.
Proof.
  intros c s t v s' I H. unfold step in H.
  destruct (pcs s t) eqn:Hp; try discriminate.
  pose proof I as [i_refs0 i_pin0 i_pchold0 i_pcpool0 i_nodup0 i_inlru0 i_len0 i_closed0 i_forget0 i_open0].
  pose proof (fun x g => In_remove1_iff Nat.eqb_eq x g (lru s) i_nodup0) as Hrm.
  (* every outcome links f at the front, so the Touch may end *)
  assert (Ht : forall l' g, pcs s t = PTouch g -> In g (f :: l')) by (intros l' g E; rewrite Hp in E; inversion E; now left).
  destruct (finlru (files s f)) eqn:Hl.
  - (* hit: f moves to the front *)
    inversion H; subst; clear H. apply i_inlru0 in Hl.
    apply inv_setpc; [|discriminate|discriminate|apply Ht].
    apply (inv_relink c s (files s) (f :: remove1 Nat.eqb f (lru s)) (inflight s) I); auto.
    + constructor; [apply (NoDup_remove1_notin Nat.eqb_eq); auto | apply NoDup_remove1; auto].
    + intros g. rewrite i_inlru0. cbn. rewrite Hrm. destruct (Nat.eq_dec f g); [subst; tauto | intuition congruence].
    + cbn. rewrite (length_remove1 Nat.eqb_eq); auto.
    + intros g Hg. left. cbn. rewrite Hrm. destruct (Nat.eq_dec f g); auto.
  - assert (Hnf : ~ In f (lru s)) by (intros Hin; apply i_inlru0 in Hin; congruence).
    destruct (Nat.ltb_spec (cap c) (S (List.length (lru s)))) as [Hlt|Hge].
    + (* the victim v is unlinked; its ReleaseNow is now in flight *)
      destruct (memb v (lru s) && negb (Nat.eqb v f)) eqn:Hv; [|discriminate].
      apply andb_true_iff in Hv as [Hv1 Hv2]. apply memb_In in Hv1.
      apply negb_true_iff in Hv2. apply Nat.eqb_neq in Hv2.
      inversion H; subst; clear H.
      apply inv_setpc; [|discriminate|discriminate|apply Ht].
      apply (inv_relink c s _ (f :: remove1 Nat.eqb v (lru s)) (v :: inflight s) I); auto.
      * intros g. cbn. fcase g v; [rewrite upd_other by auto | fcase g f]; cbn; auto.
      * constructor; [rewrite Hrm; tauto | apply NoDup_remove1; auto].
      * intros g. cbn. rewrite Hrm. fcase g v; [cbn; intuition congruence|].
        fcase g f; cbn; [tauto|]. rewrite i_inlru0. intuition congruence.
      * cbn. pose proof (length_remove1 Nat.eqb_eq v (lru s) Hv1). lia.
      * intros g Hg. cbn. rewrite Hrm. destruct (Nat.eq_dec g v); [subst|]; auto.
      * intros g Hg. now right.
    + (* room left *)
      inversion H; subst; clear H.
      apply inv_setpc; [|discriminate|discriminate|apply Ht].
      apply (inv_relink c s _ (f :: lru s) (inflight s) I); auto.
      * intros g. cbn. fcase g f; cbn; auto.
      * constructor; auto.
      * intros g. cbn. fcase g f; cbn; [tauto|].
        rewrite i_inlru0. intuition congruence.
      * intros g Hg. left. now right.
Qed.

Lemma inv_release_now : forall c s v infl',
  Inv c s ->
  (forall g, g <> v -> In g (inflight s) -> In g infl') ->
  Inv c (mkSt (upd (files s) v (release_now (files s v))) (lru s) infl' (holds s) (pcs s) (nexth s) (now s)).
Proof.
  intros c s v infl' I Hi.
  pose proof (i_closed c s I v) as Hcl.
  destruct (release_now_cases (files s v)) as [[Hc E]|[(Hc & Hr & Hf & Hr' & Hc' & Hl & Hn)|(Hc & Hr & Hf & Hr' & Hc' & Hl & Hn)]].
  - rewrite E. apply (inv_upd_file c s v (files s v) infl' I); auto.
    + intros _. right. left. unfold is_open. now rewrite (Hcl Hc).
  - apply (inv_upd_file c s v _ infl' I); auto; try congruence.
    + intros _. right. left. unfold is_open. now rewrite Hf.
  - apply (inv_upd_file c s v _ infl' I); auto; try congruence.
    + intros _. right. right. split; congruence.
Qed.

Lemma inv_step : forall c s l s', Inv c s -> step c s l = Some s' -> Inv c s'.
Proof.
  intros c s l s' I H.
  destruct l; [eapply inv_step_acquire; eauto | eapply inv_step_touch; eauto | ..]; unfold step in H.
  - (* LEvict *)
    destruct (pcs s t) eqn:Hp; try discriminate. inversion H; subst; clear H.
    apply inv_setpc; [|discriminate|discriminate|cbn; intros g; rewrite Hp; discriminate].
    apply (inv_release_now c s v _ I). intros g Hg Hin. apply (In_remove1_other Nat.eqb_eq); auto.
  - (* LRelock *)
    destruct (pcs s t) eqn:Hp; try discriminate. inversion H; subst; clear H.
    apply inv_setpc; [exact I|discriminate|discriminate|intros g; rewrite Hp; discriminate].
  - (* LRelease *)
    destruct (is_idle (pcs s t) && hmemb (t, f, h) (holds s)) eqn:E; [|discriminate].
    apply andb_true_iff in E as [E1 E2]. apply is_idle_true in E1. apply hmemb_In in E2.
    inversion H; subst; clear H. apply (inv_release c s t f h _ I E1 E2).
  - (* LClose *)
    destruct (is_idle (pcs s t)) eqn:Hi; cbn in H; [|discriminate]. apply is_idle_true in Hi.
    destruct (fclosed (files s f)) eqn:Hc; [inversion H; subst; auto|].
    assert (I1 : Inv c (setf s f (close_body (files s f))))
      by (apply (inv_upd_file c s f _ (inflight s) I); cbn; auto; try congruence; try tauto).
    destruct (epooled c f); inversion H; subst; clear H; [|exact I1].
    apply inv_setpc; [exact I1|discriminate| |cbn; intros g; rewrite Hi; discriminate].
    intros g E. inversion E; subst. cbn [files setf set_files]. now rewrite upd_same.
  - (* LForget *)
    destruct (pcs s t) eqn:Hp; try discriminate.
    pose proof I as [i_refs0 i_pin0 i_pchold0 i_pcpool0 i_nodup0 i_inlru0 i_len0 i_closed0 i_forget0 i_open0].
    pose proof (fun x g => In_remove1_iff Nat.eqb_eq x g (lru s) i_nodup0) as Hrm.
    destruct (finlru (files s f)) eqn:Hl; inversion H; subst; clear H;
      (apply inv_setpc; [|discriminate|discriminate|cbn; intros g; rewrite Hp; discriminate]); [|exact I].
    apply i_inlru0 in Hl.
    apply (inv_relink c s _ (remove1 Nat.eqb f (lru s)) (inflight s) I); auto.
    + intros g. cbn. fcase g f; cbn; auto.
    + apply NoDup_remove1; auto.
    + intros g. cbn. rewrite Hrm. fcase g f; cbn; [intuition congruence|].
      rewrite i_inlru0. tauto.
    + pose proof (length_remove1 Nat.eqb_eq f (lru s) Hl). lia.
    + intros g Hg. rewrite Hrm. destruct (Nat.eq_dec g f); [subst; right; right; eauto | auto].
  - (* LReleaseNow *)
    destruct (is_idle (pcs s t)); [|discriminate]. inversion H; subst; clear H.
    apply (inv_release_now c s f (inflight s) I); auto.
  - (* LTick *)
    inversion H; subst; clear H. now apply inv_set_now.
  - (* LTimerStart *)
    destruct (ftimer (files s f)) as [[g dl]|] eqn:Et; [|discriminate].
    destruct (Nat.leb dl (now s)); inversion H; subst; clear H.
    apply (inv_upd_file c s f _ (inflight s) I); cbn; auto; try tauto.
    apply (i_closed c s I).
  - (* LTimerRun *)
    destruct (memb g (fcbs (files s f))); inversion H; subst; clear H.
    set (x1 := mkF _ _ _ _ _ _ _ _ _).
    pose proof (i_closed c s I f) as Hcl.
    destruct (timer_body_cases g x1) as [E|(Hr & Hc & Hf & Hr' & Hc' & Hl & Hn)].
    + rewrite E. apply (inv_upd_file c s f x1 (inflight s) I); subst x1; cbn; auto; tauto.
    + apply (inv_upd_file c s f _ (inflight s) I); subst x1; cbn in *; auto; try congruence; try tauto.
Qed.

Lemma inv_reachable : forall c s, reachable c s -> Inv c s.
Proof. intros c s [ls H]. exact (run_preserves c (Inv c) (inv_step c) ls init s (inv_init c) H). Qed.

Lemma filter_mono_length : forall A (p q : A -> bool) l,
  (forall x, In x l -> p x = true -> q x = true) ->
  List.length (filter p l) <= List.length (filter q l).
Proof.
  induction l as [|a l IH]; cbn; intros H; auto.
  assert (IH' := IH (fun x Hx => H x (or_intror Hx))).
  destruct (p a) eqn:Ep; [rewrite (H a (or_introl eq_refl) Ep); cbn; lia|].
  destruct (q a); cbn; lia.
Qed.

Lemma filter_or_length : forall A (a b : A -> bool) l,
  List.length (filter (fun x => a x || b x) l) <= List.length (filter a l) + List.length (filter b l).
Proof.
  induction l as [|x l IH]; cbn; auto. destruct (a x), (b x); cbn; lia.
Qed.

Lemma filter_memb_length : forall l m, NoDup l ->
  List.length (filter (fun x => memb x m) l) <= List.length m.
Proof.
  intros l m Hnd. apply NoDup_incl_length.
  - now apply NoDup_filter.
  - intros x Hx. apply filter_In in Hx as [_ Hx]. now apply memb_In.
Qed.

(* the invariant behind the bound: an open pooled descriptor is registered,
   or an eviction of it is in flight, or a reader pins it *)
Lemma open_covered : forall c s f, Inv c s -> epooled c f = true -> is_open (files s f) = true ->
  memb f (lru s) || (memb f (inflight s) || is_pinned (files s f)) = true.
Proof.
  intros c s f I He Ho. destruct (i_open c s I f He Ho) as [H|[H|[[_ H]|[t H]]]].
  - apply memb_In in H. now rewrite H.
  - apply memb_In in H. rewrite H. now rewrite orb_true_r.
  - unfold is_pinned. apply Nat.eqb_neq in H. rewrite H. cbn. now rewrite !orb_true_r.
  - destruct (i_pchold c s I t f H) as [h Hh].
    unfold is_pinned. rewrite (i_refs c s I f).
    pose proof (hcount_pos_of_In f (holds s) t h Hh) as Hn. apply Nat.eqb_neq in Hn. rewrite Hn. cbn.
    now rewrite !orb_true_r.
Qed.

Lemma bound_partial : forall c s fs, reachable c s -> NoDup fs -> (forall f, In f fs -> epooled c f = true) ->
  count is_open s fs <= cap c + count is_pinned s fs + List.length (inflight s).
Proof.
  intros c s fs R Hnd Hp. apply inv_reachable in R. unfold count.
  eapply Nat.le_trans.
  { apply (filter_mono_length _ _ (fun f => memb f (lru s) || (memb f (inflight s) || is_pinned (files s f)))).
    intros f Hf Ho. eapply open_covered; eauto. }
  eapply Nat.le_trans; [apply filter_or_length|].
  eapply Nat.le_trans; [apply Nat.add_le_mono_l; apply filter_or_length|].
  pose proof (filter_memb_length fs (lru s) Hnd). pose proof (filter_memb_length fs (inflight s) Hnd).
  pose proof (i_len c s R). lia.
Qed.

Lemma bound_quiescent : forall c s fs, reachable c s -> NoDup fs -> (forall f, In f fs -> epooled c f = true) ->
  inflight s = [] -> count is_open s fs <= cap c + count is_pinned s fs.
Proof. intros c s fs R Hnd Hp Hq. pose proof (bound_partial c s fs R Hnd Hp). rewrite Hq in H. cbn in H. lia. Qed.

(* what a step can do to the record of one file (p: the file is pooled, n: the
   clock); the invariants that speak of one file at a time are proved over this *)
Inductive fstep (c : cfg) (p : bool) (n : nat) (x : fstate) : fstate -> Prop :=
| fs_acquire h : fclosed x = false ->
    fstep c p n x (mkF (Some h) (S (frefs x)) (S (fgen x)) None (fcbs x) false (flatch x) (finlru x) (fidle x))
| fs_open_failed : fclosed x = false ->
    fstep c p n x (mkF None (frefs x) (fgen x) None (fcbs x) false (flatch x) (finlru x) (fidle x))
| fs_inlru b : fstep c p n x (set_inlru x b)
| fs_release_now : fstep c p n x (release_now x)
| fs_release : fstep c p n x (release p (grace c) n x)
| fs_close : fstep c p n x (close_body x)
| fs_timer_start g dl : ftimer x = Some (g, dl) -> dl <= n ->
    fstep c p n x (mkF (ffile x) (frefs x) (fgen x) None (fcbs x ++ [g]) (fclosed x) (flatch x) (finlru x) (fidle x))
| fs_timer_run g :
    fstep c p n x (timer_body g (mkF (ffile x) (frefs x) (fgen x) (ftimer x) (remove1 Nat.eqb g (fcbs x))
                                     (fclosed x) (flatch x) (finlru x) (fidle x))).

Lemma step_files : forall c s l s', step c s l = Some s' ->
  now s <= now s' /\
  forall g, files s' g = files s g \/ fstep c (epooled c g) (now s) (files s g) (files s' g).
Proof.
  intros c s l s' H.
  assert (U : forall f x', fstep c (epooled c f) (now s) (files s f) x' ->
              forall g, upd (files s) f x' g = files s g
                        \/ fstep c (epooled c g) (now s) (files s g) (upd (files s) f x' g)).
  { intros f x' F g. fcase g f; auto. }
  destruct l; unfold step in H.
  - (* LAcquire *)
    destruct (is_idle (pcs s t)); cbn in H; [|discriminate].
    destruct (fclosed (files s f)) eqn:Hc; [inversion H; auto|].
    destruct (ffile (files s f)); [|destruct openok]; try destruct (epooled c f);
      inversion H; subst; clear H; cbn; (split; [lia|]); apply U; constructor; exact Hc.
  - (* LTouch *)
    destruct (pcs s t); try discriminate.
    destruct (finlru (files s f)); [inversion H; auto|].
    destruct (Nat.ltb (cap c) (S (List.length (lru s)))).
    + destruct (memb v (lru s) && negb (Nat.eqb v f)) eqn:Hv; inversion H; subst; clear H.
      apply andb_true_iff in Hv as [_ Hv]. apply negb_true_iff, Nat.eqb_neq in Hv.
      cbn. rewrite upd_other by exact Hv. split; [lia|]. intros g. fcase g v; [right | apply U]; constructor.
    + inversion H; subst; clear H. cbn. split; [lia|]. apply U. constructor.
  - (* LEvict *)
    destruct (pcs s t); try discriminate. inversion H; subst; clear H. cbn. split; [lia|]. apply U. constructor.
  - (* LRelock *)
    destruct (pcs s t); try discriminate. inversion H; auto.
  - (* LRelease *)
    destruct (is_idle (pcs s t) && hmemb (t, f, h) (holds s)); inversion H; subst; clear H.
    cbn. split; [lia|]. apply U. constructor.
  - (* LClose *)
    destruct (is_idle (pcs s t)); cbn in H; [|discriminate].
    destruct (fclosed (files s f)); [inversion H; auto|].
    destruct (epooled c f); inversion H; subst; clear H; cbn; (split; [lia|]); apply U; constructor.
  - (* LForget *)
    destruct (pcs s t); try discriminate.
    destruct (finlru (files s f)); inversion H; subst; clear H; auto.
    cbn. split; [lia|]. apply U. constructor.
  - (* LReleaseNow *)
    destruct (is_idle (pcs s t)); inversion H; subst; clear H. cbn. split; [lia|]. apply U. constructor.
  - (* LTick *)
    inversion H; subst; clear H. cbn. split; [lia | auto].
  - (* LTimerStart *)
    destruct (ftimer (files s f)) as [[g dl]|] eqn:Et; [|discriminate].
    destruct (Nat.leb_spec dl (now s)); inversion H; subst; clear H.
    cbn. split; [lia|]. apply U. econstructor; eauto.
  - (* LTimerRun *)
    destruct (memb g (fcbs (files s f))); inversion H; subst; clear H. cbn. split; [lia|]. apply U. constructor.
Qed.

(* the grace-timer discipline of one file record (p: pooled); the third clause is
   C24_idle_armed, the fifth is what C24_grace_respected reads off *)
Definition tok (c : cfg) (p : bool) (now : nat) (x : fstate) : Prop :=
  (forall g, In g (fcbs x) -> g <= fgen x) /\
  (forall g dl, ftimer x = Some (g, dl) -> g <= fgen x) /\
  (p = false -> frefs x = 0 -> is_open x = true -> fclosed x = false ->
     ftimer x = Some (fgen x, fidle x + grace c) \/ In (fgen x) (fcbs x)) /\
  (forall g dl, ftimer x = Some (g, dl) -> g = fgen x -> dl = fidle x + grace c) /\
  (In (fgen x) (fcbs x) -> fidle x + grace c <= now) /\
  (frefs x <> 0 -> ftimer x = None).

Lemma tok_now : forall c p n n' x, n <= n' -> tok c p n x -> tok c p n' x.
Proof. intros c p n n' x Hle (A & B & C & D & E & F). repeat split; auto. intros H. specialize (E H). lia. Qed.

Lemma tok_bump_none : forall c p n x fl r cl la il,
  tok c p n x -> (r <> 0 \/ fl = None \/ cl = true \/ p = true) ->
  tok c p n (mkF fl r (S (fgen x)) None (fcbs x) cl la il (fidle x)).
Proof.
  intros c p n x fl r cl la il (A & B & C & D & E & F) H. unfold tok; cbn. repeat split.
  - intros g Hg. specialize (A g Hg). lia.
  - discriminate.
  - intros Hp Hr Ho Hc. unfold is_open in Ho. cbn in Ho.
    destruct H as [H|[H|[H|H]]]; subst; try congruence; discriminate.
  - discriminate.
  - intros Hin. specialize (A _ Hin). lia.
Qed.

Lemma tok_release_now : forall c p n x, tok c p n x -> tok c p n (release_now x).
Proof.
  intros c p n x T. unfold release_now. destruct (fclosed x) eqn:Ec; auto.
  destruct (Nat.eqb_spec (frefs x) 0); apply tok_bump_none; auto.
Qed.

Lemma tok_close : forall c p n x, tok c p n x -> tok c p n (close_body x).
Proof. intros. unfold close_body. apply tok_bump_none; auto. Qed.

Lemma tok_release : forall c p n x, tok c p n x -> tok c p n (release p (grace c) n x).
Proof.
  intros c p n x T. unfold release. destruct (Nat.eqb_spec (frefs x) 0); auto.
  pose proof T as (A & B & C & D & E & F). rewrite (F n0).
  (* every branch but the last bumps the generation and arms no timer *)
  destruct (Nat.eqb_spec (pred (frefs x)) 0), (fclosed x) eqn:Ec, (ffile x) eqn:Ef, (flatch x), p;
    cbn [negb orb]; try (apply tok_bump_none; auto; fail).
  unfold tok; cbn. repeat split.
  - intros g Hg. specialize (A g Hg). lia.
  - intros g dl Hh. inversion Hh; subst. lia.
  - intros. now left.
  - intros g dl Hh _. inversion Hh; subst. reflexivity.
  - intros Hin. specialize (A _ Hin). lia.
  - intros H. contradiction.
Qed.

Lemma tok_timer_start : forall c p n x g dl, tok c p n x -> ftimer x = Some (g, dl) -> dl <= n ->
  tok c p n (mkF (ffile x) (frefs x) (fgen x) None (fcbs x ++ [g]) (fclosed x) (flatch x) (finlru x) (fidle x)).
Proof.
  intros c p n x g dl (A & B & C & D & E & F) Ht Hdl. unfold tok; cbn. repeat split; try discriminate.
  - intros g0 Hg. apply in_app_or in Hg as [Hg|[<-|[]]]; eauto.
  - intros Hp Hr Ho Hc. right. apply in_or_app.
    destruct (C Hp Hr Ho Hc) as [H|H]; [|now left]. rewrite Ht in H. inversion H; subst. right. now left.
  - intros Hin. apply in_app_or in Hin as [Hin|[Heq|[]]]; auto.
    rewrite (D _ _ Ht Heq) in Hdl. auto.
Qed.

Lemma tok_timer_run : forall c p n x g, tok c p n x ->
  tok c p n (timer_body g (mkF (ffile x) (frefs x) (fgen x) (ftimer x) (remove1 Nat.eqb g (fcbs x)) (fclosed x) (flatch x) (finlru x) (fidle x))).
Proof.
  intros c p n [fl r gn tm cb cl la il id] g (A & B & C & D & E & F). cbn in *.
  assert (Hsame : (gn <> g \/ cl = true \/ r <> 0 \/ fl = None) ->
    tok c p n (mkF fl r gn tm (remove1 Nat.eqb g cb) cl la il id)).
  { intros H. unfold tok; cbn. repeat split; auto.
    - intros g0 Hg. apply In_remove1 in Hg. auto.
    - intros Hp Hr Ho Hc. destruct (C Hp Hr Ho Hc) as [H1|H1]; auto. right.
      destruct H as [H|[H|[H|H]]]; try congruence.
      + apply (In_remove1_other Nat.eqb_eq); auto.
      + unfold is_open in Ho. cbn in Ho. rewrite H in Ho. discriminate.
    - intros Hin. apply In_remove1 in Hin. auto. }
  unfold timer_body. cbn.
  destruct cl; cbn; [apply Hsame; auto|].
  destruct (Nat.eqb_spec gn g); cbn; [|apply Hsame; auto].
  destruct (Nat.eqb_spec r 0); cbn; [|apply Hsame; auto].
  destruct fl; cbn; [|apply Hsame; auto].
  unfold tok; cbn. repeat split; try discriminate.
  - intros g0 Hg. apply In_remove1 in Hg. auto.
  - intros Hin. apply In_remove1 in Hin. auto.
Qed.

Lemma tok_openfail : forall c p n x la il,
  tok c p n x -> tok c p n (mkF None (frefs x) (fgen x) None (fcbs x) false la il (fidle x)).
Proof.
  intros c p n x la il (A & B & C & D & E & F). unfold tok; cbn. repeat split; auto; try discriminate.
Qed.

Definition InvT (c : cfg) (s : st) : Prop := forall f, tok c (epooled c f) (now s) (files s f).

Lemma invT_init : forall c, InvT c init.
Proof. intros c f. unfold tok; cbn. repeat split; auto; try tauto; try discriminate; try lia. Qed.

Lemma fstep_tok : forall c p n x x', tok c p n x -> fstep c p n x x' -> tok c p n x'.
Proof.
  intros c p n x x' T F.
  destruct F; eauto using tok_bump_none, tok_openfail, tok_release_now, tok_release, tok_close,
                          tok_timer_start, tok_timer_run.
Qed.

Lemma invT_step : forall c s l s', InvT c s -> step c s l = Some s' -> InvT c s'.
Proof.
  intros c s l s' T H g. destruct (step_files c s l s' H) as [Hn Hf].
  eapply tok_now; [exact Hn|]. destruct (Hf g) as [->|F]; [apply T | eapply fstep_tok; eauto].
Qed.

Lemma invT_reachable : forall c s, reachable c s -> InvT c s.
Proof. intros c s [ls H]. exact (run_preserves c (InvT c) (invT_step c) ls init s (invT_init c) H). Qed.

Lemma run_app : forall c l1 l2 s s1, run c s l1 = Some s1 -> run c s (l1 ++ l2) = run c s1 l2.
Proof.
  induction l1 as [|l l1 IH]; cbn; intros l2 s s1 H; [inversion H; auto|].
  destruct (step c s l); [eauto|discriminate].
Qed.

Lemma reachable_step : forall c s l s', reachable c s -> step c s l = Some s' -> reachable c s'.
Proof.
  intros c s l s' [ls H] Hs. exists (ls ++ [l]). rewrite (run_app c ls [l] init s H). cbn. now rewrite Hs.
Qed.

Lemma reachable_run : forall c ls s s', reachable c s -> run c s ls = Some s' -> reachable c s'.
Proof. intros c. exact (run_preserves c (reachable c) (reachable_step c)). Qed.

Lemma reachable_init : forall c, reachable c init.
Proof. intros c. exists []. reflexivity. Qed.

Lemma start_due_reachable : forall c fs s, reachable c s -> reachable c (start_due c s fs).
Proof.
  induction fs as [|f fs IH]; cbn [start_due]; intros s R; auto.
  destruct (step c s (LTimerStart f)) eqn:E; [apply IH; eapply reachable_step; eauto | auto].
Qed.

Lemma exec1_reachable : forall c nf s k, reachable c s -> reachable c (fst (exec1 c nf s k)).
Proof.
  intros c nf s k R. unfold exec1. destruct (label_of c s k) as [l|]; [|exact R].
  destruct (step c s l) eqn:E; [|exact R]. cbn [fst].
  pose proof (reachable_step c s l s0 R E) as R'.
  destruct k; auto. now apply start_due_reachable.
Qed.

Lemma exec_reachable : forall c nf ks s, reachable c s -> reachable c (fst (exec c nf s ks)).
Proof.
  induction ks as [|k ks IH]; cbn; intros s R; auto.
  pose proof (exec1_reachable c nf s k R) as R1. destruct (exec1 c nf s k) as [s1 o]. cbn in R1.
  specialize (IH s1 R1). destruct (exec c nf s1 ks) as [s2 os]. exact IH.
Qed.

Lemma release_now_closed : forall x, fclosed x = true -> fclosed (release_now x) = true.
Proof. intros x H. unfold release_now. now rewrite H. Qed.

Lemma release_closed : forall p g n x, fclosed x = true -> fclosed (release p g n x) = true.
Proof.
  intros p g n x H. unfold release. destruct (Nat.eqb (frefs x) 0); auto. rewrite H. cbn.
  rewrite orb_true_r. cbn. auto.
Qed.

Lemma timer_body_closed : forall g x, fclosed x = true -> fclosed (timer_body g x) = true.
Proof. intros g x H. unfold timer_body. rewrite H. cbn. auto. Qed.

Lemma closed_step : forall c g s l s', fclosed (files s g) = true ->
  step c s l = Some s' -> fclosed (files s' g) = true.
Proof.
  intros c g s l s' Hc H. destruct (step_files c s l s' H) as [_ Hf].
  destruct (Hf g) as [->|F]; [exact Hc|].
  destruct F; cbn; auto using release_now_closed, release_closed, timer_body_closed; congruence.
Qed.

Lemma closed_run : forall c ls s s' g, run c s ls = Some s' ->
  fclosed (files s g) = true -> fclosed (files s' g) = true.
Proof. intros c ls s s' g H Hc. exact (run_preserves c _ (closed_step c g) ls s s' Hc H). Qed.

Lemma acquire_closed : forall c s t f ok s', fclosed (files s f) = true ->
  step c s (LAcquire t f ok) = Some s' -> s' = s.
Proof.
  intros c s t f ok s' Hc H. unfold step in H. destruct (is_idle (pcs s t)); cbn in H; [|discriminate].
  rewrite Hc in H. now inversion H.
Qed.

Lemma idle_armed : forall c s f, reachable c s -> epooled c f = false ->
  frefs (files s f) = 0 -> is_open (files s f) = true -> fclosed (files s f) = false ->
  ftimer (files s f) = Some (fgen (files s f), fidle (files s f) + grace c) \/ In (fgen (files s f)) (fcbs (files s f)).
Proof.
  intros c s f R Hp Hr Ho Hc. destruct (invT_reachable c s R f) as (_ & _ & C & _). rewrite Hp in C. auto.
Qed.

Lemma timer_run_closes : forall c s f, In (fgen (files s f)) (fcbs (files s f)) ->
  frefs (files s f) = 0 -> fclosed (files s f) = false ->
  exists s', step c s (LTimerRun f (fgen (files s f))) = Some s' /\ ffile (files s' f) = None.
Proof.
  intros c s f Hin Hr Hc. unfold step. apply memb_In in Hin. rewrite Hin. eexists. split; [reflexivity|].
  cbn. rewrite upd_same. unfold timer_body. cbn. rewrite Hc, Hr, Nat.eqb_refl. cbn.
  destruct (ffile (files s f)); reflexivity.
Qed.

Lemma timer_start_ok : forall c s f g dl, ftimer (files s f) = Some (g, dl) -> dl <= now s ->
  exists s', step c s (LTimerStart f) = Some s' /\ In g (fcbs (files s' f)) /\ fgen (files s' f) = fgen (files s f)
    /\ frefs (files s' f) = frefs (files s f) /\ fclosed (files s' f) = fclosed (files s f).
Proof.
  intros c s f g dl Ht Hd. unfold step. rewrite Ht. destruct (Nat.leb_spec dl (now s)); [|lia].
  eexists. split; [reflexivity|]. cbn. rewrite upd_same. cbn. repeat split. apply in_or_app. right. now left.
Qed.

Lemma idle_closes : forall c s f, reachable c s -> epooled c f = false ->
  frefs (files s f) = 0 -> is_open (files s f) = true -> fclosed (files s f) = false ->
  exists ls s', run c s ls = Some s' /\ ffile (files s' f) = None.
Proof.
  intros c s f R Hp Hr Ho Hc. destruct (idle_armed c s f R Hp Hr Ho Hc) as [Ht|Hin].
  - (* the timer is armed: let the deadline pass, the callback start and run *)
    set (dl := fidle (files s f) + grace c) in *.
    destruct (timer_start_ok c (set_now s (now s + dl)) f _ dl Ht) as (s2 & E2 & Hin & Hg & Hr2 & Hc2); [cbn; lia|].
    cbn [files set_now] in Hg, Hr2, Hc2. rewrite <- Hg in Hin.
    destruct (timer_run_closes c s2 f Hin) as [s' [Hs Hf]]; [congruence | congruence |].
    exists [LTick dl; LTimerStart f; LTimerRun f (fgen (files s2 f))], s'. cbn [run].
    rewrite (eq_refl : step c s (LTick dl) = Some (set_now s (now s + dl))), E2, Hs. auto.
  - destruct (timer_run_closes c s f Hin Hr Hc) as [s' [Hs Hf]].
    exists [LTimerRun f (fgen (files s f))], s'. cbn [run]. rewrite Hs. auto.
Qed.

Lemma grace_respected : forall c s f g s', reachable c s -> step c s (LTimerRun f g) = Some s' ->
  is_open (files s f) = true -> is_open (files s' f) = false ->
  fidle (files s f) + grace c <= now s.
Proof.
  intros c s f g s' R H Ho Ho'. destruct (invT_reachable c s R f) as (_ & _ & _ & _ & E & _). unfold step in H.
  destruct (memb g (fcbs (files s f))) eqn:Hm; inversion H; subst; clear H.
  apply memb_In in Hm. cbn in Ho'. rewrite upd_same in Ho'. unfold timer_body in Ho'. cbn in Ho'.
  unfold is_open in Ho, Ho'.
  destruct (fclosed (files s f)); cbn in Ho'; [congruence|].
  destruct (Nat.eqb_spec (fgen (files s f)) g); cbn in Ho'; [|congruence].
  subst g. auto.
Qed.

Lemma idle_pooled_registered : forall c s f, reachable c s -> epooled c f = true ->
  frefs (files s f) = 0 -> is_open (files s f) = true ->
  In f (lru s) \/ In f (inflight s).
Proof.
  intros c s f R Hp Hr Ho. pose proof (open_covered c s f (inv_reachable c s R) Hp Ho) as H.
  unfold is_pinned in H. rewrite Hr, orb_false_r, orb_true_iff, !memb_In in H. exact H.
Qed.

Lemma release_now_closes : forall c s t f, reachable c s -> pcs s t = PIdle -> frefs (files s f) = 0 ->
  exists s', step c s (LReleaseNow t f) = Some s' /\ is_open (files s' f) = false.
Proof.
  intros c s t f R Hi Hr. unfold step. rewrite Hi. cbn [is_idle]. eexists. split; [reflexivity|].
  cbn. rewrite upd_same. unfold release_now, is_open.
  destruct (fclosed (files s f)) eqn:Hc.
  - now rewrite (i_closed c s (inv_reachable c s R) f Hc).
  - rewrite Hr. reflexivity.
Qed.

Definition overshoot_cfg : cfg := c24_cfg 1 10 [true; true; true].
Definition overshoot_cmds : list cmd :=
  [CAcquire 1 0 false; CStep 1; CAcquire 2 1 false; CAcquire 3 1 false; CStep 2; CRelease 1 0;
   CAcquire 0 2 false; CStep 0; CStep 0; CStep 3; CStep 0; CRelease 0 2].
Definition overshoot_state : st := fst (exec overshoot_cfg 3 init overshoot_cmds).

Lemma overshoot_reachable : reachable overshoot_cfg overshoot_state.
Proof. apply exec_reachable. apply reachable_init. Qed.

Lemma overshoot_counts :
  count is_open overshoot_state [0; 1; 2] = 3 /\ count is_pinned overshoot_state [0; 1; 2] = 1
  /\ cap overshoot_cfg = 1 /\ List.length (inflight overshoot_state) = 2.
Proof. vm_compute. repeat split. Qed.
