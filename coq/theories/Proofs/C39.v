(* Proofs/C39.v — the receive-pack update loop applies only consistent
   commands, keeps references closed over the object set, and reports
   exactly what it did; at the end, git's own rule (git_apply) for the
   comparison of Properties/C39.v. *)
From Coq Require Import List NArith Bool Lia Permutation.
From GoGit Require Import Base.Out Spec.AStore Model.ReceivePack Proofs.AStoreFacts.
Import ListNotations.
Local Open Scope N_scope.

(* the client's old value is the current value: absent <-> zero id, otherwise
   the stored reference is a hash reference to exactly that id *)
Definition old_matches (cur : option refval) (old : option N) : bool :=
  match cur, old with
  | None, None => true
  | Some v, Some o => optN_eqb (rv_hash v) (Some o)
  | _, _ => false
  end.

Definition new_present (s : store) (new : option N) : bool :=
  match new with Some h => fm_has h (s_objs s) | None => true end.

(* git's rule for one command: apply it iff it is consistent *)
Definition spec_apply (s : store) (c : cmd) : option store :=
  if old_matches (fm_get (c_name c) (s_refs s)) (c_old c) && new_present s (c_new c)
  then match c_new c with
       | Some h => Some (set_ref s (c_name c) h)
       | None => Some (del_ref s (c_name c))
       end
  else None.

(* go-git's decision: git's rule, except that a command with both ids zero is never applied *)
Lemma g_apply_eq s c : g_apply s c = if is_invalid c then None else spec_apply s c.
Proof.
  unfold is_invalid, action_of, g_apply, spec_apply, old_matches, new_present.
  destruct c as [n [o|] [h|]]; cbn [c_name c_old c_new];
    destruct (fm_get n (s_refs s)) as [v|]; cbn [negb andb];
    try destruct (optN_eqb (rv_hash v) (Some o)); cbn [negb andb];
    try destruct (fm_has h (s_objs s)); reflexivity.
Qed.

Lemma g_apply_Some s c s' :
  g_apply s c = Some s' ->
  old_matches (fm_get (c_name c) (s_refs s)) (c_old c) = true
  /\ new_present s (c_new c) = true
  /\ s' = match c_new c with Some h => set_ref s (c_name c) h | None => del_ref s (c_name c) end.
Proof.
  rewrite g_apply_eq. destruct (is_invalid c); [discriminate|]. unfold spec_apply.
  destruct (old_matches _ _); [|discriminate]. destruct (new_present s (c_new c)); [|discriminate].
  destruct (c_new c); intros [= <-]; auto.
Qed.

(* no hash reference points outside the object set *)
Definition closed (s : store) : Prop :=
  forall n h, fm_get n (s_refs s) = Some (RHash h) -> fm_has h (s_objs s) = true.

Lemma g_apply_objs s c s' : g_apply s c = Some s' -> s_objs s' = s_objs s.
Proof. intros (_ & _ & ->)%g_apply_Some. destruct (c_new c); reflexivity. Qed.

Lemma g_apply_closed s c s' : closed s -> g_apply s c = Some s' -> closed s'.
Proof.
  intros Hc (_ & Hn & ->)%g_apply_Some. unfold new_present in Hn. destruct (c_new c) as [h|]; intros k j; unfold set_ref, del_ref, st_with_refs;
    cbn [s_refs s_objs].
  - rewrite fm_get_set. destruct (k =? c_name c).
    + intro E; injection E as <-. exact Hn.
    + apply Hc.
  - rewrite fm_get_del. destruct (k =? c_name c); [discriminate|apply Hc].
Qed.

Lemma g_update1_closed x c : closed (u_store x) -> closed (u_store (g_update1 x c)).
Proof.
  intro Hc. unfold g_update1. destruct (is_invalid c); [exact Hc|].
  destruct (g_apply (u_store x) c) as [s'|] eqn:E; cbn [u_done u_fail u_store]; [|exact Hc].
  eapply g_apply_closed; eassumption.
Qed.

Lemma fold_update_closed cmds : forall x, closed (u_store x) -> closed (u_store (fold_left g_update1 cmds x)).
Proof.
  induction cmds as [|c r IH]; intros x H; [exact H|]. cbn [fold_left]. apply IH. apply g_update1_closed; exact H.
Qed.

Lemma add_objs_has s l k : fm_has k (s_objs s) = true -> fm_has k (s_objs (add_objs s l)) = true.
Proof.
  intro H. unfold add_objs, st_with_objs. cbn [s_objs].
  induction l as [|a r IH]; cbn [fold_right]; [exact H|].
  rewrite fm_has_set, IH. apply orb_true_r.
Qed.

Lemma add_objs_closed s l : closed s -> closed (add_objs s l).
Proof. intros Hc n h Hg. apply add_objs_has. apply (Hc n h). exact Hg. Qed.

(* the outcome of every command, in command order *)
Fixpoint outcomes (s : store) (cmds : list cmd) : list (N * bool) :=
  match cmds with
  | [] => []
  | c :: r =>
    match g_apply s c with
    | Some s' => (c_name c, true) :: outcomes s' r
    | None => (c_name c, false) :: outcomes s r
    end
  end.

Fixpoint final_store (s : store) (cmds : list cmd) : store :=
  match cmds with
  | [] => s
  | c :: r => match g_apply s c with Some s' => final_store s' r | None => final_store s r end
  end.

Definition status_of (l : list (N * bool)) (st : statuses) : statuses :=
  fold_left (fun m p => fm_set (fst p) (snd p) m) l st.

Lemma fold_update_spec cmds : forall x,
  forallb (fun c => negb (is_invalid c)) cmds = true ->
  u_store (fold_left g_update1 cmds x) = final_store (u_store x) cmds
  /\ u_status (fold_left g_update1 cmds x) = status_of (outcomes (u_store x) cmds) (u_status x)
  /\ u_failed (fold_left g_update1 cmds x) = u_failed x || negb (forallb snd (outcomes (u_store x) cmds)).
Proof.
  induction cmds as [|c r IH]; intros x Hv.
  - cbn. rewrite orb_false_r. repeat split; reflexivity.
  - cbn [forallb] in Hv. apply andb_true_iff in Hv as [Hc Hr]. apply negb_true_iff in Hc.
    cbn [fold_left outcomes final_store]. destruct (IH (g_update1 x c) Hr) as (-> & -> & ->).
    unfold g_update1. rewrite Hc.
    destruct (g_apply (u_store x) c) as [s'|];
      cbn [u_done u_fail u_store u_status u_failed status_of fold_left forallb fst snd andb negb orb];
      rewrite ?orb_true_r; repeat split; reflexivity.
Qed.

Lemma outcomes_names s cmds : map fst (outcomes s cmds) = map c_name cmds.
Proof.
  revert s. induction cmds as [|c r IH]; intro s; [reflexivity|].
  cbn [outcomes map]. destruct (g_apply s c); cbn [map fst]; rewrite IH; reflexivity.
Qed.

Lemma has_dup_NoDup l : has_dup l = false -> NoDup l.
Proof.
  induction l as [|x r IH]; intro H; [constructor|].
  cbn [has_dup] in H. apply orb_false_iff in H as [H1 H2].
  constructor; [|apply IH; exact H2]. intro Hin. apply nmem_In in Hin. congruence.
Qed.

(* setStatus in command order: the later command wins, as in a union with the reversed list *)
Lemma status_of_union l st : status_of l st = fm_union st (rev l).
Proof. unfold status_of, fm_union. symmetry. apply fold_left_rev_right. Qed.

(* with distinct names, the status map holds exactly the listed outcomes *)
Lemma report_exact l k b :
  NoDup (map fst l) -> (fm_get k (status_of l []) = Some b <-> In (k, b) l).
Proof.
  intro Hnd. rewrite status_of_union, fm_get_union, in_rev.
  rewrite <- (fm_get_In_NoDup k b (rev l)) by (rewrite map_rev; now apply NoDup_rev).
  now destruct (fm_get k (rev l)).
Qed.

Definition is_nil_cmds (l : list cmd) : bool := match l with [] => true | _ => false end.
Definition need_pack (r : request) : bool := existsb (fun c => negb (is_delete c)) (r_cmds r).

(* the store after the packfile (if one is needed) has been unpacked *)
Definition unpacked (s : store) (r : request) : store :=
  if need_pack r then match r_pack r with Some l => add_objs s l | None => s end else s.

(* the request reaches updateReferences *)
Definition accepted (r : request) : bool :=
  negb (is_nil_cmds (r_cmds r))
  && negb (existsb is_invalid (r_cmds r))
  && negb (has_dup (map c_name (r_cmds r)))
  && r_report r
  && (negb (need_pack r) || match r_pack r with Some _ => true | None => false end)
  && negb (r_reject r).

(* the gates of ReceivePack: an accepted request runs the update loop on the
   unpacked store; any other leaves the store as it was or just unpacked *)
Lemma receive_cases s r :
  if accepted r
  then g_receive s r =
       let x := g_update (unpacked s r) (r_cmds r) in
       mkOutcome (negb (u_failed x)) (Some (negb (u_failed x), u_status x))
                 (Some (filter (status_ok (u_status x)) (r_cmds r))) (u_store x)
  else o_store (g_receive s r) = s \/ o_store (g_receive s r) = unpacked s r.
Proof.
  unfold accepted, g_receive, unpacked, need_pack, is_nil_cmds.
  destruct (r_cmds r) as [|c0 cs]; [now left|]. cbn [negb andb].
  destruct (existsb is_invalid (c0 :: cs)); [now left|].
  destruct (has_dup (map c_name (c0 :: cs))); [now left|]. cbn [negb andb].
  destruct (r_report r); cbn [negb andb]; [|now right].
  destruct (negb (existsb (fun c => negb (is_delete c)) (c0 :: cs)) || match r_pack r with Some _ => true | None => false end);
    cbn [negb andb]; [|now right].
  destruct (r_reject r); [now right|reflexivity].
Qed.

Lemma unpacked_closed s r : closed s -> closed (unpacked s r).
Proof.
  intro Hc. unfold unpacked. destruct (need_pack r); [|exact Hc].
  destruct (r_pack r); [apply add_objs_closed|]; exact Hc.
Qed.

Lemma accepted_inv r : accepted r = true ->
  forallb (fun c => negb (is_invalid c)) (r_cmds r) = true /\ NoDup (map c_name (r_cmds r)).
Proof.
  unfold accepted. rewrite !andb_true_iff, forallb_negb. intros [[[[[_ H2] H3] _] _] _].
  split; [exact H2|]. apply has_dup_NoDup. now apply negb_true_iff.
Qed.

(* every command the loop applied was consistent when it was applied *)
Fixpoint consistent_run (s : store) (cmds : list cmd) : Prop :=
  match cmds with
  | [] => True
  | c :: r =>
    match g_apply s c with
    | Some s' =>
      old_matches (fm_get (c_name c) (s_refs s)) (c_old c) = true
      /\ new_present s (c_new c) = true
      /\ s' = match c_new c with Some h => set_ref s (c_name c) h | None => del_ref s (c_name c) end
      /\ consistent_run s' r
    | None => consistent_run s r
    end
  end.

(* git's notion of "the current value": follow symbolic references (fuel bounds
   the chain; a loop resolves to nothing).  Result: the referent and its value *)
Fixpoint resolve (fuel : nat) (s : store) (n : N) : option (N * option N) :=
  match fuel with
  | O => None
  | S f =>
    match fm_get n (s_refs s) with
    | None => Some (n, None)
    | Some (RHash h) => Some (n, Some h)
    | Some (RSym t) => resolve f s t
    end
  end.

(* git receive-pack's rule (validated against the git binary on every run): the
   old value is compared with the RESOLVED value and the update goes to the referent *)
Definition git_apply (fuel : nat) (s : store) (c : cmd) : option store :=
  match resolve fuel s (c_name c) with
  | None => None
  | Some (tgt, cur) =>
    if optN_eqb cur (c_old c) && new_present s (c_new c)
    then match c_old c, c_new c with
         | None, None => None
         | _, Some h => Some (set_ref s tgt h)
         | _, None => Some (del_ref s tgt)
         end
    else None
  end.

Definition is_symbolic (s : store) (n : N) : bool :=
  match fm_get n (s_refs s) with Some (RSym _) => true | _ => false end.
