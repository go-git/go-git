(* Proofs/BitPack.v — reusable lemmas about fields packed into machine words with
   lor / land / shiftl / shiftr (binary naturals, stdlib only).

   Two patterns occur in git's on-disk formats:
     * two fields in one word:   w = low | (high << k)     with low < 2^k
       (commit-graph: commit time | generation << 34);
     * a flag bit on a position: w = v | 2^k               with v < 2^k
       (commit-graph: parentOctopusUsed / parentLast on 31-bit positions, the
        generation-data overflow bit).
   Reading back is   w & (2^k - 1),  w >> k,  w & 2^k.                         *)
From Coq Require Import NArith Bool Lia.
Local Open Scope N_scope.

Lemma testbit_above : forall a k i, a < 2 ^ k -> k <= i -> N.testbit a i = false.
Proof.
  intros a k i H Hi. destruct (N.eq_dec a 0) as [->|Ha]; [apply N.bits_0|].
  apply N.bits_above_log2. apply N.log2_lt_pow2; [lia|].
  eapply N.lt_le_trans; [exact H|]. apply N.pow_le_mono_r; lia.
Qed.

Lemma land_shiftl_low : forall a b k, a < 2 ^ k -> N.land a (N.shiftl b k) = 0.
Proof.
  intros a b k H. apply N.bits_inj. intros i. rewrite N.land_spec, N.bits_0.
  destruct (N.lt_ge_cases i k) as [Hi|Hi].
  - rewrite N.shiftl_spec_low by exact Hi. apply andb_false_r.
  - rewrite (testbit_above a k i H Hi). reflexivity.
Qed.

Lemma lor_shiftl_add : forall a b k, a < 2 ^ k -> N.lor a (N.shiftl b k) = a + b * 2 ^ k.
Proof.
  intros a b k H. pose proof (land_shiftl_low a b k H) as D.
  rewrite <- (N.lxor_lor _ _ D), <- (N.add_nocarry_lxor _ _ D). now rewrite N.shiftl_mul_pow2.
Qed.

Lemma unpack_low : forall a b k, a < 2 ^ k -> N.land (N.lor a (N.shiftl b k)) (N.ones k) = a.
Proof.
  intros a b k H. rewrite (lor_shiftl_add a b k H), N.land_ones.
  rewrite N.mod_add by (apply N.pow_nonzero; lia). now apply N.mod_small.
Qed.

Lemma unpack_high : forall a b k, a < 2 ^ k -> N.shiftr (N.lor a (N.shiftl b k)) k = b.
Proof.
  intros a b k H. rewrite (lor_shiftl_add a b k H), N.shiftr_div_pow2.
  rewrite N.div_add by (apply N.pow_nonzero; lia). rewrite (N.div_small a) by exact H. reflexivity.
Qed.

Lemma pack_bound : forall a b k m, a < 2 ^ k -> b < 2 ^ m -> N.lor a (N.shiftl b k) < 2 ^ (k + m).
Proof.
  intros a b k m Ha Hb. rewrite (lor_shiftl_add a b k Ha), N.pow_add_r.
  assert (0 < 2 ^ k) by (apply N.neq_0_lt_0, N.pow_nonzero; lia). nia.
Qed.

Lemma shiftl_bound : forall b k m, b < 2 ^ m -> N.shiftl b k < 2 ^ (k + m).
Proof.
  intros b k m Hb. rewrite N.shiftl_mul_pow2, N.pow_add_r.
  assert (0 < 2 ^ k) by (apply N.neq_0_lt_0, N.pow_nonzero; lia). nia.
Qed.

Lemma mask_small : forall a k, a < 2 ^ k -> N.land a (N.ones k) = a.
Proof. intros a k H. rewrite N.land_ones. now apply N.mod_small. Qed.

Lemma flag_absent : forall a k, a < 2 ^ k -> N.land a (2 ^ k) = 0.
Proof. intros a k H. rewrite <- (N.shiftl_1_l k). now apply land_shiftl_low. Qed.

Lemma flag_add : forall a k, a < 2 ^ k -> N.lor a (2 ^ k) = a + 2 ^ k.
Proof. intros a k H. rewrite <- (N.shiftl_1_l k), (lor_shiftl_add a 1 k H), N.shiftl_1_l, N.mul_1_l. reflexivity. Qed.

Lemma flag_present : forall a k, a < 2 ^ k -> N.land (N.lor a (2 ^ k)) (2 ^ k) = 2 ^ k.
Proof.
  intros a k H. rewrite N.land_lor_distr_l, (flag_absent a k H), N.land_diag. apply N.lor_0_l.
Qed.

Lemma flag_strip : forall a k, a < 2 ^ k -> N.land (N.lor a (2 ^ k)) (N.ones k) = a.
Proof. intros a k H. rewrite <- (N.shiftl_1_l k). now apply unpack_low. Qed.

Lemma flag_bound : forall a k, a < 2 ^ k -> N.lor a (2 ^ k) < 2 ^ (k + 1).
Proof. intros a k H. rewrite (flag_add a k H), N.pow_add_r. change (2 ^ 1) with 2. lia. Qed.

Lemma mask_bound : forall a k, N.land a (N.ones k) < 2 ^ k.
Proof. intros a k. rewrite N.land_ones. apply N.mod_lt, N.pow_nonzero. lia. Qed.

(* unsigned subtraction / addition modulo 2^w (uint64 wrap-around): (t + (g - t)) = g *)
Lemma wrap_sub_add : forall g t M, g < M -> t < M -> (t + (g + M - t) mod M) mod M = g.
Proof.
  intros g t M Hg Ht. assert (HM : M <> 0) by lia.
  destruct (N.le_gt_cases t g) as [Hle|Hgt].
  - replace (g + M - t) with ((g - t) + 1 * M) by lia. rewrite N.mod_add by exact HM.
    rewrite (N.mod_small (g - t)) by lia. replace (t + (g - t)) with g by lia. now apply N.mod_small.
  - rewrite (N.mod_small (g + M - t)) by lia. replace (t + (g + M - t)) with (g + 1 * M) by lia.
    rewrite N.mod_add by exact HM. now apply N.mod_small.
Qed.

(* when the wrapped difference is small, no wrap happened *)
Lemma wrap_sub_small : forall g t M B, g < M -> t < M -> t + B <= M -> (g + M - t) mod M < B -> t + (g + M - t) mod M = g.
Proof.
  intros g t M B Hg Ht HB H. assert (HM : M <> 0) by lia.
  destruct (N.le_gt_cases t g) as [Hle|Hgt].
  - replace (g + M - t) with ((g - t) + 1 * M) in * by lia. rewrite N.mod_add in * by exact HM.
    rewrite (N.mod_small (g - t)) in * by lia. lia.
  - rewrite (N.mod_small (g + M - t)) in H by lia. lia.
Qed.
