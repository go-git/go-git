(* Proofs/C34Pkt.v — pkt-line reading: chunking independence, what a read of
   an encoded packet returns (any buffer size: round trip and resync), what a
   successful read means on arbitrary bytes, and totality of the read loops. *)
From Coq Require Import List NArith ZArith Bool Lia Arith.
From GoGit Require Import Base.Out Base.GoInt Gen.C34 Model.PktLine Proofs.C34Stream Proofs.C34Hex.
Import ListNotations.

(* MaxSizeN is 65520 in unary: cbn must not unfold it *)
Arguments MaxSizeN : simpl never.

Lemma pkt_read_flat bufsz r1 r2 : concat r1 = concat r2 ->
  fst (pkt_read bufsz r1) = fst (pkt_read bufsz r2) /\
  concat (snd (pkt_read bufsz r1)) = concat (snd (pkt_read bufsz r2)).
Proof.
  intros H. unfold pkt_read.
  (* branch by branch: the header and the payload are takes, which agree on r1 and r2 (take_flat) *)
  destruct (Nat.ltb bufsz LenSizeN); [now cbn|].
  destruct (take_flat r1 r2 LenSizeN H) as [Hh Hr].
  destruct (take r1 LenSizeN) as [h1 s1], (take r2 LenSizeN) as [h2 s2]. cbn [fst snd] in Hh, Hr. subst h2.
  destruct (Nat.eqb (List.length h1) 0); [now cbn|].
  destruct (Nat.ltb (List.length h1) LenSizeN); [now cbn|].
  destruct (parse_length h1) as [len|]; [|now cbn].
  destruct ((len =? pktline_Flush)%Z || (len =? pktline_Delim)%Z || (len =? pktline_ResponseEnd)%Z); [now cbn|].
  destruct (len =? pktline_LenSize)%Z; [now cbn|].
  destruct (take_flat s1 s2 (Z.to_nat (len - pktline_LenSize)) Hr) as [Hp Hq].
  destruct (take s1 (Z.to_nat (len - pktline_LenSize))) as [p1 q1], (take s2 (Z.to_nat (len - pktline_LenSize))) as [p2 q2].
  cbn [fst snd] in Hp, Hq. subst p2.
  destruct (len >? Z.of_nat bufsz)%Z; [now cbn|].
  destruct (Nat.eqb (List.length p1) 0); [now cbn|].
  destruct (Nat.ltb (List.length p1) (Z.to_nat (len - pktline_LenSize))); now cbn.
Qed.

Lemma rlen_flat r1 r2 : concat r1 = concat r2 -> rlen r1 = rlen r2.
Proof. unfold rlen. now intros ->. Qed.

Lemma read_all_go_flat bufsz : forall fuel r1 r2 acc, concat r1 = concat r2 ->
  read_all_go fuel bufsz r1 acc = read_all_go fuel bufsz r2 acc.
Proof.
  induction fuel as [|f IH]; intros r1 r2 acc H; [reflexivity|].
  cbn [read_all_go]. destruct (pkt_read_flat bufsz r1 r2 H) as [Hd Hr].
  destruct (pkt_read bufsz r1) as [d1 s1], (pkt_read bufsz r2) as [d2 s2]. cbn [fst snd] in Hd, Hr. subst d2.
  rewrite (rlen_flat _ _ H), (rlen_flat _ _ Hr).
  destruct (rd_err d1) as [[]|]; try reflexivity;
    destruct (Nat.ltb (rlen s2) (rlen r2)); try reflexivity; now apply IH.
Qed.

Lemma read_all_flat bufsz r1 r2 : concat r1 = concat r2 -> read_all bufsz r1 = read_all bufsz r2.
Proof. intros H. unfold read_all. rewrite (rlen_flat _ _ H). now apply read_all_go_flat. Qed.

Lemma scan_flat r1 r2 : concat r1 = concat r2 ->
  fst (scan r1) = fst (scan r2) /\ concat (snd (scan r1)) = concat (snd (scan r2)).
Proof.
  intros H. unfold scan. destruct (pkt_read_flat MaxSizeN r1 r2 H) as [Hd Hr].
  destruct (pkt_read MaxSizeN r1) as [d1 s1], (pkt_read MaxSizeN r2) as [d2 s2]. cbn [fst snd] in Hd, Hr. subst d2.
  destruct (rd_err d1) as [[]|]; now cbn.
Qed.

Lemma scan_all_go_flat : forall fuel r1 r2 acc, concat r1 = concat r2 ->
  scan_all_go fuel r1 acc = scan_all_go fuel r2 acc.
Proof.
  induction fuel as [|f IH]; intros r1 r2 acc H; [reflexivity|].
  cbn [scan_all_go]. destruct (scan_flat r1 r2 H) as [Hd Hr].
  destruct (scan r1) as [d1 s1], (scan r2) as [d2 s2]. cbn [fst snd] in Hd, Hr. subst d2.
  destruct (sc_ok d1); [now apply IH|reflexivity].
Qed.

Lemma scan_all_flat r1 r2 : concat r1 = concat r2 -> scan_all r1 = scan_all r2.
Proof. intros H. unfold scan_all. rewrite (rlen_flat _ _ H). now apply scan_all_go_flat. Qed.

Lemma pkt_write_some p :
  (zlen p <= pktline_MaxPayloadSize)%Z ->
  pkt_write p = Some (if Nat.eqb (List.length p) 0 then emptyPkt else hex16 (zlen p + 4) ++ p).
Proof.
  intros H. unfold pkt_write. destruct (Nat.eqb (List.length p) 0); [reflexivity|].
  destruct (Z.gtb_spec (zlen p) pktline_MaxPayloadSize); [lia|reflexivity].
Qed.

Lemma pkt_write_none p : (zlen p > pktline_MaxPayloadSize)%Z -> pkt_write p = None.
Proof.
  intros H. unfold pkt_write.
  destruct (Nat.eqb_spec (List.length p) 0) as [E|E].
  { unfold zlen in H. rewrite E in H. unfold pktline_MaxPayloadSize in H. lia. }
  destruct (Z.gtb_spec (zlen p) pktline_MaxPayloadSize); [reflexivity|lia].
Qed.

(* what Read returns for packet p with a buffer of bufsz bytes *)
Definition rd_of_pkt (bufsz : nat) (p : pkt) : rd :=
  match p with
  | PFlush => mkrd 0 [] None
  | PDelim => mkrd 1 [] None
  | PResponseEnd => mkrd 2 [] None
  | PData b =>
    if Nat.eqb (List.length b) 0 then mkrd 4 [] None
    else if (zlen b + 4 >? Z.of_nat bufsz)%Z then rd_fail PEunexpected
    else mkrd (zlen b + 4) b (errline_of b)
  end.

Lemma firstn_app_exact {A} (a b : list A) n : List.length a = n -> firstn n (a ++ b) = a.
Proof. intros <-. rewrite firstn_app, Nat.sub_diag, firstn_all. cbn. apply app_nil_r. Qed.
Lemma skipn_app_exact {A} (a b : list A) n : List.length a = n -> skipn n (a ++ b) = b.
Proof. intros <-. rewrite skipn_app, Nat.sub_diag, skipn_all. reflexivity. Qed.

Lemma len_data len : (4 < len)%Z ->
  ((len =? pktline_Flush) || (len =? pktline_Delim) || (len =? pktline_ResponseEnd))%Z = false /\
  (len =? pktline_LenSize)%Z = false.
Proof. unfold pktline_Flush, pktline_Delim, pktline_ResponseEnd, pktline_LenSize. lia. Qed.

Ltac take_eqn r n h s Hf Hs :=
  pose proof (take_fst r n) as Hf; pose proof (take_snd r n) as Hs;
  destruct (take r n) as [h s]; cbn [fst snd] in Hf, Hs.

(* A frame is a 4-byte header announcing n followed by the n - 4 payload bytes
   pl (none for the special lengths 0, 1, 2 and for 0004).  This is what Read
   with a bufsz buffer, and PeekLine, return for it. *)
Definition rd_frame (bufsz : nat) (n : Z) (pl : bytes) : rd :=
  if (n <=? 4)%Z then mkrd n [] None
  else if (n >? Z.of_nat bufsz)%Z then rd_fail PEunexpected
  else mkrd n pl (errline_of pl).

Lemma pkt_read_frame bufsz r h n pl rest :
  (4 <= bufsz)%nat -> List.length h = 4%nat -> parse_length h = Some n ->
  List.length pl = Z.to_nat (n - 4) -> concat r = h ++ pl ++ rest ->
  fst (pkt_read bufsz r) = rd_frame bufsz n pl /\ concat (snd (pkt_read bufsz r)) = rest.
Proof.
  intros Hb Hh Hp Hl Hr. pose proof (parse_length_range _ _ Hp) as [Hn H3].
  unfold pkt_read, rd_frame. rewrite LenSizeN_eq.
  destruct (Nat.ltb_spec bufsz 4); [lia|].
  take_eqn r 4%nat hdr r1 Hf Hs. rewrite Hr in Hf, Hs.
  rewrite firstn_app_exact in Hf by assumption. rewrite skipn_app_exact in Hs by assumption. subst hdr.
  rewrite Hh, Hp. change (Nat.eqb 4 0) with false; change (Nat.ltb 4 4) with false; cbv iota.
  destruct (Z.leb_spec n 4).
  - destruct pl; [|cbn [List.length] in Hl; lia].
    destruct (Z.eqb_spec n pktline_LenSize); [now destruct (_ || _)|].
    replace (_ || _) with true; [auto|].
    unfold pktline_Flush, pktline_Delim, pktline_ResponseEnd, pktline_LenSize in *. lia.
  - destruct (len_data n) as [-> ->]; [assumption|]. change pktline_LenSize with 4%Z.
    take_eqn r1 (Z.to_nat (n - 4)) pl' r2 Hf2 Hs2. rewrite Hs, <- Hl in Hf2, Hs2.
    rewrite firstn_app_exact in Hf2 by reflexivity. rewrite skipn_app_exact in Hs2 by reflexivity. subst pl'.
    destruct (n >? Z.of_nat bufsz)%Z; [auto|].
    rewrite <- Hl, Nat.ltb_irrefl. destruct (Nat.eqb_spec (List.length pl) 0); [lia|auto].
Qed.

(* the bytes of one packet, when it is encodable *)
Definition pkt_ok (p : pkt) : bool :=
  match p with PData b => (zlen b <=? pktline_MaxPayloadSize)%Z | _ => true end.

Lemma enc_pkt_some_ok p e : enc_pkt p = Some e -> pkt_ok p = true.
Proof.
  destruct p as [b| | |]; cbn [pkt_ok enc_pkt]; auto. intros H.
  destruct (Z.leb_spec (zlen b) pktline_MaxPayloadSize); [reflexivity|].
  rewrite pkt_write_none in H by lia. discriminate.
Qed.

Lemma enc_pkt_some p : pkt_ok p = true -> exists e, enc_pkt p = Some e.
Proof.
  destruct p as [b| | |]; cbn [pkt_ok enc_pkt]; eauto.
  intros H%Z.leb_le. rewrite pkt_write_some by assumption. eauto.
Qed.

Lemma enc_pkt_frame p e : enc_pkt p = Some e ->
  exists h n pl, e = h ++ pl /\ List.length h = 4%nat /\ parse_length h = Some n /\
    List.length pl = Z.to_nat (n - 4) /\ forall bufsz, rd_of_pkt bufsz p = rd_frame bufsz n pl.
Proof.
  intros He. pose proof (enc_pkt_some_ok _ _ He) as Hok.
  destruct p as [b| | |]; cbn [enc_pkt] in He.
  2: exists flushPkt, 0%Z, []. 3: exists delimPkt, 1%Z, []. 4: exists responseEndPkt, 2%Z, [].
  2-4: injection He as <-; repeat split; reflexivity.
  apply Z.leb_le in Hok. rewrite pkt_write_some in He by assumption.
  unfold rd_of_pkt, rd_frame. destruct (Nat.eqb_spec (List.length b) 0) as [E|E].
  { exists emptyPkt, 4%Z, []. injection He as <-. repeat split; reflexivity. }
  exists (hex16 (zlen b + 4)), (zlen b + 4)%Z, b. unfold pktline_MaxPayloadSize, zlen in *.
  (* e = hex16 .. ++ b by congruence: injection on He would normalise hex16 *)
  repeat split; [congruence|apply parse_length_hex16; unfold pktline_MaxSize; lia|lia|].
  intros bufsz. destruct (Z.leb_spec (Z.of_nat (List.length b) + 4) 4); [lia|reflexivity].
Qed.

Lemma enc_pkt_length p e : enc_pkt p = Some e -> (4 <= List.length e)%nat.
Proof. intros (h & n & pl & -> & Hh & _)%enc_pkt_frame. rewrite app_length. lia. Qed.

Lemma pkt_read_enc bufsz r p e rest :
  (4 <= bufsz)%nat -> enc_pkt p = Some e -> concat r = e ++ rest ->
  fst (pkt_read bufsz r) = rd_of_pkt bufsz p /\ concat (snd (pkt_read bufsz r)) = rest.
Proof.
  intros Hb (h & n & pl & -> & Hh & Hp & Hl & ->)%enc_pkt_frame Hr.
  rewrite <- app_assoc in Hr. now apply pkt_read_frame with h.
Qed.

Lemma enc_pkts_cons p ps s :
  enc_pkts (p :: ps) = Some s -> exists e s', enc_pkt p = Some e /\ enc_pkts ps = Some s' /\ s = e ++ s'.
Proof.
  cbn [enc_pkts]. destruct (enc_pkt p) as [e|]; [|discriminate].
  destruct (enc_pkts ps) as [s'|]; [|discriminate]. intros [= <-]. eauto.
Qed.

Lemma rd_of_pkt_not_eof bufsz p : rd_err (rd_of_pkt bufsz p) <> Some PEeof.
Proof.
  destruct p as [b| | |]; cbn; try discriminate.
  destruct (Nat.eqb (List.length b) 0); [cbn; discriminate|].
  destruct (zlen b + 4 >? Z.of_nat bufsz)%Z; [cbn; discriminate|].
  cbn. unfold errline_of. destruct (has_prefix errPrefix b); discriminate.
Qed.

Lemma pkt_read_empty bufsz r : (4 <= bufsz)%nat -> concat r = [] ->
  fst (pkt_read bufsz r) = rd_fail PEeof.
Proof.
  intros Hb Hr. unfold pkt_read. rewrite LenSizeN_eq.
  destruct (Nat.ltb_spec bufsz 4); [lia|].
  take_eqn r 4%nat hdr r1 Hf Hs. rewrite Hr in Hf. cbn in Hf. subst hdr. reflexivity.
Qed.

Lemma read_all_go_enc bufsz : (4 <= bufsz)%nat -> forall ps fuel r acc s,
  enc_pkts ps = Some s -> concat r = s -> (List.length ps < fuel)%nat ->
  read_all_go fuel bufsz r acc = RAll (rev acc ++ map (rd_of_pkt bufsz) ps ++ [rd_fail PEeof]).
Proof.
  intros Hb. induction ps as [|p ps IH]; intros fuel r acc s He Hr Hf.
  - cbn in He. injection He as <-. destruct fuel as [|f]; [cbn in Hf; lia|].
    cbn [read_all_go]. pose proof (pkt_read_empty bufsz r Hb Hr) as Hd.
    destruct (pkt_read bufsz r) as [d r']. cbn [fst] in Hd. subst d. cbn. reflexivity.
  - apply enc_pkts_cons in He. destruct He as (e & s' & Hp & Hps & ->).
    destruct fuel as [|f]; [cbn in Hf; lia|]. cbn [read_all_go].
    destruct (pkt_read_enc bufsz r p e s' Hb Hp Hr) as [Hd Hrest].
    pose proof (enc_pkt_length _ _ Hp) as Hlen.
    destruct (pkt_read bufsz r) as [d r'] eqn:R. cbn [fst snd] in Hd, Hrest. subst d.
    (* the packet's bytes, at least its header, are consumed: the loop's progress test passes *)
    assert (rlen r' < rlen r)%nat as Hlt.
    { unfold rlen. rewrite Hrest, Hr, app_length. lia. }
    apply Nat.ltb_lt in Hlt. rewrite Hlt.
    pose proof (rd_of_pkt_not_eof bufsz p) as Hne.
    assert (read_all_go f bufsz r' (rd_of_pkt bufsz p :: acc)
            = RAll (rev acc ++ map (rd_of_pkt bufsz) (p :: ps) ++ [rd_fail PEeof])) as Hgo.
    { rewrite (IH f r' (rd_of_pkt bufsz p :: acc) s' Hps Hrest) by (cbn in Hf; lia).
      cbn [rev map]. rewrite <- !app_assoc. reflexivity. }
    destruct (rd_err (rd_of_pkt bufsz p)) as [[]|]; try exact Hgo. contradiction.
Qed.

Lemma enc_pkts_length ps s : enc_pkts ps = Some s -> (4 * List.length ps <= List.length s)%nat.
Proof.
  revert s. induction ps as [|p ps IH]; intros s H; [cbn; lia|].
  apply enc_pkts_cons in H. destruct H as (e & s' & Hp & Hps & ->).
  pose proof (enc_pkt_length _ _ Hp) as Hlen.
  specialize (IH _ Hps). rewrite app_length. cbn [List.length]. lia.
Qed.

Theorem read_all_enc bufsz ps s r :
  (4 <= bufsz)%nat -> enc_pkts ps = Some s -> concat r = s ->
  read_all bufsz r = RAll (map (rd_of_pkt bufsz) ps ++ [rd_fail PEeof]).
Proof.
  intros Hb He Hr. unfold read_all.
  rewrite (read_all_go_enc bufsz Hb ps _ r [] s He Hr); [reflexivity|].
  pose proof (enc_pkts_length _ _ He). unfold rlen. rewrite Hr. lia.
Qed.

(* the same for the Scanner loop: stops at the first error line *)
Definition no_errline (p : pkt) : bool :=
  match p with PData b => negb (has_prefix errPrefix b) | _ => true end.

Lemma rd_of_pkt_max p : pkt_ok p = true -> no_errline p = true ->
  rd_err (rd_of_pkt MaxSizeN p) = None /\
  rd_of_pkt MaxSizeN p =
    match p with
    | PData b => mkrd (if Nat.eqb (List.length b) 0 then 4 else zlen b + 4) b None
    | PFlush => mkrd 0 [] None | PDelim => mkrd 1 [] None | PResponseEnd => mkrd 2 [] None
    end.
Proof.
  destruct p as [b| | |]; cbn [pkt_ok no_errline rd_of_pkt]; intros Hok Hne; auto.
  destruct (Nat.eqb_spec (List.length b) 0) as [E|E].
  { destruct b; [auto|discriminate]. }
  apply Z.leb_le in Hok. unfold pktline_MaxPayloadSize in Hok.
  destruct (Z.gtb_spec (zlen b + 4) (Z.of_nat MaxSizeN)); [rewrite MaxSizeN_Z in *; lia|].
  unfold errline_of. apply negb_true_iff in Hne. rewrite Hne. auto.
Qed.

Lemma pkt_read_sound bufsz r d r' :
  pkt_read bufsz r = (d, r') ->
  (rd_err d = None \/ exists t, rd_err d = Some (PEerrline t)) ->
  exists n, parse_length (firstn 4 (concat r)) = Some n /\ rd_len d = n /\ (4 <= List.length (concat r))%nat /\
    (if (n <=? 4)%Z then rd_payload d = [] /\ concat r' = skipn 4 (concat r)
     else rd_payload d = firstn (Z.to_nat n - 4) (skipn 4 (concat r)) /\
          List.length (rd_payload d) = (Z.to_nat n - 4)%nat /\ (n <= Z.of_nat bufsz)%Z /\
          concat r' = skipn (Z.to_nat n) (concat r)).
Proof.
  unfold pkt_read. rewrite LenSizeN_eq. intros H Hok.
  (* the branches that return io.EOF, io.ErrUnexpectedEOF or ErrInvalidPktLen are excluded by Hok *)
  assert (forall e r0, (rd_fail e, r0) = (d, r') -> (forall t, e <> PEerrline t) -> False) as Hfail.
  { intros e r0 [= <- <-] He. destruct Hok as [Hok|[t Hok]]; [discriminate|]. injection Hok as ->. now apply (He t). }
  destruct (Nat.ltb bufsz 4); [now apply Hfail in H|].
  take_eqn r 4%nat hdr r1 Hf Hs.
  destruct (Nat.eqb (List.length hdr) 0); [now apply Hfail in H|].
  destruct (Nat.ltb_spec (List.length hdr) 4); [now apply Hfail in H|].
  assert (4 <= List.length (concat r))%nat as Hlen.
  { subst hdr. rewrite firstn_length in *. lia. }
  destruct (parse_length hdr) as [n|] eqn:Hp; [|now apply Hfail in H].
  pose proof (parse_length_range _ _ Hp) as [Hrange Hn3]. unfold pktline_MaxSize in Hrange.
  exists n. subst hdr. split; [assumption|].
  unfold pktline_Flush, pktline_Delim, pktline_ResponseEnd, pktline_LenSize in H.
  destruct ((n =? 0)%Z || (n =? 1)%Z || (n =? 2)%Z) eqn:Es.
  { injection H as <- <-. cbn. split; [reflexivity|]. split; [assumption|].
    destruct (Z.leb_spec n 4); [auto|lia]. }
  destruct (Z.eqb_spec n 4).
  { injection H as <- <-. cbn. subst n. cbn. auto. }
  assert (4 < n)%Z as Hn4 by lia.
  take_eqn r1 (Z.to_nat (n - 4)) pl r2 Hf2 Hs2.
  destruct (Z.gtb_spec n (Z.of_nat bufsz)); [now apply Hfail in H|].
  destruct (Nat.eqb (List.length pl) 0); [now apply Hfail in H|].
  destruct (Nat.ltb_spec (List.length pl) (Z.to_nat (n - 4))); [now apply Hfail in H|].
  injection H as <- <-. cbn [rd_len rd_payload]. split; [reflexivity|]. split; [assumption|].
  destruct (Z.leb_spec n 4); [lia|].
  replace (Z.to_nat n - 4)%nat with (Z.to_nat (n - 4)) by lia.
  rewrite Hs in Hf2, Hs2. subst pl. split; [reflexivity|]. split.
  { rewrite firstn_length in *. lia. }
  split; [lia|]. rewrite Hs2, skipn_skipn'. f_equal. lia.
Qed.

Lemma pkt_read_malformed bufsz r :
  (4 <= bufsz)%nat -> (4 <= List.length (concat r))%nat ->
  parse_length (firstn 4 (concat r)) = None ->
  fst (pkt_read bufsz r) = rd_fail PEinvalid /\ concat (snd (pkt_read bufsz r)) = skipn 4 (concat r).
Proof.
  intros Hb Hl Hp. unfold pkt_read. rewrite LenSizeN_eq.
  destruct (Nat.ltb_spec bufsz 4); [lia|].
  take_eqn r 4%nat hdr r1 Hf Hs. subst hdr.
  rewrite firstn_length, Nat.min_l by lia. change (Nat.eqb 4 0) with false; change (Nat.ltb 4 4) with false; cbv iota.
  rewrite Hp. now cbn.
Qed.

Lemma pkt_read_rlen bufsz r : (rlen (snd (pkt_read bufsz r)) <= rlen r)%nat.
Proof.
  (* every branch returns r, or what one or two takes have left of it *)
  unfold pkt_read. destruct (Nat.ltb bufsz LenSizeN); [cbn [snd]; lia|].
  pose proof (rlen_take r LenSizeN) as H1.
  destruct (take r LenSizeN) as [hdr r1]. cbn [snd] in H1.
  destruct (Nat.eqb (List.length hdr) 0); [cbn [snd]; lia|].
  destruct (Nat.ltb (List.length hdr) LenSizeN); [cbn [snd]; lia|].
  destruct (parse_length hdr) as [len|]; [|cbn [snd]; lia].
  destruct ((len =? pktline_Flush)%Z || (len =? pktline_Delim)%Z || (len =? pktline_ResponseEnd)%Z); [cbn [snd]; lia|].
  destruct (len =? pktline_LenSize)%Z; [cbn [snd]; lia|].
  pose proof (rlen_take r1 (Z.to_nat (len - pktline_LenSize))) as H2.
  destruct (take r1 (Z.to_nat (len - pktline_LenSize))) as [pl r2]. cbn [snd] in H2.
  destruct (len >? Z.of_nat bufsz)%Z; [cbn [snd]; lia|].
  destruct (Nat.eqb (List.length pl) 0); [cbn [snd]; lia|].
  destruct (Nat.ltb (List.length pl) (Z.to_nat (len - pktline_LenSize))); cbn [snd]; lia.
Qed.

Lemma read_all_go_total bufsz : forall fuel r acc, (rlen r < fuel)%nat -> read_all_go fuel bufsz r acc <> RFuel.
Proof.
  induction fuel as [|f IH]; intros r acc H; [lia|].
  cbn [read_all_go]. destruct (pkt_read bufsz r) as [d r'] eqn:R.
  assert (forall a, (if Nat.ltb (rlen r') (rlen r) then read_all_go f bufsz r' a else RAll (rev a)) <> RFuel) as K.
  { intros a. destruct (Nat.ltb_spec (rlen r') (rlen r)); [apply IH; lia|discriminate]. }
  destruct (rd_err d) as [[]|]; try apply K. discriminate.
Qed.

Theorem read_all_total bufsz r : read_all bufsz r <> RFuel.
Proof. unfold read_all. apply read_all_go_total. lia. Qed.

Lemma scan_ok_consumes r : sc_ok (fst (scan r)) = true -> (rlen (snd (scan r)) + 4 <= rlen r)%nat.
Proof.
  unfold scan. destruct (pkt_read MaxSizeN r) as [d r'] eqn:R.
  destruct (rd_err d) as [e|] eqn:E.
  { destruct e; cbn; discriminate. }
  intros _. cbn [snd].
  destruct (pkt_read_sound _ _ _ _ R (or_introl E)) as (n & Hp & _ & Hl & Hrest).
  pose proof (parse_length_range _ _ Hp) as [Hr _].
  unfold rlen. destruct (Z.leb_spec n 4).
  - destruct Hrest as [_ ->]. rewrite skipn_length. lia.
  - destruct Hrest as (Hpl & Hpl2 & _ & ->). rewrite skipn_length.
    rewrite Hpl, firstn_length, skipn_length in Hpl2. lia.
Qed.

Lemma scan_all_go_total : forall fuel r acc, (rlen r < fuel)%nat -> scan_all_go fuel r acc <> RFuel.
Proof.
  induction fuel as [|f IH]; intros r acc H; [lia|].
  cbn [scan_all_go]. pose proof (scan_ok_consumes r) as C.
  destruct (scan r) as [s r']. cbn [fst snd] in C.
  destruct (sc_ok s); [|discriminate]. apply IH. specialize (C eq_refl). lia.
Qed.

Theorem scan_all_total r : scan_all r <> RFuel.
Proof. unfold scan_all. apply scan_all_go_total. lia. Qed.

Lemma scan_ok r d : fst (pkt_read MaxSizeN r) = d -> rd_err d = None ->
  scan r = (mkscan true (rd_len d) (rd_payload d) None, snd (pkt_read MaxSizeN r)).
Proof. unfold scan. destruct (pkt_read MaxSizeN r) as [d' r']. cbn [fst snd]. now intros -> ->. Qed.

Lemma scan_all_go_enc : forall ps fuel r acc s,
  enc_pkts ps = Some s -> concat r = s -> forallb no_errline ps = true -> (List.length ps < fuel)%nat ->
  scan_all_go fuel r acc = RAll (rev acc ++ map (rd_of_pkt MaxSizeN) ps ++ [mkrd (-1) [] None]).
Proof.
  pose proof MaxSizeN_ge4 as Hb.
  induction ps as [|p ps IH]; intros fuel r acc s He Hr Hne Hf.
  - cbn in He. injection He as <-. destruct fuel as [|f]; [cbn in Hf; lia|].
    cbn [scan_all_go]. unfold scan. pose proof (pkt_read_empty MaxSizeN r Hb Hr) as Hd.
    destruct (pkt_read MaxSizeN r) as [d r']. cbn [fst] in Hd. subst d. cbn. reflexivity.
  - apply enc_pkts_cons in He. destruct He as (e & s' & Hp & Hps & ->).
    cbn [forallb] in Hne. apply andb_prop in Hne. destruct Hne as [Hn1 Hn2].
    destruct fuel as [|f]; [cbn in Hf; lia|]. cbn [scan_all_go].
    destruct (pkt_read_enc MaxSizeN r p e s' Hb Hp Hr) as [Hd Hrest].
    destruct (rd_of_pkt_max p (enc_pkt_some_ok _ _ Hp) Hn1) as [Herr _].
    rewrite (scan_ok _ _ Hd Herr). cbn [sc_ok]. unfold rd_of_scan. cbn [sc_len sc_bytes sc_err].
    rewrite (IH f _ _ s' Hps Hrest Hn2) by (cbn in Hf; lia).
    cbn [rev map]. rewrite <- !app_assoc. cbn [app].
    replace (mkrd (rd_len (rd_of_pkt MaxSizeN p)) (rd_payload (rd_of_pkt MaxSizeN p)) None) with (rd_of_pkt MaxSizeN p);
      [reflexivity|]. rewrite <- Herr. destruct (rd_of_pkt MaxSizeN p); reflexivity.
Qed.

Theorem scan_all_enc ps s r :
  enc_pkts ps = Some s -> concat r = s -> forallb no_errline ps = true ->
  scan_all r = RAll (map (rd_of_pkt MaxSizeN) ps ++ [mkrd (-1) [] None]).
Proof.
  intros He Hr Hne. unfold scan_all.
  rewrite (scan_all_go_enc ps _ r [] s He Hr Hne); [reflexivity|].
  pose proof (enc_pkts_length _ _ He). unfold rlen. rewrite Hr. lia.
Qed.

Fixpoint decode_items (l : list rd) : option (list pkt) :=
  match l with
  | [] => None
  | d :: r =>
    match r with
    | [] => match rd_err d with Some PEeof => Some [] | _ => None end
    | _ :: _ =>
      match rd_err d, pkt_of_rd d, decode_items r with
      | None, Some p, Some ps => Some (p :: ps)
      | _, _, _ => None
      end
    end
  end.

Definition decode_pkts (a : rall) : option (list pkt) :=
  match a with RAll l => decode_items l | RFuel => None end.

Lemma pkt_of_rd_max p : pkt_ok p = true -> no_errline p = true ->
  rd_err (rd_of_pkt MaxSizeN p) = None /\ pkt_of_rd (rd_of_pkt MaxSizeN p) = Some p.
Proof.
  intros Hok Hne. destruct (rd_of_pkt_max p Hok Hne) as [He Hrd]. split; [assumption|]. rewrite Hrd.
  destruct p as [b| | |]; try reflexivity.
  unfold pkt_of_rd, pktline_Flush, pktline_Delim, pktline_ResponseEnd, pktline_LenSize. cbn [rd_len rd_payload].
  pose proof (Zle_0_nat (List.length b)). fold (zlen b) in H.
  destruct (Nat.eqb (List.length b) 0); [reflexivity|].
  destruct (Z.eqb_spec (zlen b + 4) 0); [lia|]. destruct (Z.eqb_spec (zlen b + 4) 1); [lia|].
  destruct (Z.eqb_spec (zlen b + 4) 2); [lia|]. destruct (Z.geb_spec (zlen b + 4) 4); [reflexivity|lia].
Qed.

Lemma decode_items_enc : forall ps, forallb pkt_ok ps = true -> forallb no_errline ps = true ->
  decode_items (map (rd_of_pkt MaxSizeN) ps ++ [rd_fail PEeof]) = Some ps.
Proof.
  induction ps as [|p ps IH]; intros Hok Hne; [reflexivity|].
  cbn [forallb] in Hok, Hne. apply andb_prop in Hok, Hne. destruct Hok as [Ho1 Ho2], Hne as [Hn1 Hn2].
  destruct (pkt_of_rd_max p Ho1 Hn1) as [He Hp]. specialize (IH Ho2 Hn2).
  cbn [map app decode_items]. rewrite He, Hp.
  destruct (map (rd_of_pkt MaxSizeN) ps ++ [rd_fail PEeof]) as [|x l] eqn:E.
  { destruct ps; discriminate. }
  rewrite IH. reflexivity.
Qed.

Lemma enc_pkts_ok ps s : enc_pkts ps = Some s -> forallb pkt_ok ps = true.
Proof.
  revert s. induction ps as [|p ps IH]; intros s H; [reflexivity|].
  apply enc_pkts_cons in H. destruct H as (e & s' & Hp & Hps & _).
  cbn [forallb]. rewrite (enc_pkt_some_ok _ _ Hp), (IH _ Hps). reflexivity.
Qed.

Lemma enc_pkts_some ps : forallb pkt_ok ps = true -> exists s, enc_pkts ps = Some s.
Proof.
  induction ps as [|p ps IH]; intros H; [now exists []|].
  cbn [forallb] in H. apply andb_prop in H. destruct H as [H1 H2].
  destruct (enc_pkt_some p H1) as [e He]. destruct (IH H2) as [s Hs].
  exists (e ++ s). cbn [enc_pkts]. now rewrite He, Hs.
Qed.

Definition clean_text (text : bytes) : bool :=
  match text with
  | [] => true
  | c :: _ => negb (is_space c) && negb (is_space (last text 0%N))
  end.

Lemma trim_left_nonspace c r : is_space c = false -> trim_left (c :: r) = c :: r.
Proof. intros H. cbn [trim_left]. now rewrite H. Qed.

Lemma trim_clean text : clean_text text = true -> trim_space (text ++ [NL]) = text.
Proof.
  unfold clean_text, trim_space. destruct text as [|c t]; [reflexivity|].
  intros H. apply andb_prop in H. destruct H as [H1 H2]. apply negb_true_iff in H1, H2.
  cbn [app]. rewrite (trim_left_nonspace c _ H1).
  (* from the right, trim_left drops the NL and stops at the last byte of text *)
  change (c :: t ++ [NL]) with ((c :: t) ++ [NL]). rewrite rev_app_distr. cbn [rev app].
  change (trim_left (NL :: rev t ++ [c])) with (trim_left (rev t ++ [c])).
  change (rev t ++ [c]) with (rev (c :: t)).
  destruct (rev (c :: t)) as [|x l] eqn:E.
  { apply (f_equal (@List.length N)) in E. rewrite rev_length in E. discriminate. }
  assert (last (c :: t) 0%N = x) as Hx.
  { rewrite <- (rev_involutive (c :: t)), E. cbn [rev]. apply last_last. }
  rewrite Hx in H2. rewrite (trim_left_nonspace x l H2), <- E. apply rev_involutive.
Qed.

Lemma errline_of_err text : errline_of (err_payload text) = Some (PEerrline (trim_space (text ++ [NL]))).
Proof. reflexivity. Qed.
