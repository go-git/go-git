(* Proofs/C10Splits.v — consecutive chunks of a table (the per-fanout-bucket
   arrays of MemoryIndex): sequential reads of the chunks, the chunk of the
   k-th first byte, counts derived from a non-decreasing fanout. *)
From Coq Require Import List NArith Bool Lia ZifyBool ZifyNat ZifyN.
From GoGit Require Import Base.Out Model.PackBytes Model.Idx Proofs.C10Bytes Proofs.C10Table.
Import ListNotations.
Local Open Scope N_scope.

Fixpoint splits {A} (sizes : list nat) (l : list A) : list (list A) :=
  match sizes with
  | [] => []
  | s :: r => firstn s l :: splits r (skipn s l)
  end.

Fixpoint nsum (l : list nat) : nat := match l with [] => 0%nat | x :: r => (x + nsum r)%nat end.

Lemma splits_length {A} sizes (l : list A) : List.length (splits sizes l) = List.length sizes.
Proof. revert l. induction sizes as [|s r IH]; intros l; cbn; [reflexivity|]. now rewrite IH. Qed.

Lemma splits_incl {A} : forall sizes (l : list A) g x, In g (splits sizes l) -> In x g -> In x l.
Proof.
  induction sizes as [|s r IH]; intros l g x Hg Hx; cbn [splits] in Hg; [contradiction|].
  destruct Hg as [<-|Hg].
  - rewrite <- (firstn_skipn s l). apply in_or_app. now left.
  - rewrite <- (firstn_skipn s l). apply in_or_app. right. eapply IH; eauto.
Qed.

Lemma flat_map_firstn_skipn {A} (f : A -> bytes) (l : list A) s :
  flat_map f l = flat_map f (firstn s l) ++ flat_map f (skipn s l).
Proof. rewrite <- flat_map_app. now rewrite firstn_skipn. Qed.

(* consecutive io.ReadFull of the chunks of a table of fixed-width records *)
Lemma read_seq_splits {A} (f : A -> bytes) k : forall sizes (l : list A) rest,
  (forall x, In x l -> blen (f x) = k) -> nsum sizes = List.length l ->
  read_seq (map (fun s => N.of_nat s * k) sizes) (flat_map f l ++ rest)
  = Some (map (flat_map f) (splits sizes l), rest).
Proof.
  induction sizes as [|s r IH]; intros l rest Hk Hs; cbn [map read_seq splits].
  - destruct l; [reflexivity|discriminate].
  - cbn [nsum] in Hs. rewrite <- (firstn_skipn s l) in Hk.
    rewrite (flat_map_firstn_skipn f l s), <- app_assoc, take_app_n.
    + rewrite IH; [reflexivity| |rewrite skipn_length; lia]. intros x Hx. apply Hk, in_or_app. now right.
    + rewrite (blen_flat_map f k), firstn_length; [lia|]. intros x Hx. apply Hk, in_or_app. now left.
Qed.

Lemma last_cons {A} (r : list A) : forall x d, last (x :: r) d = last r x.
Proof.
  induction r as [|y r IH]; intros x d; [reflexivity|].
  change (last (x :: y :: r) d) with (last (y :: r) d). now rewrite !IH.
Qed.

Lemma nondecN_last : forall r f, nondecN f r -> f <= last r f.
Proof.
  induction r as [|x r IH]; intros f Hn; [cbn; lia|].
  destruct Hn as [H1 H2]. specialize (IH x H2). rewrite last_cons. lia.
Qed.

Lemma bucket_counts_sum : forall fo prev,
  nondecN prev fo -> fold_right N.add 0 (bucket_counts fo prev) = last fo prev - prev.
Proof.
  induction fo as [|f r IH]; intros prev Hn; cbn [bucket_counts fold_right]; [cbn; lia|].
  destruct Hn as [Hp Hn]. rewrite (IH f Hn), last_cons. pose proof (nondecN_last r f Hn). lia.
Qed.

Lemma skipn_add {A} : forall b a (l : list A), skipn a (skipn b l) = skipn (b + a) l.
Proof.
  induction b as [|b IH]; intros a l; [reflexivity|].
  destruct l as [|x l]; cbn [skipn plus]; [now destruct a|]. apply IH.
Qed.

Lemma nth_firstn_skipn {A} (l : list A) p c i d :
  (i < c)%nat -> nth i (firstn c (skipn p l)) d = nth (p + i) l d.
Proof.
  intros Hi. revert l. induction p as [|p IH]; intros l; cbn [skipn plus].
  - revert c l Hi. induction i as [|i IHi]; intros [|c] [|x l] Hi; try lia; cbn [firstn nth]; auto.
    apply IHi. lia.
  - destruct l as [|x l]; [now destruct c, i|apply IH].
Qed.

Definition seg {A} (l : list A) (p c : N) : list A := firstn (N.to_nat c) (skipn (N.to_nat p) l).

Lemma seg_nth {A} (l : list A) p c i d : i < c -> nth (N.to_nat i) (seg l p c) d = nth (N.to_nat (p + i)) l d.
Proof. intros Hi. unfold seg. rewrite nth_firstn_skipn by lia. f_equal. lia. Qed.

Lemma seg_len {A} (l : list A) p c : p + c <= N.of_nat (List.length l) -> N.of_nat (List.length (seg l p c)) = c.
Proof. intros H. unfold seg. rewrite firstn_length, skipn_length. lia. Qed.

Lemma seg_in {A} (l : list A) p c x : In x (seg l p c) -> In x l.
Proof.
  unfold seg. intros Hx. rewrite <- (firstn_skipn (N.to_nat p) l). apply in_or_app. right.
  rewrite <- (firstn_skipn (N.to_nat c) (skipn (N.to_nat p) l)). apply in_or_app. now left.
Qed.

(* the bucket of the k-th count: FanoutMapping and the chunk *)
Definition nz_sizes (cs : list N) : list nat := map N.to_nat (filter (fun c => negb (c =? 0)) cs).

Lemma nz_sizes_sum cs : N.of_nat (nsum (nz_sizes cs)) = fold_right N.add 0 cs.
Proof.
  unfold nz_sizes. induction cs as [|c r IH]; cbn [filter map nsum fold_right]; [reflexivity|].
  destruct (c =? 0) eqn:E; cbn [negb map nsum]; lia.
Qed.

Lemma bucket_of_count {A} : forall cs (l : list A) next k ck,
  nth_error cs k = Some ck -> ck <> 0 ->
  exists r, nth k (fmap_of_counts cs next) None = Some (next + r) /\
            nth (N.to_nat r) (splits (nz_sizes cs) l) []
            = firstn (N.to_nat ck) (skipn (N.to_nat (fold_right N.add 0 (firstn k cs))) l) /\
            r < N.of_nat (List.length (nz_sizes cs)).
Proof.
  induction cs as [|c cs IH]; intros l next k ck Hk Hne; [destruct k; discriminate|].
  unfold nz_sizes in *. destruct k as [|k]; cbn [nth_error] in Hk.
  - inversion Hk; subst c. cbn [fmap_of_counts filter].
    replace (ck =? 0) with false by lia. cbn [negb nth map splits firstn fold_right].
    exists 0. rewrite N.add_0_r. cbn [N.to_nat nth skipn List.length]. repeat split; lia.
  - cbn [fmap_of_counts filter firstn fold_right]. destruct (c =? 0) eqn:Ec.
    + cbn [negb nth]. destruct (IH l next k ck Hk Hne) as (r & R1 & R2 & R3).
      exists r. apply N.eqb_eq in Ec. subst c. rewrite N.add_0_l. auto.
    + cbn [negb nth map splits List.length].
      destruct (IH (skipn (N.to_nat c) l) (next + 1) k ck Hk Hne) as (r & R1 & R2 & R3).
      exists (r + 1). repeat split.
      * rewrite R1. f_equal. lia.
      * replace (N.to_nat (r + 1)) with (S (N.to_nat r)) by lia. cbn [nth]. rewrite R2.
        rewrite skipn_add. do 2 f_equal. lia.
      * lia.
Qed.

Lemma fmap_of_counts_zero : forall cs next k,
  nth_error cs k = Some 0 -> nth k (fmap_of_counts cs next) None = None.
Proof.
  induction cs as [|c cs IH]; intros next k Hk; [destruct k; discriminate|].
  destruct k as [|k]; cbn [nth_error] in Hk; cbn [fmap_of_counts].
  - inversion Hk; subst. reflexivity.
  - destruct (c =? 0); cbn [nth]; now apply IH.
Qed.

Lemma zip_buckets_nth : forall (ns cs os : list bytes) i,
  List.length ns = List.length cs -> List.length ns = List.length os -> (i < List.length ns)%nat ->
  nth i (zip_buckets ns cs os) emptyB = mkB (nth i ns []) (nth i os []) (nth i cs []).
Proof.
  induction ns as [|x ns IH]; intros cs os i H1 H2 Hi; cbn in Hi; [lia|].
  destruct cs as [|c cs]; [discriminate|]. destruct os as [|o os]; [discriminate|].
  destruct i as [|i]; cbn [zip_buckets nth]; [reflexivity|].
  apply IH; cbn in *; lia.
Qed.

Lemma zip_buckets_length : forall (ns cs os : list bytes),
  List.length ns = List.length cs -> List.length ns = List.length os ->
  List.length (zip_buckets ns cs os) = List.length ns.
Proof.
  induction ns as [|x ns IH]; intros cs os H1 H2; [reflexivity|].
  destruct cs as [|c cs]; [discriminate|]. destruct os as [|o os]; [discriminate|].
  cbn [zip_buckets List.length]. f_equal. apply IH; cbn in *; lia.
Qed.
