(* Proofs/C49Anc.v — inside the fragment go-git's verdict is EXACTLY git's
   algorithm in which a pattern also matches everything below what it matches:
   the only way the two can differ there is a negated pattern that matches an
   ancestor directory (the known finding negated-ancestor). *)
From Coq Require Import List NArith Bool Lia PeanoNat.
From GoGit Require Import Base.Out Model.Gitignore Spec.Glob Spec.PathGlob Spec.GitIgnore
     Proofs.C49Total Proofs.C49Wild Proofs.C49Names Proofs.C49Walk Proofs.C49Lines Proofs.C49Wide
     Proofs.C49Frag.
Import ListNotations.
Local Open Scope N_scope.

(* git's pattern, extended to the descendants of what it matches: the path or
   one of its ancestor directories below the pattern's base is matched *)
Definition gpat_match_anc (g : gpat) (path : list bytes) (isdir : bool) : bool :=
  existsb (fun k => gpat_match g (firstn k path) (dirflag k (List.length path) isdir))
          (seq (S (List.length (g_base g))) (List.length path - List.length (g_base g))).

Fixpoint glast_rev_a (gs : list gpat) (path : list bytes) (isdir : bool) : option bool :=
  match gs with
  | [] => None
  | g :: r => if gpat_match_anc g path isdir then Some (g_neg g) else glast_rev_a r path isdir
  end.
Definition glast_a (gs : list gpat) (path : list bytes) (isdir : bool) : option bool :=
  glast_rev_a (rev gs) path isdir.

(* Spec/GitIgnore.gwalk with gpat_match_anc in the place of gpat_match *)
Fixpoint gwalk_a (fs : files) (gs : list gpat) (pre rest : list bytes) (path : list bytes) (isdir : bool) : bool :=
  let gs' := match file_at fs pre with Some c => gs ++ gread c pre | None => gs end in
  match rest with
  | [] => false
  | [e] => match glast_a gs' path isdir with Some neg => negb neg | None => false end
  | e :: rest' =>
    let dir := pre ++ [e] in
    match glast_a gs' dir true with
    | Some false => true
    | _ => gwalk_a fs gs' dir rest' path isdir
    end
  end.

Definition git_anc_ignored (excl : option bytes) (fs : files) (path : list bytes) (isdir : bool) : bool :=
  gwalk_a fs (match excl with Some c => gread c [] | None => [] end) [] path path isdir.

Lemma existsb_seq_shift (f : nat -> bool) a n :
  existsb f (seq (S a) n) = true <-> exists k, (0 < k <= n)%nat /\ f (a + k)%nat = true.
Proof.
  rewrite existsb_exists. split.
  - intros (x & Hin & Hf). apply in_seq in Hin. exists (x - a)%nat. split; [lia|].
    replace (a + (x - a))%nat with x by lia. exact Hf.
  - intros (k & Hk & Hf). exists (a + k)%nat. split; [apply in_seq; lia|exact Hf].
Qed.

Lemma coh_anc p g rel flag : coh ok_path p g -> rel <> [] -> path_ok rel = true ->
  (pat_match p (p_dom p ++ rel) flag <> NoMatch <-> gpat_match_anc g (p_dom p ++ rel) flag = true).
Proof.
  intros (Hb & _ & Hc) Hne Hok. rewrite (Hc rel flag Hne Hok).
  unfold gpat_match_anc. rewrite Hb, app_length.
  replace (List.length (p_dom p) + List.length rel - List.length (p_dom p))%nat with (List.length rel) by lia.
  rewrite existsb_seq_shift.
  assert (E : forall k, dirflag (List.length (p_dom p) + k) (List.length (p_dom p) + List.length rel) flag =
                        dirflag k (List.length rel) flag).
  { intros k. unfold dirflag.
    destruct (Nat.eqb_spec k (List.length rel)), (Nat.eqb_spec (List.length (p_dom p) + k) (List.length (p_dom p) + List.length rel));
      (reflexivity || lia). }
  split; intros (k & Hk & H); exists k; (split; [exact Hk|]);
    [rewrite firstn_app_2, E|rewrite firstn_app_2, E in H]; exact H.
Qed.

Lemma gwalk_a_unfold fs gs pre rest path isdir :
  gwalk_a fs gs pre rest path isdir =
  let gs' := gs ++ git_file fs pre in
  match rest with
  | [] => false
  | [e] => match glast_a gs' path isdir with Some neg => negb neg | None => false end
  | e :: rest' => match glast_a gs' (pre ++ [e]) true with
                  | Some false => true
                  | _ => gwalk_a fs gs' (pre ++ [e]) rest' path isdir
                  end
  end.
Proof.
  destruct rest as [|e [|e2 r]]; cbn [gwalk_a]; unfold git_file;
    destruct (file_at fs pre); rewrite ?app_nil_r; reflexivity.
Qed.

(* a pair in scope in directory pre: coherent, based at an ancestor of pre (or
   pre).  Unlike C49Walk.cohI it records nothing about the directories in
   between: gpat_match_anc tests them itself *)
Definition cohD (pre : list bytes) (p : pat) (g : gpat) : Prop :=
  coh ok_path p g /\ exists x, pre = p_dom p ++ x.

Lemma anc_walk fs path isdir : files_coh ok_path fs -> path_ok path = true ->
  forall rest pre ps gs, path = pre ++ rest ->
    Forall2 (cohD pre) ps gs ->
    gw fs ps pre rest path isdir = gwalk_a fs gs pre rest path isdir.
Proof.
  intros Hfc Hok. induction rest as [|e rest IH]; intros pre ps gs Hpath HF.
  { rewrite gwalk_a_unfold. reflexivity. }
  rewrite gwalk_a_unfold. cbv zeta.
  set (ps' := ps ++ go_file fs pre). set (gs' := gs ++ git_file fs pre).
  assert (HF' : Forall2 (cohD pre) ps' gs').
  { apply Forall2_app; [exact HF|].
    refine (Forall2_imp _ _ _ _ _ (Hfc pre)). intros p g _ [Hc Hd].
    split; [exact Hc|]. exists []. now rewrite Hd, app_nil_r. }
  assert (Hdec : forall d, same_verdict (decision ps' (pre ++ [e]) d) (glast_a gs' (pre ++ [e]) d)).
  { intros d. apply (decision_agree gpat_match_anc glast_rev_a); [reflexivity|reflexivity|].
    refine (Forall2_imp _ _ _ _ _ HF'). intros p g _ [Hc (x & Hx)].
    split; [destruct Hc as (_ & Hn & _); exact Hn|].
    rewrite Hx, <- app_assoc. apply coh_anc; [exact Hc|destruct x; discriminate|].
    apply (path_ok_seg (p_dom p) _ rest). unfold ok_path.
    rewrite Hpath, Hx in Hok. now rewrite <- !app_assoc in Hok |- *. }
  destruct rest as [|e2 r].
  - cbn [gw]. fold ps'. rewrite matcher_decision.
    assert (Hp : path = pre ++ [e]) by exact Hpath.
    rewrite Hp, (Hdec isdir). now destruct (decision ps' (pre ++ [e]) isdir).
  - rewrite gw_step. fold ps'.
    rewrite matcher_decision, (Hdec true).
    assert (Hnext : gw fs ps' (pre ++ [e]) (e2 :: r) path isdir = gwalk_a fs gs' (pre ++ [e]) (e2 :: r) path isdir).
    { apply IH; [rewrite Hpath, <- app_assoc; reflexivity|].
      refine (Forall2_imp _ _ _ _ _ HF'). intros p g _ [Hc (x & Hx)].
      split; [exact Hc|]. exists (x ++ [e]). now rewrite Hx, app_assoc. }
    now destruct (decision ps' (pre ++ [e]) true).
Qed.

Theorem anc_eq_git excl fs path isdir :
  wide_case excl fs = true -> path_ok path = true ->
  ignored excl fs path isdir = git_anc_ignored excl fs path isdir.
Proof.
  intros Hn Hok.
  destruct (wide_casew_coh wide_line ok_path wide_line_coh _ _ Hn) as [Hfc Hex].
  rewrite ignored_gw. apply anc_walk; try assumption; [reflexivity|].
  refine (Forall2_imp _ _ _ _ _ Hex). intros p g _ [Hc Hd]. split; [exact Hc|]. exists []. now rewrite Hd.
Qed.
