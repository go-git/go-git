(* Proofs/C31Flows.v — the callers (checkout, add, status hashing) against
   git's convert.c, for every chunking of the copy.  Both sides are first
   brought to the same decision: binary?  CRLF present?  then which loop. *)
From Coq Require Import List NArith Lia Bool ZifyBool.
From GoGit Require Import Base.Out Model.Eol Spec.GitConvert Proofs.C31Stat Proofs.C31Writers.
Import ListNotations.
Local Open Scope N_scope.

Lemma stats_lonecr bs : s_lonecr (git_stats bs) = s_lonecr (git_gather bs).
Proof. unfold git_stats. destruct (last bs 0 =? SUB); reflexivity. Qed.
Lemma stats_crlf bs : s_crlf (git_stats bs) = s_crlf (git_gather bs).
Proof. unfold git_stats. destruct (last bs 0 =? SUB); reflexivity. Qed.
Lemma stats_lonelf bs : s_lonelf (git_stats bs) = s_lonelf (git_gather bs).
Proof. unfold git_stats. destruct (last bs 0 =? SUB); reflexivity. Qed.

(* every CR is counted once, as lone or in a pair *)
Lemma cr_count bs : forall h,
  N.of_nat (List.length (strip_cr bs)) + s_lonecr (pend h bs) + s_crlf (pend h bs) =
  N.of_nat (List.length bs) + (if h then 1 else 0).
Proof.
  induction bs as [|c r IH]; intros h; [now destruct h|].
  rewrite pend_cons, strip_cr_cons. specialize (IH (c =? CR)).
  destruct (byte_stat_fields h c) as [E _]. cbn [sadd s_lonecr s_crlf].
  destruct (c =? CR); cbn [List.length]; lia.
Qed.

(* zero counters read back as structure (h: a CR is pending before bs, as in pend) *)
Lemma pend_nocr bs : forall h,
  s_lonecr (pend h bs) = 0 -> s_crlf (pend h bs) = 0 -> h = false /\ has_cr bs = false.
Proof.
  induction bs as [|c r IH]; intros h H1 H2; [now destruct h|].
  rewrite pend_cons in H1, H2. cbn [sadd s_lonecr s_crlf] in H1, H2.
  destruct (byte_stat_fields h c) as [E _].
  destruct (IH (c =? CR)) as [Hc Hr]; [lia|lia|].
  cbn [has_cr existsb]. rewrite Hc. destruct h; [lia|now split].
Qed.

Lemma pend_lcf bs : forall h, s_lonecr (pend h bs) = 0 -> lcf (if h then CR :: bs else bs) = true.
Proof.
  induction bs as [|c r IH]; intros h H; [now destruct h|].
  rewrite pend_cons in H. cbn [sadd s_lonecr] in H.
  assert (IH' : lcf (if c =? CR then CR :: r else r) = true) by (apply IH; lia).
  destruct h.
  - rewrite lcf_cons2. change (CR =? CR) with true. cbn iota. revert H. unfold byte_stat.
    destruct (N.eqb_spec c LF) as [->|_]; [intros _; exact IH'|].
    cbn [sadd s_lonecr fincr stat0]. lia.
  - revert IH'. cbn [lcf]. now destruct (c =? CR).
Qed.

Lemma pend_alf bs : forall h, s_lonelf (pend h bs) = 0 -> alf h bs = true.
Proof.
  induction bs as [|c r IH]; intros h H; [reflexivity|].
  rewrite pend_cons in H. cbn [sadd s_lonelf] in H. cbn [alf]. revert H. unfold byte_stat.
  destruct (N.eqb_spec c LF) as [->|_]; intros H; [|apply IH; lia].
  destruct h; cbn [s_lonelf] in H; [|lia]. apply (IH false). change (LF =? CR) with false in H. lia.
Qed.

Lemma strip_nocr bs : has_cr bs = false -> strip_cr bs = bs.
Proof.
  induction bs as [|a l IH]; [reflexivity|].
  cbn [has_cr existsb]. intros [Ha H]%orb_false_iff. rewrite strip_cr_cons, Ha, (IH H). reflexivity.
Qed.

Lemma nocr_stats bs : has_cr bs = false -> s_lonecr (git_gather bs) = 0 /\ s_crlf (git_gather bs) = 0.
Proof.
  intros H. pose proof (cr_count bs false) as C. rewrite (strip_nocr bs H) in C. cbn [pend] in C. lia.
Qed.

Lemma not_binary_lonecr s : git_is_binary s = false -> s_lonecr s = 0.
Proof. unfold git_is_binary. destruct (0 <? s_lonecr s) eqn:E; [discriminate|lia]. Qed.

(* text (not binary) has no lone CR *)
Lemma text_lcf bs : git_is_binary (git_stats bs) = false -> lcf bs = true.
Proof. intros B%not_binary_lonecr. rewrite stats_lonecr in B. exact (pend_lcf bs false B). Qed.

(* both sides leave binary content and text with CRLF alone *)
Definition text_crlf (bs : bytes) : bool :=
  let s := git_stats bs in negb (git_is_binary s) && (0 <? s_crlf s).

(* all other content has no CR at all *)
Lemma text_nocr bs : git_is_binary (git_stats bs) = false -> text_crlf bs = false -> has_cr bs = false.
Proof.
  unfold text_crlf. cbv zeta. intros B T. rewrite B, stats_crlf in T.
  apply not_binary_lonecr in B. rewrite stats_lonecr in B. apply (pend_nocr bs false B). cbn [pend]. lia.
Qed.

Lemma nocr_text bs : has_cr bs = false -> text_crlf bs = false.
Proof.
  intros [_ E]%nocr_stats. unfold text_crlf. cbv zeta. rewrite stats_crlf, E. apply andb_false_r.
Qed.

Lemma ac_false_or ac : ac = ACFalse \/ ac <> ACFalse.
Proof. destruct ac; auto; right; discriminate. Qed.

Lemma get_stat_crlf bs : short bs = true -> s_crlf (get_stat bs) = s_crlf (git_stats bs).
Proof. intros H. rewrite <- get_stat_git by assumption. reflexivity. Qed.

Lemma crlf_test bs :
  git_is_binary (git_stats bs) = false -> negb (s_crlf (git_stats bs) =? 0) = text_crlf bs.
Proof.
  intros B. unfold text_crlf. cbv zeta. rewrite B.
  destruct (N.eqb_spec (s_crlf (git_stats bs)) 0) as [->|]; [reflexivity|]. symmetry. cbn. lia.
Qed.

(* copyObjectToWorktree: the CRLF writer only ever sees CR-free text *)
Lemma checkout_true chunks :
  let blob := List.concat chunks in
  short blob = true ->
  checkout_conv ACTrue chunks =
  Some (if git_is_binary (git_stats blob) || text_crlf blob then blob else git_lf_to_crlf false blob).
Proof.
  intros blob Hs. unfold checkout_conv. cbv zeta. fold blob.
  rewrite is_binary_get_stat, get_stat_crlf by assumption.
  destruct (git_is_binary (git_stats blob)) eqn:B; [reflexivity|].
  rewrite (crlf_test _ B). cbn [orb]. destruct (text_crlf blob) eqn:T; [reflexivity|].
  rewrite crlf_writer_nocr by now apply text_nocr. reflexivity.
Qed.

Lemma will_convert_binary s : git_is_binary s = true -> git_will_convert s = false.
Proof.
  intros H. unfold git_will_convert. rewrite H.
  now destruct (s_lonelf s =? 0), ((0 <? s_lonecr s) || (0 <? s_crlf s)).
Qed.

(* will_convert_lf_to_crlf, the same way round; without a lone LF the loop changes nothing *)
Lemma git_checkout_true blob :
  git_checkout ACTrue blob =
  if git_is_binary (git_stats blob) || text_crlf blob then blob else git_lf_to_crlf false blob.
Proof.
  destruct blob as [|b0 r]; [reflexivity|]. unfold git_checkout, text_crlf. cbv zeta.
  set (blob := b0 :: r). pose proof (stats_lonelf blob) as L. set (s := git_stats blob) in *.
  destruct (git_is_binary s) eqn:B; [now rewrite will_convert_binary|].
  unfold git_will_convert. rewrite B, (not_binary_lonecr _ B). change (0 <? 0) with false.
  cbn [orb negb andb]. destruct (0 <? s_crlf s); [now destruct (s_lonelf s =? 0)|].
  destruct (N.eqb_spec (s_lonelf s) 0) as [L0|_]; [|reflexivity].
  symmetry. apply git_lf_to_crlf_alf, pend_alf. cbn [pend]. congruence.
Qed.

(* crlf_to_git: text without CRLF has no CR, so stripping it is the identity *)
Lemma git_add_on ac prior file :
  ac <> ACFalse ->
  git_add ac prior file =
  if git_is_binary (git_stats file) then file
  else if has_crlf_in_index prior && text_crlf file then file
  else strip_cr file.
Proof.
  intros Hac. replace (git_add ac prior file) with (git_add ACTrue prior file) by now destruct ac.
  destruct file as [|b0 r]; [now destruct (has_crlf_in_index prior)|].
  unfold git_add. set (file := b0 :: r). cbv zeta. pose proof (text_nocr file) as N.
  unfold text_crlf in *. cbv zeta in *.
  destruct (git_is_binary (git_stats file)); [now destruct (s_crlf (git_stats file) =? 0)|].
  cbn [negb andb] in *. destruct (N.eqb_spec (s_crlf (git_stats file)) 0) as [E|E].
  - rewrite E in *. rewrite andb_false_r. symmetry. now apply strip_nocr, N.
  - replace (0 <? s_crlf (git_stats file)) with true by lia. now rewrite andb_true_r.
Qed.

(* fillEncodedObjectFromFile: on text the LF writer is chunk-free *)
Lemma add_conv_on ac chunks :
  let file := List.concat chunks in
  ac <> ACFalse -> short file = true ->
  add_conv ac chunks = Some (if git_is_binary (git_stats file) then file else strip_cr file).
Proof.
  intros file Hac Hs. replace (add_conv ac chunks) with (add_conv ACTrue chunks) by now destruct ac.
  unfold add_conv. fold file. rewrite is_binary_get_stat by assumption.
  destruct (git_is_binary (git_stats file)) eqn:B; [reflexivity|].
  rewrite lf_writer_chunk_free by now apply text_lcf. reflexivity.
Qed.

Lemma checkout_eq_git ac chunks :
  short (List.concat chunks) = true ->
  checkout_conv ac chunks = Some (git_checkout ac (List.concat chunks)).
Proof.
  intros Hs. destruct ac; try reflexivity. now rewrite checkout_true, git_checkout_true.
Qed.

Lemma add_eq_git ac prior chunks :
  short (List.concat chunks) = true ->
  has_crlf_in_index prior && text_crlf (List.concat chunks) = false ->
  add_conv ac chunks = Some (git_add ac prior (List.concat chunks)).
Proof.
  intros Hs Hg. destruct (ac_false_or ac) as [->|Hac]; [reflexivity|].
  now rewrite add_conv_on, git_add_on, Hg by assumption.
Qed.

Lemma add_text_nocrlf ac chunks :
  short (List.concat chunks) = true -> text_crlf (List.concat chunks) = false ->
  add_conv ac chunks = Some (List.concat chunks).
Proof.
  intros Hs Ht. destruct (ac_false_or ac) as [->|Hac]; [reflexivity|].
  rewrite add_conv_on by assumption. destruct (git_is_binary _) eqn:B; [reflexivity|].
  now rewrite strip_nocr by now apply text_nocr.
Qed.

Lemma last_cons (A : Type) (l : list A) : forall x d, last (x :: l) d = last l x.
Proof.
  induction l as [|a l IH]; intros x d; [reflexivity|].
  change (last (x :: a :: l) d) with (last (a :: l) d). now rewrite !IH.
Qed.

Lemma last_app (A : Type) (a b : list A) : forall d, last (a ++ b) d = last b (last a d).
Proof.
  induction a as [|x a IH]; intros d; [reflexivity|]. cbn [app]. now rewrite !last_cons, IH.
Qed.

(* git's LF -> CRLF loop on CR-free content, the only content it is run on *)
Lemma conv_nocr_cons c r :
  (c =? CR) = false ->
  git_lf_to_crlf false (c :: r) = (if c =? LF then [CR; LF] else [c]) ++ git_lf_to_crlf false r.
Proof. intros E. cbn [git_lf_to_crlf]. rewrite E. destruct (c =? LF); reflexivity. Qed.

Lemma conv_strip b : has_cr b = false -> strip_cr (git_lf_to_crlf false b) = b.
Proof.
  induction b as [|c r IH]; [reflexivity|].
  cbn [has_cr existsb]. intros [Hc H]%orb_false_iff.
  rewrite conv_nocr_cons, strip_cr_app, (IH H) by assumption.
  destruct (N.eqb_spec c LF) as [->|_]; [reflexivity|]. now rewrite strip_cr_cons, Hc.
Qed.

Definition swap_lf (g : stat) : stat :=
  mkStat (s_nul g) (s_lonecr g) 0 (s_crlf g + s_lonelf g) (s_print g) (s_nonprint g).

Lemma conv_gather b : has_cr b = false -> git_gather (git_lf_to_crlf false b) = swap_lf (git_gather b).
Proof.
  induction b as [|c r IH]; [reflexivity|].
  cbn [has_cr existsb]. intros [Hc H]%orb_false_iff. specialize (IH H).
  rewrite conv_nocr_cons by assumption. unfold swap_lf in *.
  destruct (c =? LF) eqn:E; cbn [app git_gather]; rewrite Hc, ?E, IH.
  - change (CR =? CR) with true. change (LF =? LF) with true. stat_solve.
  - pose proof (git_class_fields c). stat_solve.
Qed.

Lemma conv_last b : forall d, has_cr b = false -> last (git_lf_to_crlf false b) d = last b d.
Proof.
  induction b as [|c r IH]; intros d; [reflexivity|].
  cbn [has_cr existsb]. intros [Hc H]%orb_false_iff.
  rewrite conv_nocr_cons, last_app, last_cons, IH by assumption.
  now destruct (N.eqb_spec c LF) as [->|_].
Qed.

Lemma conv_length b : forall p, (List.length (git_lf_to_crlf p b) <= 2 * List.length b)%nat.
Proof.
  induction b as [|c r IH]; intros p; [cbn; lia|].
  cbn [git_lf_to_crlf]. destruct (c =? LF).
  - rewrite app_length. specialize (IH false). destruct p; cbn [List.length] in *; lia.
  - specialize (IH (c =? CR)). cbn [List.length]. lia.
Qed.

Lemma conv_binary b :
  has_cr b = false ->
  git_is_binary (git_stats (git_lf_to_crlf false b)) = git_is_binary (git_stats b).
Proof.
  intros H. unfold git_stats. rewrite conv_last, conv_gather by assumption.
  destruct (last b 0 =? SUB); reflexivity.
Qed.

Definition short2 (bs : bytes) : bool := 2 * N.of_nat (List.length bs) <? 2 ^ 64.

Lemma short2_short bs : short2 bs = true -> short bs = true.
Proof. unfold short2, short. lia. Qed.

Lemma roundtrip ac c1 c2 f :
  short2 (List.concat c1) = true -> text_crlf (List.concat c1) = false ->
  checkout_conv ac c1 = Some f -> List.concat c2 = f ->
  add_conv ac c2 = Some (List.concat c1).
Proof.
  intros Hs2 Ht Hc Hf. pose proof (short2_short _ Hs2) as Hs.
  set (blob := List.concat c1) in *.
  assert (Hid : f = blob -> add_conv ac c2 = Some blob).
  { intros ->. rewrite <- Hf. apply add_text_nocrlf; rewrite Hf; assumption. }
  destruct ac; try (apply Hid; cbn in Hc; now inversion Hc).
  rewrite checkout_true in Hc by assumption. fold blob in Hc. rewrite Ht, orb_false_r in Hc.
  destruct (git_is_binary (git_stats blob)) eqn:B; injection Hc as <-; [now apply Hid|].
  assert (Hn : has_cr blob = false) by now apply text_nocr.
  (* re-add of the converted file *)
  rewrite add_conv_on; rewrite ?Hf; [|discriminate|].
  - now rewrite conv_binary, B, conv_strip.
  - unfold short. unfold short2 in Hs2. pose proof (conv_length blob false). lia.
Qed.

Lemma has_crlf_some d : has_crlf_in_index (Some d) = has_cr d && text_crlf d.
Proof. symmetry. apply andb_assoc. Qed.

(* re-adding the staged blob: this is what has_crlf_in_index is for *)
Lemma git_add_same ac blob : ac <> ACFalse -> git_add ac (Some blob) blob = blob.
Proof.
  intros Hac. rewrite git_add_on, has_crlf_some by assumption.
  destruct (git_is_binary (git_stats blob)) eqn:B; [reflexivity|].
  destruct (text_crlf blob) eqn:T; [|rewrite andb_false_r; now apply strip_nocr, text_nocr].
  destruct (has_cr blob) eqn:Hh; [reflexivity|]. rewrite (nocr_text _ Hh) in T. discriminate.
Qed.

(* git itself: checkout then add of the unchanged file stores the same blob *)
Lemma git_roundtrip ac blob : git_add ac (Some blob) (git_checkout ac blob) = blob.
Proof.
  destruct ac; [reflexivity|apply git_add_same; discriminate|]. rewrite git_checkout_true.
  destruct (git_is_binary (git_stats blob) || text_crlf blob) eqn:K; [apply git_add_same; discriminate|].
  apply orb_false_iff in K as [B T]. assert (Hn : has_cr blob = false) by now apply text_nocr.
  rewrite git_add_on by discriminate. rewrite conv_binary, B, has_crlf_some, Hn by assumption.
  now apply conv_strip.
Qed.

(* doCalculateHashForRegular: size - CRLF against the stripped content *)
Lemma node_hash_on ac chunks :
  let data := List.concat chunks in
  ac <> ACFalse -> short data = true ->
  node_hash_input ac chunks =
  Some (if git_is_binary (git_stats data) then (N.of_nat (List.length data), data)
        else (N.of_nat (List.length data) - s_crlf (git_stats data), strip_cr data)).
Proof.
  intros data Hac Hs.
  replace (node_hash_input ac chunks) with (node_hash_input ACTrue chunks) by now destruct ac.
  unfold node_hash_input. cbv zeta. fold data. rewrite is_binary_get_stat, get_stat_crlf by assumption.
  destruct (git_is_binary (git_stats data)) eqn:B; [reflexivity|].
  rewrite lf_writer_chunk_free by now apply text_lcf. reflexivity.
Qed.

Lemma node_size ac chunks sz content :
  short (List.concat chunks) = true ->
  node_hash_input ac chunks = Some (sz, content) ->
  sz = N.of_nat (List.length content).
Proof.
  intros Hs H. destruct (ac_false_or ac) as [->|Hac]; [now inversion H|].
  rewrite node_hash_on in H by assumption.
  destruct (git_is_binary _) eqn:B; inversion H; [reflexivity|].
  apply not_binary_lonecr in B. rewrite stats_lonecr in B. rewrite stats_crlf.
  pose proof (cr_count (List.concat chunks) false) as C. cbn [pend] in C. lia.
Qed.
