(* Proofs/C01main.v — what the statements of Properties/C01.v are assembled
   from: the write paths, git's reader on go-git's files and conversely, the
   storage's format fields. *)
From Coq Require Import List NArith ZArith Bool Arith Lia ZifyBool ZifyNat ZifyN.
From GoGit Require Import Base.Out Spec.SHA Gen.C01 Model.ObjFile Spec.LooseGit Proofs.SHA Proofs.C01.
Import ListNotations.
Local Open Scope N_scope.

Definition int64_size (z : Z) : bool := (0 <=? z)%Z && (z <? Z.of_N two63)%Z.

Lemma int64_size_iff z : int64_size z = true <-> (0 <= z < Z.of_N two63)%Z.
Proof. unfold int64_size. lia. Qed.

(* go-git's and git's header / ID are the same function *)
Lemma hdr_is_git t (c : bytes) : hdr t (blen c) = git_hdr t (nlen c).
Proof. unfold hdr, git_hdr, blen, nlen. now rewrite print_int_of_nat. Qed.

Lemma loose_is_git t c : hdr t (blen c) ++ c = git_loose t c.
Proof. unfold git_loose. now rewrite hdr_is_git. Qed.

Lemma oid_is_git f t c : oid f t c = git_oid f t c.
Proof. unfold oid, git_oid. now rewrite loose_is_git. Qed.

Lemma compute_is_oid f t c : compute f t c = oid f t c.
Proof. reflexivity. Qed.

(* RawObjectWriter / LazyWriter on a header the writer accepts, for every declared
   size: the first [size] bytes of the chunks' concatenation are stored, under
   the hash of what is stored *)
Lemma path_raw_stores f t size chunks :
  type_valid t = true -> (0 <= size < Z.of_N two63)%Z ->
  let c := concat chunks in
  let over := (size <? blen c)%Z in
  let raw := hdr t size ++ (if over then firstn (Z.to_nat size) c else c) in
  path_raw f t size chunks = mkR (Some (H f raw)) (if over then Some EOverflow else None) (Some (H f raw, raw)).
Proof.
  intros Hv Hs c over raw. unfold path_raw. rewrite w_header_ok by assumption.
  rewrite w_writes_concat by (cbn [w_pending]; lia). unfold w_write. cbn [w_pending w_z w_h].
  subst raw over c. now destruct (size <? blen (concat chunks))%Z.
Qed.

Definition good_write (f : hfmt) (t : otype) (c : bytes) : wres :=
  mkR (Some (git_oid f t c)) None (Some (git_oid f t c, git_loose t c)).

Lemma path_raw_good f t chunks :
  type_valid t = true -> int64_size (blen (concat chunks)) = true ->
  path_raw f t (blen (concat chunks)) chunks = good_write f t (concat chunks).
Proof.
  intros Hv Hs. rewrite path_raw_stores by (try assumption; now apply int64_size_iff).
  rewrite Z.ltb_irrefl. unfold good_write, git_oid. now rewrite loose_is_git.
Qed.

Lemma m_hash_fill f t chunks :
  snd (m_hash f (m_fill t (blen (concat chunks)) chunks)) = Some (oid f t (concat chunks)).
Proof. rewrite m_fill_eq. unfold m_hash. cbn [m_h m_cont m_sz m_t]. now rewrite Z.eqb_refl. Qed.

Lemma path_set_good f t chunks :
  type_git t = true -> int64_size (blen (concat chunks)) = true ->
  path_set f (m_fill t (blen (concat chunks)) chunks) = Some (good_write f t (concat chunks)).
Proof.
  intros Hg Hs. pose proof (type_git_valid t Hg) as Hv. unfold int64_size in Hs.
  unfold path_set, path_set2. rewrite m_hash_fill, m_fill_eq. cbn [m_t m_sz m_cont]. rewrite Hg. cbn [negb].
  rewrite w_header_ok by (try assumption; lia).
  rewrite w_writes_fit by (cbn [w_pending concat]; rewrite app_nil_r; lia).
  cbn [w_z w_h w_pending concat]. rewrite app_nil_r, oid_is_git.
  unfold good_write, git_oid, w_hash, hasher_sum. cbn [w_h w_z]. now rewrite loose_is_git.
Qed.

Lemma path_mem_good f t chunks :
  type_git t = true ->
  path_mem f (m_fill t (blen (concat chunks)) chunks) = mkR (Some (git_oid f t (concat chunks))) None None.
Proof.
  intros Hg. unfold path_mem. rewrite m_hash_fill, oid_is_git, m_fill_eq. cbn [m_t]. now rewrite Hg.
Qed.

Lemma hasher_chunks : forall chunks h, fold_left hasher_write chunks h = h ++ concat chunks.
Proof.
  induction chunks as [|p chunks IH]; intros h; cbn [fold_left concat]; [now rewrite app_nil_r|].
  rewrite IH. unfold hasher_write. now rewrite app_assoc.
Qed.

Lemma hasher_good f t chunks :
  hasher_sum f (fold_left hasher_write chunks (hasher_new t (blen (concat chunks)))) = git_oid f t (concat chunks).
Proof. rewrite hasher_chunks, <- oid_is_git. reflexivity. Qed.

Lemma git_parse_hdr t n c :
  type_git t = true -> n < two64 -> git_parse (git_hdr t n ++ c) = Some (t, n, c).
Proof.
  intros Hg Hn. unfold git_parse, git_hdr, MAX_HEADER_LEN.
  pose proof (type_bytes_len_git t Hg) as Ht.
  pose proof (print_dec_length n 20 ltac:(lia) ltac:(pose proof two64_lt; lia)) as Hd.
  replace ((type_bytes t ++ [32] ++ print_dec n ++ [0]) ++ c)
    with ((type_bytes t ++ 32 :: print_dec n) ++ 0 :: c)
    by (rewrite <- !app_assoc; reflexivity).
  rewrite find_nul_app.
  - cbn [rev app]. rewrite split_sp_app by apply type_bytes_no_sp. cbn [rev app].
    now rewrite git_type_bytes, git_size_print.
  - apply Forall_app. split; [apply type_bytes_no_nul|].
    constructor; [discriminate | apply digits_no_nul, print_dec_digits].
  - rewrite app_length. cbn [List.length]. lia.
Qed.

Lemma git_read_loose t c :
  type_git t = true -> nlen c < two64 -> git_read (git_loose t c) = Some (t, c).
Proof.
  intros Hg Hn. unfold git_read, git_loose. rewrite git_parse_hdr by assumption. now rewrite N.eqb_refl.
Qed.

Definition lenient_witness : bytes := [98;108;111;98;32;48;51;0;97;98;99].   (* "blob 03\0abc" *)

Lemma reader_lenient :
  read_header lenient_witness = Ok (TBlob, 3%Z, [97;98;99]) /\ git_parse lenient_witness = None.
Proof. split; vm_compute; reflexivity. Qed.

(* Hash(), then one more Write, then SetEncodedObject: the returned ID is the
   cached one, the file is stored under the hash of the real content *)
Definition stale_obj (f : hfmt) (t : otype) (c p : bytes) : memobj :=
  m_write (fst (m_hash f (m_fill t (blen c) [c]))) p.

Lemma memobj_stale :
  let f := FSha1 in let c := [97] in let p := [98] in
  match path_set f (stale_obj f TBlob c p) with
  | Some r => r_err r = None /\ r_id r = Some (git_oid f TBlob c) /\
              r_file r = Some (git_oid f TBlob (c ++ p), git_loose TBlob (c ++ p)) /\
              git_oid f TBlob c <> git_oid f TBlob (c ++ p)
  | None => False
  end.
Proof. vm_compute. repeat split; discriminate. Qed.

(* the streams Reader.Header accepts: read_header_shape (Proofs/C01.v) is one direction,
   C01_read_header_spec the equivalence *)
Definition header_shape (raw : bytes) (t : otype) (n : Z) (c : bytes) : Prop :=
  exists ty sz,
    raw = ty ++ 32 :: sz ++ 0 :: c /\
    Forall (fun b => b <> 32) ty /\ Forall (fun b => b <> 0) sz /\
    (List.length ty + List.length sz + 2 <= max_header_len)%nat /\
    parse_type ty = Some t /\ parse_int64 sz = Some n.

(* Which format the write paths hash with.  Invariant of fs_new and fs_set_format: the
   three copies of the format agree, and agree with the configuration once it names one *)
Definition fs_inv (st : fs_state) : Prop :=
  fs_dir st = fs_oh st /\ fs_oh st = fs_opts st /\ (fs_cfg st <> CUnset -> fs_dir st = hfmt_of (fs_cfg st)).

(* the step function of last_format *)
Definition fmt_step (cur of : cfmt) : cfmt := match of with CUnset => cur | _ => of end.

Lemma cfmt_eqb_eq a b : cfmt_eqb a b = true -> a = b.
Proof. destruct a, b; cbn; congruence. Qed.

Lemma fs_new_inv opt file :
  fs_inv (fs_new opt file) /\ fs_dir (fs_new opt file) = hfmt_of (match file with Some c => c | None => opt end).
Proof. destruct file as [c|]; [destruct c | destruct opt]; cbn; repeat split; congruence. Qed.

Lemma fs_set_inv st d of :
  fs_inv st -> fs_dir st = hfmt_of d ->
  fs_inv (fs_set_format st of) /\ fs_dir (fs_set_format st of) = hfmt_of (fmt_step d of).
Proof.
  intros (H1 & H2 & H3) Hd. destruct of; cbn [fs_set_format fmt_step]; [repeat split; assumption| |].
  all: destruct (cfmt_eqb (fs_cfg st) _) eqn:E; [|cbn; repeat split; congruence].
  all: apply cfmt_eqb_eq in E; repeat split; try assumption; rewrite <- E; apply H3; congruence.
Qed.

Lemma fs_fold_inv : forall ofs st d,
  fs_inv st -> fs_dir st = hfmt_of d ->
  fs_inv (fold_left fs_set_format ofs st) /\
  fs_dir (fold_left fs_set_format ofs st) = hfmt_of (fold_left fmt_step ofs d).
Proof.
  induction ofs as [|of ofs IH]; intros st d Hi Hd; cbn [fold_left]; [now split|].
  destruct (fs_set_inv st d of Hi Hd) as [Hi' Hd']. now apply IH.
Qed.

Lemma fs_run_format opt file ofs :
  let st := fs_run opt file ofs in
  fs_dir st = repo_format opt file ofs /\ fs_oh st = repo_format opt file ofs /\ fs_opts st = repo_format opt file ofs.
Proof.
  cbv zeta. unfold fs_run, repo_format, last_format.
  destruct (fs_new_inv opt file) as [Hi Hd].
  destruct (fs_fold_inv ofs _ _ Hi Hd) as [(H1 & H2 & _) Hf].
  fold fmt_step. repeat split; congruence.
Qed.

Lemma ms_fold : forall ofs st,
  ms_oh st = hfmt_of (ms_opts st) ->
  ms_oh (fold_left ms_set_format ofs st) = hfmt_of (fold_left fmt_step ofs (ms_opts st)).
Proof.
  induction ofs as [|of ofs IH]; intros st Hs; cbn [fold_left]; [assumption|].
  destruct of; cbn [ms_set_format fmt_step]; [now apply IH| |].
  all: destruct (cfmt_eqb (ms_opts st) _) eqn:E; [|now apply (IH (mkMS _ _))].
  all: apply cfmt_eqb_eq in E; rewrite <- E; now apply IH.
Qed.

Lemma ms_run_format opt ofs : ms_oh (ms_run opt ofs) = hfmt_of (last_format ofs opt).
Proof. unfold ms_run, last_format. fold fmt_step. now rewrite ms_fold. Qed.
