(* Proofs/C10Order.v — bytes.Compare as a total order; [find] by a unique key and
   insertion sort for any strict order (the model sorts by id and by offset);
   tables sorted by id and Writer.Add de-duplication. *)
From Coq Require Import List NArith Bool Lia ZifyBool ZifyNat ZifyN Sorting.Sorted Sorting.Permutation.
From GoGit Require Import Base.Out Model.PackBytes Model.Idx.
Import ListNotations.
Local Open Scope N_scope.

Lemma bytes_cmp_refl a : bytes_cmp a a = Eq.
Proof. induction a as [|x a IH]; cbn; [reflexivity|]. now rewrite N.compare_refl. Qed.

Lemma bytes_cmp_eq a : forall b, bytes_cmp a b = Eq -> a = b.
Proof.
  induction a as [|x a IH]; intros [|y b]; cbn; try discriminate; auto.
  destruct (x ?= y) eqn:E; try discriminate. intros H. apply N.compare_eq in E. subst. f_equal. auto.
Qed.

Lemma bytes_cmp_antisym a : forall b, bytes_cmp b a = CompOpp (bytes_cmp a b).
Proof.
  induction a as [|x a IH]; intros [|y b]; cbn; auto.
  rewrite (N.compare_antisym x y). destruct (x ?= y); cbn; auto.
Qed.

Lemma bytes_cmp_lt_gt a b : bytes_cmp a b = Lt <-> bytes_cmp b a = Gt.
Proof. rewrite (bytes_cmp_antisym a b). destruct (bytes_cmp a b); cbn; split; congruence. Qed.

Lemma bytes_cmp_trans a : forall b c, bytes_cmp a b = Lt -> bytes_cmp b c = Lt -> bytes_cmp a c = Lt.
Proof.
  induction a as [|x a IH]; intros [|y b] [|z c]; cbn; try discriminate; auto.
  destruct (x ?= y) eqn:E1; try discriminate; destruct (y ?= z) eqn:E2; try discriminate; intros H1 H2.
  - apply N.compare_eq in E1, E2. subst. rewrite N.compare_refl. eauto.
  - apply N.compare_eq in E1. subst. now rewrite E2.
  - apply N.compare_eq in E2. subst. now rewrite E1.
  - rewrite N.compare_lt_iff in *. assert (x < z) by lia. rewrite <- N.compare_lt_iff in H. now rewrite H.
Qed.

Lemma bytes_cmp_le_trans a b c :
  bytes_cmp a b <> Gt -> bytes_cmp b c = Lt -> bytes_cmp a c = Lt.
Proof.
  intros H1 H2. destruct (bytes_cmp a b) eqn:E; try congruence.
  - apply bytes_cmp_eq in E. now subst.
  - eapply bytes_cmp_trans; eauto.
Qed.

Lemma bytes_cmp_lt_le_trans a b c :
  bytes_cmp a b = Lt -> bytes_cmp b c <> Gt -> bytes_cmp a c = Lt.
Proof.
  intros H1 H2. destruct (bytes_cmp b c) eqn:E; try congruence.
  - apply bytes_cmp_eq in E. now subst.
  - eapply bytes_cmp_trans; eauto.
Qed.

Lemma bytes_eqb_eq a b : bytes_eqb a b = true <-> a = b.
Proof.
  unfold bytes_eqb. split.
  - destruct (bytes_cmp a b) eqn:E; try discriminate. intros _. now apply bytes_cmp_eq.
  - intros ->. now rewrite bytes_cmp_refl.
Qed.

Lemma bytes_eqb_neq a b : bytes_eqb a b = false <-> a <> b.
Proof.
  split.
  - intros H E. apply bytes_eqb_eq in E. congruence.
  - intros H. destruct (bytes_eqb a b) eqn:E; auto. apply bytes_eqb_eq in E. contradiction.
Qed.

Lemma bytes_cmp_hd a b : bytes_cmp a b = Lt -> hd 0 a <= hd 0 b.
Proof.
  destruct a as [|x a], b as [|y b]; cbn; intros H; try discriminate; [lia|].
  destruct (x ?= y) eqn:E; try discriminate.
  - apply N.compare_eq in E. lia.
  - rewrite N.compare_lt_iff in E. lia.
Qed.

Lemma bytes_cmp_hd_lt a b : a <> [] -> b <> [] -> hd 0 a < hd 0 b -> bytes_cmp a b = Lt.
Proof.
  destruct a as [|x a], b as [|y b]; try congruence. cbn. intros _ _ H.
  rewrite <- N.compare_lt_iff in H. now rewrite H.
Qed.

(* [find] by a key that no two elements share: the maps by id and by offset of Spec/IdxFormat.v *)
Section FindKey.
Context {A K : Type} (key : A -> K) (eqb : K -> K -> bool).
Hypothesis eqb_eq : forall a b, eqb a b = true <-> a = b.

Lemma find_key_nth l : forall k d, NoDup (map key l) -> (k < List.length l)%nat ->
  find (fun e => eqb (key e) (key (nth k l d))) l = Some (nth k l d).
Proof.
  induction l as [|e l IH]; intros k d D Hk; cbn in Hk; [lia|].
  inversion D as [|? ? Hn D']; subst. destruct k as [|k]; cbn [nth find].
  - now rewrite (proj2 (eqb_eq _ _) eq_refl).
  - destruct (eqb (key e) (key (nth k l d))) eqn:E; [|apply IH; [assumption|lia]].
    apply eqb_eq in E. exfalso. apply Hn. rewrite E. apply in_map, nth_In. lia.
Qed.

Lemma find_key_none l k : (forall e, In e l -> key e <> k) -> find (fun e => eqb (key e) k) l = None.
Proof.
  induction l as [|e l IH]; intros Hn; cbn; [reflexivity|].
  destruct (eqb (key e) k) eqn:E; [apply eqb_eq in E; now destruct (Hn e (or_introl eq_refl))|].
  apply IH. intros; apply Hn; now right.
Qed.

End FindKey.

Lemma sorted_nth {A} (lt : A -> A -> Prop) l : StronglySorted lt l -> forall i j d,
  (i < j)%nat -> (j < List.length l)%nat -> lt (nth i l d) (nth j l d).
Proof.
  induction 1 as [|x l S IH F]; intros i j d Hij Hj; cbn in Hj; [lia|].
  destruct j as [|j]; [lia|]. destruct i as [|i]; cbn.
  - rewrite Forall_forall in F. apply F. apply nth_In. lia.
  - apply IH; lia.
Qed.

Lemma sorted_app {A} (lt : A -> A -> Prop) (a b : list A) : StronglySorted lt (a ++ b) ->
  StronglySorted lt a /\ forall x y, In x a -> In y b -> lt x y.
Proof.
  induction a as [|z a IH]; cbn; intros S; [split; [constructor|intros x y []]|].
  inversion S as [|? ? S' F]; subst. destruct (IH S') as [Sa Hab]. rewrite Forall_forall in F. split.
  - constructor; [exact Sa|]. apply Forall_forall. intros y Hy. apply F, in_or_app. now left.
  - intros x y [<-|Hx] Hy; [apply F, in_or_app; now right|now apply Hab].
Qed.

(* the model's two insertion sorts (by id, by offset): [ins] puts the new element in front of the
   first element it is below; the order between elements of equal key is never asked for *)
Section InsertSort.
Context {A K : Type} (key : A -> K) (lt : A -> A -> Prop) (ins : A -> list A -> list A).
Hypothesis lt_trans : forall a b c, lt a b -> lt b c -> lt a c.
Hypothesis ins_nil : forall e, ins e [] = [e].
Hypothesis ins_cons : forall e x l,
  (ins e (x :: l) = e :: x :: l /\ (key x <> key e -> lt e x)) \/
  (ins e (x :: l) = x :: ins e l /\ (key x <> key e -> lt x e)).

Lemma ins_perm e l : Permutation (e :: l) (ins e l).
Proof.
  induction l as [|x l IH]; [now rewrite ins_nil|].
  destruct (ins_cons e x l) as [[-> _]|[-> _]]; [reflexivity|]. rewrite perm_swap. now constructor.
Qed.

Lemma ins_sorted e : forall l,
  StronglySorted lt l -> (forall x, In x l -> key x <> key e) -> StronglySorted lt (ins e l).
Proof.
  induction l as [|x l IH]; intros S D; [rewrite ins_nil; repeat constructor|].
  inversion S as [|? ? S' F]; subst.
  destruct (ins_cons e x l) as [[-> C]|[-> C]]; specialize (C (D x (or_introl eq_refl))).
  - constructor; [assumption|]. constructor; [exact C|].
    rewrite Forall_forall in *. intros y Hy. eapply lt_trans; eauto.
  - constructor; [apply IH; [assumption|intros y Hy; apply D; now right]|].
    eapply Permutation_Forall; [apply ins_perm|]. now constructor.
Qed.

Lemma isort_perm l : Permutation l (fold_right ins [] l).
Proof. induction l as [|e l IH]; cbn; [reflexivity|]. rewrite <- ins_perm. now constructor. Qed.

Lemma isort_sorted l : NoDup (map key l) -> StronglySorted lt (fold_right ins [] l).
Proof.
  induction l as [|e l IH]; intros D; cbn; [constructor|].
  inversion D as [|? ? Hn D']; subst. apply ins_sorted; [auto|].
  intros x Hx E. apply Hn. rewrite <- E. apply in_map.
  eapply Permutation_in; [symmetry; apply isort_perm|exact Hx].
Qed.

End InsertSort.

Definition hlt (a b : entry) : Prop := bytes_cmp (e_hash a) (e_hash b) = Lt.
Definition sorted_tbl (l : list entry) : Prop := StronglySorted hlt l.
Definition distinct_hashes (l : list entry) : Prop := NoDup (map e_hash l).

Lemma insert_by_hash_cons e x l :
  (insert_by_hash e (x :: l) = e :: x :: l /\ (e_hash x <> e_hash e -> hlt e x)) \/
  (insert_by_hash e (x :: l) = x :: insert_by_hash e l /\ (e_hash x <> e_hash e -> hlt x e)).
Proof.
  unfold hlt. cbn [insert_by_hash]. destruct (bytes_cmp (e_hash e) (e_hash x)) eqn:C; [left|left|right]; split; auto.
  - intros Hne. apply bytes_cmp_eq in C. congruence.
  - intros _. now apply bytes_cmp_lt_gt.
Qed.

Lemma sort_perm l : Permutation l (sort_entries l).
Proof. apply (isort_perm e_hash hlt); auto using insert_by_hash_cons. Qed.

Lemma sort_sorted l : distinct_hashes l -> sorted_tbl (sort_entries l).
Proof.
  apply (isort_sorted e_hash hlt); auto using insert_by_hash_cons.
  intros a b c. apply bytes_cmp_trans.
Qed.

(* Writer.Add: what is kept has distinct, non-zero hashes; it is the first occurrence of each id *)
Lemma mem_hash_in h l : mem_hash h l = true <-> In h l.
Proof.
  unfold mem_hash. rewrite existsb_exists. split.
  - intros (x & Hx & E). apply bytes_eqb_eq in E. now subst.
  - intros H. exists h. split; [assumption|now apply bytes_eqb_eq].
Qed.

Lemma writer_add_spec : forall es seen acc,
  NoDup (map e_hash acc) -> (forall x, In x acc -> In (e_hash x) seen) ->
  distinct_hashes (writer_add es seen acc) /\
  (forall x, In x (writer_add es seen acc) -> In x acc \/ (In x es /\ is_zero_hash (e_hash x) = false /\ ~ In (e_hash x) seen)).
Proof.
  induction es as [|e es IH]; intros seen acc ND Hs; cbn [writer_add].
  - split.
    + unfold distinct_hashes. rewrite map_rev. now apply NoDup_rev.
    + intros x Hx. left. now apply in_rev.
  - destruct (is_zero_hash (e_hash e) || mem_hash (e_hash e) seen) eqn:C.
    + destruct (IH seen acc ND Hs) as [A B]. split; [assumption|].
      intros x Hx. destruct (B x Hx) as [|(H1 & H2 & H3)]; cbn [In]; auto.
    + apply orb_false_iff in C. destruct C as [Cz Cm].
      assert (Hn : ~ In (e_hash e) seen) by (rewrite <- mem_hash_in; congruence).
      destruct (IH (e_hash e :: seen) (e :: acc)) as [A B].
      * cbn. constructor; [|assumption]. intros Hi. apply in_map_iff in Hi. destruct Hi as (y & Ey & Hy).
        apply Hn. rewrite <- Ey. now apply Hs.
      * intros x [<-|Hx]; [now left|right; now apply Hs].
      * split; [assumption|]. intros x Hx. cbn [In] in B. destruct (B x Hx) as [[<-|Hi]|(H1 & H2 & H3)]; cbn [In]; tauto.
Qed.

Lemma writer_add_distinct es : distinct_hashes (writer_add es [] []).
Proof. apply writer_add_spec; [constructor|intros x []]. Qed.

Lemma sorted_distinct l : sorted_tbl l -> distinct_hashes l.
Proof.
  induction 1 as [|x l S IH F]; [constructor|]. cbn. constructor; [|assumption].
  intros Hi. apply in_map_iff in Hi. destruct Hi as (y & E & Hy).
  rewrite Forall_forall in F. specialize (F y Hy). unfold hlt in F. rewrite E, bytes_cmp_refl in F. discriminate.
Qed.
