(* Proofs/C53Rev.v — C53 for the revision parser model (Model/Revision.v: scan,
   parse_ref, caret_braces, parse_caret, parse_tilde, parse_loop, parse).
   The model answers [PErr] both for a syntax error and for exhausted fuel, so
   "total" is FUEL STABILITY: for every input, with the fuel the model passes,
   more fuel never changes the answer.  Also: every scanner / sub-parser
   returns a suffix of its input (strictly shorter once a token was read), the
   parser produces at most one item per input byte, and the numbers after
   ~ and ^ saturate at MaxInt64 (strconv.Atoi with the error dropped). *)
From Coq Require Import List ZArith Lia.
From GoGit Require Import Model.Revision.
Import ListNotations.
Local Open Scope N_scope.

(* The scanner and the sub-parsers are cascades of [if]: a property of every
   branch is a property of the cascade. *)
Lemma if_elim {A} (P : A -> Prop) (c : bool) x y : P x -> P y -> P (if c then x else y).
Proof. destruct c; trivial. Qed.

Lemma if_congr {A} (c : bool) (x x' y y' : A) :
  x = x' -> y = y' -> (if c then x else y) = (if c then x' else y').
Proof. intros -> ->. reflexivity. Qed.

Lemma take_run_len check s : (List.length (snd (take_run check s)) <= List.length s)%nat.
Proof.
  induction s as [|c r IH]; cbn [take_run]; [reflexivity|].
  destruct (c =? 0); [cbn; lia|]. destruct (check c); [|cbn; lia].
  destruct (take_run check r). cbn in *. lia.
Qed.

Lemma scan_cons {c s t lit r} : scan (c :: s) = (t, lit, r) -> (List.length r <= List.length s)%nat.
Proof.
  intros E. apply (f_equal snd) in E. cbn [snd] in E. subst r.
  pose proof (take_run_len is_letter s). pose proof (take_run_len is_digit s).
  unfold scan. repeat apply (if_elim (fun x => (List.length (snd x) <= List.length s)%nat)); try (cbn; lia).
  - destruct s as [|n r]; [cbn; lia|]. destruct (n =? 0), (n =? 123); cbn; lia.
  - destruct (take_run is_letter s). assumption.
  - destruct (take_run is_digit s). assumption.
Qed.

Lemma scan_len s t lit r : scan s = (t, lit, r) ->
  (List.length r <= List.length s)%nat /\ (s <> [] -> (List.length r < List.length s)%nat).
Proof.
  destruct s as [|c s']; [intros [= _ _ <-]; split; [lia|congruence]|].
  intros E. apply scan_cons in E. cbn [List.length]. lia.
Qed.

Lemma parse_ref_stable : forall f s prev buf g,
  (List.length s < f)%nat -> (f <= g)%nat -> parse_ref g s prev buf = parse_ref f s prev buf.
Proof.
  induction f as [|f IH]; intros s prev buf g Hf Hg; [lia|].
  destruct g as [|g]; [lia|]. destruct s as [|c s']; [reflexivity|].
  cbn [parse_ref]. destruct (scan (c :: s')) as [[t lit] rest] eqn:E. apply scan_cons in E.
  cbn [List.length] in *. repeat apply if_congr; try reflexivity. apply IH; lia.
Qed.

Lemma parse_ref_len : forall f s prev buf name r,
  parse_ref f s prev buf = POk (name, r) -> (List.length r <= List.length s)%nat.
Proof.
  induction f as [|f IH]; intros s prev buf name r E; cbn [parse_ref] in E; [discriminate|].
  destruct (scan s) as [[t lit] rest] eqn:Sc. apply scan_len in Sc.
  destruct (check_ref_format t prev buf _); [discriminate|].
  destruct (match t with TEof | TAt | TColon | TTilde | TCaret => true | _ => false end).
  - injection E as _ <-. lia.
  - apply IH in E. lia.
Qed.

Lemma parse_ref_progress {f c s prev buf name r t lit rest} :
  scan (c :: s) = (t, lit, rest) ->
  match t with TEof | TAt | TColon | TTilde | TCaret => false | _ => true end = true ->
  parse_ref f (c :: s) prev buf = POk (name, r) -> (List.length r <= List.length s)%nat.
Proof.
  intros Sc Ht E. destruct f as [|f]; cbn [parse_ref] in E; [discriminate|]. rewrite Sc in E.
  apply scan_cons in Sc. destruct (check_ref_format t prev buf _); [discriminate|].
  destruct t; try discriminate; apply parse_ref_len in E; lia.
Qed.

Lemma caret_braces_stable : forall f s start re negate g,
  (List.length s < f)%nat -> (f <= g)%nat -> caret_braces g s start re negate = caret_braces f s start re negate.
Proof.
  induction f as [|f IH]; intros s start re negate g Hf Hg; [lia|].
  destruct g as [|g]; [lia|]. destruct s as [|c s']; [destruct re, start; reflexivity|].
  cbn [caret_braces]. destruct (scan (c :: s')) as [[t lit] r1] eqn:E1. apply scan_cons in E1.
  destruct (scan r1) as [[nt lit2] r2] eqn:E2. apply scan_len in E2. cbn [List.length] in *.
  repeat apply if_congr; try reflexivity; apply IH; lia.
Qed.

Lemma caret_braces_len : forall f s start re negate it r,
  caret_braces f s start re negate = POk (it, r) -> (List.length r <= List.length s)%nat.
Proof.
  induction f as [|f IH]; intros s start re negate it r; cbn [caret_braces]; [discriminate|].
  destruct (scan s) as [[t lit] r1] eqn:E1. apply scan_len in E1.
  destruct (scan r1) as [[nt lit2] r2] eqn:E2. apply scan_len in E2.
  repeat apply (if_elim (fun p => p = POk (it, r) -> (List.length r <= List.length s)%nat));
    try discriminate; try (intros [= _ <-]; lia); intros E; apply IH in E; lia.
Qed.

Lemma parse_caret_len s it r : parse_caret s = POk (it, r) -> (List.length r <= List.length s)%nat.
Proof.
  unfold parse_caret. destruct (scan s) as [[t lit] r1] eqn:E1. apply scan_len in E1.
  destruct t; try (intros [= _ <-]; lia).
  - destruct (2 <? atoi lit); [discriminate|]. intros [= _ <-]. lia.
  - intros E. apply caret_braces_len in E. lia.
Qed.

Lemma parse_tilde_len s it r : parse_tilde s = (it, r) -> (List.length r <= List.length s)%nat.
Proof.
  unfold parse_tilde. destruct (scan s) as [[t lit] r1] eqn:E1. apply scan_len in E1.
  destruct t; intros [= _ <-]; lia.
Qed.

(* strconv.Atoi with the error dropped: never above MaxInt64, whatever the digits *)
Lemma atoi_saturates lit : atoi lit <= 9223372036854775807.
Proof. unfold atoi. apply N.le_min_r. Qed.

(* One iteration of the parser: either it answers, whatever fuel is left (and
   an answer [POk] is the items read so far), or it goes on with one more item
   and less input. *)
Lemma parse_loop_step s acc :
  (exists res, (forall k, parse_loop (S k) s acc = res) /\ (forall l, res = POk l -> l = rev acc)) \/
  (exists it r, (forall k, parse_loop (S k) s acc = parse_loop k r (it :: acc)) /\ (List.length r < List.length s)%nat).
Proof.
  cbn [parse_loop]. destruct (scan s) as [[t lit] r] eqn:Sc. destruct t; cbv beta iota.
  { left. eexists. split; [reflexivity|]. destruct (validate _ _ _); congruence. }
  all: destruct s as [|c s']; [discriminate Sc|]; pose proof (scan_cons Sc) as L; cbn [List.length].
  all: try (destruct (parse_ref _ _ _ _) as [[name r']| |] eqn:P;
         [apply (parse_ref_progress Sc eq_refl) in P; right; exists (IRef name), r'; split; [reflexivity|lia]
         |left; eexists; split; [reflexivity|discriminate]..]).
  - destruct (scan r) as [[t2 l2] r2]. destruct (tok_eqb t2 TObrace).
    + left. eexists. split; [reflexivity|discriminate].
    + right. eexists _, r. split; [reflexivity|lia].
  - destruct (parse_caret r) as [[it r']| |] eqn:P; [|left; eexists; split; [reflexivity|discriminate]..].
    apply parse_caret_len in P. right. exists it, r'. split; [reflexivity|lia].
  - left. eexists. split; [reflexivity|discriminate].
  - destruct (parse_tilde r) as [it r'] eqn:P. apply parse_tilde_len in P.
    right. exists it, r'. split; [reflexivity|lia].
Qed.

Lemma parse_loop_stable : forall f s acc g,
  (List.length s < f)%nat -> (f <= g)%nat -> parse_loop g s acc = parse_loop f s acc.
Proof.
  induction f as [|f IH]; intros s acc g Hf Hg; [lia|]. destruct g as [|g]; [lia|].
  destruct (parse_loop_step s acc) as [(res & E & _)|(it & r & E & L)]; rewrite !E; [reflexivity|].
  apply IH; lia.
Qed.

Theorem parse_stable s g : (S (S (List.length s)) <= g)%nat -> parse_loop g s [] = parse s.
Proof. intros Hg. unfold parse. apply parse_loop_stable; [lia|exact Hg]. Qed.

Lemma parse_loop_count : forall f s acc l,
  parse_loop f s acc = POk l -> (List.length l <= List.length acc + List.length s)%nat.
Proof.
  induction f as [|f IH]; intros s acc l E; [discriminate|].
  destruct (parse_loop_step s acc) as [(res & E' & R)|(it & r & E' & L)]; rewrite E' in E.
  - rewrite (R _ E), rev_length. lia.
  - apply IH in E. cbn [List.length] in E. lia.
Qed.

Theorem parse_alloc s l : parse s = POk l -> (List.length l <= List.length s)%nat.
Proof. intros E. apply parse_loop_count in E. cbn [List.length] in E. lia. Qed.
