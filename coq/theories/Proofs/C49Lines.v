(* Proofs/C49Lines.v — pattern lines read by both sides: what ParsePattern and
   parse_path_pattern return, negation, and the coherence (Proofs/C49Walk.coh)
   of plain name patterns. *)
From Coq Require Import List NArith Bool Lia PeanoNat.
From GoGit Require Import Base.Out Model.Gitignore Spec.Glob Spec.GitIgnore
     Proofs.C49Total Proofs.C49Wild Proofs.C49Git Proofs.C49Trim Proofs.C49Names Proofs.C49Walk.
Import ListNotations.
Local Open Scope N_scope.

Definition is_bang (l : bytes) : bool := match l with c :: _ => c =? cBANG | [] => false end.
Definition strip_bang (l : bytes) : bytes := match l with c :: r => if c =? cBANG then r else l | [] => l end.

Definition set_incl (b : bool) (p : pat) : pat := mkPat (p_dom p) (p_segs p) b (p_dironly p) (p_isglob p).
Definition set_neg (b : bool) (g : gpat) : gpat :=
  mkG (g_pat g) b (g_mustdir g) (g_nodir g) (g_endswith g) (g_nowild g) (g_base g).

Lemma strip_nobang l : is_bang l = false -> strip_bang l = l.
Proof. destruct l as [|c r]; [reflexivity|]. cbn. now intros ->. Qed.

Lemma strip_bang_incl l x : In x (strip_bang l) -> In x l.
Proof. destruct l as [|c r]; [tauto|]. cbn. destruct (c =? cBANG); [now right|tauto]. Qed.

(* ParsePattern and parse_path_pattern read off their definitions *)
Lemma parse_pattern_eq l dir :
  parse_pattern l dir =
  let t := trim_trailing_spaces (strip_bang l) in
  mkPat dir (split_slash (body_of_line t) []) (is_bang l) (ends_slash t) (has_slash (body_of_line t)).
Proof.
  unfold parse_pattern.
  replace (match l with c :: r => if c =? cBANG then (true, r) else (false, l) | [] => (false, l) end)
    with (is_bang l, strip_bang l) by (destruct l as [|c r]; [reflexivity|]; cbn; now destruct (c =? cBANG)).
  cbv zeta. unfold body_of_line, ends_slash.
  generalize (trim_trailing_spaces (strip_bang l)). intros t.
  assert (Et : t = rev (rev t)) by (symmetry; apply rev_involutive).
  destruct (rev t) as [|c r]; [now rewrite Et|].
  destruct (c =? cSLASH); [reflexivity|now rewrite <- Et].
Qed.

Lemma gparse_eq l dir :
  gparse l dir =
  let p := strip_bang l in
  mkG (body_of_line p) (is_bang l) (ends_slash p) (negb (has_slash (body_of_line p)))
      (match p with c :: r => (c =? cSTAR) && no_wildcard r | [] => false end)
      (Nat.min (simple_length p) (List.length (body_of_line p))) dir.
Proof.
  unfold gparse.
  replace (match l with c :: r => if c =? cBANG then (true, r) else (false, l) | [] => (false, l) end)
    with (is_bang l, strip_bang l) by (destruct l as [|c r]; [reflexivity|]; cbn; now destruct (c =? cBANG)).
  cbv zeta. unfold body_of_line, ends_slash.
  destruct (rev (strip_bang l)) as [|c r]; [reflexivity|]. now destruct (c =? cSLASH).
Qed.

(* a negated line is its body's pattern with the flag set *)
Lemma parse_strip l dir : is_bang (strip_bang l) = false ->
  parse_pattern l dir = set_incl (is_bang l) (parse_pattern (strip_bang l) dir).
Proof. intros H. rewrite !parse_pattern_eq, (strip_nobang _ H), H. reflexivity. Qed.

Lemma gparse_strip l dir : is_bang (strip_bang l) = false ->
  gparse l dir = set_neg (is_bang l) (gparse (strip_bang l) dir).
Proof. intros H. rewrite !gparse_eq, (strip_nobang _ H), H. reflexivity. Qed.

Lemma parse_incl l dir : p_incl (parse_pattern l dir) = is_bang l.
Proof. now rewrite parse_pattern_eq. Qed.

Lemma gparse_nobang_neg l0 dir : is_bang l0 = false -> g_neg (gparse l0 dir) = false.
Proof. intros H. now rewrite gparse_eq. Qed.

(* a line with nothing to trim and no "!" *)
Lemma parse_plain l dir : nospace l -> is_bang l = false ->
  parse_pattern l dir = mkPat dir (split_slash (body_of_line l) []) false (ends_slash l)
                              (has_slash (body_of_line l)).
Proof.
  intros Hns Hb. now rewrite parse_pattern_eq, (strip_nobang _ Hb), Hb, trim_eq_git, (gtrim_nospace _ Hns).
Qed.

Lemma gparse_plain l dir : is_bang l = false ->
  gparse l dir = mkG (body_of_line l) false (ends_slash l) (negb (has_slash (body_of_line l)))
                     (match l with c :: r => (c =? cSTAR) && no_wildcard r | [] => false end)
                     (Nat.min (simple_length l) (List.length (body_of_line l))) dir.
Proof. intros Hb. now rewrite gparse_eq, (strip_nobang _ Hb), Hb. Qed.

Lemma pat_match_set_incl b p path d :
  pat_match (set_incl b p) path d <> NoMatch <-> pat_match p path d <> NoMatch.
Proof.
  unfold pat_match, set_incl. cbn [p_dom p_isglob p_segs p_dironly p_incl].
  destruct (Nat.leb _ _); [tauto|]. destruct (strip_domain _ _); [|tauto].
  unfold glob_match. cbn [p_segs p_dironly].
  destruct (if p_isglob p then _ else _); [|tauto].
  destruct b, (p_incl p); split; discriminate.
Qed.

Lemma gpat_match_set_neg b g path d : gpat_match (set_neg b g) path d = gpat_match g path d.
Proof. reflexivity. Qed.

(* negating a coherent pair keeps it coherent *)
Lemma coh_bang P p g b : coh P p g -> coh P (set_incl b p) (set_neg b g).
Proof.
  intros (Hb & _ & Hc). split; [exact Hb|]. split; [reflexivity|].
  intros rel d Hne Hok. change (p_dom (set_incl b p)) with (p_dom p).
  rewrite pat_match_set_incl. apply Hc; assumption.
Qed.

(* git's verdict for prefix k of rel, for a basename pattern *)
Definition nm (b : bytes) (md d : bool) (rel : list bytes) (k : nat) : bool :=
  negb (md && negb (dirflag k (List.length rel) d)) && wildmatch b (last (firstn k rel) []).

Lemma last_cons_ne {A} (c : A) x dflt : x <> [] -> last (c :: x) dflt = last x dflt.
Proof. destruct x; [congruence|reflexivity]. Qed.

Lemma last_app_ne {A} (a x : list A) dflt : x <> [] -> last (a ++ x) dflt = last x dflt.
Proof.
  intros H. induction a as [|c a IH]; [reflexivity|]. cbn [app].
  rewrite last_cons_ne; [exact IH|]. destruct a; [exact H|discriminate].
Qed.

Lemma simple_name_prefix b md d : forall rel,
  simple_name_match b md d rel = true <->
  exists k, (0 < k <= List.length rel)%nat /\ nm b md d rel k = true.
Proof.
  induction rel as [|c rest IH]; cbn [simple_name_match].
  - split; [discriminate|]. intros (k & Hk & _). cbn in Hk. lia.
  - assert (Hshift : forall k', (0 < k' <= List.length rest)%nat ->
              nm b md d (c :: rest) (S k') = nm b md d rest k').
    { intros k' Hk. unfold nm. cbn [List.length firstn]. unfold dirflag. cbn [Nat.eqb].
      rewrite last_cons_ne; [reflexivity|].
      destruct rest; [cbn in Hk; lia|]. destruct k'; [lia|]. discriminate. }
    assert (H1 : nm b md d (c :: rest) 1 = negb (md && negb d && match rest with [] => true | _ => false end) && wildmatch b c).
    { unfold nm. cbn [firstn last List.length]. unfold dirflag.
      destruct rest, md, d; reflexivity. }
    destruct (wildmatch b c) eqn:W.
    + split.
      * intros H. exists 1%nat. split; [cbn; lia|]. rewrite H1, H. reflexivity.
      * intros (k & Hk & Hm). destruct k as [|[|k']]; [lia| |].
        -- rewrite H1 in Hm. now rewrite andb_true_r in Hm.
        -- cbn [List.length] in Hk. destruct rest; [cbn in Hk; lia|]. cbn. now rewrite andb_false_r.
    + rewrite IH. split.
      * intros (k' & Hk & Hm). exists (S k'). split; [cbn; lia|]. now rewrite Hshift.
      * intros (k & Hk & Hm). destruct k as [|[|k']]; [lia| |].
        -- rewrite H1 in Hm. now rewrite andb_false_r in Hm.
        -- exists (S k'). cbn [List.length] in Hk. split; [lia|]. rewrite <- Hshift by lia. exact Hm.
Qed.

Lemma name_coh P dir body incl dironly ew nw :
  (forall name, match_basename (mkG body incl dironly true ew nw dir) name = wildmatch body name) ->
  coh P (mkPat dir [body] incl dironly false) (mkG body incl dironly true ew nw dir).
Proof.
  intros Hbase. split; [reflexivity|]. split; [reflexivity|].
  intros rel d Hne Hok. cbn [p_dom].
  rewrite (pat_match_dom (mkPat dir [body] incl dironly false) rel d Hne). cbn [p_isglob p_segs p_dironly hd].
  rewrite simple_name_prefix.
  assert (E : forall k, (0 < k <= List.length rel)%nat ->
            gpat_match (mkG body incl dironly true ew nw dir) (dir ++ firstn k rel) (dirflag k (List.length rel) d) =
            nm body dironly d rel k).
  { intros k Hk. unfold gpat_match, nm. cbn [g_mustdir g_nodir]. rewrite Hbase. unfold last_comp.
    rewrite last_app_ne by (destruct rel; [congruence|]; destruct k; [lia|discriminate]).
    now destruct (dironly && negb _). }
  split; intros (k & Hk & Hm); exists k; (split; [exact Hk|]); [rewrite E|rewrite <- E]; assumption.
Qed.

Lemma nowild_body l : Nat.min (simple_length l) (List.length (body_of_line l)) = simple_length (body_of_line l).
Proof.
  destruct (body_app l) as (tail & Hl & _ & _).
  set (q := body_of_line l) in *. rewrite Hl at 1. rewrite simple_length_app.
  pose proof (simple_length_le q).
  destruct (Nat.eqb (simple_length q) (List.length q)) eqn:E; [apply Nat.eqb_eq in E|]; lia.
Qed.

(* match_basename with its two shortcuts is wildmatch on the body *)
Lemma basename_name l dir g name :
  is_bang l = false -> glob_of (body_of_line l) = Some g ->
  match_basename (gparse l dir) name = wildmatch (body_of_line l) name.
Proof.
  intros Hb Hg. rewrite gparse_plain by assumption. unfold match_basename. cbn [g_pat g_nowild g_endswith].
  rewrite nowild_body.
  destruct (body_app l) as (tail & Hl & Htail & _).
  set (body := body_of_line l) in *.
  destruct (Nat.eqb (simple_length body) (List.length body)) eqn:EA.
  { (* no wildcard at all *) apply Nat.eqb_eq in EA. now rewrite wildmatch_literal. }
  destruct l as [|c0 r0] eqn:El; [discriminate EA|].
  destruct ((c0 =? cSTAR) && no_wildcard r0) eqn:EB.
  { (* "*literal" *)
    apply andb_true_iff in EB. destruct EB as [Ec Hnw]. apply N.eqb_eq in Ec. subst c0.
    unfold no_wildcard in Hnw. apply Nat.eqb_eq in Hnw.
    destruct body as [|b0 r'] eqn:Ebody.
    - (* body empty: the line is "/" , impossible with a leading star *)
      cbn in Hl. destruct Htail as [-> | ->]; inversion Hl.
    - cbn [app] in Hl. injection Hl as <- Hr0.
      assert (Hr' : simple_length r' = List.length r').
      { pose proof (simple_length_le r') as Hle. rewrite Hr0, simple_length_app, app_length in Hnw.
        destruct (Nat.eqb (simple_length r') (List.length r')) eqn:E; [now apply Nat.eqb_eq in E|].
        apply Nat.eqb_neq in E. lia. }
      cbn [tl List.length]. rewrite wildmatch_star_literal by assumption.
      destruct (is_suffix_at r' name) eqn:Esuf; [|now rewrite andb_false_r].
      apply is_suffix_len in Esuf. rewrite andb_true_r. apply Nat.leb_le. lia. }
  symmetry. eapply wildmatch_eq_git. exact Hg.
Qed.

(* a name line without "!" *)
Lemma name_line_coh P l dir g :
  nospace l -> is_bang l = false -> has_slash (body_of_line l) = false ->
  glob_of (body_of_line l) = Some g ->
  coh P (parse_pattern l dir) (gparse l dir) /\ p_dom (parse_pattern l dir) = dir.
Proof.
  intros Hns Hb Hs Hg.
  pose proof (fun name => basename_name l dir g name Hb Hg) as Hbase.
  rewrite (gparse_plain l dir Hb), Hs in Hbase |- *.
  rewrite (parse_plain l dir Hns Hb), Hs, split_slash_noslash by exact Hs.
  split; [|reflexivity]. apply name_coh. exact Hbase.
Qed.
