(* Proofs/C49Path.v — git's dowild with WM_PATHNAME (the way match_pathname
   calls it) is sound and complete for the declarative path-glob semantics of
   Spec/PathGlob.v.  What needs proof is the pruning: WM_ABORT_ALL and
   WM_ABORT_TO_STARSTAR, the "**/" shortcut, the jump of "*/" to the next
   slash, the fast-forward to a literal. *)
From Coq Require Import List NArith Bool Lia.
From GoGit Require Import Base.Out Model.Gitignore Spec.Glob Spec.PathGlob Spec.GitIgnore
     Proofs.C49Total Proofs.C49Wild Proofs.C49Git.
Import ListNotations.
Local Open Scope N_scope.

(* a suffix reached without crossing a slash *)
Definition csuffix (t' t : bytes) : Prop := exists s, t = s ++ t' /\ noslash s.
(* a suffix that starts a component *)
Definition bsuffix (t' t : bytes) : Prop := t' = t \/ exists s, t = s ++ 47 :: t'.

Lemma noslash_nil : noslash [].
Proof. intros []. Qed.

Lemma noslash_cons c s : c <> 47 -> noslash s -> noslash (c :: s).
Proof. intros Hc Hs [H|H]; [congruence|exact (Hs H)]. Qed.

Lemma noslash_cons_inv c s : noslash (c :: s) -> c <> 47 /\ noslash s.
Proof. intros H. split; [intros E; apply H; now left|intros E; apply H; now right]. Qed.

Lemma noslash_app a b : noslash a -> noslash b -> noslash (a ++ b).
Proof. unfold noslash. intros Ha Hb H. apply in_app_or in H. tauto. Qed.

Lemma noslash_has_slash s : noslash s <-> has_slash s = false.
Proof.
  induction s as [|c r IH]; cbn [has_slash]; [split; [reflexivity|intros _ []]|].
  unfold cSLASH. split.
  - intros H. apply noslash_cons_inv in H. destruct H as [H1 H2].
    apply N.eqb_neq in H1. rewrite H1. now apply IH.
  - intros H. apply orb_false_iff in H. destruct H as [H1 H2]. apply noslash_cons.
    + now apply N.eqb_neq.
    + now apply IH.
Qed.

Lemma csuffix_refl t : csuffix t t.
Proof. exists []. split; [reflexivity|apply noslash_nil]. Qed.

Lemma csuffix_suffix t' t : csuffix t' t -> suffix t' t.
Proof. intros (s & E & _). now exists s. Qed.

Lemma bsuffix_suffix t' t : bsuffix t' t -> suffix t' t.
Proof.
  intros [->|(s & ->)]; [apply suffix_refl|]. exists (s ++ [47]). now rewrite <- app_assoc.
Qed.

Lemma csuffix_cons c t' t : c <> 47 -> csuffix t' t -> csuffix t' (c :: t).
Proof. intros Hc (s & -> & Hs). exists (c :: s). split; [reflexivity|now apply noslash_cons]. Qed.

Lemma csuffix_cons_inv c t t'' : csuffix t'' (c :: t) -> t'' = c :: t \/ (c <> 47 /\ csuffix t'' t).
Proof.
  intros (s & H & Hs). destruct s as [|x s]; cbn in H.
  - left. now symmetry.
  - right. inversion H; subst. apply noslash_cons_inv in Hs. destruct Hs as [Hx Hs].
    split; [exact Hx|]. now exists s.
Qed.

Lemma csuffix_slash t t'' : csuffix t'' (47 :: t) -> t'' = 47 :: t.
Proof. intros H. apply csuffix_cons_inv in H. destruct H as [H|[H _]]; [exact H|congruence]. Qed.

Lemma csuffix_nil t : csuffix t [] -> t = [].
Proof. intros H. apply csuffix_suffix in H. now apply suffix_nil. Qed.

Lemma csuffix_trans a b c : csuffix a b -> csuffix b c -> csuffix a c.
Proof.
  intros (s & -> & Hs) (s' & -> & Hs'). exists (s' ++ s). split; [now rewrite app_assoc|now apply noslash_app].
Qed.

Lemma csuffix_snoc y t'' t : y <> 47 -> csuffix (y :: t'') t -> csuffix t'' t.
Proof.
  intros Hy (s & -> & Hs). exists (s ++ [y]). split; [now rewrite <- app_assoc|].
  apply noslash_app; [exact Hs|]. apply noslash_cons; [exact Hy|apply noslash_nil].
Qed.

Lemma suffix_snoc y t'' t : suffix (y :: t'') t -> suffix t'' t.
Proof. intros (s & ->). exists (s ++ [y]). now rewrite <- app_assoc. Qed.

(* a split at an element with Q lies at the first such element or beyond it *)
Lemma first_split {A} (Q : A -> Prop) : forall (a b : list A) x y ra rb,
  a ++ x :: ra = b ++ y :: rb -> (forall z, In z a -> ~ Q z) -> Q y ->
  (a = b /\ x = y /\ ra = rb) \/ exists mid, b = a ++ x :: mid /\ ra = mid ++ y :: rb.
Proof.
  induction a as [|a0 a IH]; intros b x y ra rb E Ha Qy.
  - destruct b as [|b0 b]; cbn in E; inversion E; subst; [left; auto|]. right. exists b. split; reflexivity.
  - destruct b as [|b0 b]; cbn in E; inversion E; subst; [destruct (Ha y (or_introl eq_refl) Qy)|].
    destruct (IH b x y ra rb H1 (fun z Hz => Ha z (or_intror Hz)) Qy) as [(-> & -> & ->)|(mid & -> & ->)];
      [left; auto|right; exists mid; split; reflexivity].
Qed.

Lemma first_slash s : forall w a b, noslash s -> s ++ 47 :: a = w ++ 47 :: b ->
  (w = s /\ b = a) \/ exists x, w = s ++ 47 :: x /\ a = x ++ 47 :: b.
Proof.
  intros w a b Hs H. apply (first_split (eq 47)) in H; [|intros z Hz <-; exact (Hs Hz)|reflexivity].
  destruct H as [(-> & _ & ->)|(x & -> & ->)]; [left; split; reflexivity|right; exists x; split; reflexivity].
Qed.

Lemma first_slash_unique s s' a b : noslash s -> noslash s' ->
  s ++ 47 :: a = s' ++ 47 :: b -> s = s' /\ a = b.
Proof.
  intros Hs Hs' H. destruct (first_slash _ _ _ _ Hs H) as [[-> ->]|(x & -> & _)]; [now split|].
  destruct Hs'. apply in_or_app. right. now left.
Qed.

Lemma after_slash_spec t : match after_slash t with
                           | None => noslash t
                           | Some t1 => exists s, t = s ++ 47 :: t1 /\ noslash s
                           end.
Proof.
  induction t as [|c r IH]; cbn [after_slash]; [apply noslash_nil|].
  unfold cSLASH. destruct (c =? 47) eqn:E.
  - apply N.eqb_eq in E. subst. exists []. split; [reflexivity|apply noslash_nil].
  - apply N.eqb_neq in E. destruct (after_slash r) as [t1|].
    + destruct IH as (s & -> & Hs). exists (c :: s). split; [reflexivity|now apply noslash_cons].
    + now apply noslash_cons.
Qed.

Lemma PM_item_inv it g t : is_star it = false -> PMatch (PIt it :: g) t ->
  exists c t', t = c :: t' /\ item_ok it c = true /\ c <> 47 /\ PMatch g t'.
Proof.
  intros Hs H. inversion H; subst.
  - eauto 6.
  - discriminate.
Qed.

Lemma PM_star_iff g t : PMatch (PIt IStar :: g) t <-> exists t', csuffix t' t /\ PMatch g t'.
Proof.
  split.
  - intros H. inversion H; subst; [discriminate|].
    exists t0. split; [exists s; split; [reflexivity|assumption]|assumption].
  - intros (t' & (s & -> & Hs) & H). now constructor.
Qed.

Lemma PM_sep_inv g t : PMatch (PSep :: g) t -> exists t', t = 47 :: t' /\ PMatch g t'.
Proof. intros H. inversion H; subst. eauto. Qed.

Lemma PM_dirs_iff g t :
  PMatch (PDirs :: g) t <-> PMatch g t \/ exists s t', t = s ++ 47 :: t' /\ PMatch g t'.
Proof.
  split.
  - intros H. inversion H; subst; [now left|right; eauto].
  - intros [H|(s & t' & -> & H)]; [now apply PM_dirs0|now apply PM_dirsS].
Qed.

Lemma PM_nil_inv t : PMatch [] t -> t = [].
Proof. intros H. inversion H. reflexivity. Qed.

(* bos: the pattern is at the beginning of a segment.  WM_ABORT_ALL is then
   only a claim about the suffixes that begin a component (a "**/" prunes the
   component starts it did not try; it is never retried anywhere else) *)
Definition R2 (bos : bool) (g : list pitem) (w : wm) (t : bytes) : Prop :=
  match w with
  | WMatch => PMatch g t
  | WNoMatch => ~ PMatch g t
  | WAbortStarStar => forall t', csuffix t' t -> ~ PMatch g t'
  | WAbortAll => if bos then forall t', bsuffix t' t -> ~ PMatch g t'
                 else forall t', suffix t' t -> ~ PMatch g t'
  | WFuel => False
  end.

Lemma R2_weaken bos g w t : R2 false g w t -> R2 bos g w t.
Proof.
  destruct bos; [|tauto]. destruct w; cbn; try tauto.
  intros H t' Hb. apply H. now apply bsuffix_suffix.
Qed.

(* any code but WMatch denies the match at t itself *)
Lemma R2_not_match bos g w t : R2 bos g w t -> w <> WMatch -> ~ PMatch g t.
Proof.
  destruct w; cbn; intros H Hw; try congruence; try tauto.
  - destruct bos; apply H; [now left|apply suffix_refl].
  - apply H. apply csuffix_refl.
Qed.

(* a non-star item against the text: WAbortAll at its end, else one byte that is not a slash *)
Lemma R2_step bos it g (w : bytes -> wm) t :
  is_star it = false -> (forall t1, R2 false g (w t1) t1) ->
  R2 bos (PIt it :: g)
     (match t with [] => WAbortAll | c :: t1 => if negb (c =? 47) && item_ok it c then w t1 else WNoMatch end) t.
Proof.
  intros Hs Hw. apply R2_weaken.
  assert (Hinv : forall t', PMatch (PIt it :: g) t' ->
            exists c t0, t' = c :: t0 /\ item_ok it c = true /\ c <> 47 /\ PMatch g t0)
    by (intros t'; now apply PM_item_inv).
  destruct t as [|c t1].
  - intros t' Hsuf H'. apply suffix_nil in Hsuf. subst. destruct (Hinv _ H') as (? & ? & ? & _). discriminate.
  - specialize (Hw t1). destruct (negb (c =? 47) && item_ok it c) eqn:Hok.
    + apply andb_true_iff in Hok. destruct Hok as [Hc Hok]. apply negb_true_iff, N.eqb_neq in Hc.
      destruct (w t1); cbn in Hw |- *; try tauto.
      * now constructor.
      * intros H'. destruct (Hinv _ H') as (c0 & t0 & E & _ & _ & B). inversion E; subst. tauto.
      * intros t' Hsuf H'. destruct (Hinv _ H') as (c0 & t0 & -> & _ & _ & B).
        apply suffix_tail in Hsuf. exact (Hw _ Hsuf B).
      * intros t' Hsuf H'. destruct (Hinv _ H') as (c0 & t0 & -> & _ & Hc0 & B).
        apply csuffix_cons_inv in Hsuf. destruct Hsuf as [E|[_ Hsuf]].
        -- inversion E; subst. eapply Hw; [apply csuffix_refl|exact B].
        -- eapply Hw; [|exact B]. eapply csuffix_snoc; eassumption.
    + intros H'. destruct (Hinv _ H') as (c0 & t0 & E & A & B & _). inversion E; subst.
      apply N.eqb_neq in B. now rewrite B, A in Hok.
Qed.

Lemma R2_sep_nil bos g : R2 bos (PSep :: g) WAbortAll [].
Proof.
  apply R2_weaken. intros t' Hsuf H'. apply suffix_nil in Hsuf. subst.
  apply PM_sep_inv in H'. destruct H' as (? & ? & _). discriminate.
Qed.

Lemma R2_sep bos g w t : R2 true g w t -> R2 bos (PSep :: g) w (47 :: t).
Proof.
  intros H. apply R2_weaken. destruct w; cbn in *; try tauto.
  - now constructor.
  - intros H'. apply PM_sep_inv in H'. destruct H' as (t0 & E & B). inversion E; subst. tauto.
  - intros t' Hsuf H'. apply PM_sep_inv in H'. destruct H' as (t0 & -> & B).
    eapply H; [|exact B].
    apply suffix_cons_inv in Hsuf. destruct Hsuf as [E|(s & ->)].
    + inversion E; subst. now left.
    + right. now exists s.
  - intros t' Hsuf H'. apply csuffix_slash in Hsuf. subst.
    apply PM_sep_inv in H'. destruct H' as (t0 & E & B). inversion E; subst.
    eapply H; [apply csuffix_refl|exact B].
Qed.

Lemma R2_sep_fail bos g c t : c <> 47 -> R2 bos (PSep :: g) WNoMatch (c :: t).
Proof. intros Hc H'. apply PM_sep_inv in H'. destruct H' as (t0 & E & _). inversion E; congruence. Qed.

(* what the loop of a single star (it does not cross a slash) claims *)
Definition RS2 (g2 : list pitem) (w : wm) (t : bytes) : Prop :=
  match w with
  | WMatch => exists t', csuffix t' t /\ PMatch g2 t'
  | WNoMatch | WAbortStarStar => forall t', csuffix t' t -> ~ PMatch g2 t'
  | WAbortAll => forall t', suffix t' t -> ~ PMatch g2 t'
  | WFuel => False
  end.

Lemma star_loop_single rec g2 lit q0 :
  (forall t, R2 false g2 (rec t) t) ->
  ~ PMatch g2 [] ->
  (forall c t, PMatch g2 (c :: t) -> c <> 47) ->
  (lit = true -> forall t, PMatch g2 t -> exists t1, t = q0 :: t1) ->
  forall t skipped, RS2 g2 (star_loop rec false lit false q0 WNoMatch skipped t) t.
Proof.
  intros Hrec Hne Hhead Hlit. induction t as [|c t' IH]; intros skipped; cbn [star_loop].
  - assert (H : forall t', suffix t' [] -> ~ PMatch g2 t').
    { intros t' Hs. apply suffix_nil in Hs. now subst. }
    destruct skipped; cbn; [intros t' Hs; apply H; now apply csuffix_suffix|exact H].
  - cbn [negb andb orb fold].
    assert (Hskip : c <> 47 -> ~ PMatch g2 (c :: t') -> forall sk,
              RS2 g2 (star_loop rec false lit false q0 WNoMatch sk t') (c :: t')).
    { intros Hc Hno sk. specialize (IH sk).
      destruct (star_loop rec false lit false q0 WNoMatch sk t'); cbn in *; try tauto.
      - destruct IH as [t2 [Hs H]]. exists t2. split; [now apply csuffix_cons|assumption].
      - intros t2 Hs. apply csuffix_cons_inv in Hs. destruct Hs as [->|[_ Hs]]; [assumption|now apply IH].
      - intros t2 Hs. apply suffix_cons_inv in Hs. destruct Hs as [->|Hs]; [assumption|now apply IH].
      - intros t2 Hs. apply csuffix_cons_inv in Hs. destruct Hs as [->|[_ Hs]]; [assumption|now apply IH]. }
    assert (Htry :
      RS2 g2 (let m := rec (c :: t') in
              if negb (wm_eqb m WNoMatch) then m
              else if c =? cSLASH then WAbortStarStar
                   else star_loop rec false lit false q0 WNoMatch false t') (c :: t')).
    { cbv zeta. pose proof (Hrec (c :: t')) as Hm.
      destruct (rec (c :: t')); cbn in Hm |- *; try tauto.
      - exists (c :: t'). split; [apply csuffix_refl|assumption].
      - unfold cSLASH. destruct (c =? 47) eqn:Ec.
        + apply N.eqb_eq in Ec. subst c. cbn. intros t2 Hs. apply csuffix_slash in Hs. now subst.
        + apply N.eqb_neq in Ec. now apply Hskip. }
    destruct lit.
    + unfold cSLASH. destruct (c =? 47) eqn:Ec.
      * apply N.eqb_eq in Ec. subst c. cbn. intros t2 Hs. apply csuffix_slash in Hs. subst.
        intros H. apply Hhead in H. congruence.
      * destruct (c =? q0) eqn:Eq.
        -- cbv zeta in Htry. unfold cSLASH in Htry. rewrite Ec in Htry. exact Htry.
        -- apply Hskip; [now apply N.eqb_neq|].
           intros H. destruct (Hlit eq_refl _ H) as [t1 E]. inversion E; subst.
           rewrite N.eqb_refl in Eq. discriminate.
    + exact Htry.
Qed.

Lemma R2_rec_claims g w t : R2 false g w t -> rec_claims (PMatch g) w t.
Proof. destruct w; cbn; try tauto. intros H. apply H, csuffix_refl. Qed.

(* "**/" when the rest does not match at t itself: the loop decides *)
Lemma R2_dirs_loop g3 w t :
  ~ PMatch g3 t -> RS (PMatch (PSep :: g3)) w t -> R2 true (PDirs :: g3) w t.
Proof.
  intros Hno Hloop. destruct w; cbn in Hloop |- *; try tauto.
  - destruct Hloop as (t' & (s & ->) & Hm). apply PM_sep_inv in Hm.
    destruct Hm as (t'' & -> & Hm). now apply PM_dirsS.
  - intros H. apply PM_dirs_iff in H. destruct H as [H|(s & t'' & -> & H)]; [tauto|].
    apply (Hloop (47 :: t'')); [now exists s|now constructor].
  - intros T' Hb H. apply PM_dirs_iff in H. destruct H as [H|(s & t'' & -> & H)].
    + destruct Hb as [->|(s0 & ->)]; [tauto|].
      apply (Hloop (47 :: T')); [now exists s0|now constructor].
    + apply (Hloop (47 :: t'')); [|now constructor].
      eapply suffix_trans; [|apply bsuffix_suffix; exact Hb]. now exists s.
Qed.

(* the shortcut (w0: the rest tried at t) followed by the loop (wl) *)
Lemma R2_dirs g3 w0 wl t : R2 true g3 w0 t -> RS (PMatch (PSep :: g3)) wl t ->
  R2 true (PDirs :: g3) (match w0 with WMatch => WMatch | WFuel => WFuel | _ => wl end) t.
Proof.
  intros H0 Hloop.
  destruct w0; try (apply R2_dirs_loop; [eapply R2_not_match; [exact H0|discriminate]|exact Hloop]).
  - now apply PM_dirs0.
  - exact H0.
Qed.

Lemma drop_stars_nonstar p : match p with c :: _ => c =? cSTAR | [] => false end = false ->
  drop_stars p = p.
Proof. destruct p as [|c r]; [reflexivity|]. cbn. intros ->. reflexivity. Qed.

(* case '*' with WM_PATHNAME, in the two shapes of the fragment: a single star, *)
Lemma star_case_single rec c1 c2 c3 prev p1 t :
  match p1 with c :: _ => c =? cSTAR | [] => false end = false ->
  star_case rec true false c1 c2 c3 prev p1 t =
  match p1 with
  | [] => if has_slash t then c1 else WMatch
  | q0 :: q1 =>
    if q0 =? cSLASH then match after_slash t with None => c2 | Some t' => rec (Some cSLASH) q1 t' end
    else star_loop (rec None p1) false (negb (is_glob_special q0)) false q0 (c3 false) false t
  end.
Proof.
  intros H. unfold star_case. rewrite (drop_stars_nonstar _ H), H. cbn [andb negb orb].
  destruct p1 as [|q0 q1]; reflexivity.
Qed.

(* and "**/" at the beginning of a segment *)
Lemma star_case_dirs rec c1 c2 c3 prev r3 t :
  (prev = None \/ prev = Some 47) ->
  star_case rec true false c1 c2 c3 prev (cSTAR :: cSLASH :: r3) t =
  match rec None r3 t with
  | WMatch => WMatch
  | WFuel => WFuel
  | _ => star_loop (rec None (cSLASH :: r3)) true true false 47 (c3 true) false t
  end.
Proof.
  intros Hp. unfold star_case.
  change (drop_stars (cSTAR :: cSLASH :: r3)) with (cSLASH :: r3).
  change (cSTAR =? cSTAR) with true. change (cSLASH =? cSLASH) with true.
  assert (Hb : match prev with Some c => c =? cSLASH | None => true end = true)
    by (destruct Hp as [->| ->]; reflexivity).
  rewrite Hb. cbn [andb orb negb]. reflexivity.
Qed.

Lemma pparse_slash f bos r : pparse (S f) bos (47 :: r) = ocons PSep (pparse f true r).
Proof. reflexivity. Qed.

Lemma ocons_some {A} (x : A) o l : ocons x o = Some l -> exists l', o = Some l' /\ l = x :: l'.
Proof. destruct o as [l'|]; cbn; [|discriminate]. intros H; inversion H; eauto. Qed.

(* a parsed pattern that begins neither with a star nor with a slash *)
Lemma pparse_item f bos q0 q1 g : pparse (S f) bos (q0 :: q1) = Some g ->
  (q0 =? 42) = false -> (q0 =? 47) = false ->
  exists it rest, parse_item q0 q1 = Some (it, rest) /\ it <> ILit 47 /\
                  ocons (PIt it) (pparse f false rest) = Some g.
Proof.
  intros Hp Hs Hsl. cbn [pparse] in Hp. unfold parse_item. rewrite Hs in Hp.
  destruct (q0 =? 92).
  { destruct q1 as [|e r']; [discriminate|]. destruct (e =? 47) eqn:Ee; [discriminate|].
    exists (ILit e), r'. repeat split; [|exact Hp]. intros E. inversion E; subst. discriminate. }
  destruct (q0 =? 63); [exists IAny, q1; repeat split; [discriminate|exact Hp]|].
  destruct (q0 =? 91).
  { destruct (parse_set q1) as [[it rest]|] eqn:Hps; [|discriminate]. exists it, rest.
    repeat split; [|exact Hp]. destruct (parse_set_is_set _ _ _ Hps) as (neg & rs & ->). discriminate. }
  rewrite Hsl in Hp. exists (ILit q0), q1. repeat split; [|exact Hp]. intros E. inversion E; subst. discriminate.
Qed.

Lemma R2_star_last bos t : R2 bos [PIt IStar] (if has_slash t then WNoMatch else WMatch) t.
Proof.
  destruct (has_slash t) eqn:Hh; cbn.
  - intros H. apply PM_star_iff in H. destruct H as (t' & (s & -> & Hs) & Hm).
    apply PM_nil_inv in Hm. subst. rewrite app_nil_r in Hh.
    apply noslash_has_slash in Hs. congruence.
  - replace t with (t ++ []) by apply app_nil_r. constructor; [|constructor].
    now apply noslash_has_slash.
Qed.

(* "*/": the star takes the text up to its first slash *)
Lemma PM_star_sep g T : PMatch (PIt IStar :: PSep :: g) T <->
  exists s t1, T = s ++ 47 :: t1 /\ noslash s /\ PMatch g t1.
Proof.
  rewrite PM_star_iff. split.
  - intros (t' & (s & -> & Hs) & Hm). apply PM_sep_inv in Hm. destruct Hm as (t1 & -> & Hm). eauto.
  - intros (s & t1 & -> & Hs & Hm). exists (47 :: t1). split; [now exists s|now constructor].
Qed.

Lemma R2_star_sep bos g w s t1 :
  noslash s -> R2 true g w t1 -> R2 bos (PIt IStar :: PSep :: g) w (s ++ 47 :: t1).
Proof.
  intros Hs H1. apply R2_weaken. destruct w; cbn in H1 |- *; try tauto.
  - apply PM_star_sep. eauto.
  - intros H. apply PM_star_sep in H. destruct H as (s' & t'' & E & Hs' & Hm).
    destruct (first_slash_unique _ _ _ _ Hs Hs' E) as [_ <-]. tauto.
  - intros T' (u & E) H. apply PM_star_sep in H. destruct H as (s' & t'' & -> & Hs' & Hm).
    rewrite app_assoc in E.
    destruct (first_slash _ _ _ _ Hs E) as [[_ ->]|(x & _ & ->)]; (eapply H1; [|exact Hm]);
      [now left|right; now exists x].
  - intros T' (u & E & Hu) H. apply PM_star_sep in H. destruct H as (s' & t'' & -> & Hs' & Hm).
    rewrite app_assoc in E.
    destruct (first_slash_unique _ _ _ _ Hs (noslash_app _ _ Hu Hs') E) as [_ <-].
    eapply H1; [apply csuffix_refl|exact Hm].
Qed.

Lemma R2_star_sep_none bos g t : noslash t -> R2 bos (PIt IStar :: PSep :: g) WNoMatch t.
Proof.
  intros Ht H. apply PM_star_sep in H. destruct H as (s & t1 & -> & _). apply Ht, in_or_app. right. now left.
Qed.

Lemma R2_star_of_RS2 bos g2 w t : RS2 g2 w t -> R2 bos (PIt IStar :: g2) w t.
Proof.
  intros H. apply R2_weaken. destruct w; cbn in *; try tauto.
  - apply PM_star_iff. exact H.
  - intros H'. apply PM_star_iff in H'. destruct H' as (t' & Hs & Hm). exact (H _ Hs Hm).
  - intros T' Hs H'. apply PM_star_iff in H'. destruct H' as (t' & Hs' & Hm).
    apply (H t'); [|exact Hm]. eapply suffix_trans; [apply csuffix_suffix; eassumption|assumption].
  - intros T' Hs H'. apply PM_star_iff in H'. destruct H' as (t' & Hs' & Hm).
    apply (H t'); [|exact Hm]. eapply csuffix_trans; eassumption.
Qed.

Lemma gdowild_R2 : forall fuel fuel' p t prev bos g,
  (List.length p < fuel)%nat -> pparse fuel' bos p = Some g ->
  (bos = true -> prev = None \/ prev = Some 47) ->
  R2 bos g (gdowild fuel 2 prev p t) t.
Proof.
  induction fuel as [|f IH]; intros fuel' p t prev bos g Hf Hp Hprev; [lia|].
  destruct fuel' as [|f']; [discriminate|]. rewrite gdowild_S.
  destruct p as [|pc0 p1].
  { cbn in Hp. inversion Hp; subst. destruct t; cbn; [constructor|]. intros H; inversion H. }
  cbn in Hf. destruct (pc0 =? 42) eqn:E3.
  { (* star *)
    apply N.eqb_eq in E3. subst pc0. rewrite wild_step_star by reflexivity. change (fl_pathname 2) with true.
    cbn [pparse] in Hp. change (42 =? 92) with false in Hp. change (42 =? 63) with false in Hp.
    change (42 =? 42) with true in Hp. cbn iota in Hp.
    destruct p1 as [|d r2].
    { (* a trailing star *)
      inversion Hp; subst. rewrite star_case_single by reflexivity. apply R2_star_last. }
    destruct (d =? 42) eqn:Ed.
    { (* "**/" *)
      apply N.eqb_eq in Ed. subst d.
      destruct bos; [|discriminate].
      destruct r2 as [|s r3]; [discriminate|].
      destruct (s =? 47) eqn:Es; [|discriminate]. apply N.eqb_eq in Es. subst s.
      apply ocons_some in Hp. destruct Hp as (g3 & Hp3 & ->).
      change (42 :: 47 :: r3) with (cSTAR :: cSLASH :: r3).
      rewrite (star_case_dirs _ _ _ _ _ _ _ (Hprev eq_refl)).
      cbn in Hf.
      pose proof (IH f' r3 t None true g3 ltac:(lia) Hp3 ltac:(intros _; now left)) as H0.
      assert (Hloop : RS (PMatch (PSep :: g3))
                (star_loop (gdowild f 2 None (cSLASH :: r3)) true true false 47 WNoMatch false t) t).
      { (* the rest, which begins with the slash, is tried at every slash of the text *)
        apply star_loop_RS; [| | |now right].
        - intros t0. apply R2_rec_claims.
          apply (IH (S f') (cSLASH :: r3) t0 None false (PSep :: g3)); [cbn; lia| |discriminate].
          unfold cSLASH. now rewrite pparse_slash, Hp3.
        - intros H. apply PM_sep_inv in H. destruct H as (? & ? & _). discriminate.
        - intros _ t0 H. apply PM_sep_inv in H. destruct H as (t1 & -> & _). eauto. }
      pose proof (R2_dirs _ _ _ _ H0 Hloop) as H.
      destruct (gdowild f 2 None r3 t); exact H. }
    (* a single star followed by d :: r2 *)
    apply ocons_some in Hp. destruct Hp as (g1 & Hp1 & ->).
    rewrite star_case_single by (cbn; unfold cSTAR; exact Ed).
    unfold cSLASH. destruct (d =? 47) eqn:Ed47.
    { (* "*/" : jump to the next slash *)
      apply N.eqb_eq in Ed47. subst d.
      destruct f' as [|f'']; [discriminate|]. rewrite pparse_slash in Hp1.
      apply ocons_some in Hp1. destruct Hp1 as (g' & Hpq & ->).
      pose proof (after_slash_spec t) as Has.
      destruct (after_slash t) as [t1|]; [|now apply R2_star_sep_none].
      destruct Has as (s & -> & Hs). cbn in Hf. apply R2_star_sep; [exact Hs|].
      apply (IH f'' r2 t1 (Some 47) true g'); [lia|exact Hpq|intros _; now right]. }
    (* the star loop *)
    destruct f' as [|f'']; [discriminate|].
    destruct (pparse_item _ _ _ _ _ Hp1 Ed Ed47) as (it & rest & Hpi & _ & Hg1).
    apply ocons_some in Hg1. destruct Hg1 as (g' & _ & ->).
    destruct (parse_item_head _ _ _ _ Hpi) as (Hit & Hlit & _).
    apply R2_star_of_RS2.
    apply star_loop_single.
    - intros t0. eapply IH; [cbn in Hf |- *; lia|exact Hp1|discriminate].
    - intros H. apply PM_item_inv in H; [|assumption]. destruct H as (? & ? & ? & _). discriminate.
    - intros c t0 H. apply PM_item_inv in H; [|assumption].
      destruct H as (c0 & t1 & E & _ & Hc & _). inversion E; subst. exact Hc.
    - intros Hl t0 H. apply negb_true_iff in Hl. rewrite (Hlit Hl) in H.
      apply PM_item_inv in H; [|reflexivity]. destruct H as (c0 & t1 & -> & A & _).
      cbn in A. apply N.eqb_eq in A. subst. eauto. }
  destruct (pc0 =? 47) eqn:E5.
  { (* the slash *)
    apply N.eqb_eq in E5. subst pc0. rewrite pparse_slash in Hp.
    apply ocons_some in Hp. destruct Hp as (g' & Hp1 & ->).
    destruct t as [|tc t1]; [apply R2_sep_nil|].
    change (R2 bos (PSep :: g') (if negb (tc =? 47) then WNoMatch else gdowild f 2 (Some 47) p1 t1) (tc :: t1)).
    destruct (tc =? 47) eqn:Et; cbn [negb].
    - apply N.eqb_eq in Et. subst tc. apply R2_sep.
      eapply IH; [lia|exact Hp1|intros _; now right].
    - apply R2_sep_fail. now apply N.eqb_neq. }
  (* one item *)
  destruct (pparse_item _ _ _ _ _ Hp E3 E5) as (it & rest & Hit & Hne & Hpr).
  apply ocons_some in Hpr. destruct Hpr as (g' & Hpr & ->).
  destruct (parse_item_head _ _ _ _ Hit) as (Hstar & _ & Hlen).
  destruct (wild_step_item (gdowild f 2) WNoMatch WNoMatch (fun _ => WNoMatch) 2 prev _ _ _ _
              eq_refl E3 Hit (fun _ => Hne)) as (pv & ->).
  change (fl_pathname 2) with true. cbn [andb].
  apply (R2_step bos it g' (gdowild f 2 pv rest)); [exact Hstar|].
  intros t1. eapply IH; [lia|exact Hpr|discriminate].
Qed.

(* wildmatch(p, t, WM_PATHNAME) holds exactly when the path glob denoted by p matches t *)
Theorem gwildmatch_path_sound_complete p g t :
  pglob_of p = Some g -> (gwildmatch 2 p t = true <-> PMatch g t).
Proof.
  intros Hp. unfold gwildmatch.
  pose proof (gdowild_R2 (wm_fuel p) _ p t None true g ltac:(unfold wm_fuel; lia) Hp
                ltac:(intros _; now left)) as H.
  destruct (gdowild (wm_fuel p) 2 None p t); cbn in H |- *; split; try tauto; try discriminate.
  - intros H'. exfalso. apply (H t); [now left|assumption].
  - intros H'. exfalso. apply (H t); [apply csuffix_refl|assumption].
Qed.
