(* Proofs/C20Ext.v — the extension pointers of the cached index against the file (Model/IndexCacheExt.v). *)
From Coq Require Import List NArith Arith Lia Bool.
From GoGit Require Import Base.Out Model.IndexCacheExt.
Import ListNotations.

Definition ereads_disk (s : est) : Prop := fst (eread_now s) = edisk_ext s.

(* keys are never ahead of the clock; a cache entry stored under the file's key agrees with the file *)
Definition einv (s : est) : Prop :=
  (forall x k, edisk s = Some (x, k) -> k <= eclock s) /\
  (forall cx k, ecache s = Some (cx, k) -> k <= eclock s) /\
  (forall x key cx, edisk s = Some (x, key) -> ecache s = Some (cx, key) -> cx = x).

Lemma einv_reads s : einv s -> ereads_disk s.
Proof.
  intros (_ & _ & Hc). unfold ereads_disk, eread_now, eindex_core, edisk_ext.
  destruct (edisk s) as [[x key]|]; [|reflexivity].
  destruct (ecache s) as [[cx k]|]; [|reflexivity].
  destruct (Nat.eqb_spec k key) as [->|_]; [|reflexivity]. now apply (Hc x key cx).
Qed.

(* the cache holds exactly what the file holds *)
Lemma einv_synced d n hs : (forall x k, d = Some (x, k) -> k <= n) -> einv (mkE d n d hs).
Proof. intros Hd. split; [exact Hd|split; [exact Hd|]]. cbn. congruence. Qed.

(* a miss, or no file, leaves the cache equal to the file *)
Lemma eindex_core_state s :
  snd (eindex_core s) = s \/ snd (eindex_core s) = mkE (edisk s) (eclock s) (edisk s) (ehandles s).
Proof.
  unfold eindex_core. destruct (edisk s) as [[x key]|]; [|now right].
  destruct (ecache s) as [[cx k]|]; [|now right]. destruct (Nat.eqb k key); [now left|now right].
Qed.

Lemma einv_index s : einv s -> einv (snd (eindex_core s)).
Proof.
  intros Hi. destruct (eindex_core_state s) as [->| ->]; [exact Hi|]. apply einv_synced, Hi.
Qed.

Lemma einv_step s o : einv s -> einv (estep true s o).
Proof.
  intros Hi. destruct o as [|h|h|x| |]; cbn [estep].
  - apply einv_index in Hi. now destruct (eindex_core s).
  - destruct (nth_error (ehandles s) h); [|exact Hi]. apply einv_synced. intros x k [= _ <-]. lia.
  - now destruct (nth_error (ehandles s) h).
  - destruct Hi as (_ & Hk & _). split; [|split]; cbn.
    + intros x0 k [= _ <-]. lia.
    + intros cx k Ec. apply Hk in Ec. lia.
    + intros x0 key cx [= _ <-] Ec. apply Hk in Ec. lia.
  - destruct Hi as (_ & Hk & _). split; [|split]; cbn; [discriminate|exact Hk|discriminate].
  - exact Hi.
Qed.

Lemma einv_init : einv einit.
Proof. now apply einv_synced. Qed.

Lemma einv_run_from : forall ops s, einv s -> einv (fold_left (estep true) ops s).
Proof. induction ops as [|o ops IH]; intros s Hs; [exact Hs|]. apply IH. now apply einv_step. Qed.

(* the tree as found: an Index read from a file with a TREE extension, written back, is cached with
   its Cache pointer although the file SetIndex wrote has no extension *)
Definition stale_witness : list eop := [EExternal true; EIndex; ESetIndex 0].

Theorem ext_fixed_witness : fst (eread_now (erun true stale_witness)) = false.
Proof. reflexivity. Qed.

(* the tree as found reads the file too as long as no external writer adds extensions: then no
   handle given to SetIndex reports any *)
Fixpoint no_ext (ops : list eop) : bool :=
  match ops with
  | [] => true
  | EExternal true :: _ => false
  | _ :: r => no_ext r
  end.

Definition ecache_ext (s : est) : bool := match ecache s with Some (x, _) => x | None => false end.

Definition all_false (s : est) : Prop :=
  edisk_ext s = false /\ ecache_ext s = false /\ Forall (fun b => b = false) (ehandles s).

Lemma eset_nth_false k l : Forall (fun b => b = false) l -> Forall (fun b => b = false) (eset_nth k false l).
Proof. intros H. revert k. induction H; intros [|k]; cbn; auto. Qed.

Lemma eindex_core_value s : fst (eindex_core s) = edisk_ext s \/ fst (eindex_core s) = ecache_ext s.
Proof.
  unfold eindex_core, edisk_ext, ecache_ext. destruct (edisk s) as [[x key]|]; [|now left].
  destruct (ecache s) as [[cx k]|]; [|now left]. destruct (Nat.eqb k key); [now right|now left].
Qed.

Lemma all_false_value s : all_false s -> fst (eindex_core s) = false.
Proof. intros (Hd & Hc & _). destruct (eindex_core_value s) as [->| ->]; assumption. Qed.

Lemma all_false_index s : all_false s -> all_false (snd (eindex_core s)).
Proof.
  intros A. destruct (eindex_core_state s) as [->| ->]; [exact A|]. destruct A as (Hd & _ & Hh). now repeat split.
Qed.

Lemma all_false_reads s : all_false s -> ereads_disk s.
Proof. intros A. unfold ereads_disk, eread_now. rewrite all_false_value; [|exact A]. symmetry. apply A. Qed.

Lemma all_false_step s o : all_false s -> no_ext [o] = true -> all_false (estep false s o).
Proof.
  intros A Ho. pose proof A as (Hd & Hc & Hh). destruct o as [|h|h|[|]| |]; cbn [estep]; try easy.
  - pose proof (all_false_value s A) as Hx. destruct (all_false_index s A) as (Hd1 & Hc1 & Hh1).
    destruct (eindex_core s) as [x s1]. repeat split; try assumption. apply Forall_app. auto.
  - destruct (nth_error (ehandles s) h) as [hx|] eqn:En; [|exact A].
    apply nth_error_In in En. now rewrite (proj1 (Forall_forall _ _) Hh hx En).
  - destruct (nth_error (ehandles s) h); [|exact A]. repeat split; try assumption. now apply eset_nth_false.
Qed.

Lemma no_ext_cons o r : no_ext (o :: r) = true -> no_ext [o] = true /\ no_ext r = true.
Proof. now destruct o as [| | |[|]| |]. Qed.

Lemma all_false_run : forall ops s, all_false s -> no_ext ops = true -> all_false (fold_left (estep false) ops s).
Proof.
  induction ops as [|o ops IH]; intros s Hs Hn; [exact Hs|].
  apply no_ext_cons in Hn as [Ho Hr]. apply IH; [now apply all_false_step|exact Hr].
Qed.
