(* Proofs/ObjLinesFacts.v — facts about Model/ObjLines (line splitting,
   prefixes, byte-list equality) shared by the C02 and C03 proofs. *)
From Coq Require Import List NArith Bool.
From GoGit Require Import Base.Out Model.ObjLines.
Import ListNotations.
Local Open Scope N_scope.

(* cutting x ++ y, or x ++ c :: y, exactly at the end of x *)
Lemma firstn_app_exact {A} (x y : list A) : firstn (List.length x) (x ++ y) = x.
Proof. induction x as [|a x IH]; [reflexivity|]. cbn. now rewrite IH. Qed.
Lemma skipn_app_exact {A} (x y : list A) : skipn (List.length x) (x ++ y) = y.
Proof. induction x as [|a x IH]; [reflexivity|exact IH]. Qed.
Lemma skipn_cons_exact {A} (x : list A) c y : skipn (S (List.length x)) (x ++ c :: y) = y.
Proof. induction x as [|a x IH]; [reflexivity|exact IH]. Qed.
Lemma firstn_cons_exact {A} (x : list A) c y : firstn (S (List.length x)) (x ++ c :: y) = x ++ [c].
Proof. induction x as [|a x IH]; [reflexivity|exact (f_equal (cons a) IH)]. Qed.
Lemma nth_app_exact {A} (x : list A) c y d : nth (List.length x) (x ++ c :: y) d = c.
Proof. induction x as [|a x IH]; [reflexivity|exact IH]. Qed.
Lemma skipn_S_tl {A} n : forall l : list A, skipn (S n) l = tl (skipn n l).
Proof. induction n as [|n IH]; intros [|x l]; try reflexivity. cbn [skipn]. destruct n; [now destruct l|apply IH]. Qed.
Lemma skipn_add {A} (a b : nat) : forall l : list A, skipn (a + b) l = skipn b (skipn a l).
Proof.
  induction a as [|a IH]; intros l; [reflexivity|]. destruct l as [|x l]; [now rewrite !skipn_nil|]. cbn [Nat.add skipn]. apply IH.
Qed.

Lemma beqb_refl a : beqb a a = true.
Proof. induction a as [|x a IH]; cbn; [reflexivity|]. now rewrite N.eqb_refl, IH. Qed.

Lemma beqb_eq a b : beqb a b = true <-> a = b.
Proof.
  split; [|intros ->; apply beqb_refl].
  revert b; induction a as [|x a IH]; intros [|y b] H; cbn in H; try discriminate; [reflexivity|].
  apply andb_true_iff in H as [H1 H2]. apply N.eqb_eq in H1. subst. f_equal. now apply IH.
Qed.

Lemma beqb_neq a b : beqb a b = false <-> a <> b.
Proof.
  split.
  - intros H E. apply beqb_eq in E. congruence.
  - intros H. destruct (beqb a b) eqn:E; [|reflexivity]. apply beqb_eq in E. contradiction.
Qed.

Definition no_lf (l : bytes) : bool := forallb (fun c => negb (c =? LF)) l.

(* a line as ReadBytes returns it: non-empty, LF at most as its last byte *)
Definition line_ok (l : bytes) : Prop :=
  l <> [] /\ (exists p, no_lf p = true /\ (l = p ++ [LF] \/ (l = p))).

Lemma no_lf_cons c p : no_lf (c :: p) = negb (c =? LF) && no_lf p.
Proof. reflexivity. Qed.

Lemma no_lf_app a b : no_lf (a ++ b) = no_lf a && no_lf b.
Proof. apply forallb_app. Qed.

Lemma no_lf_uncons c p : no_lf (c :: p) = true -> (c =? LF) = false /\ no_lf p = true.
Proof. rewrite no_lf_cons, andb_true_iff, negb_true_iff. tauto. Qed.

Lemma no_lf_rev p : no_lf p = true -> no_lf (rev p) = true.
Proof. unfold no_lf. rewrite !forallb_forall. intros H x Hx. apply H, in_rev, Hx. Qed.

Lemma concat_split_lines b : List.concat (split_lines b) = b.
Proof.
  induction b as [|c r IH]; cbn; [reflexivity|].
  destruct (c =? LF) eqn:E.
  - cbn. now rewrite IH.
  - destruct (split_lines r) as [|l ls] eqn:S; cbn in *.
    + now rewrite <- IH.
    + now rewrite <- IH.
Qed.

Lemma split_lines_ok b : Forall line_ok (split_lines b).
Proof.
  induction b as [|c r IH]; cbn; [constructor|].
  destruct (c =? LF) eqn:E.
  - apply N.eqb_eq in E. subst. constructor; [|exact IH].
    split; [discriminate|]. exists []. split; [reflexivity|]. now left.
  - destruct (split_lines r) as [|l ls] eqn:S.
    + constructor; [|constructor]. split; [discriminate|]. exists [c]. rewrite no_lf_cons, E. split; [reflexivity|]. now right.
    + inversion IH as [|? ? [Hne [p [Hp Hl]]] Hls]; subst. constructor; [|exact Hls].
      split; [discriminate|]. exists (c :: p). rewrite no_lf_cons, E, Hp. split; [reflexivity|].
      destruct Hl as [-> | ->]; [now left | now right].
Qed.

Lemma ends_nl_app_lf p : ends_nl (p ++ [LF]) = true.
Proof.
  induction p as [|c r IH]; cbn; [reflexivity|].
  destruct (r ++ [LF]) eqn:E; [destruct r; discriminate|]. exact IH.
Qed.

Lemma ends_nl_kv k c v : ends_nl (k ++ c :: v ++ [LF]) = true.
Proof. change (k ++ c :: v ++ [LF]) with (k ++ (c :: v) ++ [LF]). rewrite app_assoc. apply ends_nl_app_lf. Qed.

Lemma ends_nl_no_lf p : no_lf p = true -> ends_nl p = false.
Proof.
  induction p as [|c r IH]; [reflexivity|]. intros H. apply no_lf_uncons in H as [H1 H2].
  destruct r; [exact H1|]. cbn [ends_nl]. now apply IH.
Qed.

Lemma split_lines_line p r : no_lf p = true -> split_lines (p ++ LF :: r) = (p ++ [LF]) :: split_lines r.
Proof.
  induction p as [|c p IH]; intros H; [reflexivity|]. apply no_lf_uncons in H as [H1 H2].
  cbn. rewrite H1, (IH H2). reflexivity.
Qed.

Lemma split_lines_last p : no_lf p = true -> p <> [] -> split_lines p = [p].
Proof.
  induction p as [|c p IH]; intros H Hne; [contradiction|]. apply no_lf_uncons in H as [H1 H2].
  cbn [split_lines]. rewrite H1.
  destruct p as [|d p]; [reflexivity|]. rewrite IH; [reflexivity|exact H2|discriminate].
Qed.

Lemma first_is_lf_blank l : line_ok l -> first_is LF l = is_blank l.
Proof.
  intros [Hne [p [Hp Hl]]]. destruct p as [|c p].
  - destruct Hl as [-> | ->]; [reflexivity|contradiction].
  - apply no_lf_uncons in Hp as [H1 _].
    destruct Hl as [-> | ->]; cbn [app first_is is_blank]; rewrite H1; now destruct p.
Qed.

Lemma starts_with_app p b : starts_with p (p ++ b) = true.
Proof. induction p as [|x p IH]; cbn; [reflexivity|]. now rewrite N.eqb_refl, IH. Qed.

Lemma starts_with_spec p b : starts_with p b = true <-> exists r, b = p ++ r.
Proof.
  split.
  - revert b; induction p as [|x p IH]; intros b H; cbn in *; [now exists b|].
    destruct b as [|y b]; [discriminate|]. apply andb_true_iff in H as [H1 H2]. apply N.eqb_eq in H1. subst.
    destruct (IH _ H2) as [r ->]. now exists r.
  - intros [r ->]. apply starts_with_app.
Qed.

(* what split_lines produces: every line but the last ends with LF *)
Fixpoint all_but_last_nl (ls : list bytes) : bool :=
  match ls with
  | [] => true
  | [_] => true
  | l :: r => ends_nl l && all_but_last_nl r
  end.

Lemma abl_cons l l2 r : all_but_last_nl (l :: l2 :: r) = ends_nl l && all_but_last_nl (l2 :: r).
Proof. reflexivity. Qed.

Lemma abl_tail l r : all_but_last_nl (l :: r) = true -> all_but_last_nl r = true /\ (r <> [] -> ends_nl l = true).
Proof.
  destruct r as [|l2 r]; [intros _; split; [reflexivity|intros H; contradiction]|].
  rewrite abl_cons. intros H. apply andb_true_iff in H as [H1 H2].
  split; [exact H2|intros _; exact H1].
Qed.

Lemma abl_eof l r : all_but_last_nl (l :: r) = true -> ends_nl l = false -> r = [].
Proof.
  intros H E. destruct r as [|l2 r]; [reflexivity|]. destruct (abl_tail _ _ H) as [_ H2].
  rewrite H2 in E by discriminate. discriminate.
Qed.

Lemma ends_nl_cons c l : l <> [] -> ends_nl (c :: l) = ends_nl l.
Proof. destruct l; [contradiction|reflexivity]. Qed.

Lemma split_lines_abl b : all_but_last_nl (split_lines b) = true.
Proof.
  induction b as [|c r IH]; [reflexivity|]. cbn [split_lines].
  pose proof (split_lines_ok r) as Hok.
  destruct (c =? LF) eqn:E.
  - destruct (split_lines r) as [|l ls]; [reflexivity|]. rewrite abl_cons, IH. cbn. now rewrite E.
  - destruct (split_lines r) as [|l ls]; [reflexivity|].
    destruct ls as [|l2 ls]; [reflexivity|]. rewrite abl_cons in *.
    inversion Hok as [|? ? [Hne _] _]; subst. now rewrite (ends_nl_cons _ _ Hne).
Qed.
