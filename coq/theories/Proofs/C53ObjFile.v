(* Proofs/C53ObjFile.v — C53 for the loose-object header reader (Model/ObjFile.v
   read_until / read_header; objfile.Reader.Header).  The model is structural
   (the budget is the code's own maxHeaderLen, ErrHeaderTooLong a real Go
   error), so totality is by construction; proved for EVERY inflated stream:
     total/alloc  the header is decided by at most max_header_len bytes: a
                  successful Header consumed k <= max_header_len bytes, the
                  rest of the stream is untouched, and the two tokens it
                  collected (type, size) are shorter than that together;
     no_oob       the size is an int64 (ParseInt range, no wrap), and it is only
                  RETURNED: nothing in the reader is sized by it. *)
From Coq Require Import List ZArith Lia.
From GoGit Require Import Model.ObjFile.
Import ListNotations.
Local Open Scope N_scope.

Lemma read_until_spec delim : forall budget l acc tok b r,
  read_until delim budget l acc = Ok (tok, b, r) ->
  exists pre, l = pre ++ delim :: r /\ tok = rev acc ++ pre /\ budget = (b + S (List.length pre))%nat.
Proof.
  induction budget as [|bd IH]; intros l acc tok b r E; cbn [read_until] in E; [discriminate|].
  destruct l as [|c t]; [discriminate|]. destruct (N.eqb_spec c delim) as [->|_].
  - injection E as <- <- <-. exists []. rewrite app_nil_r. repeat split. cbn. lia.
  - apply IH in E. destruct E as (pre & -> & -> & ->). exists (c :: pre).
    cbn [rev List.length]. rewrite <- app_assoc. repeat split. lia.
Qed.

(* one readUntil call never looks past its budget *)
Lemma read_until_prefix delim : forall budget l acc tail,
  (budget <= List.length l)%nat -> read_until delim budget (l ++ tail) acc =
  match read_until delim budget l acc with
  | Ok (tok, b, r) => Ok (tok, b, r ++ tail)
  | Err e => Err e
  end.
Proof.
  induction budget as [|bd IH]; intros l acc tail Hl; cbn [read_until]; [reflexivity|].
  destruct l as [|c t]; [cbn [List.length] in Hl; lia|]. cbn [app]. destruct (c =? delim); [reflexivity|].
  apply IH. cbn [List.length] in Hl. lia.
Qed.

(* a successful Header: type token, size token and their two delimiters are the
   first k <= 32 bytes of the stream; the content is what follows *)
Theorem read_header_bounded raw t n rest : read_header raw = Ok (t, n, rest) ->
  exists ty sz, raw = ty ++ 32 :: sz ++ 0 :: rest /\
    (List.length ty + List.length sz + 2 <= max_header_len)%nat /\
    parse_type ty = Some t /\ parse_int64 sz = Some n.
Proof.
  unfold read_header. destruct (read_until 32 max_header_len raw []) as [[[ty b1] r1]|] eqn:E1; [|discriminate].
  destruct (parse_type ty) as [t'|] eqn:Pt; [|discriminate].
  destruct (read_until 0 b1 r1 []) as [[[sz b2] r2]|] eqn:E2; [|discriminate].
  destruct (parse_int64 sz) as [n'|] eqn:Pn; [|discriminate]. intros [= <- <- <-].
  apply read_until_spec in E1, E2. destruct E1 as (ty' & -> & -> & A), E2 as (sz' & -> & -> & ->).
  exists ty', sz'. repeat split; [lia|exact Pt|exact Pn].
Qed.

(* strconv.ParseInt(s, 10, 64): the value is an int64 *)
Lemma parse_int64_range s n : parse_int64 s = Some n -> (- 9223372036854775808 <= n < 9223372036854775808)%Z.
Proof.
  unfold parse_int64. destruct s as [|c r]; [discriminate|].
  destruct (if c =? 43 then _ else _) as [neg ds]. destruct ds as [|d ds']; [discriminate|].
  destruct (parse_digits (d :: ds') 0) as [u|]; [|discriminate]. unfold two63. destruct neg.
  - destruct (N.ltb_spec 9223372036854775808 u); [discriminate|]. intros [= <-]. lia.
  - destruct (N.leb_spec 9223372036854775808 u); [discriminate|]. intros [= <-]. lia.
Qed.

Theorem read_header_size_int64 raw t n rest : read_header raw = Ok (t, n, rest) ->
  (- 9223372036854775808 <= n < 9223372036854775808)%Z /\ (List.length rest <= List.length raw)%nat.
Proof.
  intros E. apply read_header_bounded in E. destruct E as (ty & sz & -> & _ & _ & Pn).
  split; [eapply parse_int64_range; eassumption|]. rewrite !app_length. cbn [List.length]. rewrite app_length. cbn [List.length]. lia.
Qed.
