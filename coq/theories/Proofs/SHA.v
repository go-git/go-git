(* Proofs/SHA.v — structural facts about Spec/SHA (shape of digests and the
   Merkle–Damgard extension property).  The lemmas do not depend on the round
   functions; the concrete digests are validated by the test vectors at the end
   and by the correspondence with Go / git. *)
From Coq Require Import List NArith Arith Lia ZifyNat ZifyN.
From GoGit Require Import Base.Out Spec.SHA.
Import ListNotations.
Local Open Scope N_scope.

Lemma be32_length x : List.length (be32 x) = 4%nat.
Proof. reflexivity. Qed.

Lemma land255_lt x : N.land x 255 < 256.
Proof.
  change 255 with (N.ones 8). rewrite N.land_ones. apply N.mod_lt. discriminate.
Qed.

Lemma be32_bytes x : Forall (fun b => b < 256) (be32 x).
Proof. unfold be32. repeat constructor; apply land255_lt. Qed.

(* a digest is the concatenation of the big-endian state words *)
Lemma out1_shape st : List.length (out1 st) = 20%nat /\ Forall (fun b => b < 256) (out1 st).
Proof.
  destruct st as [[[[a b] c] d] e]. split; [reflexivity|].
  repeat (apply Forall_app; split); apply be32_bytes.
Qed.

Lemma out256_shape st : List.length (out256 st) = 32%nat /\ Forall (fun b => b < 256) (out256 st).
Proof.
  destruct st as [[[[[[[a b] c] d] e] f] g] h]. split; [reflexivity|].
  repeat (apply Forall_app; split); apply be32_bytes.
Qed.

Lemma H_shape f m : List.length (H f m) = hsize f /\ Forall (fun b => b < 256) (H f m).
Proof. destruct f; [apply out1_shape | apply out256_shape]. Qed.

(* blocking: the fuel of [blocks] only has to be enough *)
Lemma blocks_nil f : blocks f [] = [].
Proof. destruct f; reflexivity. Qed.

Lemma blocks_S f (l : bytes) :
  l <> [] -> blocks (S f) l = firstn 64 l :: blocks f (skipn 64 l).
Proof. destruct l; [congruence | reflexivity]. Qed.

Lemma length_pos_nonnil (l : bytes) : (0 < List.length l)%nat -> l <> [].
Proof. destruct l; cbn; [lia | congruence]. Qed.

Lemma blocks_enough : forall f g (l : bytes),
  (List.length l <= 64 * f)%nat -> (List.length l <= 64 * g)%nat -> blocks f l = blocks g l.
Proof.
  induction f as [|f IH]; intros g l Hf Hg.
  - destruct l; [now rewrite !blocks_nil | cbn in Hf; lia].
  - destruct l as [|x l]; [now rewrite !blocks_nil|].
    destruct g as [|g]; [cbn in Hg; lia|].
    rewrite !blocks_S by congruence. f_equal. apply IH; rewrite skipn_length; lia.
Qed.

Lemma blocks_app : forall k f (a b : bytes),
  List.length a = (64 * k)%nat -> (List.length a + List.length b <= 64 * f)%nat ->
  blocks f (a ++ b) = blocks k a ++ blocks (f - k) b.
Proof.
  induction k as [|k IH]; intros f a b Ha Hf.
  - destruct a; [|cbn in Ha; lia]. cbn. now rewrite Nat.sub_0_r.
  - destruct f as [|f]; [lia|].
    assert (Hne : a <> []) by (apply length_pos_nonnil; lia).
    assert (Hne' : a ++ b <> []) by (apply length_pos_nonnil; rewrite app_length; lia).
    rewrite !blocks_S by assumption.
    rewrite firstn_app, skipn_app.
    replace (64 - List.length a)%nat with 0%nat by lia.
    rewrite firstn_O, skipn_O, app_nil_r.
    change (S f - S k)%nat with (f - k)%nat.
    rewrite <- app_comm_cons. f_equal.
    apply IH; rewrite skipn_length; lia.
Qed.

Lemma blocks_of_app k (a b : bytes) :
  List.length a = (64 * k)%nat -> blocks_of (a ++ b) = blocks_of a ++ blocks_of b.
Proof.
  intros Ha. unfold blocks_of.
  rewrite (blocks_enough _ (k + S (List.length b / 64)) (a ++ b)) by (rewrite app_length; lia).
  rewrite (blocks_app k) by lia.
  f_equal; [apply blocks_enough; lia | f_equal; lia].
Qed.

(* Merkle–Damgard extension, for any compression function over these blocks:
   two block-aligned prefixes of the same length with the same chaining value
   collide under EVERY common suffix. *)
Lemma md_extend {S} (blk : S -> bytes -> S) (out : S -> bytes) iv k (a1 a2 : bytes) :
  List.length a1 = (64 * k)%nat -> List.length a2 = (64 * k)%nat ->
  fold_left blk (blocks_of a1) iv = fold_left blk (blocks_of a2) iv ->
  forall s, out (fold_left blk (blocks_of (pad (a1 ++ s))) iv) = out (fold_left blk (blocks_of (pad (a2 ++ s))) iv).
Proof.
  intros H1 H2 E s. unfold pad. rewrite <- !app_assoc.
  rewrite (blocks_of_app k a1), (blocks_of_app k a2), !fold_left_app, E by assumption.
  now rewrite !app_length, H1, H2.
Qed.

Lemma sha1_extend k (a1 a2 : bytes) :
  List.length a1 = (64 * k)%nat -> List.length a2 = (64 * k)%nat ->
  sha1_state a1 = sha1_state a2 ->
  forall s, sha1 (a1 ++ s) = sha1 (a2 ++ s).
Proof. exact (md_extend block1 out1 iv1 k a1 a2). Qed.

Lemma sha256_extend k (a1 a2 : bytes) :
  List.length a1 = (64 * k)%nat -> List.length a2 = (64 * k)%nat ->
  sha256_state a1 = sha256_state a2 ->
  forall s, sha256 (a1 ++ s) = sha256 (a2 ++ s).
Proof. exact (md_extend block256 out256 iv256 k a1 a2). Qed.

(* Absorbing a block-aligned prefix first: the chaining value of [p ++ d] is
   that of [d] started from the chaining value of [p]. *)
Lemma md_prefix {S} (blk : S -> bytes -> S) iv k (p d : bytes) :
  List.length p = (64 * k)%nat ->
  fold_left blk (blocks_of (p ++ d)) iv = fold_left blk (blocks_of d) (fold_left blk (blocks_of p) iv).
Proof. intros Lp. now rewrite (blocks_of_app k), fold_left_app. Qed.

Lemma sha1_state_app k (p d : bytes) :
  List.length p = (64 * k)%nat -> sha1_state (p ++ d) = absorb1 (sha1_state p) d.
Proof. exact (md_prefix block1 iv1 k p d). Qed.

(* The digest of a block-aligned message from its chaining value: one more
   compression, of the padding block. *)
Lemma sha1_of_state k (a : bytes) :
  List.length a = (64 * k)%nat ->
  sha1 a = out1 (absorb1 (sha1_state a) (pad_tail (N.of_nat (List.length a)))).
Proof. intros La. unfold sha1. f_equal. exact (md_prefix block1 iv1 k a _ La). Qed.

Lemma sha256_of_prefix k (p d : bytes) :
  List.length p = (64 * k)%nat ->
  sha256 (p ++ d) = out256 (absorb256 (sha256_state p) (d ++ pad_tail (N.of_nat (List.length (p ++ d))))).
Proof.
  intros Lp. unfold sha256, pad. rewrite <- app_assoc. f_equal.
  exact (md_prefix block256 iv256 k p _ Lp).
Qed.

From Coq Require Import String.
(* FIPS 180-4 / RFC 3174 test vectors *)
Example sha1_abc : sha1 [97;98;99] = unhex "a9993e364706816aba3e25717850c26c9cd0d89d"%string.
Proof. vm_compute. reflexivity. Qed.
Example sha1_empty : sha1 [] = unhex "da39a3ee5e6b4b0d3255bfef95601890afd80709"%string.
Proof. vm_compute. reflexivity. Qed.
Example sha1_two_blocks :
  sha1 (bytes_of_string "abcdbcdecdefdefgefghfghighijhijkijkljklmklmnlmnomnopnopq"%string)
  = unhex "84983e441c3bd26ebaae4aa1f95129e5e54670f1"%string.
Proof. vm_compute. reflexivity. Qed.
Example sha256_abc :
  sha256 [97;98;99] = unhex "ba7816bf8f01cfea414140de5dae2223b00361a396177a9cb410ff61f20015ad"%string.
Proof. vm_compute. reflexivity. Qed.
Example sha256_empty :
  sha256 [] = unhex "e3b0c44298fc1c149afbf4c8996fb92427ae41e4649b934ca495991b7852b855"%string.
Proof. vm_compute. reflexivity. Qed.
Example sha256_two_blocks :
  sha256 (bytes_of_string "abcdbcdecdefdefgefghfghighijhijkijkljklmklmnlmnomnopnopq"%string)
  = unhex "248d6a61d20638b8e5c026930c3e6039a33ce45964ff2167f6ecedd419db06c1"%string.
Proof. vm_compute. reflexivity. Qed.
(* git's well-known IDs: the empty blob and the empty tree *)
Example sha1_empty_blob :
  sha1 (bytes_of_string "blob 0"%string ++ [0])%list = unhex "e69de29bb2d1d6434b8b29ae775ad8c2e48c5391"%string.
Proof. vm_compute. reflexivity. Qed.
Example sha1_empty_tree :
  sha1 (bytes_of_string "tree 0"%string ++ [0])%list = unhex "4b825dc642cb6eb9a060e54bf8d69288fbee4904"%string.
Proof. vm_compute. reflexivity. Qed.
Example sha256_empty_blob :
  sha256 (bytes_of_string "blob 0"%string ++ [0])%list
  = unhex "473a0f4c3be8a93681a267e3b1e9a7dcda1185436fe141f7749120a303721813"%string.
Proof. vm_compute. reflexivity. Qed.
