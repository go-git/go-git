(* Proofs/C36Refspec.v — refspecs map names there and back: for a valid
   refspec s and a name n it matches, the reversed refspec matches Dst(n) and
   maps it back to n.  pruneRemotes (fetch) and deleteReferences with prune
   (push) rely on this; for a forced refspec it holds because Reverse keeps
   the '+' in front. *)
From Coq Require Import List NArith Bool Lia Arith.
From GoGit Require Import Base.Out Model.RefSpec.
Import ListNotations.
Local Open Scope N_scope.

Lemma beq_bytes_refl : forall a, beq_bytes a a = true.
Proof. induction a as [|x a IH]; cbn; [reflexivity | now rewrite N.eqb_refl, IH]. Qed.

Lemma beq_bytes_true : forall a b, beq_bytes a b = true -> a = b.
Proof.
  induction a as [|x a IH]; destruct b as [|y b]; cbn; intros H; try discriminate; [reflexivity|].
  apply andb_true_iff in H. destruct H as [A B]. apply N.eqb_eq in A. subst. f_equal. now apply IH.
Qed.

Lemma count_app : forall c a b, count_byte c (a ++ b) = (count_byte c a + count_byte c b)%nat.
Proof. induction a as [|x a IH]; intros b; cbn [count_byte app]; [reflexivity | rewrite IH; lia]. Qed.

Lemma cut_at_app : forall c a b, count_byte c a = O -> cut_at c (a ++ c :: b) = (a, b, true).
Proof.
  induction a as [|x a IH]; intros b H; cbn [app cut_at].
  - now rewrite N.eqb_refl.
  - cbn [count_byte] in H. destruct (x =? c) eqn:E; [cbn in H; discriminate|]. cbn in H. now rewrite IH.
Qed.

Lemma count_split : forall c s, count_byte c s <> O -> exists a b, s = a ++ c :: b /\ count_byte c a = O.
Proof.
  induction s as [|x s IH]; intros H; cbn [count_byte] in H; [contradiction|].
  destruct (x =? c) eqn:E.
  - apply N.eqb_eq in E. subst x. now exists [], s.
  - destruct (IH H) as (a & b & -> & Ca). exists (x :: a), b. cbn [count_byte app]. now rewrite E.
Qed.

Lemma cut_at_found : forall c s, count_byte c s <> O -> exists a b, cut_at c s = (a, b, true).
Proof. intros c s H. destruct (count_split c s H) as (a & b & -> & Ca). exists a, b. now apply cut_at_app. Qed.

Lemma cut_at_none : forall c s, count_byte c s = O -> cut_at c s = (s, [], false).
Proof.
  induction s as [|x s IH]; intros H; cbn [cut_at]; [reflexivity|]. cbn [count_byte] in H.
  destruct (x =? c) eqn:E; [cbn in H; discriminate|]. cbn in H. now rewrite IH.
Qed.

Lemma has_prefix_app : forall p r, has_prefix p (p ++ r) = true.
Proof. induction p as [|x p IH]; intros r; cbn; [reflexivity | now rewrite N.eqb_refl, IH]. Qed.

Lemma has_prefix_split : forall p s, has_prefix p s = true -> exists r, s = p ++ r.
Proof.
  induction p as [|x p IH]; intros s H; [exists s; reflexivity|]. destruct s as [|y s]; cbn in H; [discriminate|].
  apply andb_true_iff in H. destruct H as [A B]. apply N.eqb_eq in A. subst. destruct (IH _ B) as (r & ->). now exists r.
Qed.

Lemma has_suffix_app : forall p r, has_suffix p (r ++ p) = true.
Proof. intros. unfold has_suffix. rewrite rev_app_distr. apply has_prefix_app. Qed.

Lemma has_suffix_split : forall p s, has_suffix p s = true -> exists r, s = r ++ p.
Proof.
  intros p s H. unfold has_suffix in H. destruct (has_prefix_split _ _ H) as (r & E).
  exists (rev r). rewrite <- (rev_involutive s), E, rev_app_distr, rev_involutive. reflexivity.
Qed.

(* a name matched by pre*suf is pre ++ m ++ suf *)
Lemma glob_split : forall pre suf n : bytes,
  (List.length pre + List.length suf <= List.length n)%nat -> has_prefix pre n = true -> has_suffix suf n = true ->
  exists m, n = pre ++ m ++ suf.
Proof.
  intros pre suf n L P S. destruct (has_prefix_split _ _ P) as (r & ->).
  destruct (has_suffix_split _ _ S) as (q & E).
  (* the two splittings of n overlap in l: suf reaches into pre, or ends inside r *)
  apply app_eq_app in E. destruct E as (l & [[-> ->]|[-> ->]]); [|now exists l].
  destruct l; [exists []; now rewrite !app_nil_r|]. rewrite !app_length in L. cbn in L. lia.
Qed.

Lemma middle : forall pre m suf : bytes,
  firstn (List.length (pre ++ m ++ suf) - List.length pre - List.length suf) (skipn (List.length pre) (pre ++ m ++ suf)) = m.
Proof.
  intros. rewrite skipn_app, Nat.sub_diag, skipn_all. cbn [app skipn]. rewrite !app_length.
  replace (List.length pre + (List.length m + List.length suf) - List.length pre - List.length suf)%nat with (List.length m) by lia.
  rewrite firstn_app, Nat.sub_diag, firstn_all. cbn [firstn]. now rewrite app_nil_r.
Qed.

(* the destination must not begin with '+': "a:+b" reversed would read as the
   forced refspec "+b:a" *)
Definition dst_plain (s : bytes) : bool :=
  match rs_dstraw s with c :: _ => negb (c =? PLUS) | [] => true end.

Section RoundTrip.
  Variable s : bytes.
  Hypothesis Hv : rs_valid s = true.
  Hypothesis Hp : dst_plain s = true.

  Let pfx : bytes := if rs_force s then [PLUS] else [].
  Let body := if rs_force s then tl s else s.
  Let src := fst (fst (cut_at COLON body)).
  Let dst := snd (fst (cut_at COLON body)).

  Lemma pfx_counts : count_byte COLON pfx = O /\ count_byte STAR pfx = O.
  Proof. unfold pfx. destruct (rs_force s); split; reflexivity. Qed.

  Lemma valid_shape :
    s = pfx ++ body /\ body = src ++ COLON :: dst /\ count_byte COLON src = O /\ count_byte COLON dst = O /\
    count_byte STAR src = count_byte STAR dst /\ (count_byte STAR src < 2)%nat /\
    rs_src s = src /\ rs_dstraw s = dst.
  Proof.
    unfold rs_valid in Hv. apply andb_true_iff in Hv. destruct Hv as [H1 H3]. apply andb_true_iff in H1. destruct H1 as [H1 H2].
    apply Nat.eqb_eq in H1. apply andb_true_iff in H3. destruct H3 as [H3 H4]. apply Nat.eqb_eq in H3. apply Nat.ltb_lt in H4.
    destruct pfx_counts as [Pc Ps].
    assert (Hs : s = pfx ++ body).
    { unfold pfx, body, rs_force. destruct s as [|c r]; [reflexivity|]. destruct (c =? PLUS) eqn:E; [apply N.eqb_eq in E; now subst | reflexivity]. }
    assert (Cb : count_byte COLON body = 1%nat) by (rewrite Hs, count_app, Pc in H1; exact H1).
    destruct (count_split COLON body ltac:(lia)) as (a & b & Cs & Ca).
    assert (C : cut_at COLON body = (a, b, true)) by (rewrite Cs; now apply cut_at_app).
    assert (Esrc : src = a) by (unfold src; now rewrite C). assert (Edst : dst = b) by (unfold dst; now rewrite C).
    assert (Cd : count_byte COLON b = O).
    { rewrite Cs, count_app in Cb. cbn [count_byte] in Cb. rewrite N.eqb_refl in Cb. lia. }
    assert (Cw : cut_at COLON s = (pfx ++ a, b, true)).
    { rewrite Hs at 1. rewrite Cs, app_assoc. apply cut_at_app. now rewrite count_app, Pc, Ca. }
    unfold rs_dstraw in H3, H4 |- *. rewrite Cw in H3, H4 |- *. cbn [fst snd] in *.
    rewrite count_app, Ps in H3, H4. cbn in H3, H4.
    rewrite Esrc, Edst. repeat split; auto.
  Qed.

  Lemma reverse_shape : rs_reverse s = pfx ++ dst ++ COLON :: src.
  Proof. unfold rs_reverse. fold body pfx. unfold src, dst. destruct (cut_at COLON body) as [[a b] f]. reflexivity. Qed.

  Lemma reverse_parts :
    rs_src (rs_reverse s) = dst /\ rs_dstraw (rs_reverse s) = src /\ rs_wild (rs_reverse s) = rs_wild s.
  Proof.
    destruct valid_shape as (Hs & Hb & Cs & Cd & St & Lt & Es & Ed).
    destruct pfx_counts as [Pc Ps]. rewrite reverse_shape.
    assert (F : rs_force (pfx ++ dst ++ COLON :: src) = rs_force s).
    { unfold pfx. destruct (rs_force s) eqn:E; [reflexivity|]. cbn [app].
      unfold dst_plain in Hp. rewrite Ed in Hp. destruct dst as [|c r]; [reflexivity|]. cbn. now apply negb_true_iff in Hp. }
    split; [|split].
    - unfold rs_src. rewrite F. fold pfx.
      replace (if rs_force s then tl (pfx ++ dst ++ COLON :: src) else pfx ++ dst ++ COLON :: src) with (dst ++ COLON :: src)
        by (unfold pfx; destruct (rs_force s); reflexivity).
      now rewrite cut_at_app.
    - unfold rs_dstraw. rewrite app_assoc, cut_at_app; [reflexivity | now rewrite count_app, Pc, Cd].
    - assert (E : count_byte STAR (pfx ++ dst ++ COLON :: src) = count_byte STAR s).
      { transitivity (count_byte STAR (pfx ++ src ++ COLON :: dst)).
        - rewrite !count_app. cbn [count_byte]. replace (COLON =? STAR) with false by reflexivity. lia.
        - rewrite <- Hb, <- Hs. reflexivity. }
      unfold rs_wild. now rewrite E.
  Qed.

  Lemma roundtrip : forall n, rs_match s n = true ->
    rs_match (rs_reverse s) (rs_dst s n) = true /\ rs_dst (rs_reverse s) (rs_dst s n) = n.
  Proof.
    intros n M. destruct valid_shape as (Hs & Hb & Cs & Cd & St & Lt & Es & Ed).
    destruct reverse_parts as (Rs & Rd & Rw).
    unfold rs_match, rs_dst in *. rewrite Rw, Rs, Rd, Es, Ed in *.
    destruct (rs_wild s) eqn:W.
    - (* one '*' on each side *)
      assert (Ws : count_byte STAR src = 1%nat).
      { unfold rs_wild in W. apply negb_true_iff, Nat.eqb_neq in W. rewrite Hs, Hb, !count_app in W.
        destruct pfx_counts as [_ Ps]. rewrite Ps in W. cbn [count_byte] in W. replace (COLON =? STAR) with false in W by reflexivity. lia. }
      destruct (cut_at_found STAR src ltac:(lia)) as (pre & suf & C1).
      destruct (cut_at_found STAR dst ltac:(lia)) as (b4 & af & C2).
      rewrite C1, C2 in *.
      apply andb_true_iff in M. destruct M as [M M3]. apply andb_true_iff in M. destruct M as [M1 M2].
      apply Nat.leb_le in M1. destruct (glob_split _ _ _ M1 M2 M3) as (m & ->).
      rewrite middle. split.
      + rewrite !app_length. rewrite has_prefix_app. rewrite app_assoc, has_suffix_app.
        rewrite !andb_true_r. apply Nat.leb_le. lia.
      + rewrite middle. reflexivity.
    - apply beq_bytes_true in M. subst n. split; [apply beq_bytes_refl | reflexivity].
  Qed.
End RoundTrip.
