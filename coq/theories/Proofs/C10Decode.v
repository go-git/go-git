(* Proofs/C10Decode.v — C10_roundtrip, decode half: Decoder.Decode accepts git's
   idx layout of a well-formed table (whose 64-bit table respects git's size
   bound) and builds the bucketed MemoryIndex [spec_index]: fanout, mapping,
   per-bucket chunks of the three tables, the 64-bit table and both checksums. *)
From Coq Require Import List NArith ZArith Bool Lia ZifyBool ZifyNat ZifyN.
From GoGit Require Import Base.Out Model.PackBytes Model.Idx Gen.C10 Spec.IdxFormat
  Proofs.C10Order Proofs.C10Bytes Proofs.C10Table Proofs.C10Layout Proofs.C10Splits.
Import ListNotations.
Local Open Scope N_scope.

(* the overflow-checked arithmetic of validateIdxV2Size (mulInt64 and addInt64 as Gen/C10.v
   translates them) does not overflow on realistic values *)
Lemma mulInt64_ok a b : (0 <= a)%Z -> (0 <= b)%Z -> (a * b < 9223372036854775808)%Z ->
  idxfile_mulInt64 a b = ((a * b)%Z, true).
Proof.
  intros Ha Hb Hab. unfold idxfile_mulInt64.
  replace ((a <? 0)%Z || (b <? 0)%Z) with false by lia.
  destruct ((a =? 0)%Z || (b =? 0)%Z) eqn:E0.
  - f_equal. nia.
  - (* the product does not wrap, so the division check gives a back *)
    assert (Hle : (0 <= a <= a * b)%Z) by nia.
    cbv zeta. rewrite (wraps64_small (a * b)), Z.quot_mul, (wraps64_small a), Z.eqb_refl by lia. reflexivity.
Qed.

Lemma addInt64_ok a b : (0 <= a)%Z -> (0 <= b)%Z -> (a + b < 9223372036854775808)%Z ->
  idxfile_addInt64 a b = ((a + b)%Z, true).
Proof.
  intros Ha Hb Hab. unfold idxfile_addInt64.
  replace ((a <? 0)%Z || (b <? 0)%Z) with false by lia.
  cbv zeta. rewrite wraps64_small by lia. replace (a + b <? a)%Z with false by lia. reflexivity.
Qed.

(* validateIdxV2Size: header, fanout, two trailer hashes, nr * (id + crc + offset) at least,
   and at most nr - 1 entries of 8 bytes in the 64-bit table on top of that *)
Lemma min_idx_size_eq nr h : (0 <= nr < 2147483648)%Z -> (0 <= h <= 64)%Z ->
  min_idx_size nr h = (1032 + 2 * h + nr * (h + 8))%Z.
Proof.
  intros Hn Hh. unfold min_idx_size.
  change idxfile_crc32Len with 4%Z. change idxfile_offset32Len with 4%Z. change idxfile_headerLen with 8%Z.
  change idxfile_fanoutLen with 1024%Z. change idxfile_trailerHashes with 2%Z.
  assert (nr * (h + 4 + 4) <= 2147483648 * 72)%Z by (apply Z.mul_le_mono_nonneg; lia).
  rewrite mulInt64_ok by lia. cbn [negb]. rewrite addInt64_ok by lia. cbn [negb]. lia.
Qed.

Lemma max_idx_size_eq nr h : (0 <= nr < 2147483648)%Z -> (0 <= h <= 64)%Z ->
  max_idx_size nr h = (min_idx_size nr h + if nr =? 0 then 0 else (nr - 1) * 8)%Z.
Proof.
  intros Hn Hh. unfold max_idx_size. rewrite min_idx_size_eq by assumption. change idxfile_offset64Len with 8%Z.
  assert (nr * (h + 8) <= 2147483648 * 72)%Z by (apply Z.mul_le_mono_nonneg; lia).
  replace (_ <? 0)%Z with false by lia. destruct (nr =? 0)%Z eqn:E; [lia|].
  rewrite mulInt64_ok by lia. cbn [negb]. now rewrite addInt64_ok by lia.
Qed.

Lemma size_ok_layout hs nr nbig :
  (hs <= 64)%nat -> nr < 2147483648 -> (nr = 0 /\ nbig = 0 \/ 0 < nr /\ nbig <= nr - 1) ->
  size_ok hs nr (1032 + nr * N.of_nat hs + nr * 4 + nr * 4 + nbig * 8 + N.of_nat hs + N.of_nat hs) = true.
Proof.
  intros Hh Hn Hb. unfold size_ok. rewrite max_idx_size_eq, min_idx_size_eq by lia.
  destruct (Z.of_N nr =? 0)%Z eqn:E; (replace (_ || _) with false by nia); nia.
Qed.

Lemma read_fanout_flat : forall l rest prev acc,
  nondecN prev l -> (forall x, In x l -> x < 4294967296) ->
  read_fanout (List.length l) (flat_map be32 l ++ rest) prev acc = Some (rev acc ++ l, rest).
Proof.
  induction l as [|x l IH]; intros rest prev acc Hn Hb; cbn [List.length read_fanout flat_map].
  - now rewrite app_nil_r.
  - destruct Hn as [Hp Hn]. rewrite <- app_assoc.
    rewrite (take_app_n 4 (be32 x)) by reflexivity.
    rewrite get32_be32' by (apply Hb; now left).
    replace (x <? prev) with false by lia.
    rewrite IH by (try assumption; intros; apply Hb; now right).
    cbn [rev]. now rewrite <- app_assoc.
Qed.

Lemma count_msb_flat : forall codes,
  (forall c, In c codes -> c < 4294967296) ->
  count_msb (List.length codes) (flat_map be32 codes)
  = N.of_nat (List.length (filter (fun c => P31 <=? c) codes)).
Proof.
  induction codes as [|c l IH]; intros Hb; [reflexivity|].
  cbn [List.length count_msb flat_map filter].
  replace (skipn 4 (be32 c ++ flat_map be32 l)) with (flat_map be32 l) by reflexivity.
  rewrite IH by (intros; apply Hb; now right).
  assert (Hc : c < 4294967296) by (apply Hb; now left).
  replace (hd 0 (be32 c ++ flat_map be32 l)) with (c / 16777216 mod 256) by reflexivity.
  destruct (P31 <=? c) eqn:E; unfold P31 in E.
  - replace (128 <=? c / 16777216 mod 256) with true by lia. cbn [List.length]. lia.
  - replace (128 <=? c / 16777216 mod 256) with false by lia. lia.
Qed.

Lemma filter_splits_count {A} (p : A -> bool) : forall sizes (l : list A),
  nsum sizes = List.length l ->
  fold_right N.add 0 (map (fun g => N.of_nat (List.length (filter p g))) (splits sizes l))
  = N.of_nat (List.length (filter p l)).
Proof.
  induction sizes as [|s r IH]; intros l Hs; cbn [splits map fold_right nsum] in *.
  - destruct l; [reflexivity|discriminate].
  - rewrite IH by (rewrite skipn_length; lia).
    rewrite <- (firstn_skipn s l) at 3. rewrite filter_app, app_length. lia.
Qed.

(* the number of 64-bit entries that the chunks of the 32-bit table announce *)
Lemma count64_splits sizes codes :
  nsum sizes = List.length codes -> (forall c, In c codes -> c < 4294967296) ->
  fold_right N.add 0 (map (fun o => count_msb (N.to_nat (blen o / 4)) o) (map (flat_map be32) (splits sizes codes)))
  = N.of_nat (List.length (filter (fun c => P31 <=? c) codes)).
Proof.
  intros Hs Hb. rewrite <- (filter_splits_count _ sizes codes Hs), map_map. f_equal. apply map_ext_in. intros g Hg.
  rewrite (blen_flat_map be32 4) by auto using blen_be32.
  replace (N.to_nat (N.of_nat (List.length g) * 4 / 4)) with (List.length g) by lia.
  apply count_msb_flat. intros c Hc. apply Hb. eapply splits_incl; eauto.
Qed.

Lemma firstn_app_cut {A} (b s : list A) : firstn (List.length (b ++ s) - List.length s) (b ++ s) = b.
Proof. rewrite app_length, Nat.add_sub, firstn_app, Nat.sub_diag, firstn_all. cbn [firstn]. apply app_nil_r. Qed.

Section Decode.
Variable hs : nat.
Variable Hsz : nat -> bytes -> bytes.
Variable tbl : list entry.
Variable pack : bytes.
Hypothesis WF : wf_tbl hs tbl.
Hypothesis Hpack : List.length pack = hs.
Hypothesis Hhs : (hs <= 64)%nat.
Hypothesis Hdigest : forall b, List.length (Hsz hs b) = hs.
(* git's bound on the 64-bit table: the first object of a pack is at offset 12 *)
Hypothesis Hbig : N.of_nat (List.length tbl) = 0 \/ n_big tbl + 1 <= N.of_nat (List.length tbl).

Let H := Hsz hs.
Let n : N := N.of_nat (List.length tbl).
Let HS : N := N.of_nat hs.
Let file := idx_file H tbl pack.

Definition counts : list N := bucket_counts (fanout_of tbl) 0.
Definition sizes : list nat := nz_sizes counts.
Definition codes : list N := off32_codes tbl 0.

(* the MemoryIndex git's layout decodes to *)
Definition spec_index (sum : bytes) : memidx :=
  mkM (fanout_of tbl) (fmap_of_counts counts 0)
      (zip_buckets (map (flat_map e_hash) (splits sizes tbl))
                   (map (flat_map (fun e => be32 (e_crc e))) (splits sizes tbl))
                   (map (flat_map be32) (splits sizes codes)))
      (S_O64 tbl) pack sum.

Lemma sizes_sum : nsum sizes = List.length tbl.
Proof using WF.
  pose proof (nz_sizes_sum counts) as E. unfold sizes. unfold counts in E at 2.
  rewrite bucket_counts_sum, fanout_last, (count_all WF) in E by apply fanout_nondec. clear - E. lia.
Qed.

Lemma nz_map k : map (fun c => c * k) (filter (fun c => negb (c =? 0)) counts)
               = map (fun s => N.of_nat s * k) sizes.
Proof. unfold sizes, nz_sizes. rewrite map_map. apply map_ext. intros c. now rewrite N2Nat.id. Qed.

Theorem decode_layout : decode hs Hsz file = Ok (spec_index (S_SUM H tbl pack)).
Proof.
  assert (Hs : blen (S_SUM H tbl pack) = HS) by (unfold S_SUM, blen, HS, H; now rewrite Hdigest).
  pose proof (n_big_le tbl) as Hnb. pose proof (wf_count _ _ WF) as Hcnt.
  assert (Hcodes : nsum sizes = List.length codes) by (unfold codes; rewrite off32_codes_length; exact sizes_sum).
  unfold decode. cbv zeta. unfold file. rewrite (blen_file H WF Hpack), Hs.
  rewrite file_parts at 1. cbn [concat]. rewrite app_nil_r. unfold S_HDRB. rewrite <- !app_assoc.
  rewrite (take_app_n 4 [255; 116; 79; 99]) by reflexivity.
  replace (bytes_eqb [255; 116; 79; 99] IDX_MAGIC) with true by reflexivity. cbn [negb].
  rewrite (take_app_n 4 (be32 2)) by reflexivity.
  replace (get32 (be32 2) =? IDX_VERSION) with true by reflexivity. cbn [negb].
  unfold S_FAN at 1. change NFANOUT with 256%nat.
  rewrite <- (fanout_length tbl), (read_fanout_flat _ _ 0 [] (fanout_nondec tbl) (fanout_lt WF)). cbn [rev app].
  rewrite fanout_last, (count_all WF), size_ok_layout by (exact Hhs || lia).
  cbn [negb]. fold counts.
  (* the three tables, chunk by chunk *)
  fold HS. rewrite !nz_map.
  rewrite (read_seq_splits e_hash HS sizes tbl); [|apply (blen_hash WF)|exact sizes_sum].
  unfold S_CRC at 1.
  rewrite (read_seq_splits (fun e => be32 (e_crc e)) 4 sizes tbl); [|auto using blen_be32|exact sizes_sum].
  unfold S_O32 at 1. fold codes.
  rewrite (read_seq_splits be32 4 sizes codes); [|auto using blen_be32|exact Hcodes].
  rewrite (count64_splits sizes codes Hcodes (codes_lt WF)).
  unfold codes. rewrite big_codes_count by lia. fold (n_big tbl).
  rewrite (take_app_n (n_big tbl * 8) (S_O64 tbl)) by apply blen_O64.
  rewrite (take_app_n HS pack) by apply (blen_pack WF Hpack).
  rewrite <- (app_nil_r (S_SUM H tbl pack)) at 1. rewrite (take_app_n HS (S_SUM H tbl pack)) by exact Hs.
  (* the digest of everything read so far *)
  change (idx_file H tbl pack) with (idx_body tbl pack ++ S_SUM H tbl pack). rewrite firstn_app_cut.
  now replace (bytes_eqb (S_SUM H tbl pack) (Hsz hs (idx_body tbl pack))) with true
    by (symmetry; apply bytes_eqb_eq; reflexivity).
Qed.

End Decode.
