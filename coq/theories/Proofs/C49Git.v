(* Proofs/C49Git.v — git 2.39.5's dowild (Spec/GitIgnore.v) satisfies the
   invariant of C49Wild.v, so the two wildmatch agree on the fragment; the
   full statement about ignore files is false. *)
From Coq Require Import List NArith Bool Lia.
From GoGit Require Import Base.Out Model.Gitignore Spec.Glob Spec.GitIgnore
     Proofs.C49Total Proofs.C49Wild.
Import ListNotations.
Local Open Scope N_scope.

Lemma gdowild_S f flags prev p t :
  gdowild (S f) flags prev p t =
  wild_step (gdowild f flags) WNoMatch WNoMatch (fun _ : bool => WNoMatch) flags prev p t.
Proof. reflexivity. Qed.

Lemma gdowild_R : forall fuel fuel' p t prev g,
  (List.length p < fuel)%nat -> parse_glob fuel' p = Some g ->
  R g (gdowild fuel 0 prev p t) t.
Proof. exact (wild_R gdowild _ _ _ gdowild_S (or_intror eq_refl)). Qed.

Theorem gwildmatch_sound_complete p g t :
  glob_of p = Some g -> (gwildmatch 0 p t = true <-> Gmatch g t).
Proof.
  intros Hp. apply R_match. eapply gdowild_R; [unfold wm_fuel; lia|exact Hp].
Qed.

Theorem wildmatch_eq_git p g t : glob_of p = Some g -> wildmatch p t = gwildmatch 0 p t.
Proof.
  intros Hp. apply eq_true_iff_eq.
  now rewrite (wildmatch_sound_complete p g), (gwildmatch_sound_complete p g).
Qed.

Lemma eq_git_refuted : exists excl fs path isdir,
  ignored excl fs path isdir <> git_ignored excl fs path isdir.
Proof.
  (* pattern foo**/bar, path foobar *)
  exists None, [([], [102;111;111;42;42;47;98;97;114])], [[102;111;111;98;97;114]], false.
  vm_compute. discriminate.
Qed.
