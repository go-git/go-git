(* Proofs/C27Trie.v — Worktree.status computed by the merkletrie walk over the HEAD
   tree, the index tree and the (ignore-pruned) worktree tree is Worktree.status
   of the flattened state (Model/Status.v): the parts.  The noder trees are the
   data trees with every leaf replaced by the encoding of its noder hash, or left
   out (tfm; flattened: ffm), and the changes of one walk over two such trees are,
   per joined path, change1 of the two noder hashes (section OneDiff).
   The walk is the recursive merge of Model/DiffTree.v; its characterisation
   (C44: the changes are exactly the differences of the flattened trees, each
   once) is imported from Proofs/C44_*.  Proofs/C27TrieMain.v puts the two walks together. *)
From Coq Require Import List NArith ZArith Bool Arith.
From GoGit Require Import Base.Out Model.Status Model.StatusTrie Spec.GitStatus Proofs.C27.
From GoGit Require Model.DiffTree Spec.MapDiff Proofs.C44_order Proofs.C44_diff Proofs.C44_sort Proofs.C44_spec Proofs.C44_paths.
Import ListNotations.
Local Open Scope N_scope.

Notation fmapd := (list (dpath * dleaf)).
Notation pren := C44_diff.pren.

Lemma modes_distinct :
  (DiffTree.canon_mode M_REG =? DiffTree.canon_mode M_EXEC) = false /\
  (DiffTree.canon_mode M_REG =? DiffTree.canon_mode M_LINK) = false /\
  (DiffTree.canon_mode M_EXEC =? DiffTree.canon_mode M_LINK) = false /\
  (M_REG =? M_EXEC) = false /\ (M_REG =? M_LINK) = false.
Proof. vm_compute. repeat split; reflexivity. Qed.

Lemma canon_mode_num a b :
  (DiffTree.canon_mode (mode_num a) =? DiffTree.canon_mode (mode_num b)) = fmode_eqb a b.
Proof.
  destruct modes_distinct as (H1 & H2 & H3 & _).
  destruct a, b; cbn [mode_num fmode_eqb]; rewrite ?N.eqb_refl; try reflexivity;
    try assumption; rewrite N.eqb_sym; assumption.
Qed.

Lemma dec_mode_num m : dec_mode (mode_num m) = m.
Proof.
  destruct modes_distinct as (_ & _ & _ & H4 & H5).
  destruct m; unfold dec_mode, mode_num; try rewrite H4; try rewrite H5; try reflexivity.
Qed.

Lemma leaf_eqb_enc a b : DiffTree.leaf_eqb (enc a) (enc b) = nhash_eqb a b.
Proof.
  destruct a as [[fa ca] ma], b as [[fb cb] mb]. unfold DiffTree.leaf_eqb, enc, nhash_eqb, hash_eqb.
  cbn [fst snd h_fmt h_cid]. rewrite canon_mode_num.
  assert (E : DiffTree.bytes_eqb [fa; ca] [fb; cb] = (fa =? fb) && (ca =? cb)).
  { apply eq_true_iff_eq. rewrite C44_order.bytes_eqb_eq, andb_true_iff, !N.eqb_eq.
    split; [intros H; now inversion H|intros [-> ->]; reflexivity]. }
  rewrite E. apply andb_comm.
Qed.

(* a HEAD leaf is the encoding of its own noder hash *)
Definition head_leaf_ok (l : dleaf) : bool :=
  ((fst l =? M_REG) || (fst l =? M_EXEC) || (fst l =? M_LINK)) && Nat.eqb (List.length (snd l)) 2.

Lemma head_leaf_enc p l : head_leaf_ok l = true -> enc (tnode_hash (dec_t (p, l))) = l.
Proof.
  destruct l as [m d]. unfold head_leaf_ok. cbn [fst snd]. intros H. apply andb_true_iff in H as [Hm Hd].
  destruct d as [|a [|b [|c d]]]; try discriminate.
  unfold enc, tnode_hash, dec_t. cbn [fst snd te_hash te_mode h_fmt h_cid nth0 nth].
  f_equal. assert (Hx : exists x, m = mode_num x).
  { rewrite !orb_true_iff, !N.eqb_eq in Hm. destruct Hm as [[->| ->]| ->]; [exists MReg|exists MExec|exists MLink]; reflexivity. }
  destruct Hx as [x ->]. now rewrite dec_mode_num.
Qed.

Definition ffm (f : dpath -> dleaf -> option dleaf) (pre : dpath) (m : fmapd) : fmapd :=
  flat_map (fun pl => match f (pre ++ fst pl) (snd pl) with Some l' => [(fst pl, l')] | None => [] end) m.

Lemma ffm_app f pre a b : ffm f pre (a ++ b) = ffm f pre a ++ ffm f pre b.
Proof. unfold ffm. apply flat_map_app. Qed.

Lemma ffm_pren f pre n X : ffm f pre (map (pren n) X) = map (pren n) (ffm f (pre ++ [n]) X).
Proof.
  induction X as [|[q l] X IH]; [reflexivity|].
  cbn [map]. unfold ffm in *. cbn [flat_map]. rewrite IH, map_app. f_equal.
  unfold pren. cbn [fst snd]. rewrite <- app_assoc. cbn [app].
  destruct (f (pre ++ n :: q) l); reflexivity.
Qed.

Ltac dnfm := match goal with |- context [nfm ?a ?b ?c] => destruct (nfm a b c) eqn:?E end.

Lemma nfm_dir f pre cs : nfm f pre (DiffTree.Dir cs) = Some (DiffTree.Dir (tfm f pre cs)).
Proof.
  cbn [nfm]. f_equal. f_equal. induction cs as [|c r IH]; [reflexivity|].
  cbn [tfm]. rewrite <- IH. reflexivity.
Qed.

Lemma files_nfm f x : forall pre,
  match nfm f pre x with Some x' => DiffTree.files x' | None => [] end = ffm f pre (DiffTree.files x).
Proof.
  induction x as [l|cs IH] using C44_diff.node_ind'; intros pre.
  - cbn [nfm DiffTree.files]. unfold ffm. cbn [flat_map fst snd]. rewrite !app_nil_r.
    destruct (f pre l); reflexivity.
  - rewrite nfm_dir. rewrite !C44_diff.files_dir.
    induction cs as [|[n c] r IHr]; [reflexivity|].
    inversion IH as [|? ? Hc Hr]; subst. cbn [fst snd] in Hc.
    cbn [tfm fst snd]. rewrite C44_diff.files_l_cons, ffm_app, ffm_pren, <- (Hc (pre ++ [n])), <- (IHr Hr).
    dnfm; [rewrite C44_diff.files_l_cons; reflexivity|reflexivity].
Qed.

Lemma files_tfm f pre t : fl (tfm f pre t) = ffm f pre (fl t).
Proof.
  unfold fl. rewrite <- !C44_diff.files_dir.
  pose proof (files_nfm f (DiffTree.Dir t) pre) as H. rewrite nfm_dir in H. exact H.
Qed.

Lemma in_ffm f m p l' :
  In (p, l') (ffm f [] m) <-> exists l, In (p, l) m /\ f p l = Some l'.
Proof.
  unfold ffm. rewrite in_flat_map. split.
  - intros ([q l] & Hi & H). cbn [fst snd app] in H. destruct (f q l) as [x|] eqn:E; [|destruct H].
    destruct H as [H|[]]. inversion H; subst. exists l. auto.
  - intros (l & Hi & E). exists (p, l). split; [exact Hi|]. cbn [fst snd app]. rewrite E. now left.
Qed.

(* names survive as a sub-list, so a well-formed tree stays well-formed *)
Lemma tfm_names f pre t n : In n (map fst (tfm f pre t)) -> In n (map fst t).
Proof.
  induction t as [|c r IH]; [intros []|]. cbn [tfm].
  dnfm; cbn [map fst In]; intros H.
  - destruct H as [H|H]; [now left|right; now apply IH].
  - right. now apply IH.
Qed.

Lemma nodupb_tfm f pre t : MapDiff.nodupb (map fst t) = true -> MapDiff.nodupb (map fst (tfm f pre t)) = true.
Proof.
  induction t as [|c r IH]; [reflexivity|]. cbn [map MapDiff.nodupb]. intros H. apply andb_true_iff in H as [H1 H2].
  cbn [tfm]. dnfm; [|now apply IH].
  cbn [map fst MapDiff.nodupb]. rewrite (IH H2), andb_true_r. apply negb_true_iff in H1. apply negb_true_iff.
  rewrite existsb_false in *. intros n0 Hn. apply H1. now apply tfm_names in Hn.
Qed.

Lemma node_ok_nfm f x : forall pre x', MapDiff.node_ok x = true -> nfm f pre x = Some x' -> MapDiff.node_ok x' = true.
Proof.
  induction x as [l|cs IH] using C44_diff.node_ind'; intros pre x' Hok H.
  - cbn [nfm] in H. destruct (f pre l); inversion H. reflexivity.
  - rewrite nfm_dir in H. inversion H; subst. rewrite C44_sort.node_ok_dir_eq in *.
    apply andb_true_iff in Hok as [H1 H2]. rewrite (nodupb_tfm f pre cs H1). cbn [andb].
    clear H H1. induction cs as [|c r IHr]; [reflexivity|].
    inversion IH as [|? ? Hc Hr]; subst. cbn [forallb] in H2. apply andb_true_iff in H2 as [H2 H3].
    cbn [tfm]. dnfm; [|now apply IHr].
    cbn [forallb snd]. rewrite (Hc _ _ H2 E). now apply IHr.
Qed.

Lemma tree_ok_tfm f t : MapDiff.tree_ok t = true -> MapDiff.tree_ok (tfm f [] t) = true.
Proof.
  unfold MapDiff.tree_ok. intros H. apply (node_ok_nfm f (DiffTree.Dir t) [] _ H). apply nfm_dir.
Qed.

Definition find_j (m : fmapd) (q : path) : option (dpath * dleaf) :=
  find (fun pl => bytes_eqb (jpath (fst pl)) q) m.

Lemma find_t_dec m q : find_t (map dec_t m) q = option_map dec_t (find_j m q).
Proof. rewrite find_t_find. apply (look_map te_path). Qed.
Lemma find_i_dec m q : find_i (map dec_i m) q = option_map dec_i (find_j m q).
Proof. rewrite find_i_find. apply (look_map ie_path). Qed.
Lemma find_w_dec ts ig m q : find_w (map (dec_w ts ig) m) q = option_map (dec_w ts ig) (find_j m q).
Proof. rewrite find_w_find. apply (look_map wf_path). Qed.

Definition paths_ok (m : fmapd) : Prop := forall p l, In (p, l) m -> C44_paths.path_ok p = true.

Lemma find_j_some m q p l : find_j m q = Some (p, l) -> In (p, l) m /\ jpath p = q.
Proof.
  unfold find_j. intros H. apply find_some in H as [H1 H2]. cbn [fst] in H2. apply bytes_eqb_eq in H2. auto.
Qed.

Lemma same_jpath m m' p l p' l' :
  paths_ok m -> paths_ok m' -> In (p, l) m -> In (p', l') m' -> jpath p = jpath p' -> p = p'.
Proof. intros Hm Hm' Hi Hi'. apply C44_paths.join_path_inj; [eapply Hm|eapply Hm']; eassumption. Qed.

Lemma find_j_in m p l :
  paths_ok m -> C44_spec.keys_unique m -> In (p, l) m -> find_j m (jpath p) = Some (p, l).
Proof.
  intros Hp Hk Hi. destruct (find_j m (jpath p)) as [[p' l']|] eqn:E.
  - apply find_j_some in E as [E1 E2].
    assert (p' = p) by (eapply same_jpath; eassumption). subst p'. f_equal. f_equal. eapply Hk; eassumption.
  - exfalso. unfold find_j in E. apply (find_none _ _ E) in Hi. cbn [fst] in Hi. rewrite bytes_eqb_refl in Hi. discriminate.
Qed.

Lemma find_j_none m q : find_j m q = None -> forall p l, In (p, l) m -> jpath p <> q.
Proof.
  unfold find_j. intros E p l Hi C. apply (find_none _ _ E) in Hi. cbn [fst] in Hi. subst q. rewrite bytes_eqb_refl in Hi. discriminate.
Qed.

Notation SpecF := C44_diff.SpecF.

Section OneDiff.
(* data maps X, Y (paths well-formed, keys unique), the noder hashes hx, hy of their entries
   (hy None: the entry is left out of the walk) *)
Variables (X Y : fmapd) (hx : dpath * dleaf -> nhash) (hy : dpath * dleaf -> option nhash).
Hypothesis HpX : paths_ok X.
Hypothesis HpY : paths_ok Y.
Hypothesis HkX : C44_spec.keys_unique X.
Hypothesis HkY : C44_spec.keys_unique Y.

Let A : fmapd := ffm (fun p l => Some (enc (hx (p, l)))) [] X.
Let B : fmapd := ffm (fun p l => option_map enc (hy (p, l))) [] Y.

Definition chg (q : path) : option action :=
  change1 (option_map hx (find_j X q))
          (match find_j Y q with Some pl => hy pl | None => None end).

Lemma inA p l' : In (p, l') A <-> exists l, In (p, l) X /\ l' = enc (hx (p, l)).
Proof.
  unfold A. rewrite in_ffm. split; intros (l & H1 & H2); exists l; split; auto; congruence.
Qed.
Lemma inB p l' : In (p, l') B <-> exists l h, In (p, l) Y /\ hy (p, l) = Some h /\ l' = enc h.
Proof.
  unfold B. rewrite in_ffm. split.
  - intros (l & H1 & H2). destruct (hy (p, l)) as [h|] eqn:E; [|discriminate]. inversion H2. eauto.
  - intros (l & h & H1 & H2 & ->). exists l. rewrite H2. auto.
Qed.

Lemma spec_to_chg c : SpecF A B c -> chg (fst (change_of c)) = Some (snd (change_of c)).
Proof.
  destruct c as [p l'|p l'|p a b]; cbn [SpecF change_of fst snd]; unfold chg.
  - intros [HB HA]. apply inB in HB as (l & h & Hi & Hh & ->).
    rewrite (find_j_in Y p l HpY HkY Hi), Hh.
    destruct (find_j X (jpath p)) as [[p0 l0]|] eqn:E; [|reflexivity].
    exfalso. apply find_j_some in E as [E1 E2].
    assert (p0 = p) by (eapply (same_jpath X Y); eassumption). subst p0. apply HA. eexists. apply inA. eauto.
  - intros [HA HB]. apply inA in HA as (l & Hi & ->).
    rewrite (find_j_in X p l HpX HkX Hi). cbn [option_map].
    destruct (find_j Y (jpath p)) as [[p0 l0]|] eqn:E; [|reflexivity].
    apply find_j_some in E as [E1 E2].
    assert (p0 = p) by (eapply (same_jpath Y X); eassumption). subst p0. destruct (hy (p, l0)) as [h|] eqn:Hh; [|reflexivity].
    exfalso. apply HB. eexists. apply inB. eauto.
  - intros (HA & HB & Hne). apply inA in HA as (l & Hi & ->). apply inB in HB as (l2 & h & Hi2 & Hh & ->).
    rewrite (find_j_in X p l HpX HkX Hi), (find_j_in Y p l2 HpY HkY Hi2), Hh. cbn [option_map change1].
    rewrite leaf_eqb_enc in Hne. now rewrite Hne.
Qed.

Lemma chg_to_spec q a : chg q = Some a -> exists c, SpecF A B c /\ change_of c = (q, a).
Proof.
  unfold chg.
  destruct (find_j X q) as [[p l]|] eqn:EX; destruct (find_j Y q) as [[p2 l2]|] eqn:EY; cbn [option_map].
  - apply find_j_some in EX as [EX1 EX2]. apply find_j_some in EY as [EY1 EY2].
    assert (p2 = p) by (eapply (same_jpath Y X); try eassumption; congruence). subst p2. destruct (hy (p, l2)) as [h|] eqn:Hh; cbn [change1].
    + destruct (nhash_eqb (hx (p, l)) h) eqn:E; [discriminate|]. intros H; inversion H; subst a.
      exists (DiffTree.MMod p (enc (hx (p, l))) (enc h)). split; [|cbn [change_of]; now rewrite EX2].
      cbn [SpecF]. repeat split; [apply inA; eauto|apply inB; eauto|now rewrite leaf_eqb_enc].
    + intros H; inversion H; subst a.
      exists (DiffTree.MDel p (enc (hx (p, l)))). split; [|cbn [change_of]; now rewrite EX2].
      cbn [SpecF]. split; [apply inA; eauto|]. intros (l' & Hl'). apply inB in Hl' as (l3 & h & H3 & H4 & _).
      assert (l3 = l2) by (eapply HkY; eassumption). subst l3. congruence.
  - apply find_j_some in EX as [EX1 EX2]. cbn [change1]. intros H; inversion H; subst a.
    exists (DiffTree.MDel p (enc (hx (p, l)))). split; [|cbn [change_of]; now rewrite EX2].
    cbn [SpecF]. split; [apply inA; eauto|]. intros (l' & Hl'). apply inB in Hl' as (l3 & h & H3 & _).
    eapply (find_j_none Y q EY); [exact H3|exact EX2].
  - apply find_j_some in EY as [EY1 EY2]. destruct (hy (p2, l2)) as [h|] eqn:Hh; cbn [change1]; [|discriminate].
    intros H; inversion H; subst a.
    exists (DiffTree.MIns p2 (enc h)). split; [|cbn [change_of]; now rewrite EY2].
    cbn [SpecF]. split; [apply inB; eauto|]. intros (l' & Hl'). apply inA in Hl' as (l3 & H3 & _).
    eapply (find_j_none X q EX); [exact H3|exact EY2].
  - discriminate.
Qed.

Lemma keysA : C44_spec.keys_unique A.
Proof.
  intros p a b Ha Hb. apply inA in Ha as (l1 & H1 & ->). apply inA in Hb as (l2 & H2 & ->).
  now rewrite (HkX p l1 l2 H1 H2).
Qed.
Lemma keysB : C44_spec.keys_unique B.
Proof.
  intros p a b Ha Hb. apply inB in Ha as (l1 & h1 & H1 & E1 & ->). apply inB in Hb as (l2 & h2 & H2 & E2 & ->).
  rewrite (HkY p l1 l2 H1 H2) in E1. congruence.
Qed.
Lemma pathsA p l : In (p, l) A -> C44_paths.path_ok p = true.
Proof. intros H. apply inA in H as (l0 & H & _). eapply HpX; eassumption. Qed.
Lemma pathsB p l : In (p, l) B -> C44_paths.path_ok p = true.
Proof. intros H. apply inB in H as (l0 & h & H & _). eapply HpY; eassumption. Qed.

Lemma spec_path_ok c : SpecF A B c -> C44_paths.path_ok (C44_diff.path_of c) = true.
Proof.
  destruct c; cbn [SpecF C44_diff.path_of]; intros H.
  - destruct H as [H _]. eapply pathsB; eassumption.
  - destruct H as [H _]. eapply pathsA; eassumption.
  - destruct H as [H _]. eapply pathsA; eassumption.
Qed.

Lemma spec_same_path c c' :
  SpecF A B c -> SpecF A B c' -> fst (change_of c) = fst (change_of c') -> c = c'.
Proof.
  intros H H' E.
  assert (P : C44_diff.path_of c = C44_diff.path_of c').
  { apply C44_paths.join_path_inj; [now apply spec_path_ok|now apply spec_path_ok|].
    destruct c, c'; exact E. }
  (* a change of another kind at the same path: one says the path is absent where the other finds an entry *)
  destruct c as [p l|p l|p a b], c' as [p' l'|p' l'|p' a' b']; cbn [C44_diff.path_of] in P; subst p'; cbn [SpecF] in H, H';
    try (exfalso; intuition eauto; fail).
  - f_equal. destruct H, H'. eapply keysB; eassumption.
  - f_equal. destruct H, H'. eapply keysA; eassumption.
  - destruct H as (H1 & H2 & _), H' as (H1' & H2' & _). f_equal; [eapply keysA|eapply keysB]; eassumption.
Qed.

End OneDiff.

(* a change list that is, per joined path, the function [f] *)
Lemma assoc_char L (f : path -> option action) :
  NoDup (map fst L) ->
  (forall q a, In (q, a) L <-> f q = Some a) ->
  forall q, assoc q L = f q.
Proof.
  intros Hn Hc q. unfold assoc. destruct (find (fun x => bytes_eqb (fst x) q) L) as [[p a]|] eqn:F.
  - apply find_some in F as [F1 F2]. cbn [fst] in F2. apply bytes_eqb_eq in F2. subst p.
    cbn [option_map snd]. symmetry. now apply Hc.
  - cbn [option_map]. destruct (f q) as [a|] eqn:E; [|reflexivity].
    apply Hc in E. apply (find_none _ _ F) in E. cbn [fst] in E. rewrite bytes_eqb_refl in E. discriminate.
Qed.
