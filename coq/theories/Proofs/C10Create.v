(* Proofs/C10Create.v — Writer.createIndex followed by Encode writes exactly
   git's idx v2 layout of the sorted table (Spec/IdxFormat.idx_file):
   what Encode makes of a FanoutMapping that numbers the buckets in order,
   then the loop invariant of createIndex that says it does. *)
From Coq Require Import List NArith ZArith Bool Lia ZifyBool ZifyNat ZifyN.
From GoGit Require Import Base.Out Model.PackBytes Model.Idx Spec.IdxFormat
  Proofs.C10Order Proofs.C10Table Proofs.C10Layout.
Import ListNotations.
Local Open Scope N_scope.

(* the bucket positions a FanoutMapping holds, in fanout order *)
Definition somes_of (fm : list (option N)) : list N :=
  flat_map (fun o => match o with Some v => [v] | None => [] end) fm.
Definition somes (f : nat -> option N) (k : nat) : list N := somes_of (map f (seq 0 k)).

Lemma somes_S f k : somes f (S k) = somes f k ++ match f k with Some v => [v] | None => [] end.
Proof. unfold somes, somes_of. rewrite seq_S, map_app, flat_map_app. cbn. now rewrite app_nil_r. Qed.

Lemma somes_ext f g k : (forall j, (j < k)%nat -> f j = g j) -> somes f k = somes g k.
Proof. intros E. unfold somes. f_equal. apply map_ext_in. intros j Hj. apply in_seq in Hj. apply E. lia. Qed.

Lemma somes_none_tail f a : forall k, (a <= k)%nat -> (forall j, (a <= j)%nat -> f j = None) -> somes f k = somes f a.
Proof.
  induction k as [|k IH]; intros Hk Hn.
  - now replace a with 0%nat by lia.
  - destruct (Nat.eq_dec a (S k)) as [->|Hne]; [reflexivity|].
    rewrite somes_S, (Hn k), app_nil_r by lia. apply IH; [lia|assumption].
Qed.

(* FanoutMapping[fan] = v for a first byte past all those mapped so far *)
Lemma somes_set f fan v k : (fan < k)%nat -> (forall j, (fan <= j)%nat -> f j = None) ->
  somes (fun j => if Nat.eqb j fan then Some v else f j) k = somes f k ++ [v].
Proof.
  intros Hk Hn. rewrite (somes_none_tail _ (S fan) k), (somes_none_tail f fan k); auto; try lia.
  - rewrite somes_S, Nat.eqb_refl. f_equal. apply somes_ext.
    intros j Hj. now replace (Nat.eqb j fan) with false by lia.
  - intros j Hj. replace (Nat.eqb j fan) with false by lia. apply Hn. lia.
Qed.

(* enc_tables over FanoutMapping = the buckets picked by the Some-values, in order *)
Definition pick (sel : bucket -> bytes) (bk : list bucket) (ps : list N) : bytes :=
  flat_map (fun p => sel (nthN bk p emptyB)) ps.

Lemma enc_tables_somes sel m : forall fm,
  (forall p, In p (somes_of fm) -> p < N.of_nat (List.length (m_bk m))) ->
  enc_tables sel m fm = Some (pick sel (m_bk m) (somes_of fm)).
Proof.
  induction fm as [|[p|] fm IH]; intros Hb; cbn [enc_tables somes_of flat_map app] in *; [reflexivity| |apply IH, Hb].
  replace (_ <=? p) with false by (specialize (Hb p (or_introl eq_refl)); lia).
  now rewrite IH by (intros; apply Hb; now right).
Qed.

Fixpoint nseq (a : N) (len : nat) : list N :=
  match len with O => [] | S l => a :: nseq (a + 1) l end.

Lemma nseq_snoc : forall len a, nseq a (S len) = nseq a len ++ [a + N.of_nat len].
Proof.
  induction len as [|len IH]; intros a.
  - cbn. now rewrite N.add_0_r.
  - change (nseq a (S (S len))) with (a :: nseq (a + 1) (S len)). rewrite IH. cbn [nseq app].
    do 3 f_equal. lia.
Qed.

Lemma nseq_in : forall len a p, In p (nseq a len) -> a <= p < a + N.of_nat len.
Proof.
  induction len as [|len IH]; intros a p Hp; cbn in Hp; [contradiction|].
  destruct Hp as [<-|Hp]; [lia|]. apply IH in Hp. lia.
Qed.

Lemma pick_nseq sel : forall bk a,
  pick sel (a ++ bk) (nseq (N.of_nat (List.length a)) (List.length bk)) = flat_map sel bk.
Proof.
  induction bk as [|b bk IH]; intros a; [reflexivity|].
  cbn [List.length nseq pick flat_map]. f_equal.
  - unfold nthN. rewrite Nat2N.id. rewrite app_nth2 by lia. now rewrite Nat.sub_diag.
  - specialize (IH (a ++ [b])). rewrite <- app_assoc in IH. cbn [app] in IH.
    rewrite app_length in IH. cbn [List.length] in IH.
    replace (N.of_nat (List.length a + 1)) with (N.of_nat (List.length a) + 1) in IH by lia. exact IH.
Qed.

(* Encode finds every bucket, in order, when FanoutMapping numbers them in order *)
Lemma enc_tables_all sel m f :
  somes f 256 = nseq 0 (List.length (m_bk m)) ->
  enc_tables sel m (map f (seq 0 256)) = Some (flat_map sel (m_bk m)).
Proof.
  intros E. unfold somes in E. rewrite enc_tables_somes; rewrite E.
  - f_equal. apply (pick_nseq sel (m_bk m) []).
  - intros p Hp. apply nseq_in in Hp. lia.
Qed.

(* appending one record to the current (or a fresh) bucket appends it to the concatenation of the table *)
Lemma bucket_push {A} (sel : bucket -> bytes) (upd : bucket -> bucket) (bks : list bucket) (newb : bool)
    (g : A -> bytes) (l : list A) (y : A) :
  sel emptyB = [] -> (forall b, sel (upd b) = sel b ++ g y) -> (newb = false -> bks <> []) ->
  flat_map sel (rev bks) = flat_map g l ->
  flat_map sel (rev (match (if newb then emptyB :: bks else bks) with [] => [] | b :: r => upd b :: r end))
  = flat_map g (l ++ [y]).
Proof.
  intros He Hu Hn E. rewrite flat_map_app, <- E. cbn [flat_map]. rewrite app_nil_r. destruct newb.
  - cbn [rev]. rewrite flat_map_app. cbn [flat_map]. now rewrite Hu, He, app_nil_r.
  - destruct bks as [|b r]; [now specialize (Hn eq_refl)|].
    cbn [rev]. rewrite !flat_map_app. cbn [flat_map]. now rewrite Hu, !app_nil_r, app_assoc.
Qed.

Lemma off32_codes_snoc P o : forall n0,
  off32_codes (P ++ [o]) n0 = off32_codes P n0 ++ [if is_big o then n0 + n_big P + 2147483648 else e_off o].
Proof.
  unfold n_big. induction P as [|e l IH]; intros n0; cbn [app off32_codes filter List.length].
  - destruct (is_big o); cbn; f_equal; f_equal; lia.
  - destruct (is_big e); cbn [app List.length]; rewrite IH; do 3 f_equal; destruct (is_big o); lia.
Qed.

Lemma big_offsets_snoc P o : big_offsets (P ++ [o]) = big_offsets P ++ (if is_big o then [e_off o] else []).
Proof. unfold big_offsets. rewrite filter_app, map_app. cbn. now destruct (is_big o). Qed.

Lemma n_big_snoc P o : n_big (P ++ [o]) = n_big P + (if is_big o then 1 else 0).
Proof. unfold n_big. rewrite filter_app, app_length. cbn. destruct (is_big o); cbn; lia. Qed.

Lemma count_le_snoc P o k : count_le (P ++ [o]) k = count_le P k + (if first_of o <=? k then 1 else 0).
Proof. unfold count_le. rewrite filter_app, app_length. cbn. destruct (first_of o <=? k); cbn; lia. Qed.

Section Create.
Variable hs : nat.

(* c_last: the first byte of the last object seen, -1 before the first *)
Definition lastb (P : list entry) : Z :=
  match rev P with [] => (-1)%Z | e :: _ => Z.of_nat (first_byte (e_hash e)) end.

Lemma lastb_snoc P o : lastb (P ++ [o]) = Z.of_nat (first_byte (e_hash o)).
Proof. unfold lastb. now rewrite rev_unit. Qed.

Lemma first_le_last P o : wf_tbl hs (P ++ [o]) -> forall e, In e (P ++ [o]) -> first_of e <= first_of o.
Proof.
  intros WF e He. apply in_app_or in He. destruct He as [He|[<-|[]]]; [|lia].
  apply (bytes_cmp_hd (e_hash e) (e_hash o)).
  apply (sorted_app hlt P [o] (wf_sorted _ _ WF)); [exact He|now left].
Qed.

Lemma lastb_le P o : wf_tbl hs (P ++ [o]) -> (lastb P <= Z.of_nat (first_byte (e_hash o)))%Z.
Proof.
  intros WF. pose proof (fan_first WF o (in_elt o P [])) as Ho.
  induction P as [|x P _] using rev_ind; [cbn; lia|]. rewrite lastb_snoc.
  assert (Hx : In x ((P ++ [x]) ++ [o])) by (apply in_or_app; left; apply in_elt).
  pose proof (fan_first WF x Hx). pose proof (first_le_last _ o WF x Hx). lia.
Qed.

Lemma count_le_lastb P j :
  wf_tbl hs P -> (lastb P <= Z.of_nat j)%Z -> count_le P (N.of_nat j) = N.of_nat (List.length P).
Proof.
  induction P as [|x P _] using rev_ind; intros WF Hj; apply count_le_all; intros e He; [destruct He|].
  rewrite lastb_snoc in Hj. pose proof (first_le_last P x WF e He). pose proof (fan_first WF x (in_elt x P [])). lia.
Qed.

(* what the state of createIndex means after the prefix P of the sorted objects *)
Record cinv (P : list entry) (s : cstate) : Prop := mkCI {
  ci_last : c_last s = lastb P;
  ci_fan : forall j, (Z.of_nat j <= c_last s)%Z -> c_fan s j = count_le P (N.of_nat j);
  ci_fnone : forall j, (c_last s < Z.of_nat j)%Z -> c_fmap s j = None;
  ci_somes : somes (c_fmap s) 256 = nseq 0 (List.length (c_bk s));
  ci_names : flat_map b_names (rev (c_bk s)) = flat_map e_hash P;
  ci_crc : flat_map b_crc32 (rev (c_bk s)) = flat_map (fun e => be32 (e_crc e)) P;
  ci_o32 : flat_map b_off32 (rev (c_bk s)) = flat_map be32 (off32_codes P 0);
  ci_o64 : c_off64 s = flat_map be64 (big_offsets P);
  ci_n64 : c_n64 s = n_big P;
  ci_nonempty : P <> [] -> c_bk s <> [] }.

Lemma cinv_init : cinv [] cinit.
Proof. constructor; cbn; try reflexivity; intros; try lia; try congruence. Qed.

Lemma cstep_inv P o s :
  wf_tbl hs (P ++ [o]) -> cinv P s -> cinv (P ++ [o]) (cstep s (N.of_nat (List.length P)) o).
Proof.
  intros WF [I1 I2 I3 I4 I5 I6 I7 I8 I9 I10].
  set (fan := first_byte (e_hash o)).
  assert (Hfan : N.of_nat fan = first_of o) by apply (fan_first WF), in_elt.
  pose proof (first_lt_256 WF o (in_elt o P [])) as Hb.
  pose proof (lastb_le P o WF) as Hlast. fold fan in Hlast.
  pose proof (fun j => count_le_lastb P j (wf_tbl_app_l _ _ _ WF)) as HallP.
  pose proof (n_big_le P) as Hnb. pose proof (wf_count _ _ WF) as Hcnt. rewrite app_length in Hcnt. cbn [List.length] in Hcnt.
  unfold cstep. fold fan. cbv zeta. change (MAXINT32 <? e_off o) with (is_big o). rewrite I1 in *.
  set (newb := negb (lastb P =? Z.of_nat fan)%Z).
  assert (Hsame : newb = false -> c_bk s <> []).
  { intros En. apply I10. intros ->. unfold newb in En. change (lastb []) with (-1)%Z in En. lia. }
  constructor; cbn [c_last c_fan c_fmap c_bk c_off64 c_n64].
  - now rewrite lastb_snoc.
  - intros j Hj. rewrite count_le_snoc, <- Hfan.
    destruct (Nat.eqb_spec j fan) as [->|Ej].
    + rewrite HallP by lia. now replace (N.of_nat fan <=? N.of_nat fan) with true by lia.
    + replace (N.of_nat fan <=? N.of_nat j) with false by lia. rewrite N.add_0_r.
      destruct (_ && _) eqn:Eg; [symmetry; apply HallP; lia|apply I2; lia].
  - intros j Hj. destruct newb; [replace (Nat.eqb j fan) with false by lia|]; apply I3; lia.
  - destruct newb eqn:En.
    + (* new bucket: byte fan gets position length(c_bk s) *)
      cbn [List.length]. rewrite nseq_snoc, <- I4, N.add_0_l.
      apply somes_set; [lia|]. intros j Hj. apply I3. unfold newb in En. lia.
    + destruct (c_bk s) as [|b r] eqn:Eb; [now destruct (Hsame eq_refl)|exact I4].
  - apply (bucket_push b_names); [reflexivity|reflexivity|exact Hsame|exact I5].
  - apply (bucket_push b_crc32); [reflexivity|reflexivity|exact Hsame|exact I6].
  - rewrite off32_codes_snoc, N.add_0_l. apply (bucket_push b_off32); [reflexivity| |exact Hsame|exact I7].
    (* w.offset64 | 0x80000000 is the code of a big offset *)
    intros b. cbn [b_off32]. rewrite I9. destruct (is_big o); [|reflexivity].
    change O64MASK with P31. rewrite lor_mask31; [reflexivity|unfold P31; lia].
  - rewrite big_offsets_snoc, flat_map_app, <- I8. destruct (is_big o); cbn [flat_map]; now rewrite ?app_nil_r.
  - rewrite n_big_snoc, <- I9. destruct (is_big o); [|lia]. rewrite I9, N.mod_small; lia.
  - intros _. destruct newb; [discriminate|]. destruct (c_bk s) eqn:Eb; [now destruct (Hsame eq_refl)|discriminate].
Qed.

Lemma cloop_inv : forall os P s,
  wf_tbl hs (P ++ os) -> cinv P s -> cinv (P ++ os) (cloop s (N.of_nat (List.length P)) os).
Proof.
  induction os as [|o r IH]; intros P s WF I; cbn [cloop].
  - now rewrite app_nil_r.
  - replace (P ++ o :: r) with ((P ++ [o]) ++ r) in * by (now rewrite <- app_assoc).
    replace (N.of_nat (List.length P) + 1) with (N.of_nat (List.length (P ++ [o]))) by (rewrite app_length; cbn; lia).
    apply IH; [exact WF|]. apply cstep_inv; [exact (wf_tbl_app_l _ _ _ WF)|exact I].
Qed.

(* createIndex fills the fanout entries past the last first byte with the object count *)
Lemma cinv_fanout P s : wf_tbl hs P -> cinv P s ->
  map (fun j => if (c_last s <? Z.of_nat j)%Z then N.of_nat (List.length P) else c_fan s j) (seq 0 256) = fanout_of P.
Proof.
  intros WF I. apply map_ext_in. intros j _. destruct (c_last s <? Z.of_nat j)%Z eqn:E.
  - symmetry. apply count_le_lastb; [exact WF|]. rewrite <- (ci_last _ _ I). lia.
  - apply (ci_fan _ _ I). lia.
Qed.

Theorem create_encode_layout (Hsz : nat -> bytes -> bytes) (added tbl : list entry) (pack : bytes) :
  sort_entries added = tbl -> wf_tbl hs tbl ->
  exists m, create_index hs added pack = Ok m /\ encode hs Hsz m = Ok (idx_file (Hsz hs) tbl pack).
Proof.
  intros Es WF. unfold create_index. rewrite Es.
  replace (forallb _ tbl) with true
    by (symmetry; apply forallb_forall; intros e He; apply Nat.eqb_eq, (wf_size _ _ WF e He)).
  pose proof (cloop_inv tbl [] cinit WF cinv_init) as I. cbn [app List.length] in I. change (N.of_nat 0) with 0 in I.
  set (s := cloop cinit 0 tbl) in *.
  eexists. split; [reflexivity|].
  unfold encode, encode_body. cbn [m_fmap m_bk m_fanout m_off64 m_pack]. change NFANOUT with 256%nat.
  rewrite !enc_tables_all by (cbn [m_bk]; rewrite rev_length; apply (ci_somes _ _ I)).
  cbn [m_bk]. now rewrite (cinv_fanout tbl s WF I), (ci_names _ _ I), (ci_crc _ _ I), (ci_o32 _ _ I), (ci_o64 _ _ I).
Qed.

End Create.
