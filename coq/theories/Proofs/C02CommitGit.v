(* Proofs/C02CommitGit.v — commits: for every stored commit that go-git decodes
   and git parses, the decoded tree is git's; and under the boolean clauses of
   Spec/ObjWf.commit_agree_of the decoded parents, author, committer and
   encoding are the ones git reports (commit.c parse_commit_buffer, pretty.c
   parse_commit_header, commit.c find_commit_header). *)
From Coq Require Import List NArith ZArith Bool Lia ZifyBool ZifyNat ZifyN String.
From GoGit Require Import Base.Out Model.ObjLines Model.Ident Model.Commit Spec.GitFields Spec.ObjWf
     Proofs.ObjLinesFacts Proofs.C03CommitSig Proofs.C02Scan Proofs.C02Lines Proofs.C02IdentGit
     Proofs.C02Message.
Import ListNotations.
Local Open Scope N_scope.

Definition enc_agrees (e g : bytes) : Prop := e = g \/ (e = utf8 /\ g = []).

Lemma skipn_len {A} n (x y : list A) : List.length x = n -> skipn n (x ++ y) = y.
Proof. intros <-. apply skipn_app_exact. Qed.
Lemma firstn_len {A} n (x y : list A) : List.length x = n -> firstn n (x ++ y) = x.
Proof. intros <-. apply firstn_app_exact. Qed.
Lemma nth_len {A} n (x : list A) c y d : List.length x = n -> nth n (x ++ c :: y) d = c.
Proof. intros <-. apply nth_app_exact. Qed.

Lemma nth_split_eq {A} (d : A) : forall n l, (n < List.length l)%nat -> l = firstn n l ++ nth n l d :: skipn (S n) l.
Proof.
  induction n as [|n IH]; intros [|x l] H; cbn [List.length] in H; try lia; [reflexivity|].
  cbn [firstn nth skipn app]. f_equal. apply IH. lia.
Qed.

(* chomp and TrimRight "\n" coincide on a line *)
Lemma line_cases l : line_ok l -> exists p, no_lf p = true /\ chomp l = p /\ trim_right LF l = p /\ (l = p ++ [LF] \/ l = p).
Proof.
  intros [Hne [p [Hp [-> | ->]]]]; exists p; (split; [exact Hp|]).
  - unfold chomp. rewrite ends_nl_app_lf, removelast_last, (trim_right_app_lf _ Hp). repeat split. now left.
  - unfold chomp. rewrite (ends_nl_no_lf _ Hp), (trim_right_nolf _ Hp). repeat split. now right.
Qed.

Lemma starts_with_more p b x : starts_with p b = true -> starts_with p (b ++ x) = true.
Proof. intros H. apply starts_with_spec in H as [r ->]. rewrite <- app_assoc. apply starts_with_app. Qed.

Lemma concat_prefix pat l r : line_ok l -> all_but_last_nl (l :: r) = true -> no_lf pat = true ->
  starts_with pat (List.concat (l :: r)) = true -> starts_with pat l = true.
Proof.
  intros Hl Ha Hp H. cbn [List.concat] in H. destruct (line_cases _ Hl) as [p [Hnp [_ [_ [-> | ->]]]]].
  - rewrite <- app_assoc in H. cbn [app] in H. apply starts_with_more. exact (prefix_nolf _ Hp _ _ H).
  - rewrite (abl_eof _ _ Ha (ends_nl_no_lf _ Hnp)) in H. cbn [List.concat] in H. now rewrite app_nil_r in H.
Qed.

Lemma hdr_line k l : line_ok l -> no_lf k = true -> has_byte SPC k = false -> starts_with (k ++ [SPC]) l = true ->
  exists v, chomp l = (k ++ [SPC]) ++ v /\ no_lf v = true /\ split_header l = (k, v).
Proof.
  intros Hl Hk Hs H. destruct (line_cases _ Hl) as [p [Hp [Hc [Ht Hd]]]].
  assert (Hkp : no_lf (k ++ [SPC]) = true) by (rewrite no_lf_app, Hk; reflexivity).
  assert (Hpp : starts_with (k ++ [SPC]) p = true).
  { destruct Hd as [-> | ->]; [|exact H]. exact (prefix_nolf _ Hkp _ _ H). }
  apply starts_with_spec in Hpp as [v Hv]. exists v. rewrite Hc. split; [exact Hv|].
  assert (Hnv : no_lf v = true) by (rewrite Hv, no_lf_app in Hp; now apply andb_true_iff in Hp).
  split; [exact Hnv|]. unfold split_header. rewrite Ht, Hv, <- app_assoc. cbn [app]. now rewrite (cut_at_first _ _ _ Hs).
Qed.

Lemma pre_key k l : line_ok l -> no_lf k = true -> has_byte SPC k = false -> starts_with (k ++ [SPC]) l = true ->
  key_is k l = true /\ value_of l = skipn (List.length k + 1) (chomp l) /\ no_lf (value_of l) = true.
Proof.
  intros Hl Hk Hs H. destruct (hdr_line _ _ Hl Hk Hs H) as [v [Hc [Hv Hsp]]].
  unfold key_is, value_of. rewrite Hsp, Hc. cbn [fst snd]. split; [apply beqb_refl|]. split; [|exact Hv].
  symmetry. apply skipn_len. rewrite app_length. reflexivity.
Qed.

Lemma key_split k l : line_ok l -> key_is k l = true ->
  (value_of l = [] /\ trim_right LF l = k) \/ starts_with (k ++ [SPC]) l = true.
Proof.
  intros Hl. destruct (line_cases _ Hl) as [p [Hp [Hc [Ht Hd]]]].
  unfold key_is, value_of, split_header. rewrite Ht. destruct (cut_at SPC p) as [[k0 v0] f] eqn:Ec. cbn [fst snd].
  intros Hk. apply beqb_eq in Hk. subst k0. destruct (cut_at_spec _ _ _ _ _ Ec) as [Hpk _]. destruct f.
  - right. apply starts_with_spec. destruct Hd as [-> | ->]; rewrite Hpk.
    + exists (v0 ++ [LF]). now rewrite <- !app_assoc.
    + exists v0. now rewrite <- !app_assoc.
  - left. rewrite (cut_at_false _ _ _ _ Ec). split; [reflexivity|]. now rewrite Hpk, app_nil_r.
Qed.

Lemma nokey_nopre k l : line_ok l -> no_lf k = true -> has_byte SPC k = false ->
  key_is k l = false -> starts_with (k ++ [SPC]) l = false.
Proof.
  intros Hl Hk Hs H. destruct (starts_with (k ++ [SPC]) l) eqn:E; [|reflexivity].
  destruct (pre_key _ _ Hl Hk Hs E) as [H2 _]. congruence.
Qed.

Lemma key_nonblank k l : key_is k l = true -> k <> [] -> is_blank l = false.
Proof.
  intros H Hk. destruct (is_blank l) eqn:Hb; [|reflexivity]. destruct l as [|x [|y l']]; try discriminate.
  cbn in Hb. apply N.eqb_eq in Hb. subst x. unfold key_is in H. change (split_header [LF]) with (@nil N, @nil N) in H.
  cbn [fst] in H. destruct k; [contradiction|discriminate].
Qed.

(* what pretty.c parse_commit_header keeps of a line that go-git reads with key k *)
Lemma scan_keyed k l r a cm : line_ok l -> key_is k l = true -> k <> [] ->
  git_scan_header (l :: r) a cm =
  git_scan_header r (if beqb k k_author && starts_with (str "author "%string) l then Some (value_of l) else a)
                    (if beqb k k_committer && starts_with (str "committer "%string) l then Some (value_of l) else cm).
Proof.
  intros Hl Hk Hne. cbn [git_scan_header]. rewrite (first_is_lf_blank _ Hl), (key_nonblank _ _ Hk Hne).
  unfold key_is in Hk. apply beqb_eq in Hk.
  destruct (starts_with (str "author "%string) l) eqn:E1; [|destruct (starts_with (str "committer "%string) l) eqn:E2].
  - destruct (pre_key k_author l Hl eq_refl eq_refl E1) as [K [V _]]. apply beqb_eq in K.
    change (skipn 7 (chomp l)) with (skipn (List.length k_author + 1) (chomp l)). now rewrite <- V, <- Hk, K.
  - destruct (pre_key k_committer l Hl eq_refl eq_refl E2) as [K [V _]]. apply beqb_eq in K.
    change (skipn 10 (chomp l)) with (skipn (List.length k_committer + 1) (chomp l)). now rewrite <- V, <- Hk, K.
  - now rewrite !andb_false_r.
Qed.

Definition keeps (st : cstate) (c c' : commit) : Prop :=
  c_tree c' = c_tree c /\ ((1 <= rank st)%nat -> c_parents c' = c_parents c) /\
  ((2 <= rank st)%nat -> c_author c' = c_author c) /\ ((3 <= rank st)%nat -> c_committer c' = c_committer c).

Lemma cstep_keep st c se eof l c' se' st' : cstep st c se eof l = Ok (c', se', st') ->
  keeps st c c' /\ (rank st <= rank st')%nat.
Proof.
  intros H. unfold keeps.
  assert (D : st = SMessage \/ st <> SMessage) by (destruct st; (now left) || (right; discriminate)).
  destruct D as [->|Hst]; [inversion H; subst; cbn; repeat split; intros; reflexivity || lia|].
  destruct (cstep_header _ _ _ _ _ _ Hst H) as [[_ Hc]|[[_ E]|[_ [_ Hk]]]]; clear H.
  - inversion Hc; subst; cbn; repeat split; intros; reflexivity || lia.
  - inversion E; subst. destruct st; cbn; repeat split; intros; reflexivity || lia.
  - assert (F : c_tree (cfinish st c) = c_tree c /\ c_parents (cfinish st c) = c_parents c /\
               c_author (cfinish st c) = c_author c /\ c_committer (cfinish st c) = c_committer c) by now destruct st.
    destruct F as (F1 & F2 & F3 & F4). rewrite <- F1, <- F2, <- F3, <- F4.
    assert (Hn : (rank st <= 3)%nat) by (destruct st; cbn; lia).
    revert Hk Hn. generalize (cfinish st c) as C, (rank st) as n. intros C n Hk Hn.
    (* each branch of key_step sets only the field of its own rank *)
    destruct se; inversion Hk; subst; cbn; repeat split; intros; reflexivity || lia.
Qed.

Lemma crun_keep : forall ls st c0 se c, crun st c0 se ls = Ok c -> keeps st c0 c.
Proof.
  induction ls as [|l r IH]; intros st c0 se c H.
  - cbn [crun] in H. inversion H. unfold keeps. destruct st; cbn [cfinish]; repeat split.
  - rewrite crun_cons in H. destruct (cstep st c0 se (negb (ends_nl l)) l) as [[[c1 se1] st1]|e] eqn:Es; [|discriminate].
    destruct (cstep_keep _ _ _ _ _ _ _ _ Es) as [(A & B & C & D) Hr].
    destruct (negb (ends_nl l)).
    + inversion H; subst. unfold keeps. repeat split; assumption.
    + destruct (IH _ _ _ _ H) as (A' & B' & C' & D'). unfold keeps.
      repeat split; intros; [now rewrite A'|rewrite B', B|rewrite C', C|rewrite D', D]; trivial; lia.
Qed.

(* scanParents, scanAuthor, scanCommitter: the key each reads, and the state
   function a line with another key is pushed back to *)
Inductive reads : cstate -> bytes -> cstate -> Prop :=
| reads_parent : reads SParents k_parent SAuthor
| reads_author : reads SAuthor k_author SCommitter
| reads_committer : reads SCommitter k_committer SHeaders.

Lemma crun_other st k nx c se l r : reads st k nx -> key_is k l = false -> crun st c se (l :: r) = crun nx c se (l :: r).
Proof.
  intros R H. rewrite !crun_cons.
  replace (cstep st c se (negb (ends_nl l)) l) with (cstep nx c se (negb (ends_nl l)) l); [reflexivity|].
  unfold key_is in H. destruct R; cbn [cstep]; unfold on_author, on_committer, on_headers;
    (destruct (is_blank l); [reflexivity|]); destruct (split_header l) as [key data]; cbn [fst] in H; now rewrite H.
Qed.

Lemma author_key_step c se eof l : key_is k_author l = true ->
  cstep SAuthor c se eof l = Ok (set_author c (decode_ident (value_of l)), se, SCommitter).
Proof.
  intros Hk. assert (Hb : is_blank l = false) by (apply (key_nonblank _ _ Hk); discriminate).
  cbn [cstep]. unfold on_author. rewrite Hb. unfold key_is, value_of in *. destruct (split_header l) as [key data].
  cbn [fst snd] in *. now rewrite Hk.
Qed.

Lemma committer_key_step c se eof l : key_is k_committer l = true ->
  cstep SCommitter c se eof l = Ok (set_committer c (decode_ident (value_of l)), se, SHeaders).
Proof.
  intros Hk. assert (Hb : is_blank l = false) by (apply (key_nonblank _ _ Hk); discriminate).
  cbn [cstep]. unfold on_committer. rewrite Hb. unfold key_is, value_of in *. destruct (split_header l) as [key data].
  cbn [fst snd] in *. now rewrite Hk.
Qed.

(* a step that does not come with EOF is followed by the rest; with EOF nothing is left *)
Lemma crun_after st c0 se l r c1 se1 st1 c :
  all_but_last_nl (l :: r) = true -> (match st1 with SExtra _ _ => False | _ => True end) ->
  cstep st c0 se (negb (ends_nl l)) l = Ok (c1, se1, st1) -> crun st c0 se (l :: r) = Ok c -> crun st1 c1 se1 r = Ok c.
Proof.
  intros Ha Hst Hs H. rewrite crun_cons, Hs in H. destruct (ends_nl l) eqn:E; cbn [negb] in H; [exact H|].
  rewrite (abl_eof _ _ Ha E). inversion H; subst. destruct st1; try reflexivity. contradiction.
Qed.

(* scanParents on a "parent" line *)
Lemma crun_parent_line c0 se l r c : all_but_last_nl (l :: r) = true -> key_is k_parent l = true ->
  crun SParents c0 se (l :: r) = Ok c ->
  exists hh, parse_oid (value_of l) = Some hh /\ crun SParents (set_parents c0 (c_parents c0 ++ [hh])) se r = Ok c.
Proof.
  intros Ha Hk Hrun. assert (Hb : is_blank l = false) by (apply (key_nonblank _ _ Hk); discriminate).
  assert (Es : cstep SParents c0 se (negb (ends_nl l)) l =
               match parse_oid (value_of l) with
               | Some hh => Ok (set_parents c0 (c_parents c0 ++ [hh]), se, SParents)
               | None => Err Malformed
               end).
  { cbn [cstep]. rewrite Hb. unfold key_is, value_of in *. destruct (split_header l) as [key data]. cbn [fst snd] in *. now rewrite Hk. }
  destruct (parse_oid (value_of l)) as [hh|]; [|rewrite crun_cons, Es in Hrun; discriminate].
  exists hh. split; [reflexivity|]. exact (crun_after SParents c0 se l r _ se SParents c Ha I Es Hrun).
Qed.

(* encoding: the first "encoding" header wins *)
Fixpoint first_enc (ls : list bytes) : option bytes :=
  match ls with
  | [] => None
  | l :: r => if first_is LF l then None else if key_is k_encoding l then Some (value_of l) else first_enc r
  end.

Definition enc_step (c : commit) (se : bool) (l : bytes) (c' : commit) (se' : bool) : Prop :=
  if key_is k_encoding l then se' = true /\ c_enc c' = (if se then c_enc c else value_of l)
  else se' = se /\ c_enc c' = c_enc c.

Lemma sp_not_enc l : first_is SPC l = true -> key_is k_encoding l = false.
Proof. intros H. unfold key_is. now rewrite (key_of_sp _ H). Qed.

Lemma cfinish_enc st c : c_enc (cfinish st c) = c_enc c.
Proof. now destruct st. Qed.

Lemma cstep_enc st c se eof l c' se' st' : st <> SMessage -> is_blank l = false ->
  cstep st c se eof l = Ok (c', se', st') -> enc_step c se l c' se'.
Proof.
  intros Hst Hb H. unfold enc_step.
  destruct (cstep_header _ _ _ _ _ _ Hst H) as [[Hsp Hc]|[[Hb' _]|[_ [_ Hk]]]]; [|congruence|].
  - rewrite (sp_not_enc _ Hsp). inversion Hc; now subst.
  - rewrite <- (cfinish_enc st c). unfold key_is, value_of. revert Hk.
    generalize (fst (split_header l)) as key, (snd (split_header l)) as data. intros key data Hk.
    (* by cases on the step: only the "encoding" branch touches c_enc and the flag; the other keys differ from it *)
    destruct (beqb key k_encoding) eqn:Ek; [apply beqb_eq in Ek; subst key|];
      inversion Hk; subst; try easy; try (now destruct se); intuition easy.
Qed.

Lemma crun_enc : forall ls st c0 se c,
  st <> SMessage -> Forall line_ok ls -> all_but_last_nl ls = true -> crun st c0 se ls = Ok c ->
  c_enc c = if se then c_enc c0 else match first_enc ls with Some v => v | None => c_enc c0 end.
Proof.
  induction ls as [|l r IH]; intros st c0 se c Hst Hok Ha H.
  - cbn [crun] in H. inversion H. cbn [first_enc]. destruct st, se; reflexivity.
  - apply Forall_cons_iff in Hok as [Hl Hr]. destruct (abl_tail _ _ Ha) as [Har _].
    cbn [first_enc]. rewrite (first_is_lf_blank _ Hl).
    destruct (crun_header_cons _ _ _ _ _ _ Hst H) as [[Hb Hm]|[Hb (c1 & se1 & st1 & Es & Hst1 & H')]]; rewrite Hb.
    + destruct (crun_message_fields _ _ _ _ Hm) as [m ->]. cbn [c_enc set_msg]. rewrite cfinish_enc. now destruct se.
    + pose proof (cstep_enc _ _ _ _ _ _ _ _ Hst Hb Es) as P. unfold enc_step in P. destruct (ends_nl l) eqn:Een.
      * rewrite (IH _ _ _ _ Hst1 Hr Har H'). destruct (key_is k_encoding l); destruct P as [-> ->]; reflexivity.
      * rewrite (abl_eof _ _ Ha Een). cbn [first_enc]. subst c1.
        destruct (key_is k_encoding l); destruct P as [_ ->]; now destruct se.
Qed.

(* git's find_commit_header sees the same line, unless a bare "encoding" line exists *)
Lemma find_enc ls : Forall line_ok ls ->
  existsb (fun l => beqb (trim_right LF l) k_encoding) (header_of ls) = false ->
  git_find_header k_encoding ls = first_enc ls.
Proof.
  induction ls as [|l r IH]; intros Hok Hg; [reflexivity|]. apply Forall_cons_iff in Hok as [Hl Hr].
  cbn [git_find_header first_enc header_of] in *. destruct (first_is LF l); [reflexivity|].
  cbn [existsb] in Hg. apply orb_false_iff in Hg as [G1 G2].
  destruct (starts_with (k_encoding ++ [SPC]) l) eqn:E9.
  - destruct (pre_key k_encoding l Hl eq_refl eq_refl E9) as [K [V _]]. now rewrite K, V.
  - destruct (key_is k_encoding l) eqn:K; [|exact (IH Hr G2)].
    destruct (key_split _ _ Hl K) as [[_ T]|T]; [|congruence].
    rewrite T in G1. discriminate G1.
Qed.

Lemma git_parents_stop fuel b : starts_with (str "parent "%string) b = false -> git_parents fuel b = Some [].
Proof. intros H. destruct fuel; [reflexivity|]. cbn [git_parents]. now rewrite H, andb_false_r. Qed.

Lemma git_parents_step f v R : List.length v = 40%nat -> all_hex v = true -> R <> [] ->
  git_parents (S f) (str "parent "%string ++ v ++ LF :: R) =
  match git_parents f R with Some ps => Some (lower_hex v :: ps) | None => None end.
Proof.
  intros Hv Hh HR. set (P := str "parent "%string).
  assert (HP : List.length P = 7%nat) by reflexivity.
  assert (HRl : (0 < List.length R)%nat) by (destruct R; [contradiction|cbn [List.length]; lia]).
  assert (Hlen : List.length (P ++ v ++ LF :: R) = (48 + List.length R)%nat) by (rewrite !app_length; cbn [List.length]; lia).
  cbn [git_parents]. fold P. rewrite Hlen, starts_with_app.
  rewrite (proj2 (Nat.ltb_lt 47 _)), (proj2 (Nat.leb_gt _ 48)) by lia. cbn [andb].
  rewrite (skipn_len 7 P _ HP), (firstn_len 40 v _ Hv), Hh.
  rewrite (app_assoc P v), (nth_len 47 (P ++ v) LF R 0), N.eqb_refl by (rewrite app_length; lia). cbn [andb].
  change (LF :: R) with ([LF] ++ R). rewrite (app_assoc (P ++ v)), (skipn_len 48) by (rewrite !app_length; cbn [List.length]; lia).
  reflexivity.
Qed.

Lemma concat_nonnil (ls : list bytes) : Forall line_ok ls -> ls <> [] -> List.concat ls <> [].
Proof.
  intros Hok Hne. destruct ls as [|l r]; [contradiction|]. inversion Hok as [|x0 y0 [Hl _] _]. subst.
  cbn [List.concat]. destruct l; [contradiction|discriminate].
Qed.

(* a line go-git reads as a parent, of git's shape *)
Lemma parent_line_form l hh : line_ok l -> key_is k_parent l = true -> parse_oid (value_of l) = Some hh ->
  List.length l = 48%nat -> ends_nl l = true ->
  exists v, l = str "parent "%string ++ v ++ [LF] /\ List.length v = 40%nat /\ hex_decode v = Some hh.
Proof.
  intros Hl Hk Hp Hlen Hen.
  destruct (key_split _ _ Hl Hk) as [[E _]|Hsw]; [rewrite E in Hp; discriminate Hp|].
  destruct (hdr_line k_parent l Hl eq_refl eq_refl Hsw) as [v [Hc [Hnv Hsp]]].
  destruct (line_lf_form _ Hl Hen) as [p [Hp' ->]].
  unfold chomp in Hc. rewrite ends_nl_app_lf, removelast_last in Hc. subst p.
  unfold value_of in Hp. rewrite Hsp in Hp. cbn [snd] in Hp.
  change (k_parent ++ [SPC]) with (str "parent "%string) in *.
  assert (Hvl : List.length v = 40%nat).
  { rewrite !app_length in Hlen. change (List.length (str "parent "%string)) with 7%nat in Hlen. cbn [List.length] in Hlen. clear - Hlen. lia. }
  exists v. split; [now rewrite <- app_assoc|]. split; [exact Hvl|].
  unfold parse_oid in Hp. rewrite Hvl in Hp. exact Hp.
Qed.

Lemma crun_parents_git : forall ls c0 se c fuel ps,
  Forall line_ok ls -> all_but_last_nl ls = true ->
  crun SParents c0 se ls = Ok c ->
  pblock_ok (header_of ls) (List.length (List.concat ls)) = true ->
  (List.length (List.concat ls) <= fuel)%nat ->
  git_parents fuel (List.concat ls) = Some ps ->
  map hex_encode (c_parents c) = map hex_encode (c_parents c0) ++ ps.
Proof.
  induction ls as [|l r IH]; intros c0 se c fuel ps Hok Ha Hrun Hpb Hfuel Hg.
  - cbn [crun cfinish] in Hrun. inversion Hrun; subst c. cbn [List.concat] in Hg.
    rewrite git_parents_stop in Hg by reflexivity. inversion Hg. now rewrite app_nil_r.
  - apply Forall_cons_iff in Hok as [Hl Hr]. destruct (abl_tail _ _ Ha) as [Har Hen].
    destruct (key_is k_parent l) eqn:Hk.
    + assert (Hb : is_blank l = false) by (apply (key_nonblank _ _ Hk); discriminate).
      cbn [header_of] in Hpb. rewrite (first_is_lf_blank _ Hl), Hb in Hpb. cbn [pblock_ok] in Hpb. rewrite Hk in Hpb.
      rewrite !andb_true_iff, Nat.eqb_eq, Nat.ltb_lt in Hpb. destruct Hpb as [[[Hlen Hsw] Hrem] Hrest].
      cbn [List.concat] in Hrem, Hrest, Hfuel, Hg. rewrite app_length in Hrem, Hrest, Hfuel.
      assert (HR : List.concat r <> []) by (intros E; rewrite E in Hrem; cbn [List.length] in Hrem; clear - Hrem Hlen; lia).
      assert (Hrne : r <> []) by (intros E; apply HR; now rewrite E).
      specialize (Hen Hrne).
      destruct (crun_parent_line _ _ _ _ _ Ha Hk Hrun) as [hh [Hp Hrun']].
      destruct (parent_line_form _ _ Hl Hk Hp Hlen Hen) as [v [El [Hvl Hhd]]].
      destruct (hex_decode_lower _ _ Hhd) as [Hhe Hah].
      destruct fuel as [|f]; [clear - Hfuel Hlen; lia|].
      rewrite El in Hg. rewrite <- !app_assoc in Hg. cbn [app] in Hg.
      rewrite (git_parents_step f v _ Hvl Hah HR) in Hg.
      destruct (git_parents f (List.concat r)) as [ps'|] eqn:Eg; [|discriminate]. inversion Hg; subst ps.
      replace (List.length l + List.length (List.concat r) - List.length l)%nat with (List.length (List.concat r)) in Hrest by (clear; lia).
      assert (Hf : (List.length (List.concat r) <= f)%nat) by (clear - Hfuel Hlen; lia).
      rewrite (IH _ _ _ _ _ Hr Har Hrun' Hrest Hf Eg). cbn [set_parents c_parents].
      rewrite map_app. cbn [map]. rewrite Hhe, <- app_assoc. reflexivity.
    + (* the block is over for go-git: it is over for git *)
      rewrite (crun_other _ _ _ _ _ _ _ reads_parent Hk) in Hrun.
      destruct (crun_keep _ _ _ _ _ Hrun) as (_ & Kp & _). rewrite Kp by (cbn; auto).
      rewrite git_parents_stop in Hg.
      * inversion Hg. now rewrite app_nil_r.
      * destruct (starts_with (str "parent "%string) (List.concat (l :: r))) eqn:E; [|reflexivity].
        pose proof (concat_prefix (str "parent "%string) _ _ Hl Ha eq_refl E) as E'.
        destruct (pre_key k_parent l Hl eq_refl eq_refl E') as [K _]. congruence.
Qed.

Definition stray (l : bytes) : bool := starts_with (str "author "%string) l || starts_with (str "committer "%string) l.

Lemma scan_none ls : forall a c, existsb stray (header_of ls) = false -> fst (git_scan_header ls a c) = (a, c).
Proof.
  induction ls as [|l r IH]; intros a c H; [reflexivity|]. cbn [git_scan_header header_of] in *.
  destruct (first_is LF l); [reflexivity|]. cbn [existsb] in H. apply orb_false_iff in H as [H1 H2].
  unfold stray in H1. apply orb_false_iff in H1 as [Ha Hc]. rewrite Ha, Hc. now apply IH.
Qed.

(* the lines go-git consumes as parents are the leading "parent " lines *)
Lemma parents_block : forall ls c0 se c, Forall line_ok ls -> all_but_last_nl ls = true -> crun SParents c0 se ls = Ok c ->
  exists rs c1, Forall line_ok rs /\ all_but_last_nl rs = true /\ crun SAuthor c1 se rs = Ok c /\
    c_author c1 = c_author c0 /\ c_committer c1 = c_committer c0 /\
    drop_parents (header_of ls) = header_of rs /\
    (forall a cm, git_scan_header ls a cm = git_scan_header rs a cm).
Proof.
  induction ls as [|l r IH]; intros c0 se c Hok Ha Hrun.
  - exists [], c0. repeat split; try assumption.
  - apply Forall_cons_iff in Hok as [Hl Hr]. destruct (abl_tail _ _ Ha) as [Har Hen].
    destruct (key_is k_parent l) eqn:Hk.
    + assert (Hb : is_blank l = false) by (apply (key_nonblank _ _ Hk); discriminate).
      destruct (crun_parent_line _ _ _ _ _ Ha Hk Hrun) as [hh [Hp Hrun']].
      destruct (IH _ _ _ Hr Har Hrun') as [rs [c2 (R1 & R2 & R3 & R4 & R5 & R6 & R7)]].
      destruct (key_split _ _ Hl Hk) as [[E _]|Hsw]; [rewrite E in Hp; discriminate Hp|].
      change (k_parent ++ [SPC]) with (str "parent "%string) in Hsw.
      exists rs, c2. repeat split; try assumption.
      * cbn [header_of]. rewrite (first_is_lf_blank _ Hl), Hb. cbn [drop_parents]. now rewrite Hsw.
      * intros a cm. rewrite (scan_keyed k_parent l r a cm Hl Hk ltac:(discriminate)). apply R7.
    + exists (l :: r), c0. repeat split; try assumption.
      * now constructor.
      * now rewrite (crun_other _ _ _ _ _ _ _ reads_parent Hk) in Hrun.
      * cbn [header_of]. destruct (first_is LF l); [reflexivity|]. cbn [drop_parents].
        now rewrite (nokey_nopre k_parent l Hl eq_refl eq_refl Hk : starts_with (str "parent "%string) l = false).
Qed.

Definition pick (k : bytes) (rest : list bytes) : option bytes * list bytes :=
  match rest with
  | l :: r => if key_is k l then (Some l, r) else (None, rest)
  | [] => (None, [])
  end.

Lemma pick_key k l r : line_ok l -> key_is k l = true -> k <> [] -> pick k (header_of (l :: r)) = (Some l, header_of r).
Proof.
  intros Hl Hk Hne. cbn [header_of]. rewrite (first_is_lf_blank _ Hl), (key_nonblank _ _ Hk Hne). cbn [pick]. now rewrite Hk.
Qed.

Lemma pick_other k l r : key_is k l = false -> pick k (header_of (l :: r)) = (None, header_of (l :: r)).
Proof. intros Hk. cbn [header_of]. destruct (first_is LF l); [reflexivity|]. cbn [pick]. now rewrite Hk. Qed.

(* what go-git decoded from an optional header line, and what git's scan kept *)
Definition person_rel (o : option bytes) (go : ident) (go0 : ident) (gv : option bytes) : Prop :=
  match o with
  | Some l => go = decode_ident (value_of l) /\
              (value_of l <> [] -> gv = Some (value_of l) /\ no_lf (value_of l) = true)
  | None => go = go0 /\ gv = None
  end.

Lemma keyed_person k l go0 : line_ok l -> no_lf k = true -> has_byte SPC k = false -> key_is k l = true ->
  person_rel (Some l) (decode_ident (value_of l)) go0 (if starts_with (k ++ [SPC]) l then Some (value_of l) else None).
Proof.
  intros Hl Hk Hs Hkey. split; [reflexivity|]. intros Hv.
  destruct (key_split _ _ Hl Hkey) as [[E _]|Hsw]; [contradiction|]. rewrite Hsw.
  now destruct (pre_key _ _ Hl Hk Hs Hsw) as [_ [_ Hn]].
Qed.

Lemma committer_stage rs c2 se c ga : Forall line_ok rs -> all_but_last_nl rs = true ->
  crun SCommitter c2 se rs = Ok c ->
  existsb stray (snd (pick k_committer (header_of rs))) = false ->
  c_author c = c_author c2 /\
  exists gc, fst (git_scan_header rs ga None) = (ga, gc) /\
    person_rel (fst (pick k_committer (header_of rs))) (c_committer c) (c_committer c2) gc.
Proof.
  intros Hok Ha Hrun Hst.
  split; [destruct (crun_keep _ _ _ _ _ Hrun) as (_ & _ & K & _); apply K; cbn; auto|].
  destruct rs as [|l r].
  - cbn [crun cfinish] in Hrun. inversion Hrun; subst c. exists None. now split.
  - apply Forall_cons_iff in Hok as [Hl Hr]. destruct (abl_tail _ _ Ha) as [Har _].
    destruct (key_is k_committer l) eqn:Hk.
    + rewrite (pick_key _ _ r Hl Hk ltac:(discriminate)) in *. cbn [fst snd] in *.
      pose proof (crun_after SCommitter c2 se l r _ se SHeaders c Ha I (committer_key_step c2 se _ l Hk) Hrun) as Hrun'.
      destruct (crun_keep _ _ _ _ _ Hrun') as (_ & _ & _ & K). rewrite K by (cbn; auto). cbn [set_committer c_committer].
      exists (if starts_with (str "committer "%string) l then Some (value_of l) else None).
      split.
      * rewrite (scan_keyed k_committer l r ga None Hl Hk ltac:(discriminate)). now apply scan_none.
      * exact (keyed_person k_committer l _ Hl eq_refl eq_refl Hk).
    + rewrite (pick_other _ _ r Hk) in *. cbn [fst snd] in *.
      rewrite (crun_other _ _ _ _ _ _ _ reads_committer Hk) in Hrun.
      destruct (crun_keep _ _ _ _ _ Hrun) as (_ & _ & _ & K).
      exists None. split; [now apply scan_none|]. split; [apply K; cbn; auto|reflexivity].
Qed.

Lemma author_stage rs c1 se c : Forall line_ok rs -> all_but_last_nl rs = true ->
  crun SAuthor c1 se rs = Ok c ->
  let pa := pick k_author (header_of rs) in
  let pc := pick k_committer (snd pa) in
  existsb stray (snd pc) = false ->
  exists ga gc, fst (git_scan_header rs None None) = (ga, gc) /\
    person_rel (fst pa) (c_author c) (c_author c1) ga /\
    person_rel (fst pc) (c_committer c) (c_committer c1) gc.
Proof.
  intros Hok Ha Hrun pa pc Hst.
  (* an author line first, or scanAuthor pushes back at once *)
  assert (Hcases : (exists l r, rs = l :: r /\ key_is k_author l = true) \/
                   (pa = (None, header_of rs) /\ crun SCommitter c1 se rs = Ok c)).
  { destruct rs as [|l r]; [right; now split|]. destruct (key_is k_author l) eqn:Hk; [left; now exists l, r|right].
    split; [exact (pick_other _ _ r Hk)|now rewrite (crun_other _ _ _ _ _ _ _ reads_author Hk) in Hrun]. }
  destruct Hcases as [(l & r & -> & Hk)|[Epa Hrun']].
  - apply Forall_cons_iff in Hok as [Hl Hr]. destruct (abl_tail _ _ Ha) as [Har _].
    unfold pc, pa in *. rewrite (pick_key _ _ r Hl Hk ltac:(discriminate)) in *. cbn [fst snd] in *.
    pose proof (crun_after SAuthor c1 se l r _ se SCommitter c Ha I (author_key_step c1 se _ l Hk) Hrun) as Hrun'.
    set (ga := if starts_with (str "author "%string) l then Some (value_of l) else None).
    destruct (committer_stage _ _ _ _ ga Hr Har Hrun' Hst) as [A [gc [G P]]].
    exists ga, gc. split; [|split].
    + rewrite (scan_keyed k_author l r None None Hl Hk ltac:(discriminate)). exact G.
    + rewrite A. exact (keyed_person k_author l _ Hl eq_refl eq_refl Hk).
    + exact P.
  - unfold pc in *. rewrite Epa in *. cbn [fst snd] in *.
    destruct (committer_stage _ _ _ _ None Hok Ha Hrun' Hst) as [A [gc [G P]]].
    exists None, gc. split; [exact G|]. split; [now split|exact P].
Qed.

(* the clauses of ObjWf.commit_agree_of, read off the header lines *)
Definition pok (o : option bytes) : bool := match o with Some l => person_ok (value_of l) | None => true end.
Definition dok (o : option bytes) : bool := match o with Some l => date_ok (value_of l) | None => true end.

Lemma agree_unfold raw :
  commit_agree_of raw =
  let hdr := header_of (split_lines raw) in
  let pa := pick k_author (drop_parents (tl hdr)) in
  let pc := pick k_committer (snd pa) in
  mk_cagree (pblock_ok (tl hdr) (List.length raw - 46)%nat) (negb (existsb stray (snd pc)))
            (pok (fst pa)) (dok (fst pa)) (pok (fst pc)) (dok (fst pc))
            (negb (existsb (fun l => beqb (trim_right LF l) k_encoding) hdr)).
Proof.
  unfold commit_agree_of. cbv zeta. unfold pick.
  destruct (drop_parents (tl (header_of (split_lines raw)))) as [|l r]; [reflexivity|].
  destruct (key_is k_author l).
  - cbn [fst snd]. destruct r as [|l2 r2]; [reflexivity|]. destruct (key_is k_committer l2); reflexivity.
  - cbn [fst snd]. destruct (key_is k_committer l); reflexivity.
Qed.

(* go-git's fields of an ident against git's, given the clauses *)
Lemma person_final o go gv : person_rel o go ident_zero gv -> pok o = true -> dok o = true ->
  (id_name go, id_email go, go_date go) = git_person gv.
Proof.
  unfold person_rel, pok, dok. destruct o as [l|].
  - intros [-> Hv] Hp Hd.
    assert (Hne : value_of l <> []) by (intros E; rewrite E in Hp; discriminate Hp).
    destruct (Hv Hne) as [-> Hn]. symmetry. exact (ident_matches_git _ Hn Hp Hd).
  - intros [-> ->] _ _. reflexivity.
Qed.

Lemma raw_lines raw : (46 < List.length raw)%nat -> starts_with (str "tree "%string) raw = true -> nth 45 raw 0 = LF ->
  raw = (str "tree "%string ++ firstn 40 (skipn 5 raw)) ++ LF :: skipn 46 raw /\
  List.length (firstn 40 (skipn 5 raw)) = 40%nat.
Proof.
  intros Hlen Hsw H45. apply starts_with_spec in Hsw as [x ->]. rewrite app_length in Hlen.
  change (firstn 40 (skipn 5 (str "tree "%string ++ x))) with (firstn 40 x).
  change (skipn 46 (str "tree "%string ++ x)) with (skipn 41 x). change (nth 40 x 0 = LF) in H45.
  change (List.length (str "tree "%string)) with 5%nat in Hlen.
  split; [|rewrite firstn_length; lia]. rewrite <- app_assoc, <- H45. f_equal. apply nth_split_eq. lia.
Qed.

Theorem commit_fields_match_git : forall raw c g,
  decode_commit raw = Ok c -> git_log_fields raw = GOk g ->
  let a := commit_agree_of raw in
  hex_encode (c_tree c) = gl_tree g /\
  (ca_parents a = true -> map hex_encode (c_parents c) = gl_parents g) /\
  (ca_position a = true -> ca_aperson a = true -> ca_adate a = true ->
     (id_name (c_author c), id_email (c_author c), go_date (c_author c)) = (gl_an g, gl_ae g, gl_ad g)) /\
  (ca_position a = true -> ca_cperson a = true -> ca_cdate a = true ->
     (id_name (c_committer c), id_email (c_committer c), go_date (c_committer c)) = (gl_cn g, gl_ce g, gl_cd g)) /\
  (ca_encoding a = true -> enc_agrees (c_enc c) (gl_enc g)) /\
  (forall m, gl_body g = Some m -> c_msg c = m).
Proof.
  intros raw c g Hd Hg a.
  destruct (git_log_fields_inv _ _ Hg) as (Hlen & Hsw & H45 & Hhex & Gt & Gp & Ga & Gc & Ge & _).
  destruct (raw_lines _ Hlen Hsw H45) as [Hraw Hthl].
  set (th := firstn 40 (skipn 5 raw)) in *. set (rest := skipn 46 raw) in *.
  assert (Hnth : no_lf (str "tree "%string ++ th) = true) by (rewrite no_lf_app, (all_hex_no_lf _ Hhex); reflexivity).
  set (l0 := (str "tree "%string ++ th) ++ [LF]).
  assert (Hsl : split_lines raw = l0 :: split_lines rest) by (rewrite Hraw at 1; exact (split_lines_line _ _ Hnth)).
  pose proof (split_lines_ok rest) as Hok. pose proof (split_lines_abl rest) as Habl.
  pose proof (concat_split_lines rest) as Hcat.
  assert (Hrl : List.length rest = (List.length raw - 46)%nat) by (unfold rest; apply skipn_length).
  set (ls := split_lines rest) in *.
  (* go-git: the tree line, then the scanner on the remaining lines *)
  assert (Hgo : exists h, hex_decode th = Some h /\ crun SParents (commit_init h) false ls = Ok c).
  { destruct (decode_commit_inv _ _ Hd) as (l & r & data & h & E & _ & _ & _ & _ & Es & Ep & Hrun).
    rewrite Hsl in E. inversion E; subst l r.
    change l0 with (k_tree ++ SPC :: th ++ [LF]) in Es.
    rewrite (split_header_kv k_tree th eq_refl eq_refl (all_hex_no_lf _ Hhex)) in Es. inversion Es; subst data.
    exists h. unfold parse_oid in Ep. rewrite Hthl in Ep. now split. }
  destruct Hgo as [h [Hh Hrun]].
  destruct (hex_decode_lower _ _ Hh) as [Hhe _].
  assert (Hhdr : header_of (split_lines raw) = l0 :: header_of ls) by (rewrite Hsl; reflexivity).
  subst a. rewrite agree_unfold. cbv zeta. rewrite Hhdr. cbn [tl ca_parents ca_position ca_aperson ca_adate ca_cperson ca_cdate ca_encoding].
  destruct (parents_block _ _ _ _ Hok Habl Hrun) as [rs [c1 (R1 & R2 & R3 & R4 & R5 & R6 & R7)]].
  assert (Hscan : fst (git_scan_header (split_lines raw) None None) = fst (git_scan_header rs None None)).
  { rewrite Hsl. change (git_scan_header (l0 :: ls) None None) with (git_scan_header ls None None). now rewrite R7. }
  rewrite R6.
  set (pa := pick k_author (header_of rs)). set (pc := pick k_committer (snd pa)).
  assert (Hper : negb (existsb stray (snd pc)) = true ->
    person_rel (fst pa) (c_author c) ident_zero (fst (fst (git_scan_header (split_lines raw) None None))) /\
    person_rel (fst pc) (c_committer c) ident_zero (snd (fst (git_scan_header (split_lines raw) None None)))).
  { intros Hpos. apply negb_true_iff in Hpos. destruct (author_stage _ _ _ _ R1 R2 R3 Hpos) as [ga [gc [G [PA PC]]]].
    rewrite Hscan, G. rewrite R4 in PA. rewrite R5 in PC. now split. }
  split; [|split; [|split; [|split; [|split]]]].
  - destruct (crun_keep _ _ _ _ _ Hrun) as (K & _). rewrite K, Gt. exact Hhe.
  - intros Hpb. rewrite <- Hrl, <- Hcat in Hpb. rewrite <- Hcat in Gp.
    assert (Hf : (List.length (List.concat ls) <= List.length raw)%nat) by (rewrite Hcat, Hrl; clear; lia).
    exact (crun_parents_git _ _ _ _ _ _ Hok Habl Hrun Hpb Hf Gp).
  - intros Hpos Hp Hdt. destruct (Hper Hpos) as [PA _]. rewrite Ga. exact (person_final _ _ _ PA Hp Hdt).
  - intros Hpos Hp Hdt. destruct (Hper Hpos) as [_ PC]. rewrite Gc. exact (person_final _ _ _ PC Hp Hdt).
  - intros He. apply negb_true_iff in He. cbn [existsb] in He. apply orb_false_iff in He as [_ He].
    assert (Hne : SParents <> SMessage) by discriminate.
    rewrite (crun_enc _ _ _ _ _ Hne Hok Habl Hrun), Ge, Hsl.
    change (git_find_header k_encoding (l0 :: ls)) with (git_find_header k_encoding ls).
    rewrite (find_enc _ Hok He). unfold enc_agrees. destruct (first_enc ls); [now left|right; now split].
  - intros m Hm. exact (message_matches_git _ _ _ _ Hd Hg Hm).
Qed.
