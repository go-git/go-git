(* Proofs/C42Indep.v — Independents (merge_base.go) computes exactly the
   maximal elements of its input, for EVERY assignment of committer timestamps.

   Inner walk (filterCommitIter limited by the shared [seen], callback removing
   reached candidates): it visits exactly the commits reachable from [from]
   through commits not seen before ([walked]), removes the other candidates among
   them, and adds them to [seen].
   Outer loop: the set seen is always the union of the full histories of the
   candidates walked so far, which makes the limit harmless: a candidate hidden
   behind a seen commit was already removed by an earlier walk. *)
From Coq Require Import List Arith ZArith Bool Lia Permutation.
From GoGit Require Import Spec.Dag Model.CommitWalk Model.MergeBase Proofs.Worklist Proofs.C43.
Import ListNotations.

Lemma mem_cons : forall z c l, mem z (c :: l) = (z =? c) || mem z l.
Proof. reflexivity. Qed.

Lemma filter_true : forall (l : list node), filter (fun _ => true) l = l.
Proof. induction l as [|x r IH]; simpl; [reflexivity | now rewrite IH]. Qed.

Lemma filter_filter : forall (p q : node -> bool) l,
  filter q (filter p l) = filter (fun z => p z && q z) l.
Proof.
  intros p q l. induction l as [|x r IH]; [reflexivity|]. simpl.
  destruct (p x); simpl; [destruct (q x); now rewrite IH | exact IH].
Qed.

Lemma remove_node_In : forall c z l, In z (remove_node c l) <-> In z l /\ z <> c.
Proof.
  intros c z l. unfold remove_node. rewrite filter_In. rewrite negb_true_iff, Nat.eqb_neq. tauto.
Qed.

(* a candidate [z] survives the walk from [f] unless it was visited; [f] itself always does *)
Definition keep (f : node) (visited : list node) (z : node) : bool :=
  negb (mem z visited) || (z =? f).

Lemma keep_cons_ne : forall f c visited z, c <> f ->
  keep f (c :: visited) z = keep f visited z && negb (z =? c).
Proof.
  intros f c visited z Hcf. unfold keep. rewrite mem_cons.
  destruct (Nat.eqb_spec z c), (mem z visited), (Nat.eqb_spec z f); simpl; congruence.
Qed.

(* what the callback does to the candidates when [c] is visited, [others] being the candidates but [f] *)
Lemma keep_visit : forall f c visited C0 others,
  (forall z, In z others <-> In z (filter (keep f visited) C0) /\ z <> f) ->
  (if mem c others then remove_node c (filter (keep f visited) C0) else filter (keep f visited) C0)
  = filter (keep f (c :: visited)) C0.
Proof.
  intros f c visited C0 others H. destruct (mem c others) eqn:Eo.
  - apply mem_In, H in Eo. unfold remove_node. rewrite filter_filter. apply filter_ext.
    intros z. symmetry. now apply keep_cons_ne.
  - apply mem_false_In in Eo. apply filter_ext_in. intros z Hz. unfold keep. rewrite mem_cons.
    destruct (Nat.eqb_spec z c) as [->|]; [simpl | reflexivity].
    (* [c] is not among the others: it is [f], or it was dropped before *)
    destruct (Nat.eqb_spec c f) as [|Hcf]; [apply orb_true_r|].
    destruct (mem c visited) eqn:E; [reflexivity|]. exfalso. apply Eo, H. split; [|exact Hcf].
    apply filter_In. split; [exact Hz|]. unfold keep. now rewrite E.
Qed.

Lemma keep_nil : forall f (l : list node), filter (keep f []) l = l.
Proof. intros f l. unfold keep. simpl. apply filter_true. Qed.

Lemma index_of_app : forall (x : node) A B, ~ In x A -> index_of x (A ++ x :: B) = Some (length A).
Proof.
  intros x A B. induction A as [|a r IH]; intros Hn; simpl.
  - now rewrite Nat.eqb_refl.
  - destruct (a =? x) eqn:E.
    + apply Nat.eqb_eq in E. subst. exfalso. apply Hn. now left.
    + rewrite IH; [reflexivity|]. intros H. apply Hn. now right.
Qed.

Lemma firstn_nth_skipn : forall (l : list node) pos, pos < length l ->
  l = firstn pos l ++ nth pos l 0 :: skipn (S pos) l.
Proof.
  induction l as [|a r IH]; intros pos H; [simpl in H; lia|].
  destruct pos as [|p]; [reflexivity|]. simpl. f_equal. apply IH. simpl in H. lia.
Qed.

(* where the element at position [pos] of a duplicate-free list ends up when the list is filtered *)
Lemma filter_from : forall (q : node -> bool) (l : list node) pos,
  NoDup l -> pos < length l -> q (nth pos l 0) = true ->
  exists pos', index_of (nth pos l 0) (filter q l) = Some pos' /\ pos' < length (filter q l) /\
    (forall x, In x (firstn (S pos') (filter q l)) -> x = nth pos l 0 \/ In x (firstn pos l)) /\
    length (filter q l) - S pos' <= length l - S pos.
Proof.
  intros q l pos Hnd Hpos Hq. pose proof (firstn_nth_skipn l pos Hpos) as Hsplit.
  set (from := nth pos l 0) in *. set (A := firstn pos l) in *. set (Bs := skipn (S pos) l) in *.
  assert (HfA : ~ In from (filter q A)).
  { rewrite Hsplit in Hnd. apply NoDup_remove_2 in Hnd. intros H. apply Hnd, in_or_app. left.
    apply filter_In in H. tauto. }
  assert (E : filter q l = filter q A ++ from :: filter q Bs) by (rewrite Hsplit at 1; rewrite filter_app; simpl; now rewrite Hq).
  exists (length (filter q A)). rewrite E, app_length. cbn [length].
  split; [now apply index_of_app|]. split; [lia|]. split.
  - intros x. rewrite <- Nat.add_1_r, firstn_app_2, in_app_iff, filter_In.
    intros [[Hx _]|[<-|[]]]; [now right | now left].
  - pose proof (filter_length_le' q Bs) as Hle. unfold Bs in Hle at 2. rewrite skipn_length in Hle. lia.
Qed.

(* the parents of a commit, unless the walk is closed there *)
Definition gated (g : dag) (closed : node -> bool) (c : node) : list node :=
  if closed c then [] else parents g c.

Lemma gated_incl : forall g closed c, incl (gated g closed c) (parents g c).
Proof. intros g closed c. unfold gated. destruct (closed c); [intros x [] | apply incl_refl]. Qed.

Lemma gated_length : forall g closed c, length (gated g closed c) <= length (parents g c).
Proof. intros g closed c. unfold gated. destruct (closed c); [apply Nat.le_0_l | apply Nat.le_refl]. Qed.

Lemma gated_stored : forall g closed c, dag_closed g = true ->
  Forall (fun p => p < nnodes g) (gated g closed c).
Proof. intros g closed c Hc. now apply (incl_Forall (gated_incl g closed c)), parents_stored. Qed.

(* what a walk from o that does not go past closed commits reaches (a closed end point included) *)
Section Gated.
  Variable g : dag.
  Variable closed : node -> bool.
  Variable o : node.

  Definition walked : node -> Prop := ra (gated g closed) [] o.

  Lemma walked_start : walked o.
  Proof. apply ra_start. intros []. Qed.

  Lemma walked_step : forall y z, walked y -> closed y = false -> In z (parents g y) -> walked z.
  Proof.
    intros y z Hy Hn Hp. apply (ra_step _ [] o y z Hy); [|intros []]. unfold gated. now rewrite Hn.
  Qed.

  Lemma walked_reach : forall z, walked z -> reach g o z.
  Proof. intros z. apply ra_incl_reach. intros c. apply gated_incl. Qed.

  (* an ancestor of a walked commit is walked too, or lies strictly below a closed one *)
  Lemma walked_or_blocked : dag_ok g = true -> dag_closed g = true ->
    forall c x, reach g c x -> walked c ->
    walked x \/ exists p, closed p = true /\ p <> x /\ reach g c p /\ reach g p x.
  Proof.
    intros Hok Hcl c x H. induction H as [c | c p a Hp Hr IH]; intros Hc; [now left|].
    destruct (closed c) eqn:E.
    - right. exists c. split; [exact E|]. split; [|split; [constructor | eapply reach_step; eauto]].
      intros ->. pose proof (dag_ok_closed_parent g a p Hok Hcl Hp).
      pose proof (reach_le g p a Hok Hcl Hr). lia.
    - destruct (IH (walked_step c p Hc E Hp)) as [H|[q [H1 [H2 [H3 H4]]]]]; [now left|].
      right. exists q. repeat split; auto. eapply reach_step; eauto.
  Qed.
End Gated.

Section Inner.
  Variable g : dag.
  Hypothesis Hclosed : dag_closed g = true.
  Variable f : node.
  Variable S0 C0 : list node.
  Hypothesis Hf : f < nnodes g.

  Let n := nnodes g.
  Let w := fun c : node => length (parents g c).
  Let succ := gated g (fun c => mem c S0).

  (* reachable from f through commits not seen before the walk (the end point may be seen) *)
  Let rb := walked g (fun c => mem c S0) f.

  Record IW (q visited cands others seen : list node) : Prop := mkIW {
    iw_seen : seen_ok S0 seen visited;
    iw_cands : cands = filter (keep f visited) C0;
    iw_others : forall z, In z others <-> In z cands /\ z <> f;
    iw_front : front succ [] f q visited
  }.

  Definition IWPost (r : iwres) : Prop :=
    match r with
    | IWOk cands' seen' =>
      exists V, cands' = filter (keep f V) C0 /\ (forall x, In x V -> rb x) /\
                (length cands' = 1 \/
                 ((forall x, rb x -> In x V) /\ (forall x, In x seen' <-> In x S0 \/ rb x)))
    | _ => False
    end.

  Lemma indep_walk_post : forall fuel q visited cands others seen,
    IW q visited cands others seen ->
    length q + budget n w visited < fuel ->
    IWPost (indep_walk g fuel q visited cands others seen).
  Proof.
    induction fuel as [|fu IH]; intros q visited cands others seen [Hseen Hcands Hothers Hfr] Hfu; [lia|].
    simpl. destruct q as [|c q'].
    - (* queue empty: the walk is complete *)
      pose proof (front_complete _ _ _ _ Hfr) as Hall.
      exists visited. split; [exact Hcands|]. split; [exact (fr_ra _ _ _ _ _ Hfr)|]. right. split; [exact Hall|].
      intros x. rewrite (Hseen x).
      split; intros [H|H]; [right; now apply (fr_ra _ _ _ _ _ Hfr) | now left | now right | left; now apply Hall].
    - destruct (mem c visited) eqn:Ev.
      + apply mem_In in Ev. apply IH; [|simpl in Hfu; lia]. split; auto.
        apply (front_skip _ _ _ (c :: q') _ _ c); auto.
      + apply mem_false_In in Ev.
        assert (Hcrb : rb c) by (apply (front_ra _ _ _ (c :: q') visited); [exact Hfr | now left | intros []]).
        assert (Hclt : c < n) by (apply (reach_present g f c Hclosed Hf); exact (walked_reach g _ f c Hcrb)).
        (* seen = S0 and what this walk visited, so the limit test is a test on S0 *)
        assert (Hsc : mem c seen = mem c S0).
        { apply eq_true_iff_eq. rewrite !mem_In, (Hseen c). split; [intros [H|H]; [contradiction | exact H] | now right]. }
        rewrite Hsc.
        set (add := filter (fun p => negb (mem p (c :: visited))) (succ c)).
        replace (if mem c S0 then [] else unseen_parents g (c :: visited) c) with add
          by (unfold add, succ, gated; now destruct (mem c S0)).
        pose proof (selects_unseen succ w (gated_length g _)) as Hsel.
        rewrite (forallb_present g add) by (apply (incl_Forall (incl_filter _ _)); now apply gated_stored).
        simpl.
        set (cands' := if mem c others then remove_node c cands else cands).
        set (others' := if mem c others then remove_node c others else others).
        assert (Hc' : cands' = filter (keep f (c :: visited)) C0).
        { unfold cands'. rewrite Hcands in *. now apply keep_visit. }
        assert (Ho' : forall z, In z others' <-> In z cands' /\ z <> f).
        { intros z. unfold others', cands'. destruct (mem c others); [|apply Hothers].
          rewrite !remove_node_In, (Hothers z). tauto. }
        assert (Hrb' : forall x, In x (c :: visited) -> rb x).
        { intros x [<-|Hx]; [exact Hcrb | now apply (fr_ra _ _ _ _ _ Hfr)]. }
        destruct (length cands' =? 1) eqn:El.
        * (* one candidate left: the callback stops the walk *)
          apply Nat.eqb_eq in El. exists (c :: visited). auto.
        * apply IH.
          -- split; [exact (seen_ok_cons S0 seen visited c Hseen) | exact Hc' | exact Ho' |].
             apply (front_visit _ _ _ (c :: q') _ q' add visited _ c Hfr);
               [apply seen_ok_nil | intros [] | reflexivity | apply Permutation_app_comm | |].
             ++ apply (pushed_sub _ _ _ Hsel c (c :: visited)).
             ++ intros p Hp Hn. left. now apply (pushed_all _ _ _ Hsel).
          -- rewrite app_length.
             assert (Hw : length add <= w c) by apply (pushed_w _ _ _ Hsel c (c :: visited)).
             pose proof (budget_cons n w c visited Hclt Ev). simpl in Hfu. lia.
  Qed.

  (* the walk Independents starts from f *)
  Lemma indep_walk_start :
    IWPost (indep_walk g (walk_fuel g) [f] [] C0 (remove_node f C0) S0).
  Proof.
    apply indep_walk_post.
    - split; [intros x; simpl; tauto | symmetry; apply keep_nil | intros z; apply remove_node_In | apply front_init].
    - unfold n, w. rewrite (budget_nil g). unfold walk_fuel. simpl. lia.
  Qed.
End Inner.

Section Outer.
  Variable g : dag.
  Hypothesis Hok : dag_ok g = true.
  Hypothesis Hclosed : dag_closed g = true.
  Variable K : list node.
  Hypothesis K_nd : NoDup K.
  Hypothesis K_lt : forall x, In x K -> x < nnodes g.

  Let n := nnodes g.

  (* another candidate lies above z *)
  Definition dom (z : node) : Prop := exists y, In y K /\ y <> z /\ reach g y z.
  Lemma dom_dec : forall z, dom z \/ ~ dom z.
  Proof.
    intros z. unfold dom. rewrite <- (dominated_spec g K z Hok).
    destruct (existsb (fun y => negb (z =? y) && is_anc g z y) K); [now left | right; discriminate].
  Qed.

  Lemma reach_lt : forall a b, reach g a b -> a <> b -> b < a.
  Proof.
    intros a b H Hne. pose proof (reach_le g a b Hok Hclosed H). lia.
  Qed.

  (* every dominated commit has a dominator that is itself not dominated *)
  Lemma max_dom : forall y x, In y K -> y <> x -> reach g y x ->
    exists y', In y' K /\ y' <> x /\ reach g y' x /\ ~ dom y'.
  Proof.
    (* a dominator has a larger number, and the numbers in K are bounded *)
    intros y x Hy. remember (n - y) as k eqn:Ek. revert y x Hy Ek.
    induction k as [k IH] using lt_wf_ind. intros y x Hy -> Hne Hr.
    destruct (dom_dec y) as [[y2 [Hy2 [Hne2 Hr2]]] | Hnd]; [|exists y; auto].
    pose proof (reach_lt y2 y Hr2 Hne2). pose proof (K_lt y2 Hy2).
    apply (IH (n - y2)) with (y := y2); auto.
    - unfold n. lia.
    - intros ->. apply Hne. eapply reach_antisym; eauto.
    - eapply reach_trans; eauto.
  Qed.

  Record OI (pos : nat) (cands seen Wd : list node) : Prop := mkOI {
    o_sub : exists P, cands = filter P K;
    o_W : forall x, In x Wd -> In x K;
    o_first : forall x, In x (firstn pos cands) -> In x Wd;
    o_seen : forall x, In x seen <-> exists f, In f Wd /\ reach g f x;
    o_walked : forall f z, In f Wd -> In z K -> z <> f -> reach g f z -> ~ In z cands;
    o_removed : forall z, In z K -> ~ In z cands -> dom z
  }.

  Definition final (l : list node) : Prop := NoDup l /\ forall x, In x l <-> In x K /\ ~ dom x.

  Lemma sub_nodup : forall cands, (exists P, cands = filter P K) -> NoDup cands /\ forall x, In x cands -> In x K.
  Proof.
    intros cands [P E]. subst. split; [now apply NoDup_filter|]. intros x Hx. apply filter_In in Hx. tauto.
  Qed.

  (* survivors none of which lies above another, everything else being dominated *)
  Lemma final_of : forall l, NoDup l -> incl l K ->
    (forall z, In z K -> ~ In z l -> dom z) ->
    (forall y x, In y l -> In x l -> y <> x -> ~ reach g y x) -> final l.
  Proof.
    intros l Hnd Hsub Hout Hanti. split; [exact Hnd|].
    assert (Hin : forall x, In x K -> ~ dom x -> In x l).
    { intros x Hx Hn. destruct (in_dec Nat.eq_dec x l) as [H|H]; [exact H|]. exfalso. now apply Hn, Hout. }
    intros x. split; [|intros [Hx Hn]; now apply Hin].
    intros Hx. split; [now apply Hsub|]. intros [y [Hy [Hne Hr]]].
    destruct (max_dom y x Hy Hne Hr) as [y' [Hy' [Hne' [Hr' Hnd']]]].
    now apply (Hanti y' x (Hin y' Hy' Hnd') Hx).
  Qed.

  Lemma all_walked_final : forall cands seen Wd,
    OI (length cands) cands seen Wd -> final cands.
  Proof.
    intros cands seen Wd [h1 h2 h3 h4 h5 h6]. destruct (sub_nodup cands h1) as [Hnd Hsub].
    rewrite firstn_all in h3. apply final_of; auto.
    intros y x Hy Hx Hne Hr. now apply (h5 y x (h3 _ Hy) (Hsub _ Hx) (not_eq_sym Hne) Hr).
  Qed.

  Lemma single_final : forall c, In c K -> (forall z, In z K -> z <> c -> dom z) -> final [c].
  Proof.
    intros c Hc Hall. apply final_of.
    - constructor; [intros [] | constructor].
    - intros x [<-|[]]. exact Hc.
    - intros z Hz Hn. apply Hall; [exact Hz|]. intros ->. apply Hn. now left.
    - intros y x [<-|[]] [<-|[]] Hne. now elim Hne.
  Qed.

  Lemma seen_closed : forall pos cands seen Wd, OI pos cands seen Wd ->
    forall x y, In x seen -> reach g x y -> In y seen.
  Proof.
    intros pos cands seen Wd H x y Hx Hr. apply (o_seen _ _ _ _ H) in Hx.
    destruct Hx as [f [Hf Hfx]]. apply (o_seen _ _ _ _ H). exists f. split; [exact Hf|].
    eapply reach_trans; eauto.
  Qed.

  (* an ancestor of [from] is reached by the walk limited by [seen], or by an earlier walk from elsewhere *)
  Lemma walked_or_earlier : forall pos cands seen Wd from x, OI pos cands seen Wd -> reach g from x ->
    walked g (fun c => mem c seen) from x \/ exists f2, In f2 Wd /\ f2 <> x /\ reach g f2 x.
  Proof.
    intros pos cands seen Wd from x HO Hr.
    destruct (walked_or_blocked g (fun c => mem c seen) from Hok Hclosed from x Hr (walked_start g _ from))
      as [H|[p [Hp [Hne [_ Hpx]]]]]; [now left|]. right.
    apply mem_In, (o_seen _ _ _ _ HO) in Hp. destruct Hp as [f2 [Hf2 Hr2]].
    exists f2. split; [exact Hf2|]. split; [|eapply reach_trans; eauto].
    intros ->. apply Hne. eapply reach_antisym; eauto.
  Qed.

  Lemma outer_post : forall fuel pos cands seen Wd,
    OI pos cands seen Wd -> pos < length cands -> length cands - pos < fuel ->
    exists l, indep_outer g fuel pos cands seen = MOk l /\ final l.
  Proof.
    induction fuel as [|fu IH]; intros pos cands seen Wd HO Hpos Hfu; [lia|].
    cbn [indep_outer].
    remember (nth pos cands 0) as from eqn:Efrom.
    destruct (sub_nodup cands (o_sub _ _ _ _ HO)) as [Hnd Hsub].
    assert (Hfc : In from cands) by (rewrite Efrom; apply nth_In; exact Hpos).
    assert (HfK : In from K) by now apply Hsub.
    pose proof (indep_walk_start g Hclosed from seen cands (K_lt from HfK)) as HP.
    destruct (indep_walk g (walk_fuel g) [from] [] cands (remove_node from cands) seen) as [cands' seen'| |];
      try contradiction.
    destruct HP as [V [Hc' [HV Hcase]]].
    set (q := keep from V) in *.
    assert (Hcc : forall z, In z cands' <-> In z cands /\ q z = true) by (intros z; rewrite Hc'; apply filter_In).
    assert (Hqf : q from = true) by (unfold q, keep; now rewrite Nat.eqb_refl, orb_true_r).
    assert (Hsub' : exists P, cands' = filter P K).
    { destruct (o_sub _ _ _ _ HO) as [P E]. exists (fun z => P z && q z). rewrite Hc', E. apply filter_filter. }
    assert (Hrem : forall z, In z K -> ~ In z cands' -> dom z).
    { intros z Hz Hn. destruct (in_dec Nat.eq_dec z cands) as [Hzc|Hzc]; [|now apply (o_removed _ _ _ _ HO)].
      (* removed by this walk: it was visited, and is not [from] *)
      assert (Hq : q z = false) by (apply not_true_is_false; intros E; apply Hn, Hcc; now split).
      unfold q, keep in Hq. apply orb_false_iff in Hq. destruct Hq as [Hq1 Hq2].
      apply negb_false_iff, mem_In in Hq1. apply Nat.eqb_neq in Hq2.
      exists from. split; [exact HfK|]. split; [congruence|]. exact (walked_reach g _ from z (HV z Hq1)). }
    destruct Hcase as [Hone | [Hall Hseen']].
    - (* a single candidate is left: it is [from] *)
      assert (Ecs : cands' = [from]).
      { assert (Hin : In from cands') by (apply Hcc; now split).
        destruct cands' as [|a [|b r]]; simpl in Hone; try lia. destruct Hin as [->|[]]. reflexivity. }
      rewrite Ecs in *. simpl. rewrite Nat.eqb_refl. simpl. exists [from]. split; [reflexivity|].
      apply single_final; [exact HfK|]. intros z Hz Hne. apply Hrem; [exact Hz|]. intros [H|[]]. congruence.
    - (* the walk is complete: from joins the walked set *)
      rewrite Efrom in Hqf. destruct (filter_from q cands pos Hnd Hpos Hqf) as [pos' [Hidx [Hpos' [Hfirst Hfuel]]]].
      rewrite <- Efrom, <- Hc' in *. rewrite Hidx.
      assert (HO' : OI (S pos') cands' seen' (from :: Wd)).
      { constructor.
        - exact Hsub'.
        - intros x [<-|Hx]; [exact HfK | now apply (o_W _ _ _ _ HO)].
        - intros x Hx. destruct (Hfirst x Hx) as [->|Hx']; [now left | right; now apply (o_first _ _ _ _ HO)].
        - intros x. rewrite Hseen'. rewrite (o_seen _ _ _ _ HO). split.
          + intros [[f [Hf Hr]] | Hr].
            * exists f. split; [now right | exact Hr].
            * exists from. split; [now left | exact (walked_reach g _ from x Hr)].
          + intros [f [[<-|Hf] Hr]]; [|left; now exists f].
            destruct (walked_or_earlier _ _ _ _ from x HO Hr) as [H|[f2 [Hf2 [_ Hr2]]]];
              [now right | left; now exists f2].
        - intros f z [<-|Hf] Hz Hne Hr Hin; apply Hcc in Hin; destruct Hin as [Hin Hq].
          + destruct (walked_or_earlier _ _ _ _ from z HO Hr) as [H|[f2 [Hf2 [Hne2 Hr2]]]].
            * (* visited by this walk, hence removed *)
              unfold q, keep in Hq. apply orb_true_iff in Hq. destruct Hq as [Hq|Hq].
              -- apply negb_true_iff, mem_false_In in Hq. apply Hq. now apply Hall.
              -- apply Nat.eqb_eq in Hq. congruence.
            * (* an earlier walk removed it *)
              now apply (o_walked _ _ _ _ HO f2 z Hf2 Hz (not_eq_sym Hne2) Hr2).
          + now apply (o_walked _ _ _ _ HO f z Hf Hz Hne Hr).
        - exact Hrem. }
      destruct (length cands' <=? S pos') eqn:E1.
      + apply Nat.leb_le in E1. exists cands'. split; [reflexivity|].
        apply (all_walked_final cands' seen' (from :: Wd)).
        replace (length cands') with (S pos') by lia. exact HO'.
      + apply Nat.leb_gt in E1. apply (IH _ _ _ _ HO'); [exact E1 | lia].
  Qed.
End Outer.
