(* Proofs/C04Hfs.v — go-git's pathutil.IsHFSDot says yes only where git's is_hfs_dot_generic
   does, and the two agree on names that are well-formed UTF-8 or do not start like a dot-file
   (utf8_guard); the difference left is a malformed sequence, where git's loop ends the name. *)
From Coq Require Import List NArith ZArith Bool Lia ZifyBool ZifyNat ZifyN.
From GoGit Require Import Base.Out Gen.C04 Model.TreeObj Spec.GitTree Proofs.C04 Proofs.C04Utf8.
Import ListNotations.
Local Open Scope N_scope.

(* asciiToLower (regenerated from the Go source) is C's tolower on a byte *)
Lemma lower_c c : lower c = c_tolower c.
Proof.
  unfold lower, pathutil_asciiToLower, c_tolower, Base.GoInt.wrapu.
  destruct ((Z.of_N c >=? 65)%Z && (Z.of_N c <=? 90)%Z) eqn:E.
  - assert (E' : (65 <=? c) && (c <=? 90) = true) by lia. rewrite E'.
    rewrite Z.mod_small by (change (2 ^ 8)%Z with 256%Z; lia). lia.
  - assert (E' : (65 <=? c) && (c <=? 90) = false) by lia. rewrite E'. lia.
Qed.

Lemma skip_ign_eq s : skip_ign s =
  match s with a :: b :: c :: r => if is_ign a b c then skip_ign r else s | _ => s end.
Proof. destruct s as [|a [|b [|c r]]]; reflexivity. Qed.

Lemma skip_ign_stop s : head_ign s = false -> skip_ign s = s.
Proof. rewrite skip_ign_eq. destruct s as [|a [|b [|c r]]]; try reflexivity. cbn [head_ign]. now intros ->. Qed.

Lemma skip_ign_props : forall n s, (List.length s <= n)%nat ->
  head_ign (skip_ign s) = false /\
  (is_bytes s = true -> is_bytes (skip_ign s) = true) /\
  (wf_utf8 s = true -> wf_utf8 (skip_ign s) = true) /\
  (forall x, tlacks x s = true -> tlacks x (skip_ign s) = true) /\
  (List.length (skip_ign s) <= List.length s)%nat.
Proof.
  induction n as [|n IH]; intros s L.
  - destruct s; [|cbn in L; lia]. cbn. repeat split; auto.
  - rewrite skip_ign_eq. destruct s as [|a [|b [|c r]]]; try (cbn; repeat split; auto; fail).
    destruct (is_ign a b c) eqn:I.
    + cbn [List.length] in L. destruct (IH r ltac:(lia)) as (H1 & H2 & H3 & H4 & H5).
      split; [exact H1|]. split; [|split; [|split]].
      * intros B. apply H2. now apply (is_bytes_skipn 3) in B.
      * intros W. apply H3. now rewrite (wf_utf8_ign a b c r I) in W.
      * intros x T. apply H4. now apply (tlacks_skipn x 3) in T.
      * cbn [List.length]. lia.
    + repeat split; auto.
Qed.

Lemma pick_utf8_not_ign s : is_bytes s = true -> head_ign s = false -> fst (pick_utf8 s) <> UIgnored.
Proof.
  intros HB HI. destruct s as [|a r]; [cbn; discriminate|].
  destruct (a <? 128) eqn:A.
  - rewrite (pick_utf8_ascii a r A). discriminate.
  - destruct (pick_utf8_high a r HB ltac:(lia) HI) as [[-> _]|(n & -> & _)]; discriminate.
Qed.

Lemma next_hfs_stop f s : is_bytes s = true -> head_ign s = false ->
  next_hfs (S f) s = (fst (pick_utf8 s), skipn (snd (pick_utf8 s)) s).
Proof.
  intros HB HI. pose proof (pick_utf8_not_ign s HB HI) as N. cbn [next_hfs].
  destruct (pick_utf8 s) as [[] n]; try reflexivity. now elim N.
Qed.

Lemma next_hfs_skip : forall fuel s, (List.length s < fuel)%nat -> is_bytes s = true ->
  next_hfs fuel s = (fst (pick_utf8 (skip_ign s)), skipn (snd (pick_utf8 (skip_ign s))) (skip_ign s)).
Proof.
  induction fuel as [|f IH]; intros s L HB; [lia|].
  destruct (head_ign s) eqn:HI.
  - destruct s as [|a [|b [|c r]]]; try discriminate. cbn [head_ign] in HI.
    rewrite skip_ign_eq, HI. cbn [next_hfs]. rewrite (pick_utf8_ign a b c r HI). cbn [skipn].
    apply IH; [cbn [List.length] in L; lia|]. now apply (is_bytes_skipn 3) in HB.
  - rewrite (skip_ign_stop s HI). now apply next_hfs_stop.
Qed.

(* what git's next_hfs_char returns, in terms of go-git's view of the string *)
Lemma next_hfs_class s : is_bytes s = true ->
  match skip_ign s with
  | [] => next_hfs (S (List.length s)) s = (UEnd, [])
  | c :: r =>
    if c <? 128 then next_hfs (S (List.length s)) s = (UAscii c, r)
    else (exists r', next_hfs (S (List.length s)) s = (UInvalid, r') /\ pick_cp (c :: r) = PInvalid) \/
         (exists r', next_hfs (S (List.length s)) s = (UOther, r'))
  end.
Proof.
  intros HB. rewrite (next_hfs_skip _ s (Nat.lt_succ_diag_r _) HB).
  destruct (skip_ign_props _ s (Nat.le_refl _)) as (HI & HB' & _). specialize (HB' HB).
  destruct (skip_ign s) as [|c r]; [reflexivity|].
  destruct (c <? 128) eqn:A.
  - rewrite (pick_utf8_ascii c r A). reflexivity.
  - destruct (pick_utf8_high c r HB' ltac:(lia) HI) as [[-> P]|(n & -> & _)]; cbn [fst snd].
    + left. eexists. split; [reflexivity|exact P].
    + right. eexists. reflexivity.
Qed.

(* The needle loop.  go-git's says yes only where git's does; on well-formed
   UTF-8 without NUL and '/' (which git's loop reads as the end of the name)
   the two agree. *)
Lemma hfs_needle_git_cmp : forall ns fuel s,
  (List.length ns < fuel)%nat -> is_bytes s = true ->
  (hfs_needle fuel s ns = true -> hfs_needle_git s ns = true) /\
  (wf_utf8 s = true -> tlacks 0 s = true -> tlacks 47 s = true -> hfs_needle fuel s ns = hfs_needle_git s ns).
Proof.
  induction ns as [|e ns IH]; intros fuel s L HB; (destruct fuel as [|f]; [cbn in L; lia|]);
    cbn [hfs_needle hfs_needle_git]; pose proof (next_hfs_class s HB) as C;
    destruct (skip_ign_props _ s (Nat.le_refl _)) as (_ & B & W & T & _); specialize (B HB);
    (destruct (skip_ign s) as [|c r]; [now rewrite C|]).
  - split; [discriminate|]. intros HW H0 H47. specialize (W HW). apply T in H0, H47.
    apply tlacks_cons in H0 as [C0 _]. apply tlacks_cons in H47 as [C47 _].
    destruct (c <? 128).
    + rewrite C. apply N.eqb_neq in C0, C47. now rewrite C0, C47.
    + destruct C as [(r' & -> & P)|(r' & ->)]; [|reflexivity]. now apply wf_utf8_valid in W.
  - apply is_bytes_cons in B as [_ B]. cbn [List.length] in L. apply Nat.succ_lt_mono in L.
    destruct (IH f r L B) as [LE EQ].
    destruct (c <? 128) eqn:A; cbn [andb].
    + rewrite C, (lower_c c). split.
      * intros H. apply andb_true_iff in H as [-> H]. now apply LE.
      * intros HW H0 H47. specialize (W HW). rewrite (wf_utf8_ascii c r A) in W. apply T in H0, H47.
        apply tlacks_cons in H0 as [_ H0]. apply tlacks_cons in H47 as [_ H47]. f_equal. now apply EQ.
    + split; [discriminate|]. intros _ _ _. destruct C as [(r' & -> & _)|(r' & ->)]; reflexivity.
Qed.

Lemma tolower_is_46 c : (c_tolower c =? 46) = (c =? 46).
Proof. unfold c_tolower. destruct ((65 <=? c) && (c <=? 90)) eqn:E; lia. Qed.

Lemma is_hfs_dot_needle part needle :
  is_hfs_dot part needle = hfs_needle (S (S (List.length needle))) part (46 :: needle).
Proof.
  unfold is_hfs_dot. cbn [hfs_needle]. destruct (skip_ign part) as [|c r]; [reflexivity|].
  rewrite lower_c, tolower_is_46. destruct (c =? 46) eqn:E; [|now rewrite andb_false_r].
  now replace (c <? 128) with true by lia.
Qed.

Lemma git_is_hfs_dot_needle name needle : git_is_hfs_dot name needle = hfs_needle_git name (46 :: needle).
Proof.
  unfold git_is_hfs_dot. cbn [hfs_needle_git].
  destruct (next_hfs (S (List.length name)) name) as [[| |c| |] r]; try reflexivity. now rewrite tolower_is_46.
Qed.

Lemma hfs_dot_git_cmp name needle : is_bytes name = true ->
  (is_hfs_dot name needle = true -> git_is_hfs_dot name needle = true) /\
  (wf_utf8 name = true -> tlacks 0 name = true -> tlacks 47 name = true ->
   is_hfs_dot name needle = git_is_hfs_dot name needle).
Proof.
  intros HB. rewrite is_hfs_dot_needle, git_is_hfs_dot_needle.
  apply hfs_needle_git_cmp; [cbn [List.length]; lia|exact HB].
Qed.

(* well-formedness only matters for names that start like a dot-file *)
Lemma git_hfs_no_head name needle : git_hfs_head name = false -> git_is_hfs_dot name needle = false.
Proof.
  unfold git_hfs_head, git_is_hfs_dot. destruct (next_hfs (S (List.length name)) name) as [[| |c| |] r]; try reflexivity.
  now intros ->.
Qed.

Lemma hfs_dot_eq_git name needle :
  is_bytes name = true -> utf8_guard name = true -> tlacks 0 name = true -> tlacks 47 name = true ->
  is_hfs_dot name needle = git_is_hfs_dot name needle.
Proof.
  intros HB G H0 H47. destruct (hfs_dot_git_cmp name needle HB) as [LE EQ].
  unfold utf8_guard in G. destruct (wf_utf8 name); [now apply EQ|].
  cbn [orb] in G. apply negb_true_iff in G. rewrite (git_hfs_no_head name needle G).
  destruct (is_hfs_dot name needle); [|reflexivity].
  specialize (LE eq_refl). now rewrite (git_hfs_no_head name needle G) in LE.
Qed.
