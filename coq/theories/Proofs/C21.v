(* Proofs/C21.v — crash safety of the storage operations of Model/Crash.v:
   transfer lemmas (repo_ok carries over to a directory that agrees on what
   repo_ok reads), one lemma per operation built on them, soundness of the
   checker repo_okb, and the in-place writes that are not crash safe. *)
From Coq Require Import List NArith ZArith Arith Bool String.
From GoGit Require Import Base.Out Gen.C22 Model.Gc Model.Crash Spec.Reach Spec.RepoOk Proofs.C22 Proofs.CrashFacts.
Import ListNotations.
Local Open Scope N_scope.

Definition meta (p : path) : bool :=
  match p with PHead | PRef _ | PPacked | PShallow | PIndex | PConfig => true | _ => false end.

Definition agree_meta (fs fs' : fsmap) : Prop := forall q, meta q = true -> flookup fs' q = flookup fs q.

Lemma agree_meta_of_agree fs fs' : agree fs fs' -> agree_meta fs fs'.
Proof. apply (agree_on_weaken relevant meta). intros q Hq. now destruct q. Qed.

Lemma agree_set_tmp fs k n c : agree fs (fset fs (PTmp k n) c).
Proof. apply (agree_on_fset relevant); [reflexivity|apply agree_on_refl]. Qed.
Lemma agree_del_tmp fs k n : agree fs (fdel fs (PTmp k n)).
Proof. apply (agree_on_fdel relevant); [reflexivity|apply agree_on_refl]. Qed.
Lemma agree_trans a b c : agree a b -> agree b c -> agree a c.
Proof. apply (agree_on_trans relevant). Qed.
Lemma agree_refl a : agree a a.
Proof. apply (agree_on_refl relevant). Qed.

(* one goal per crash state of a concrete mutation list *)
Ltac split_states := repeat first [apply Forall_nil | apply Forall_cons].

(* evaluates lookups at a concrete path in a directory built with fset / fdel *)
Ltac flk := repeat (rewrite ?flookup_fset, ?flookup_fdel; cbn [path_eqb tkind_eqb pext_eqb andb]).

Lemma crash_states_app a b fs :
  crash_states (a ++ b) fs = crash_states a fs ++ crash_states b (run a fs).
Proof.
  revert fs. induction a as [|m a IH]; intro fs; [reflexivity|].
  cbn [app crash_states run fold_left]. rewrite IH. rewrite <- app_assoc. reflexivity.
Qed.

Lemma crash_safe_app g fs a b : crash_safe g fs a -> crash_safe g (run a fs) b -> crash_safe g fs (a ++ b).
Proof. intros Ha Hb. unfold crash_safe. rewrite crash_states_app. apply Forall_app. now split. Qed.

Lemma run_in_states a : forall fs, a <> [] -> In (run a fs) (crash_states a fs).
Proof.
  induction a as [|m r IH]; intros fs H; [congruence|].
  cbn [crash_states run fold_left]. apply in_or_app. right.
  destruct r as [|m' r']; [now left|]. right. apply IH. discriminate.
Qed.

Lemma crash_safe_run g fs a : a <> [] -> crash_safe g fs a -> repo_ok g (run a fs).
Proof. intros Hne H. eapply Forall_forall; [exact H|]. now apply run_in_states. Qed.

Lemma run_app a b fs : run (a ++ b) fs = run b (run a fs).
Proof. apply fold_left_app. Qed.

(* a run of removals: every crash state is the directory without some prefix of the list *)
Lemma removeset_states (P : fsmap -> Prop) ps s :
  (forall pre post, ps = pre ++ post -> P (fold_left fdel pre s)) -> Forall P (crash_states [MRemoveSet ps] s).
Proof.
  intro H. cbn [crash_states mid_states apply]. apply Forall_app. split; [|split_states; apply (H ps []); now rewrite app_nil_r].
  clear -H. revert s H. induction ps as [|p r IH]; intros s H; [constructor|].
  destruct r as [|p' r']; [constructor|]. cbn [remove_prefixes]. constructor; [apply (H [p] (p' :: r')); reflexivity|].
  apply IH. intros pre post E. apply (H (p :: pre) post). now rewrite E.
Qed.

Lemma repo_ok_transfer g fs fs' :
  files_ok fs' = true -> shallow_of fs' = shallow_of fs ->
  (forall x, In x (ref_roots fs') -> In x (ref_roots fs)) ->
  (forall o, needed g (ref_roots fs) (shallow_list fs) o -> avail fs o = true -> avail fs' o = true) ->
  repo_ok g fs -> repo_ok g fs'.
Proof.
  intros F S Rt A [_ N]. split; [assumption|].
  intros o Hn. unfold shallow_list in *. rewrite S in Hn.
  apply (needed_roots _ _ _ _ _ Rt) in Hn. destruct (N o Hn). auto.
Qed.

Lemma repo_ok_files g fs : repo_ok g fs -> forall n, pack_file_ok fs n = true.
Proof. intros [F _]. apply files_ok_iff in F. tauto. Qed.

Lemma avail_loose fs o : loose_ok fs o = true -> avail fs o = true.
Proof. intro H. apply avail_iff. now left. Qed.

Lemma avail_pack fs o n : in_pack fs o n = true -> avail fs o = true.
Proof. intro H. apply avail_iff. eauto. Qed.

Lemma meta_packed fs fs' : agree_meta fs fs' -> packed_refs fs' = packed_refs fs.
Proof. intro A. unfold packed_refs. now rewrite A. Qed.
Lemma meta_shallow fs fs' : agree_meta fs fs' -> shallow_of fs' = shallow_of fs.
Proof. intro A. unfold shallow_of. now rewrite A. Qed.

Lemma meta_roots fs fs' x : agree_meta fs fs' -> In x (ref_roots fs') -> In x (ref_roots fs).
Proof.
  intros A Hx. apply in_ref_roots. apply in_ref_roots in Hx.
  rewrite (meta_packed _ _ A) in Hx. rewrite A in Hx by reflexivity.
  destruct Hx as [H|[(n & H)|(l & n & E & Hin & Hl)]].
  - now left.
  - right. left. exists n. now rewrite A in H.
  - right. right. exists l, n. rewrite A in Hl by reflexivity. auto.
Qed.

Lemma meta_transfer g fs fs' :
  agree_meta fs fs' -> (forall n, pack_file_ok fs' n = true) ->
  (forall o, needed g (ref_roots fs) (shallow_list fs) o -> avail fs o = true -> avail fs' o = true) ->
  repo_ok g fs -> repo_ok g fs'.
Proof.
  intros A P Av R. apply (repo_ok_transfer g fs); try assumption.
  - destruct R as [F _]. apply files_ok_iff in F as (H1 & H2 & H3 & H4 & _ & H6 & H7). apply files_ok_iff.
    unfold head_okP, packed_okP, shallow_okP, index_okP, config_okP, ref_file_ok in *.
    rewrite (meta_packed _ _ A), (meta_shallow _ _ A), !A by reflexivity. repeat split; try assumption.
    intro n. rewrite A by reflexivity. apply H2.
  - now apply meta_shallow.
  - intro x. now apply meta_roots.
Qed.

Definition pack_path (q : path) : bool :=
  match q with PPackF _ XPack | PPackF _ XIdx => true | _ => false end.

(* the same metadata and the same pack files: only loose objects differ *)
Lemma loose_transfer g fs fs' :
  agree_meta fs fs' -> agree_on pack_path fs fs' ->
  (forall o, needed g (ref_roots fs) (shallow_list fs) o -> loose_ok fs o = true -> avail fs' o = true) ->
  repo_ok g fs -> repo_ok g fs'.
Proof.
  intros A Ap L R. assert (P := fun n => pack_ext fs fs' n (Ap (PPackF n XPack) eq_refl) (Ap (PPackF n XIdx) eq_refl)).
  apply (meta_transfer g fs); try assumption.
  - intro n. destruct (P n) as [-> _]. now apply (repo_ok_files g).
  - intros o Hn Ha. apply avail_iff in Ha as [Ha|(n & Ha)]; [auto|].
    apply (avail_pack _ _ n). now destruct (P n) as [_ ->].
Qed.

Lemma agree_repo_ok g fs fs' : agree fs fs' -> repo_ok g fs -> repo_ok g fs'.
Proof.
  intros A. apply loose_transfer.
  - now apply agree_meta_of_agree.
  - apply (agree_on_weaken relevant); [|exact A]. intros q Hq. now destruct q as [| | | | |? []| | |].
  - intros o _ H. apply avail_loose. unfold loose_ok in *. now rewrite A.
Qed.

Lemma set_loose g fs o : repo_ok g fs -> repo_ok g (fset fs (PLoose o) (Whole (DLoose o))).
Proof.
  apply loose_transfer; [agree_tac..|].
  intros x _ H. apply avail_loose. unfold loose_ok in *. rewrite flookup_fset. cbn [path_eqb].
  destruct (N.eqb_spec o x) as [->|_]; [apply N.eqb_refl|exact H].
Qed.

Lemma setobj_k_safe g fs k o : repo_ok g fs -> crash_safe g fs (op_setobj_k fs k o).
Proof.
  intro R. assert (T : forall s, agree fs s -> repo_ok g s) by (intros s A; now apply (agree_repo_ok g fs)).
  unfold crash_safe, op_setobj_k.
  destruct (fexists fs (PLoose o)); cbn [app crash_states mid_states apply];
    rewrite ?flookup_fset, ?path_eqb_refl; split_states; try apply set_loose; apply T; agree_tac.
Qed.

Definition pack_fresh (fs : fsmap) (name : string) : bool :=
  negb (fexists fs (PPackF name XPack) || fexists fs (PPackF name XIdx)
        || fexists fs (PPackF name XRev) || fexists fs (PPackF name XPromisor)).

Lemma fexists_false fs p : fexists fs p = false -> flookup fs p = None.
Proof. unfold fexists. destruct (flookup fs p); [discriminate|reflexivity]. Qed.

Lemma pack_fresh_none fs name x : pack_fresh fs name = true -> flookup fs (PPackF name x) = None.
Proof.
  unfold pack_fresh. intro H. apply negb_true_iff in H. repeat (apply orb_false_iff in H as [H ?]).
  destruct x; now apply fexists_false.
Qed.

Lemma add_pack g fs fs' name :
  agree_on (but_pack name) fs fs' -> flookup fs (PPackF name XPack) = None -> pack_file_ok fs' name = true ->
  repo_ok g fs -> repo_ok g fs'.
Proof.
  intros A F K R.
  assert (P : forall n, n <> name -> pack_file_ok fs' n = pack_file_ok fs n /\ forall o, in_pack fs' o n = in_pack fs o n).
  { intros n Hn. apply pack_ext; apply A; now rewrite but_pack_other. }
  apply (meta_transfer g fs); try assumption.
  - apply (agree_on_weaken (but_pack name)); [|exact A]. intros q Hq. now destruct q.
  - intro n. destruct (string_dec n name) as [->|Hn]; [assumption|]. destruct (P n Hn) as [-> _]. now apply (repo_ok_files g).
  - intros o _ Ha. apply avail_iff in Ha as [Ha|(n & Ha)].
    + apply avail_loose. unfold loose_ok in *. now rewrite A.
    + apply (avail_pack _ _ n). destruct (string_dec n name) as [->|Hn].
      * unfold in_pack, pack_objs in Ha. now rewrite F in Ha.
      * now destruct (P n Hn) as [_ ->].
Qed.

Lemma pack_save_safe g fs0 fs k name os prom :
  agree fs0 fs -> flookup fs0 (PPackF name XPack) = None ->
  flookup fs (PTmp TPack k) = Some (Whole (DPack os)) -> repo_ok g fs0 ->
  Forall (repo_ok g) (crash_states (pack_save name (PTmp TPack k) os prom) fs).
Proof.
  intros A F Ht R.
  assert (A' : agree_on (but_pack name) fs0 fs) by (apply (agree_on_weaken relevant); [apply but_pack_relevant|exact A]).
  assert (F' : flookup fs (PPackF name XPack) = None) by now rewrite A.
  unfold pack_save. destruct prom; cbn [app crash_states mid_states apply];
    flk; rewrite ?Nat.eqb_refl, ?Ht; split_states;
    (apply (add_pack g fs0 _ name); [agree_tac|exact F| |exact R];
     unfold pack_file_ok, idx_ok; flk; rewrite ?String.eqb_refl, ?Nat.eqb_refl; cbn [andb];
     rewrite ?F', ?ids_eqb_refl; reflexivity).
Qed.

Lemma packwrite_safe g fs os prom :
  pack_fresh fs (new_pack_name fs) = true -> repo_ok g fs -> crash_safe g fs (op_packwrite fs os prom).
Proof.
  intros Fr R. apply crash_safe_app.
  - unfold crash_safe. cbn [crash_states mid_states apply]. split_states; (apply (agree_repo_ok g fs); [agree_tac|exact R]).
  - apply (pack_save_safe g fs); cbn [run fold_left apply]; try assumption; [agree_tac|now apply pack_fresh_none|flk; reflexivity].
Qed.

(* the checker's seen set: every new member is available, known, and has its kids seen *)
Definition cext (g : graph) (fs : fsmap) (sh : list oid) : list oid -> list oid -> Prop :=
  grows (fun x => avail fs x = true /\ assoc g x <> None) (kid g sh).

Lemma fold_opt_cext {A} g fs sh (f : list oid -> A -> option (list oid)) (P : A -> Prop) (key : A -> oid) :
  (forall s a s', f s a = Some s' -> cext g fs sh s s' /\ (P a -> In (key a) s')) ->
  forall l s s', fold_opt f l s = Some s' ->
  cext g fs sh s s' /\ forall a, In a l -> P a -> In (key a) s'.
Proof.
  intros Hf l. induction l as [|a l IH]; intros s s' H; cbn in H.
  - inversion H; subst. split; [apply grows_refl|intros a []].
  - destruct (f s a) as [s1|] eqn:E; [|discriminate].
    destruct (Hf _ _ _ E) as [E1 K1]. destruct (IH _ _ H) as [E2 K2].
    split; [eapply grows_trans; eassumption|].
    intros b [->|Hb] Pb; [|now apply K2]. destruct E2 as [I2 _]. apply I2. now apply K1.
Qed.

Lemma cext_add g fs sh o s s' :
  avail fs o = true -> assoc g o <> None ->
  cext g fs sh (o :: s) s' -> (forall c, kid g sh o c -> In c s') -> cext g fs sh s s' /\ In o s'.
Proof.
  intros Ha Hk E Hc. apply (grows_add _ _ o (o :: s)); auto.
  intro x. split; (intros [H|H]; [left; congruence|now right]).
Qed.

Lemma check_cext g fs sh fuel : forall s o s',
  check fuel g fs sh s o = Some s' -> cext g fs sh s s' /\ In o s'.
Proof.
  (* as walk_ext in Proofs/C22.v: o is put into the set before its kids are
     checked, and every kind of object closes with cext_add *)
  induction fuel as [|f IH]; intros s o s' H; cbn [check] in H;
    destruct (mem o s) eqn:Es;
    try (inversion H; subst; split; [apply grows_refl|now apply mem_In]); try discriminate.
  destruct (avail fs o) eqn:Ea; cbn [negb] in H; [|discriminate].
  destruct (assoc g o) as [ob|] eqn:Eg; [|discriminate].
  assert (Hk : assoc g o <> None) by congruence.
  destruct ob as [|es|t ps|t].
  - inversion H; subst. apply cext_add; try assumption; [apply grows_refl|].
    intros c Hc. unfold kid in Hc. now rewrite Eg in Hc.
  - set (fe := fun (s0 : list oid) (e : Z * oid) => if is_gitlink (fst e) then Some s0 else check f g fs sh s0 (snd e)) in H.
    destruct (fold_opt_cext g fs sh fe (fun e => is_gitlink (fst e) = false) snd) with (l := es) (s := o :: s) (s' := s') as [E K];
      [|exact H|].
    + intros s0 e s1 He. unfold fe in He. destruct (is_gitlink (fst e)) eqn:Eg'.
      * inversion He; subst. split; [apply grows_refl|discriminate].
      * destruct (IH _ _ _ He). split; auto.
    + apply cext_add; try assumption.
      intros c Hc. unfold kid in Hc. rewrite Eg in Hc. destruct Hc as (m & Hin & Hg). apply (K (m, c) Hin Hg).
  - destruct (check f g fs sh (o :: s) t) as [s2|] eqn:Et; [|discriminate].
    destruct (IH _ _ _ Et) as [E1 K1].
    destruct (mem o sh) eqn:Esh.
    + inversion H; subst. apply cext_add; try assumption.
      intros c Hc. unfold kid in Hc. rewrite Eg in Hc. destruct Hc as [->|[Hs _]]; [assumption|congruence].
    + destruct (fold_opt_cext g fs sh (check f g fs sh) (fun _ => True) (fun x => x)) with (l := ps) (s := s2) (s' := s') as [E2 K2];
        [|exact H|].
      * intros s0 a s1 Ha'. destruct (IH _ _ _ Ha'). split; auto.
      * apply cext_add; try assumption; [eapply grows_trans; eassumption|].
        intros c Hc. unfold kid in Hc. rewrite Eg in Hc. destruct Hc as [->|[_ Hin]].
        -- destruct E2 as [I2 _]. now apply I2.
        -- now apply K2.
  - destruct (IH _ _ _ H) as [E1 K1]. apply cext_add; try assumption.
    intros c Hc. unfold kid in Hc. rewrite Eg in Hc. now subst.
Qed.

Lemma repo_okb_sound g fs : repo_okb g fs = true -> repo_ok g fs.
Proof.
  unfold repo_okb. intro H. apply andb_true_iff in H as [F C]. split; [assumption|].
  unfold connected_b in C. unfold shallow_list.
  destruct (shallow_of fs) as [sh|]; [|discriminate].
  destruct (fold_opt (check (S (List.length g)) g fs sh) (ref_roots fs) []) as [s'|] eqn:E; [|discriminate].
  destruct (fold_opt_cext g fs sh (check (S (List.length g)) g fs sh) (fun _ => True) (fun x => x)) with (l := ref_roots fs) (s := @nil oid) (s' := s') as [[_ Cl] K];
    [|exact E|].
  - intros s0 a s1 Ha. destruct (check_cext _ _ _ _ _ _ _ Ha). split; auto.
  - assert (Hin : forall o, needed g (ref_roots fs) sh o -> In o s').
    { intros o N. induction N as [o Hr|o c _ IH Hk]; [now apply K|].
      destruct (Cl o IH) as (_ & Ch); [intros []|]. now apply Ch. }
    intros o N. destruct (Cl o (Hin o N)) as (A & _); [intros []|]. exact A.
Qed.

Definition whole_at (s : fsmap) (p : path) : bool :=
  match flookup s p with Some (Whole _) => true | _ => false end.

(* a file rewritten in place (created or truncated, then written): it is whole
   again only in the final state *)
Lemma rewrite_partial g fs p d pre s :
  Forall (fun m => m = MCreate p \/ m = MTrunc p) pre ->
  repo_ok g (run (pre ++ [MWrite p d]) fs) ->
  In s (crash_states (pre ++ [MWrite p d]) fs) -> whole_at s p = true -> repo_ok g s.
Proof.
  intros Hpre R Hs Hw. rewrite crash_states_app in Hs. apply in_app_or in Hs as [Hs|Hs].
  - exfalso. clear R. revert fs Hs. induction Hpre as [|m pre Hm _ IH]; intros fs Hs; [destruct Hs|].
    destruct Hm as [-> | ->]; cbn [crash_states mid_states apply app] in Hs;
      (destruct Hs as [<-|Hs]; [|now apply (IH _ Hs)]);
      unfold whole_at in Hw; now rewrite flookup_fset, path_eqb_refl in Hw.
  - cbn [crash_states mid_states apply app] in Hs. destruct Hs as [<-|[<-|[]]].
    + unfold whole_at in Hw. now rewrite flookup_fset, path_eqb_refl in Hw.
    + now rewrite run_app in R.
Qed.

Lemma create_write_partial g fs p d s :
  repo_ok g (run [MCreate p; MWrite p d] fs) ->
  In s (crash_states [MCreate p; MWrite p d] fs) -> whole_at s p = true -> repo_ok g s.
Proof. apply (rewrite_partial g fs p d [MCreate p]). constructor; [now left|constructor]. Qed.

(* witnesses: a two-commit history, everything loose *)
Definition wg : graph := [(0, OBlob); (1, OTree [(33188%Z, 0)]); (2, OCommit 1 []); (3, OCommit 1 [2]); (4, OBlob)].
Definition wfs : fsmap :=
  [(PHead, Whole (DRef (RSym "refs/heads/main"))); (PRef "refs/heads/main", Whole (DRef (RHash 2)));
   (PLoose 0, Whole (DLoose 0)); (PLoose 1, Whole (DLoose 1)); (PLoose 2, Whole (DLoose 2)); (PLoose 3, Whole (DLoose 3));
   (PLoose 4, Whole (DLoose 4)); (PConfig, Whole DConfig); (PIndex, Whole (DIndex [(false, 0)]))].
(* a shallow clone: commit 3 is the shallow root, its parent 2 is not stored *)
Definition wfs_shallow : fsmap :=
  [(PHead, Whole (DRef (RSym "refs/heads/main"))); (PRef "refs/heads/main", Whole (DRef (RHash 3)));
   (PLoose 0, Whole (DLoose 0)); (PLoose 1, Whole (DLoose 1)); (PLoose 3, Whole (DLoose 3));
   (PConfig, Whole DConfig); (PShallow, Whole (DShallow [3]))].

(* every in-place write of a file repo_ok reads is unsafe: a crash inside it leaves the file torn *)
Lemma torn_not_ok g s p : meta p = true -> ~ repo_ok g (fset s p Torn).
Proof.
  intros Hm [F _]. apply files_ok_iff in F as (H1 & H2 & H3 & H4 & _ & H6 & H7).
  unfold head_okP, packed_okP, packed_refs, shallow_okP, shallow_of, index_okP, config_okP in *.
  destruct p; try discriminate; try specialize (H2 n); unfold ref_file_ok in *;
    rewrite flookup_fset, path_eqb_refl in *; discriminate.
Qed.

Lemma write_unsafe g ops : forall fs p d, In (MWrite p d) ops -> meta p = true -> ~ crash_safe g fs ops.
Proof.
  induction ops as [|m r IH]; intros fs p d Hin Hm H; [destruct Hin|].
  unfold crash_safe in H. cbn [crash_states] in H. apply Forall_app in H as [H1 H2]. destruct Hin as [->|Hin].
  - apply Forall_inv in H1. now apply (torn_not_ok g fs p).
  - apply Forall_inv_tail in H2. now apply (IH (apply m fs) p d Hin Hm).
Qed.

(* ... so an operation that contains one is refuted by any repository that is fine before and after it *)
Lemma write_refutes g fs ops p d :
  repo_okb g fs = true -> repo_okb g (run ops fs) = true -> In (MWrite p d) ops -> meta p = true ->
  repo_ok g fs /\ repo_ok g (run ops fs) /\ ~ crash_safe g fs ops.
Proof.
  intros H1 H2 Hin Hm. split; [|split]; try now apply repo_okb_sound. now apply (write_unsafe g ops fs p d).
Qed.

Lemma in_roots_loose fs m o : flookup fs (PRef m) = Some (Whole (DRef (RHash o))) -> In o (ref_roots fs).
Proof. intro H. apply in_ref_roots. right. left. eauto. Qed.

Lemma in_roots_packed fs l m o :
  packed_refs fs = Some l -> In (m, o) l -> flookup fs (PRef m) = None -> In o (ref_roots fs).
Proof. intros. apply in_ref_roots. right. right. eauto. Qed.

Lemma repo_ok_packed g fs : repo_ok g fs -> exists l, packed_refs fs = Some l.
Proof.
  intros [F _]. apply files_ok_iff in F as (_ & _ & F & _). unfold packed_okP in F.
  destruct (packed_refs fs) as [l|]; [now exists l|discriminate].
Qed.

Lemma string_eqb_false_r a b : a <> b -> String.eqb a b = false.
Proof. intro H. now apply String.eqb_neq. Qed.

(* everything repo_ok looks at except reference files and packed-refs *)
Definition refless (q : path) : bool := match q with PRef _ | PPacked => false | _ => relevant q end.

Lemma refless_relevant q : refless q = true -> relevant q = true.
Proof. now destruct q. Qed.

(* loose reference files may go and packed-refs may change, as long as no
   packed entry that becomes effective brings a new root *)
Lemma refs_shrink g fs s l' :
  agree_on refless fs s ->
  (forall m, flookup s (PRef m) = flookup fs (PRef m) \/ flookup s (PRef m) = None) ->
  packed_refs s = Some l' ->
  (forall m o, In (m, o) l' -> flookup s (PRef m) = None -> In o (ref_roots fs)) ->
  repo_ok g fs -> repo_ok g s.
Proof.
  intros Same Refs Pk Hl R.
  assert (P := fun n => pack_ext fs s n (Same (PPackF n XPack) eq_refl) (Same (PPackF n XIdx) eq_refl)).
  apply (repo_ok_transfer g fs); try assumption.
  - destruct R as [F _]. apply files_ok_iff in F as (H1 & H2 & _ & H4 & H5 & H6 & H7). apply files_ok_iff.
    unfold head_okP, packed_okP, shallow_okP, shallow_of, index_okP, config_okP in *.
    rewrite Pk, !Same by reflexivity. repeat split; try assumption.
    + intro m. unfold ref_file_ok. destruct (Refs m) as [->| ->]; [apply H2|reflexivity].
    + intro n. destruct (P n) as [-> _]. apply H5.
  - unfold shallow_of. now rewrite Same.
  - intros x Hx. apply in_ref_roots in Hx as [H|[(m & H)|(l & m & E & Hin & Hn)]].
    + apply in_ref_roots. left. now rewrite Same in H.
    + destruct (Refs m) as [E|E]; rewrite E in H; [now apply in_roots_loose in H|discriminate].
    + rewrite Pk in E. inversion E; subst l. now apply (Hl m).
  - intros o _ Ha. apply avail_iff in Ha as [Ha|(n & Ha)].
    + apply avail_loose. unfold loose_ok in *. now rewrite Same.
    + apply (avail_pack _ _ n). now destruct (P n) as [_ ->].
Qed.

(* the new packed-refs is prepared in a temp file; what follows runs from a directory
   that agrees with fs and holds the new list in the temp file *)
Lemma packed_tmp_safe g fs l tl :
  repo_ok g fs ->
  (forall s1 c, agree fs s1 -> flookup s1 (PTmp TPRefs 0) = Some c ->
     packed_refs (fset (fdel s1 (PTmp TPRefs 0)) PPacked c) = Some l -> crash_safe g s1 tl) ->
  crash_safe g fs ([MTemp (PTmp TPRefs 0)]
                   ++ match l with [] => [] | _ => [MWrite (PTmp TPRefs 0) (DPackedRefs l)] end ++ tl).
Proof.
  intros R H. unfold crash_safe. destruct l; cbn [app crash_states mid_states apply]; split_states;
    try (apply (agree_repo_ok g fs); [agree_tac|exact R]);
    (eapply H; [agree_tac|flk; reflexivity|unfold packed_refs; flk; reflexivity]).
Qed.

Lemma rm_loose_ref g s n l :
  packed_refs s = Some l -> (forall o, ~ In (n, o) l) -> repo_ok g s -> repo_ok g (fdel s (PRef n)).
Proof.
  intros Pk Hn R. apply (refs_shrink g s _ l); [agree_tac| | |  |exact R].
  - intro m. flk. destruct (String.eqb n m); auto.
  - unfold packed_refs in *. now flk.
  - intros m o Hin. flk. destruct (String.eqb_spec n m) as [<-|_]; [now destruct (Hn o)|].
    now apply (in_roots_packed s l m).
Qed.

Lemma set_packed g fs s l l' c :
  agree fs s -> packed_refs fs = Some l -> incl l' l -> packed_refs (fset s PPacked c) = Some l' ->
  repo_ok g fs -> repo_ok g (fset s PPacked c).
Proof.
  intros A Pl Hi Pk R. apply (refs_shrink g fs _ l'); [| |exact Pk| |exact R].
  - apply agree_on_fset; [reflexivity|]. apply (agree_on_weaken relevant); [apply refless_relevant|exact A].
  - intro m. left. flk. now apply A.
  - intros m o Hin. flk. rewrite A by reflexivity. apply (in_roots_packed fs l m); auto.
Qed.

Lemma rmref_safe g fs n : repo_ok g fs -> crash_safe g fs (op_rmref fs n).
Proof.
  intro R. assert (T : forall s, agree fs s -> repo_ok g s) by (intros s A; now apply (agree_repo_ok g fs)).
  (* the loose file goes last, from a state whose packed-refs does not name n *)
  assert (Final : forall s l, repo_ok g s -> packed_refs s = Some l -> (forall o, ~ In (n, o) l) ->
            crash_safe g s (if fexists fs (PRef n) then [MRemove (PRef n)] else [])).
  { intros s l Rs Pk Hn. destruct (fexists fs (PRef n)); [|constructor].
    unfold crash_safe. cbn [crash_states mid_states apply]. split_states. now apply (rm_loose_ref g s n l). }
  destruct (repo_ok_packed g fs R) as (l0 & P0). unfold op_rmref. unfold packed_refs in P0.
  destruct (flookup fs PPacked) as [[[]| |]|] eqn:Ep; try discriminate; inversion P0; subst l0; clear P0.
  - (* packed-refs with entries: rewritten through a temp file *)
    set (rest := filter (fun e => negb (String.eqb (fst e) n)) l).
    assert (Hrest : forall o, ~ In (n, o) rest).
    { intros o H. apply filter_In in H as [_ H]. cbn in H. now rewrite String.eqb_refl in H. }
    rewrite <- !app_assoc. apply packed_tmp_safe; [exact R|]. intros s1 c A1 Ht Pk.
    set (Z := if existsb _ l then _ else _).
    assert (HZ : crash_safe g s1 Z).
    { unfold Z, crash_safe.
      destruct (existsb _ l); cbn [crash_states mid_states apply]; rewrite ?Ht; split_states; [|apply T; agree_tac].
      apply (set_packed g fs _ l rest); [agree_tac|unfold packed_refs; now rewrite Ep|apply incl_filter|exact Pk|exact R]. }
    assert (RZ : repo_ok g (run Z s1)).
    { apply crash_safe_run; [|exact HZ]. unfold Z. now destruct (existsb _ l). }
    apply crash_safe_app; [exact HZ|]. revert RZ. unfold Z.
    destruct (existsb _ l) eqn:Ef; cbn [run fold_left apply]; rewrite ?Ht; intro RZ.
    + now apply (Final _ rest).
    + apply (Final _ l); [exact RZ|unfold packed_refs; flk; rewrite A1 by reflexivity; now rewrite Ep|].
      intros o Hin. apply not_true_iff_false in Ef. apply Ef, existsb_exists. exists (n, o). split; [assumption|apply String.eqb_refl].
  - apply crash_safe_app.
    + unfold crash_safe. cbn [crash_states mid_states apply]. split_states; apply T; agree_tac.
    + apply (Final _ []); [apply T; cbn; agree_tac|unfold packed_refs; cbn [run fold_left apply]; flk; now rewrite Ep|intros o []].
  - apply (Final _ []); [exact R|unfold packed_refs; now rewrite Ep|intros o []].
Qed.

Lemma in_loose_hash_refs fs m o :
  In (m, o) (loose_hash_refs fs) -> flookup fs (PRef m) = Some (Whole (DRef (RHash o))).
Proof.
  unfold loose_hash_refs. intro H. apply in_flat_map in H as (n & _ & H).
  destruct (flookup fs (PRef n)) as [[[[]| | | | | | | |]| |]|] eqn:E; cbn in H; try contradiction.
  destruct H as [H|[]]. inversion H; subst. assumption.
Qed.

(* from s0 = fs with packed-refs in place: temp file, rename, then the loose files go *)
Lemma packrefs_main g fs s0 old :
  (forall m, flookup s0 (PRef m) = flookup fs (PRef m)) -> packed_refs s0 = Some old -> repo_ok g s0 ->
  crash_safe g s0
    match ref_names fs with
    | [] => []
    | _ =>
      let all := loose_hash_refs fs ++ filter (fun e => negb (is_loose_name fs (fst e))) old in
      [MTemp (PTmp TPRefs 0)] ++ (match all with [] => [] | _ => [MWrite (PTmp TPRefs 0) (DPackedRefs all)] end)
      ++ [MRename (PTmp TPRefs 0) PPacked]
      ++ match map fst (loose_hash_refs fs) with [] => [] | ns => [MRemoveSet (map PRef ns)] end
    end.
Proof.
  intros S0 P0 R0. destruct (ref_names fs) as [|r0 rs]; [constructor|]. cbv zeta. set (all := _ ++ filter _ old).
  assert (Hall : forall m o, In (m, o) all -> In o (ref_roots s0)).
  { intros m o H. apply in_app_or in H as [H|H].
    - apply in_loose_hash_refs in H. rewrite <- S0 in H. now apply in_roots_loose in H.
    - apply filter_In in H as [H Hn]. cbn in Hn. apply negb_true_iff, fexists_false in Hn.
      rewrite <- S0 in Hn. now apply (in_roots_packed s0 old m). }
  apply packed_tmp_safe; [exact R0|]. intros s1 c A1 Ht Pk.
  (* after the rename, with any set of loose reference files removed *)
  set (sr := fset (fdel s1 (PTmp TPRefs 0)) PPacked c).
  assert (Tdel : forall ps, (forall q, In q ps -> exists m, q = PRef m) -> repo_ok g (fold_left fdel ps sr)).
  { intros ps Hps. apply (refs_shrink g s0 _ all); [| | | |exact R0].
    - apply agree_on_fold_fdel; [intros q Hq; now destruct (Hps q Hq) as (m & ->)|].
      apply agree_on_fset; [reflexivity|]. apply agree_on_fdel; [reflexivity|].
      apply (agree_on_weaken relevant); [apply refless_relevant|exact A1].
    - intro m. rewrite flookup_fold_fdel. destruct (existsb _ ps); [now right|left]. unfold sr. flk. now apply A1.
    - unfold packed_refs. rewrite fold_fdel_out; [exact Pk|]. intro Hq. now destruct (Hps _ Hq).
    - intros m o Hin _. now apply (Hall m). }
  apply (crash_safe_app g s1 [MRename (PTmp TPRefs 0) PPacked]).
  - unfold crash_safe. cbn [crash_states mid_states apply]. rewrite Ht. split_states. apply (Tdel []). intros q [].
  - cbn [run fold_left apply]. rewrite Ht. fold sr. destruct (map fst (loose_hash_refs fs)) as [|m0 ms]; [constructor|].
    apply removeset_states. intros pre post E. apply Tdel. intros q Hq.
    assert (H : In q (map PRef (m0 :: ms))) by (rewrite E; apply in_or_app; now left).
    apply in_map_iff in H as (m & <- & _). eauto.
Qed.

Lemma packrefs_safe g fs : repo_ok g fs -> crash_safe g fs (op_packrefs fs).
Proof.
  intro R. destruct (repo_ok_packed g fs R) as (old & Eold). unfold op_packrefs. rewrite Eold.
  destruct (fexists fs PPacked) eqn:Ex; cbn [app]; [apply packrefs_main; auto|].
  apply fexists_false in Ex.
  assert (P0 : packed_refs (fset fs PPacked Empty) = Some old) by (unfold packed_refs in *; flk; now rewrite Ex in Eold).
  assert (R0 : repo_ok g (fset fs PPacked Empty)).
  { apply (refs_shrink g fs _ old); [agree_tac|intro m; left; now flk|exact P0| |exact R].
    intros m o Hin. flk. now apply (in_roots_packed fs old m). }
  apply (crash_safe_app g fs [MCreate PPacked]).
  - unfold crash_safe. cbn [crash_states mid_states apply]. now split_states.
  - cbn [run fold_left apply]. apply packrefs_main; [intro m; now flk|exact P0|exact R0].
Qed.

Lemma in_loose_ids fs o : In o (loose_ids fs) <-> loose_ok fs o = true.
Proof.
  unfold loose_ids. rewrite filter_In, In_sort_n. split; [tauto|]. intro H. split; [|assumption].
  unfold loose_keys. apply in_flat_map. exists (PLoose o). split; [|now left].
  apply flookup_keys. unfold loose_ok in H. destruct (flookup fs (PLoose o)); [congruence|discriminate].
Qed.

Lemma stored_to_repo g fs ol op o : stored (to_repo g fs ol op) o = true <-> avail fs o = true.
Proof.
  unfold stored, to_repo. cbn [loose packs]. rewrite orb_true_iff, avail_iff.
  rewrite map_map. cbn [fst]. rewrite map_id, mem_In, in_loose_ids.
  rewrite existsb_exists. split.
  - intros [H|(p & Hp & Hm)]; [now left|right].
    apply in_map_iff in Hp as ([n os] & <- & Hin). cbn [p_objs fst snd] in Hm.
    unfold pack_files in Hin. apply in_flat_map in Hin as (n' & _ & Hin).
    destruct (pack_objs fs n') as [os'|] eqn:E; [|destruct Hin]. destruct Hin as [Hin|[]]. inversion Hin; subst.
    exists n. unfold in_pack. rewrite E. destruct (idx_ok fs n os); [assumption|discriminate].
  - intros [H|(n & H)]; [now left|right].
    unfold in_pack in H. destruct (pack_objs fs n) as [os|] eqn:E; [|discriminate].
    apply andb_true_iff in H as [Hi Hm].
    exists {| p_name := (sort_n os, 0); p_old := existsb (String.eqb n) op; p_promisor := pack_is_promisor fs n; p_objs := if idx_ok fs n os then os else [] |}.
    split; [|cbn; now rewrite Hi].
    apply in_map_iff. exists (n, os). split; [reflexivity|].
    unfold pack_files. apply in_flat_map. exists n. split; [|rewrite E; now left].
    apply in_pack_names. unfold pack_objs in E. destruct (flookup fs (PPackF n XPack)); [congruence|discriminate].
Qed.

Lemma get_to_repo g fs ol op o : avail fs o = true -> get (to_repo g fs ol op) o = assoc g o.
Proof. intro H. unfold get. apply stored_to_repo with (g := g) (ol := ol) (op := op) in H. now rewrite H. Qed.

Lemma gitlink_submodule m : is_gitlink m = false -> m <> filemode_Submodule.
Proof. intros H ->. vm_compute in H. discriminate. Qed.

Lemma reach_roots r rs rs' h : (forall x, In x rs -> In x rs') -> reach r rs h -> reach r rs' h.
Proof. intros H Hr. induction Hr; [apply reach_root; auto|eapply reach_step; eassumption]. Qed.

Lemma needed_live g fs ol op o :
  repo_ok g fs -> needed g (ref_roots fs) (shallow_list fs) o -> live (to_repo g fs ol op) o.
Proof.
  intros [_ N] Hn. unfold live.
  apply reach_roots with (rs := ref_roots fs); [intros; apply in_or_app; now left|].
  induction Hn as [o Hr|o c Hn IH Hk]; [now apply reach_root|].
  apply reach_step with (h := o); [assumption|].
  destruct (N o Hn) as [Ha _]. unfold child. rewrite (get_to_repo _ _ _ _ _ Ha).
  unfold kid in Hk. destruct (assoc g o) as [[|es|t ps|t]|]; try contradiction.
  - destruct Hk as (m & Hin & Hg). exists m. split; [assumption|now apply gitlink_submodule].
  - destruct Hk as [->|[Hs Hin]]; [now left|right]. split; [|assumption].
    cbn [shallow to_repo]. unfold shallow_list in Hs. exact Hs.
  - assumption.
Qed.

Lemma needed_seen g fs ol op fuel st o :
  let r := to_repo g fs ol op in
  wf_modes r = true -> wf_index r = true -> walk_all fuel r = Ok st ->
  repo_ok g fs -> needed g (ref_roots fs) (shallow_list fs) o -> In o st.(seen) /\ In o (present st).
Proof.
  intros r Wm Wi Hw R Hn. apply (live_present fuel r); try assumption; [now apply needed_live|].
  destruct (proj2 R o Hn) as [Ha Hk]. unfold has, r. rewrite (get_to_repo _ _ _ _ _ Ha).
  destruct (assoc g o); congruence.
Qed.

Lemma needed_meta g fs fs' o : agree_meta fs fs' ->
  needed g (ref_roots fs') (shallow_list fs') o -> needed g (ref_roots fs) (shallow_list fs) o.
Proof.
  intros A. unfold shallow_list. rewrite (meta_shallow _ _ A). apply needed_roots. intro x. now apply meta_roots.
Qed.

(* removing files no needed object depends on; an idx may go only after its pack *)
Lemma delete_safe g s ps :
  (forall q, In q ps -> meta q = false) ->
  (forall n, In (PPackF n XIdx) ps -> In (PPackF n XPack) ps \/ flookup s (PPackF n XPack) = None) ->
  (forall o, needed g (ref_roots s) (shallow_list s) o ->
     (loose_ok s o = true /\ ~ In (PLoose o) ps) \/
     exists n, in_pack s o n = true /\ ~ In (PPackF n XPack) ps /\ ~ In (PPackF n XIdx) ps) ->
  repo_ok g s -> repo_ok g (fold_left fdel ps s).
Proof.
  intros Hm Hord Hav R. set (s' := fold_left fdel ps s).
  assert (K : forall q, ~ In q ps -> flookup s' q = flookup s q) by (intros; now apply fold_fdel_out).
  apply (meta_transfer g s); try assumption.
  - apply agree_on_fold_fdel; [exact Hm|apply agree_on_refl].
  - intro n. destruct (in_path_dec (PPackF n XPack) ps) as [Hp|Hp].
    { unfold pack_file_ok, s'. now rewrite fold_fdel_in. }
    destruct (in_path_dec (PPackF n XIdx) ps) as [Hi|Hi].
    + destruct (Hord n Hi) as [H|H]; [contradiction|]. unfold pack_file_ok. now rewrite (K _ Hp), H.
    + destruct (pack_ext s s' n (K _ Hp) (K _ Hi)) as [-> _]. now apply (repo_ok_files g).
  - intros o Hn _. destruct (Hav o Hn) as [[Hl Ho]|(n & Hi & Hp & Hx)].
    + apply avail_loose. unfold loose_ok in *. now rewrite (K _ Ho).
    + apply (avail_pack _ _ n). now destruct (pack_ext s s' n (K _ Hp) (K _ Hx)) as [_ ->].
Qed.

Lemma prune_safe g fs ol lim :
  let r := to_repo g fs ol [] in
  wf_modes r = true -> wf_index r = true ->
  repo_ok g fs -> crash_safe g fs (op_prune g fs ol lim).
Proof.
  intros r Wm Wi R. unfold crash_safe, op_prune. fold r.
  destruct (walk_all (gc_fuel r) r) as [st|e] eqn:Hw; [|constructor].
  set (del := filter _ (loose_ids fs)).
  assert (Hdel : forall o, In o del -> ~ In o st.(seen)).
  { intros o H. apply filter_In in H as [_ H]. apply negb_true_iff, orb_false_iff in H as [H _]. now apply mem_nIn. }
  clearbody del. destruct del as [|d0 del']; [constructor|]. apply removeset_states. intros pre post E.
  assert (Hpre : forall q, In q pre -> exists o, q = PLoose o /\ In o (d0 :: del')).
  { intros q Hq. assert (H : In q (map PLoose (d0 :: del'))) by (rewrite E; apply in_or_app; now left).
    apply in_map_iff in H as (o & <- & Ho). eauto. }
  apply delete_safe; [| | |exact R].
  - intros q Hq. now destruct (Hpre q Hq) as (o & -> & _).
  - intros n Hq. now destruct (Hpre _ Hq) as (o & Ho & _).
  - intros o Hn. destruct (proj2 R o Hn) as [Ha _]. apply avail_iff in Ha as [Ha|(n & Ha)].
    + left. split; [assumption|]. intro Hq. destruct (Hpre _ Hq) as (o' & Ho & Hin). inversion Ho; subst o'.
      apply (Hdel o Hin). now destruct (needed_seen g fs ol [] _ st o Wm Wi Hw R Hn).
    + right. exists n. split; [assumption|]. split; intro Hq; now destruct (Hpre _ Hq) as (o' & Ho & _).
Qed.

Lemma in_pack_exts fs n q : In q (pack_exts fs n) -> (exists x, q = PPackF n x) /\ fexists fs q = true.
Proof.
  unfold pack_exts. intro H. apply filter_In in H as [H F]. split; [|exact F].
  cbn in H. destruct H as [<-|[<-|[<-|[<-|[]]]]]; eauto.
Qed.

(* in the list of old pack files to delete, a pack always goes before its idx *)
Lemma pack_before_idx fs (keep : string -> bool) names : forall pre post,
  flat_map (fun n => if keep n then [] else pack_exts fs n) names = pre ++ post ->
  forall n, In (PPackF n XIdx) pre -> In (PPackF n XPack) pre \/ flookup fs (PPackF n XPack) = None.
Proof.
  induction names as [|n0 ns IH]; intros pre post E n Hin; cbn [flat_map] in E.
  - destruct pre; [destruct Hin|discriminate].
  - set (B := if keep n0 then [] else pack_exts fs n0) in E.
    assert (HB : forall q, In q B -> exists x, q = PPackF n0 x).
    { intros q Hq. unfold B in Hq. destruct (keep n0); [destruct Hq|now apply in_pack_exts in Hq]. }
    assert (HP : forall l r, B = l ++ r -> In (PPackF n0 XIdx) l -> In (PPackF n0 XPack) l \/ flookup fs (PPackF n0 XPack) = None).
    { intros l r EB Hl. unfold B in EB. destruct (keep n0); [destruct l; [destruct Hl|discriminate]|].
      unfold pack_exts in EB. cbn [filter] in EB.
      destruct (fexists fs (PPackF n0 XPack)) eqn:Ex; [|right; now apply fexists_false].
      destruct l as [|a l']; [destruct Hl|]. cbn in EB. inversion EB; subst. left. now left. }
    (* the cut between pre and post falls inside the files of n0, or after them *)
    apply app_eq_app in E as (l & [[E1 E2]|[E1 E2]]).
    + assert (Hq : In (PPackF n XIdx) B) by (rewrite E1; apply in_or_app; now left).
      destruct (HB _ Hq) as (x & Ex). inversion Ex; subst n. now apply (HP pre l).
    + subst pre. apply in_app_or in Hin as [Hin|Hin].
      * destruct (HB _ Hin) as (x & Ex). inversion Ex; subst n.
        destruct (HP B [] (eq_sym (app_nil_r B)) Hin) as [H|H]; [left; apply in_or_app; now left|now right].
      * destruct (IH _ _ E2 n Hin) as [H|H]; [left; apply in_or_app; now right|now right].
Qed.

Lemma packwrite_result fs os prom :
  let name := new_pack_name fs in let S := run (op_packwrite fs os prom) fs in
  agree_on (but_pack name) fs S /\
  flookup S (PPackF name XPack) = Some (Whole (DPack os)) /\ flookup S (PPackF name XIdx) = Some (Whole (DIdx os)).
Proof.
  unfold op_packwrite, pack_save. destruct prom; cbn [app run fold_left apply]; flk; rewrite ?Nat.eqb_refl; cbn [andb];
    (split; [agree_tac|split; flk; rewrite ?String.eqb_refl; reflexivity]).
Qed.

(* what RepackObjects deletes: loose objects, and files of packs other than the new one *)
Definition old_file (name : string) (q : path) : bool :=
  match q with PLoose _ => true | PPackF n _ => negb (String.eqb n name) | _ => false end.

Lemma repack_safe g fs op lim :
  let r := to_repo g fs [] op in
  wf_modes r = true -> wf_index r = true ->
  pack_fresh fs (new_pack_name fs) = true ->
  repo_ok g fs -> crash_safe g fs (op_repack g fs op lim).
Proof.
  intros r Wm Wi Fr R. unfold op_repack. fold r.
  destruct (walk_all (gc_fuel r) r) as [st|e] eqn:Hw; [|constructor].
  set (os := present st). set (name := new_pack_name fs) in *.
  destruct (forallb (has r) os).
  2:{ unfold crash_safe. cbn [crash_states mid_states apply]. split_states. eapply agree_repo_ok; [apply agree_set_tmp|exact R]. }
  (* first a pack write; everything needed is in the new pack *)
  rewrite app_assoc. apply (crash_safe_app g fs (op_packwrite fs os (promisor r))); [now apply packwrite_safe|].
  set (S := run (op_packwrite fs os (promisor r)) fs).
  assert (RS : repo_ok g S).
  { apply crash_safe_run; [discriminate|now apply packwrite_safe]. }
  destruct (packwrite_result fs os (promisor r)) as (SA & SP1 & SP2). fold name S in SA, SP1, SP2.
  assert (Am : agree_meta fs S) by (apply (agree_on_weaken (but_pack name)); [|exact SA]; intros q Hq; now destruct q).
  assert (Hos : forall o, needed g (ref_roots S) (shallow_list S) o -> in_pack S o name = true).
  { intros o Hn. apply (needed_meta g fs S o Am) in Hn.
    unfold in_pack, pack_objs, idx_ok. rewrite SP1, SP2, ids_eqb_refl. apply mem_In.
    now destruct (needed_seen g fs [] op _ st o Wm Wi Hw R Hn). }
  (* any set of old files, an idx deleted only after its pack *)
  assert (Del : forall ps,
            (forall q, In q ps -> old_file name q = true) ->
            (forall n, In (PPackF n XIdx) ps -> In (PPackF n XPack) ps \/ flookup fs (PPackF n XPack) = None) ->
            repo_ok g (fold_left fdel ps S)).
  { intros ps Hps Hord. apply delete_safe; [| | |exact RS].
    - intros q Hq. apply Hps in Hq. now destruct q.
    - intros n Hq. destruct (Hord n Hq) as [H|H]; [now left|right].
      apply Hps, negb_true_iff, String.eqb_neq in Hq. rewrite SA; [exact H|now rewrite but_pack_other].
    - intros o Hn. right. exists name. split; [now apply Hos|].
      split; intro Hq; apply Hps in Hq; cbn in Hq; now rewrite String.eqb_refl in Hq. }
  set (Ldel := filter (fun o => mem o st.(seen)) (loose_ids fs)).
  set (keep := fun n => lim && negb (existsb (String.eqb n) op)).
  set (Pdel := flat_map _ (ssort (map fst (pack_files fs)))).
  assert (HL : forall q, In q (map PLoose Ldel) -> old_file name q = true).
  { intros q Hq. now apply in_map_iff in Hq as (o & <- & _). }
  assert (HPd : forall q, In q Pdel -> old_file name q = true).
  { intros q Hq. apply in_flat_map in Hq as (n & _ & Hq). destruct (lim && _); [destruct Hq|].
    destruct (in_pack_exts _ _ _ Hq) as [(x & ->) Hx]. apply negb_true_iff, String.eqb_neq.
    intros ->. unfold fexists in Hx. now rewrite (pack_fresh_none fs name x Fr) in Hx. }
  assert (NoIdx : forall n pre, (forall q, In q pre -> In q (map PLoose Ldel)) -> ~ In (PPackF n XIdx) pre).
  { intros n pre Hpre Hq. apply Hpre, in_map_iff in Hq as (o & Ho & _). discriminate. }
  apply crash_safe_app.
  - destruct Ldel as [|d0 dl] eqn:Ed; [constructor|]. rewrite <- Ed in *. apply removeset_states. intros pre post E.
    assert (Hpre : forall q, In q pre -> In q (map PLoose Ldel)) by (intros q Hq; rewrite E; apply in_or_app; now left).
    apply Del; [auto|]. intros n Hq. now apply NoIdx in Hq.
  - replace (run _ S) with (fold_left fdel (map PLoose Ldel) S) by now destruct Ldel.
    destruct Pdel as [|p0 pl] eqn:Ep; [constructor|]. rewrite <- Ep in *. apply removeset_states. intros pre post E.
    rewrite <- fold_left_app. apply Del.
    + intros q Hq. apply in_app_or in Hq as [Hq|Hq]; [auto|]. apply HPd. rewrite E. apply in_or_app. now left.
    + intros n Hq. apply in_app_or in Hq as [Hq|Hq]; [now apply NoIdx in Hq|].
      destruct (pack_before_idx fs keep _ _ _ E n Hq) as [H|H]; [left; apply in_or_app; now right|now right].
Qed.

Lemma op_setobj_k_ne fs k o : op_setobj_k fs k o <> [].
Proof. unfold op_setobj_k. discriminate. Qed.

Lemma setobjs_safe g os : forall k fs, repo_ok g fs ->
  crash_safe g fs (op_setobjs k fs os) /\ repo_ok g (run (op_setobjs k fs os) fs).
Proof.
  induction os as [|o r IH]; intros k fs R; cbn [op_setobjs].
  - split; [constructor|exact R].
  - assert (H1 := setobj_k_safe g fs k o R).
    assert (R1 : repo_ok g (run (op_setobj_k fs k o) fs)).
    { apply crash_safe_run; [apply op_setobj_k_ne|exact H1]. }
    destruct (IH (S k) _ R1) as [H2 R2]. rewrite run_app. split; [now apply crash_safe_app|exact R2].
Qed.
