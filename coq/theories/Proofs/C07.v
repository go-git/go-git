(* Proofs/C07.v — the pack encoder writes every requested node exactly once,
   bases before their deltas, for EVERY base-pointer function (cyclic or not). *)
From Coq Require Import List NArith Arith Lia Bool Setoid Permutation.
From Coq Require Import ZifyBool ZifyNat ZifyN.
From GoGit Require Import Base.Out Model.Delta Model.PackEnc.
Import ListNotations.

Definition e_node (e : nat * option nat * N) : nat := fst (fst e).
Definition e_base (e : nat * option nat * N) : option nat := snd (fst e).
Definition e_off (e : nat * option nat * N) : N := snd e.

Lemma in_nodes l k : In k (map e_node l) <-> exists b off, In (k, b, off) l.
Proof.
  rewrite in_map_iff. split.
  - intros ([[k' b] off] & <- & H). eauto.
  - intros (b & off & H). exists (k, b, off). auto.
Qed.

(* newest entry first: every delta's base is the node of an OLDER entry *)
Inductive bases_before : list (nat * option nat * N) -> Prop :=
| bb_nil : bases_before []
| bb_cons e l : bases_before l -> (forall b, e_base e = Some b -> In b (map e_node l)) -> bases_before (e :: l).

Lemma upd_same {A} (f : nat -> A) k v : upd f k v k = v.
Proof. unfold upd. rewrite Nat.eqb_refl. reflexivity. Qed.

Lemma upd_other {A} (f : nat -> A) k v x : x <> k -> upd f k v x = f x.
Proof. intros H. unfold upd. apply Nat.eqb_neq in H. rewrite H. reflexivity. Qed.

Section Encoder.
Variable n : nat.                       (* the object list is 0 .. n-1 *)
Variable base0 : nat -> option nat.     (* ObjectToPack.Base as handed to the encoder *)
Variable esize : nat -> N.              (* bytes occupied by the entry of a node *)
Hypothesis esize_pos : forall o, (0 < esize o)%N.
Hypothesis closed : forall k b, base0 k = Some b -> b < n.

Record Inv (s : state) : Prop := {
  inv_w1 : forall k off, st_of s k = Written off -> exists b, In (k, b, off) (emitted s);
  inv_w2 : forall k b off, In (k, b, off) (emitted s) -> st_of s k = Written off;
  inv_nodup : NoDup (map e_node (emitted s));
  inv_base : forall k b off, In (k, Some b, off) (emitted s) ->
             base0 k = Some b /\ exists bb ob, In (b, bb, ob) (emitted s) /\ (ob < off)%N;
  inv_off : forall k b off, In (k, b, off) (emitted s) -> (12 <= off < next_off s)%N;
  inv_next : (12 <= next_off s)%N;
  inv_sub : forall k b, base_of s k = Some b -> base0 k = Some b;
  inv_order : bases_before (emitted s);
  inv_touch : forall k, st_of s k <> Untouched -> k < n
}.

Lemma inv_range s k b off : Inv s -> In (k, b, off) (emitted s) -> k < n.
Proof. intros I H. apply (inv_touch s I). rewrite (inv_w2 s I k b off H). discriminate. Qed.

Lemma base_closed s k b : Inv s -> base_of s k = Some b -> b < n.
Proof. intros I H. exact (closed k b (inv_sub s I k b H)). Qed.

Lemma is_written_iff s k : is_written s k = true <-> exists off, st_of s k = Written off.
Proof.
  unfold is_written. destruct (st_of s k) as [| |off].
  1, 2: split; [discriminate | intros [off [=]]].
  split; [eauto | reflexivity].
Qed.

Lemma not_written s o off : is_written s o = false -> st_of s o <> Written off.
Proof. intros H E. unfold is_written in H. rewrite E in H. discriminate. Qed.

(* s' extends s: nothing written is ever changed *)
Definition ext (s s' : state) : Prop :=
  (exists new, emitted s' = new ++ emitted s) /\
  (forall k off, st_of s k = Written off -> st_of s' k = Written off) /\
  (forall k, st_of s k <> Untouched -> st_of s' k <> Untouched) /\
  (forall k, base_of s' k = base_of s k \/ base_of s' k = None).

Lemma ext_refl s : ext s s.
Proof. repeat split; auto. exists []. reflexivity. Qed.

Lemma ext_trans a b c : ext a b -> ext b c -> ext a c.
Proof.
  intros (Ha1 & Ha2 & Ha3 & Ha4) (Hb1 & Hb2 & Hb3 & Hb4). repeat split; auto.
  - destruct Ha1 as [x Hx], Hb1 as [y Hy]. exists (y ++ x). rewrite Hy, Hx, app_assoc. reflexivity.
  - intros k. destruct (Hb4 k) as [E|E]; [rewrite E; apply Ha4|right; exact E].
Qed.

Lemma written_ext s s' k : ext s s' -> is_written s k = true -> is_written s' k = true.
Proof. intros (_ & E & _). rewrite !is_written_iff. intros [off H]. eauto. Qed.

Lemma upd_written s o v k off : is_written s o = false ->
  st_of s k = Written off -> upd (st_of s) o v k = Written off.
Proof. intros H E. rewrite upd_other; [exact E|]. intros ->. exact (not_written s o off H E). Qed.

Lemma upd_touch s o (v : status) k : Inv s -> o < n -> upd (st_of s) o v k <> Untouched -> k < n.
Proof. intros I Ho. unfold upd. destruct (Nat.eqb_spec k o) as [->|_]; [trivial|apply (inv_touch s I)]. Qed.

Lemma ext_status s s' o v new : is_written s o = false -> v <> Untouched ->
  emitted s' = new ++ emitted s -> st_of s' = upd (st_of s) o v -> base_of s' = base_of s -> ext s s'.
Proof.
  intros H Hv He Hs Hb. unfold ext. rewrite Hs, Hb. repeat split; eauto using upd_written.
  intros k Hk. unfold upd. destruct (Nat.eqb k o); assumption.
Qed.

Lemma inv_back s o : Inv s -> Inv (back_to_original s o).
Proof.
  intros I. constructor; cbn; try (apply I).
  intros k b. unfold upd. destruct (Nat.eqb k o); [discriminate|apply (inv_sub s I)].
Qed.

Lemma ext_back s o : ext s (back_to_original s o).
Proof.
  repeat split; cbn; auto. exists []. reflexivity.
  intros k. unfold upd. destruct (Nat.eqb k o); auto.
Qed.

Lemma inv_mark s o : Inv s -> is_written s o = false -> o < n -> Inv (mark_want s o).
Proof.
  intros I H Ho. constructor; cbn; try (apply I).
  - intros k off. unfold upd. destruct (Nat.eqb k o); [discriminate|apply (inv_w1 s I)].
  - intros k b off Hin. apply upd_written, (inv_w2 s I k b off Hin). exact H.
  - intros k. apply upd_touch; assumption.
Qed.

Lemma ext_mark s o : is_written s o = false -> ext s (mark_want s o).
Proof. intros H. now apply (ext_status s _ o WantWrite []). Qed.

Lemma inv_write s o : Inv s -> is_written s o = false -> o < n ->
  (forall b, base_of s o = Some b -> is_written s b = true) ->
  Inv (write_entry esize s o).
Proof.
  intros I H Ho Hb. pose proof (esize_pos o) as Hpos. pose proof (inv_next s I) as Hnx.
  assert (Hbase : forall b, base_of s o = Some b -> exists bb ob, In (b, bb, ob) (emitted s) /\ (ob < next_off s)%N).
  { intros b Eb. apply Hb, is_written_iff in Eb as [ob Eb]. destruct (inv_w1 s I b ob Eb) as [bb Hin].
    exists bb, ob. split; [exact Hin|]. apply (inv_off s I) in Hin. lia. }
  constructor; cbn.
  - intros k off. unfold upd. destruct (Nat.eqb_spec k o) as [->|_].
    + intros [= <-]. eexists. left. reflexivity.
    + intros Hk. destruct (inv_w1 s I k off Hk) as [b Hin]. exists b. right. exact Hin.
  - intros k b off [[= <- <- <-]|Hin]; [apply upd_same|].
    apply upd_written, (inv_w2 s I k b off Hin). exact H.
  - constructor; [|apply (inv_nodup s I)].
    intros Hin. apply in_nodes in Hin as (b & off & Hin). exact (not_written s o off H (inv_w2 s I o b off Hin)).
  - intros k b off Hin.
    enough (base0 k = Some b /\ exists bb ob, In (b, bb, ob) (emitted s) /\ (ob < off)%N) as (Hk & bb & ob & Hb' & Hlt)
      by (split; [exact Hk|]; exists bb, ob; split; [right; exact Hb'|exact Hlt]).
    destruct Hin as [[= <- Eb <-]|Hin]; [|exact (inv_base s I k b off Hin)].
    split; [exact (inv_sub s I o b Eb)|exact (Hbase b Eb)].
  - intros k b off [[= <- <- <-]|Hin]; [|apply (inv_off s I) in Hin]; lia.
  - lia.
  - apply (inv_sub s I).
  - constructor; [apply (inv_order s I)|].
    intros b Eb. destruct (Hbase b Eb) as (bb & ob & Hin & _). apply in_nodes. eauto.
  - intros k. apply upd_touch; assumption.
Qed.

Lemma ext_write s o : is_written s o = false -> ext s (write_entry esize s o).
Proof. intros H. now apply (ext_status s _ o (Written (next_off s)) [(o, base_of s o, next_off s)]). Qed.

Lemma inv_unwind s o : Inv s ->
  let s1 := if is_want s o then back_to_original s o else s in Inv s1 /\ ext s s1.
Proof. intros I. cbn. destruct (is_want s o); auto using inv_back, ext_back, ext_refl. Qed.

Definition untouched (s : state) (k : nat) : bool :=
  match st_of s k with Untouched => true | _ => false end.
Definition count_u (s : state) : nat := List.length (filter (untouched s) (seq 0 n)).

Lemma untouched_ext s s' k : ext s s' -> untouched s' k = true -> untouched s k = true.
Proof.
  intros (_ & _ & E & _). specialize (E k). unfold untouched.
  destruct (st_of s k); [reflexivity|..]; destruct (st_of s' k); try discriminate; exfalso; apply E; easy.
Qed.

(* the untouched nodes of s' are among those of s, and these lists have no duplicates *)
Lemma count_ext s s' : ext s s' -> count_u s' <= count_u s.
Proof using esize_pos closed.
  intros E. apply NoDup_incl_length; [apply NoDup_filter, seq_NoDup|].
  intros k Hk. apply filter_In in Hk as [Hk Hu]. apply filter_In. split; [exact Hk|exact (untouched_ext s s' k E Hu)].
Qed.

Lemma count_lt s s' o : ext s s' -> o < n -> untouched s' o = false -> untouched s o = true ->
  count_u s' < count_u s.
Proof.
  intros E Ho Hw Hu. apply (NoDup_incl_length (l := o :: filter (untouched s') (seq 0 n))).
  - constructor; [rewrite filter_In, Hw; intros [_ [=]]|apply NoDup_filter, seq_NoDup].
  - intros k [<-|Hk]; apply filter_In; [split; [apply in_seq; lia|exact Hu]|].
    apply filter_In in Hk as [Hk Hk']. split; [exact Hk|exact (untouched_ext s s' k E Hk')].
Qed.

Lemma count_le_n s : count_u s <= n.
Proof.
  unfold count_u. rewrite <- (seq_length n 0) at 2. apply NoDup_incl_length; [apply NoDup_filter, seq_NoDup|apply incl_filter].
Qed.

(* Encoder.entry; the fuel suffices because each recursive call is made from a node that was untouched
   and is wanted from then on *)
Lemma entry_spec : forall fuel s o,
  Inv s -> o < n -> count_u s + 2 <= fuel ->
  exists s', entry fuel esize s o = Some s' /\ Inv s' /\ ext s s' /\ is_written s' o = true.
Proof.
  induction fuel as [|f IH]; intros s o I Ho Hf; [lia|].
  cbn [entry]. destruct (inv_unwind s o I) as [I1 E1].
  set (s1 := if is_want s o then back_to_original s o else s) in *.
  destruct (is_written s1 o) eqn:W1; [eauto|].
  pose proof (inv_mark s1 o I1 W1 Ho) as I2. pose proof (ext_mark s1 o W1) as E2.
  set (s2 := mark_want s1 o) in *.
  assert (R : exists s3, match base_of s2 o with
                         | Some b => if is_written s2 b then Some s2 else entry f esize s2 b
                         | None => Some s2 end = Some s3 /\
              Inv s3 /\ ext s2 s3 /\ forall b, base_of s3 o = Some b -> is_written s3 b = true).
  { destruct (base_of s2 o) as [b|] eqn:Eb; [destruct (is_written s2 b) eqn:Wb|].
    - exists s2. rewrite Eb. split; [reflexivity|]. split; [exact I2|]. split; [apply ext_refl|].
      intros b' [= <-]. exact Wb.
    - (* o still has a base, so no cycle came back to it *)
      assert (Hu : untouched s o = true).
      { unfold s2, s1, is_want in Eb. unfold s1, is_want, is_written in W1. unfold untouched.
        destruct (st_of s o) eqn:Es; cbn in Eb, W1; [reflexivity| |rewrite Es in W1; discriminate].
        rewrite upd_same in Eb. discriminate. }
      assert (Hw : untouched s2 o = false) by (unfold untouched; cbn; rewrite upd_same; reflexivity).
      pose proof (count_lt s s2 o (ext_trans _ _ _ E1 E2) Ho Hw Hu) as Hc.
      destruct (IH s2 b I2 (base_closed s2 o b I2 Eb) ltac:(lia)) as (s3 & He & I3 & E3 & W3).
      exists s3. split; [exact He|]. split; [exact I3|]. split; [exact E3|]. intros b' Eb'.
      destruct E3 as (_ & _ & _ & E3). destruct (E3 o); congruence.
    - exists s2. rewrite Eb. split; [reflexivity|]. split; [exact I2|]. split; [apply ext_refl|]. discriminate. }
  destruct R as (s3 & -> & I3 & E3 & Hb3).
  assert (Ho3 : ext s s3) by eauto using ext_trans.
  destruct (is_written s3 o) eqn:W3; [eauto|].
  eexists. split; [reflexivity|]. split; [apply inv_write; assumption|].
  split; [exact (ext_trans _ _ _ Ho3 (ext_write s3 o W3))|].
  apply is_written_iff. cbn. rewrite upd_same. eauto.
Qed.

Lemma encode_loop_spec fuel : n + 2 <= fuel -> forall objs s,
  Inv s -> (forall o, In o objs -> o < n) ->
  exists s', encode_loop fuel esize s objs = Some s' /\
             Inv s' /\ ext s s' /\ (forall o, In o objs -> is_written s' o = true).
Proof.
  intros Hf. induction objs as [|o rest IH]; intros s I Hr; cbn [encode_loop].
  - exists s. auto using ext_refl.
  - assert (Ho : o < n) by (apply Hr; left; reflexivity).
    pose proof (count_le_n s) as Hc.
    destruct (entry_spec fuel s o I Ho ltac:(lia)) as (s1 & -> & I1 & E1 & W1).
    destruct (IH s1 I1 (fun x Hx => Hr x (or_intror Hx))) as (s' & H & I' & E' & W').
    exists s'. split; [exact H|]. split; [exact I'|]. split; [exact (ext_trans _ _ _ E1 E')|].
    intros x [<-|Hx]; [eauto using written_ext|apply W'; exact Hx].
Qed.

Lemma seq_lt o : In o (seq 0 n) -> o < n.
Proof. intros H. apply in_seq in H. lia. Qed.

Lemma inv_init : Inv (init_state base0).
Proof.
  constructor; cbn; try easy; constructor.
Qed.

Lemma nodup_range_length (l : list nat) : NoDup l -> (forall k, k < n <-> In k l) -> List.length l = n.
Proof.
  intros Hnd Hall. rewrite <- (seq_length n 0). apply Permutation_length, NoDup_Permutation; [exact Hnd|apply seq_NoDup|].
  intros k. rewrite in_seq, <- Hall. lia.
Qed.

Lemma encode_spec es :
  encode n base0 esize = Some es ->
  NoDup (map e_node es) /\
  (forall k, k < n <-> In k (map e_node es)) /\
  List.length es = n /\
  (forall k b off, In (k, Some b, off) es ->
     base0 k = Some b /\ exists bb ob, In (b, bb, ob) es /\ (ob < off)%N) /\
  (forall k b off, In (k, b, off) es -> (12 <= off)%N) /\
  bases_before (rev es).
Proof.
  unfold encode.
  destruct (encode_loop_spec (n + 2) (Nat.le_refl _) (seq 0 n) _ inv_init seq_lt) as (s & -> & I & _ & W).
  intros [= <-].
  rewrite map_rev, rev_length, rev_involutive. setoid_rewrite <- in_rev.
  assert (Hall : forall k, k < n <-> In k (map e_node (emitted s))).
  { intros k. rewrite in_nodes. split.
    - intros Hk. assert (Hin : In k (seq 0 n)) by (apply in_seq; lia). apply W, is_written_iff in Hin as [off Hk'].
      destruct (inv_w1 s I k off Hk') as [b Hin]. eauto.
    - intros (b & off & Hin). exact (inv_range s k b off I Hin). }
  split; [apply NoDup_rev, (inv_nodup s I)|]. split; [exact Hall|].
  split; [rewrite <- (map_length e_node); apply nodup_range_length; [apply (inv_nodup s I)|exact Hall]|].
  split; [|split; [|apply (inv_order s I)]].
  - apply (inv_base s I).
  - intros k b off Hin. apply (inv_off s I) in Hin. lia.
Qed.

Lemma encode_fuel : encode n base0 esize <> None.
Proof.
  unfold encode.
  destruct (encode_loop_spec (n + 2) (Nat.le_refl _) (seq 0 n) _ inv_init seq_lt) as (s & -> & _).
  discriminate.
Qed.

Variable orig : nat -> bytes.          (* the object behind each node *)
Variable delta : nat -> bytes.         (* ObjectToPack.Object of a deltified node *)
Hypothesis deltas_ok : forall k b, base0 k = Some b -> patch_delta (orig b) (delta k) = Ok (orig k).

(* what the encoder puts into an entry *)
Definition payload (e : nat * option nat * N) : bytes :=
  match e_base e with None => orig (e_node e) | Some _ => delta (e_node e) end.

Fixpoint lookup (acc : list (nat * bytes)) (k : nat) : option bytes :=
  match acc with
  | [] => None
  | (k', c) :: r => if Nat.eqb k' k then Some c else lookup r k
  end.

(* what a reader (git index-pack, go-git's parser) reconstructs going through the file: a whole
   object is its payload, a delta is applied to the ALREADY reconstructed object of its base entry.
   [l] is newest first, so the recursion reaches the beginning of the file first.  Bases are looked up
   by node; offsets (OFS_DELTA) identify nodes one to one by encode_spec. *)
Fixpoint resolved (l : list (nat * option nat * N)) : option (list (nat * bytes)) :=
  match l with
  | [] => Some []
  | e :: older =>
    match resolved older with
    | None => None
    | Some acc =>
      match e_base e with
      | None => Some ((e_node e, payload e) :: acc)
      | Some b =>
        match lookup acc b with
        | None => None
        | Some cb => match patch_delta cb (payload e) with
                     | Ok c => Some ((e_node e, c) :: acc)
                     | Err _ => None
                     end
        end
      end
    end
  end.

Lemma lookup_orig l b : In b (map e_node l) ->
  lookup (map (fun e => (e_node e, orig (e_node e))) l) b = Some (orig b).
Proof.
  induction l as [|e l IH]; intros H; [contradiction|]. cbn [map lookup].
  destruct (Nat.eqb (e_node e) b) eqn:E.
  - apply Nat.eqb_eq in E. rewrite E. reflexivity.
  - destruct H as [H|H]; [apply Nat.eqb_neq in E; congruence|]. apply IH. exact H.
Qed.

Lemma resolved_spec l :
  bases_before l ->
  (forall e b, In e l -> e_base e = Some b -> base0 (e_node e) = Some b) ->
  resolved l = Some (map (fun e => (e_node e, orig (e_node e))) l).
Proof.
  induction 1 as [|e l Hl IH Hb]; intros Hbase; [reflexivity|].
  cbn [resolved map]. rewrite IH by (intros e' b' Hin; apply Hbase; right; exact Hin).
  unfold payload. destruct (e_base e) as [b|] eqn:Eb; [|reflexivity].
  rewrite (lookup_orig l b (Hb b eq_refl)).
  rewrite (deltas_ok (e_node e) b (Hbase e b (or_introl eq_refl) Eb)). reflexivity.
Qed.

Lemma encode_resolves es :
  encode n base0 esize = Some es ->
  resolved (rev es) = Some (map (fun e => (e_node e, orig (e_node e))) (rev es)).
Proof.
  intros H. destruct (encode_spec es H) as (_ & _ & _ & Hb & _ & Hord).
  apply resolved_spec; [assumption|].
  intros [[k b'] off] b Hin Eb. cbn in Eb. subst b'. apply (Hb k b off), in_rev, Hin.
Qed.

End Encoder.
