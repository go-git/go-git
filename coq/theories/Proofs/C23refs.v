(* Proofs/C23refs.v — reference accounting of LazyIndex iterators and readers on
   one SharedFile is exact, for every interleaving (Model/IdxRefs.v). *)
From Coq Require Import List NArith Bool Lia PeanoNat.
From GoGit Require Import Model.IdxRefs.
Import ListNotations.

Definition iholds (t : ithread) : nat :=
  match t with
  | RdHold _ | ItSearch _ _ | ItHold _ _ | ItEnd => 1
  | _ => 0
  end.
Definition iholders (ts : list ithread) : nat := fold_right (fun t n => iholds t + n) 0 ts.

(* ItStale arises only under [istep false] (the eager release that leaves it.idx set) *)
Definition regular (t : ithread) : bool := match t with ItStale => false | _ => true end.

Definition sinv (s : ishared) : Prop :=
  (0 < refs s -> fopen s = true) /\ bad s = false /\ n_ignored s = 0 /\ n_acq s = n_rel s + refs s.

Lemma acquire_ok : forall s, sinv s -> sinv (acquire s) /\ refs (acquire s) = S (refs s).
Proof. intros [r fo la na nr ni b] (I1 & I2 & I3 & I4). cbn in *. unfold sinv. cbn. repeat split; auto; lia. Qed.

Lemma release_ok : forall s, 1 <= refs s -> sinv s -> sinv (release s) /\ S (refs (release s)) = refs s.
Proof.
  intros [r fo la na nr ni b] H (I1 & I2 & I3 & I4). cbn in *. unfold release. cbn.
  destruct r as [|[|r]]; [lia | |].
  - destruct la; unfold sinv; cbn; repeat split; auto; try lia; try (intros; lia).
  - unfold sinv; cbn; repeat split; auto; try lia; try (intros _; apply I1; lia).
Qed.

Lemma read_ok : forall s, 1 <= refs s -> sinv s -> read s = s.
Proof. intros s H (I1 & _). unfold read. rewrite I1; [reflexivity | lia]. Qed.

Lemma evict_ok : forall s, sinv s -> sinv (evict s) /\ refs (evict s) = refs s.
Proof.
  intros [r fo la na nr ni b] (I1 & I2 & I3 & I4). cbn in *. unfold evict. cbn.
  destruct r; unfold sinv; cbn; repeat split; auto; try lia; try (intros; lia).
Qed.

(* the three conjuncts of istep_ok once the shared-state lemma has been applied *)
Ltac fin3 := split; [assumption|]; split; [cbn in *; lia | reflexivity].

Lemma istep_ok : forall s t a,
  regular t = true -> iholds t <= refs s -> sinv s ->
  let r := istep true s t a in
  sinv (fst r) /\ refs (fst r) + iholds t = refs s + iholds (snd r) /\ regular (snd r) = true.
Proof.
  intros s t a R H I. cbv zeta.
  destruct t as [n|n| |m tl|m tl|m tl| | | |e|n]; cbn [istep iholds regular] in *; try discriminate.
  - (* RdStart *) destruct (acquire_ok s I) as [A B]. cbn. fin3.
  - (* RdHold *) destruct n as [|n]; [|destruct a]; cbn.
    + destruct (release_ok s H I) as [A B]. fin3.
    + rewrite (read_ok s H I). fin3.
    + destruct (release_ok s H I) as [A B]. fin3.
  - (* RdDone *) fin3.
  - (* ItStart *) destruct (acquire_ok s I) as [A B]. cbn. fin3.
  - (* ItSearch *) destruct a; [|fin3].
    rewrite (read_ok s H I). destruct (release_ok s H I) as [A B].
    destruct m as [|m]; [destruct tl|]; cbn; fin3.
  - (* ItHold *) destruct (release_ok s H I) as [A B]. rewrite ?(read_ok s H I).
    destruct a, m as [|m]; [destruct tl| |destruct tl|]; cbn; rewrite ?(read_ok s H I); fin3.
  - (* ItEnd *) destruct (release_ok s H I) as [A B]. cbn. fin3.
  - (* ItNil *) cbn. fin3.
  - (* ItClosed *) destruct e; cbn; fin3.
  - (* Evictor *) destruct (evict_ok s I) as [A B]. destruct n; cbn; fin3.
Qed.

Lemma iholders_iupd : forall ts i t t', nth_error ts i = Some t ->
  iholders (iupd ts i t') + iholds t = iholders ts + iholds t'.
Proof.
  induction ts as [|y r IH]; intros i t t' H; destruct i; cbn in *; try discriminate.
  - inversion H; subst. lia.
  - specialize (IH _ _ t' H). unfold iholders in *. lia.
Qed.

Lemma iholds_le : forall ts i t, nth_error ts i = Some t -> iholds t <= iholders ts.
Proof.
  induction ts as [|y r IH]; intros i t H; destruct i; cbn in *; try discriminate.
  - inversion H; subst. lia.
  - specialize (IH _ _ H). unfold iholders in *. lia.
Qed.

Lemma forallb_iupd : forall (f : ithread -> bool) ts i x, forallb f ts = true -> f x = true -> forallb f (iupd ts i x) = true.
Proof.
  induction ts as [|y r IH]; intros i x F X; cbn in *; [reflexivity|].
  apply andb_true_iff in F. destruct F as [F1 F2]. destruct i; cbn; rewrite ?X, ?F1, ?F2; auto.
  rewrite IH; auto.
Qed.

Definition ginv (st : istate) : Prop :=
  sinv (ish st) /\ refs (ish st) = iholders (ithreads st) /\ forallb regular (ithreads st) = true.

Lemma isched_step_inv : forall st ia, ginv st -> ginv (isched_step true st ia).
Proof.
  intros [s ts] [i a] (I & R & F). unfold isched_step. cbn [ish ithreads fst snd] in *.
  destruct (nth_error ts i) as [t|] eqn:N; [|unfold ginv; cbn; auto].
  assert (Rt : regular t = true).
  { rewrite forallb_forall in F. apply F. eapply nth_error_In; eauto. }
  assert (H : iholds t <= refs s) by (rewrite R; eapply iholds_le; eauto).
  destruct (istep_ok s t a Rt H I) as (I' & C & R'). destruct (istep true s t a) as [s' t']. cbn [fst snd] in *.
  pose proof (iholders_iupd _ _ _ t' N). cbn.
  unfold ginv; cbn [ish ithreads]. unfold iholders in *. split; [assumption|]. split; [lia|]. now apply forallb_iupd.
Qed.

Lemma irun_inv : forall sched st, ginv st -> ginv (irun true st sched).
Proof.
  induction sched as [|ia r IH]; intros st G; cbn; [assumption|].
  apply IH. now apply isched_step_inv.
Qed.

(* threads at the start of their programs *)
Definition istarting (t : ithread) : bool :=
  match t with RdStart _ | ItStart _ _ | Evictor _ => true | _ => false end.

Lemma ginv_init : forall ts, forallb istarting ts = true -> ginv (iinit ts).
Proof.
  intros ts H. unfold ginv, iinit, sinv. cbn.
  assert (A : iholders ts = 0 /\ forallb regular ts = true).
  { induction ts as [|t r IH]; cbn in *; [auto|].
    apply andb_true_iff in H. destruct H as [H1 H2]. destruct (IH H2) as [A B].
    destruct t; cbn in *; try discriminate; rewrite ?B; unfold iholders in *; auto. }
  destruct A as [A B]. repeat split; auto; try lia.
Qed.

Theorem refs_exact : forall ts sched, forallb istarting ts = true ->
  let st := irun true (iinit ts) sched in
  refs (ish st) = iholders (ithreads st) /\
  n_acq (ish st) = n_rel (ish st) + refs (ish st) /\
  n_ignored (ish st) = 0 /\
  bad (ish st) = false /\
  (0 < refs (ish st) -> fopen (ish st) = true).
Proof.
  intros ts sched H st. destruct (irun_inv sched _ (ginv_init ts H)) as ((I1 & I2 & I3 & I4) & R & _).
  fold st in I1, I2, I3, I4, R. repeat split; auto.
Qed.
