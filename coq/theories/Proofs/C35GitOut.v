(* Proofs/C35GitOut.v — go-git's v2 fetch output (up to the packfile data) is in
   git's documented grammar (Spec/GitProto.v git_fetchout) and means the message. *)
From Coq Require Import List Arith NArith ZArith Bool Lia String.
From GoGit Require Import Base.Out Base.GoInt Gen.C34 Model.PktLine Model.C35Utf8 Model.Packp Model.PackpV2 Spec.GitProto
  Proofs.C34Pkt Proofs.C35Base Proofs.C35Utf8 Proofs.C35U Proofs.C35Msgs Proofs.C35Caps Proofs.C35Dec Proofs.C35Adv Proofs.C35Ul
  Proofs.C35V2Base Proofs.C35V2Caps Proofs.C35V2Fetch Proofs.C35V2Ls Proofs.C35V2Out Proofs.C35Git Proofs.C35GitV2 Proofs.C35GitV0.
Import ListNotations.

Lemma map_line_assoc {X} (kw : bytes) (f : X -> bytes) l :
  map (fun x => PData (kw ++ f x ++ [NL])) l = map (fun l => PData (l ++ [NL])) (map (fun x => kw ++ f x) l).
Proof. rewrite map_map. apply map_ext. intros x. now rewrite app_assoc. Qed.

Lemma section_body_lines (ls : list bytes) (term : pkt) rest acc : (term = PDelim \/ term = PFlush) ->
  section_body (map (fun l => PData (l ++ [NL])) ls ++ term :: rest) acc = Some (acc ++ ls, term, rest).
Proof.
  intros Ht. rewrite (lines_acc section_body _ (fun a => a) (fun _ => True)); [now destruct Ht as [-> | ->]| |now apply Forall_forall].
  intros l r a _. cbn [section_body]. now rewrite chomp_app.
Qed.

(* acknowledgments: (nak | *ack) [ready]; an ACK line is read the same way whether or not it is the last *)
Lemma git_acks_ack hexsz h r acc : sized hexsz h = true ->
  git_acks hexsz ((B "ACK " ++ hash_str h) :: r) acc = git_acks hexsz r (acc ++ [h]).
Proof.
  intros H. pose proof (kw_oid_str hexsz "ACK" (B "ACK ") h eq_refl H) as K. destruct r as [|l r]; cbn [git_acks].
  - assert (beq (B "ACK " ++ hash_str h) (B "ready") = false) as -> by reflexivity.
    assert (beq (B "ACK " ++ hash_str h) (B "NAK") = false) as -> by reflexivity. now rewrite K.
  - assert (beq (B "ACK " ++ hash_str h) (B "NAK") = false) as -> by reflexivity. now rewrite K.
Qed.

Definition acks_lines (a : list hash * bool) : list bytes :=
  map (fun h => B "ACK " ++ hash_str h) (fst a) ++
  (if snd a then [B "ready"] else match fst a with [] => [B "NAK"] | _ => [] end).

Lemma acks_encode_lines a : acks_encode a = map (fun l => PData (l ++ [NL])) (acks_lines a).
Proof. unfold acks_encode, acks_lines. rewrite map_app, <- map_line_assoc. destruct (snd a); [reflexivity|]. now destruct (fst a). Qed.

Lemma git_acks_lines hexsz a : forallb (sized hexsz) (fst a) = true -> git_acks hexsz (acks_lines a) [] = Some a.
Proof.
  intros H. destruct a as [hs ready]. unfold acks_lines. cbn [fst snd] in *.
  rewrite (lines_acc (git_acks hexsz) _ (fun a => a) _ (git_acks_ack hexsz)) by now apply forallb_Forall.
  destruct ready; [reflexivity|]. now destruct hs.
Qed.

Definition shinfo_lines (s : list hash * list hash) : list bytes :=
  map (fun h => B "shallow " ++ hash_str h) (fst s) ++ map (fun h => B "unshallow " ++ hash_str h) (snd s).
Lemma shinfo_encode_lines s : shinfo_encode s = map (fun l => PData (l ++ [NL])) (shinfo_lines s).
Proof. unfold shinfo_encode, shinfo_lines. now rewrite map_app, <- !map_line_assoc. Qed.

Lemma git_shinfo_shallow hexsz uns h r sh : sized hexsz h = true ->
  git_shinfo hexsz ((B "shallow " ++ hash_str h) :: r) sh uns = git_shinfo hexsz r (sh ++ [h]) uns.
Proof. intros H. cbn [git_shinfo]. now rewrite (kw_oid_str hexsz "shallow" (B "shallow ") h eq_refl H). Qed.

Lemma git_shinfo_unshallow hexsz sh h r uns : sized hexsz h = true ->
  git_shinfo hexsz ((B "unshallow " ++ hash_str h) :: r) sh uns = git_shinfo hexsz r sh (uns ++ [h]).
Proof. intros H. cbn [git_shinfo]. now rewrite kw_shallow_unshallow, (kw_oid_str hexsz "unshallow" (B "unshallow ") h eq_refl H). Qed.

Lemma git_shinfo_lines hexsz s : forallb (sized hexsz) (fst s) = true -> forallb (sized hexsz) (snd s) = true ->
  git_shinfo hexsz (shinfo_lines s) [] [] = Some s.
Proof.
  intros H1 H2. unfold shinfo_lines.
  rewrite (lines_acc (fun ls sh => git_shinfo hexsz ls sh []) _ (fun sh => sh) _ (fun h r sh => git_shinfo_shallow hexsz [] h r sh)) by now apply forallb_Forall.
  rewrite <- (app_nil_r (map (fun h => B "unshallow " ++ hash_str h) (snd s))).
  rewrite (lines_acc (fun ls uns => git_shinfo hexsz ls _ uns) _ (fun uns => uns) _ (fun h r uns => git_shinfo_unshallow hexsz _ h r uns)) by now apply forallb_Forall.
  now destruct s.
Qed.

Definition wanted_lines_of (w : list (bytes * hash)) : list bytes := map (fun r => hash_str (snd r) ++ [SP] ++ fst r) w.
Lemma wanted_encode_lines w : wanted_encode w = map (fun l => PData (l ++ [NL])) (wanted_lines_of w).
Proof. unfold wanted_encode, wanted_lines_of. rewrite map_map. apply map_ext. intros r. now rewrite <- !app_assoc. Qed.

Lemma git_wanted_lines hexsz : forall w acc, forallb wanted_ok w = true -> forallb (fun r => sized hexsz (snd r)) w = true ->
  git_wanted hexsz (wanted_lines_of w) acc = Some (acc ++ w).
Proof.
  induction w as [|[name h] w IH]; intros acc H Hs; [cbn; now rewrite app_nil_r|].
  cbn [forallb] in H, Hs. apply andb_prop in H, Hs. destruct H as [H1 H2], Hs as [S1 S2]. cbn [snd] in S1.
  unfold wanted_ok in H1. cbn [fst snd] in H1. apply andb_prop in H1. destruct H1 as [Hn _].
  unfold wanted_lines_of. cbn [map fst snd git_wanted]. fold (wanted_lines_of w).
  change (hash_str h ++ [SP] ++ name) with (hash_str h ++ SP :: name). rewrite (oid_sp_str hexsz h name S1).
  unfold word_ok in Hn. destruct name as [|c name']; [discriminate|]. rewrite (IH _ H2 S2). now rewrite <- app_assoc.
Qed.

Definition uris_lines_of (u : list bytes) : list bytes := u.
Lemma uris_encode_lines u : uris_encode u = map (fun l => PData (l ++ [NL])) u.
Proof. reflexivity. Qed.

Definition fo_abs (o : fetchout) : gfetchout :=
  mkgfetchout (fo_acks o) (fo_shallow o) (fo_wanted o) (fo_uris o) (fo_packfile o).

Definition fo_git_ok (hexsz : nat) (o : fetchout) : bool :=
  opt_ok (fun a : list hash * bool => forallb (sized hexsz) (fst a)) (fo_acks o) &&
  opt_ok (fun s : list hash * list hash => forallb (sized hexsz) (fst s) && forallb (sized hexsz) (snd s)) (fo_shallow o) &&
  opt_ok (fun w : list (bytes * hash) => forallb (fun r => sized hexsz (snd r)) w) (fo_wanted o).

Lemma git_sections_hdr hexsz f (hdr : string) ls rest rank a sh wr ur pf :
  git_sections hexsz (S f) (PData (B hdr ++ [NL]) :: (map (fun l => PData (l ++ [NL])) ls ++ [PDelim]) ++ rest) rank (mkgfetchout a sh wr ur pf) =
  if beq (B hdr) (B "shallow-info") && Nat.ltb rank 2 then
    match git_shinfo hexsz ls [] [] with Some s => git_sections hexsz f rest 2 (mkgfetchout a (Some s) wr ur false) | None => None end
  else if beq (B hdr) (B "wanted-refs") && Nat.ltb rank 3 then
    match git_wanted hexsz ls [] with Some w => git_sections hexsz f rest 3 (mkgfetchout a sh (Some w) ur false) | None => None end
  else if beq (B hdr) (B "packfile-uris") && Nat.ltb rank 4 then git_sections hexsz f rest 4 (mkgfetchout a sh wr (Some ls) false)
  else None.
Proof.
  rewrite <- app_assoc. cbn [app]. destruct (map (fun l => PData (l ++ [NL])) ls ++ PDelim :: rest) as [|y r] eqn:E; [now destruct ls|].
  cbn [git_sections]. now rewrite <- E, chomp_app, (section_body_lines ls PDelim rest [] (or_introl eq_refl)).
Qed.

(* The sections after the acknowledgments, last first: an absent one leaves None in its place and its unit of fuel unused. *)
Section Sections.
Variables (hexsz : nat) (a : option (list hash * bool)) (ur : option (list bytes)).

Lemma git_sec_uris f rk sh' wr' : (rk <= 3)%nat ->
  git_sections hexsz (S (S f)) (section "packfile-uris" uris_encode ur ++ [PData (B "packfile" ++ [NL])]) rk (mkgfetchout a sh' wr' None false)
  = Some (mkgfetchout a sh' wr' ur true).
Proof.
  intros Hr. destruct ur as [u|]; [|reflexivity]. unfold section. rewrite uris_encode_lines. cbn [app].
  rewrite git_sections_hdr, (proj2 (Nat.ltb_lt rk 4)) by lia. reflexivity.
Qed.

Lemma git_sec_wanted f rk sh' wr : opt_ok (forallb wanted_ok) wr = true ->
  opt_ok (fun w : list (bytes * hash) => forallb (fun r => sized hexsz (snd r)) w) wr = true -> (rk <= 2)%nat ->
  git_sections hexsz (S (S (S f))) (section "wanted-refs" wanted_encode wr ++ section "packfile-uris" uris_encode ur ++ [PData (B "packfile" ++ [NL])])
               rk (mkgfetchout a sh' None None false)
  = Some (mkgfetchout a sh' wr ur true).
Proof.
  intros Hw Hws Hr. destruct wr as [w|]; [|apply git_sec_uris; lia]. unfold section at 1. rewrite wanted_encode_lines. cbn [app].
  rewrite git_sections_hdr, (proj2 (Nat.ltb_lt rk 3)), (git_wanted_lines hexsz w [] Hw Hws) by lia. now apply git_sec_uris.
Qed.

Lemma git_sections_tail f rk sh wr :
  opt_ok (fun s : list hash * list hash => forallb (sized hexsz) (fst s) && forallb (sized hexsz) (snd s)) sh = true ->
  opt_ok (forallb wanted_ok) wr = true -> opt_ok (fun w : list (bytes * hash) => forallb (fun r => sized hexsz (snd r)) w) wr = true ->
  (rk <= 1)%nat ->
  git_sections hexsz (4 + f) (section "shallow-info" shinfo_encode sh ++ section "wanted-refs" wanted_encode wr ++
                              section "packfile-uris" uris_encode ur ++ [PData (B "packfile" ++ [NL])]) rk
               (mkgfetchout a None None None false)
  = Some (mkgfetchout a sh wr ur true).
Proof.
  intros Hs Hw Hws Hr. destruct sh as [s|]; [|apply git_sec_wanted; [assumption..|lia]]. cbn [opt_ok] in Hs. apply andb_prop in Hs. destruct Hs as [Hs1 Hs2].
  unfold section at 1. rewrite shinfo_encode_lines. cbn [plus app].
  rewrite git_sections_hdr, (proj2 (Nat.ltb_lt rk 2)), (git_shinfo_lines hexsz s Hs1 Hs2) by lia. now apply git_sec_wanted.
Qed.
End Sections.

Theorem git_fetchout_enc hexsz o ps : fetchout_ok o = true -> fo_git_ok hexsz o = true -> fetchout_encode o = Some ps ->
  git_fetchout hexsz ps = Some (fo_abs o).
Proof.
  unfold fetchout_ok, fo_git_ok. intros H G He.
  repeat (apply andb_prop in H; let X := fresh "K" in destruct H as [H X]).
  rename H into Ha, K2 into Hs, K1 into Hw, K0 into Hu, K into Hshape.
  apply andb_prop in G. destruct G as [G Gw]. apply andb_prop in G. destruct G as [Ga Gs].
  destruct o as [acks sh wr ur pf]. cbn [fo_acks fo_shallow fo_wanted fo_uris fo_packfile] in *. unfold fo_abs. cbn [fo_acks fo_shallow fo_wanted fo_uris fo_packfile].
  unfold fetchout_encode in He. cbn [fo_acks fo_shallow fo_wanted fo_uris fo_packfile] in He.
  destruct pf.
  - apply Some_inj in He. subst ps.
    destruct acks as [a|].
    + cbn [opt_ok] in Hshape, Ga. unfold section at 1. rewrite acks_encode_lines. cbn [app].
      unfold git_fetchout. change (chomp (B "acknowledgments" ++ [NL])) with (B "acknowledgments").
      change (beq (B "acknowledgments") (B "acknowledgments")) with true. cbv iota.
      rewrite <- app_assoc. cbn [app]. rewrite (section_body_lines _ PDelim _ [] (or_introl eq_refl)). cbn [app].
      rewrite (git_acks_lines hexsz a Ga). destruct a as [hs rd]. cbn [snd] in Hshape. subst rd.
      apply (git_sections_tail hexsz (Some (hs, true)) ur 1%nat 1%nat sh wr Gs Hw Gw (le_n 1)).
    + (* no acknowledgments: the first packet is a section header or the packfile header *)
      pose proof (git_sections_tail hexsz None ur 1%nat 1%nat sh wr Gs Hw Gw (le_n 1)) as K.
      destruct sh, wr, ur; exact K.
  - destruct acks as [a|]; [|discriminate]. destruct sh; [discriminate|]. destruct wr; [discriminate|]. destruct ur; [discriminate|].
    cbn [opt_ok] in *. apply negb_true_iff in Hshape. rewrite Hshape in He.
    apply Some_inj in He. subst ps.
    rewrite acks_encode_lines. unfold git_fetchout. change (chomp (B "acknowledgments" ++ [NL])) with (B "acknowledgments").
    change (beq (B "acknowledgments") (B "acknowledgments")) with true. cbv iota.
    rewrite (section_body_lines _ PFlush [] [] (or_intror eq_refl)). cbn [app].
    rewrite (git_acks_lines hexsz a Ga). destruct a as [hs rd]. cbn [snd] in Hshape. subst rd. reflexivity.
Qed.
