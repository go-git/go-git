(* Proofs/C06Apply.v — the delta appliers of go-git against git's patch_delta. *)
From Coq Require Import List NArith Arith Lia Bool.
From Coq Require Import ZifyBool ZifyNat ZifyN.
From GoGit Require Import Base.Out Model.Delta Spec.GitDelta.
Import ListNotations.
Local Open Scope N_scope.

Definition bytes_ok (b : bytes) : bool := forallb (fun x => x <? 256) b.
Definition to_g (r : res bytes) : gres := match r with Ok b => GOk b | Err _ => GReject end.

Lemma take_firstn n b : take n b = firstn (N.to_nat n) b.
Proof. unfold take, len. rewrite N2Nat.inj_min, Nat2N.id, <- firstn_firstn, firstn_all. reflexivity. Qed.

Lemma drop_skipn n b : drop n b = skipn (N.to_nat n) b.
Proof.
  unfold drop, len. destruct (N.le_gt_cases n (N.of_nat (List.length b))) as [H|H].
  - rewrite N.min_l by lia. reflexivity.
  - rewrite N.min_r by lia. rewrite Nat2N.id, skipn_all. symmetry. apply skipn_all2. lia.
Qed.

Lemma slice_spec b off sz : slice b off sz = firstn (N.to_nat sz) (skipn (N.to_nat off) b).
Proof. unfold slice. rewrite take_firstn, drop_skipn. reflexivity. Qed.

Lemma len_cons x (l : bytes) : len (x :: l) = 1 + len l.
Proof. unfold len. cbn [List.length]. lia. Qed.

Lemma len_app a b : len (a ++ b) = len a + len b.
Proof. unfold len. rewrite app_length. lia. Qed.

Lemma len_take n b : n <= len b -> len (take n b) = n.
Proof. intros H. rewrite take_firstn. unfold len in *. rewrite firstn_length. lia. Qed.

Lemma len_drop n b : len (drop n b) = len b - n.
Proof. rewrite drop_skipn. unfold len. rewrite skipn_length. lia. Qed.

Lemma take_drop n b : take n b ++ drop n b = b.
Proof. rewrite take_firstn, drop_skipn. apply firstn_skipn. Qed.

Lemma bytes_ok_app a b : bytes_ok (a ++ b) = bytes_ok a && bytes_ok b.
Proof. apply forallb_app. Qed.

Lemma bytes_ok_skipn n b : bytes_ok b = true -> bytes_ok (skipn n b) = true.
Proof.
  intros H. rewrite <- (firstn_skipn n b), bytes_ok_app in H.
  apply andb_true_iff in H. tauto.
Qed.

Lemma bytes_ok_drop n b : bytes_ok b = true -> bytes_ok (drop n b) = true.
Proof. rewrite drop_skipn. apply bytes_ok_skipn. Qed.

Lemma to_g_prefix p r : to_g (prefix_res p r) = gprefix p (to_g r).
Proof. destruct r; reflexivity. Qed.

Lemma to_g_eq_ok r r' out : to_g r = to_g r' -> r' = Ok out -> r = Ok out.
Proof. intros E ->. destruct r; inversion E; reflexivity. Qed.

Lemma lt_pow2_shiftr a n : a < 2 ^ n <-> N.shiftr a n = 0.
Proof.
  rewrite N.shiftr_div_pow2. symmetry. apply N.div_small_iff. apply N.pow_nonzero. discriminate.
Qed.

Lemma shiftr_lt_pow2 x k n : x < 2 ^ (k + n) -> N.shiftr x k < 2 ^ n.
Proof.
  intros H. rewrite N.shiftr_div_pow2. apply N.div_lt_upper_bound; [apply N.pow_nonzero; discriminate|].
  rewrite <- N.pow_add_r. exact H.
Qed.

Lemma lor_lt_pow2 a b n : a < 2 ^ n -> b < 2 ^ n -> N.lor a b < 2 ^ n.
Proof.
  rewrite !lt_pow2_shiftr. intros Ha Hb. rewrite N.shiftr_lor, Ha, Hb. reflexivity.
Qed.

Lemma shiftl_byte_lt b s n : b < 256 -> s + 8 <= n -> N.shiftl b s < 2 ^ n.
Proof.
  intros Hb Hs. apply lt_pow2_shiftr. rewrite N.shiftr_shiftl_r by lia. apply lt_pow2_shiftr.
  apply N.lt_le_trans with (2 ^ 8); [exact Hb|]. apply N.pow_le_mono_r; [discriminate|lia].
Qed.

Lemma land_ones_small v n : v < 2 ^ n -> N.land v (N.ones n) = v.
Proof. intros H. rewrite N.land_ones. apply N.mod_small. exact H. Qed.

Lemma land127_lt x : N.land x 127 < 128.
Proof. change 127 with (N.ones 7). rewrite N.land_ones. apply N.mod_lt. discriminate. Qed.

(* the shift is at most 56, which leaves eight bits *)
Lemma shiftr_ones_ge k : (k <= 8)%nat -> 127 <= N.shiftr (2 ^ 64 - 1) (7 * N.of_nat k).
Proof.
  intros H. apply N.le_trans with (N.shiftr (2 ^ 64 - 1) 56); [discriminate|].
  rewrite !N.shiftr_div_pow2. apply N.div_le_compat_l. split; [apply N.neq_0_lt_0, N.pow_nonzero; discriminate|].
  apply N.pow_le_mono_r; [discriminate|lia].
Qed.

Lemma git_params_eq tbl cmd d acc : git_params tbl cmd d acc = dec_params tbl cmd d acc.
Proof.
  revert d acc. induction tbl as [|[m s] t IH]; intros d acc; cbn [git_params dec_params]; [reflexivity|].
  destruct (N.land cmd m =? 0); [apply IH|]. destruct d; [reflexivity|apply IH].
Qed.

Lemma dec_params_len tbl : forall cmd d acc v r,
  dec_params tbl cmd d acc = Some (v, r) -> (List.length r <= List.length d)%nat.
Proof.
  induction tbl as [|[m s] t IH]; intros cmd d acc v r H; cbn [dec_params] in H.
  - injection H as _ <-. auto.
  - destruct (N.land cmd m =? 0); [eapply IH; eauto|].
    destruct d as [|b d']; [discriminate|]. apply IH in H. cbn [List.length]. lia.
Qed.

Lemma dec_size_len cmd d sz r : dec_size cmd d = Some (sz, r) -> (List.length r <= List.length d)%nat.
Proof.
  unfold dec_size. destruct (dec_params sizes_tbl cmd d 0) as [[s0 r0]|] eqn:E; [|discriminate].
  intros [= _ <-]. eapply dec_params_len; eauto.
Qed.

Lemma dec_params_bound n tbl :
  forallb (fun ms => snd ms + 8 <=? n) tbl = true ->
  forall cmd d acc v r, bytes_ok d = true -> acc < 2 ^ n ->
  dec_params tbl cmd d acc = Some (v, r) -> v < 2 ^ n /\ bytes_ok r = true.
Proof.
  induction tbl as [|[m s] t IH]; cbn [forallb snd dec_params]; intros Ht cmd d acc v r Hd Ha H.
  - injection H as <- <-. auto.
  - apply andb_true_iff in Ht as [Hs Ht]. apply N.leb_le in Hs.
    destruct (N.land cmd m =? 0); [eapply IH; eauto|].
    destruct d as [|b d']; [discriminate|].
    cbn [bytes_ok forallb] in Hd. apply andb_true_iff in Hd as [Hb Hd']. apply N.ltb_lt in Hb.
    apply (IH Ht cmd d' (N.lor acc (N.shiftl b s)) v r Hd'); [|exact H].
    apply lor_lt_pow2; [assumption|]. apply shiftl_byte_lt; assumption.
Qed.

Lemma dec_offset_bound cmd d off r :
  bytes_ok d = true -> dec_offset cmd d = Some (off, r) ->
  off < 2 ^ 32 /\ bytes_ok r = true /\ (List.length r <= List.length d)%nat.
Proof.
  intros Hd H. destruct (dec_params_bound 32 offsets_tbl eq_refl cmd d 0 off r Hd eq_refl H) as [Hv Hr].
  repeat split; [assumption..|exact (dec_params_len _ _ _ _ _ _ H)].
Qed.

Lemma dec_size_bound cmd d sz r :
  bytes_ok d = true -> dec_size cmd d = Some (sz, r) ->
  1 <= sz /\ sz < 2 ^ 24 /\ bytes_ok r = true /\ (List.length r <= List.length d)%nat.
Proof.
  intros Hd H. pose proof (dec_size_len _ _ _ _ H) as Hl. unfold dec_size in H.
  destruct (dec_params sizes_tbl cmd d 0) as [[sz0 r0]|] eqn:E; [|discriminate].
  injection H as <- <-.
  destruct (dec_params_bound 24 sizes_tbl eq_refl cmd d 0 sz0 r0 Hd eq_refl E) as (Hv & Hr).
  unfold max_copy_size. destruct (N.eqb_spec sz0 0); repeat split; try assumption; [discriminate|lia].
Qed.

Lemma leb_git_hdr inp : forall k acc v r, inp <> [] ->
  leb_buf_go inp k acc = Ok (v, r) -> git_hdr inp (7 * N.of_nat k) acc = HOk v r.
Proof.
  induction inp as [|c t IH]; intros k acc v r Hne H; [congruence|].
  cbn [leb_buf_go] in H. cbn [git_hdr].
  destruct (Nat.ltb 8 k) eqn:Hk; [discriminate|]. apply Nat.ltb_ge in Hk.
  pose proof (shiftr_ones_ge k Hk). pose proof (land127_lt c).
  rewrite (proj2 (N.leb_gt 64 _)), (proj2 (N.ltb_ge _ (N.land c 127))) by lia. unfold leb_step in H. change (g_nil t) with (is_nil t).
  destruct ((N.land c 128 =? 0) || is_nil t) eqn:E.
  - inversion H; reflexivity.
  - replace (7 * N.of_nat k + 7) with (7 * N.of_nat (S k)) by lia.
    apply IH; [|exact H]. destruct t; [|congruence].
    cbn [is_nil] in E. rewrite orb_true_r in E. discriminate.
Qed.

Lemma leb_rd_buf inp : forall k acc v r,
  leb_rd_go inp k acc = Ok (v, r) -> leb_buf_go inp k acc = Ok (v, r).
Proof.
  induction inp as [|c t IH]; intros k acc v r H; cbn [leb_rd_go] in H.
  - destruct (Nat.ltb 8 k); discriminate.
  - cbn [leb_buf_go]. destruct (Nat.ltb 8 k); [discriminate|].
    destruct (N.land c 128 =? 0) eqn:E; cbn [orb]; [assumption|].
    destruct t as [|c' t']; [|cbn [is_nil]; apply IH; exact H].
    cbn [leb_rd_go] in H. destruct (Nat.ltb 8 (S k)); discriminate.
Qed.

Lemma leb_buf_go_props inp : forall k acc v r, bytes_ok inp = true ->
  leb_buf_go inp k acc = Ok (v, r) ->
  bytes_ok r = true /\ (List.length r <= List.length inp)%nat /\ (inp <> [] -> (List.length r < List.length inp)%nat).
Proof.
  induction inp as [|c t IH]; intros k acc v r Hok H; cbn [leb_buf_go] in H.
  - inversion H; subst. repeat split; auto. congruence.
  - cbn [bytes_ok forallb] in Hok. apply andb_true_iff in Hok as [_ Ht].
    destruct (Nat.ltb 8 k); [discriminate|].
    destruct ((N.land c 128 =? 0) || is_nil t).
    + inversion H; subst. cbn [List.length]. repeat split; auto with arith.
    + destruct (IH _ _ _ _ Ht H) as (A & B & _). cbn [List.length]. repeat split; auto with arith.
Qed.

Lemma copy_check_eq src off sz rem :
  off < 2 ^ 32 -> sz < 2 ^ 24 ->
  invalid_size sz rem || invalid_offset_size off sz (len src)
  = (2 ^ 64 <=? off + sz) || (glen src <? off + sz) || (rem <? sz).
Proof.
  intros Ho Hs. unfold invalid_size, invalid_offset_size, sum_overflows, glen, len.
  assert (Hlt : off + sz < 2 ^ 64).
  { apply N.lt_trans with (2 ^ 32 + 2 ^ 24); [lia|]. vm_compute. reflexivity. }
  rewrite (N.mod_small _ _ Hlt).
  assert (E1 : (2 ^ 64 <=? off + sz) = false) by (apply N.leb_gt; exact Hlt).
  assert (E2 : (off + sz <? off) = false) by (apply N.ltb_ge; lia).
  rewrite E1, E2. cbn [orb].
  destruct (rem <? sz), (N.of_nat (List.length src) <? off + sz); reflexivity.
Qed.

Lemma copy_check_ok src off sz rem :
  off < 2 ^ 32 -> sz < 2 ^ 24 ->
  invalid_size sz rem || invalid_offset_size off sz (len src) = false <-> off + sz <= len src /\ sz <= rem.
Proof.
  intros Ho Hs. rewrite copy_check_eq by assumption. unfold glen. fold (len src).
  rewrite !orb_false_iff, N.leb_gt, !N.ltb_ge.
  assert (2 ^ 32 + 2 ^ 24 < 2 ^ 64) by reflexivity. lia.
Qed.

(* what a command emits, what is left of the delta and how much of the target it accounts for *)
Definition pd_step (src : bytes) (srcsz cmd : N) (d : bytes) (rem : N) : res (bytes * bytes * N) :=
  if is_copy_src cmd then
    match dec_offset cmd d with
    | None => Err EInvalid
    | Some (off, d1) =>
      match dec_size cmd d1 with
      | None => Err EInvalid
      | Some (sz, d2) =>
        if invalid_size sz rem || invalid_offset_size off sz srcsz then Err EInvalid
        else Ok (slice src off sz, d2, sz)
      end
    end
  else if is_copy_delta cmd then
    if invalid_size cmd rem then Err EInvalid
    else if len d <? cmd then Err EInvalid
    else Ok (take cmd d, drop cmd d, cmd)
  else Err ECmd.

(* the eight outcomes of decoding a command, split in the order the loops test them; all but the
   successful copy (pieces off, d1, sz, d2; equations Ho, Hs, Hc) and the successful insert
   (equations Hd, Hc, Hl) are usually closed by [easy] *)
Ltac cmd_cases cmd d rem srcsz :=
  destruct (is_copy_src cmd);
  [ destruct (dec_offset cmd d) as [[off d1]|] eqn:Ho;
    [ destruct (dec_size cmd d1) as [[sz d2]|] eqn:Hs;
      [ destruct (invalid_size sz rem || invalid_offset_size off sz srcsz) eqn:Hc | ] | ]
  | destruct (is_copy_delta cmd) eqn:Hd;
    [ destruct (invalid_size cmd rem) eqn:Hc; [ | destruct (len d <? cmd) eqn:Hl ] | ] ].

Lemma pd_loop_0 f src srcsz d : pd_loop f src srcsz d 0 = if is_nil d then Ok [] else Err EInvalid.
Proof. destruct f; reflexivity. Qed.

Lemma pd_loop_S f src srcsz cmd d rem : rem <> 0 ->
  pd_loop (S f) src srcsz (cmd :: d) rem =
  match pd_step src srcsz cmd d rem with
  | Ok (p, d', sz) => prefix_res p (pd_loop f src srcsz d' (rem - sz))
  | Err e => Err e
  end.
Proof.
  intros H. apply N.eqb_neq in H. cbn [pd_loop]. rewrite H. unfold pd_step.
  cmd_cases cmd d rem srcsz; reflexivity.
Qed.

Lemma pd_step_len src srcsz cmd d rem p d' sz' :
  pd_step src srcsz cmd d rem = Ok (p, d', sz') -> (List.length d' <= List.length d)%nat.
Proof.
  unfold pd_step. cmd_cases cmd d rem srcsz; try easy; intros [= _ <- _].
  - apply dec_params_len in Ho. apply dec_size_len in Hs. lia.
  - rewrite drop_skipn, skipn_length. lia.
Qed.

Lemma pd_step_err src srcsz cmd d rem e : pd_step src srcsz cmd d rem = Err e -> e <> EFuel.
Proof. unfold pd_step. cmd_cases cmd d rem srcsz; congruence. Qed.

Lemma pd_step_ok src srcsz cmd d rem p d' sz' :
  bytes_ok d = true -> pd_step src srcsz cmd d rem = Ok (p, d', sz') ->
  bytes_ok d' = true /\ 1 <= sz' <= rem /\ (srcsz = len src -> len p = sz').
Proof.
  intros Hok. unfold pd_step. cmd_cases cmd d rem srcsz; try easy; intros [= <- <- <-]; unfold invalid_size in Hc.
  - destruct (dec_offset_bound _ _ _ _ Hok Ho) as (Hoff & Hok1 & _).
    destruct (dec_size_bound _ _ _ _ Hok1 Hs) as (H1 & H24 & Hok2 & _).
    split; [assumption|]. split.
    + apply orb_false_iff in Hc as [Hc _]. apply N.ltb_ge in Hc. auto.
    + intros ->. apply (copy_check_ok src off sz rem Hoff H24) in Hc as [Hc _].
      rewrite slice_spec. unfold len in *. rewrite firstn_length, skipn_length. lia.
  - apply andb_true_iff in Hd as [_ Hd]. apply negb_true_iff, N.eqb_neq in Hd. apply N.ltb_ge in Hc, Hl.
    repeat split; auto using bytes_ok_drop, len_take. lia.
Qed.

(* git's loop takes the same step (it has no separate test for an exhausted target: a command
   then accounts for at least one byte too many) *)
Lemma git_step src g cmd r rem : bytes_ok r = true ->
  git_loop (S g) src (cmd :: r) rem =
  match pd_step src (len src) cmd r rem with
  | Ok (p, d', sz) => gprefix p (git_loop g src d' (rem - sz))
  | Err _ => GReject
  end.
Proof.
  intros Hr. cbn [git_loop]. unfold pd_step, is_copy_src, is_copy_delta, mask_continue, dec_offset.
  rewrite git_params_eq. fold offsets_tbl sizes_tbl.
  destruct (N.land cmd 128 =? 0); cbn [negb andb].
  - destruct (cmd =? 0); cbn [negb]; [reflexivity|].
    unfold invalid_size, glen. fold (len r). destruct (rem <? cmd); cbn [orb]; [reflexivity|].
    destruct (len r <? cmd); [reflexivity|]. unfold gtake, gdrop. rewrite take_firstn, drop_skipn. reflexivity.
  - destruct (dec_params offsets_tbl cmd r 0) as [[off r1]|] eqn:Ho; [|reflexivity].
    destruct (dec_offset_bound cmd r off r1 Hr Ho) as (Hoff & Hr1 & _).
    rewrite git_params_eq. unfold dec_size. destruct (dec_params sizes_tbl cmd r1 0) as [[sz0 r2]|] eqn:Hs; [|reflexivity].
    assert (Hsz : dec_size cmd r1 = Some (if sz0 =? 0 then max_copy_size else sz0, r2))
      by (unfold dec_size; rewrite Hs; reflexivity).
    destruct (dec_size_bound _ _ _ _ Hr1 Hsz) as (_ & H24 & _).
    rewrite (copy_check_eq src off _ rem Hoff H24). unfold max_copy_size. cbv zeta.
    destruct (_ || _ || _); [reflexivity|]. rewrite slice_spec. reflexivity.
Qed.

Lemma pd_git_loop src : forall f g d rem,
  bytes_ok d = true -> (List.length d < f)%nat -> (List.length d <= g)%nat ->
  to_g (pd_loop f src (len src) d rem) = git_loop g src d rem.
Proof.
  induction f as [|f IH]; intros g d rem Hok Hf Hg; [lia|].
  destruct d as [|cmd r].
  - destruct g; cbn [pd_loop git_loop is_nil]; destruct (rem =? 0); reflexivity.
  - destruct g as [|g]; [cbn in Hg; lia|].
    cbn [bytes_ok forallb] in Hok. apply andb_true_iff in Hok as [_ Hr]. cbn [List.length] in Hf, Hg.
    rewrite git_step by assumption.
    destruct (pd_step src (len src) cmd r rem) as [[[p d'] sz]|] eqn:Hs.
    + destruct (pd_step_ok _ _ _ _ _ _ _ _ Hr Hs) as (Hd' & Hsz & _).
      pose proof (pd_step_len _ _ _ _ _ _ _ _ Hs) as Hl.
      rewrite pd_loop_S, Hs, to_g_prefix by lia. f_equal. apply IH; [assumption|lia|lia].
    + destruct (N.eqb_spec rem 0) as [->|Hrem]; [rewrite pd_loop_0|rewrite pd_loop_S, Hs by assumption]; reflexivity.
Qed.

(* both size headers decode (at most 9 bytes each), the first one ends before the
   end of the delta, and the delta has git's minimum length *)
Definition git_guard (d : bytes) : bool :=
  (4 <=? len d) &&
  match leb_buf d with
  | Ok (_, d1) => negb (is_nil d1) && match leb_buf d1 with Ok _ => true | Err _ => false end
  | Err _ => false
  end.

Lemma apply_eq_git src d :
  bytes_ok d = true -> git_guard d = true -> to_g (patch_delta src d) = git_patch_delta src d.
Proof.
  intros Hok Hg. unfold git_guard in Hg. apply andb_true_iff in Hg as [Hlen Hg].
  unfold patch_delta, git_patch_delta, DELTA_SIZE_MIN. unfold glen. fold (len d).
  assert (E : len d <? 4 = false) by (apply N.ltb_ge; apply N.leb_le; exact Hlen). rewrite E.
  unfold leb_buf in *.
  destruct (leb_buf_go d 0 0) as [[s d1]|] eqn:H1; [|discriminate].
  apply andb_true_iff in Hg as [Hn Hg].
  assert (Hd : d <> []) by (intro; subst; vm_compute in Hlen; discriminate).
  rewrite (leb_git_hdr d 0 0 s d1 Hd H1 : git_hdr d 0 0 = HOk s d1).
  fold (len src). destruct (s =? len src) eqn:Es; cbn [negb]; [|reflexivity].
  apply N.eqb_eq in Es. subst s.
  destruct (leb_buf_go_props d 0 0 _ d1 Hok H1) as (Hok1 & _).
  destruct d1 as [|c1 t1]; [discriminate|].
  destruct (leb_buf_go (c1 :: t1) 0 0) as [[t d2]|] eqn:H2; [|discriminate].
  rewrite (leb_git_hdr (c1 :: t1) 0 0 t d2 ltac:(congruence) H2 : git_hdr (c1 :: t1) 0 0 = HOk t d2).
  destruct (leb_buf_go_props _ 0 0 t d2 Hok1 H2) as (Hok2 & _).
  apply pd_git_loop; [assumption|lia|lia].
Qed.

Lemma skipn_skipn_add {A} (a b : nat) (l : list A) : skipn a (skipn b l) = skipn (b + a) l.
Proof.
  revert l. induction b as [|b IH]; intros l; [reflexivity|].
  destruct l; [rewrite !skipn_nil; reflexivity|]. cbn [skipn plus]. apply IH.
Qed.

Lemma base_seek_spec src pos off : base_seek src (drop pos src) pos off = drop off src.
Proof.
  unfold base_seek. destruct (off <? pos) eqn:E; [reflexivity|].
  apply N.ltb_ge in E. rewrite !drop_skipn, skipn_skipn_add. f_equal. lia.
Qed.

Lemma rfd_pd_loop src srcsz : forall f d rem pos,
  rfd_loop f src srcsz (drop pos src) pos d rem = pd_loop f src srcsz d rem.
Proof.
  induction f as [|f IH]; intros d rem pos; [reflexivity|].
  cbn [rfd_loop pd_loop]. destruct (rem =? 0); [reflexivity|].
  destruct d as [|cmd r]; [reflexivity|].
  cmd_cases cmd r rem srcsz; try easy; [|f_equal; apply IH].
  cbv zeta. rewrite base_seek_spec. unfold slice. f_equal.
  replace (drop sz (drop off src)) with (drop (off + sz) src); [apply IH|].
  rewrite !drop_skipn, skipn_skipn_add. f_equal. lia.
Qed.

(* both size headers are read by the reader-side decoder (which stops at the end of the input) *)
Definition rd_hdrs (d : bytes) : Prop := exists s d1 t d2, leb_rd d = Ok (s, d1) /\ leb_rd d1 = Ok (t, d2).

Lemma stream_eq_buffer src d : rd_hdrs d -> reader_from_delta src d = patch_delta src d.
Proof.
  intros (s & d1 & t & d2 & H1 & H2). unfold reader_from_delta, patch_delta.
  unfold leb_rd in *. unfold leb_buf.
  rewrite (leb_rd_buf _ _ _ _ _ H1), H1. cbn [eof_invalid].
  destruct (negb (s =? len src)); [reflexivity|].
  rewrite (leb_rd_buf _ _ _ _ _ H2), H2. cbn [eof_invalid].
  rewrite <- (rfd_pd_loop src s (S (List.length d2)) d2 t 0). rewrite drop_skipn. reflexivity.
Qed.

(* both reader-side appliers answer with an error unless the two size headers decode *)
Lemma rd_hdrs_or_err d :
  rd_hdrs d \/ forall src, (exists e, reader_from_delta src d = Err e) /\ (exists e, patch_delta_writer true src d = Err e).
Proof.
  unfold reader_from_delta, patch_delta_writer.
  destruct (leb_rd d) as [[s d1]|e] eqn:H1; [cbn [eof_invalid andb]|right; destruct e; cbn [eof_invalid]; eauto].
  destruct (leb_rd d1) as [[t d2]|e] eqn:H2; [left; unfold rd_hdrs; eauto 8|].
  right. intros src. destruct (negb (s =? len src)); [eauto|]. destruct e; cbn [eof_invalid]; eauto.
Qed.

Lemma stream_buffer_or_err src d :
  reader_from_delta src d = patch_delta src d \/ exists e, reader_from_delta src d = Err e.
Proof.
  destruct (rd_hdrs_or_err d) as [H|H]; [left; apply stream_eq_buffer; exact H|right; apply H].
Qed.

Lemma pdw_pd_loop src srcsz : forall f d rem,
  to_g (pdw_loop f src srcsz d rem) = to_g (pd_loop f src srcsz d rem).
Proof.
  induction f as [|f IH]; intros d rem; [reflexivity|].
  cbn [pdw_loop pd_loop]. destruct (rem =? 0); [reflexivity|].
  destruct d as [|cmd r]; [reflexivity|].
  cmd_cases cmd r rem srcsz; try easy; rewrite !to_g_prefix, IH; reflexivity.
Qed.

Lemma writer_eq_buffer src d :
  rd_hdrs d -> to_g (patch_delta_writer true src d) = to_g (patch_delta src d).
Proof.
  intros (s & d1 & t & d2 & H1 & H2). unfold patch_delta_writer, patch_delta.
  unfold leb_rd in *. unfold leb_buf.
  rewrite (leb_rd_buf _ _ _ _ _ H1), H1. cbn [eof_invalid andb].
  destruct (s =? len src) eqn:E; cbn [negb]; [|reflexivity].
  apply N.eqb_eq in E. subst s.
  rewrite (leb_rd_buf _ _ _ _ _ H2), H2. cbn [eof_invalid].
  rewrite take_firstn. unfold len. rewrite Nat2N.id, firstn_all. apply pdw_pd_loop.
Qed.

Lemma writer_buffer_or_err src d :
  to_g (patch_delta_writer true src d) = to_g (patch_delta src d) \/
  exists e, patch_delta_writer true src d = Err e.
Proof.
  destruct (rd_hdrs_or_err d) as [H|H]; [left; apply writer_eq_buffer; exact H|right; apply H].
Qed.

Definition stream_guard (d : bytes) : bool :=
  (4 <=? len d) &&
  match leb_rd d with
  | Ok (_, d1) => match leb_rd d1 with Ok _ => true | Err _ => false end
  | Err _ => false
  end.

Lemma stream_guard_git d : stream_guard d = true -> git_guard d = true /\ rd_hdrs d.
Proof.
  unfold stream_guard, git_guard. intros H. apply andb_true_iff in H as [Hl H].
  destruct (leb_rd d) as [[s d1]|] eqn:H1; [|discriminate].
  destruct (leb_rd d1) as [[t d2]|] eqn:H2; [|discriminate].
  split; [|unfold rd_hdrs; eauto 8]. rewrite Hl. cbn [andb]. unfold leb_rd, leb_buf in *.
  rewrite (leb_rd_buf _ _ _ _ _ H1), (leb_rd_buf _ _ _ _ _ H2).
  destruct d1; [cbn in H2; discriminate|reflexivity].
Qed.

Definition target_size (d : bytes) : option N :=
  match leb_buf d with
  | Ok (_, d1) => match leb_buf d1 with Ok (t, _) => Some t | Err _ => None end
  | Err _ => None
  end.

Lemma pd_loop_len src : forall f d rem out,
  bytes_ok d = true -> pd_loop f src (len src) d rem = Ok out -> len out = rem.
Proof.
  induction f as [|f IH]; intros d rem out Hok H; (destruct (N.eqb_spec rem 0) as [->|Hrem];
    [rewrite pd_loop_0 in H; revert H; destruct (is_nil d); [intros [= <-]; reflexivity|discriminate]|]).
  - cbn [pd_loop] in H. rewrite (proj2 (N.eqb_neq _ _) Hrem) in H. discriminate.
  - destruct d as [|cmd r]; [cbn [pd_loop] in H; rewrite (proj2 (N.eqb_neq _ _) Hrem) in H; discriminate|].
    cbn [bytes_ok forallb] in Hok. apply andb_true_iff in Hok as [_ Hr].
    rewrite pd_loop_S in H by assumption.
    destruct (pd_step src (len src) cmd r rem) as [[[p d'] sz]|] eqn:Hs; [|discriminate].
    destruct (pd_step_ok _ _ _ _ _ _ _ _ Hr Hs) as (Hd' & (_ & Hsz) & Hp).
    destruct (pd_loop f src (len src) d' (rem - sz)) as [o|] eqn:Hrec; [|discriminate].
    injection H as <-. rewrite len_app, Hp, (IH _ _ _ Hd' Hrec) by reflexivity. lia.
Qed.

Lemma no_partial_success src d out :
  bytes_ok d = true -> patch_delta src d = Ok out -> target_size d = Some (len out).
Proof.
  intros Hok H. unfold patch_delta in H. unfold target_size.
  destruct (leb_buf d) as [[s d1]|] eqn:H1; [|discriminate].
  destruct (negb (s =? len src)) eqn:E; [discriminate|].
  apply negb_false_iff, N.eqb_eq in E. subst s.
  destruct (leb_buf_go_props d 0 0 _ d1 Hok H1) as (Hok1 & _).
  destruct (leb_buf d1) as [[t d2]|] eqn:H2; [|discriminate].
  destruct (leb_buf_go_props d1 0 0 _ d2 Hok1 H2) as (Hok2 & _).
  rewrite (pd_loop_len _ _ _ _ _ Hok2 H). reflexivity.
Qed.

Lemma pd_loop_fuel src srcsz : forall f d rem,
  (List.length d < f)%nat -> pd_loop f src srcsz d rem <> Err EFuel.
Proof.
  induction f as [|f IH]; intros d rem Hf; [lia|].
  destruct (N.eqb_spec rem 0) as [->|Hrem]; [rewrite pd_loop_0; destruct (is_nil d); discriminate|].
  destruct d as [|cmd r]; [cbn [pd_loop]; destruct (rem =? 0); discriminate|]. cbn [List.length] in Hf.
  rewrite pd_loop_S by assumption.
  destruct (pd_step src srcsz cmd r rem) as [[[p d'] sz]|e] eqn:Hs.
  - apply pd_step_len in Hs. specialize (IH d' (rem - sz) ltac:(lia)).
    destruct (pd_loop f src srcsz d' (rem - sz)); cbn [prefix_res]; congruence.
  - apply pd_step_err in Hs. congruence.
Qed.

Lemma leb_buf_go_fuel inp : forall k acc, leb_buf_go inp k acc <> Err EFuel.
Proof.
  induction inp as [|c t IH]; intros k acc; cbn [leb_buf_go]; [discriminate|].
  destruct (Nat.ltb 8 k); [discriminate|]. destruct ((N.land c 128 =? 0) || is_nil t); [discriminate|apply IH].
Qed.
