(* Proofs/C38.v — the push decision logic: every command handed to the
   transport is a requested update and obeys the update rules. *)
From Coq Require Import List NArith Bool.
From GoGit Require Import Base.Out Model.RefSpec Model.RevList Model.PushRules Proofs.C36Refspec.
Import ListNotations.
Local Open Scope N_scope.

(* b is the commit a or one of its ancestors, through stored commits *)
Inductive anc (st : store) : oid -> oid -> Prop :=
| anc_refl : forall a, anc st a a
| anc_step : forall a t ps tm p b, get_commit st a = Some (t, ps, tm) -> In p ps -> anc st p b -> anc st a b.

Lemma anc_trans : forall st a b c, anc st a b -> anc st b c -> anc st a c.
Proof. induction 1; intros; [assumption | econstructor; eauto]. Qed.

Lemma filter_unseen_In : forall ps seen x, In x (filter_unseen ps seen) -> In x ps.
Proof.
  induction ps as [|p ps IH]; intros seen x H; cbn [filter_unseen] in H; [contradiction|].
  destruct (mem p seen); [right; eapply IH; eauto|]. destruct H as [<-|H]; [now left | right; eapply IH; eauto].
Qed.

(* isFastForward's walk only ever looks at ancestors of the new commit *)
Lemma ff_walk_sound : forall st old new fuel stack seen bounded found b',
  Forall (Forall (anc st new)) stack ->
  ff_walk fuel st [] old stack seen bounded = Ok (found, b') ->
  (found = true -> anc st new old) /\ (bounded = false -> b' = false).
Proof.
  intros st old new. induction fuel as [|f IH]; intros stack seen bounded found b' Hst H; cbn [ff_walk] in H; [discriminate|].
  destruct stack as [|[|h hs] rest].
  - inversion H; subst. split; [discriminate | auto].
  - inversion Hst; subst. eapply IH; eauto.
  - inversion Hst as [|? ? Hl Hrest]; subst. inversion Hl as [|? ? Hh Hhs]; subst.
    assert (Hst' : Forall (Forall (anc st new)) (hs :: rest)) by now constructor.
    destruct (get_commit st h) as [[[t ps] tm]|] eqn:G; [|discriminate].
    destruct (mem h seen) eqn:M; [eapply IH; eauto|].
    cbn [mem orb] in H. rewrite orb_false_r in H.
    destruct (h =? old) eqn:E.
    + inversion H; subst. apply N.eqb_eq in E. subst h. split; auto.
    + eapply IH; [|exact H]. destruct ps as [|p0 ps0]; [exact Hst'|]. constructor; [|exact Hst'].
      apply Forall_forall. intros x Hx. apply filter_unseen_In in Hx.
      eapply anc_trans; [exact Hh|]. econstructor; [exact G | exact Hx | constructor].
Qed.

Lemma is_ff_sound : forall st old new, is_ff st [] old new = Ok true -> anc st new old.
Proof.
  intros st old new H. unfold is_ff in H. destruct (get_commit st new) as [x|]; [|discriminate].
  cbn [shallow_parents] in H.
  destruct (ff_walk (ff_fuel st) st [] old [[new]] [] false) as [[found b]|] eqn:W; [|discriminate].
  apply ff_walk_sound with (new := new) in W; [|repeat constructor]. destruct W as [A B].
  rewrite (B eq_refl) in H. rewrite orb_false_r in H. inversion H; subst. now apply A.
Qed.

Lemma ref_get_In : forall rs n t, ref_get rs n = Some t -> In (n, t) rs.
Proof.
  induction rs as [|[k v] rs IH]; intros n t H; cbn [ref_get] in H; [discriminate|].
  destruct (beq_bytes k n) eqn:E; [|right; now apply IH].
  apply beq_bytes_true in E. inversion H; subst. now left.
Qed.

Lemma Forall_app1 : forall (P : cmd -> Prop) l c, Forall P l -> P c -> Forall P (l ++ [c]).
Proof. intros. apply Forall_app. split; [assumption | constructor; [assumption | constructor]]. Qed.

Section Rules.
  Variable st : store.
  Variable sh : list oid.
  Variable hexes : list (bytes * oid).
  Variables local remote : refs.
  Variable specs : list bytes.          (* the refspecs in effect (after Force rewriting) *)
  Variable prune : bool.
  Variable ls : option lease.

  (* the command comes from refspec rs: a local reference it matches, or an object named by hash *)
  Definition produced (rs : bytes) (c : cmd) : Prop :=
    rs_delete rs = false /\
    ((exists ln, In (ln, RHash (k_new c)) local /\ rs_match rs ln = true /\ k_name c = rs_dst rs ln) \/
     (rs_wild rs = false /\ k_name c = rs_dst rs [] /\ hex_lookup hexes (rs_src rs) = Some (k_new c))).

  Definition lease_ok (c : cmd) : Prop :=
    exists l ln, ls = Some l /\ (beq_bytes (l_ref l) [] = true \/ beq_bytes (l_ref l) (k_name c) = true) /\
                 check_lease local ln c l = true.

  Definition old_ok (c : cmd) : Prop :=
    In (k_name c, RHash (k_old c)) remote \/ (k_old c = 0 /\ ref_get remote (k_name c) = None).

  Definition update_ok (c : cmd) : Prop :=
    exists rs, In rs specs /\ produced rs c /\
      (rs_force rs = true \/ lease_ok c \/ (check_tag c = true /\ check_ff st sh remote c = true)).

  Definition delete_ok (c : cmd) : Prop :=
    exists rs, In rs specs /\
      ((rs_delete rs = true /\ k_name c = rs_dst rs []) \/
       (prune = true /\ rs_delete rs = false /\ rs_match (rs_reverse rs) (k_name c) = true /\
        ref_get local (rs_dst (rs_reverse rs) (k_name c)) = None)).

  Definition cmd_ok (c : cmd) : Prop :=
    old_ok c /\ ((k_new c = 0 /\ delete_ok c) \/ (k_new c <> 0 /\ update_ok c) \/ (k_new c = 0 /\ update_ok c)).

  Definition allowed (rs : bytes) (c : cmd) : Prop :=
    rs_force rs = true \/ lease_ok c \/ (check_tag c = true /\ check_ff st sh remote c = true).

  (* addReferenceIfRefSpecMatches and addObject end alike once the destination name is known:
     nothing if the remote holds a symbolic reference or already has the value,
     else the command if their test [ok] passes *)
  Lemma add_named_ok : forall rs name h (ok : cmd -> bool) cmds cmds',
    In rs specs -> (forall o, produced rs (mkCmd name o h)) -> (forall c, ok c = true -> allowed rs c) ->
    Forall cmd_ok cmds ->
    match ref_get remote name with
    | Some (RSym _) => Some cmds
    | other => let old := match other with Some (RHash o) => o | _ => 0 end in
               let c := mkCmd name old h in
               if old =? h then Some cmds else if ok c then Some (cmds ++ [c]) else None
    end = Some cmds' -> Forall cmd_ok cmds'.
  Proof.
    intros rs name h ok cmds cmds' Hrs Hp Hal HF H.
    assert (Add : forall o, let c := mkCmd name o h in old_ok c ->
              (if o =? h then Some cmds else if ok c then Some (cmds ++ [c]) else None) = Some cmds' -> Forall cmd_ok cmds').
    { intros o c Ho H'. destruct (o =? h); [inversion H'; subst; exact HF|].
      destruct (ok c) eqn:OK; [|discriminate]. inversion H'; subst cmds'.
      apply Forall_app1; [exact HF|]. split; [exact Ho|].
      assert (U : update_ok c) by (exists rs; split; [exact Hrs|]; split; [apply Hp | exact (Hal _ OK)]).
      destruct (N.eq_dec (k_new c) 0); auto. }
    destruct (ref_get remote name) as [[o|ts]|] eqn:R; [| inversion H; subst; exact HF |]; apply Add in H; auto.
    - left. cbn. now apply ref_get_In.
    - right. cbn. auto.
  Qed.

  Lemma force_or_rules : forall rs c,
    rs_force rs || (check_tag c && check_ff st sh remote c) = true -> allowed rs c.
  Proof.
    intros rs c OK. apply orb_true_iff in OK. destruct OK as [OK|OK]; [now left|].
    right; right. now apply andb_true_iff in OK.
  Qed.

  (* the test of addReferenceIfRefSpecMatches: a lease that covers the name decides alone *)
  Lemma lease_or_rules : forall rs ln c,
    (if match ls with Some l => beq_bytes (l_ref l) [] || beq_bytes (l_ref l) (k_name c) | None => false end
     then match ls with Some l => check_lease local ln c l | None => true end
     else rs_force rs || (check_tag c && check_ff st sh remote c)) = true -> allowed rs c.
  Proof.
    intros rs ln c OK. destruct ls as [l|] eqn:L; [|now apply force_or_rules].
    destruct (beq_bytes (l_ref l) [] || beq_bytes (l_ref l) (k_name c)) eqn:LD; [|now apply force_or_rules].
    right; left. exists l, ln. split; [exact L|]. split; [now apply orb_true_iff in LD | exact OK].
  Qed.

  Lemma add_ref_if_match_ok : forall rs lr cmds cmds',
    In rs specs -> rs_delete rs = false -> In lr local ->
    add_ref_if_match st sh rs remote local lr ls cmds = Some cmds' ->
    Forall cmd_ok cmds -> Forall cmd_ok cmds'.
  Proof.
    intros rs [ln t] cmds cmds' Hrs Hnd Hlr H HF. unfold add_ref_if_match in H. cbn [fst snd] in H.
    destruct t as [h|tt]; [|inversion H; subst; exact HF].
    destruct (rs_match rs ln) eqn:M; cbn [negb] in H; [|inversion H; subst; exact HF].
    eapply add_named_ok; [exact Hrs | | intro c; apply (lease_or_rules rs ln) | exact HF | exact H].
    intro o. split; [exact Hnd|]. left. exists ln. cbn. auto.
  Qed.

  Lemma add_object_ok : forall rs h cmds cmds',
    In rs specs -> rs_delete rs = false -> rs_wild rs = false -> hex_lookup hexes (rs_src rs) = Some h ->
    add_object st sh rs remote h cmds = Some cmds' -> Forall cmd_ok cmds -> Forall cmd_ok cmds'.
  Proof.
    intros rs h cmds cmds' Hrs Hnd Hnw Hh H HF.
    eapply add_named_ok; [exact Hrs | | intro c; apply force_or_rules | exact HF | exact H].
    intro o. split; [exact Hnd|]. right. cbn. auto.
  Qed.

  Lemma delete_refs_ok : forall rs iter pr cmds,
    In rs specs -> incl iter remote ->
    (pr = false -> rs_delete rs = true) -> (pr = true -> prune = true /\ rs_delete rs = false) ->
    Forall cmd_ok cmds -> Forall cmd_ok (delete_refs rs iter local pr cmds).
  Proof.
    intros rs iter. induction iter as [|[name t] r IH]; intros pr cmds Hrs Hinc Hd Hp HF; cbn [delete_refs]; [exact HF|].
    assert (Hinc' : incl r remote) by (intros x Hx; apply Hinc; now right).
    destruct t as [h|tt]; [|now apply IH].
    apply IH; auto.
    match goal with |- Forall _ (if ?sk then _ else _) => destruct sk eqn:SK end; [exact HF|].
    apply Forall_app1; [exact HF|]. split.
    - left. cbn. apply Hinc. now left.
    - left. split; [reflexivity|]. exists rs. split; [exact Hrs|]. destruct pr.
      + right. destruct (Hp eq_refl) as [A B]. apply orb_false_iff in SK. destruct SK as [S1 S2].
        apply negb_false_iff in S1. cbn. repeat split; auto.
        destruct (ref_get local (rs_dst (rs_reverse rs) name)); [discriminate | reflexivity].
      + left. split; [now apply Hd|]. apply negb_false_iff in SK. cbn. symmetry. now apply beq_bytes_true.
  Qed.

  Lemma add_each_ok : forall rs iter cmds cmds',
    In rs specs -> rs_delete rs = false -> incl iter local ->
    add_each st sh rs remote local iter ls cmds = Some cmds' -> Forall cmd_ok cmds -> Forall cmd_ok cmds'.
  Proof.
    intros rs iter. induction iter as [|lr r IH]; intros cmds cmds' Hrs Hnd Hinc H HF; cbn [add_each] in H.
    - inversion H; subst; exact HF.
    - destruct (add_ref_if_match st sh rs remote local lr ls cmds) as [c1|] eqn:A; [|discriminate].
      eapply IH; eauto; [intros x Hx; apply Hinc; now right|].
      eapply add_ref_if_match_ok; eauto. apply Hinc. now left.
  Qed.

  Lemma add_or_update_ok : forall rs cmds cmds',
    In rs specs -> rs_delete rs = false ->
    add_or_update st sh hexes rs remote local ls cmds = Some cmds' -> Forall cmd_ok cmds -> Forall cmd_ok cmds'.
  Proof.
    intros rs cmds cmds' Hrs Hnd H HF. unfold add_or_update in H.
    destruct (rs_wild rs) eqn:W; [eapply add_each_ok; eauto using incl_refl|].
    destruct (ref_get local (rs_src rs)) as [t|] eqn:L.
    - eapply add_ref_if_match_ok; eauto using ref_get_In.
    - destruct (hex_lookup hexes (rs_src rs)) as [h|] eqn:X; [|inversion H; subst; exact HF].
      destruct (get st h); [|inversion H; subst; exact HF].
      eapply add_object_ok; eauto.
  Qed.

  Lemma add_refs_to_update_ok : forall l cmds cmds',
    incl l specs ->
    add_refs_to_update st sh hexes l remote local prune ls cmds = Some cmds' ->
    Forall cmd_ok cmds -> Forall cmd_ok cmds'.
  Proof.
    induction l as [|rs r IH]; intros cmds cmds' Hinc H HF; cbn [add_refs_to_update] in H.
    - inversion H; subst; exact HF.
    - assert (Hrs : In rs specs) by (apply Hinc; now left).
      assert (Hinc' : incl r specs) by (intros x Hx; apply Hinc; now right).
      destruct (rs_delete rs) eqn:D.
      + eapply IH; eauto. apply delete_refs_ok; auto using incl_refl. intros X; discriminate.
      + destruct (add_or_update st sh hexes rs remote local ls cmds) as [c1|] eqn:A; [|discriminate].
        eapply IH; eauto.
        pose proof (add_or_update_ok _ _ _ Hrs D A HF) as F1.
        destruct prune eqn:P; [|exact F1].
        apply delete_refs_ok; auto using incl_refl. intros X; discriminate.
  Qed.
End Rules.

(* sendPack: the refspecs in effect *)
Definition eff_specs (o : popts) : list bytes :=
  let specs0 := match po_specs o with [] => [DEFAULT_PUSH] | l => l end in
  if po_force o then force_specs specs0 else specs0.

Lemma push_inv : forall st sh hexes local remote o cmds hs,
  push st sh hexes local remote o = POk (cmds, hs) ->
  add_refs_to_update st sh hexes (eff_specs o) remote local (po_prune o) (po_lease o) [] = Some cmds /\
  (forallb rs_delete (match po_specs o with [] => [DEFAULT_PUSH] | l => l end) = false ->
   objects st sh (cmd_news cmds) (remote_hashes remote ++ sh) = Ok hs).
Proof.
  intros st sh hexes local remote o cmds hs H. unfold push in H. unfold eff_specs. cbv zeta in *.
  set (specs0 := match po_specs o with [] => [DEFAULT_PUSH] | l => l end) in *.
  destruct (forallb rs_valid specs0); cbn [negb] in H; [|discriminate].
  destruct (existsb rs_delete specs0 && negb (po_delcap o)); [discriminate|].
  destruct (add_refs_to_update _ _ _ _ _ _ _ _ []) as [[|c0 cr]|]; try discriminate.
  destruct (forallb rs_delete specs0); [inversion H; subst; split; [reflexivity | discriminate]|].
  destruct (objects st sh (cmd_news (c0 :: cr)) (remote_hashes remote ++ sh)) eqn:O; [|discriminate].
  inversion H; subst. auto.
Qed.
