(* Proofs/C35Msgs.v — round trips of the line-oriented packp messages:
   ShallowUpdate, UploadHaves, PushOptions, ReportStatus, ServerResponse. *)
From Coq Require Import List NArith ZArith Bool Lia Arith String.
From GoGit Require Import Base.Out Base.GoInt Gen.C34 Model.PktLine Model.C35Utf8 Model.Packp
  Proofs.C34Stream Proofs.C34Hex Proofs.C34Pkt Proofs.C35Base Proofs.C35Utf8 Proofs.C35U.
Import ListNotations.

Arguments MaxSizeN : simpl never.
Opaque MaxSizeN.

(* a line "<prefix><hex>" is a clean_text (Proofs/C34Pkt.v): TrimSpace of it plus a newline gives it back *)
Lemma clean_prefix_hex c pre hx : is_space c = false -> hx <> [] -> forallb hexchar hx = true ->
  clean_text (c :: pre ++ hx) = true.
Proof.
  intros Hc Hne Hh. unfold clean_text. rewrite Hc. cbn [negb andb].
  change (c :: pre ++ hx) with ((c :: pre) ++ hx). rewrite (last_app_ne _ hx _ Hne).
  destruct (hexchar_nonspace _ (forallb_last hexchar hx Hne Hh)) as [-> _]. reflexivity.
Qed.

Definition sha1_ok (h : hash) : bool := hash_ok h && negb (h256 h).

Lemma sha1_len h : sha1_ok h = true -> List.length (hash_str h) = 40%nat /\ hash_ok h = true.
Proof.
  unfold sha1_ok. intros H. apply andb_prop in H. destruct H as [H1 H2]. apply negb_true_iff in H2.
  split; [|assumption]. rewrite (hash_str_length h H1). unfold hash_hexsize, hash_size. now rewrite H2.
Qed.

(* "<keyword><hex>\n" as a decoder that applies TrimSpace sees it *)
Lemma trim_u_kw_hash kw h : kw_ok kw = true -> hash_ok h = true ->
  trim_space_u (kw ++ hash_str h ++ [NL]) = kw ++ hash_str h.
Proof. intros Hc Hok. rewrite app_assoc. now apply trim_u_clean, clean_kw_hash. Qed.

Lemma su_step (sh : bool) h r fin ss us : hash_ok h = true ->
  su_decode_go (item_of (PData ((if sh then B "shallow " else B "unshallow ") ++ hash_str h ++ [NL])) :: r) fin (mkshupd ss us)
  = su_decode_go r fin (if sh then mkshupd (ss ++ [h]) us else mkshupd ss (us ++ [h])).
Proof.
  intros Hok. pose proof (hash_str_length h Hok) as L. unfold hash_hexsize, hash_size in L.
  rewrite item_of_ne by (rewrite app_length; destruct sh; cbn; lia).
  cbn [su_decode_go fst snd]. rewrite item_nz.
  destruct sh; rewrite trim_u_kw_hash by auto.
  - rewrite has_prefix_app, app_length, L, (skipn_app_exact (B "shallow ") _ 8 eq_refl), (new_hash_str h Hok). destruct (h256 h); reflexivity.
  - rewrite !(has_prefix_clash _ (B "unshallow ")) by reflexivity. cbv iota.
    rewrite has_prefix_app, app_length, L, (skipn_app_exact (B "unshallow ") _ 10 eq_refl), (new_hash_str h Hok). destruct (h256 h); reflexivity.
Qed.

Theorem su_roundtrip u : forallb hash_ok (su_shallows u) = true -> forallb hash_ok (su_unshallows u) = true ->
  su_decode (mksrc (map item_of (su_encode u)) None) = inl u.
Proof.
  destruct u as [ss us]. cbn [su_shallows su_unshallows]. intros H1 H2. apply forallb_Forall in H1, H2.
  unfold su_decode, su_encode. cbn [s_items s_fin su_shallows su_unshallows]. rewrite !map_app, !map_map.
  rewrite (lines_acc (fun l => su_decode_go l None) _ (fun acc => mkshupd acc []) _ (fun h r acc => su_step true h r None acc [])) by assumption.
  now rewrite (lines_acc (fun l => su_decode_go l None) _ (fun acc => mkshupd ss acc) _ (fun h r acc => su_step false h r None ss acc)) by assumption.
Qed.

Lemma su_no_errline u : forallb no_errline (su_encode u) = true.
Proof. unfold su_encode. rewrite !forallb_app, !forallb_map_all; reflexivity. Qed.

Definition uh_canon (u : uphav) : uphav := mkuphav (dedup_from zero_hash (sort_hashes (uh_haves u))) (uh_done u).

Lemma uh_step h r fin hs d : hash_ok h = true ->
  uh_decode_go (item_of (PData (B "have " ++ hash_str h ++ [NL])) :: r) fin (mkuphav hs d)
  = uh_decode_go r fin (mkuphav (hs ++ [h]) d).
Proof.
  intros Hok. rewrite item_of_ne by (rewrite app_length; cbn; lia).
  cbn [uh_decode_go fst snd]. rewrite item_nz.
  rewrite !(has_prefix_clash _ (B "have ")) by reflexivity. cbv iota.
  rewrite has_prefix_app. cbn [negb]. rewrite (skipn_app_exact (B "have ") _ 5 eq_refl).
  rewrite (trim_u_clean _ (clean_u_hex _ (hash_str_asciins h Hok))), (new_hash_str h Hok). reflexivity.
Qed.

Theorem uh_roundtrip u : forallb hash_ok (uh_haves u) = true ->
  uh_decode (mksrc (map item_of (uh_encode u)) None) = inl (uh_canon u).
Proof.
  intros H. apply forallb_Forall in H. unfold uh_decode, uh_encode, uh_canon. cbn [s_items s_fin]. rewrite map_app, map_map.
  rewrite (lines_acc (fun l => uh_decode_go l None) _ (fun acc => mkuphav acc false) _ (fun h r acc => uh_step h r None acc false))
    by now apply dedup_from_Forall, sort_by_Forall.
  destruct (uh_done u); reflexivity.
Qed.

Lemma uh_no_errline u : forallb no_errline (uh_encode u) = true.
Proof. unfold uh_encode. rewrite forallb_app, forallb_map_all by reflexivity. destruct (uh_done u); reflexivity. Qed.

Lemma po_step o r fin acc : graphic_str o = true ->
  po_decode_go (item_of (PData o) :: r) fin acc = po_decode_go r fin (acc ++ [o]).
Proof.
  intros H. cbn [po_decode_go]. destruct o as [|c o]; cbn [item_of fst snd]; [|rewrite item_nz]; now rewrite H.
Qed.

Lemma po_encode_some opts ps : po_encode opts = Some ps ->
  ps = map PData opts ++ [PFlush] /\ Forall (fun o => graphic_str o = true) opts.
Proof.
  unfold po_encode. destruct (forallb _ opts) eqn:E; [|discriminate]. intros [= <-]. split; [reflexivity|].
  apply forallb_Forall in E. apply (Forall_impl _ (fun o H => proj1 (andb_prop _ _ H)) E).
Qed.

Theorem po_roundtrip opts ps : po_encode opts = Some ps ->
  po_decode (mksrc (map item_of ps) None) = inl opts.
Proof.
  intros H. destruct (po_encode_some opts ps H) as [-> Hg]. unfold po_decode. cbn [s_items s_fin]. rewrite map_app, map_map.
  now rewrite (lines_acc (fun l => po_decode_go l None) _ (fun acc => acc) _ (fun o r acc => po_step o r None acc)).
Qed.

Definition rs_ok (s : report) : bool := forallb (fun c => no_byte SP (fst c)) (rs_cmds s).

Lemma rs_cmd_step c r fin acc : no_byte SP (fst c) = true ->
  rs_cmds_decode (item_of (if beq (snd c) OKb then PData (B "ok " ++ fst c ++ [NL])
                           else PData (B "ng " ++ fst c ++ [SP] ++ snd c ++ [NL])) :: r) fin acc
  = rs_cmds_decode r fin (acc ++ [c]).
Proof.
  intros Hn. destruct c as [name st]. cbn [fst snd] in *. destruct (beq st OKb) eqn:E.
  - apply beq_eq in E. subst st.
    rewrite item_of_ne by (rewrite app_length; cbn; lia). cbn [rs_cmds_decode fst snd]. rewrite item_nz.
    change (B "ok " ++ name ++ [NL]) with ((B "ok" ++ SP :: name) ++ [NL]). rewrite trim_eol_app.
    cbn [split_n]. rewrite (cut_app SP (B "ok") name eq_refl), (cut_none SP name Hn). reflexivity.
  - rewrite item_of_ne by (rewrite app_length; cbn; lia). cbn [rs_cmds_decode fst snd]. rewrite item_nz.
    replace (B "ng " ++ name ++ [SP] ++ st ++ [NL]) with ((B "ng" ++ SP :: name ++ SP :: st) ++ [NL])
      by (rewrite <- app_assoc; cbn [app]; now rewrite <- app_assoc).
    rewrite trim_eol_app. cbn [split_n]. rewrite (cut_app SP (B "ng") _ eq_refl), (cut_app SP name st Hn). reflexivity.
Qed.

Theorem rs_roundtrip s : rs_ok s = true ->
  rs_decode (mksrc (map item_of (rs_encode s)) None) = inl s.
Proof.
  intros H. apply forallb_Forall in H. unfold rs_decode, rs_encode. cbn [s_items s_fin map].
  rewrite item_of_ne by (rewrite app_length; cbn; lia). cbn [snd].
  change (B "unpack " ++ rs_unpack s ++ [NL]) with (117%N :: skipn 1 (B "unpack" ++ SP :: rs_unpack s) ++ [NL]). cbv iota.
  change (117%N :: skipn 1 (B "unpack" ++ SP :: rs_unpack s) ++ [NL]) with ((B "unpack" ++ SP :: rs_unpack s) ++ [NL]).
  rewrite trim_eol_app. cbn [split_n app]. rewrite (cut_app SP (B "unpack") _ eq_refl). cbn [beq N.eqb Pos.eqb andb].
  rewrite map_app, map_map, (lines_acc (fun l => rs_cmds_decode l None) _ (fun acc => acc) _ (fun c r acc => rs_cmd_step c r None acc)) by exact H.
  destruct s; reflexivity.
Qed.

Lemma rs_no_errline s : forallb no_errline (rs_encode s) = true.
Proof.
  unfold rs_encode. cbn [forallb]. rewrite forallb_app, forallb_map_all; [reflexivity|].
  intros c. destruct (beq (snd c) OKb); reflexivity.
Qed.

(* statuses 1..3 everywhere, except that the last ACK may be a plain one *)
Fixpoint sr_ok (acks : list ack) : bool :=
  match acks with
  | [] => true
  | [(h, st)] => hash_ok h && N.leb st 3
  | (h, st) :: r => hash_ok h && N.leb 1 st && N.leb st 3 && sr_ok r
  end.

(* the status word of an ACK line as Decode reads it *)
Definition status_of (s : bytes) : N :=
  if beq s (B "continue") then 1%N else if beq s (B "common") then 2%N else if beq s (B "ready") then 3%N else 0%N.

Lemma status_str_clean st : (1 <= st <= 3)%N ->
  no_byte SP (status_str st) = true /\ clean_u (status_str st) = true /\ status_of (status_str st) = st.
Proof.
  intros H. assert (st = 1 \/ st = 2 \/ st = 3)%N as [-> | [-> | ->]] by lia; repeat split; reflexivity.
Qed.

Lemma sr_ack_step x p1 ps r fin acc : (40 <= List.length x)%nat -> split_on SP x = p1 :: ps ->
  sr_decode_go (item_of (PData (B "ACK " ++ x)) :: r) fin acc =
  match ps with
  | p2 :: _ => sr_decode_go r fin (acc ++ [(new_hash (trim_eol p1), status_of (trim_space_u p2))])
  | [] => inl (acc ++ [(new_hash (trim_eol p1), 0%N)])
  end.
Proof.
  intros HL Hs. rewrite item_of_ne by (rewrite app_length; cbn; lia). cbn [sr_decode_go snd].
  change (B "ACK " ++ x) with (B "ACK" ++ SP :: x).
  remember (B "ACK" ++ SP :: x) as line eqn:El.
  assert (has_prefix (B "ACK") line = true) as Hp by (subst line; apply has_prefix_app).
  assert (split_on SP line = B "ACK" :: p1 :: ps) as Hs' by (subst line; now rewrite (split_on_app SP (B "ACK") _ eq_refl), Hs).
  assert (44 <= List.length line)%nat as Hlen.
  { subst line. rewrite app_length. cbn [List.length]. change (List.length (B "ACK")) with 3%nat. lia. }
  destruct line as [|c0 l0]; [cbn in Hlen; lia|]. rewrite Hp, Hs'. cbn [List.length nth].
  destruct (Nat.ltb_spec (S (List.length l0)) 44); [cbn [List.length] in Hlen; lia|]. cbn [Nat.ltb Nat.leb orb].
  destruct ps; reflexivity.
Qed.

Lemma sr_status_step h st r fin acc : hash_ok h = true -> (1 <= st <= 3)%N ->
  sr_decode_go (item_of (PData (B "ACK " ++ hash_str h ++ [SP] ++ status_str st ++ [NL])) :: r) fin acc
  = sr_decode_go r fin (acc ++ [(h, st)]).
Proof.
  intros Hok Hst. destruct (hash_str_nospace h Hok) as [Hns Hnl]. destruct (status_str_clean st Hst) as (S1 & S2 & S3).
  rewrite (sr_ack_step _ (hash_str h) [status_str st ++ [NL]]).
  - now rewrite (trim_eol_id _ Hnl), (new_hash_str h Hok), (trim_u_clean _ S2), S3.
  - rewrite app_length. pose proof (hash_str_min h Hok). lia.
  - cbn [app]. rewrite (split_on_app SP _ _ Hns), split_on_nobyte; [reflexivity|]. now rewrite no_byte_app, S1.
Qed.

Lemma sr_plain_step h r fin acc : hash_ok h = true ->
  sr_decode_go (item_of (PData (B "ACK " ++ hash_str h ++ [NL])) :: r) fin acc = inl (acc ++ [(h, 0%N)]).
Proof.
  intros Hok. destruct (hash_str_nospace h Hok) as [Hns _].
  rewrite (sr_ack_step _ (hash_str h ++ [NL]) []).
  - now rewrite trim_eol_app, (new_hash_str h Hok).
  - rewrite app_length. pose proof (hash_str_min h Hok). lia.
  - apply split_on_nobyte. now rewrite no_byte_app, Hns.
Qed.

Lemma sr_go_roundtrip : forall acks multi acc, acks <> [] -> sr_ok acks = true ->
  sr_decode_go (map item_of (sr_encode_go acks multi)) None acc = inl (acc ++ acks).
Proof.
  induction acks as [|[h st] acks IH]; intros multi acc Hne Hok; [contradiction|].
  destruct acks as [|a2 acks].
  - cbn [sr_ok] in Hok. apply andb_prop in Hok. destruct Hok as [Hh Hs]. apply N.leb_le in Hs.
    cbn [sr_encode_go]. destruct (N.ltb_spec 0 st).
    + cbn [map]. rewrite sr_status_step by (auto; lia). reflexivity.
    + assert (st = 0%N) as -> by lia. destruct multi; cbn [map sr_encode_go]; now rewrite sr_plain_step.
  - change (sr_ok ((h, st) :: a2 :: acks)) with (hash_ok h && N.leb 1 st && N.leb st 3 && sr_ok (a2 :: acks)) in Hok.
    apply andb_prop in Hok. destruct Hok as [Hok H4]. apply andb_prop in Hok. destruct Hok as [Hok H3].
    apply andb_prop in Hok. destruct Hok as [Hh H1]. apply N.leb_le in H1, H3.
    remember (a2 :: acks) as rest eqn:Er.
    cbn [sr_encode_go]. destruct (N.ltb_spec 0 st); [|lia].
    cbn [map]. rewrite sr_status_step by (auto; lia). rewrite IH; [|subst rest; discriminate|assumption].
    now rewrite <- app_assoc.
Qed.

Theorem sr_roundtrip acks : sr_ok acks = true ->
  sr_decode (mksrc (map item_of (sr_encode acks)) None) = inl acks.
Proof.
  intros H. unfold sr_decode, sr_encode. cbn [s_items s_fin]. destruct acks as [|a acks]; [reflexivity|].
  rewrite sr_go_roundtrip; [reflexivity|discriminate|assumption].
Qed.

Lemma sr_no_errline acks : forallb no_errline (sr_encode acks) = true.
Proof.
  unfold sr_encode. destruct acks as [|a acks]; [reflexivity|]. generalize (a :: acks) false. clear.
  induction l as [|[h st] l IH]; intros multi; [reflexivity|]. cbn [sr_encode_go].
  destruct (N.ltb 0 st); cbn [forallb]; [now rewrite IH|]. destruct multi; [now rewrite IH|reflexivity].
Qed.
