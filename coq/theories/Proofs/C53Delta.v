(* Proofs/C53Delta.v — C53 for the three delta appliers of Model/Delta.v
   (patchDelta, ReaderFromDelta, patchDeltaWriter) and the LEB128 headers:
     total   no applier answers [Err EFuel], for ALL source / delta strings
             (bytes are unbounded [N]: no "byte < 256" guard at all);
     no_oob  a checked variant of the buffer applier that FAILS whenever a
             copy-from-source range src[off:off+sz] or a literal delta[:n]
             leaves its buffer is equal to the model on every delta whose
             elements are bytes (this is where the width of the operands
             matters: off < 2^32, sz < 2^24 make off+sz exact in uint64);
     alloc   a successful application yields exactly the declared target
             size, and that size is at most 2^24 per delta byte.
   Proofs/C06Apply.v proves the appliers equal to git's patch_delta under
   [bytes_ok], and that the buffer applier's header and loop never exhaust
   their fuel (leb_buf_go_fuel, pd_loop_fuel: no guard); the same is proved
   here for the reader and writer loops. *)
From Coq Require Import List NArith Arith Lia Bool.
From Coq Require Import ZifyN.
From GoGit Require Import Base.Out Model.Delta Proofs.C06Apply.
Import ListNotations.
Local Open Scope N_scope.

Lemma prefix_res_fuel p r : r <> Err EFuel -> prefix_res p r <> Err EFuel.
Proof. destruct r; cbn [prefix_res]; congruence. Qed.

(* rfd_loop and pdw_loop differ only in where a copy-from-source command takes
   its bytes; the control flow is the same, and so is the argument: every
   command consumes at least its own byte, so the recursive call (IH) runs on a
   shorter delta. *)
Ltac cmd_loop_total IH Hf d rem srcsz :=
  destruct (rem =? 0); [destruct (is_nil d); discriminate|];
  destruct d as [|cmd r]; [discriminate|]; cbn [List.length] in Hf;
  destruct (is_copy_src cmd);
  [ destruct (dec_offset cmd r) as [[off r1]|] eqn:Ho; [|discriminate]; apply dec_params_len in Ho;
    destruct (dec_size cmd r1) as [[sz r2]|] eqn:Hs; [|discriminate]; apply dec_size_len in Hs;
    destruct (invalid_size sz rem || invalid_offset_size off sz srcsz); [discriminate|]; cbv zeta;
    apply prefix_res_fuel, IH; lia
  | destruct (is_copy_delta cmd); [|discriminate];
    destruct (invalid_size cmd rem); [discriminate|]; destruct (len r <? cmd); [discriminate|];
    apply prefix_res_fuel, IH; rewrite drop_skipn, skipn_length; lia ].

Lemma rfd_loop_total src srcsz : forall f rd pos d rem,
  (List.length d < f)%nat -> rfd_loop f src srcsz rd pos d rem <> Err EFuel.
Proof.
  induction f as [|f IH]; intros rd pos d rem Hf; [lia|]. cbn [rfd_loop]. cmd_loop_total IH Hf d rem srcsz.
Qed.

Lemma pdw_loop_total sect srcsz : forall f d rem,
  (List.length d < f)%nat -> pdw_loop f sect srcsz d rem <> Err EFuel.
Proof.
  induction f as [|f IH]; intros d rem Hf; [lia|]. cbn [pdw_loop]. cmd_loop_total IH Hf d rem srcsz.
Qed.

Lemma leb_rd_go_nf : forall inp k acc, leb_rd_go inp k acc <> Err EFuel.
Proof.
  induction inp as [|c t IH]; intros k acc; cbn [leb_rd_go]; destruct (Nat.ltb 8 k); try discriminate.
  destruct (_ =? 0); [discriminate|apply IH].
Qed.

(* a header varint takes at most 9 bytes: the overflow check fires before a tenth is looked at *)
Lemma leb_buf_go_len : forall inp k acc v r,
  leb_buf_go inp k acc = Ok (v, r) -> (List.length r <= List.length inp)%nat /\ (List.length inp <= List.length r + (9 - k))%nat.
Proof.
  induction inp as [|c t IH]; intros k acc v r H; cbn [leb_buf_go] in H.
  - injection H as _ <-. cbn. lia.
  - destruct (Nat.ltb_spec 8 k); [discriminate|].
    destruct (_ || _).
    + injection H as _ <-. cbn [List.length]. lia.
    + apply IH in H. cbn [List.length]. lia.
Qed.

(* the shape of the three appliers: two header varints, a guard on the first, then the command loop *)
Lemma sized_total {A} (hdr : bytes -> res (N * bytes)) (guard : N -> bool) (loop : N -> N -> bytes -> res A) d :
  (forall x, hdr x <> Err EFuel) -> (forall s t d2, loop s t d2 <> Err EFuel) ->
  match hdr d with
  | Err e => Err e
  | Ok (s, d1) => if guard s then Err EInvalid
                  else match hdr d1 with Err e => Err e | Ok (t, d2) => loop s t d2 end
  end <> Err EFuel.
Proof.
  intros Hh Hl. pose proof (Hh d) as A1. destruct (hdr d) as [[s d1]|e]; [|congruence].
  destruct (guard s); [discriminate|].
  pose proof (Hh d1) as A2. destruct (hdr d1) as [[t d2]|e]; [apply Hl|congruence].
Qed.

Theorem patch_delta_total src d : patch_delta src d <> Err EFuel.
Proof.
  apply (sized_total leb_buf (fun s => negb (s =? len src)) (fun s t d2 => pd_loop (S (List.length d2)) src s d2 t)).
  - intros x. apply leb_buf_go_fuel.
  - intros. apply pd_loop_fuel. lia.
Qed.

Theorem patch_delta_wrapper_total src d : patch_delta_wrapper src d <> Err EFuel.
Proof. unfold patch_delta_wrapper. destruct (_ || _); [discriminate|apply patch_delta_total]. Qed.

Lemma leb_rd_nf d : eof_invalid (leb_rd d) <> Err EFuel.
Proof. pose proof (leb_rd_go_nf d 0 0) as A. unfold leb_rd. destruct (leb_rd_go d 0 0) as [a|[]]; cbn [eof_invalid]; congruence. Qed.

Theorem reader_from_delta_total src d : reader_from_delta src d <> Err EFuel.
Proof.
  apply (sized_total (fun x => eof_invalid (leb_rd x)) (fun s => negb (s =? len src))
           (fun s t d2 => rfd_loop (S (List.length d2)) src s src 0 d2 t)).
  - apply leb_rd_nf.
  - intros. apply rfd_loop_total. lia.
Qed.

Theorem patch_delta_writer_total bb src d : patch_delta_writer bb src d <> Err EFuel.
Proof.
  apply (sized_total (fun x => eof_invalid (leb_rd x)) (fun s => bb && negb (s =? len src))
           (fun s t d2 => pdw_loop (S (List.length d2)) (take s src) s d2 t)).
  - apply leb_rd_nf.
  - intros. apply pdw_loop_total. lia.
Qed.

(* the guard of a copy-from-source command puts the range inside a base of the declared size *)
Lemma copy_in_range off sz rem srcsz : off < 2 ^ 32 -> sz < 2 ^ 24 ->
  invalid_size sz rem || invalid_offset_size off sz srcsz = false -> off + sz <= srcsz.
Proof.
  intros Hoff Hsz Hc. apply orb_false_iff in Hc as [_ Hc].
  unfold invalid_offset_size in Hc. apply orb_false_iff in Hc as [_ Hc]. apply N.ltb_ge in Hc.
  (* off < 2^32 and sz < 2^24 make off + sz exact in uint64 *)
  rewrite N.mod_small in Hc; [exact Hc|]. apply N.lt_trans with (2 ^ 32 + 2 ^ 24); [lia|]. vm_compute. reflexivity.
Qed.

(* the buffer applier with Go's slice expressions made partial: [None] = a
   slice bound out of range, i.e. a run-time panic in patchDelta *)
Definition slice_chk (b : bytes) (off sz : N) : option bytes :=
  if len b <? off + sz then None else Some (slice b off sz).
Definition take_chk (n : N) (b : bytes) : option bytes :=
  if len b <? n then None else Some (take n b).

Fixpoint pd_loop_chk (fuel : nat) (src : bytes) (srcsz : N) (delta : bytes) (rem : N) : option (res bytes) :=
  if rem =? 0 then Some (if is_nil delta then Ok [] else Err EInvalid)
  else match fuel with
  | O => Some (Err EFuel)
  | S f =>
    match delta with
    | [] => Some (Err EInvalid)
    | cmd :: d =>
      if is_copy_src cmd then
        match dec_offset cmd d with
        | None => Some (Err EInvalid)
        | Some (off, d1) =>
          match dec_size cmd d1 with
          | None => Some (Err EInvalid)
          | Some (sz, d2) =>
            if invalid_size sz rem || invalid_offset_size off sz srcsz then Some (Err EInvalid)
            else match slice_chk src off sz with
                 | None => None
                 | Some p => option_map (prefix_res p) (pd_loop_chk f src srcsz d2 (rem - sz))
                 end
          end
        end
      else if is_copy_delta cmd then
        if invalid_size cmd rem then Some (Err EInvalid)
        else if len d <? cmd then Some (Err EInvalid)
        else match take_chk cmd d with
             | None => None
             | Some p => option_map (prefix_res p) (pd_loop_chk f src srcsz (drop cmd d) (rem - cmd))
             end
      else Some (Err ECmd)
    end
  end.

(* one walk under [bytes_ok]: no slice of the loop is out of range, and what a command sequence can
   produce is < 2^24 bytes per command (a command takes >= 1 byte) *)
Lemma pd_loop_ok src : forall f d rem, bytes_ok d = true ->
  pd_loop_chk f src (len src) d rem = Some (pd_loop f src (len src) d rem) /\
  (forall out, pd_loop f src (len src) d rem = Ok out -> rem <= 16777216 * len d).
Proof.
  induction f as [|f IH]; intros d rem Hok; cbn [pd_loop_chk pd_loop].
  - destruct (N.eqb_spec rem 0); (split; [reflexivity|intros; try discriminate; lia]).
  - destruct (N.eqb_spec rem 0); [split; [reflexivity|intros; lia]|].
    destruct d as [|cmd r]; [split; [reflexivity|discriminate]|].
    cbn [bytes_ok forallb] in Hok. apply andb_true_iff in Hok as [Hc Hr].
    assert (Hlen : len (cmd :: r) = 1 + len r) by (unfold len; cbn [List.length]; lia). rewrite Hlen.
    destruct (is_copy_src cmd).
    + destruct (dec_offset cmd r) as [[off r1]|] eqn:Ho; [|split; [reflexivity|discriminate]].
      destruct (dec_offset_bound _ _ _ _ Hr Ho) as (Hoff & Hr1 & L1).
      destruct (dec_size cmd r1) as [[sz r2]|] eqn:Hs; [|split; [reflexivity|discriminate]].
      destruct (dec_size_bound _ _ _ _ Hr1 Hs) as (_ & Hsz & Hr2 & L2).
      destruct (invalid_size sz rem || invalid_offset_size off sz (len src)) eqn:Hg; [split; [reflexivity|discriminate]|].
      pose proof (copy_in_range _ _ _ _ Hoff Hsz Hg) as Hin.
      destruct (IH r2 (rem - sz) Hr2) as [Hchk Hb]. split.
      * unfold slice_chk. rewrite (proj2 (N.ltb_ge _ _) Hin), Hchk. reflexivity.
      * intros out H. destruct (pd_loop f src (len src) r2 (rem - sz)) as [o|]; [|discriminate].
        specialize (Hb o eq_refl). change (2 ^ 24) with 16777216 in Hsz. unfold len in *. lia.
    + destruct (is_copy_delta cmd); [|split; [reflexivity|discriminate]].
      destruct (invalid_size cmd rem); [split; [reflexivity|discriminate]|].
      destruct (len r <? cmd) eqn:Hl; [split; [reflexivity|discriminate]|].
      destruct (IH (drop cmd r) (rem - cmd) (bytes_ok_drop _ _ Hr)) as [Hchk Hb]. split.
      * unfold take_chk. rewrite Hl, Hchk. reflexivity.
      * intros out H. destruct (pd_loop f src (len src) (drop cmd r) (rem - cmd)) as [o|]; [|discriminate].
        specialize (Hb o eq_refl). apply N.ltb_ge in Hl. rewrite len_drop in Hb. apply N.ltb_lt in Hc. lia.
Qed.

Definition patch_delta_chk (src delta : bytes) : option (res bytes) :=
  match leb_buf delta with
  | Err e => Some (Err e)
  | Ok (srcsz, d1) =>
    if negb (srcsz =? len src) then Some (Err EInvalid)
    else match leb_buf d1 with
         | Err e => Some (Err e)
         | Ok (tgtsz, d2) => pd_loop_chk (S (List.length d2)) src srcsz d2 tgtsz
         end
  end.

(* the header walked once, for both conclusions of [pd_loop_ok] *)
Lemma patch_delta_ok src d : bytes_ok d = true ->
  patch_delta_chk src d = Some (patch_delta src d) /\
  (forall out, patch_delta src d = Ok out -> len out <= 16777216 * len d).
Proof.
  intros Hok. unfold patch_delta_chk, patch_delta.
  destruct (leb_buf d) as [[s d1]|e] eqn:H1; [|split; [reflexivity|discriminate]].
  destruct (negb (s =? len src)) eqn:E; [split; [reflexivity|discriminate]|].
  apply negb_false_iff, N.eqb_eq in E. subst s.
  destruct (leb_buf_go_props d 0 0 _ d1 Hok H1) as (Hok1 & L1 & _).
  destruct (leb_buf d1) as [[t d2]|e] eqn:H2; [|split; [reflexivity|discriminate]].
  destruct (leb_buf_go_props d1 0 0 _ d2 Hok1 H2) as (Hok2 & L2 & _).
  destruct (pd_loop_ok src (S (List.length d2)) d2 t Hok2) as [Hc Hb]. split; [exact Hc|].
  intros out H. pose proof (pd_loop_len _ _ _ _ _ Hok2 H). specialize (Hb _ H). unfold len in *. lia.
Qed.

Theorem patch_delta_no_oob src d : bytes_ok d = true -> patch_delta_chk src d = Some (patch_delta src d).
Proof. intros Hok. apply patch_delta_ok, Hok. Qed.

Theorem patch_delta_alloc src d out :
  bytes_ok d = true -> patch_delta src d = Ok out ->
  target_size d = Some (len out) /\ len out <= 16777216 * len d.
Proof.
  intros Hok H. split; [exact (no_partial_success src d out Hok H)|exact (proj2 (patch_delta_ok src d Hok) out H)].
Qed.
