(* Proofs/C50.v — go-git's archive entry list against git archive's. *)
From Coq Require Import List NArith ZArith Bool Lia.
From GoGit Require Import Base.Out Gen.C50 Model.Archive Spec.GitArchive.
Import ListNotations.
Local Open Scope N_scope.

Scheme node_mut := Induction for node Sort Prop
with forest_mut := Induction for forest Sort Prop.

(* induction on forests with the hypothesis for the sub-tree of a directory node *)
Lemma forest_dir_ind (P : forest -> Prop) :
  P FNil ->
  (forall name n rest, (forall sub, n = NDir sub -> P sub) -> P rest -> P (FCons name n rest)) ->
  forall f, P f.
Proof.
  intros H0 HS.
  induction f using forest_mut with (P := fun n => forall sub, n = NDir sub -> P sub); try discriminate.
  - now intros s [= <-].
  - exact H0.
  - now apply HS.
Qed.

(* modes: the Go leaves of Gen/C50.v give git's numbers *)
Lemma tar_modes :
  archive_ApplyUmaskDir (perm filemode_Dir) = 509%Z /\
  archive_ApplyUmaskDir (perm filemode_Submodule) = 509%Z /\
  archive_ApplyUmask (perm filemode_Executable) true = 509%Z /\
  archive_ApplyUmask (perm filemode_Regular) false = 436%Z /\
  archive_ApplyUmaskDir 0 = 509%Z.
Proof. vm_compute. repeat split; reflexivity. Qed.

Lemma tar_entry_git prefix p n :
  tar_entry prefix (p, n) = git_entry git_tar_mode (prefix ++ p) n.
Proof.
  destruct tar_modes as (M1 & M2 & M3 & M4 & _).
  destruct n as [[|] d|t| |sub]; cbn [tar_entry git_entry git_tar_mode]; rewrite ?M1, ?M2, ?M3, ?M4; reflexivity.
Qed.

(* some file, link or gitlink at any depth *)
Fixpoint has_leaf (f : forest) : bool :=
  match f with
  | FNil => false
  | FCons _ n rest => (match n with NDir sub => has_leaf sub | _ => true end) || has_leaf rest
  end.
(* every sub-tree holds one (what git itself can produce from an index) *)
Fixpoint dirs_ok (f : forest) : bool :=
  match f with
  | FNil => true
  | FCons _ n rest => (match n with NDir sub => has_leaf sub && dirs_ok sub | _ => true end) && dirs_ok rest
  end.

Definition links_ok (f : forest) : bool := negb (existsb link_too_long (walk [] f)).
Definition prefix_ok (prefix : bytes) : bool :=
  negb (has_invalid_prefix prefix) && (negb (ends_with_slash prefix) || bytes_eq (prefix_dir prefix) prefix).

Lemma bytes_eq_eq a b : bytes_eq a b = true -> a = b.
Proof.
  revert b; induction a as [|x a IH]; intros [|y b]; cbn; try easy.
  intros H. apply andb_true_iff in H as [H1 H2]. apply N.eqb_eq in H1. f_equal; auto.
Qed.

Lemma bytes_eq_refl a : bytes_eq a a = true.
Proof. induction a as [|x a IH]; cbn; [reflexivity|]. now rewrite N.eqb_refl. Qed.

Lemma prefix_ok_valid prefix : prefix_ok prefix = true -> has_invalid_prefix prefix = false.
Proof. unfold prefix_ok. now intros [H%negb_true_iff _]%andb_true_iff. Qed.

(* the entry for the prefix directory, as go-git and as git write it *)
Lemma prefix_dir_entry prefix : prefix_ok prefix = true ->
  (if negb (match prefix with [] => true | _ => false end) && ends_with_slash prefix
   then [ADir prefix (archive_ApplyUmaskDir 0)] else [])
  = (if ends_with_slash prefix then [ADir (prefix_dir prefix) 509%Z] else []).
Proof.
  unfold prefix_ok. intros [_ Hp]%andb_true_iff. destruct prefix as [|c r]; [reflexivity|].
  cbn [negb andb]. destruct (ends_with_slash (c :: r)); [|reflexivity].
  apply bytes_eq_eq in Hp. rewrite Hp. now rewrite (proj2 (proj2 (proj2 (proj2 tar_modes)))).
Qed.

Lemma has_leaf_walk f : forall base, has_leaf f = true -> walk base f <> [].
Proof. intros base H. destruct f; [discriminate|]. cbn [walk]. discriminate. Qed.

(* no filters: eager = lazy on trees without empty sub-trees *)
Lemma walk_lazy prefix base f :
  dirs_ok f = true ->
  map (tar_entry prefix) (walk base f) = git_walk git_tar_mode prefix [] base f.
Proof.
  revert base. induction f as [|name n rest IHn IH] using forest_dir_ind; intros base H; [reflexivity|].
  cbn [dirs_ok] in H. apply andb_true_iff in H as [Hn Hrest].
  cbn [walk git_walk]. rewrite map_cons, map_app, (IH base Hrest), tar_entry_git.
  destruct n as [e d|t| |sub]; cbn [git_sel app map]; try reflexivity.
  apply andb_true_iff in Hn as [Hl Hd].
  rewrite <- (IHn sub eq_refl (join base name) Hd).
  pose proof (has_leaf_walk sub (join base name) Hl) as NE.
  destruct (walk (join base name) sub); [easy|]. reflexivity.
Qed.

Lemma tar_nofilter_eq commit prefix f :
  dirs_ok f = true -> links_ok f = true -> prefix_ok prefix = true ->
  tar_entries commit prefix [] f = git_archive_entries false commit prefix [] f.
Proof.
  intros Hd Hl Hp. unfold tar_entries, git_archive_entries, selected.
  unfold links_ok in Hl. apply negb_true_iff in Hl. rewrite Hl.
  cbn [existsb forallb negb]. rewrite (walk_lazy prefix [] f Hd).
  rewrite (prefix_dir_entry prefix Hp). now destruct (walk [] f).
Qed.

(* the whole request, tree-ish resolution included *)
Lemma archive_tar_eq t commit prefix f :
  match t with TSub (_ :: _) => false | _ => true end = true ->
  dirs_ok f = true -> links_ok f = true -> prefix_ok prefix = true ->
  archive t FTar commit prefix [] f = git_archive t FTar commit prefix [] f.
Proof.
  intros Ht Hd Hl Hp. unfold archive, git_archive.
  rewrite (prefix_ok_valid prefix Hp).
  destruct t as [| |[|c path]]; try discriminate Ht; now rewrite tar_nofilter_eq.
Qed.

Definition no_empty_part (path : bytes) : bool :=
  negb (existsb (fun p => match p with [] => true | _ => false end) (split_slash path [])).

Lemma archive_tar_eq_sub path commit prefix f sub :
  path <> [] -> no_empty_part path = true ->
  find_dir f (split_slash path []) = inr sub ->
  dirs_ok sub = true -> links_ok sub = true -> prefix_ok prefix = true ->
  archive (TSub path) FTar commit prefix [] f = git_archive (TSub path) FTar commit prefix [] f.
Proof.
  intros Hne Hparts Hfind Hd Hl Hp. unfold archive, git_archive.
  rewrite (prefix_ok_valid prefix Hp).
  destruct path as [|c path]; [easy|].
  unfold no_empty_part in Hparts. apply negb_true_iff in Hparts. rewrite Hparts, Hfind.
  now rewrite tar_nofilter_eq.
Qed.

(* what a zip reader extracts as file contents: names and bytes (a link's
   target is its content), plus the commit-id comment *)
Definition payload (e : aent) : list (option bytes * bytes) :=
  match e with
  | APax id => [(None, id)]
  | ADir _ _ => []
  | ALink n _ t => [(Some n, t)]
  | AFile n _ d => [(Some n, d)]
  end.

Lemma zip_payload prefix base f :
  flat_map payload (flat_map (zip_entry prefix) (walk base f)) =
  flat_map payload (git_walk git_zip_mode prefix [] base f).
Proof.
  revert base. induction f as [|name n rest IHn IH] using forest_dir_ind; intros base; [reflexivity|].
  cbn [walk git_walk flat_map]. rewrite !flat_map_app, (IH base).
  destruct n as [[|] d|t| |sub]; cbn [zip_entry git_sel git_entry flat_map payload app]; try reflexivity.
  rewrite (IHn sub eq_refl (join base name)).
  destruct (git_walk git_zip_mode prefix [] (join base name) sub); reflexivity.
Qed.

Lemma zip_nofilter_payload commit prefix f :
  match zip_entries commit prefix [] f, git_archive_entries true commit prefix [] f with
  | inr a, inr b => flat_map payload a = flat_map payload b
  | _, _ => False
  end.
Proof.
  unfold zip_entries, git_archive_entries, selected. cbn [existsb forallb negb].
  rewrite !flat_map_app, zip_payload. destruct (ends_with_slash prefix); reflexivity.
Qed.

Lemma has_prefix_app s a b : has_prefix s (a ++ b) = true -> has_prefix s a = true.
Proof.
  revert s; induction a as [|x a IH]; intros s H; [destruct s; reflexivity|].
  destruct s as [|y s]; cbn [app has_prefix] in *; [discriminate|].
  apply andb_true_iff in H as [H1 H2]. rewrite H1. cbn [andb]. now apply IH.
Qed.

Lemma has_prefix_self a b : has_prefix (a ++ b) a = true.
Proof. induction a as [|x a IH]; cbn [app has_prefix]; [destruct b; reflexivity|]. now rewrite N.eqb_refl. Qed.

Lemma has_prefix_inv s p : has_prefix s p = true -> exists r, s = p ++ r.
Proof.
  revert s; induction p as [|y p IH]; intros s H; [exists s; reflexivity|].
  destruct s as [|x s]; cbn [has_prefix] in H; [discriminate|].
  apply andb_true_iff in H as [H1 H2]. apply N.eqb_eq in H1. subst. destruct (IH s H2) as [r ->]. now exists r.
Qed.

Definition under (p q : bytes) : bool := has_prefix q (p ++ [SLASH]).

Lemma under_trans a b c : under a b = true -> under b c = true -> under a c = true.
Proof.
  unfold under. intros H1 H2. apply has_prefix_inv in H1 as [r1 ->]. apply has_prefix_inv in H2 as [r2 ->].
  rewrite <- !app_assoc. rewrite (app_assoc a [SLASH]). apply has_prefix_self.
Qed.

(* two "directory prefixes" of the same path are comparable *)
Lemma under_comparable q : forall a b,
  under a q = true -> under b q = true -> a = b \/ under a b = true \/ under b a = true.
Proof.
  unfold under. induction q as [|x q IH]; intros a b Ha Hb.
  - destruct a; discriminate.
  - destruct a as [|y a], b as [|z b]; cbn [app has_prefix] in *.
    + now left.
    + right. left. apply andb_true_iff in Ha as [A _]. apply andb_true_iff in Hb as [B _].
      apply N.eqb_eq in A, B. subst. rewrite N.eqb_refl. destruct b; reflexivity.
    + right. right. apply andb_true_iff in Ha as [A _]. apply andb_true_iff in Hb as [B _].
      apply N.eqb_eq in A, B. subst. rewrite N.eqb_refl. destruct a; reflexivity.
    + apply andb_true_iff in Ha as [A1 A2]. apply andb_true_iff in Hb as [B1 B2].
      apply N.eqb_eq in A1, B1. subst. rewrite N.eqb_refl. cbn [andb].
      destruct (IH a b A2 B2) as [->|[H|H]]; auto.
Qed.

(* a filter selects a path when it is the path, lies above it, or lies below it *)
Lemma matches_iff p fs :
  matches p fs = true <-> exists flt, In flt fs /\ (p = flt \/ under flt p = true \/ under p flt = true).
Proof.
  unfold matches, matches1, under. rewrite existsb_exists.
  split; intros (flt & Hin & H); exists flt; (split; [exact Hin|]); rewrite !orb_true_iff in *.
  - destruct H as [[H|H]|H]; auto using bytes_eq_eq.
  - destruct H as [->|[H|H]]; auto using bytes_eq_refl.
Qed.

Definition paths (base : bytes) (f : forest) : list bytes := map fst (walk base f).
Definition is_nil {A} (b : list A) : bool := match b with [] => true | _ => false end.

Fixpoint names_ok (f : forest) : bool :=
  match f with
  | FNil => true
  | FCons name n rest => negb (is_nil name) && (match n with NDir sub => names_ok sub | _ => true end) && names_ok rest
  end.

(* every filter lying below a directory names something inside it; none lies below a file *)
Fixpoint fits (fs : list bytes) (base : bytes) (f : forest) : bool :=
  match f with
  | FNil => true
  | FCons name n rest =>
    let p := join base name in
    (match n with
     | NDir sub => forallb (fun flt => negb (under p flt) || existsb (bytes_eq flt) (paths p sub)) fs && fits fs p sub
     | _ => forallb (fun flt => negb (under p flt)) fs
     end) && fits fs base rest
  end.

Lemma join_nonempty base name : negb (is_nil name) = true -> join base name <> [].
Proof. unfold join. destruct base; [now destruct name|discriminate]. Qed.

Lemma join_under base name : base <> [] -> under base (join base name) = true.
Proof.
  intros H. unfold under, join. destruct base as [|c b]; [easy|].
  replace ((c :: b) ++ SLASH :: name) with (((c :: b) ++ [SLASH]) ++ name) by now rewrite <- app_assoc.
  apply has_prefix_self.
Qed.

Lemma walk_under f : forall base q, base <> [] -> names_ok f = true -> In q (paths base f) -> under base q = true.
Proof.
  induction f as [|name n rest IHn IH] using forest_dir_ind; intros base q Hb Hn Hq; [destruct Hq|].
  cbn [names_ok] in Hn. apply andb_true_iff in Hn as [Hn Hrest]. apply andb_true_iff in Hn as [Hname Hsub].
  unfold paths in Hq. cbn [walk map] in Hq. rewrite map_app in Hq. destruct Hq as [<-|Hq].
  - now apply join_under.
  - apply in_app_or in Hq as [Hq|Hq].
    + destruct n as [e d|t| |sub]; try (destruct Hq).
      pose proof (join_nonempty base name Hname) as Hp.
      apply (under_trans base (join base name)); [now apply join_under|]. now apply (IHn sub eq_refl (join base name) q Hp Hsub).
    + now apply (IH base q Hb Hrest).
Qed.

Lemma walk_in_under sub p q n : p <> [] -> names_ok sub = true -> In (q, n) (walk p sub) -> under p q = true.
Proof. intros Hp Hn Hq. apply (walk_under sub p q Hp Hn). unfold paths. now apply (in_map fst) in Hq. Qed.

Lemma named_in_walk flt base f : existsb (bytes_eq flt) (paths base f) = true -> exists n, In (flt, n) (walk base f).
Proof.
  intros H. apply existsb_exists in H as (q & Hq & Hb). apply bytes_eq_eq in Hb. subst q.
  unfold paths in Hq. apply in_map_iff in Hq as ([q n] & E & Hq). cbn [fst] in E. subst q. now exists n.
Qed.

Lemma is_nil_false {A} (l : list A) : is_nil l = false <-> l <> [].
Proof. now destruct l. Qed.

Lemma filter_all {A} (p : A -> bool) l : (forall x, In x l -> p x = true) -> filter p l = l.
Proof.
  induction l as [|x l IH]; intros H; [reflexivity|]. cbn [filter]. rewrite (H x (or_introl eq_refl)).
  f_equal. apply IH. intros y Hy. apply H. now right.
Qed.

Lemma existsb_filter_false {A} (p q : A -> bool) l : existsb p l = false -> existsb p (filter q l) = false.
Proof.
  induction l as [|x l IH]; [easy|]. cbn [existsb filter]. intros [Hx Hl]%orb_false_iff.
  destruct (q x); cbn [existsb]; rewrite ?Hx; auto.
Qed.

Lemma filter_nonempty {A} (p : A -> bool) l x : In x l -> p x = true -> filter p l <> [].
Proof.
  intros Hi Hp E. assert (In x (filter p l)) by (apply filter_In; auto). rewrite E in H. destruct H.
Qed.

Lemma filter_empty_none {A} (p : A -> bool) l : filter p l <> [] -> exists x, In x l /\ p x = true.
Proof.
  destruct (filter p l) as [|x r] eqn:E; [easy|]. intros _. exists x. apply filter_In. rewrite E. now left.
Qed.

(* the directory p is selected by go-git exactly when something below it is *)
Lemma dir_selected fs p sub :
  p <> [] -> names_ok sub = true -> has_leaf sub = true ->
  forallb (fun flt => negb (under p flt) || existsb (bytes_eq flt) (paths p sub)) fs = true ->
  matches p fs = negb (is_nil (filter (fun pn => matches (fst pn) fs) (walk p sub))).
Proof.
  intros Hp Hn Hl Hfit. apply eq_true_iff_eq. rewrite negb_true_iff, is_nil_false. split.
  - intros H. apply matches_iff in H as (flt & Hin & H). apply or_assoc in H. destruct H as [Hab|Hm].
    + (* the filter is p or lies above it: it selects the whole sub-tree *)
      rewrite filter_all; [now apply has_leaf_walk|].
      intros [q n] Hq. apply (walk_in_under sub p q n Hp Hn) in Hq.
      apply matches_iff. exists flt. split; [exact Hin|]. right. left.
      destruct Hab as [<-|Hm]; [exact Hq|exact (under_trans flt p q Hm Hq)].
    + (* the filter lies below p: it names an entry of the sub-tree *)
      rewrite forallb_forall in Hfit. specialize (Hfit flt Hin). rewrite Hm in Hfit.
      destruct (named_in_walk flt p sub Hfit) as [n Hq].
      apply (filter_nonempty _ _ (flt, n) Hq). apply matches_iff. exists flt. auto.
  - intros H. apply filter_empty_none in H as ([q n] & Hq & Hm). cbn [fst] in Hm.
    pose proof (walk_in_under sub p q n Hp Hn Hq) as U.
    apply matches_iff in Hm as (flt & Hin & Hm). apply matches_iff. exists flt. split; [exact Hin|].
    destruct Hm as [<-|[Hm|Hm]].
    + auto.
    + destruct (under_comparable q p flt U Hm) as [->|[H1|H2]]; auto.
    + right. right. exact (under_trans p q flt U Hm).
Qed.

Lemma strip_slash_noop flt : ends_with_slash flt = false -> strip_slash flt = flt.
Proof.
  unfold ends_with_slash, strip_slash. destruct (rev flt) as [|c r]; [easy|]. now intros ->.
Qed.

(* a filter without trailing slash and not lying strictly below the file p
   selects p for go-git exactly when it does for git *)
Lemma match_file_agree n p fs :
  match n with NDir _ => false | _ => true end = true -> fs <> [] ->
  forallb (fun f => negb (ends_with_slash f)) fs = true -> forallb (fun f => negb (under p f)) fs = true ->
  git_sel n fs p = matches p fs.
Proof.
  intros Hn Hne H1 H2. symmetry. unfold matches, git_sel. destruct fs as [|f0 fs0]; [easy|]. clear Hne.
  induction (f0 :: fs0) as [|f fs IH]; [reflexivity|].
  cbn [forallb] in H1, H2. apply andb_true_iff in H1 as [A1 B1]. apply andb_true_iff in H2 as [A2 B2].
  apply negb_true_iff in A1, A2. cbn [existsb]. rewrite (IH B1 B2). f_equal.
  unfold matches1, git_match_entry, git_match_file, git_match_dir. unfold under in A2.
  destruct n; try discriminate Hn; now rewrite A2, orb_false_r, (strip_slash_noop _ A1).
Qed.

Lemma filtered_lazy prefix fs f : forall base,
  fs <> [] -> forallb (fun flt => negb (ends_with_slash flt)) fs = true ->
  names_ok f = true -> dirs_ok f = true -> fits fs base f = true ->
  map (tar_entry prefix) (filter (fun pn => matches (fst pn) fs) (walk base f)) = git_walk git_tar_mode prefix fs base f.
Proof.
  induction f as [|name n rest IHn IH] using forest_dir_ind; intros base Hfs Hsl Hn Hd Hfit; [reflexivity|].
  cbn [names_ok] in Hn. apply andb_true_iff in Hn as [Hn Hnrest]. apply andb_true_iff in Hn as [Hname Hnsub].
  cbn [dirs_ok] in Hd. apply andb_true_iff in Hd as [Hdn Hdrest].
  cbn [fits] in Hfit. apply andb_true_iff in Hfit as [Hfn Hfrest].
  pose proof (join_nonempty base name Hname) as Hp.
  cbn [walk git_walk]. cbn [filter fst]. rewrite filter_app.
  rewrite <- (IH base Hfs Hsl Hnrest Hdrest Hfrest).
  (* files, links and gitlinks by match_file_agree; a directory is written by git when
     something below it is, and selected by go-git in the same case (dir_selected) *)
  destruct n as [e d|t| |sub].
  1-3: rewrite (match_file_agree _ _ fs) by (reflexivity || assumption); cbn [filter app];
    destruct (matches (join base name) fs); cbn [map app]; [now rewrite tar_entry_git|reflexivity].
  apply andb_true_iff in Hdn as [Hleaf Hdsub]. apply andb_true_iff in Hfn as [Hfdir Hfsub].
  rewrite <- (IHn sub eq_refl (join base name) Hfs Hsl Hnsub Hdsub Hfsub).
  rewrite (dir_selected fs (join base name) sub Hp Hnsub Hleaf Hfdir).
  destruct (filter (fun pn => matches (fst pn) fs) (walk (join base name) sub)); [reflexivity|].
  cbn [is_nil negb]. now rewrite map_cons, map_app, tar_entry_git.
Qed.

Definition filters_ok (fs : list bytes) (f : forest) : bool :=
  negb (is_nil fs) && forallb (fun flt => negb (is_nil flt) && negb (ends_with_slash flt)) fs &&
  forallb (fun flt => existsb (bytes_eq flt) (paths [] f)) fs && fits fs [] f.

Lemma tar_filtered_eq commit prefix fs f :
  names_ok f = true -> dirs_ok f = true -> links_ok f = true -> prefix_ok prefix = true -> filters_ok fs f = true ->
  tar_entries commit prefix fs f = git_archive_entries false commit prefix fs f.
Proof.
  intros Hn Hd Hl Hp Hf. unfold filters_ok in Hf.
  apply andb_true_iff in Hf as [[[Hne Hshape]%andb_true_iff Hex]%andb_true_iff Hfit].
  rewrite forallb_forall in Hshape, Hex.
  assert (Hfs : fs <> []) by now destruct fs.
  assert (Hsl : forallb (fun flt => negb (ends_with_slash flt)) fs = true)
    by (apply forallb_forall; intros x Hx; now destruct (andb_prop _ _ (Hshape x Hx))).
  assert (named : forall flt, In flt fs -> exists n, In (flt, n) (walk [] f))
    by (intros flt Hin; now apply named_in_walk, Hex).
  unfold tar_entries, git_archive_entries, selected.
  destruct fs as [|f0 fs0]; [easy|]. set (fs := f0 :: fs0) in *.
  unfold links_ok in Hl. apply negb_true_iff in Hl. rewrite (existsb_filter_false _ _ _ Hl).
  (* every filter names an entry: something is selected, and git's path_exists holds *)
  assert (SEL : filter (fun pn => matches (fst pn) fs) (walk [] f) <> []).
  { destruct (named f0 (or_introl eq_refl)) as [n Hq].
    apply (filter_nonempty _ _ (f0, n) Hq). apply matches_iff. exists f0. split; [now left|auto]. }
  assert (EMP : existsb (fun flt => match flt with [] => true | _ => false end) fs = false).
  { apply not_true_is_false. intros (x & Hx & Ex)%existsb_exists.
    destruct (andb_prop _ _ (Hshape x Hx)) as [A _]. now destruct x. }
  rewrite EMP.
  assert (PE : forallb (git_path_exists f) fs = true).
  { apply forallb_forall. intros flt Hin. destruct (named flt Hin) as [n Hq].
    destruct (andb_prop _ _ (Hshape flt Hin)) as [_ Hs%negb_true_iff].
    unfold git_path_exists. apply existsb_exists. exists (flt, n). split; [exact Hq|]. cbn [fst snd].
    destruct n; unfold git_match_entry, git_match_file, git_match_dir; rewrite ?(strip_slash_noop _ Hs), bytes_eq_refl; reflexivity. }
  rewrite PE. cbn [negb].
  rewrite <- (filtered_lazy prefix fs f [] Hfs Hsl Hn Hd Hfit).
  rewrite (prefix_dir_entry prefix Hp).
  now destruct (filter (fun pn => matches (fst pn) fs) (walk [] f)).
Qed.
