(* Proofs/C49Slash.v — patterns with a slash: the sequential parse of the whole
   pattern (git's view) agrees with the parse of its segments (go-git's view);
   match_pathname with its literal-prefix shortcut decides the path glob. *)
From Coq Require Import List NArith Bool Lia PeanoNat.
From GoGit Require Import Base.Out Model.Gitignore Spec.Glob Spec.PathGlob Spec.GitIgnore
     Proofs.C49Total Proofs.C49Wild Proofs.C49Path Proofs.C49Names Proofs.C49Walk Proofs.C49Segs
     Proofs.C49GoGlob Proofs.C49Lines Proofs.C49Trim Proofs.C49Sets.
Import ListNotations.
Local Open Scope N_scope.

Lemma has_slash_cons c r : has_slash (c :: r) = false -> (c =? 47) = false /\ has_slash r = false.
Proof. cbn. unfold cSLASH. intros H. apply orb_false_iff in H. exact H. Qed.

Lemma has_slash_app a b : has_slash (a ++ b) = has_slash a || has_slash b.
Proof. induction a as [|y a IHa]; cbn; [reflexivity|]. now rewrite IHa, orb_assoc. Qed.

Lemma pparse_fuel : forall f f' b p g, pparse f b p = Some g ->
  (List.length p < f')%nat -> pparse f' b p = Some g.
Proof.
  induction f as [|f IH]; intros f' b p g Hp Hl; [discriminate|].
  destruct f' as [|f'0]; [lia|].
  destruct p as [|c r]; [exact Hp|].
  cbn [pparse] in Hp |- *. cbn in Hl.
  assert (Hnext : forall it b' r', ocons it (pparse f b' r') = Some g -> (List.length r' < f'0)%nat ->
            ocons it (pparse f'0 b' r') = Some g).
  { intros it b' r' H Hr. apply ocons_some in H. destruct H as (g' & H & ->).
    now rewrite (IH f'0 b' r' g' H Hr). }
  destruct (c =? 92).
  { destruct r as [|e r']; [discriminate|]. destruct (e =? 47); [discriminate|].
    apply Hnext; [exact Hp|cbn in Hl; lia]. }
  destruct (c =? 63); [apply Hnext; [exact Hp|lia]|].
  destruct (c =? 42).
  { destruct r as [|d r2]; [exact Hp|].
    destruct (d =? 42); [|apply Hnext; [exact Hp|lia]].
    destruct b; [|discriminate]. destruct r2 as [|s r3]; [discriminate|].
    destruct (s =? 47); [|discriminate]. apply Hnext; [exact Hp|cbn in Hl; lia]. }
  destruct (c =? 91).
  { destruct (parse_set r) as [[it rest]|] eqn:Hps; [|discriminate].
    destruct (parse_set_suffix _ _ _ Hps) as (pre & Epre & Hne).
    apply Hnext; [exact Hp|]. rewrite Epre, app_length in Hl. destruct pre; [congruence|cbn in Hl; lia]. }
  destruct (c =? 47); apply Hnext; (exact Hp || lia).
Qed.

(* the segment-start flag only gates "**" *)
Lemma pparse_bos f p g : pparse f false p = Some g -> pparse f true p = Some g.
Proof.
  destruct f as [|f]; [discriminate|]. destruct p as [|c r]; [tauto|]. cbn [pparse].
  destruct (c =? 92); [tauto|]. destruct (c =? 63); [tauto|].
  destruct (c =? 42); [|tauto].
  destruct r as [|d r2]; [tauto|]. destruct (d =? 42); [discriminate|tauto].
Qed.

Lemma pparse_nil f b g : pparse f b [] = Some g -> g = [].
Proof. destruct f; [discriminate|]. cbn. intros H; inversion H; reflexivity. Qed.

Lemma pparse_seg : forall fs s g, parse_glob fs s = Some g -> has_slash s = false ->
  forall f bos tail gp, (bos = true -> beq s dstar = false) ->
    (tail = [] \/ exists r, tail = 47 :: r) ->
    pparse f bos (s ++ tail) = Some gp ->
    exists f' gr, pparse f' (if is_nil s then bos else false) tail = Some gr /\ gp = map PIt g ++ gr.
Proof.
  induction fs as [|fs IH]; intros s g Hg Hs f bos tail gp Hds Htail Hp; [discriminate|].
  destruct s as [|c r].
  { cbn in Hg. inversion Hg; subst. exists f, gp. split; [exact Hp|reflexivity]. }
  destruct f as [|f0]; [discriminate|].
  apply has_slash_cons in Hs. destruct Hs as [Hc47 Hs].
  cbn [app pparse] in Hp. cbn [parse_glob] in Hg. cbn [is_nil].
  (* one item [it] read by both parsers, the rest r' of the segment follows *)
  assert (Hnext : forall it r' g', parse_glob fs r' = Some g' -> has_slash r' = false ->
            ocons (PIt it) (pparse f0 false (r' ++ tail)) = Some gp ->
            exists f' gr, pparse f' false tail = Some gr /\ gp = map PIt (it :: g') ++ gr).
  { intros it r' g' Hg' Hs' Hp'. apply ocons_some in Hp'. destruct Hp' as (gp' & Hp' & ->).
    destruct (IH r' g' Hg' Hs' f0 false tail gp' ltac:(discriminate) Htail Hp') as (f' & gr & Hr & ->).
    exists f', gr. split; [destruct (is_nil r'); exact Hr|reflexivity]. }
  destruct (c =? 92).
  { destruct r as [|e r']; [discriminate|]. cbn [app] in Hp.
    apply has_slash_cons in Hs. destruct Hs as [He47 Hs].
    rewrite He47 in Hp.
    destruct (parse_glob fs r') as [g'|] eqn:Hg'; [|discriminate]. inversion Hg; subst.
    now apply (Hnext _ r' g'). }
  destruct (c =? 63).
  { destruct (parse_glob fs r) as [g'|] eqn:Hg'; [|discriminate]. inversion Hg; subst.
    now apply (Hnext _ r g'). }
  destruct (c =? 42) eqn:E42.
  { apply N.eqb_eq in E42. subst c.
    destruct (parse_glob fs r) as [g'|] eqn:Hg'; [|discriminate]. inversion Hg; subst.
    destruct r as [|d r2].
    - (* the star ends the segment *)
      destruct fs; [discriminate|]. cbn in Hg'. inversion Hg'; subst. cbn [app] in Hp.
      destruct Htail as [->|(rt & ->)].
      + inversion Hp; subst. exists 1%nat, []. split; reflexivity.
      + change (47 =? 42) with false in Hp. cbn iota in Hp.
        apply ocons_some in Hp. destruct Hp as (gp' & Hp & ->).
        exists f0, gp'. split; [exact Hp|reflexivity].
    - cbn [app] in Hp. destruct (d =? 42) eqn:Ed.
      + (* two stars inside a plain segment: not parsed *)
        exfalso. apply N.eqb_eq in Ed. subst d.
        destruct bos; [|discriminate].
        apply has_slash_cons in Hs. destruct Hs as [_ Hs].
        destruct r2 as [|s3 r3].
        * specialize (Hds eq_refl). discriminate.
        * cbn [app] in Hp. apply has_slash_cons in Hs. destruct Hs as [Hs3 _].
          rewrite Hs3 in Hp. discriminate.
      + now apply (Hnext _ (d :: r2) g'). }
  destruct (c =? 91).
  { (* a bracket expression lies inside the segment *)
    destruct (parse_set r) as [[it rest_s]|] eqn:Hps; [|discriminate].
    destruct (parse_glob fs rest_s) as [g'|] eqn:Hg'; [|discriminate]. inversion Hg; subst.
    rewrite (parse_set_app _ _ _ tail Hps) in Hp.
    destruct (parse_set_suffix _ _ _ Hps) as (pre & Epre & _).
    apply (Hnext _ rest_s g'); [exact Hg'| |exact Hp].
    rewrite Epre, has_slash_app in Hs. apply orb_false_iff in Hs. tauto. }
  rewrite Hc47 in Hp.
  destruct (parse_glob fs r) as [g'|] eqn:Hg'; [|discriminate]. inversion Hg; subst.
  now apply (Hnext _ r g').
Qed.

Lemma pparse_join : forall segs F, Forall2 seg_den segs F -> segs <> [] ->
  (forall s, In s segs -> has_slash s = false) ->
  forall f gp, pparse f true (join_slash segs) = Some gp -> gp = flatten F /\ wfF F = true.
Proof.
  induction 1 as [|s x segs' F' Hden HF IH]; intros Hne Hall f gp Hp; [congruence|].
  pose proof (Hall s (or_introl eq_refl)) as Hs.
  assert (Hall' : forall s0, In s0 segs' -> has_slash s0 = false)
    by (intros s0 H0; apply Hall; now right).
  destruct Hden as [[-> ->]|(g & -> & Hg & Hnil & Hds)].
  - (* "**" *)
    destruct segs' as [|s2 segs''].
    + exfalso. cbn in Hp. destruct f; [discriminate|]. cbn in Hp. discriminate.
    + rewrite join_cons in Hp by discriminate.
      destruct f as [|f0]; [discriminate|].
      change (dstar ++ 47 :: join_slash (s2 :: segs'')) with (42 :: 42 :: 47 :: join_slash (s2 :: segs'')) in Hp.
      cbn [pparse] in Hp.
      change (42 =? 92) with false in Hp. change (42 =? 63) with false in Hp.
      change (42 =? 42) with true in Hp. change (47 =? 47) with true in Hp. cbn iota in Hp.
      apply ocons_some in Hp. destruct Hp as (gp' & Hp & ->).
      destruct (IH ltac:(discriminate) Hall' f0 gp' Hp) as [-> Hwf].
      split; [reflexivity|]. rewrite wfF_cons_ne; [exact Hwf|].
      inversion HF; discriminate.
  - destruct segs' as [|s2 segs''].
    + inversion HF; subst. cbn [join_slash] in Hp. rewrite <- (app_nil_r s) in Hp.
      destruct (pparse_seg _ s g Hg Hs f true [] gp (fun _ => Hds) (or_introl eq_refl) Hp)
        as (f' & gr & Hr & ->).
      apply pparse_nil in Hr. subst gr. split; [cbn [flatten]; reflexivity|reflexivity].
    + rewrite join_cons in Hp by discriminate.
      destruct (pparse_seg _ s g Hg Hs f true _ gp (fun _ => Hds)
                  (or_intror (ex_intro _ _ eq_refl)) Hp) as (f' & gr & Hr & ->).
      rewrite Hnil in Hr. destruct f' as [|f'0]; [discriminate|]. rewrite pparse_slash in Hr.
      apply ocons_some in Hr. destruct Hr as (gp' & Hr & ->).
      destruct (IH ltac:(discriminate) Hall' f'0 gp' Hr) as [-> Hwf].
      assert (HF'ne : F' <> []) by (inversion HF; discriminate).
      split; [|rewrite wfF_cons_ne; assumption].
      destruct F' as [|y F'']; [congruence|]. reflexivity.
Qed.

Lemma has_slash_rev cur : has_slash (rev cur) = has_slash cur.
Proof.
  induction cur as [|x cur IH]; [reflexivity|]. cbn [rev]. rewrite has_slash_app, IH. cbn.
  now rewrite orb_false_r, orb_comm.
Qed.

(* strings.Split and the joined segments *)
Lemma split_slash_join : forall p cur,
  join_slash (split_slash p cur) = rev cur ++ p /\
  (has_slash cur = false -> forall s, In s (split_slash p cur) -> has_slash s = false) /\
  split_slash p cur <> [].
Proof.
  induction p as [|c r IH]; intros cur; cbn [split_slash].
  - split; [cbn; now rewrite app_nil_r|]. split; [|discriminate].
    intros Hc s [<-|[]]. now rewrite has_slash_rev.
  - unfold cSLASH. destruct (c =? 47) eqn:Ec.
    + apply N.eqb_eq in Ec. subst c.
      destruct (IH []) as (Hj & Hs & Hne). split; [|split; [|discriminate]].
      * rewrite join_cons by assumption. rewrite Hj. reflexivity.
      * intros Hc s [<-|Hin]; [now rewrite has_slash_rev|now apply Hs].
    + destruct (IH (c :: cur)) as (Hj & Hs & Hne). split; [|split; [|exact Hne]].
      * rewrite Hj. cbn [rev]. now rewrite <- app_assoc.
      * intros Hc. apply Hs. cbn. unfold cSLASH. now rewrite Ec.
Qed.

(* match_pathname compares the wildcard-free prefix of the pattern byte by byte
   and hands the rest to wildmatch; lit_item: the path item a byte of that
   prefix denotes, bos_after: whether a segment begins after the prefix L *)
Definition lit_item (c : N) : pitem := if c =? 47 then PSep else PIt (ILit c).

Definition bos_after (bos : bool) (L : bytes) : bool := fold_left (fun _ c => c =? 47) L bos.

Lemma simple_prefix : forall p c, In c (firstn (simple_length p) p) -> is_glob_special c = false.
Proof.
  induction p as [|x r IH]; intros c H; cbn [simple_length] in H; [destruct H|].
  destruct (is_glob_special x) eqn:E; [destruct H|].
  destruct H as [<-|H]; [exact E|now apply IH].
Qed.

Lemma pparse_lit f bos c rest : is_glob_special c = false ->
  pparse (S f) bos (c :: rest) = ocons (lit_item c) (pparse f (c =? 47) rest).
Proof.
  unfold is_glob_special, cSTAR, cQM, cLB, cBSL. rewrite !orb_false_iff. intros [[[C1 C2] C3] C4].
  cbn [pparse]. rewrite C4, C2, C1, C3. unfold lit_item. now destruct (c =? 47).
Qed.

Lemma pparse_lits : forall L f bos P' gp, (forall c, In c L -> is_glob_special c = false) ->
  pparse f bos (L ++ P') = Some gp ->
  exists f' gr, pparse f' (bos_after bos L) P' = Some gr /\ gp = map lit_item L ++ gr.
Proof.
  induction L as [|c L IH]; intros f bos P' gp HL Hp.
  - exists f, gp. split; [exact Hp|reflexivity].
  - destruct f as [|f0]; [discriminate|]. cbn [app] in Hp.
    rewrite pparse_lit in Hp by (apply HL; now left).
    apply ocons_some in Hp. destruct Hp as (gp' & Hp & ->).
    destruct (IH f0 _ P' gp' (fun x Hx => HL x (or_intror Hx)) Hp) as (f' & gr & Hr & ->).
    exists f', gr. split; [exact Hr|reflexivity].
Qed.

Lemma PM_lit_iff c g t : PMatch (lit_item c :: g) t <-> exists t', t = c :: t' /\ PMatch g t'.
Proof.
  unfold lit_item. destruct (c =? 47) eqn:E.
  - apply N.eqb_eq in E. subst. split; [apply PM_sep_inv|intros (t' & -> & H); now constructor].
  - split.
    + intros H. apply PM_item_inv in H; [|reflexivity].
      destruct H as (x & t' & -> & Hok & _ & H). cbn in Hok. apply N.eqb_eq in Hok. subst. eauto.
    + intros (t' & -> & H). constructor; [reflexivity|cbn; apply N.eqb_refl|now apply N.eqb_neq|exact H].
Qed.

Lemma PM_lits : forall L gr name,
  PMatch (map lit_item L ++ gr) name <->
  (List.length L <= List.length name)%nat /\ firstn (List.length L) name = L /\
  PMatch gr (skipn (List.length L) name).
Proof.
  induction L as [|c L IH]; intros gr name; cbn [map app List.length firstn skipn].
  - split; [intros H; repeat split; [lia|exact H]|tauto].
  - rewrite PM_lit_iff. split.
    + intros (t' & -> & H). apply IH in H. destruct H as (H1 & H2 & H3).
      cbn [List.length firstn skipn]. repeat split; [lia|now rewrite H2|exact H3].
    + intros (H1 & H2 & H3). destruct name as [|x t']; [cbn in H1; lia|].
      cbn [firstn] in H2. injection H2 as -> H2'. exists t'. split; [reflexivity|].
      apply IH. cbn [List.length] in H1. repeat split; [lia|assumption|exact H3].
Qed.

(* the body of match_pathname after the base directory was stripped *)
Definition mp_core (pattern name : bytes) : bool :=
  let prefix := simple_length pattern in
  if Nat.eqb prefix 0 then gwildmatch 2 pattern name
  else if Nat.ltb (List.length name) prefix then false
  else if negb (beq (firstn prefix pattern) (firstn prefix name)) then false
  else
    let pattern' := skipn prefix pattern in
    let name' := skipn prefix name in
    if is_nil pattern' && is_nil name' then true
    else gwildmatch 2 pattern' name'.

Lemma mp_core_spec pattern name gp : pglob_of pattern = Some gp ->
  (mp_core pattern name = true <-> PMatch gp name).
Proof.
  intros Hp. unfold mp_core.
  set (n := simple_length pattern).
  destruct (Nat.eqb n 0) eqn:E0; [now apply gwildmatch_path_sound_complete|].
  set (L := firstn n pattern). set (P' := skipn n pattern).
  assert (Epat : pattern = L ++ P') by (symmetry; apply firstn_skipn).
  assert (HL : forall c, In c L -> is_glob_special c = false) by (apply simple_prefix).
  assert (Hlen : List.length L = n).
  { unfold L. apply firstn_length_le. apply simple_length_le. }
  unfold pglob_of in Hp. rewrite Epat in Hp at 2.
  (* the wildcard-free prefix L denotes literal items, which match the names that begin with L *)
  destruct (pparse_lits _ _ _ _ _ HL Hp) as (f' & gr & Hr & ->).
  rewrite PM_lits, Hlen.
  assert (HP' : pglob_of P' = Some gr).
  { unfold pglob_of. eapply pparse_fuel; [|lia].
    destruct (bos_after true L); [exact Hr|now apply pparse_bos]. }
  destruct (Nat.ltb (List.length name) n) eqn:El.
  { apply Nat.ltb_lt in El. split; [discriminate|]. intros (H & _). lia. }
  apply Nat.ltb_ge in El.
  fold L. destruct (beq L (firstn n name)) eqn:Eb; cbn [negb].
  - apply beq_eq in Eb.
    destruct (is_nil P' && is_nil (skipn n name)) eqn:En.
    + apply andb_true_iff in En. destruct En as [En1 En2].
      destruct P' as [|? ?] eqn:EP; [|discriminate]. destruct (skipn n name) as [|? ?] eqn:ES; [|discriminate].
      apply pparse_nil in Hr. subst gr.
      split; [intros _; repeat split; [exact El|now symmetry|constructor]|reflexivity].
    + rewrite (gwildmatch_path_sound_complete _ _ (skipn n name) HP').
      split; [intros H; repeat split; [exact El|now symmetry|exact H]|tauto].
  - split; [discriminate|]. intros (_ & H & _). rewrite H in Eb. rewrite beq_refl in Eb. discriminate.
Qed.

Lemma match_pathname_core g dir rel :
  g_base g = dir -> rel <> [] ->
  g_nowild g = simple_length (g_pat g) ->
  match_pathname g (dir ++ rel) =
  mp_core (match g_pat g with c :: r => if c =? cSLASH then r else g_pat g | [] => [] end) (join_slash rel).
Proof.
  intros Hb Hne Hnw. unfold match_pathname. rewrite Hb, strip_domain_app.
  destruct rel as [|e rel']; [congruence|].
  unfold mp_core. rewrite Hnw.
  destruct (g_pat g) as [|c r] eqn:Ep.
  - reflexivity.
  - destruct (c =? cSLASH) eqn:Ec.
    + apply N.eqb_eq in Ec. subst c. cbn [simple_length].
      change (is_glob_special cSLASH) with false. cbn iota. cbn [Nat.pred]. reflexivity.
    + reflexivity.
Qed.
