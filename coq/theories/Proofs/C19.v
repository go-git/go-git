(* Proofs/C19.v — the transaction of Model/Txn.v against the abstract
   transaction of Spec/AStore.v: the invariant Inv is kept by every call, the
   view absview moves as a plain store does, the answers are the view's
   outside the guarded object listing, and Commit writes the view. *)
From Coq Require Import List NArith Bool Lia Permutation.
From GoGit Require Import Base.Out Spec.AStore Model.Txn Proofs.AStoreFacts.
Import ListNotations.
Local Open Scope N_scope.

Lemma g_step_base U t o : t_base (fst (g_step U t o)) = t_base t.
Proof.
  destruct o; cbn; try reflexivity.
  - unfold g_cas. destruct (g_cas_lookup t on); [destruct (rv_hash_eqb r ov)|]; reflexivity.
  - destruct (valid_typ U k); reflexivity.
Qed.

Lemma g_run_ind U (P : txn -> Prop) :
  (forall t o, P t -> P (fst (g_step U t o))) -> forall ops t, P t -> P (fst (g_run U t ops)).
Proof.
  intros Hs. induction ops as [|o r IH]; intros t Ht; [exact Ht|].
  cbn [g_run]. specialize (Hs t o Ht). destruct (g_step U t o) as [t1 x].
  specialize (IH t1 Hs). now destruct (g_run U t1 r).
Qed.

Lemma g_run_base U ops t : t_base (fst (g_run U t ops)) = t_base t.
Proof.
  apply (g_run_ind U (fun t' => t_base t' = t_base t)); [|reflexivity].
  intros t' o <-. apply g_step_base.
Qed.

(* answers are compared up to the order of listings *)
Definition res_equiv (a b : res) : Prop :=
  match a, b with
  | RRefs l1, RRefs l2 => Permutation l1 l2
  | RIds l1, RIds l2 => Permutation l1 l2
  | _, _ => a = b
  end.

Lemma res_equiv_refl a : res_equiv a a.
Proof. destruct a; cbn; reflexivity. Qed.

Definition store_ok (s : store) : Prop :=
  fm_ok (s_refs s) /\ fm_ok (s_objs s) /\ fm_ok (s_logs s)
  /\ (forall k l, fm_get k (s_logs s) = Some l -> l <> []).

Lemma store_ok_okb s : st_okb s = true -> store_ok s.
Proof.
  unfold st_okb, store_ok. rewrite !andb_true_iff. intros [[[H1 H2] H3] H4].
  apply fm_ok_okb in H1, H2, H3. repeat split; try assumption.
  intros k l Hg Hl. subst l. apply (fm_get_In k [] _ H3) in Hg.
  rewrite forallb_forall in H4. apply H4 in Hg. discriminate.
Qed.

Definition logs_view (b x : fmap (list N)) (dels : list N) : fmap (list N) :=
  fold_right (fun p m => fm_set (fst p) (lg_get (fst p) m ++ snd p) m) (fm_diff b dels) x.

(* the abstraction function: what the transaction's pending state means *)
Definition absview (t : txn) : store :=
  let b := t_base t in
  let x := t_tmp t in
  mkStore
    (fm_union (fm_diff (s_refs b) (t_deleted t)) (s_refs x))
    (fm_union (s_objs b) (s_objs x))
    (if t_idx_set t then s_idx x else s_idx b)
    (if t_cfg_set t then s_cfg x else s_cfg b)
    (if t_sh_set t then s_shallow x else s_shallow b)
    (logs_view (s_logs b) (s_logs x) (t_rl_del t)).

Record Inv (t : txn) : Prop := mkInv {
  inv_base : store_ok (t_base t);
  inv_tmp : store_ok (t_tmp t);
  inv_del : forall k, nmem k (t_deleted t) = true -> fm_get k (s_refs (t_tmp t)) = None;
  inv_app_nodup : NoDup (t_rl_app t);
  inv_app : forall k, nmem k (t_rl_app t) = true <-> fm_get k (s_logs (t_tmp t)) <> None
}.

Lemma store_ok_empty : store_ok st_empty.
Proof. repeat split; try constructor. cbn. discriminate. Qed.

Lemma Inv_begin b : store_ok b -> Inv (txn_begin b).
Proof.
  intro H. constructor; cbn; try assumption.
  - apply store_ok_empty.
  - discriminate.
  - constructor.
  - intro k. split; [discriminate|congruence].
Qed.

Lemma lg_get_set k n l m : lg_get k (fm_set n l m) = if k =? n then l else lg_get k m.
Proof. unfold lg_get. rewrite fm_get_set. destruct (k =? n); reflexivity. Qed.

Lemma logs_view_ok b x dels : fm_ok b -> fm_ok (logs_view b x dels).
Proof.
  intro H. unfold logs_view. induction x as [|p r IH]; cbn [fold_right].
  - apply fm_ok_diff; exact H.
  - apply fm_ok_set; exact IH.
Qed.

Create HintDb fmok discriminated.
#[local] Hint Resolve fm_ok_set fm_ok_del fm_ok_union fm_ok_diff logs_view_ok fm_ok_keys_NoDup : fmok.
#[local] Hint Rewrite @fm_get_set @fm_get_del @fm_get_union @fm_get_diff nmem_nadd nmem_nrem : fmget.

(* the view of the reflogs, for any list of pending entries with distinct names *)
Lemma logs_view_get k b x dels :
  NoDup (map fst x) ->
  fm_get k (logs_view b x dels) =
  match fm_get k x with
  | Some es => Some ((if nmem k dels then [] else lg_get k b) ++ es)
  | None => if nmem k dels then None else fm_get k b
  end.
Proof.
  unfold logs_view. induction x as [|[k1 e1] r IH]; intro Hnd; cbn [fold_right fm_get fst snd map] in *.
  - apply fm_get_diff.
  - inversion Hnd as [|? ? Hn Hr]; subst. rewrite fm_get_set. destruct (k =? k1) eqn:E; [|now apply IH].
    apply N.eqb_eq in E; subst k1. f_equal. f_equal. unfold lg_get at 1. rewrite (IH Hr).
    apply fm_get_None in Hn. rewrite Hn. unfold lg_get. now destruct (nmem k dels).
Qed.

Lemma logs_view_lg k b x dels :
  fm_ok x -> lg_get k (logs_view b x dels) = (if nmem k dels then [] else lg_get k b) ++ lg_get k x.
Proof.
  intro H. unfold lg_get. rewrite logs_view_get by auto with fmok.
  destruct (fm_get k x); [reflexivity|]. rewrite app_nil_r. destruct (nmem k dels); reflexivity.
Qed.

(* Commit's reflog loop computes the view of the appended names with their pending
   entries, in the order of appending *)
Lemma commit_logs_view (b x : fmap (list N)) dels app :
  (forall n, In n app -> lg_get n x <> []) ->
  fold_right (fun n m => lg_append_all n (lg_get n x) m) (fm_diff b dels) app
  = logs_view b (map (fun n => (n, lg_get n x)) app) dels.
Proof.
  unfold logs_view. induction app as [|a r IH]; intro H; cbn [fold_right map fst snd]; [reflexivity|].
  rewrite <- IH by (intros n Hn; apply H; now right).
  destruct (lg_get a x) eqn:E; [now destruct (H a (or_introl eq_refl))|reflexivity].
Qed.

Lemma fm_get_map_keys {V} (f : N -> V) l k :
  fm_get k (map (fun n => (n, f n)) l) = if nmem k l then Some (f k) else None.
Proof.
  unfold nmem. induction l as [|a r IH]; [reflexivity|]. cbn [map fm_get existsb].
  destruct (N.eqb_spec k a) as [->|]; [reflexivity|exact IH].
Qed.

Lemma g_commit_absview t : Inv t -> g_commit t = absview t.
Proof.
  intros [Hb Hx _ Hnd Happ]. unfold g_commit, absview. cbn zeta. f_equal.
  destruct Hb as (_ & _ & Hbl & _). destruct Hx as (_ & _ & Hxl & Hxn).
  rewrite commit_logs_view.
  - apply fm_ext; auto with fmok. intro k.
    rewrite !logs_view_get, fm_get_map_keys by (auto with fmok || now rewrite map_map, map_id).
    destruct (nmem k (t_rl_app t)) eqn:E.
    + apply Happ in E. unfold lg_get. now destruct (fm_get k (s_logs (t_tmp t))).
    + destruct (fm_get k (s_logs (t_tmp t))) eqn:Eg; [|reflexivity].
      assert (nmem k (t_rl_app t) = true) by (apply Happ; congruence). congruence.
  - intros n Hn E. apply nmem_In, Happ in Hn. unfold lg_get in E.
    destruct (fm_get n (s_logs (t_tmp t))) as [es|] eqn:Eg; [exact (Hxn n es Eg E)|congruence].
Qed.

Definition is_nil {A} (l : list A) : bool := match l with [] => true | _ => false end.

(* the calls on which the transaction answers as the view does: all but a
   listing of objects while an object written in the transaction is also in the base *)
Definition op_ok (U : universe) (t : txn) (o : op) : bool :=
  match o with
  | OIterObjs _ =>
    forallb (fun p => negb (fm_has (fst p) (s_objs (t_base t)))) (s_objs (t_tmp t))
  | _ => true
  end.

Lemma fm_diff_absent {V} (b : fmap V) ds :
  (forall d, In d ds -> fm_get d b = None) -> fm_diff b ds = b.
Proof.
  unfold fm_diff. induction ds as [|d r IH]; intro H; cbn [fold_right]; [reflexivity|].
  rewrite IH by (intros x Hx; apply H; right; exact Hx).
  apply fm_del_absent. apply H. left; reflexivity.
Qed.

Lemma fm_union_disjoint_perm {V} (b x : fmap V) :
  fm_ok x -> (forall k v, In (k, v) x -> fm_get k b = None) ->
  Permutation (b ++ x) (fm_union b x).
Proof.
  unfold fm_union. induction x as [|[k v] r IH]; intros Hok Hd; cbn [fold_right fst snd].
  - rewrite app_nil_r. reflexivity.
  - apply fm_ok_inv in Hok as [Hok HF].
    assert (Hfresh : fm_get k (fold_right (fun p m => fm_set (fst p) (snd p) m) b r) = None).
    { change (fm_get k (fm_union b r) = None). rewrite fm_get_union.
      rewrite (fm_get_lt k (k, v) r HF) by (cbn [fst]; lia).
      apply (Hd k v). left; reflexivity. }
    rewrite (fm_set_fresh_perm k v _ Hfresh).
    rewrite <- Permutation_middle. constructor.
    apply IH; [exact Hok|]. intros k' v' Hin. apply (Hd k' v'). right; exact Hin.
Qed.

Lemma iter_refs_perm t : Inv t -> Permutation (g_iter_refs t) (s_refs (absview t)).
Proof.
  intros [Hb Hx Hd _ _]. destruct Hb as (Hbr & _). destruct Hx as (Hxr & _).
  assert (Hvok : fm_ok (s_refs (absview t)))
    by (unfold absview; cbn [s_refs]; apply fm_ok_union, fm_ok_diff; exact Hbr).
  assert (Hmem : forall k v, In (k, v) (g_iter_refs t) <-> fm_get k (s_refs (absview t)) = Some v).
  { intros k v. unfold g_iter_refs, absview. cbn [s_refs].
    rewrite in_app_iff, filter_In, fm_get_union, fm_get_diff. cbn [fst].
    rewrite <- (fm_get_In k v _ Hbr), <- (fm_get_In k v _ Hxr). unfold fm_has.
    destruct (fm_get k (s_refs (t_tmp t))) as [w|]; destruct (nmem k (t_deleted t)); cbn [negb andb];
      intuition (try discriminate; try congruence). }
  apply (perm_of_lookup _ _ Hvok); [|exact Hmem].
  unfold g_iter_refs. apply NoDup_app_intro.
  - apply NoDup_filter. apply fm_ok_NoDup; exact Hbr.
  - apply fm_ok_NoDup; exact Hxr.
  - intros [k v] H1 H2. apply filter_In in H1 as [_ H1]. cbn [fst] in H1.
    apply andb_true_iff in H1 as [_ H1]. apply negb_true_iff in H1.
    apply (fm_get_In k v _ Hxr) in H2. unfold fm_has in H1. rewrite H2 in H1. discriminate.
Qed.

Lemma Permutation_filter {A} (f : A -> bool) l1 l2 :
  Permutation l1 l2 -> Permutation (filter f l1) (filter f l2).
Proof.
  induction 1 as [|x l l' _ IH|x y l|l l' l'' _ IH1 _ IH2]; cbn [filter].
  - constructor.
  - destruct (f x); [constructor|]; exact IH.
  - destruct (f x), (f y); try reflexivity. apply perm_swap.
  - etransitivity; eassumption.
Qed.

Lemma iter_objs_perm U t ty :
  Inv t -> op_ok U t (OIterObjs ty) = true ->
  Permutation (g_iter_objs U t ty) (st_iter_objs U ty (absview t)).
Proof.
  intros [Hb Hx _ _ _] Hg. cbn [op_ok] in Hg. rewrite forallb_forall in Hg.
  destruct Hb as (_ & Hbo & _). destruct Hx as (_ & Hxo & _).
  unfold g_iter_objs, st_iter_objs, absview. cbn [s_objs].
  rewrite <- filter_app. apply Permutation_filter.
  unfold fm_keys. rewrite <- map_app. apply Permutation_map.
  apply fm_union_disjoint_perm; [exact Hxo|].
  intros k v Hin. apply Hg in Hin. cbn [fst] in Hin. apply negb_true_iff in Hin.
  unfold fm_has in Hin. destruct (fm_get k (s_objs (t_base t))); [discriminate|reflexivity].
Qed.

(* reduce the projections of a txn or store built by one call, nothing else *)
Ltac proj_simpl := cbn [t_base t_tmp t_deleted t_idx_set t_cfg_set t_sh_set t_rl_app t_rl_del
                         s_refs s_objs s_idx s_cfg s_shallow s_logs with_tmp
                         st_with_refs st_with_objs st_with_idx st_with_cfg st_with_shallow st_with_logs].

Lemma Inv_set_ref t n v : Inv t -> Inv (g_set_ref t n v).
Proof.
  intros [Hb Hx Hd Hnd Happ]. constructor; unfold g_set_ref; proj_simpl; try assumption.
  - destruct Hx as (H1 & H2 & H3 & H4). repeat split; proj_simpl; auto with fmok.
  - intros k Hk. rewrite nmem_nrem in Hk. apply andb_true_iff in Hk as [Hk1 Hk2].
    rewrite fm_get_set. apply negb_true_iff in Hk1. rewrite Hk1. apply Hd; exact Hk2.
Qed.

Lemma absview_set_ref t n v :
  Inv t -> absview (g_set_ref t n v) = st_with_refs (absview t) (fm_set n v (s_refs (absview t))).
Proof.
  intros [(Hbr & _) _ _ _ _]. unfold g_set_ref, absview, st_with_refs. proj_simpl. f_equal.
  apply fm_ext; auto with fmok.
  intro k. autorewrite with fmget. destruct (k =? n); reflexivity.
Qed.

Lemma view_get_ref t k :
  fm_get k (s_refs (absview t)) =
  match fm_get k (s_refs (t_tmp t)) with
  | Some v => Some v
  | None => if nmem k (t_deleted t) then None else fm_get k (s_refs (t_base t))
  end.
Proof. unfold absview. cbn [s_refs]. rewrite fm_get_union, fm_get_diff. reflexivity. Qed.

Lemma g_cas_lookup_view t n : Inv t -> g_cas_lookup t n = fm_get n (s_refs (absview t)).
Proof.
  intro HI. unfold g_cas_lookup. rewrite view_get_ref.
  destruct (nmem n (t_deleted t)) eqn:Ed; [rewrite (inv_del t HI n Ed)|]; reflexivity.
Qed.

Lemma g_get_ref_lookup t n :
  g_get_ref t n = match g_cas_lookup t n with Some v => RRef v | None => RErr ENotFound end.
Proof.
  unfold g_get_ref, g_cas_lookup.
  destruct (nmem n (t_deleted t)), (fm_get n (s_refs (t_tmp t))), (fm_get n (s_refs (t_base t))); reflexivity.
Qed.

Lemma view_has_obj t k :
  fm_has k (s_objs (absview t)) = fm_has k (s_objs (t_base t)) || fm_has k (s_objs (t_tmp t)).
Proof.
  unfold absview, fm_has. cbn [s_objs]. rewrite fm_get_union.
  destruct (fm_get k (s_objs (t_tmp t))), (fm_get k (s_objs (t_base t))); reflexivity.
Qed.

(* one call: the invariant is kept (no guard needed), the view moves as a plain store
   does, and the answer is the view's outside the guarded listing *)
Lemma Inv_step U t o : Inv t -> Inv (fst (g_step U t o)).
Proof.
  intro HI. pose proof HI as [Hb Hx Hd Hnd Happ]. pose proof Hx as (Hxr & Hxo & Hxl & Hxn).
  destruct o; cbn [g_step fst]; try exact HI; try (constructor; assumption).
  (* left: OSetRef, OCas, ODelRef, OSetObj, OAppendLog, ODelLog *)
  - now apply Inv_set_ref.
  - unfold g_cas. destruct (g_cas_lookup t on) as [cur|]; [destruct (rv_hash_eqb cur ov)|];
      cbn [fst]; auto using Inv_set_ref.
  - constructor; unfold g_del_ref; proj_simpl; try assumption.
    + repeat split; proj_simpl; auto with fmok.
    + intros k Hk. rewrite nmem_nadd in Hk. rewrite fm_get_del.
      destruct (k =? n); [reflexivity|]. now apply Hd.
  - destruct (valid_typ U k); cbn [fst]; [|exact HI]. constructor; proj_simpl; try assumption.
    repeat split; proj_simpl; auto with fmok.
  - constructor; proj_simpl; try assumption.
    + repeat split; proj_simpl; auto with fmok.
      intros k l. rewrite fm_get_set. destruct (k =? n); [|apply Hxn].
      intros [= <-]. now destruct (lg_get n _).
    + now apply NoDup_nadd.
    + intro k. rewrite nmem_nadd, fm_get_set. destruct (k =? n); [easy|apply Happ].
  - constructor; proj_simpl; try assumption.
    + repeat split; proj_simpl; auto with fmok.
      intros k l. rewrite fm_get_del. destruct (k =? n); [discriminate|apply Hxn].
    + now apply NoDup_nrem.
    + intro k. rewrite nmem_nrem, fm_get_del. destruct (k =? n); [easy|apply Happ].
Qed.

Lemma view_step U t o : Inv t -> absview (fst (g_step U t o)) = fst (st_step U (absview t) o).
Proof.
  intro HI. pose proof HI as [(Hbr & Hbo & Hbl & _) (Hxr & Hxo & Hxl & _) _ _ _].
  destruct o; cbn [g_step st_step fst]; try reflexivity.
  (* left: OSetRef, OCas, ODelRef, OSetObj, OAppendLog, ODelLog *)
  - now apply absview_set_ref.
  - unfold g_cas, st_cas. rewrite g_cas_lookup_view by exact HI.
    destruct (fm_get on (s_refs (absview t))) as [cur|]; [destruct (rv_hash_eqb cur ov)|];
      cbn [fst]; auto using absview_set_ref.
  - unfold g_del_ref, absview, st_with_refs. proj_simpl. f_equal.
    apply fm_ext; auto with fmok.
    intro k. autorewrite with fmget. destruct (k =? n); reflexivity.
  - destruct (valid_typ U k); cbn [fst]; [|reflexivity]. unfold absview, st_with_objs. proj_simpl. f_equal.
    apply fm_ext; auto with fmok.
    intro j. autorewrite with fmget. destruct (j =? k); reflexivity.
  - (* an appended entry comes after the base entries, if kept, and the earlier appended ones *)
    unfold absview, st_with_logs. proj_simpl. f_equal. apply fm_ext; auto with fmok.
    intro k. rewrite fm_get_set, !logs_view_get, fm_get_set by auto with fmok.
    destruct (k =? n) eqn:E; [|reflexivity]. apply N.eqb_eq in E; subst k. f_equal.
    rewrite logs_view_lg by exact Hxl. now rewrite app_assoc.
  - unfold absview, st_with_logs. proj_simpl. f_equal. apply fm_ext; auto with fmok.
    intro k. rewrite fm_get_del, !logs_view_get, fm_get_del, nmem_nadd by auto with fmok.
    destruct (k =? n); reflexivity.
Qed.

Lemma res_step U t o : Inv t -> op_ok U t o = true ->
  res_equiv (snd (g_step U t o)) (snd (st_step U (absview t) o)).
Proof.
  intros HI Hg. destruct o; cbn [g_step st_step snd]; try apply res_equiv_refl.
  (* left: OCas, OGetRef, OIterRefs, OSetObj, OHasObj, OSizeObj, OGetObj, OIterObjs, OGetLog *)
  - unfold g_cas, st_cas. rewrite g_cas_lookup_view by exact HI.
    destruct (fm_get on (s_refs (absview t))) as [cur|]; [destruct (rv_hash_eqb cur ov)|]; reflexivity.
  - rewrite g_get_ref_lookup, g_cas_lookup_view by exact HI. apply res_equiv_refl.
  - now apply iter_refs_perm.
  - destruct (valid_typ U k); reflexivity.
  - unfold g_has_obj. rewrite view_has_obj. apply res_equiv_refl.
  - unfold g_has_obj. rewrite view_has_obj. apply res_equiv_refl.
  - unfold g_get_obj, st_get_obj. rewrite view_has_obj.
    destruct (fm_has k (s_objs (t_base t))), (fm_has k (s_objs (t_tmp t))), (typ_match U t0 k); reflexivity.
  - now apply iter_objs_perm.
  - unfold g_log, absview. cbn [s_logs]. rewrite logs_view_lg by apply HI. apply res_equiv_refl.
Qed.

Lemma Inv_run U ops : forall t, Inv t -> Inv (fst (g_run U t ops)).
Proof. apply g_run_ind, Inv_step. Qed.

Fixpoint guards (U : universe) (t : txn) (ops : list op) : bool :=
  match ops with
  | [] => true
  | o :: r => op_ok U t o && guards U (fst (g_step U t o)) r
  end.

Lemma sim_run U ops : forall t,
  Inv t -> guards U t ops = true ->
  fst (spec_run U (mkSpec (t_base t) (absview t)) ops)
  = mkSpec (t_base (fst (g_run U t ops))) (absview (fst (g_run U t ops)))
  /\ Forall2 res_equiv (snd (g_run U t ops)) (snd (spec_run U (mkSpec (t_base t) (absview t)) ops)).
Proof.
  induction ops as [|o r IH]; intros t HI Hg.
  - cbn. split; [reflexivity|constructor].
  - cbn [guards] in Hg. apply andb_true_iff in Hg as [Hg1 Hg2].
    cbn [g_run spec_run]. unfold spec_step. cbn [sp_view sp_base].
    pose proof (Inv_step U t o HI) as HI1. pose proof (view_step U t o HI) as Hv.
    pose proof (res_step U t o HI Hg1) as Hxy. pose proof (g_step_base U t o) as Hb.
    destruct (g_step U t o) as [t1 x]. destruct (st_step U (absview t) o) as [v y].
    cbn [fst snd] in *. subst v. rewrite <- Hb.
    destruct (IH t1 HI1 Hg2) as [Hs2 Hall].
    destruct (g_run U t1 r) as [t2 xs].
    destruct (spec_run U (mkSpec (t_base t1) (absview t1)) r) as [s2 ys].
    split; [exact Hs2|]. constructor; assumption.
Qed.

Lemma absview_begin b : absview (txn_begin b) = b.
Proof. destruct b. reflexivity. Qed.

Lemma sim_begin U b ops :
  st_okb b = true -> guards U (txn_begin b) ops = true ->
  fst (spec_run U (spec_begin b) ops)
  = mkSpec (t_base (fst (g_run U (txn_begin b) ops))) (absview (fst (g_run U (txn_begin b) ops)))
  /\ Forall2 res_equiv (snd (g_run U (txn_begin b) ops)) (snd (spec_run U (spec_begin b) ops)).
Proof.
  intros Hb Hg. pose proof (sim_run U ops (txn_begin b) (Inv_begin b (store_ok_okb b Hb)) Hg) as H.
  now rewrite absview_begin in H.
Qed.
