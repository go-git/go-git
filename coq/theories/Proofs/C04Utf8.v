(* Proofs/C04Utf8.v — facts about git's pick_one_utf8_char (Spec/GitTree.pick_cp) on byte
   strings: what it consumes, which sequences it calls ignored code points, and
   the fuel-free unfolding of wf_utf8. *)
From Coq Require Import List NArith ZArith Bool Lia ZifyBool ZifyNat ZifyN.
From GoGit Require Import Base.Out Gen.C04 Model.TreeObj Spec.GitTree.
Import ListNotations.
Local Open Scope N_scope.

(* The tests on the high bits of a byte are ranges: a table over the 256 bytes. *)
Definition nrange (lo : N) (n : nat) : list N := map (fun k => lo + N.of_nat k) (seq 0 n).

Lemma in_nrange lo n c : lo <= c -> c < lo + N.of_nat n -> In c (nrange lo n).
Proof.
  intros H1 H2. unfold nrange. apply in_map_iff. exists (N.to_nat (c - lo)). split; [lia|].
  apply in_seq. lia.
Qed.

Definition lead_facts (a : N) : bool :=
  Bool.eqb (N.land a 224 =? 192) ((192 <=? a) && (a <=? 223)) &&
  Bool.eqb (N.land a 240 =? 224) ((224 <=? a) && (a <=? 239)) &&
  Bool.eqb (N.land a 248 =? 240) ((240 <=? a) && (a <=? 247)) &&
  Bool.eqb (cont a) ((128 <=? a) && (a <=? 191)) &&
  Bool.eqb (N.land a 128 =? 0) (a <? 128) &&
  Bool.eqb (N.land a 254 =? 192) ((192 <=? a) && (a <=? 193)) &&
  Bool.eqb (N.land a 224 =? 128) ((128 <=? a) && (a <=? 159)) &&
  Bool.eqb (N.land a 240 =? 128) ((128 <=? a) && (a <=? 143)).

Lemma lead_table : forallb lead_facts (nrange 0 256) = true.
Proof. vm_compute. reflexivity. Qed.

Lemma lead_byte a : a < 256 ->
  (N.land a 224 =? 192) = ((192 <=? a) && (a <=? 223)) /\
  (N.land a 240 =? 224) = ((224 <=? a) && (a <=? 239)) /\
  (N.land a 248 =? 240) = ((240 <=? a) && (a <=? 247)) /\
  cont a = ((128 <=? a) && (a <=? 191)) /\
  (N.land a 128 =? 0) = (a <? 128) /\
  (N.land a 254 =? 192) = ((192 <=? a) && (a <=? 193)) /\
  (N.land a 224 =? 128) = ((128 <=? a) && (a <=? 159)) /\
  (N.land a 240 =? 128) = ((128 <=? a) && (a <=? 143)).
Proof.
  intros H. pose proof lead_table as T. rewrite forallb_forall in T.
  specialize (T a (in_nrange 0 256 a ltac:(lia) ltac:(lia))). unfold lead_facts in T.
  repeat (apply andb_true_iff in T as [T ?]).
  repeat split; now apply Bool.eqb_prop.
Qed.

(* The masks of the low bits are remainders, so a decoded code point is linear
   in the bytes and its range follows by arithmetic. *)
Lemma land_low a : N.land a 63 = a mod 64 /\ N.land a 31 = a mod 32 /\ N.land a 15 = a mod 16 /\ N.land a 7 = a mod 8.
Proof. repeat split; [apply (N.land_ones a 6)|apply (N.land_ones a 5)|apply (N.land_ones a 4)|apply (N.land_ones a 3)]. Qed.

Lemma ignored_cp_cases cp : hfs_ignored_cp cp = true ->
  8204 <= cp <= 8207 \/ 8234 <= cp <= 8238 \/ 8298 <= cp <= 8303 \/ cp = 65279.
Proof. unfold hfs_ignored_cp. lia. Qed.

(* the base-64 digits of an ignored code point are go-git's byte triples *)
Lemma ignored_three a b c : 224 <= a <= 239 -> 128 <= b <= 191 -> 128 <= c <= 191 ->
  hfs_ignored_cp (a mod 16 * 4096 + b mod 64 * 64 + c mod 64) = true -> is_ign a b c = true.
Proof.
  intros Ha Hb Hc H. apply ignored_cp_cases in H.
  assert (D : a = 226 /\ b = 128 /\ (140 <= c <= 143 \/ 170 <= c <= 174) \/
              a = 226 /\ b = 129 /\ 170 <= c <= 175 \/ a = 239 /\ b = 187 /\ c = 191)
    by (destruct H as [H|[H|[H|H]]]; [left|left|right; left|right; right]; lia).
  clear -D. unfold is_ign. lia.
Qed.

Lemma is_bytes_cons c s : is_bytes (c :: s) = true <-> c < 256 /\ is_bytes s = true.
Proof. unfold is_bytes. cbn [forallb]. rewrite andb_true_iff. split; intros [A B]; split; auto; lia. Qed.

Lemma is_bytes_skipn n s : is_bytes s = true -> is_bytes (skipn n s) = true.
Proof.
  revert s; induction n as [|n IH]; intros s H; [exact H|]. destruct s as [|c s]; [exact H|].
  cbn [skipn]. apply IH. now apply is_bytes_cons in H.
Qed.

Lemma pick_cp_len s cp n : pick_cp s = PChar cp n -> (1 <= n <= List.length s)%nat.
Proof.
  unfold pick_cp. destruct s as [|a r]; [discriminate|].
  destruct (a <? 128). { intros [= <- <-]. cbn [List.length]. lia. }
  destruct (N.land a 224 =? 192).
  { destruct r as [|b r]; [discriminate|]. destruct (negb (cont b) || (N.land a 254 =? 192)); [discriminate|].
    intros [= <- <-]. cbn [List.length]. lia. }
  destruct (N.land a 240 =? 224).
  { destruct r as [|b [|c r]]; try discriminate.
    match goal with |- (if ?x then _ else _) = _ -> _ => destruct x end; [discriminate|].
    intros [= <- <-]. cbn [List.length]. lia. }
  destruct (N.land a 248 =? 240); [|discriminate].
  destruct r as [|b [|c [|d r]]]; try discriminate.
  match goal with |- (if ?x then _ else _) = _ -> _ => destruct x end; [discriminate|].
  intros [= <- <-]. cbn [List.length]. lia.
Qed.

Lemma pick_cp_ascii a r : (a <? 128) = true -> pick_cp (a :: r) = PChar a 1.
Proof. intros H. unfold pick_cp. now rewrite H. Qed.

(* a non-ASCII lead byte never yields an ASCII code point, and yields an ignored
   one only on go-git's byte triples *)
Lemma pick_cp_high a r cp n : is_bytes (a :: r) = true -> 128 <= a -> pick_cp (a :: r) = PChar cp n ->
  128 <= cp /\
  (hfs_ignored_cp cp = true ->
   exists b c r', r = b :: c :: r' /\ is_ign a b c = true /\ n = 3%nat).
Proof.
  intros HB Ha. apply is_bytes_cons in HB as [Ba HB].
  destruct (lead_byte a Ba) as (L2 & L3 & L4 & _ & _ & O2 & _).
  destruct (land_low a) as (_ & A31 & A15 & A7).
  unfold pick_cp. replace (a <? 128) with false by lia. rewrite L2, L3, L4, O2, A31, A15, A7. clear L2 L3 L4 O2 A31 A15 A7.
  destruct ((192 <=? a) && (a <=? 223)) eqn:R2.
  { destruct r as [|b r]; [discriminate|]. apply is_bytes_cons in HB as [Bb _].
    destruct (lead_byte b Bb) as (_ & _ & _ & -> & _). destruct (land_low b) as (-> & _).
    destruct (negb ((128 <=? b) && (b <=? 191)) || (192 <=? a) && (a <=? 193)) eqn:C; [discriminate|].
    intros [= <- <-]. split; [lia|]. intros K. apply ignored_cp_cases in K. lia. }
  destruct ((224 <=? a) && (a <=? 239)) eqn:R3.
  { destruct r as [|b [|c r]]; try discriminate.
    apply is_bytes_cons in HB as [Bb HB]. apply is_bytes_cons in HB as [Bc _].
    destruct (lead_byte b Bb) as (_ & _ & _ & -> & _ & _ & -> & _). destruct (lead_byte c Bc) as (_ & _ & _ & -> & _).
    destruct (land_low b) as (-> & _). destruct (land_low c) as (-> & _).
    destruct (negb ((128 <=? b) && (b <=? 191)) || negb ((128 <=? c) && (c <=? 191)) ||
              (a =? 224) && ((128 <=? b) && (b <=? 159))) eqn:C; [discriminate|]. cbn [orb].
    match goal with |- (if ?x then _ else _) = _ -> _ => destruct x end; [discriminate|].
    intros [= <- <-]. split; [lia|].
    intros K. exists b, c, r. repeat split. apply ignored_three; [lia..|exact K]. }
  destruct ((240 <=? a) && (a <=? 247)) eqn:R4; [|discriminate].
  destruct r as [|b [|c [|d r]]]; try discriminate.
  apply is_bytes_cons in HB as [Bb _].
  destruct (lead_byte b Bb) as (_ & _ & _ & -> & _ & _ & _ & ->). destruct (land_low b) as (-> & _).
  destruct (negb ((128 <=? b) && (b <=? 191))) eqn:Rb; [discriminate|].
  destruct (negb (cont c)); [discriminate|]. destruct (negb (cont d)); [discriminate|]. cbn [orb].
  destruct ((a =? 240) && ((128 <=? b) && (b <=? 143))) eqn:OV; [discriminate|]. cbn [orb].
  match goal with |- (if ?x then _ else _) = _ -> _ => destruct x end; [discriminate|].
  intros [= <- <-].
  assert (G : 65536 <= a mod 8 * 262144 + b mod 64 * 4096) by lia.
  split; [lia|]. intros K. apply ignored_cp_cases in K. lia.
Qed.

Lemma is_ign_cases a b c : is_ign a b c = true ->
  (a = 226 /\ b = 128 /\ (c = 140 \/ c = 141 \/ c = 142 \/ c = 143 \/ c = 170 \/ c = 171 \/ c = 172 \/ c = 173 \/ c = 174)) \/
  (a = 226 /\ b = 129 /\ (c = 170 \/ c = 171 \/ c = 172 \/ c = 173 \/ c = 174 \/ c = 175)) \/
  (a = 239 /\ b = 187 /\ c = 191).
Proof. unfold is_ign. lia. Qed.

Lemma pick_cp_ign a b c r : is_ign a b c = true ->
  exists cp, pick_cp (a :: b :: c :: r) = PChar cp 3 /\ hfs_ignored_cp cp = true.
Proof.
  intros H. apply is_ign_cases in H.
  destruct H as [(-> & -> & H)|[(-> & -> & H)|(-> & -> & ->)]];
    repeat (destruct H as [-> | H]); subst; eexists; split; vm_compute; reflexivity.
Qed.

Lemma pick_utf8_ign a b c r : is_ign a b c = true -> pick_utf8 (a :: b :: c :: r) = (UIgnored, 3%nat).
Proof. intros H. destruct (pick_cp_ign a b c r H) as (cp & E & I). unfold pick_utf8. now rewrite E, I. Qed.

Lemma pick_utf8_ascii a r : (a <? 128) = true -> pick_utf8 (a :: r) = (UAscii a, 1%nat).
Proof.
  intros H. unfold pick_utf8. rewrite (pick_cp_ascii a r H), H.
  now replace (hfs_ignored_cp a) with false by (unfold hfs_ignored_cp; lia).
Qed.

Lemma pick_cp_not_end a r : pick_cp (a :: r) <> PEnd.
Proof.
  unfold pick_cp.
  repeat match goal with
         | |- (if ?x then _ else _) <> _ => destruct x
         | |- (match ?l with [] => _ | _ :: _ => _ end) <> _ => destruct l
         end; discriminate.
Qed.

Definition head_ign (s : bytes) : bool :=
  match s with a :: b :: c :: _ => is_ign a b c | _ => false end.

(* a non-ASCII head that is not an ignored triple: git sees a malformed
   sequence or some other non-ASCII code point *)
Lemma pick_utf8_high a r : is_bytes (a :: r) = true -> 128 <= a -> head_ign (a :: r) = false ->
  (pick_utf8 (a :: r) = (UInvalid, O) /\ pick_cp (a :: r) = PInvalid) \/
  (exists n, pick_utf8 (a :: r) = (UOther, n) /\ exists cp, pick_cp (a :: r) = PChar cp n).
Proof.
  intros HB Ha HI. unfold pick_utf8. destruct (pick_cp (a :: r)) as [| |cp n] eqn:P.
  - now apply pick_cp_not_end in P.
  - now left.
  - right. destruct (pick_cp_high a r cp n HB Ha P) as [G I].
    destruct (hfs_ignored_cp cp) eqn:K.
    + destruct (I eq_refl) as (b & c & r' & -> & J & _). cbn [head_ign] in HI. congruence.
    + assert (E : (cp <? 128) = false) by lia. rewrite E. exists n. split; [reflexivity|now exists cp].
Qed.

Lemma wf_go_irrel : forall f f' s, (List.length s < f)%nat -> (List.length s < f')%nat ->
  wf_utf8_go f s = wf_utf8_go f' s.
Proof.
  induction f as [|f IH]; intros f' s H H'; [lia|]. destruct f' as [|f']; [lia|].
  cbn [wf_utf8_go]. destruct (pick_cp s) as [| |cp n] eqn:P; try reflexivity.
  apply pick_cp_len in P. apply IH; rewrite skipn_length; lia.
Qed.

Lemma wf_utf8_step s :
  wf_utf8 s = match pick_cp s with PEnd => true | PInvalid => false | PChar _ n => wf_utf8 (skipn n s) end.
Proof.
  unfold wf_utf8 at 1. cbn [wf_utf8_go]. destruct (pick_cp s) as [| |cp n] eqn:P; try reflexivity.
  apply pick_cp_len in P. unfold wf_utf8. apply wf_go_irrel; rewrite skipn_length; lia.
Qed.

Lemma wf_utf8_ascii a r : (a <? 128) = true -> wf_utf8 (a :: r) = wf_utf8 r.
Proof. intros H. rewrite wf_utf8_step, (pick_cp_ascii a r H). reflexivity. Qed.

Lemma wf_utf8_ign a b c r : is_ign a b c = true -> wf_utf8 (a :: b :: c :: r) = wf_utf8 r.
Proof. intros H. rewrite wf_utf8_step. destruct (pick_cp_ign a b c r H) as (cp & -> & _). reflexivity. Qed.

Lemma wf_utf8_valid s : wf_utf8 s = true -> pick_cp s <> PInvalid.
Proof. rewrite wf_utf8_step. intros H E. rewrite E in H. discriminate. Qed.
