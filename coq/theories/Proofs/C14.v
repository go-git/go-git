(* Proofs/C14.v — a name accepted by validReferenceName is a path that resolves
   lexically to itself inside the reference slots, on POSIX, NTFS and HFS+;
   every path of the footprint model inherits that. *)
From Coq Require Import List Arith NArith ZArith Bool String Lia ZifyBool.
From GoGit Require Import Base.Out Model.RefStrings Model.RefName Model.RefGuard Model.RefStore Model.RefPaths
  Spec.PathRes Gen.C14 Proofs.C13.
Import ListNotations.
Local Open Scope N_scope.

Lemma is_path_sep_spec c : is_path_sep c = (c =? 47) || (c =? 92).
Proof. unfold is_path_sep, dotgit_isPathSep. lia. Qed.
Lemma refsDir_val : refsDir = [114;101;102;115].
Proof. reflexivity. Qed.
Lemma HEADp_val : HEADp = [72;69;65;68].
Proof. reflexivity. Qed.
Lemma packed_val : packedRefsPath = [112;97;99;107;101;100;45;114;101;102;115].
Proof. reflexivity. Qed.
Lemma logs_val : logsPath = [108;111;103;115].
Proof. reflexivity. Qed.

Lemma skip_ignored_len s : (List.length (skip_ignored s) <= List.length s)%nat.
Proof.
  remember (List.length s) as n eqn:E. revert s E.
  induction n as [n IH] using lt_wf_ind. intros s E.
  destruct s as [|a [|b [|c r]]]; cbn [skip_ignored]; try lia.
  destruct (hfs_ignored a b c); [|lia].
  specialize (IH (List.length r)). cbn [List.length] in E.
  assert (H : (List.length r < n)%nat) by lia. specialize (IH H r eq_refl). cbn [List.length]. lia.
Qed.

(* the fold skips what the guard skips, then keeps the head *)
Lemma hfs_fold_skip s :
  hfs_fold s = match skip_ignored s with [] => [] | a :: t => a :: hfs_fold t end.
Proof.
  remember (List.length s) as n eqn:E. revert s E.
  induction n as [n IH] using lt_wf_ind. intros s E.
  destruct s as [|a [|b [|c r]]]; try reflexivity.
  cbn [skip_ignored hfs_fold]. destruct (hfs_ignored a b c) eqn:EI; [|reflexivity].
  apply (IH (List.length r)); [cbn [List.length] in E; lia|reflexivity].
Qed.

Lemma hfs_fold_nil s : beqb (hfs_fold s) [] = beqb (skip_ignored s) [].
Proof. rewrite hfs_fold_skip. destruct (skip_ignored s); reflexivity. Qed.

Lemma is_hfs_dot_fold p : is_hfs_dot p = dotdot_on_hfs p.
Proof.
  unfold is_hfs_dot, dotdot_on_hfs. rewrite hfs_fold_skip.
  destruct (skip_ignored p) as [|c1 s2]; [reflexivity|]. rewrite (hfs_fold_skip s2).
  cbn [beqb]. destruct (c1 =? 46); [|reflexivity].
  destruct (skip_ignored s2) as [|c2 s4]; [reflexivity|].
  cbn [beqb andb]. destruct (c2 =? 46); [|reflexivity]. symmetry. apply hfs_fold_nil.
Qed.

Lemma only_sp_dot_take r : only_sp_dot r = forallb sp_or_dot (take_colon r).
Proof.
  induction r as [|c r IH]; [reflexivity|]. cbn [only_sp_dot take_colon].
  destruct (c =? 58); [reflexivity|]. cbn [forallb]. unfold sp_or_dot at 1.
  destruct ((c =? 32) || (c =? 46)); [exact IH|reflexivity].
Qed.

Lemma drop_while_nil f s : beqb (drop_while f s) [] = forallb f s.
Proof.
  induction s as [|c s IH]; [reflexivity|]. cbn. destruct (f c); [exact IH|reflexivity].
Qed.

Lemma forallb_rev {A} (f : A -> bool) l : forallb f (rev l) = forallb f l.
Proof.
  induction l as [|x l IH]; [reflexivity|]. cbn. rewrite forallb_app, IH. cbn. now rewrite andb_true_r, andb_comm.
Qed.

Lemma beqb_rev_nil (l : bytes) : beqb (rev l) [] = beqb l [].
Proof. destruct l as [|x l]; [reflexivity|]. cbn. destruct (rev l); reflexivity. Qed.

Lemma ntfs_stem_nil c : beqb (ntfs_stem c) [] = forallb sp_or_dot (take_colon c).
Proof. unfold ntfs_stem. now rewrite beqb_rev_nil, drop_while_nil, forallb_rev. Qed.

Lemma is_ntfs_dot_fold p : is_ntfs_dot p = dotdot_on_ntfs p.
Proof.
  unfold is_ntfs_dot, dotdot_on_ntfs. rewrite ntfs_stem_nil.
  destruct p as [|c0 [|c1 r]]; [reflexivity|cbn; now rewrite andb_false_r|].
  cbn [has_prefix]. rewrite (N.eqb_sym 46 c0), (N.eqb_sym 46 c1), andb_true_r.
  destruct (N.eqb_spec c0 46) as [->|_]; [|reflexivity]. destruct (N.eqb_spec c1 46) as [->|_]; [|reflexivity].
  apply only_sp_dot_take.
Qed.

Definition comp_ok (c : bytes) : bool :=
  negb (beqb c [] || beqb c [46] || beqb c [46; 46] || is_hfs_dot c || is_ntfs_dot c).

Lemma comp_ok_parts c : comp_ok c = true ->
  beqb c [] = false /\ beqb c [46] = false /\ beqb c [46; 46] = false /\ is_hfs_dot c = false /\ is_ntfs_dot c = false.
Proof.
  unfold comp_ok. intro H. apply negb_true_iff in H. repeat (apply orb_false_iff in H as [H ?]). auto.
Qed.

Lemma resolve_id cs : forall st,
  forallb comp_ok cs = true -> resolve (map view cs) st = Some (rev st ++ cs).
Proof.
  induction cs as [|c cs IH]; intros st H.
  - cbn. now rewrite app_nil_r.
  - cbn [forallb] in H. apply andb_true_iff in H as [Hc H].
    apply comp_ok_parts in Hc as (H0 & H1 & H2 & Hh & Hn).
    cbn [map resolve]. unfold view. rewrite <- is_hfs_dot_fold, <- is_ntfs_dot_fold, Hh, Hn. cbn [orb].
    rewrite H0, H1, H2. cbn [orb]. rewrite IH by assumption. cbn [rev]. now rewrite <- app_assoc.
Qed.

Definition path_ok (p : bytes) : bool :=
  negb (mem 92 p) && forallb comp_ok (split_on 47 p) && slot (split_on 47 p).

Lemma path_ok_resolves p : path_ok p = true ->
  mem 92 p = false /\
  resolve (map view (split_on 47 p)) [] = Some (split_on 47 p) /\
  slot (split_on 47 p) = true.
Proof.
  unfold path_ok. intros H. apply andb_true_iff in H as [H Hs]. apply andb_true_iff in H as [Hm Hc].
  apply negb_true_iff in Hm. repeat split; try assumption.
  now rewrite resolve_id.
Qed.

Lemma split_cons_hd s : split_on 47 s = hd [] (split_on 47 s) :: tl (split_on 47 s).
Proof. pose proof (split_nonempty 47 s). destruct (split_on 47 s); [contradiction|reflexivity]. Qed.

(* FieldsFunc(name, isPathSep) is the '/'-split when there is no backslash
   and no empty component *)
Lemma fields_split s : forall cur,
  mem 92 s = false ->
  (cur <> [] \/ hd [] (split_on 47 s) <> []) ->
  forallb (fun c => negb (beqb c [])) (tl (split_on 47 s)) = true ->
  fields_func is_path_sep s cur = (rev cur ++ hd [] (split_on 47 s)) :: tl (split_on 47 s).
Proof.
  induction s as [|c r IH]; intros cur Hb Hh Ht.
  - cbn. destruct cur as [|x cur]; [destruct Hh as [Hh|Hh]; [congruence|cbn in Hh; congruence]|].
    now rewrite app_nil_r.
  - cbn [mem existsb] in Hb. apply orb_false_iff in Hb as [Hc Hb]. rewrite N.eqb_sym in Hc.
    cbn [fields_func split_on] in *. rewrite is_path_sep_spec, Hc, orb_false_r.
    pose proof (split_nonempty 47 r) as Hne.
    destruct (c =? 47); destruct (split_on 47 r) as [|f fs] eqn:ES; try contradiction; cbn [hd tl] in *.
    + destruct Hh as [Hh|Hh]; [|congruence].
      cbn [forallb] in Ht. apply andb_true_iff in Ht as [Hf Ht].
      rewrite (IH [] Hb) by (auto; right; intros E; now rewrite E in Hf). rewrite app_nil_r. destruct cur; [congruence|reflexivity].
    + rewrite (IH (c :: cur) Hb); [|left; discriminate|assumption]. cbn [rev]. now rewrite <- app_assoc.
Qed.

Lemma fields_split0 s :
  mem 92 s = false -> forallb (fun c => negb (beqb c [])) (split_on 47 s) = true ->
  fields_func is_path_sep s [] = split_on 47 s.
Proof.
  intros Hb Ha. rewrite (split_cons_hd s) in Ha. cbn [forallb] in Ha.
  apply andb_true_iff in Ha as [Hh Ht].
  rewrite fields_split; [cbn [rev app]; symmetry; apply split_cons_hd|assumption| |assumption].
  right. intros E. now rewrite E in Hh.
Qed.

Lemma mem_app c a b : mem c (a ++ b) = mem c a || mem c b.
Proof. apply existsb_app. Qed.

Lemma cut_prefix_split p : forall s rest, cut_prefix p s = Some rest -> s = p ++ rest.
Proof.
  induction p as [|x p IH]; intros s rest H; cbn in H.
  - now injection H as <-.
  - destruct s as [|y s]; [discriminate|]. destruct (N.eqb_spec x y) as [->|_]; [|discriminate].
    cbn. f_equal. now apply IH.
Qed.

(* all-caps names: one component, nothing to fold *)
Lemma caps_comp_ok s : s <> [] -> forallb is_caps s = true -> comp_ok s = true.
Proof.
  intros Hne H. destruct s as [|c r]; [contradiction|]. cbn [forallb] in H.
  apply andb_true_iff in H as [Hc _]. unfold is_caps in Hc.
  assert (E46 : (c =? 46) = false) by lia.
  unfold comp_ok, is_hfs_dot, is_ntfs_dot. cbn [beqb]. rewrite E46. cbn [andb orb].
  replace (skip_ignored (c :: r)) with (c :: r).
  - rewrite E46. now destruct r.
  - destruct r as [|b [|d r']]; try reflexivity. cbn [skip_ignored]. unfold hfs_ignored.
    replace (c =? 226) with false by lia. replace (c =? 239) with false by lia. reflexivity.
Qed.

Lemma guard_sound n : valid_reference_name n = true ->
  mem 92 n = false /\ forallb comp_ok (split_on 47 n) = true /\ ref_slot (split_on 47 n) = true.
Proof.
  unfold valid_reference_name. intros H.
  apply andb_true_iff in H as [H Hparts]. apply andb_true_iff in H as [Hsafe _].
  apply negb_true_iff in Hparts.
  unfold is_safe in Hsafe. destruct n as [|n0 n'] eqn:En; [discriminate|]. rewrite <- En in *.
  destruct (cut_prefix RefName.refPrefix n) as [rest|] eqn:EC.
  - (* refs/<rest> *)
    apply cut_prefix_split in EC. change RefName.refPrefix with (bytes_of_string "refs" ++ [47]) in EC.
    rewrite <- app_assoc in EC. cbn [app] in EC.
    destruct rest as [|r0 r']; [discriminate|]. set (rest := r0 :: r') in *.
    destruct (contains [BSLASH] rest) eqn:EB; [discriminate|]. unfold BSLASH in EB. rewrite contains1 in EB.
    assert (Hb : mem 92 n = false) by (rewrite EC, mem_app; exact EB).
    assert (ES : split_on 47 n = bytes_of_string "refs" :: split_on 47 rest).
    { rewrite EC, split_app. reflexivity. }
    (* no component below refs/ is empty, "." or ".." *)
    assert (Hrest : forall c, In c (split_on 47 rest) -> beqb c [] = false /\ beqb c [46; 46] = false).
    { intros c Hc. apply (forallb_In _ _ _ Hsafe), negb_true_iff in Hc.
      apply orb_false_iff in Hc as [Hc ?]. now apply orb_false_iff in Hc as [? _]. }
    assert (Hne : forallb (fun c => negb (beqb c [])) (split_on 47 n) = true).
    { rewrite ES. apply forallb_forall. intros c [<-|Hc]; [reflexivity|]. now destruct (Hrest c Hc) as [-> _]. }
    rewrite fields_split0 in Hparts by assumption.
    split; [assumption|]. split; [|rewrite ES; now destruct (split_on 47 rest)].
    apply forallb_forall. intros c Hc.
    pose proof (existsb_In _ _ _ Hparts Hc) as Hpe. apply orb_false_iff in Hpe as [Hpe Hnt]. apply orb_false_iff in Hpe as [Hdot Hhf].
    rewrite ES in Hc. unfold comp_ok. rewrite Hdot, Hhf, Hnt.
    destruct Hc as [<-|Hc]; [reflexivity|]. now destruct (Hrest c Hc) as [-> ->].
  - (* an all-caps pseudo-ref *)
    rewrite (split_none 47 n) by (apply (mem_forallb_false is_caps 47 n Hsafe); reflexivity).
    assert (Hne : n <> []) by (rewrite En; discriminate).
    split; [apply (mem_forallb_false is_caps 92 n Hsafe); reflexivity|]. split.
    + cbn [forallb]. now rewrite (caps_comp_ok n Hne Hsafe).
    + unfold ref_slot, caps_name. apply beqb_false in Hne. now rewrite Hsafe, Hne, orb_true_r.
Qed.

Lemma valid_path_ok n : valid_reference_name n = true -> path_ok n = true.
Proof.
  intros H. destruct (guard_sound n H) as [Hb [Hc Hs]]. unfold path_ok. rewrite Hb, Hc. cbn [negb andb].
  unfold slot. destruct (split_on 47 n) as [|c [|c2 r]] eqn:E; [discriminate| |].
  - now rewrite Hs, !orb_true_r.
  - cbn [ref_slot] in Hs. apply beqb_eq in Hs. subst c. reflexivity.
Qed.

Lemma parents_from_prefix s : forall pre q,
  In q (parents_from pre s) -> exists s1 s2, s = s1 ++ 47 :: s2 /\ q = rev pre ++ s1.
Proof.
  induction s as [|c r IH]; intros pre q H; [contradiction|].
  cbn [parents_from] in H. destruct (N.eqb_spec c 47) as [->|_]; [destruct H as [<-|H]|].
  - exists [], r. split; [reflexivity|now rewrite app_nil_r].
  - destruct (IH _ _ H) as [s1 [s2 [-> ->]]]. exists (47 :: s1), s2. split; [reflexivity|].
    cbn [rev]. now rewrite <- app_assoc.
  - destruct (IH _ _ H) as [s1 [s2 [-> ->]]]. exists (c :: s1), s2. split; [reflexivity|].
    cbn [rev]. now rewrite <- app_assoc.
Qed.

Lemma parents_prefix p q : In q (parents p) -> exists t, p = q ++ 47 :: t.
Proof.
  intros H. destruct (parents_from_prefix _ _ _ H) as [s1 [s2 [-> ->]]]. now exists s2.
Qed.

Lemma slot_prefix l1 l2 : slot (l1 ++ l2) = true -> l1 <> [] -> l2 <> [] -> slot l1 = true.
Proof.
  intros H H1 H2. destruct l1 as [|c l1]; [contradiction|]. clear H1.
  destruct l1 as [|d l1].
  - destruct l2 as [|e l2]; [contradiction|]. cbn [app] in H. cbn [slot] in *.
    destruct (beqb c LOGS) eqn:EL; [reflexivity|]. cbn [ref_slot] in *. rewrite H.
    destruct (beqb c PACKED); reflexivity.
  - cbn [app] in H. cbn [slot] in *. destruct (beqb c LOGS) eqn:EL.
    + destruct l1 as [|e l1].
      * destruct l2 as [|e l2]; [contradiction|]. cbn [app ref_slot] in *. now rewrite H.
      * exact H.
    + exact H.
Qed.

Lemma path_ok_prefix q t : path_ok (q ++ 47 :: t) = true -> path_ok q = true.
Proof.
  unfold path_ok. rewrite split_app, mem_app, forallb_app. intros H.
  apply andb_true_iff in H as [H Hs]. apply andb_true_iff in H as [Hm Hc].
  apply negb_true_iff in Hm. apply orb_false_iff in Hm as [Hm _].
  apply andb_true_iff in Hc as [Hc _]. rewrite Hm, Hc. cbn [negb andb].
  apply (slot_prefix _ _ Hs); apply split_nonempty.
Qed.

Lemma path_ok_parent p q : path_ok p = true -> In q (parents p) -> path_ok q = true.
Proof. intros Hp Hq. destruct (parents_prefix _ _ Hq) as [t ->]. eapply path_ok_prefix; eauto. Qed.

Lemma log_path_ok n : valid_reference_name n = true -> path_ok (log_path n) = true.
Proof.
  intros H. destruct (guard_sound n H) as [Hb [Hc Hs]].
  unfold path_ok, log_path. rewrite logs_val. cbn [app].
  change (108 :: 111 :: 103 :: 115 :: 47 :: n) with (bytes_of_string "logs" ++ 47 :: n).
  rewrite split_app, mem_app, forallb_app, Hc. cbn [mem existsb orb]. fold (mem 92 n). rewrite Hb.
  pose proof (split_nonempty 47 n) as Hne. destruct (split_on 47 n) as [|c r]; [contradiction|]. exact Hs.
Qed.

(* what an entry point touches: the packed-refs temp file, or a path that stays inside *)
Definition inside (p : bytes) : Prop := p = TMP \/ path_ok p = true.

Lemma touched_ok o pop n :
  (pop = true -> valid_reference_name n = true) ->
  (guarded o = true -> valid_reference_name n = true) ->
  Forall inside (touched o pop n).
Proof.
  intros Hpop Hg.
  assert (Hfix : inside packedRefsPath /\ inside HEADp /\ inside refsDir /\ inside TMP)
    by (repeat split; try (right; reflexivity); now left).
  destruct Hfix as (Hpk & Hhd & Hrd & Htmp).
  assert (Hn : valid_reference_name n = true -> inside n) by (right; now apply valid_path_ok).
  assert (Hlog : valid_reference_name n = true -> inside (log_path n)) by (right; now apply log_path_ok).
  assert (Hwalk : Forall inside (walk_paths pop n)).
  { unfold walk_paths. constructor; [assumption|]. destruct pop; [|constructor].
    destruct (under refsDir n); [|constructor]. specialize (Hpop eq_refl).
    apply Forall_app. split; [|constructor; [now apply Hn|constructor]].
    apply Forall_forall. intros q Hq. right. apply (path_ok_parent n q); [now apply valid_path_ok|assumption]. }
  destruct o; cbn [touched guarded] in *; try specialize (Hg eq_refl);
    try solve [destruct pop, (beqb n HEADp); cbn [orb]; auto using Forall_cons, Forall_nil].
  - constructor; [assumption|]. apply Forall_app. split; [assumption|].
    destruct (pop && under refsDir n); auto using Forall_cons, Forall_nil.
  - constructor; [|auto using Forall_cons, Forall_nil].
    right. apply (path_ok_parent (log_path n)); [now apply log_path_ok|].
    apply last_in. unfold log_path, parents. rewrite logs_val. discriminate.
Qed.

Lemma footprint_confined o pop n l p :
  footprint o pop n = Some l -> In p l -> p = TMP \/ path_ok p = true.
Proof.
  unfold footprint. intros H Hin. revert p Hin. apply Forall_forall.
  destruct (valid_reference_name n) eqn:Ev.
  - rewrite andb_false_r in H. injection H as <-. rewrite andb_true_r. apply touched_ok; auto.
  - rewrite andb_true_r in H. destruct (guarded o) eqn:Eg; [discriminate|].
    injection H as <-. rewrite andb_false_r. apply touched_ok; [discriminate|congruence].
Qed.
