(* Proofs/C12WeReadExt.v — go-git's extension decoders (G) read what git's writers (S) emit:
   cache-tree write_one -> treeExtensionDecoder, resolve_undo_write -> resolveUndoDecoder. *)
From Coq Require Import List NArith ZArith Arith Lia ZifyBool ZifyNat ZifyN Bool.
From GoGit Require Import Base.Out Model.IndexFile Spec.GitIndex Proofs.C12 Proofs.C12Digits.
Import ListNotations.
Local Open Scope N_scope.

Scheme ctree_mind := Induction for ctree Sort Prop
  with cforest_mind := Induction for cforest Sort Prop.
Combined Scheme ctree_cforest_mind from ctree_mind, cforest_mind.

(* what go-git shows of git's cache tree: the valid nodes in pre-order, by their own name *)
Fixpoint ct_flat (name : bytes) (t : ctree) : list tree_entry :=
  match t with
  | CT cnt oid subs => (if (0 <=? cnt)%Z then [mkTE name cnt (Z.of_nat (cf_length subs)) oid] else []) ++ cf_flat subs
  end
with cf_flat (f : cforest) : list tree_entry :=
  match f with CNil => [] | CCons n t r => ct_flat n t ++ cf_flat r end.

Fixpoint ct_size (t : ctree) : nat := match t with CT _ _ subs => S (cf_size subs) end
with cf_size (f : cforest) : nat := match f with CNil => O | CCons _ t r => (ct_size t + cf_size r)%nat end.

(* entry_count and subtree_nr are C ints; valid nodes carry an object name of the hash size; names are C strings *)
Fixpoint wf_ct (hs : nat) (t : ctree) : bool :=
  match t with
  | CT cnt oid subs =>
    (- 2147483648 <=? cnt)%Z && (cnt <? 2147483648)%Z &&
    (if (0 <=? cnt)%Z then (List.length oid =? hs)%nat else true) &&
    (N.of_nat (cf_length subs) <? 2147483648) && wf_cf hs subs
  end
with wf_cf (hs : nat) (f : cforest) : bool :=
  match f with CNil => true | CCons n t r => nonul n && wf_ct hs t && wf_cf hs r end.

Section Ext.
Variable hs : nat.
Hypothesis hs_pos : (0 < hs)%nat.

Lemma tree_ext_reads :
  (forall t name rest acc f, nonul name = true -> wf_ct hs t = true ->
     read_tree_ext hs (ct_size t + f) (g_write_ct name t ++ rest) acc = read_tree_ext hs f rest (rev (ct_flat name t) ++ acc)) /\
  (forall fr rest acc f, wf_cf hs fr = true ->
     read_tree_ext hs (cf_size fr + f) (g_write_cf fr ++ rest) acc = read_tree_ext hs f rest (rev (cf_flat fr) ++ acc)).
Proof.
  apply ctree_cforest_mind.
  - intros cnt oid subs IH name rest acc f Hname Hw.
    cbn [wf_ct] in Hw.
    apply andb_true_iff in Hw as [Hw Hsubs]. apply andb_true_iff in Hw as [Hw Hn].
    apply andb_true_iff in Hw as [Hw Hoid]. apply andb_true_iff in Hw as [Hlo Hhi].
    apply Z.leb_le in Hlo. apply Z.ltb_lt in Hhi. apply N.ltb_lt in Hn.
    cbn [ct_size plus read_tree_ext g_write_ct].
    repeat (rewrite <- app_assoc || rewrite <- app_comm_cons).
    rewrite (read_until_delim 0 name) by exact Hname.
    rewrite (read_until_delim 32 (g_print_int cnt)) by (apply print_int_no; reflexivity).
    rewrite parse_print_int by lia.
    rewrite (read_until_delim 10 (g_print_int (Z.of_nat (cf_length subs)))) by (apply print_int_no; reflexivity).
    rewrite parse_print_int by lia.
    cbn [ct_flat]. rewrite (Z.ltb_antisym 0 cnt).
    destruct (0 <=? cnt)%Z; cbn [negb].
    + apply Nat.eqb_eq in Hoid.
      destruct (oid ++ g_write_cf subs ++ rest) as [|c l] eqn:E.
      { apply (f_equal (@List.length N)) in E. rewrite app_length in E. cbn in E. lia. }
      rewrite <- E. rewrite (take_app_n hs) by exact Hoid.
      rewrite IH by exact Hsubs.
      cbn [app rev]. rewrite <- app_assoc. reflexivity.
    + cbn [app]. now rewrite IH.
  - intros rest acc f _. reflexivity.
  - intros n t IHt r IHr rest acc f Hw.
    cbn [wf_cf] in Hw. apply andb_true_iff in Hw as [Hw Hr]. apply andb_true_iff in Hw as [Hn Ht].
    cbn [cf_size g_write_cf cf_flat]. rewrite <- Nat.add_assoc, <- app_assoc.
    rewrite IHt by assumption. rewrite IHr by assumption.
    rewrite rev_app_distr, <- app_assoc. reflexivity.
Qed.

Lemma ct_size_le :
  (forall t name, (ct_size t <= List.length (g_write_ct name t))%nat) /\
  (forall fr, (cf_size fr <= List.length (g_write_cf fr))%nat).
Proof.
  apply ctree_cforest_mind.
  - intros cnt oid subs IH name. cbn [ct_size g_write_ct]. rewrite app_length. cbn [List.length].
    rewrite !app_length. cbn [List.length]. rewrite !app_length. cbn [List.length]. rewrite !app_length. lia.
  - cbn. lia.
  - intros n t IHt r IHr. cbn [cf_size g_write_cf]. rewrite app_length. specialize (IHt n). lia.
Qed.

(* treeExtensionDecoder.Decode over the whole extension *)
Lemma tree_ext_whole t : wf_ct hs t = true ->
  read_tree_ext hs (S (List.length (g_write_ct [] t))) (g_write_ct [] t) [] = Ok (ct_flat [] t).
Proof.
  intros Hw. pose proof (proj1 ct_size_le t []) as Hle.
  replace (S (List.length (g_write_ct [] t))) with (ct_size t + S (List.length (g_write_ct [] t) - ct_size t))%nat by lia.
  rewrite <- (app_nil_r (g_write_ct [] t)) at 2.
  rewrite (proj1 tree_ext_reads) by (try reflexivity; exact Hw).
  cbn [read_tree_ext read_until]. rewrite app_nil_r, rev_involutive. reflexivity.
Qed.

Definition reuc_view (r : greuc) : reuc_entry :=
  mkRE (gr_path r) ((if gr_m1 r =? 0 then [] else [(1, gr_o1 r)]) ++ (if gr_m2 r =? 0 then [] else [(2, gr_o2 r)]) ++
                    (if gr_m3 r =? 0 then [] else [(3, gr_o3 r)])).

Definition wf_reuc (r : greuc) : bool :=
  nonul (gr_path r) && (gr_m1 r <? 4294967296) && (gr_m2 r <? 4294967296) && (gr_m3 r <? 4294967296) &&
  ((gr_m1 r =? 0) || (List.length (gr_o1 r) =? hs)%nat) && ((gr_m2 r =? 0) || (List.length (gr_o2 r) =? hs)%nat) &&
  ((gr_m3 r =? 0) || (List.length (gr_o3 r) =? hs)%nat).

Lemma reuc_stage_reads m rest : m < 4294967296 ->
  read_reuc_stage (g_print_nat 8 m ++ 0 :: rest) = Some (Ok (negb (m =? 0), rest)).
Proof.
  intros Hm. unfold read_reuc_stage.
  rewrite (read_until_delim 0 (g_print_nat 8 m)) by (apply print_nat_no; [lia|reflexivity]).
  rewrite parse_print_nat by lia.
  replace (Z.of_N m =? 0)%Z with (m =? 0) by (clear; lia).
  reflexivity.
Qed.

Lemma reuc_hashes_reads r rest : wf_reuc r = true ->
  read_reuc_hashes hs ((if negb (gr_m1 r =? 0) then [1] else []) ++ (if negb (gr_m2 r =? 0) then [2] else []) ++
                       (if negb (gr_m3 r =? 0) then [3] else []))
    ((if gr_m1 r =? 0 then [] else gr_o1 r) ++ (if gr_m2 r =? 0 then [] else gr_o2 r) ++ (if gr_m3 r =? 0 then [] else gr_o3 r) ++ rest) []
  = Some (Ok (re_stages (reuc_view r), rest)).
Proof.
  unfold wf_reuc. intros Hw.
  apply andb_true_iff in Hw as [Hw H3]. apply andb_true_iff in Hw as [Hw H2]. apply andb_true_iff in Hw as [Hw H1].
  unfold reuc_view. cbn [re_stages].
  destruct (gr_m1 r =? 0), (gr_m2 r =? 0), (gr_m3 r =? 0); cbn [orb negb app] in *;
    rewrite ?reuc_hash1 by (auto; now apply Nat.eqb_eq); reflexivity.
Qed.

Lemma reuc_ext_reads : forall l acc f, forallb wf_reuc l = true ->
  read_reuc_ext hs (List.length l + S f) (g_write_reuc l) acc = Ok (rev acc ++ map reuc_view l).
Proof.
  induction l as [|r l IH]; intros acc f Hw.
  - cbn. now rewrite app_nil_r.
  - cbn [forallb] in Hw. apply andb_true_iff in Hw as [Hr Hl].
    pose proof Hr as Hr'. unfold wf_reuc in Hr'.
    apply andb_true_iff in Hr' as [Hr' _]. apply andb_true_iff in Hr' as [Hr' _]. apply andb_true_iff in Hr' as [Hr' _].
    apply andb_true_iff in Hr' as [Hr' M3]. apply andb_true_iff in Hr' as [Hr' M2]. apply andb_true_iff in Hr' as [Hp M1].
    apply N.ltb_lt in M1, M2, M3.
    cbn [List.length plus read_reuc_ext].
    unfold g_write_reuc. cbn [flat_map]. fold (g_write_reuc l).
    unfold g_write_reuc1.
    repeat (rewrite <- app_assoc || rewrite <- app_comm_cons).
    rewrite (read_until_delim 0 (gr_path r)) by exact Hp.
    rewrite reuc_stage_reads by exact M1. rewrite reuc_stage_reads by exact M2. rewrite reuc_stage_reads by exact M3.
    rewrite reuc_hashes_reads by exact Hr.
    rewrite IH by exact Hl. cbn [rev map]. rewrite <- app_assoc. cbn [app].
    destruct r; reflexivity.
Qed.

Lemma reuc_ext_whole l : forallb wf_reuc l = true ->
  read_reuc_ext hs (S (List.length (g_write_reuc l))) (g_write_reuc l) [] = Ok (map reuc_view l).
Proof.
  intros Hw.
  assert (Hle : (List.length l <= List.length (g_write_reuc l))%nat).
  { apply flat_map_length_ge. intros r. unfold g_write_reuc1. rewrite app_length. cbn [List.length]. lia. }
  replace (S (List.length (g_write_reuc l))) with (List.length l + S (List.length (g_write_reuc l) - List.length l))%nat by lia.
  now rewrite reuc_ext_reads.
Qed.

End Ext.
