(* Proofs/C02Dec.v — decimal printing / parsing of Model/ObjLines:
   digits_val (print_dec n) = Some n, strconv.ParseInt reads back what %d
   printed, the two-digit fields of the zone. *)
From Coq Require Import List NArith ZArith Bool Lia ZifyBool ZifyNat ZifyN.
From GoGit Require Import Base.Out Model.ObjLines Proofs.ObjLinesFacts.
Import ListNotations.
Local Open Scope N_scope.

Lemma digits_acc_app x : forall y a,
  digits_acc a (x ++ y) = match digits_acc a x with Some v => digits_acc v y | None => None end.
Proof.
  induction x as [|c x IH]; intros y a; cbn [app digits_acc]; [reflexivity|].
  destruct (is_digit c); [apply IH|reflexivity].
Qed.

Lemma is_digit_48 d : d < 10 -> is_digit (48 + d) = true.
Proof. intros H. unfold is_digit. lia. Qed.

Lemma dec_aux_spec : forall fuel n acc, n < 10 ^ N.of_nat fuel ->
  exists ds, dec_aux fuel n acc = ds ++ acc /\ forallb is_digit ds = true /\
             (forall a, digits_acc a ds = Some (a * 10 ^ N.of_nat (List.length ds) + n)) /\
             (fuel <> O -> ds <> []).
Proof.
  induction fuel as [|f IH]; intros n acc Hn.
  - exists []. cbn in Hn. assert (n = 0) by lia. subst. repeat split; try reflexivity.
    + intros a. cbn [digits_acc List.length]. f_equal. change (N.of_nat 0) with 0. rewrite N.pow_0_r. lia.
    + contradiction.
  - cbn [dec_aux]. pose proof (N.mod_lt n 10 ltac:(lia)) as Hm.
    destruct (n / 10 =? 0) eqn:E.
    + exists [48 + n mod 10]. repeat split; try reflexivity.
      * cbn [forallb]. now rewrite (is_digit_48 _ Hm).
      * intros a. cbn [digits_acc List.length]. rewrite (is_digit_48 _ Hm). f_equal.
        pose proof (N.div_mod n 10 ltac:(lia)). change (N.of_nat 1) with 1. rewrite N.pow_1_r. lia.
      * discriminate.
    + assert (Hq : n / 10 < 10 ^ N.of_nat f).
      { apply N.div_lt_upper_bound; [lia|]. rewrite Nat2N.inj_succ, N.pow_succ_r' in Hn. exact Hn. }
      destruct (IH (n / 10) ((48 + n mod 10) :: acc) Hq) as [ds [Hd [Hdig [Hval _]]]].
      exists (ds ++ [48 + n mod 10]). repeat split.
      * now rewrite Hd, <- app_assoc.
      * rewrite forallb_app, Hdig. cbn [forallb andb]. now rewrite (is_digit_48 _ Hm).
      * intros a. rewrite digits_acc_app, Hval. cbn [digits_acc]. rewrite (is_digit_48 _ Hm). f_equal.
        rewrite app_length. cbn [List.length]. rewrite Nat.add_1_r, Nat2N.inj_succ, N.pow_succ_r'.
        pose proof (N.div_mod n 10 ltac:(lia)) as Hdm.
        set (P := 10 ^ N.of_nat (List.length ds)) in *.
        replace (48 + n mod 10 - 48) with (n mod 10) by lia.
        replace (a * (10 * P)) with (10 * (a * P)) by ring. lia.
      * intros _ H. now destruct ds.
Qed.

Lemma print_dec_fuel n : n < 10 ^ N.of_nat (S (N.to_nat (N.size n))).
Proof.
  rewrite Nat2N.inj_succ, N2Nat.id, N.pow_succ_r'.
  pose proof (N.size_gt n) as H.
  assert (2 ^ N.size n <= 10 ^ N.size n) by (apply N.pow_le_mono_l; lia).
  assert (0 < 10 ^ N.size n) by (apply N.neq_0_lt_0, N.pow_nonzero; lia). lia.
Qed.

Lemma print_dec_spec n :
  print_dec n <> [] /\ forallb is_digit (print_dec n) = true /\
  forall a, digits_acc a (print_dec n) = Some (a * 10 ^ N.of_nat (List.length (print_dec n)) + n).
Proof.
  unfold print_dec.
  destruct (dec_aux_spec _ n [] (print_dec_fuel n)) as [ds [Hd [Hdig [Hval Hne]]]].
  rewrite Hd, app_nil_r. repeat split; [now apply Hne|exact Hdig|exact Hval].
Qed.

Lemma print_dec_nonempty n : print_dec n <> [].
Proof. apply print_dec_spec. Qed.
Lemma print_dec_digits n : forallb is_digit (print_dec n) = true.
Proof. apply print_dec_spec. Qed.

Lemma digits_val_print_dec n : digits_val (print_dec n) = Some n.
Proof.
  destruct (print_dec_spec n) as [Hne [_ Hval]]. unfold digits_val.
  destruct (print_dec n) eqn:E; [contradiction|]. rewrite Hval. f_equal; lia.
Qed.

Lemma print_dec_inj a b : print_dec a = print_dec b -> a = b.
Proof.
  intros H. pose proof (digits_val_print_dec a) as Ha. rewrite H, digits_val_print_dec in Ha. now inversion Ha.
Qed.

Lemma digit_not_punct c : is_digit c = true -> (c =? 43) = false /\ (c =? 45) = false /\ (c =? 32) = false /\ (c =? 10) = false /\ (c =? 60) = false /\ (c =? 62) = false.
Proof. unfold is_digit. intros H. repeat split; lia. Qed.

Lemma parse_int64_digits ds n : ds <> [] -> forallb is_digit ds = true -> digits_val ds = Some n ->
  (Z.of_N n < 2 ^ 63)%Z -> parse_int64 ds = Some (Z.of_N n).
Proof.
  intros Hne Hdig Hv Hr. destruct ds as [|c r]; [contradiction|].
  cbn [forallb] in Hdig. apply andb_true_iff in Hdig as [Hc _].
  destruct (digit_not_punct _ Hc) as [H43 [H45 _]].
  unfold parse_int64. rewrite H43, H45, Hv.
  assert (E : ((- 2 ^ 63 <=? Z.of_N n) && (Z.of_N n <? 2 ^ 63))%Z = true) by lia. now rewrite E.
Qed.

Lemma parse_int64_signed s ds n : (s =? 43) || (s =? 45) = true -> digits_val ds = Some n -> (Z.of_N n < 2 ^ 63)%Z ->
  parse_int64 (s :: ds) = Some (if s =? 45 then (- Z.of_N n)%Z else Z.of_N n).
Proof.
  intros Hs Hv Hr. unfold parse_int64. destruct (s =? 43) eqn:E43.
  - apply N.eqb_eq in E43. subst s. change (43 =? 45) with false. rewrite Hv.
    replace ((- 2 ^ 63 <=? Z.of_N n) && (Z.of_N n <? 2 ^ 63))%Z with true by lia. reflexivity.
  - cbn [orb] in Hs. rewrite Hs, Hv.
    replace ((- 2 ^ 63 <=? - Z.of_N n) && (- Z.of_N n <? 2 ^ 63))%Z with true by lia. reflexivity.
Qed.

Lemma parse_int64_print_dec n : (Z.of_N n < 2 ^ 63)%Z -> parse_int64 (print_dec n) = Some (Z.of_N n).
Proof.
  intros H. apply parse_int64_digits; [apply print_dec_nonempty|apply print_dec_digits|apply digits_val_print_dec|exact H].
Qed.

Lemma pad2_table :
  forallb (fun k => beqb (pad2 (N.of_nat k)) [48 + N.of_nat k / 10; 48 + N.of_nat k mod 10]) (seq 0 100) = true.
Proof. vm_compute. reflexivity. Qed.

Lemma pad2_two n : n < 100 -> pad2 n = [48 + n / 10; 48 + n mod 10].
Proof.
  intros H. pose proof pad2_table as T. rewrite forallb_forall in T.
  specialize (T (N.to_nat n)). rewrite N2Nat.id in T. apply beqb_eq, T, in_seq. lia.
Qed.

Lemma pad2_form n : n < 100 -> exists a b, a < 10 /\ b < 10 /\ n = 10 * a + b /\ pad2 n = [48 + a; 48 + b].
Proof.
  intros H. exists (n / 10), (n mod 10). pose proof (N.div_mod n 10 ltac:(lia)). pose proof (N.mod_lt n 10 ltac:(lia)).
  repeat split; [apply N.div_lt_upper_bound; lia|assumption|assumption|now apply pad2_two].
Qed.

Lemma digits_val_two a b : a < 10 -> b < 10 -> digits_val [48 + a; 48 + b] = Some (10 * a + b).
Proof.
  intros Ha Hb. unfold digits_val. cbn [digits_acc]. rewrite (is_digit_48 _ Ha), (is_digit_48 _ Hb). f_equal. lia.
Qed.
