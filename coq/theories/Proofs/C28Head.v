(* Proofs/C28Head.v — Commit's parents and reference update against git commit. *)
From Coq Require Import List NArith Arith Bool.
From GoGit Require Import Base.Out Model.CommitHead Spec.GitCommitHead.
Import ListNotations.
Local Open Scope N_scope.

(* no explicit parents, not -a, no merge in progress, the index is empty exactly
   when its tree is the empty tree, the tree id is not the all-zero id, and an
   amended commit is not a merge *)
Definition commit_head_guard (r : crepo) (o : copts) (tree : N) (idx_empty : bool) : bool :=
  is_nil (o_parents o) && negb (o_all o) &&
  match r_merge_head r with None => true | Some _ => false end &&
  Bool.eqb idx_empty (tree =? EMPTY_TREE) && negb (tree =? ZERO_TREE) &&
  (negb (o_amend o) ||
   match head_of r with
   | Some h => match commit_of (r_commits r) h with Some (_, ps) => Nat.leb (List.length ps) 1 | None => true end
   | None => true
   end).

Lemma commit_head_eq r o tree e :
  commit_head_guard r o tree e = true -> g_commit_head r o tree e = s_commit_head r o tree.
Proof.
  unfold commit_head_guard. rewrite !andb_true_iff. intros (((((G1 & G2) & G3) & G4) & G5) & G6).
  apply negb_true_iff in G2, G5. apply eqb_prop in G4. subst e.
  destruct (o_parents o) as [|x xs] eqn:EP; [|discriminate].
  destruct (r_merge_head r) eqn:EM; [discriminate|].
  unfold g_commit_head, s_commit_head. rewrite G2, EP, EM. cbn [andb is_nil negb].
  destruct (o_amend o) eqn:EA; cbn [negb orb andb] in *.
  - destruct (head_of r) as [h|]; [|reflexivity].
    destruct (commit_of (r_commits r) h) as [[th ps]|]; [|reflexivity].
    destruct ps as [|p [|p2 ps]]; cbn [is_nil List.length Nat.leb Nat.ltb andb negb] in *; try discriminate.
    + destruct (tree =? EMPTY_TREE), (o_allow_empty o); cbn [andb negb]; try reflexivity; now rewrite G5.
    + unfold tree_of. destruct (commit_of (r_commits r) p) as [[pt pps]|]; cbn [option_map fst]; [|reflexivity].
      rewrite andb_true_r. reflexivity.
  - destruct (head_of r) as [h|].
    + cbn [is_nil andb]. destruct (commit_of (r_commits r) h) as [[th ps]|]; reflexivity.
    + cbn [is_nil andb]. destruct (tree =? EMPTY_TREE), (o_allow_empty o); cbn [andb negb]; try reflexivity; now rewrite G5.
Qed.
