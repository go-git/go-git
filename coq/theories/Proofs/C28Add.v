(* Proofs/C28Add.v — add (file / directory / All / any set of names), rm of a
   directory and clean without Dir against git's, under explicit boolean guards.
   Index equality is stated per path and up to the cached stat data (size,
   mtime), which neither `git ls-files -s` nor a tree shows: go-git leaves the
   entry of an unchanged file alone, git refreshes its stat fields. *)
From Coq Require Import List NArith Arith Bool.
From GoGit Require Import Base.Out Model.Status Model.IndexOps Spec.GitStatus Spec.GitIndexOps Proofs.C27 Proofs.C28.
Import ListNotations.
Local Open Scope N_scope.

(* two convertible copies exist (Proofs.C27, Model.IndexOps); the operations use the latter *)
Local Notation is_some := IndexOps.is_some (only parsing).

Lemma find_i_set i n : forall q,
  find_i (idx_set i n) q = if bytes_eqb (ie_path n) q then Some n else find_i i q.
Proof.
  induction i as [|e r IH]; intros q; [reflexivity|].
  cbn [idx_set]. destruct (bytes_eqb (ie_path e) (ie_path n)) eqn:E.
  - apply bytes_eqb_eq in E. cbn [find_i]. rewrite E. destruct (bytes_eqb (ie_path n) q); reflexivity.
  - cbn [find_i]. rewrite IH. destruct (bytes_eqb (ie_path e) q) eqn:E2; [|reflexivity].
    apply bytes_eqb_eq in E2. subst q. rewrite bytes_eqb_sym, E. reflexivity.
Qed.

Lemma find_i_filter (g : path -> bool) i q :
  find_i (filter (fun e => g (ie_path e)) i) q = if g q then find_i i q else None.
Proof. rewrite !find_i_find. apply (look_filter ie_path). Qed.

Lemma find_i_remove i p q : find_i (idx_remove i p) q = if bytes_eqb p q then None else find_i i q.
Proof.
  rewrite idx_remove_filter, (find_i_filter (fun x => negb (bytes_eqb x p))), bytes_eqb_sym.
  now destruct (bytes_eqb p q).
Qed.

Lemma mem_path_filter (g : path -> bool) q l : mem_path q (filter g l) = g q && mem_path q l.
Proof.
  induction l as [|x l IH]; [now rewrite andb_false_r|].
  cbn [filter]. destruct (g x) eqn:G; cbn [mem_path]; rewrite IH;
    (destruct (bytes_eqb x q) eqn:E; [|reflexivity]); apply bytes_eqb_eq in E; subst; now rewrite G.
Qed.

Lemma fold_idx_remove vs i :
  fold_left idx_remove vs i = filter (fun e => negb (mem_path (ie_path e) vs)) i.
Proof. apply (fold_remove ie_path), idx_remove_filter. Qed.

Lemma fold_wt_remove vs w :
  fold_left wt_remove vs w = filter (fun f => negb (mem_path (wf_path f) vs)) w.
Proof. apply (fold_remove wf_path), wt_remove_filter. Qed.

(* p is a directory of the worktree that is not itself an index entry, some
   entry lies below it, and every entry below it still has its file *)
Definition rm_dir_guard (s : state) (p : path) : bool :=
  negb (existsb (fun f => under (wf_path f) p) (st_wt s)) &&
  is_dir_wt s p && negb (has_file s p) &&
  negb (is_some (find_i (st_index s) p)) &&
  existsb (fun e => under p (ie_path e)) (st_index s) &&
  forallb (fun e => negb (under p (ie_path e)) || has_file s (ie_path e)) (st_index s).

(* git rm fails when the path of its first victim is a directory now; not so when all have their file *)
Lemma first_fails_files s vs : forallb (has_file s) vs = true -> first_fails s vs = false.
Proof.
  destruct vs as [|v r]; [reflexivity|]. cbn [forallb first_fails]. intros H.
  apply andb_true_iff in H as [-> _]. apply andb_false_r.
Qed.

Lemma filter_under_nonempty p i :
  existsb (fun e => under p (ie_path e)) i = true -> filter (under p) (map ie_path i) <> [].
Proof.
  induction i as [|e r IH]; [discriminate|]. cbn [existsb map filter].
  destruct (under p (ie_path e)); [discriminate|]. cbn [orb]. exact IH.
Qed.

Lemma rm_dir_eq s p : rm_dir_guard s p = true -> g_rm s p = s_rm s p.
Proof.
  unfold rm_dir_guard. rewrite !andb_true_iff. intros (((((G1 & G2) & G3) & G4) & G5) & G6).
  apply negb_true_iff in G1, G4.
  unfold g_rm, s_rm. rewrite G1, G2, G3. cbn [andb].
  destruct (find_i (st_index s) p) as [e|] eqn:Ei; [discriminate|].
  destruct (filter (under p) (map ie_path (st_index s))) as [|v0 vr] eqn:Ev.
  { exfalso. now apply (filter_under_nonempty p (st_index s)). }
  rewrite <- Ev. clear Ev v0 vr.
  assert (Hff : first_fails s (filter (under p) (map ie_path (st_index s))) = false).
  { apply first_fails_files, forallb_forall. intros v Hv.
    apply filter_In in Hv as [Hv Hu]. apply in_map_iff in Hv as [e [<- He]].
    rewrite forallb_forall in G6. specialize (G6 e He). now rewrite Hu in G6. }
  rewrite Hff. change (@IndexOps.is_some) with (@C27.is_some).
  (* both sides are filters of the index and of the worktree; the predicates agree on every element *)
  rewrite !fold_idx_remove, !fold_wt_remove. f_equal. f_equal.
  - apply filter_ext_in. intros e He. f_equal.
    rewrite !mem_path_filter, mem_idx_paths, mem_wt_paths.
    rewrite forallb_forall in G6. specialize (G6 e He).
    assert (Hi : C27.is_some (find_i (st_index s) (ie_path e)) = true).
    { rewrite <- mem_idx_paths. apply mem_path_in. now apply in_map. }
    rewrite Hi. unfold has_file in G6.
    destruct (under p (ie_path e)); cbn [andb negb orb] in *; [|reflexivity].
    destruct (find_w (st_wt s) (ie_path e)); [reflexivity|discriminate].
  - apply filter_ext_in. intros f Hf. f_equal.
    rewrite !mem_path_filter, mem_idx_paths, mem_wt_paths.
    assert (Hw : C27.is_some (find_w (st_wt s) (wf_path f)) = true).
    { rewrite <- mem_wt_paths. apply mem_path_in. now apply in_map. }
    rewrite Hw. destruct (under p (wf_path f)), (find_i (st_index s) (wf_path f)); reflexivity.
Qed.

Lemma dir_prefixes_noslash p : forall cur, existsb (fun c => c =? SLASH) p = false -> dir_prefixes p cur = [].
Proof.
  induction p as [|c r IH]; intros cur H; [reflexivity|].
  cbn [existsb] in H. apply orb_false_iff in H as [Hc H]. cbn [dir_prefixes]. rewrite Hc. now apply IH.
Qed.

Lemma at_root_tracked_dirs s q : at_root q = true -> in_tracked_dirs s q = true.
Proof.
  unfold at_root, in_tracked_dirs. intros H. apply negb_true_iff in H.
  rewrite dir_prefixes_noslash by exact H. reflexivity.
Qed.

(* clean_guard, and no untracked file lies in a directory that git enters
   without -d (one all of whose ancestors hold tracked files) *)
Definition clean_nod_guard (s : state) : bool :=
  clean_guard s &&
  forallb (fun f => negb (git_untracked s (wf_path f)) || at_root (wf_path f) || negb (in_tracked_dirs s (wf_path f))) (st_wt s).

Lemma clean_nod_eq s : clean_nod_guard s = true -> g_clean s false = s_clean s false.
Proof.
  unfold clean_nod_guard. intros G. apply andb_true_iff in G as [G G3]. rewrite forallb_forall in G3.
  apply clean_eq; [exact G|]. intros f Hf U. specialize (G3 f Hf). rewrite U in G3. cbn [negb orb] in *.
  destruct (at_root (wf_path f)) eqn:A; [now rewrite at_root_tracked_dirs|].
  symmetry. now apply negb_true_iff.
Qed.

(* what the index shows of an entry: everything but the cached stat data *)
Definition sem (e : ientry) : path * fmode * hash * bool := (ie_path e, ie_mode e, ie_hash e, ie_ita e).
Definition idx_sem_eq (i1 i2 : list ientry) : Prop :=
  forall q, option_map sem (find_i i1 q) = option_map sem (find_i i2 q).

Definition res_equiv (a b : res) : Prop :=
  match a, b with
  | ROk s1, ROk s2 =>
    idx_sem_eq (st_index s1) (st_index s2) /\ st_wt s1 = st_wt s2 /\ st_head s1 = st_head s2 /\
    st_fmt s1 = st_fmt s2 /\ st_filemode s1 = st_filemode s2 /\ st_idxtime s1 = st_idxtime s2
  | RErr s1, RErr s2 => s1 = s2
  | _, _ => False
  end.

(* the effect of one name on a lookup *)
Definition after1 (a : add1) (old : option ientry) : option ientry :=
  match a with ASkip | AErr => old | ASet e => Some e | ADel => None end.

Lemma find_apply_add1 i p a q :
  (forall e, a = ASet e -> ie_path e = p) ->
  find_i (apply_add1 i p a) q = if bytes_eqb p q then after1 a (find_i i q) else find_i i q.
Proof.
  intros Hp. destruct a as [|e| |]; cbn [apply_add1 after1].
  - destruct (bytes_eqb p q); reflexivity.
  - rewrite find_i_set, (Hp e eq_refl). reflexivity.
  - rewrite find_i_remove. reflexivity.
  - destruct (bytes_eqb p q); reflexivity.
Qed.

Lemma fold_add (A : path -> add1) names : forall i q,
  (forall p e, A p = ASet e -> ie_path e = p) ->
  nodup_b names = true ->
  find_i (fold_left (fun i p => apply_add1 i p (A p)) names i) q =
  if mem_path q names then after1 (A q) (find_i i q) else find_i i q.
Proof.
  induction names as [|n names IH]; intros i q HA Hn; [reflexivity|].
  cbn [nodup_b] in Hn. apply andb_true_iff in Hn as [Hn1 Hn]. apply negb_true_iff in Hn1.
  cbn [fold_left mem_path]. rewrite IH by assumption.
  rewrite find_apply_add1 by (intros e; apply HA).
  destruct (bytes_eqb n q) eqn:E.
  - apply bytes_eqb_eq in E. subst q. rewrite Hn1. reflexivity.
  - cbn [orb]. reflexivity.
Qed.

Definition stepS (s : state) (sc : path -> bool) (i : list ientry) (f : wfile) : list ientry :=
  if sc (wf_path f) && negb (git_skips s f)
  then idx_set (drop_conflicts i (wf_path f)) (git_entry s (st_index s) f) else i.

(* no path of the worktree is a directory of, or lies below, an index entry or another file *)
Definition noconf (s : state) : bool :=
  forallb (fun f => forallb (fun e => negb (df_conflict (wf_path f) (ie_path e))) (st_index s) &&
                    forallb (fun f' => negb (df_conflict (wf_path f) (wf_path f'))) (st_wt s)) (st_wt s).

(* every entry's path is the path of an index entry or of a worktree file *)
Definition known_paths (s : state) (i : list ientry) : Prop :=
  forall e, In e i -> (exists e0, In e0 (st_index s) /\ ie_path e = ie_path e0) \/
                      (exists f, In f (st_wt s) /\ ie_path e = wf_path f).

Lemma noconf_in s f :
  noconf s = true -> In f (st_wt s) ->
  (forall e, In e (st_index s) -> df_conflict (wf_path f) (ie_path e) = false) /\
  (forall f', In f' (st_wt s) -> df_conflict (wf_path f) (wf_path f') = false).
Proof.
  unfold noconf. rewrite forallb_forall. intros N Hf. specialize (N f Hf).
  apply andb_true_iff in N as [N1 N2]. rewrite forallb_forall in N1, N2.
  split; intros x Hx; apply negb_true_iff; auto.
Qed.

Lemma drop_conflicts_id s i f :
  noconf s = true -> In f (st_wt s) -> known_paths s i -> drop_conflicts i (wf_path f) = i.
Proof.
  intros N Hf K. destruct (noconf_in s f N Hf) as [N1 N2].
  unfold drop_conflicts. induction i as [|e r IH]; [reflexivity|]. cbn [filter].
  assert (Hc : df_conflict (wf_path f) (ie_path e) = false).
  { destruct (K e (or_introl eq_refl)) as [[e0 [H0 ->]]|[f' [H' ->]]]; auto. }
  rewrite Hc. cbn [negb]. f_equal. apply IH. intros e' He'. apply K. now right.
Qed.

Lemma known_set s i f : In f (st_wt s) -> known_paths s i -> known_paths s (idx_set i (git_entry s (st_index s) f)).
Proof.
  intros Hf K. induction i as [|e r IH]; intros e' He'.
  - cbn [idx_set] in He'. destruct He' as [<-|[]]. right. exists f. split; [exact Hf|reflexivity].
  - cbn [idx_set] in He'. destruct (bytes_eqb (ie_path e) (ie_path (git_entry s (st_index s) f))).
    + destruct He' as [<-|He']; [right; exists f; split; [exact Hf|reflexivity]|]. apply K. now right.
    + destruct He' as [<-|He']; [apply K; now left|]. apply IH; [|exact He']. intros x Hx. apply K. now right.
Qed.

Fixpoint nodup_w (w : list wfile) : bool :=
  match w with [] => true | f :: r => negb (is_some (find_w r (wf_path f))) && nodup_w r end.

(* without conflicts nothing is dropped: each file in scope sets its own entry *)
Lemma stepS_find s sc w : forall i q,
  noconf s = true -> (forall f, In f w -> In f (st_wt s)) -> known_paths s i -> nodup_w w = true ->
  find_i (fold_left (stepS s sc) w i) q =
  match find_w w q with
  | Some f => if sc q && negb (git_skips s f) then Some (git_entry s (st_index s) f) else find_i i q
  | None => find_i i q
  end.
Proof.
  induction w as [|f w IH]; intros i q N Hw K Hn; [reflexivity|].
  cbn [nodup_w] in Hn. apply andb_true_iff in Hn as [Hn1 Hn]. apply negb_true_iff in Hn1.
  assert (Hf : In f (st_wt s)) by (apply Hw; now left).
  assert (E : stepS s sc i f =
              if sc (wf_path f) && negb (git_skips s f) then idx_set i (git_entry s (st_index s) f) else i).
  { unfold stepS. now rewrite (drop_conflicts_id s i f). }
  cbn [fold_left find_w]. rewrite IH; [|exact N|intros x Hx; apply Hw; now right| |exact Hn].
  2:{ rewrite E. destruct (sc (wf_path f) && negb (git_skips s f)); [now apply known_set|exact K]. }
  rewrite E. destruct (bytes_eqb (wf_path f) q) eqn:Eq.
  - apply bytes_eqb_eq in Eq. subst q. destruct (find_w w (wf_path f)); [discriminate|].
    destruct (sc (wf_path f) && negb (git_skips s f)); [|reflexivity].
    rewrite find_i_set. cbn [git_entry ie_path]. now rewrite bytes_eqb_refl.
  - destruct (sc (wf_path f) && negb (git_skips s f)); [|reflexivity].
    rewrite find_i_set. cbn [git_entry ie_path]. now rewrite Eq.
Qed.

Lemma known_kept s (g : ientry -> bool) : known_paths s (filter g (st_index s)).
Proof. intros e He. apply filter_In in He as [He _]. left. exists e. split; [exact He|reflexivity]. Qed.

(* what git's index holds at a path of the scope after staging: the file's entry, nothing when the
   file is gone, the old entry when the file is skipped *)
Definition git_at (s : state) (q : path) : option ientry :=
  match find_w (st_wt s) q with
  | Some f => if negb (git_skips s f) then Some (git_entry s (st_index s) f) else find_i (st_index s) q
  | None => None
  end.

Lemma git_scope_find s sc q :
  noconf s = true -> nodup_w (st_wt s) = true ->
  find_i (git_add_scope s sc) q = if sc q then git_at s q else find_i (st_index s) q.
Proof.
  intros N Hn. unfold git_add_scope. fold (stepS s sc).
  rewrite stepS_find; [|exact N|auto|apply known_kept|exact Hn].
  rewrite (find_i_filter (fun p => negb (sc p) || has_file s p)).
  unfold has_file, git_at. destruct (find_w (st_wt s) q), (sc q); reflexivity.
Qed.

Definition wcode (s : state) (q : path) : code := snd (sfile (status_map s) q).

Lemma wcode_unmod s q :
  code_eqb (wcode s q) CUnmod = match left_change s q, right_change s q with Some _, None => true | _, _ => false end.
Proof.
  unfold wcode, sfile. rewrite status_map_get.
  destruct (left_change s q) as [[]|], (right_change s q) as [[]|]; reflexivity.
Qed.

(* the per-entry conditions under which an entry and its unchanged file agree with what git stages *)
Definition entry_ok (s : state) (e : ientry) (f : wfile) : bool :=
  (h_fmt (ie_hash e) =? st_fmt s) && negb (ie_ita e) &&
  (negb (metadata_matches s e f) || (h_cid (ie_hash e) =? wf_cid f)).

Definition add_guard (s : state) : bool :=
  st_filemode s && noconf s && nodup_w (st_wt s) &&
  forallb (fun f => match find_i (st_index s) (wf_path f) with
                    | Some e => entry_ok s e f
                    | None => Bool.eqb (wf_ignored f) (wf_ignored_git f)
                    end) (st_wt s).

Lemma add_guard_parts s :
  add_guard s = true ->
  st_filemode s = true /\ noconf s = true /\ nodup_w (st_wt s) = true /\
  forall f, In f (st_wt s) ->
    match find_i (st_index s) (wf_path f) with
    | Some e => entry_ok s e f
    | None => Bool.eqb (wf_ignored f) (wf_ignored_git f)
    end = true.
Proof. unfold add_guard. rewrite !andb_true_iff, forallb_forall. tauto. Qed.

(* a name doAddFile treats as git add does: a tracked path; an untracked file that is not ignored, or
   ignored with the deletion of its path staged; a path without file whose deletion is staged *)
Definition name_ok (s : state) (q : path) : bool :=
  match find_i (st_index s) q, find_w (st_wt s) q with
  | None, Some f => (negb (wf_ignored f) && negb (wf_ignored_git f)) ||
                    (wf_ignored f && wf_ignored_git f && is_some (left_change s q))
  | None, None => is_some (left_change s q)
  | _, _ => true
  end.

Lemma hash_eta h : mkHash (h_fmt h) (h_cid h) = h.
Proof. destruct h; reflexivity. Qed.

Lemma hash_eqb_eq a b : hash_eqb a b = true -> a = b.
Proof.
  destruct a, b. unfold hash_eqb. simpl. intros H. apply andb_true_iff in H as [H1 H2].
  apply N.eqb_eq in H1, H2. now subst.
Qed.

(* an unchanged tracked file: the entry is, up to the stat data, what git stages *)
Lemma unchanged_sem s q e f :
  add_guard s = true -> find_i (st_index s) q = Some e -> find_w (st_wt s) q = Some f ->
  nhash_eqb (inode_hash (st_filemode s) e) (wnode_hash s f) = true ->
  sem e = sem (git_entry s (st_index s) f).
Proof.
  intros G Ei Ew Hh. destruct (add_guard_parts s G) as (Hfm & _ & _ & Hok).
  specialize (Hok f (find_w_in _ _ _ Ew)). apply find_w_path in Ew. subst q.
  rewrite Ei in Hok. unfold entry_ok in Hok.
  rewrite !andb_true_iff, N.eqb_eq, negb_true_iff in Hok. destruct Hok as [[H1 H2] H3].
  unfold wnode_hash, nhash_eqb in Hh. rewrite Ei, Hfm in Hh. apply andb_true_iff in Hh as [Hh Hm].
  (* with core.fileMode the index noder keeps the entry's mode *)
  assert (Em : ie_mode e = wf_mode f).
  { destruct (metadata_matches s e f); cbn [snd inode_hash] in Hm; apply fmode_eqb_eq in Hm; rewrite <- Hm;
      now destruct (ie_mode e). }
  (* the staged id stands for the content: by the guard after a metadata match, by the comparison otherwise *)
  assert (Eh : ie_hash e = mkHash (st_fmt s) (wf_cid f)).
  { destruct (metadata_matches s e f); cbn [fst negb orb inode_hash] in Hh, H3.
    - apply N.eqb_eq in H3. now rewrite <- H1, <- H3, hash_eta.
    - apply hash_eqb_eq in Hh. rewrite Hh in H1. now rewrite Hh, <- H1. }
  unfold sem, git_entry, git_mode. cbn [ie_path ie_mode ie_hash ie_ita].
  now rewrite Hfm, H2, Em, Eh, (find_i_path _ _ _ Ei).
Qed.

Lemma entry_of_file_sem s f : st_filemode s = true -> sem (entry_of_file s f) = sem (git_entry s (st_index s) f).
Proof. intros H. unfold sem, entry_of_file, git_entry, git_mode. cbn [ie_path ie_mode ie_hash ie_ita]. now rewrite H. Qed.

(* an index entry is neither below a file nor a directory of the worktree *)
Lemma noconf_entry s q e :
  noconf s = true -> find_i (st_index s) q = Some e ->
  existsb (fun f => under (wf_path f) q) (st_wt s) = false /\ is_dir_wt s q = false.
Proof.
  intros N Hq.
  assert (D : forall f, In f (st_wt s) -> under (wf_path f) q = false /\ under q (wf_path f) = false).
  { intros f Hf. apply orb_false_iff. rewrite <- (find_i_path _ _ _ Hq).
    apply (noconf_in s f N Hf), (find_i_in _ _ _ Hq). }
  unfold is_dir_wt. rewrite !existsb_false. split; intros f Hf; apply (D f Hf).
Qed.

(* git add skips an ignored file only when it is untracked *)
Lemma git_at_cases s q :
  git_at s q =
  match find_w (st_wt s) q, find_i (st_index s) q with
  | Some f, Some _ => Some (git_entry s (st_index s) f)
  | Some f, None => if wf_ignored_git f then None else Some (git_entry s (st_index s) f)
  | None, _ => None
  end.
Proof.
  unfold git_at, git_skips. destruct (find_w (st_wt s) q) as [f|] eqn:Ew; [|reflexivity].
  rewrite (find_w_path _ _ _ Ew). now destruct (find_i (st_index s) q), (wf_ignored_git f).
Qed.

(* the lookup after doAddFile(q), against git's, for a name in scope *)
Lemma name_in_scope s q :
  add_guard s = true -> name_ok s q = true ->
  is_aerr (add_file1 s (status_map s) q) = false /\
  option_map sem (after1 (add_file1 s (status_map s) q) (find_i (st_index s) q)) = option_map sem (git_at s q).
Proof.
  unfold name_ok. intros G Hn. destruct (add_guard_parts s G) as (G1 & G2 & G3 & G4).
  unfold add_file1. fold (wcode s q). rewrite wcode_unmod, right_change_cases, git_at_cases.
  destruct (find_i (st_index s) q) as [e|] eqn:Ei; destruct (find_w (st_wt s) q) as [f|] eqn:Ew.
  - destruct (nhash_eqb (inode_hash (st_filemode s) e) (wnode_hash s f)) eqn:H; destruct (left_change s q) as [a|];
      cbn [is_aerr after1 option_map]; try (split; [reflexivity|]; f_equal; now apply entry_of_file_sem).
    split; [reflexivity|]. f_equal. now apply (unchanged_sem s q).
  - destruct (noconf_entry s q e G2 Ei) as [-> ->].
    destruct (left_change s q); cbn [negb is_aerr after1 option_map]; split; reflexivity.
  - (* untracked file: not ignored, or ignored with a staged deletion (Worktree = Unmodified) *)
    apply orb_true_iff in Hn as [Hn|Hn].
    + apply andb_true_iff in Hn as [Hn1 Hn2]. apply negb_true_iff in Hn1, Hn2.
      rewrite Hn1, Hn2. destruct (left_change s q); cbn [negb is_aerr after1 option_map];
        (split; [reflexivity|]; f_equal; now apply entry_of_file_sem).
    + apply andb_true_iff in Hn as [Hn Hn3]. apply andb_true_iff in Hn as [Hn1 Hn2].
      rewrite Hn1, Hn2. destruct (left_change s q); [|discriminate]. cbn [is_aerr after1 option_map]. split; reflexivity.
  - (* neither: a staged deletion, Worktree = Unmodified *)
    destruct (left_change s q); [|discriminate]. cbn [is_aerr after1 option_map]. split; reflexivity.
Qed.

(* a path in scope that doAddFile is NOT called for, and whose worktree side shows no change *)
Lemma unnamed_in_scope s q :
  add_guard s = true -> right_change s q = None ->
  option_map sem (find_i (st_index s) q) = option_map sem (git_at s q).
Proof.
  intros G R. destruct (add_guard_parts s G) as (G1 & G2 & G3 & G4). rewrite right_change_cases in R. rewrite git_at_cases.
  destruct (find_i (st_index s) q) as [e|] eqn:Ei; destruct (find_w (st_wt s) q) as [f|] eqn:Ew; try discriminate.
  - cbn [option_map]. f_equal.
    destruct (nhash_eqb (inode_hash (st_filemode s) e) (wnode_hash s f)) eqn:H; [|discriminate].
    now apply (unchanged_sem s q).
  - pose proof (find_w_path _ _ _ Ew) as Pf.
    specialize (G4 f (find_w_in _ _ _ Ew)). rewrite Pf, Ei in G4. apply eqb_prop in G4.
    destruct (wf_ignored f) eqn:Ig; [|discriminate]. now rewrite <- G4.
  - reflexivity.
Qed.

Lemma add_file1_path s sm p e : add_file1 s sm p = ASet e -> ie_path e = p.
Proof.
  unfold add_file1. destruct (code_eqb _ _); [discriminate|].
  destruct (find_w (st_wt s) p) as [f|] eqn:Ew.
  - intros H. injection H as <-. exact (find_w_path _ _ _ Ew).
  - destruct (existsb _ _), (is_dir_wt s p), (find_i (st_index s) p); discriminate.
Qed.

(* THE add theorem: go-git calls doAddFile for [names]; git stages the scope [sc].
   When the names lie in the scope, include every path of the scope whose
   worktree side shows a change, and are acceptable, the two indexes agree. *)
Lemma add_scope_eq s sc names :
  add_guard s = true ->
  nodup_b names = true ->
  (forall q, mem_path q names = true -> sc q = true /\ name_ok s q = true) ->
  (forall q, sc q = true -> is_some (right_change s q) = true -> mem_path q names = true) ->
  res_equiv (add_names s names) (ROk (with_index s (git_add_scope s sc))).
Proof.
  intros G Hnd Hin Hall. destruct (add_guard_parts s G) as (G1 & G2 & G3 & G4).
  unfold add_names. cbv zeta.
  assert (Hne : existsb (fun p => is_aerr (add_file1 s (status_map s) p)) names = false).
  { apply existsb_false. intros p Hp. apply mem_path_in in Hp. destruct (Hin p Hp) as [_ Hok].
    apply (name_in_scope s p G Hok). }
  rewrite Hne. unfold res_equiv, with_index. cbn [st_index st_wt st_head st_fmt st_filemode st_idxtime].
  repeat split. intros q.
  rewrite fold_add; [|intros p e; apply add_file1_path|exact Hnd].
  rewrite git_scope_find by assumption.
  destruct (mem_path q names) eqn:M.
  - destruct (Hin q M) as [-> Hok]. apply (name_in_scope s q G Hok).
  - destruct (sc q) eqn:Hsc; [|reflexivity]. apply (unnamed_in_scope s q G).
    destruct (right_change s q) eqn:R; [|reflexivity]. rewrite (Hall q Hsc) in M; [discriminate|now rewrite R].
Qed.
