(* Proofs/CrashFacts.v — the abstract directory of Model/Crash.v read through
   flookup: every observer used by repo_ok is characterised by lookups, so that
   a mutation's effect is a statement about flookup only. *)
From Coq Require Import List NArith Arith Bool String.
From GoGit Require Import Base.Out Gen.C22 Model.Gc Model.Crash Spec.RepoOk Proofs.C22.
Import ListNotations.
Local Open Scope N_scope.

Lemma tkind_eqb_eq a b : tkind_eqb a b = true <-> a = b.
Proof. destruct a, b; cbn; split; congruence. Qed.
Lemma pext_eqb_eq a b : pext_eqb a b = true <-> a = b.
Proof. destruct a, b; cbn; split; congruence. Qed.

Lemma path_eqb_eq a b : path_eqb a b = true <-> a = b.
Proof.
  destruct a, b; cbn; try (split; congruence).
  - rewrite String.eqb_eq. split; congruence.
  - rewrite andb_true_iff, tkind_eqb_eq, Nat.eqb_eq. split; [intros [-> ->]; reflexivity|intro H; inversion H; auto].
  - rewrite N.eqb_eq. split; congruence.
  - rewrite andb_true_iff, String.eqb_eq, pext_eqb_eq. split; [intros [-> ->]; reflexivity|intro H; inversion H; auto].
Qed.

Lemma path_eqb_refl a : path_eqb a a = true.
Proof. now apply path_eqb_eq. Qed.

Lemma path_eqb_neq a b : path_eqb a b = false <-> a <> b.
Proof. rewrite <- path_eqb_eq. symmetry. apply not_true_iff_false. Qed.

Lemma path_eqb_sym a b : path_eqb a b = path_eqb b a.
Proof. apply eq_iff_eq_true. rewrite !path_eqb_eq. split; congruence. Qed.

Lemma flookup_fdel fs p q : flookup (fdel fs p) q = if path_eqb p q then None else flookup fs q.
Proof.
  induction fs as [|[a c] r IH]; cbn [fdel flookup].
  - now destruct (path_eqb p q).
  - destruct (path_eqb a p) eqn:E1.
    + apply path_eqb_eq in E1. subst a. rewrite IH. destruct (path_eqb p q); reflexivity.
    + cbn [flookup]. rewrite IH. destruct (path_eqb a q) eqn:E2; [|reflexivity].
      apply path_eqb_eq in E2. subst a. rewrite path_eqb_sym, E1. reflexivity.
Qed.

Lemma flookup_fset fs p c q : flookup (fset fs p c) q = if path_eqb p q then Some c else flookup fs q.
Proof.
  unfold fset. cbn [flookup]. destruct (path_eqb p q) eqn:E; [reflexivity|].
  rewrite flookup_fdel, E. reflexivity.
Qed.

Lemma flookup_keys fs q : In q (keys fs) <-> flookup fs q <> None.
Proof.
  induction fs as [|[a c] r IH]; cbn.
  - split; [intros []|congruence].
  - destruct (path_eqb a q) eqn:E.
    + apply path_eqb_eq in E. subst. split; [congruence|auto].
    + apply path_eqb_neq in E. rewrite <- IH. split; [intros [H|H]; [contradiction|assumption]|auto].
Qed.

Lemma in_ref_names fs n : In n (ref_names fs) <-> flookup fs (PRef n) <> None.
Proof.
  rewrite <- flookup_keys. unfold ref_names. rewrite in_flat_map. split.
  - intros (p & Hp & Hn). destruct p; cbn in Hn; try contradiction. destruct Hn as [->|[]]. assumption.
  - intro H. exists (PRef n). split; [assumption|now left].
Qed.

Lemma in_pack_names fs n : In n (pack_names fs) <-> flookup fs (PPackF n XPack) <> None.
Proof.
  rewrite <- flookup_keys. unfold pack_names. rewrite in_flat_map. split.
  - intros (p & Hp & Hn). destruct p as [| | | | |m x| | |]; cbn in Hn; try contradiction.
    destruct x; cbn in Hn; try contradiction. destruct Hn as [->|[]]. assumption.
  - intro H. exists (PPackF n XPack). split; [assumption|now left].
Qed.

Lemma avail_iff fs o : avail fs o = true <-> loose_ok fs o = true \/ exists n, in_pack fs o n = true.
Proof.
  unfold avail. rewrite orb_true_iff, existsb_exists. split.
  - intros [H|(n & _ & H)]; [now left|right; eauto].
  - intros [H|(n & H)]; [now left|]. right. exists n. split; [|assumption].
    apply in_pack_names. unfold in_pack, pack_objs in H. destruct (flookup fs (PPackF n XPack)); [congruence|discriminate].
Qed.

Definition head_okP (fs : fsmap) : bool :=
  match flookup fs PHead with Some (Whole (DRef _)) => true | _ => false end.
Definition packed_okP (fs : fsmap) : bool := match packed_refs fs with Some _ => true | None => false end.
Definition shallow_okP (fs : fsmap) : bool := match shallow_of fs with Some _ => true | None => false end.
Definition index_okP (fs : fsmap) : bool :=
  match flookup fs PIndex with None | Some (Whole (DIndex _)) => true | _ => false end.
Definition config_okP (fs : fsmap) : bool :=
  match flookup fs PConfig with Some (Whole DConfig) | Some Empty => true | _ => false end.

Lemma files_ok_iff fs : files_ok fs = true <->
  head_okP fs = true /\ (forall n, ref_file_ok fs n = true) /\ packed_okP fs = true /\ shallow_okP fs = true /\
  (forall n, pack_file_ok fs n = true) /\ index_okP fs = true /\ config_okP fs = true.
Proof.
  unfold files_ok. rewrite !andb_true_iff, !forallb_forall.
  fold (head_okP fs) (packed_okP fs) (shallow_okP fs) (index_okP fs) (config_okP fs).
  split.
  - intros ((((((H1 & H2) & H3) & H4) & H5) & H6) & H7). repeat split; try assumption.
    + intro n. destruct (flookup fs (PRef n)) eqn:E.
      * apply H2. apply in_ref_names. congruence.
      * unfold ref_file_ok. now rewrite E.
    + intro n. destruct (flookup fs (PPackF n XPack)) eqn:E.
      * apply H5. apply in_pack_names. congruence.
      * unfold pack_file_ok. now rewrite E.
  - intros (H1 & H2 & H3 & H4 & H5 & H6 & H7). repeat split; auto.
Qed.

Lemma in_ref_roots fs o : In o (ref_roots fs) <->
  flookup fs PHead = Some (Whole (DRef (RHash o))) \/
  (exists n, flookup fs (PRef n) = Some (Whole (DRef (RHash o)))) \/
  (exists l n, packed_refs fs = Some l /\ In (n, o) l /\ flookup fs (PRef n) = None).
Proof.
  unfold ref_roots. rewrite !in_app_iff. split.
  - intros [H|[H|H]].
    + left. destruct (flookup fs PHead) as [[[[]| | | | | | | |]| |]|]; cbn in H; try contradiction.
      destruct H as [->|[]]. reflexivity.
    + right. left. apply in_flat_map in H as (n & _ & H). exists n. unfold loose_root in H.
      destruct (flookup fs (PRef n)) as [[[[]| | | | | | | |]| |]|]; cbn in H; try contradiction.
      destruct H as [->|[]]. reflexivity.
    + right. right. destruct (packed_refs fs) as [l|] eqn:E; [|contradiction].
      apply in_flat_map in H as ([n o'] & Hin & H). cbn in H. unfold is_loose_name, fexists in H.
      destruct (flookup fs (PRef n)) eqn:E2; [contradiction|]. destruct H as [->|[]]. exists l, n. auto.
  - intros [H|[(n & H)|(l & n & E & Hin & Hn)]].
    + left. rewrite H. now left.
    + right. left. apply in_flat_map. exists n. split; [apply in_ref_names; congruence|].
      unfold loose_root. rewrite H. now left.
    + right. right. rewrite E. apply in_flat_map. exists (n, o). split; [assumption|].
      cbn. unfold is_loose_name, fexists. rewrite Hn. now left.
Qed.

Lemma needed_roots g rs rs' sh o : (forall x, In x rs -> In x rs') -> needed g rs sh o -> needed g rs' sh o.
Proof.
  intros H N. induction N as [o Hr|o c _ IH Hk]; [apply needed_root; auto|eapply needed_step; eassumption].
Qed.

(* in_pack and pack_file_ok read the two files of the pack only *)
Lemma pack_ext fs fs' n :
  flookup fs' (PPackF n XPack) = flookup fs (PPackF n XPack) ->
  flookup fs' (PPackF n XIdx) = flookup fs (PPackF n XIdx) ->
  pack_file_ok fs' n = pack_file_ok fs n /\ forall o, in_pack fs' o n = in_pack fs o n.
Proof. intros Hp Hi. unfold pack_file_ok, in_pack, pack_objs, idx_ok. now rewrite Hp, Hi. Qed.

Lemma flookup_fold_fdel ps : forall fs q,
  flookup (fold_left fdel ps fs) q = if existsb (path_eqb q) ps then None else flookup fs q.
Proof.
  induction ps as [|p ps IH]; intros fs q; cbn [fold_left existsb]; [reflexivity|].
  rewrite IH, flookup_fdel, (path_eqb_sym q p).
  destruct (path_eqb p q); cbn [orb]; [destruct (existsb _ ps); reflexivity|reflexivity].
Qed.

Lemma existsb_path q ps : existsb (path_eqb q) ps = true <-> In q ps.
Proof.
  rewrite existsb_exists. split.
  - intros (x & Hx & E). apply path_eqb_eq in E. now subst.
  - intro H. exists q. split; [assumption|apply path_eqb_refl].
Qed.

Lemma in_path_dec (q : path) ps : {In q ps} + {~ In q ps}.
Proof.
  destruct (existsb (path_eqb q) ps) eqn:E; [left; now apply existsb_path|].
  right. intro H. apply existsb_path in H. congruence.
Qed.

Lemma fold_fdel_in ps fs q : In q ps -> flookup (fold_left fdel ps fs) q = None.
Proof. intro H. apply existsb_path in H. now rewrite flookup_fold_fdel, H. Qed.

Lemma fold_fdel_out ps fs q : ~ In q ps -> flookup (fold_left fdel ps fs) q = flookup fs q.
Proof.
  intro H. rewrite flookup_fold_fdel. destruct (existsb (path_eqb q) ps) eqn:E; [|reflexivity].
  now apply existsb_path in E.
Qed.

(* two directories that agree on a class of paths; mutations outside the class keep that *)
Definition agree_on (P : path -> bool) (fs fs' : fsmap) : Prop :=
  forall q, P q = true -> flookup fs' q = flookup fs q.

Lemma agree_on_refl P a : agree_on P a a.
Proof. intros q _. reflexivity. Qed.

Lemma agree_on_trans P a b c : agree_on P a b -> agree_on P b c -> agree_on P a c.
Proof. intros H1 H2 q Hq. now rewrite H2, H1. Qed.

Lemma agree_on_weaken (P Q : path -> bool) a b :
  (forall q, Q q = true -> P q = true) -> agree_on P a b -> agree_on Q a b.
Proof. intros H A q Hq. auto. Qed.

Lemma agree_on_fset P a b p c : P p = false -> agree_on P a b -> agree_on P a (fset b p c).
Proof.
  intros Hp A q Hq. rewrite flookup_fset. destruct (path_eqb p q) eqn:E; [|auto].
  apply path_eqb_eq in E. congruence.
Qed.

Lemma agree_on_fdel P a b p : P p = false -> agree_on P a b -> agree_on P a (fdel b p).
Proof.
  intros Hp A q Hq. rewrite flookup_fdel. destruct (path_eqb p q) eqn:E; [|auto].
  apply path_eqb_eq in E. congruence.
Qed.

Lemma agree_on_fold_fdel P a b ps :
  (forall p, In p ps -> P p = false) -> agree_on P a b -> agree_on P a (fold_left fdel ps b).
Proof.
  intros Hp A q Hq. rewrite flookup_fold_fdel. destruct (existsb (path_eqb q) ps) eqn:E; [|auto].
  apply existsb_path, Hp in E. congruence.
Qed.

(* the paths repo_ok never looks at *)
Definition relevant (p : path) : bool :=
  match p with PTmp _ _ | PPackF _ XRev | PPackF _ XPromisor => false | _ => true end.

Definition agree (fs fs' : fsmap) : Prop := forall q, relevant q = true -> flookup fs' q = flookup fs q.

(* everything repo_ok looks at, except the files of pack [name] *)
Definition but_pack (name : string) (q : path) : bool :=
  match q with PPackF n _ => negb (String.eqb n name) && relevant q | _ => relevant q end.

Lemma but_pack_relevant name q : but_pack name q = true -> relevant q = true.
Proof. destruct q; try (intro H; exact H). intro H. now apply andb_true_iff in H. Qed.

Lemma but_pack_self name x : but_pack name (PPackF name x) = false.
Proof. cbn. now rewrite String.eqb_refl. Qed.

Lemma but_pack_other name n x : n <> name -> but_pack name (PPackF n x) = relevant (PPackF n x).
Proof. intro H. apply String.eqb_neq in H. unfold but_pack. now rewrite H. Qed.

(* closes goals [agree_on P fs (fset (fdel ... fs ...) ...)] when every path written lies outside P *)
Ltac agree_tac :=
  repeat first [apply agree_on_refl | assumption
               | apply agree_on_fset; [first [reflexivity|apply but_pack_self]|]
               | apply agree_on_fdel; [first [reflexivity|apply but_pack_self]|]].
