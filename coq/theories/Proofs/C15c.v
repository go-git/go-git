(* Proofs/C15c.v — the reference store refines the map: abstraction function,
   invariant, and one lemma per operation. *)
From Coq Require Import List Arith NArith Bool String.
From GoGit Require Import Base.Out Model.RefStrings Model.RefName Model.RefGuard Model.RefStore Spec.RefMap Gen.C14
  Proofs.C13 Proofs.C14 Proofs.C15a Proofs.C15b.
Import ListNotations.
Local Open Scope N_scope.

Definition parse_c (c : bytes) : refval := ref_from_strings (trim_space c).

Definition loose_val (s : store) (n : bytes) : option refval :=
  match lookup n (files (fs s)) with
  | Some (c0 :: c') => Some (parse_c (c0 :: c'))
  | _ => None
  end.

Definition packed_lines (s : store) : list bytes :=
  match packed s with Some b => scan_lines b | None => [] end.

Definition packed_val (s : store) (n : bytes) : option refval :=
  match find_packed n (packed_lines s) with Ok r => r | Er _ => None end.

(* abs s = loose, else the first occurrence in packed-refs *)
Definition abs (s : store) : rmap :=
  fun n => match loose_val s n with Some v => Some v | None => packed_val s n end.

Definition abs_eq (m1 m2 : rmap) : Prop := forall x, m1 x = m2 x.

Definition name_clean (n : bytes) : bool := forallb (fun c => negb ((c <=? 32) || (c =? 127))) n.

Definition file_okb (e : bytes * bytes) : bool :=
  if listed (fst e) then negb (beqb (snd e) []) && val_okb (parse_c (snd e)) && name_clean (fst e) else true.

Definition line_okb (l : bytes) : bool :=
  match process_line l with
  | None => false
  | Some None => true
  | Some (Some (n, v)) => under refsDir n && name_clean n && val_okb v
  end.

Definition packed_okb (p : option bytes) : bool :=
  match p with None => true | Some b => negb (mem 13 b) && forallb line_okb (scan_lines b) end.

Definition wfb (s : store) : bool :=
  nodup_keys (files (fs s)) && forallb file_okb (files (fs s))
  && negb (is_file (fs s) refsDir) && negb (is_dir (fs s) HEADp)
  && packed_okb (packed s).

(* names and values the API is called with *)
Definition name_okb (n : bytes) : bool := valid_reference_name n && name_clean n && listed n.
Definition op_okb (o : op) : bool :=
  match o with
  | OSet n v _ => name_okb n && val_okb v
  | ORef n | ORm n => name_okb n
  | ORefs | OPack => true
  end.

Lemma wfb_parts s : wfb s = true ->
  nodup_keys (files (fs s)) = true /\ forallb file_okb (files (fs s)) = true /\
  is_file (fs s) refsDir = false /\ is_dir (fs s) HEADp = false /\ packed_okb (packed s) = true.
Proof.
  unfold wfb. intros H. repeat (apply andb_true_iff in H as [H ?]).
  repeat split; try assumption; now apply negb_true_iff.
Qed.

Lemma wfb_intro f p :
  nodup_keys (files f) = true -> forallb file_okb (files f) = true ->
  is_file f refsDir = false -> is_dir f HEADp = false -> packed_okb p = true ->
  wfb {| fs := f; packed := p |} = true.
Proof. unfold wfb. cbn [fs packed]. now intros -> -> -> -> ->. Qed.

Lemma name_okb_parts n : name_okb n = true ->
  valid_reference_name n = true /\ name_clean n = true /\ listed n = true.
Proof. unfold name_okb. intro H. apply andb_true_iff in H as [H ?]. now apply andb_true_iff in H as [? ?]. Qed.

Lemma line_ok_parses l : line_okb l = true -> parses l = true.
Proof. unfold line_okb, parses. destruct (process_line l) as [[[n v]|]|]; auto. Qed.

Lemma packed_ok_parse s : packed_okb (packed s) = true -> all_parse (packed_lines s) = true.
Proof.
  unfold packed_okb, packed_lines. destruct (packed s) as [b|]; [|reflexivity].
  intros H. apply andb_true_iff in H as [_ H]. exact (forallb_impl _ _ _ line_ok_parses H).
Qed.

Lemma packed_ref_val s n : packed_okb (packed s) = true ->
  packed_ref s n = match packed_val s n with Some v => Ok v | None => Er ENotFound end.
Proof.
  intros H. pose proof (packed_ok_parse s H) as Hp.
  unfold packed_ref, packed_val, packed_lines in *. destruct (packed s) as [b|]; [|reflexivity].
  destruct (find_packed_total n _ Hp) as [r ->]. now destruct r.
Qed.

Lemma read_ref_file_loose s n :
  match read_ref_file (fs s) n with RVal v => loose_val s n = Some v | _ => loose_val s n = None end.
Proof.
  unfold read_ref_file, stat, loose_val. destruct (lookup n (files (fs s))) as [c|].
  - destruct c as [|c0 c']; reflexivity.
  - destruct (is_dir (fs s) n); [reflexivity|]. destruct (file_above (fs s) n); reflexivity.
Qed.

Lemma get_ref_spec s n : wfb s = true -> valid_reference_name n = true ->
  get_ref s n = spec_get (abs s) n.
Proof.
  intros Hw Hv. destruct (wfb_parts s Hw) as [_ [_ [_ [_ Hp]]]].
  unfold get_ref, spec_get, abs. rewrite Hv. cbn [negb].
  pose proof (read_ref_file_loose s n) as H.
  destruct (read_ref_file (fs s) n); rewrite H; try reflexivity; now rewrite packed_ref_val.
Qed.

Lemma valid_not_refs n : valid_reference_name n = true -> beqb refsDir n = false.
Proof.
  intros H. destruct (beqb refsDir n) eqn:E; [|reflexivity]. apply beqb_eq in E. subst n.
  vm_compute in H. discriminate.
Qed.

Lemma add_dirs_in ds : forall have q, existsb (beqb q) (add_dirs ds have) = existsb (beqb q) have || existsb (beqb q) ds.
Proof.
  induction ds as [|d r IH]; intros have q; cbn [add_dirs existsb]; [now rewrite orb_false_r|].
  destruct (existsb (beqb d) have) eqn:E.
  - rewrite IH. destruct (beqb q d) eqn:Eq; [|reflexivity].
    apply beqb_eq in Eq. subst d. rewrite E. reflexivity.
  - rewrite IH, existsb_app. cbn [existsb]. rewrite orb_false_r.
    destruct (existsb (beqb q) have), (beqb q d), (existsb (beqb q) r); reflexivity.
Qed.

(* no ancestor of a valid name is "HEAD" *)
Lemma valid_parent_not_head n : valid_reference_name n = true -> existsb (beqb HEADp) (parents n) = false.
Proof.
  intros H. destruct (existsb (beqb HEADp) (parents n)) eqn:E; [|reflexivity].
  apply existsb_beqb_in in E.
  destruct (parents_from_prefix _ _ _ E) as [s1 [s2 [En Eh]]]. cbn [rev app] in Eh. subst s1.
  subst n. vm_compute in H. (* "HEAD/…" is neither below refs/ nor all-caps *)
  unfold valid_reference_name, is_safe in H. discriminate.
Qed.

Lemma set_file_twice p c d l : set_file p c (set_file p d l) = set_file p c l.
Proof.
  induction l as [|[q e] l IH]; cbn; [now rewrite beqb_refl|].
  destruct (beqb p q) eqn:E; cbn; [now rewrite beqb_refl|now rewrite E, IH].
Qed.

Lemma forallb_set (f : bytes * bytes -> bool) p c l :
  forallb f l = true -> f (p, c) = true -> forallb f (set_file p c l) = true.
Proof.
  intros Hl Hf. induction l as [|[q e] l IH]; cbn; [now rewrite Hf|].
  cbn in Hl. apply andb_true_iff in Hl as [He Hl].
  destruct (beqb p q); cbn; [now rewrite Hf, Hl|now rewrite He, IH].
Qed.

Lemma forallb_incl {A} (f : A -> bool) l1 l2 : incl l1 l2 -> forallb f l2 = true -> forallb f l1 = true.
Proof. intros Hi H. apply forallb_forall. intros x Hx. apply (forallb_In _ _ _ H), Hi, Hx. Qed.

Lemma forallb_filter' {A} (f g : A -> bool) l : forallb f l = true -> forallb f (filter g l) = true.
Proof. apply forallb_incl, incl_filter. Qed.

Lemma parse_written v : val_okb v = true ->
  exists c0 c', ref_content v = c0 :: c' /\ parse_c (c0 :: c') = v.
Proof.
  intros H. pose proof (read_written v H) as R. unfold read_ref_content in R.
  destruct (ref_content v) as [|c0 c'] eqn:E; [discriminate|].
  exists c0, c'. split; [reflexivity|]. injection R as R. exact R.
Qed.

Lemma loose_val_files s1 s2 n : lookup n (files (fs s1)) = lookup n (files (fs s2)) -> loose_val s1 n = loose_val s2 n.
Proof. unfold loose_val. now intros ->. Qed.

Lemma abs_same_packed s1 s2 x :
  packed s1 = packed s2 -> loose_val s1 x = loose_val s2 x -> abs s1 x = abs s2 x.
Proof. intros Hp Hl. unfold abs, packed_val, packed_lines. now rewrite Hl, Hp. Qed.

Lemma file_ok_written n v : val_okb v = true -> name_clean n = true -> file_okb (n, ref_content v) = true.
Proof.
  intros Hv Hn. unfold file_okb. cbn [fst snd]. destruct (listed n); [|reflexivity].
  destruct (parse_written v Hv) as [c0 [c' [E P]]]. rewrite E, P, Hv, Hn. reflexivity.
Qed.

(* the state after OpenFile(O_CREATE) + Write, whatever open did to the file *)
Lemma write_after_open f n trunc f1 c :
  open_create f n trunc = Some f1 ->
  files (write_file f1 n c) = set_file n c (files f) /\
  dirs (write_file f1 n c) = add_dirs (parents n) (dirs f).
Proof.
  unfold open_create. destruct (file_above f n); [discriminate|]. destruct (is_dir f n); [discriminate|].
  destruct (lookup n (files f)) as [c1|] eqn:EL; intros H; injection H as <-; cbn [write_file files dirs].
  - destruct trunc; [now rewrite set_file_twice|auto].
  - now rewrite set_file_twice.
Qed.

(* refs stays a directory and HEAD a file when the ancestors of a valid name are created *)
Lemma special_after_open f f' n :
  valid_reference_name n = true -> is_file f refsDir = false -> is_dir f HEADp = false ->
  lookup refsDir (files f') = lookup refsDir (files f) -> dirs f' = add_dirs (parents n) (dirs f) ->
  is_file f' refsDir = false /\ is_dir f' HEADp = false.
Proof.
  unfold is_file, is_dir. intros Hv Hr Hh -> ->. now rewrite add_dirs_in, Hh, valid_parent_not_head.
Qed.

Lemma wfb_write s n v f1 trunc :
  wfb s = true -> name_okb n = true -> val_okb v = true ->
  open_create (fs s) n trunc = Some f1 ->
  wfb {| fs := write_file f1 n (ref_content v); packed := packed s |} = true.
Proof.
  intros Hw Hn Hv Ho. destruct (wfb_parts s Hw) as [Hnd [Hf [Hr [Hh Hp]]]].
  destruct (name_okb_parts n Hn) as (Hval & Hc & Hl).
  destruct (write_after_open _ _ _ _ (ref_content v) Ho) as [Ef Ed].
  destruct (special_after_open (fs s) (write_file f1 n (ref_content v)) n Hval Hr Hh) as [Hr' Hh'];
    [rewrite Ef; now apply lookup_set_other, valid_not_refs|exact Ed|].
  apply wfb_intro; try assumption; rewrite Ef; [now apply nodup_set|].
  apply forallb_set; [assumption|now apply file_ok_written].
Qed.

Lemma abs_written s f n v : val_okb v = true -> files f = set_file n (ref_content v) (files (fs s)) ->
  abs_eq (abs {| fs := f; packed := packed s |}) (m_set (abs s) n v).
Proof.
  intros Hv Ef x. unfold m_set. destruct (beqb x n) eqn:E.
  - apply beqb_eq in E. subst x. unfold abs, loose_val. cbn [fs]. rewrite Ef, lookup_set_same.
    destruct (parse_written v Hv) as [c0 [c' [Ec P]]]. now rewrite Ec, P.
  - apply abs_same_packed; [reflexivity|]. apply loose_val_files. cbn [fs]. rewrite Ef.
    now apply lookup_set_other.
Qed.

Lemma open_keep f n f1 : open_create f n false = Some f1 ->
  files f1 = (match lookup n (files f) with Some _ => files f | None => set_file n [] (files f) end) /\
  dirs f1 = add_dirs (parents n) (dirs f).
Proof.
  unfold open_create. destruct (file_above f n); [discriminate|]. destruct (is_dir f n); [discriminate|].
  destruct (lookup n (files f)); intros H; injection H as <-; auto.
Qed.

Lemma file_ok_lookup s n c : forallb file_okb (files (fs s)) = true -> listed n = true ->
  lookup n (files (fs s)) = Some c -> exists c0 c', c = c0 :: c'.
Proof.
  intros Hf Hl Hk. apply in_lookup, (forallb_In _ _ _ Hf) in Hk.
  unfold file_okb in Hk. cbn [fst snd] in Hk. rewrite Hl in Hk.
  destruct c as [|c0 c']; [discriminate|]. now exists c0, c'.
Qed.

(* SetRef and CheckAndSetReference: the answer and the map are the specification's; the invariant
   survives except after a failed compare-and-swap on a name without a loose file *)
Lemma set_ref_spec s n v old : wfb s = true -> name_okb n = true -> val_okb v = true ->
  let (s', r) := set_ref s n v old in
  (r = Er EFs /\ s' = s) \/
  (r = snd (spec_set (abs s) n v old) /\
   abs_eq (abs s') (fst (spec_set (abs s) n v old)) /\
   (old = None \/ is_file (fs s) n = true \/ r = Ok tt -> wfb s' = true)).
Proof.
  intros Hw Hn Hv. destruct (name_okb_parts n Hn) as (Hval & Hc & Hl). destruct old as [o|].
  2:{ unfold set_ref. rewrite Hval. cbn [negb].
      destruct (open_create (fs s) n true) as [f1|] eqn:Ho; [|now left].
      right. cbn [spec_set fst snd]. split; [reflexivity|]. split; [|intros _; now apply (wfb_write s n v f1 true)].
      apply abs_written; [assumption|]. apply (write_after_open _ _ _ _ _ Ho). }
  destruct (wfb_parts s Hw) as [Hnd [Hf [Hr [Hh Hp]]]].
  unfold set_ref. rewrite Hval. cbn [negb].
  destruct (open_create (fs s) n false) as [f1|] eqn:Ho; [|now left].
  destruct (open_keep _ _ _ Ho) as [Ef Ed].
  set (s1 := {| fs := f1; packed := packed s |}).
  (* the value the check reads is the map's *)
  assert (Hr1 : (match (match lookup n (files f1) with Some c => c | None => [] end) with
                 | [] => packed_ref s1 n
                 | _ => Ok (ref_from_strings (trim_space (match lookup n (files f1) with Some c => c | None => [] end)))
                 end) = spec_get (abs s) n).
  { unfold spec_get, abs, loose_val. destruct (lookup n (files (fs s))) as [c|] eqn:EL.
    - destruct (file_ok_lookup s n c Hf Hl EL) as [c0 [c' ->]]. rewrite Ef, EL. reflexivity.
    - rewrite Ef, lookup_set_same. unfold s1. rewrite packed_ref_val by assumption.
      unfold packed_val, packed_lines. cbn [packed]. reflexivity. }
  (* the state after a failed check has the same abstraction *)
  assert (Habs1 : abs_eq (abs s1) (abs s)).
  { intros x. apply abs_same_packed; [reflexivity|]. unfold loose_val, s1. cbn [fs]. rewrite Ef.
    destruct (lookup n (files (fs s))) as [c|] eqn:EL; [reflexivity|].
    destruct (beqb x n) eqn:E.
    - apply beqb_eq in E. subst x. now rewrite lookup_set_same, EL.
    - now rewrite lookup_set_other. }
  assert (Hw1 : is_file (fs s) n = true -> wfb s1 = true).
  { unfold is_file at 1. destruct (lookup n (files (fs s))) eqn:EL; [|discriminate]. intros _.
    destruct (special_after_open (fs s) f1 n Hval Hr Hh) as [Hr' Hh']; [now rewrite Ef|exact Ed|].
    apply wfb_intro; try assumption; now rewrite Ef. }
  fold s1. rewrite Hr1. unfold spec_get, spec_set.
  destruct (abs s n) as [cv|]; [destruct (hash_eqb (hash_of cv) (hash_of o))|]; right; cbn [fst snd]; (split; [reflexivity|]).
  2,3: split; [exact Habs1|intros [H|[H|H]]; [discriminate|auto|discriminate]].
  split; [|intros _; now apply (wfb_write s n v f1 false)].
  apply abs_written; [assumption|]. apply (write_after_open _ _ _ _ _ Ho).
Qed.

(* a byte of a field of a split is a byte of the string, and not the separator *)
Lemma split_in_mem sep s c : forall l, In l (split_on sep s) -> mem c l = true ->
  mem c s = true /\ (c =? sep) = false.
Proof.
  induction s as [|x r IH]; intros l H Hc.
  - destruct H as [<-|[]]. discriminate.
  - cbn [split_on] in H. cbn [mem existsb]. fold (mem c r). destruct (N.eqb_spec x sep) as [->|E].
    + destruct H as [<-|H]; [discriminate|]. destruct (IH l H Hc) as [-> ->]. now rewrite orb_true_r.
    + pose proof (split_nonempty sep r) as Hne. destruct (split_on sep r) as [|f fs]; [contradiction|].
      destruct H as [<-|H].
      * cbn [mem existsb] in Hc. apply orb_true_iff in Hc as [Hc|Hc].
        -- apply N.eqb_eq in Hc. subst x. rewrite N.eqb_refl. split; [reflexivity|]. now apply N.eqb_neq.
        -- destruct (IH f (or_introl eq_refl) Hc) as [-> ->]. now rewrite orb_true_r.
      * destruct (IH l (or_intror H) Hc) as [-> ->]. now rewrite orb_true_r.
Qed.

Lemma split_in_nosep sep s l : In l (split_on sep s) -> mem sep l = false.
Proof.
  intro H. destruct (mem sep l) eqn:E; [|reflexivity].
  destruct (split_in_mem sep s sep l H E) as [_ Hs]. now rewrite N.eqb_refl in Hs.
Qed.

Lemma split_in_sub sep s c : mem c s = false -> forall l, In l (split_on sep s) -> mem c l = false.
Proof.
  intros Hc l H. destruct (mem c l) eqn:E; [|reflexivity].
  destruct (split_in_mem sep s c l H E) as [Hs _]. congruence.
Qed.

Lemma scan_lines_clean b : mem 13 b = false -> forallb line_clean (scan_lines b) = true.
Proof.
  intros H. apply forallb_forall. intros l Hl. unfold scan_lines in Hl.
  apply in_map_iff in Hl as [l0 [<- Hl0]].
  assert (Hin : In l0 (split_on 10 b)).
  { destruct (rev (split_on 10 b)) as [|[|x y] r] eqn:E; try assumption.
    apply in_rev. rewrite E. right. now apply in_rev in Hl0. }
  pose proof (split_in_nosep 10 b l0 Hin) as H10. pose proof (split_in_sub 10 b 13 H l0 Hin) as H13.
  rewrite strip_cr_id by assumption. unfold line_clean. now rewrite H10, H13.
Qed.

Lemma mem_unlines c ls : (c =? 10) = false -> forallb (fun l => negb (mem c l)) ls = true -> mem c (unlines ls) = false.
Proof.
  intros Hc. induction ls as [|l r IH]; intros H; [reflexivity|].
  cbn [forallb] in H. apply andb_true_iff in H as [Hl H]. apply negb_true_iff in Hl.
  unfold unlines. cbn [flat_map]. unfold mem. rewrite !existsb_app. fold (mem c l). rewrite Hl.
  cbn [existsb]. rewrite Hc. cbn [orb]. apply IH. assumption.
Qed.

Lemma packed_ok_unlines ls : forallb line_clean ls = true -> forallb line_okb ls = true ->
  packed_okb (Some (unlines ls)) = true.
Proof.
  intros Hc Ho. unfold packed_okb. rewrite scan_unlines, Ho by assumption.
  rewrite mem_unlines; [reflexivity|reflexivity|].
  revert Hc. apply forallb_impl. intros l Hc. unfold line_clean in Hc. now apply andb_true_iff in Hc as [_ Hc].
Qed.

(* packed-refs is rewritten first, then the loose path is removed; when the
   operating system refuses the second step (the path is a non-empty directory,
   or lies below a regular file) the packed entry is gone all the same and no
   loose file of that name can exist: the name is removed from the map whether
   the call answers nil or an error *)
Lemma remove_ref_spec s n : wfb s = true -> name_okb n = true ->
  let (s', r) := remove_ref s n in
  (r = Er EFs \/ r = Ok tt) /\ wfb s' = true /\ abs_eq (abs s') (m_del (abs s) n).
Proof.
  intros Hw Hn. destruct (name_okb_parts n Hn) as (Hval & Hc & Hl).
  destruct (wfb_parts s Hw) as [Hnd [Hf [Hr [Hh Hp]]]].
  unfold remove_ref. rewrite Hval. cbn [negb].
  (* step 1: packed-refs without the name *)
  set (ap := match packed s with
             | None => Ok None
             | Some b => match drop_lines n (scan_lines b) false with
                         | Er e => Er e
                         | Ok (kept, true) => Ok (Some (unlines kept))
                         | Ok (_, false) => Ok (Some b)
                         end
             end).
  assert (Hap : exists p1, ap = Ok p1 /\ packed_okb p1 = true /\
            forall f x, packed_val {| fs := f; packed := p1 |} x = if beqb x n then None else packed_val s x).
  { unfold ap. pose proof (packed_ok_parse s Hp) as Hpa. unfold packed_val, packed_lines in *.
    destruct (packed s) as [b|] eqn:EP.
    - assert (Hcr : mem 13 b = false).
      { cbn in Hp. apply andb_true_iff in Hp as [Hp' _]. now apply negb_true_iff. }
      assert (Hlo : forallb line_okb (scan_lines b) = true).
      { cbn in Hp. now apply andb_true_iff in Hp as [_ Hp']. }
      destruct (drop_lines_spec n _ Hpa false) as [kept [found [-> [Hi [Hfk Hnf]]]]].
      assert (Hck : forallb line_clean kept = true) by (apply (forallb_incl _ _ _ Hi); now apply scan_lines_clean).
      assert (Hok : forallb line_okb kept = true) by now apply (forallb_incl _ _ _ Hi).
      destruct found.
      + eexists. split; [reflexivity|]. split; [now apply packed_ok_unlines|].
        intros f x. cbn [packed]. rewrite scan_unlines, Hfk by assumption. destruct (beqb x n); reflexivity.
      + eexists. split; [reflexivity|]. split; [exact Hp|].
        intros f x. cbn [packed]. destruct (beqb x n) eqn:E; [|reflexivity].
        apply beqb_eq in E. subst x. now rewrite (Hnf eq_refl).
    - exists None. split; [reflexivity|]. split; [reflexivity|].
      intros f x. cbn [packed]. destruct (beqb x n); reflexivity. }
  destruct Hap as [p1 [-> [Hp1 Hpv]]].
  (* step 2: every outcome leaves a file list without n and the invariant intact *)
  assert (Hfin : forall f1 r, (r = Er EFs \/ r = Ok tt) ->
            lookup n (files f1) = None ->
            (forall x, beqb x n = false -> lookup x (files f1) = lookup x (files (fs s))) ->
            nodup_keys (files f1) = true -> forallb file_okb (files f1) = true ->
            is_file f1 refsDir = false -> is_dir f1 HEADp = false ->
            (r = Er EFs \/ r = Ok tt) /\ wfb {| fs := f1; packed := p1 |} = true /\
            abs_eq (abs {| fs := f1; packed := p1 |}) (m_del (abs s) n)).
  { intros f1 r Hrr Hk1 Hk2 Hnd1 Hf1 Hr1 Hh1. split; [assumption|]. split.
    - now apply wfb_intro.
    - intros x. unfold abs, m_del. rewrite Hpv. unfold loose_val. cbn [fs].
      destruct (beqb x n) eqn:E.
      + apply beqb_eq in E. subst x. now rewrite Hk1.
      + now rewrite Hk2. }
  unfold stat. destruct (lookup n (files (fs s))) as [c|] eqn:EL.
  - apply Hfin; cbn [files dirs]; auto.
    + apply lookup_del_same.
    + intros x Hx. now apply lookup_del_other.
    + now apply nodup_filter.
    + now apply forallb_filter'.
    + unfold is_file. cbn [files]. rewrite lookup_del_other; [exact Hr|]. now apply valid_not_refs.
  - destruct (is_dir (fs s) n).
    + destruct (dir_nonempty (fs s) n).
      * apply Hfin; auto.
      * apply Hfin; cbn [files dirs]; auto.
        unfold is_dir. cbn [dirs]. apply existsb_filter. exact Hh.
    + destruct (file_above (fs s) n); apply Hfin; auto.
Qed.

Definition loose_list (l : list (bytes * bytes)) : list (bytes * refval) :=
  map (fun e => (fst e, parse_c (snd e))) (filter (fun e => under refsDir (fst e)) l).

Lemma under_listed p : under refsDir p = true -> listed p = true.
Proof. unfold listed. intros ->. apply orb_true_r. Qed.

Lemma walk_files_ok l : forallb file_okb l = true -> walk_files l = Ok (loose_list l).
Proof.
  induction l as [|[p c] l IH]; intros H; [reflexivity|].
  cbn [forallb] in H. apply andb_true_iff in H as [He H]. cbn [walk_files].
  unfold loose_list. cbn [filter fst]. destruct (under refsDir p) eqn:EU.
  - unfold file_okb in He. cbn [fst snd] in He. rewrite (under_listed p EU) in He.
    destruct c as [|c0 c']; [discriminate|]. cbn [read_ref_content]. rewrite IH by assumption.
    reflexivity.
  - auto.
Qed.

Lemma find_packed_line n v lines : find_packed n lines = Ok (Some v) ->
  exists l, In l lines /\ process_line l = Some (Some (n, v)).
Proof.
  induction lines as [|l r IH]; [discriminate|]. cbn [find_packed].
  destruct (process_line l) as [[[m w]|]|] eqn:EP; [| |discriminate].
  - destruct (beqb m n) eqn:E.
    + apply beqb_eq in E. subst m. intros H. injection H as ->. exists l. split; [now left|assumption].
    + intros H. destruct (IH H) as [l' [Hin Hp]]. exists l'. split; [now right|assumption].
  - intros H. destruct (IH H) as [l' [Hin Hp]]. exists l'. split; [now right|assumption].
Qed.

Lemma packed_entry_ok s n v : packed_okb (packed s) = true -> packed_val s n = Some v ->
  under refsDir n = true /\ name_clean n = true /\ val_okb v = true.
Proof.
  intros Hp Hv. unfold packed_val in Hv.
  destruct (find_packed n (packed_lines s)) as [[w|]|] eqn:EF; try discriminate. injection Hv as ->.
  destruct (find_packed_line _ _ _ EF) as [l [Hin Hl]].
  unfold packed_okb, packed_lines in *. destruct (packed s) as [b|]; [|contradiction].
  apply andb_true_iff in Hp as [_ Hp]. apply (forallb_In _ _ _ Hp) in Hin. clear Hp. rename Hin into Hp.
  unfold line_okb in Hp. rewrite Hl in Hp. apply andb_true_iff in Hp as [Hp H3].
  now apply andb_true_iff in Hp as [H1 H2].
Qed.

Lemma head_not_under : under refsDir HEADp = false.
Proof. reflexivity. Qed.

Lemma under_not_head n : under refsDir n = true -> beqb n HEADp = false.
Proof.
  intros H. destruct (beqb n HEADp) eqn:E; [|reflexivity]. apply beqb_eq in E. subst n. discriminate.
Qed.

(* in a well-formed store the file of a listed name is not empty *)
Lemma loose_val_listed s n : forallb file_okb (files (fs s)) = true -> listed n = true ->
  loose_val s n = option_map parse_c (lookup n (files (fs s))).
Proof.
  intros Hf Hl. unfold loose_val. destruct (lookup n (files (fs s))) as [c|] eqn:Hk; [|reflexivity].
  now destruct (file_ok_lookup s n c Hf Hl Hk) as [c0 [c' ->]].
Qed.

Lemma loose_list_val s n v : wfb s = true ->
  (In (n, v) (loose_list (files (fs s))) <-> under refsDir n = true /\ loose_val s n = Some v).
Proof.
  intros Hw. destruct (wfb_parts s Hw) as [Hnd [Hf _]]. unfold loose_list. rewrite in_map_iff. split.
  - intros [[p c] [E Hin]]. cbn [fst snd] in E. injection E as E1 E2. subst p v.
    apply filter_In in Hin as [Hin Hu]. cbn [fst] in Hu. split; [assumption|].
    now rewrite (loose_val_listed s n Hf (under_listed n Hu)), (lookup_in _ _ _ Hin Hnd).
  - intros [Hu Hl]. rewrite (loose_val_listed s n Hf (under_listed n Hu)) in Hl.
    destruct (lookup n (files (fs s))) as [c|] eqn:Ek; [|discriminate]. injection Hl as <-.
    exists (n, c). split; [reflexivity|]. apply filter_In. split; [now apply in_lookup|assumption].
Qed.

Lemma loose_names_val s n : wfb s = true ->
  (In n (map fst (loose_list (files (fs s)))) <-> under refsDir n = true /\ loose_val s n <> None).
Proof.
  intros Hw. rewrite in_map_iff. split.
  - intros [[m v] [E Hin]]. cbn in E. subst m. apply (loose_list_val s n v Hw) in Hin as [Hu Hl]. split; congruence.
  - intros [Hu Hl]. destruct (loose_val s n) as [v|] eqn:E; [|contradiction]. exists (n, v). split; [reflexivity|].
    now apply loose_list_val.
Qed.

Lemma list_refs_spec s : wfb s = true ->
  exists l, list_refs s = Ok l /\
    forall n v, In (n, v) l <-> (listed n = true /\ abs s n = Some v).
Proof.
  intros Hw. destruct (wfb_parts s Hw) as [Hnd [Hf [Hr [Hh Hp]]]].
  pose proof (packed_ok_parse s Hp) as Hap. unfold list_refs, walk_refs. rewrite Hr, walk_files_ok by assumption.
  assert (Hhd : (match read_ref_file (fs s) HEADp with
                 | RVal v => Ok [(HEADp, v)] | RNoEnt => Ok [] | RErr e => Er e end)
                = Ok (match loose_val s HEADp with Some v => [(HEADp, v)] | None => [] end)).
  { unfold read_ref_file, stat, loose_val. destruct (lookup HEADp (files (fs s))) as [c|] eqn:EL.
    - now destruct (file_ok_lookup s HEADp c Hf eq_refl EL) as [c0 [c' ->]].
    - rewrite Hh. reflexivity. }
  rewrite Hhd. set (loose := loose_list (files (fs s))).
  assert (Hpk : exists pk, (match packed s with
                            | None => Ok []
                            | Some b => packed_all (scan_lines b) (map fst loose) [] end) = Ok pk /\
                forall n v, In (n, v) pk <-> (~ In n (map fst loose) /\ packed_val s n = Some v)).
  { unfold packed_val, packed_lines in *. destruct (packed s) as [b|].
    - rewrite packed_all_first by assumption. eexists. split; [reflexivity|]. intros n v. now apply first_occ_val.
    - exists []. split; [reflexivity|]. intros n v. split; [contradiction|intros [_ E]; discriminate]. }
  destruct Hpk as [pk [-> Hpk]].
  eexists. split; [reflexivity|]. intros n v. rewrite !in_app_iff, Hpk.
  unfold loose. rewrite (loose_list_val s n v Hw), (loose_names_val s n Hw).
  unfold abs, listed. split.
  - intros [Hin|[[Hu Hl]|[Hnl Hpv]]].
    + destruct (loose_val s HEADp) as [w|] eqn:E; [|destruct Hin]. destruct Hin as [Heq|[]].
      injection Heq as <- <-. now rewrite beqb_refl, E.
    + now rewrite Hu, orb_true_r, Hl.
    + destruct (packed_entry_ok s n v Hp Hpv) as [Hu _]. rewrite Hu, orb_true_r. split; [reflexivity|].
      destruct (loose_val s n) eqn:E; [|assumption]. exfalso. apply Hnl. split; [assumption|congruence].
  - intros [Hl Ha]. destruct (loose_val s n) as [w|] eqn:ELV.
    + injection Ha as ->. apply orb_true_iff in Hl as [Hl|Hl]; [|right; left; auto].
      apply beqb_eq in Hl. subst n. left. rewrite ELV. now left.
    + right. right. split; [intros [_ H]; congruence|assumption].
Qed.

Lemma has_prefix_mem p s c : has_prefix p s = true -> mem c p = true -> mem c s = true.
Proof.
  revert s. induction p as [|x p IH]; intros s H Hc; [discriminate|].
  destruct s as [|y s]; [discriminate|]. cbn [has_prefix] in H. apply andb_true_iff in H as [Hx H].
  apply N.eqb_eq in Hx. subst y. cbn [mem existsb] in *. apply orb_true_iff in Hc as [Hc|Hc].
  - now rewrite Hc.
  - fold (mem c p) in Hc. fold (mem c s). rewrite (IH s H Hc). apply orb_true_r.
Qed.

(* a packed line never yields a symbolic reference: "ref: " contains the blank
   the line is split at *)
Lemma process_line_hash l n v : process_line l = Some (Some (n, v)) -> exists h f, v = VHash h f.
Proof.
  unfold process_line. destruct l as [|c l']; [discriminate|].
  destruct ((c =? 35) || (c =? 94)); [discriminate|].
  destruct (split_on 32 (c :: l')) as [|w0 [|w1 [|w2 r]]] eqn:ES; try discriminate.
  intros H. injection H as <- <-.
  assert (H0 : mem 32 w0 = false) by (apply (split_in_nosep 32 (c :: l')); rewrite ES; now left).
  unfold ref_from_strings. destruct (has_prefix symrefPrefix w0) eqn:EP.
  - assert (mem 32 w0 = true); [|congruence]. apply (has_prefix_mem symrefPrefix); [assumption|reflexivity].
  - unfold new_hash. destruct (decode_hex w0); eauto.
Qed.

Lemma assoc_first_occ lines x : all_parse lines = true -> forall seen,
  existsb (beqb x) seen = false ->
  assoc_h x (first_occ lines seen) = match find_packed x lines with Ok r => r | Er _ => None end.
Proof.
  induction lines as [|l r IH]; intros H seen Hs; [reflexivity|].
  cbn in H. apply andb_true_iff in H as [Hl H]. unfold parses in Hl. cbn [first_occ find_packed].
  destruct (process_line l) as [[[m w]|]|] eqn:EP; [|auto|discriminate].
  destruct (process_line_hash _ _ _ EP) as [h [f ->]].
  destruct (beqb m x) eqn:Emx.
  - apply beqb_eq in Emx. subst m. rewrite Hs. cbn [assoc_h is_hash_ref snd andb]. now rewrite beqb_refl.
  - destruct (existsb (beqb m) seen) eqn:Es; [auto|].
    cbn [assoc_h is_hash_ref snd andb]. rewrite Emx. apply IH; [assumption|].
    cbn [existsb]. now rewrite beqb_sym, Emx, Hs.
Qed.

Definition is_hash (v : refval) : bool := match v with VHash _ _ => true | VSym _ => false end.

Lemma assoc_loose_none x l : existsb (fun e => beqb x (fst e)) l = false -> assoc_h x (loose_list l) = None.
Proof.
  induction l as [|[q d] l IH]; intros H; [reflexivity|]. cbn [existsb fst] in H.
  apply orb_false_iff in H as [Hq H]. unfold loose_list. cbn [filter fst].
  destruct (under refsDir q); [|now apply IH]. cbn [map assoc_h fst snd].
  rewrite (beqb_sym q x), Hq, andb_false_r. now apply IH.
Qed.

Lemma assoc_loose x l : nodup_keys l = true ->
  assoc_h x (loose_list l) =
  match lookup x l with
  | Some c => if under refsDir x && is_hash (parse_c c) then Some (parse_c c) else None
  | None => None
  end.
Proof.
  induction l as [|[q d] l IH]; intros Hn; [reflexivity|].
  cbn in Hn. apply andb_true_iff in Hn as [Hq Hn]. apply negb_true_iff in Hq.
  cbn [lookup]. destruct (beqb x q) eqn:E.
  - apply beqb_eq in E. subst q. unfold loose_list. cbn [filter fst].
    destruct (under refsDir x) eqn:EU.
    + cbn [map assoc_h fst snd andb]. rewrite beqb_refl, andb_true_r.
      unfold is_hash_ref, is_hash. cbn [snd]. destruct (parse_c d); [reflexivity|].
      now apply assoc_loose_none.
    + cbn [andb]. now apply assoc_loose_none.
  - unfold loose_list. cbn [filter fst]. destruct (under refsDir q).
    + cbn [map assoc_h fst snd]. rewrite (beqb_sym q x), E, andb_false_r. now apply IH.
    + now apply IH.
Qed.

(* the names PackRefs removes from the loose files are those assoc_h finds *)
Lemma gone_assoc x L :
  existsb (beqb x) (map fst (filter is_hash_ref L)) = match assoc_h x L with Some _ => true | None => false end.
Proof.
  induction L as [|[n v] L IH]; [reflexivity|]. cbn [filter assoc_h].
  destruct (is_hash_ref (n, v)); [|exact IH]. cbn [map fst existsb andb]. rewrite (beqb_sym x n).
  destruct (beqb n x); [reflexivity|exact IH].
Qed.

Lemma name_clean_no c n : name_clean n = true -> (c <=? 32) = true -> mem c n = false.
Proof.
  intros H Hc. apply (mem_forallb_false (fun c => negb ((c <=? 32) || (c =? 127)))); [assumption|].
  now rewrite Hc.
Qed.

(* a loose or packed entry of a well-formed store can be written to packed-refs *)
Definition entry_okb (e : bytes * refval) : bool :=
  under refsDir (fst e) && name_clean (fst e) && val_okb (snd e).

Lemma entry_renderable e : entry_okb e = true -> renderable e = true.
Proof.
  destruct e as [n v]. unfold entry_okb, renderable. cbn [fst snd]. intros H.
  apply andb_true_iff in H as [H Hv]. apply andb_true_iff in H as [_ Hc].
  destruct v as [h f|t]; [|reflexivity]. cbn [val_okb] in Hv. rewrite Hv.
  rewrite (name_clean_no 32 n Hc) by reflexivity. reflexivity.
Qed.

Lemma rendered_lines_ok L : forallb entry_okb L = true ->
  forallb line_clean (flat_map packed_line L) = true /\ forallb line_okb (flat_map packed_line L) = true.
Proof.
  induction L as [|[n v] L IH]; intros H; [split; reflexivity|].
  cbn [forallb] in H. apply andb_true_iff in H as [He H]. destruct (IH H) as [IH1 IH2].
  cbn [flat_map]. rewrite !forallb_app, IH1, IH2, !andb_true_r.
  unfold entry_okb in He. cbn [fst snd] in He. apply andb_true_iff in He as [He Hv].
  apply andb_true_iff in He as [Hu Hc]. unfold packed_line. cbn [fst snd].
  destruct v as [h f|t]; [|split; reflexivity]. cbn [val_okb] in Hv. cbn [forallb]. rewrite !andb_true_r.
  pose proof (hash_string_hexchars h f Hv) as Hx. split.
  - unfold line_clean. unfold mem. rewrite !existsb_app. cbn [existsb].
    fold (mem 10 (hash_string h f)) (mem 10 n) (mem 13 (hash_string h f)) (mem 13 n).
    rewrite (mem_forallb_false hexchar 10 _ Hx) by reflexivity.
    rewrite (mem_forallb_false hexchar 13 _ Hx) by reflexivity.
    rewrite (name_clean_no 10 n Hc), (name_clean_no 13 n Hc) by reflexivity. reflexivity.
  - unfold line_okb. rewrite process_line_render; [|assumption|now apply (name_clean_no 32 n Hc)].
    rewrite Hu, Hc. exact Hv.
Qed.

Lemma loose_entries_ok l : forallb file_okb l = true -> forallb entry_okb (loose_list l) = true.
Proof.
  intros H. apply forallb_forall. intros [n v] Hin. unfold loose_list in Hin.
  apply in_map_iff in Hin as [[p c] [E Hin]]. cbn [fst snd] in E. injection E as E1 E2. subst n v.
  apply filter_In in Hin as [Hin Hu]. cbn [fst] in Hu.
  apply (forallb_In _ _ _ H) in Hin. clear H. rename Hin into H. unfold file_okb in H. cbn [fst snd] in H.
  rewrite (under_listed p Hu) in H. apply andb_true_iff in H as [H Hc]. apply andb_true_iff in H as [_ Hv].
  unfold entry_okb. cbn [fst snd]. now rewrite Hu, Hc, Hv.
Qed.

Lemma first_occ_entries_ok lines : forallb line_okb lines = true -> forall seen,
  forallb entry_okb (first_occ lines seen) = true.
Proof.
  induction lines as [|l r IH]; intros H seen; [reflexivity|].
  cbn [forallb] in H. apply andb_true_iff in H as [Hl H]. cbn [first_occ].
  unfold line_okb in Hl. destruct (process_line l) as [[[m w]|]|]; [|auto|discriminate].
  destruct (existsb (beqb m) seen); [auto|]. cbn [forallb]. rewrite IH by assumption.
  unfold entry_okb. cbn [fst snd]. now rewrite Hl.
Qed.

Lemma pack_refs_spec s : wfb s = true ->
  let (s', r) := pack_refs s in r = Ok tt /\ wfb s' = true /\ abs_eq (abs s') (abs s).
Proof.
  intros Hw. destruct (wfb_parts s Hw) as [Hnd [Hf [Hr [Hh Hp]]]].
  unfold pack_refs, walk_refs. rewrite Hr, walk_files_ok by assumption.
  set (b := match packed s with Some b => b | None => [] end).
  set (loose := loose_list (files (fs s))).
  (* the lines of the old file *)
  assert (Hlines : scan_lines b = packed_lines s /\ forallb line_okb (scan_lines b) = true /\ mem 13 b = false).
  { unfold b, packed_lines, packed_okb in *. destruct (packed s) as [b0|].
    - apply andb_true_iff in Hp as [H13 Hlo]. apply negb_true_iff in H13. auto.
    - repeat split; reflexivity. }
  destruct Hlines as [Elines [Hlo H13]].
  assert (Hap : all_parse (scan_lines b) = true).
  { exact (forallb_impl _ _ _ line_ok_parses Hlo). }
  assert (Hs0 : wfb {| fs := fs s; packed := Some b |} = true /\
                abs_eq (abs {| fs := fs s; packed := Some b |}) (abs s)).
  { split.
    - apply wfb_intro; try assumption. unfold packed_okb. now rewrite H13, Hlo.
    - intros x. unfold abs, loose_val, packed_val, packed_lines. cbn [fs packed]. now rewrite Elines. }
  destruct loose as [|e0 L0] eqn:EL.
  { split; [reflexivity|]. exact Hs0. }
  rewrite <- EL. clear e0 L0 EL.
  rewrite packed_all_first by assumption. cbn [rev app].
  set (pk := first_occ (scan_lines b) (map fst loose)).
  set (L := loose ++ pk).
  set (gone := map fst (filter is_hash_ref loose)).
  assert (HL : forallb entry_okb L = true).
  { unfold L. rewrite forallb_app. unfold loose, pk.
    now rewrite loose_entries_ok, first_occ_entries_ok. }
  destruct (rendered_lines_ok L HL) as [Hcl Hok].
  assert (Hren : forallb renderable L = true).
  { exact (forallb_impl _ _ _ entry_renderable HL). }
  set (files' := filter (fun e => negb (existsb (beqb (fst e)) gone)) (files (fs s))).
  assert (Hk' : forall x, lookup x files' =
            match lookup x (files (fs s)) with
            | Some c => if under refsDir x && is_hash (parse_c c) then None else Some c
            | None => None
            end).
  { intros x. unfold files', gone, loose. rewrite (lookup_filter (fun p => negb (existsb (beqb p) _))).
    rewrite gone_assoc, assoc_loose by assumption. destruct (lookup x (files (fs s))) as [c|]; [|reflexivity].
    now destruct (under refsDir x && is_hash (parse_c c)). }
  (* below the loose entries the new packed-refs answers like the old one *)
  assert (Hpk : forall x, ~ In x (map fst loose) -> assoc_h x pk = packed_val s x).
  { intros x Hx. unfold pk, packed_val. rewrite assoc_first_occ, Elines; [reflexivity|assumption|].
    apply not_true_iff_false. now rewrite existsb_beqb_in. }
  split; [reflexivity|]. split.
  - apply wfb_intro; cbn [files dirs]; [now apply nodup_filter|now apply forallb_filter'| |assumption|now apply packed_ok_unlines].
    unfold is_file in *. cbn [files]. fold files'. rewrite Hk'. now destruct (lookup refsDir (files (fs s))).
  - intros x. unfold abs, packed_val at 1, packed_lines, loose_val. cbn [fs files packed].
    rewrite scan_unlines, find_render, Hk' by assumption. unfold L. rewrite assoc_h_app. unfold loose at 1.
    rewrite assoc_loose by assumption.
    destruct (lookup x (files (fs s))) as [c|] eqn:Ek.
    + destruct (under refsDir x) eqn:Eu; cbn [andb].
      * destruct (file_ok_lookup s x c Hf (under_listed x Eu) Ek) as [c0 [c' ->]].
        destruct (is_hash (parse_c (c0 :: c'))); reflexivity.
      * (* an empty file outside refs/ is no entry: both sides fall through to packed-refs *)
        destruct c as [|c0 c']; [|reflexivity]. apply Hpk. intro Hx.
        apply (loose_names_val s x Hw) in Hx as [Hu _]. congruence.
    + apply Hpk. intro Hx. apply (loose_names_val s x Hw) in Hx as [_ Hl]. apply Hl. unfold loose_val. now rewrite Ek.
Qed.

