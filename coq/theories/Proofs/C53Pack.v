(* Proofs/C53Pack.v — C53 for the pack scanner / parser model (Model/PackParse.v).
   The model answers [option]: [None] is every rejection AND fuel exhaustion.
   "total" is therefore FUEL STABILITY: with the fuel the model passes, more
   fuel never changes the answer — a [None] is a genuine rejection.  Proved for
   EVERY byte string and EVERY inflate / digest / crc function:
     size_cont (entry size varint, fuel 11), vwint_cont (OFS distance, fuel 10),
     leb128 (delta sizes, fuel 10), scan_entries (fuel |pack|+1: an entry ends
     strictly after it starts), delta_loop (fuel |delta|+1: a command takes at
     least one byte), apply_delta, scan_pack.
   alloc: the scanner returns at most |pack| entries whatever the 32-bit count
   of the header says.  The depth-first delta resolution [visit] is in
   Proofs/C53Visit.v (its fuel argument needs the "every nested visit marks one
   more delta as done" invariant of Proofs/C08.v). *)
From Coq Require Import List NArith ZArith Bool Lia.
From GoGit Require Import Base.Out Model.PackBytes Gen.C08 Model.PackParse Proofs.C53RevFile.
From GoGit Require Proofs.C09.
Import ListNotations.
Local Open Scope N_scope.

Lemma size_cont_stable : forall f r size shift g,
  64 <= shift + 7 * N.of_nat f -> (f <= g)%nat -> size_cont g r size shift = size_cont f r size shift.
Proof.
  induction f as [|f IH]; intros r size shift g Hm Hg.
  - destruct g as [|g]; [reflexivity|]. cbn [size_cont]. destruct (N.ltb_spec 57 shift); [reflexivity|lia].
  - destruct g as [|g]; [lia|]. cbn [size_cont]. destruct (57 <? shift); [reflexivity|].
    destruct r as [|b r']; [reflexivity|]. destruct (N.land b 128 =? 0); [reflexivity|].
    apply IH; lia.
Qed.

Lemma entry_size_stable first r g : (11 <= g)%nat ->
  (let size := N.land first 15 in if N.land first 128 =? 0 then Some (size, r) else size_cont g r size 4) = entry_size first r.
Proof.
  intros Hg. unfold entry_size. cbv zeta. destruct (N.land first 128 =? 0); [reflexivity|].
  apply size_cont_stable; [cbn; lia|exact Hg].
Qed.

Lemma vwint_cont_stable : forall f r v g,
  VW_LIMIT < (v + 1) * 128 ^ N.of_nat f -> (f <= g)%nat -> vwint_cont g r v = vwint_cont f r v.
Proof.
  induction f as [|f IH]; intros r v g Hm Hg.
  - destruct g as [|g]; [reflexivity|]. cbn [vwint_cont]. destruct (N.leb_spec VW_LIMIT v); [reflexivity|lia].
  - destruct g as [|g]; [lia|]. cbn [vwint_cont]. destruct (VW_LIMIT <=? v); [reflexivity|].
    destruct r as [|c r']; [reflexivity|]. cbv zeta. destruct (N.land c 128 =? 0); [reflexivity|].
    apply IH; [|lia]. rewrite Nat2N.inj_succ, N.pow_succ_r' in Hm. nia.
Qed.

Lemma vwint_stable r g : (10 <= g)%nat ->
  match r with
  | [] => None
  | c :: r' => if N.land c 128 =? 0 then Some (N.land c 127, r') else vwint_cont g r' (N.land c 127)
  end = vwint r.
Proof.
  intros Hg. unfold vwint. destruct r as [|c r']; [reflexivity|]. destruct (N.land c 128 =? 0); [reflexivity|].
  apply vwint_cont_stable; [|exact Hg].
  assert (E : VW_LIMIT < 128 ^ N.of_nat 10) by (vm_compute; reflexivity).
  remember (128 ^ N.of_nat 10) as p. remember (N.land c 127) as x. nia.
Qed.

Lemma leb128_stable : forall f r num sz g,
  57 < 7 * (sz + N.of_nat f) -> (f <= g)%nat -> leb128 g r num sz = leb128 f r num sz.
Proof.
  induction f as [|f IH]; intros r num sz g Hm Hg.
  - destruct g as [|g]; [reflexivity|]. cbn [leb128]. destruct (N.ltb_spec 57 (sz * 7)); [reflexivity|lia].
  - destruct g as [|g]; [lia|]. cbn [leb128]. destruct (57 <? sz * 7); [reflexivity|].
    destruct r as [|b r']; [reflexivity|]. cbv zeta. destruct (N.land b 128 =? 0); [reflexivity|].
    apply IH; lia.
Qed.

Lemma leb128_10_stable r g : (10 <= g)%nat -> leb128 g r 0 0 = leb128 10 r 0 0.
Proof. intros Hg. apply leb128_stable; [cbn; lia|exact Hg]. Qed.

Lemma leb128_len : forall f r num sz v r', leb128 f r num sz = Some (v, r') -> (List.length r' < List.length r)%nat.
Proof.
  induction f as [|f IH]; intros r num sz v r' E; cbn [leb128] in E; [discriminate|].
  destruct (57 <? sz * 7); [discriminate|]. destruct r as [|b t]; [discriminate|]. cbv zeta in E.
  destruct (N.land b 128 =? 0).
  - injection E as _ <-. cbn [List.length]. lia.
  - apply IH in E. cbn [List.length]. lia.
Qed.

Lemma masked_bytes_len : forall masks cmd r acc v r', masked_bytes masks cmd r acc = Some (v, r') -> (List.length r' <= List.length r)%nat.
Proof.
  induction masks as [|[m s] ms IH]; intros cmd r acc v r' E; cbn [masked_bytes] in E.
  - injection E as _ <-. lia.
  - destruct (N.land cmd m =? 0); [eapply IH; eassumption|].
    destruct r as [|b t]; [discriminate|]. apply IH in E. cbn [List.length]. lia.
Qed.

Lemma delta_loop_stable src : forall f d remaining out g,
  (List.length d < f)%nat -> (f <= g)%nat -> delta_loop g src d remaining out = delta_loop f src d remaining out.
Proof.
  induction f as [|f IH]; intros d remaining out g Hf Hg; [lia|].
  destruct g as [|g]; [lia|]. cbn [delta_loop]. destruct (remaining =? 0); [reflexivity|].
  destruct d as [|cmd d1]; [reflexivity|]. cbn [List.length] in Hf.
  destruct (packfile_isCopyFromSrc (Z.of_N cmd)).
  - destruct (masked_bytes OFFSET_MASKS cmd d1 0) as [[offset d2]|] eqn:E1; [|reflexivity]. apply masked_bytes_len in E1.
    destruct (masked_bytes SIZE_MASKS cmd d2 0) as [[sz0 d3]|] eqn:E2; [|reflexivity]. apply masked_bytes_len in E2.
    cbv zeta. destruct (_ || _); [reflexivity|]. apply IH; lia.
  - destruct (packfile_isCopyFromDelta (Z.of_N cmd)); [|reflexivity].
    destruct (packfile_invalidSize _ _); [reflexivity|]. destruct (blen d1 <? cmd); [reflexivity|].
    apply IH; [|lia]. rewrite skipn_length. lia.
Qed.

(* a genuine rejection: giving the delta applier more fuel of any kind changes nothing *)
Theorem apply_delta_stable src delta g1 g2 g3 : (10 <= g1)%nat -> (10 <= g2)%nat ->
  (forall d2, (S (List.length d2) <= g3 d2)%nat) ->
  match leb128 g1 delta 0 0 with
  | None => None
  | Some (srcSz, d1) =>
    if negb (srcSz =? blen src) then None else
    match leb128 g2 d1 0 0 with
    | None => None
    | Some (tgtSz, d2) =>
      match delta_loop (g3 d2) src d2 tgtSz [] with
      | None => None
      | Some out => Some (tgtSz, out)
      end
    end
  end = apply_delta src delta.
Proof.
  intros H1 H2 H3. unfold apply_delta. rewrite (leb128_10_stable delta g1 H1).
  destruct (leb128 10 delta 0 0) as [[srcSz d1]|]; [|reflexivity].
  destruct (negb _); [reflexivity|]. rewrite (leb128_10_stable d1 g2 H2).
  destruct (leb128 10 d1 0 0) as [[tgtSz d2]|]; [|reflexivity].
  rewrite (delta_loop_stable src (S (List.length d2)) d2 tgtSz [] (g3 d2)); [reflexivity|lia|apply H3].
Qed.

(* the command loop appends exactly what was announced (Proofs/C09.v), so out grows by at most [remaining] *)
Lemma delta_loop_length src : forall f d remaining out res,
  delta_loop f src d remaining out = Some res -> blen res <= blen out + remaining.
Proof. intros f d remaining out res E. apply C09.delta_loop_length in E. lia. Qed.

Section Scan.
Variable hs : nat.
Variable Hsz : nat -> bytes -> bytes.
Variable inflate : bytes -> option (bytes * N).
Variable crc32 : bytes -> N.

Notation scan_entries := (scan_entries hs Hsz inflate crc32).
Notation scan_entry := (scan_entry hs Hsz inflate crc32).

(* positions past the end of the pack hold no entry *)
Lemma scan_entry_in_pack pack pos oh next :
  scan_entry pack pos (skipn (N.to_nat pos) pack) = Some (oh, next) -> pos < blen pack.
Proof.
  intros E. destruct (N.ltb_spec pos (blen pack)) as [L|L]; [exact L|].
  rewrite skipn_all2 in E by (unfold blen in L; lia). cbn in E. discriminate.
Qed.

Lemma scan_entries_stable pack count : forall f idx pos acc g,
  (S (List.length pack) - N.to_nat pos < f)%nat -> (f <= g)%nat ->
  scan_entries g pack count idx pos acc = scan_entries f pack count idx pos acc.
Proof.
  induction f as [|f IH]; intros idx pos acc g Hf Hg; [lia|].
  destruct g as [|g]; [lia|]. cbn [PackParse.scan_entries]. destruct (count <=? idx); [reflexivity|].
  destruct (scan_entry pack pos (skipn (N.to_nat pos) pack)) as [[oh next]|] eqn:E; [|reflexivity].
  apply scan_entry_in_pack in E. destruct (N.leb_spec next pos); [reflexivity|].
  apply IH; [|lia]. unfold blen in E. lia.
Qed.

(* the header's object count (up to 2^32-1) cannot make the scanner return more entries than the pack has bytes *)
Lemma scan_entries_count pack count : forall f idx pos acc es e,
  scan_entries f pack count idx pos acc = Some (es, e) ->
  (List.length es <= List.length acc + (List.length pack - N.to_nat pos))%nat.
Proof.
  induction f as [|f IH]; intros idx pos acc es e E; cbn [PackParse.scan_entries] in E; [discriminate|].
  destruct (count <=? idx).
  - injection E as <- _. rewrite rev_length. lia.
  - destruct (scan_entry pack pos (skipn (N.to_nat pos) pack)) as [[oh next]|] eqn:S1; [|discriminate].
    apply scan_entry_in_pack in S1. destruct (N.leb_spec next pos); [discriminate|].
    apply IH in E. cbn [List.length] in E. unfold blen in S1. lia.
Qed.

Theorem scan_pack_alloc pack es sum : scan_pack hs Hsz inflate crc32 pack = Some (es, sum) -> (List.length es + 12 <= List.length pack)%nat.
Proof.
  unfold scan_pack. cbv zeta. destruct (take 4 pack) as [[sg r1]|] eqn:T1; [|discriminate].
  destruct (negb _); [discriminate|]. destruct (take 4 r1) as [[vb r2]|] eqn:T2; [|discriminate].
  destruct (negb _); [discriminate|]. destruct (take 4 r2) as [[qb r3]|] eqn:T3; [|discriminate].
  destruct (scan_entries _ pack _ 0 12 []) as [[es' pos]|] eqn:E; [|discriminate].
  destruct (take (N.of_nat hs) (skipn (N.to_nat pos) pack)) as [[s' r']|]; [|discriminate]. destruct (bytes_eqb s' _); [|discriminate].
  intros [= <- _]. apply scan_entries_count in E. cbn [List.length] in E.
  apply take_len in T1, T2, T3. unfold blen in *. change (N.to_nat 12) with 12%nat in E. lia.
Qed.

(* scan_pack with any larger fuel for the entry loop is scan_pack *)
Theorem scan_pack_stable pack g : (S (List.length pack) <= g)%nat ->
  forall count, scan_entries g pack count 0 12 [] = scan_entries (S (List.length pack)) pack count 0 12 [].
Proof. intros Hg count. apply scan_entries_stable; [lia|exact Hg]. Qed.

End Scan.
