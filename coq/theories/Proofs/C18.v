(* Proofs/C18.v — the list caches of dotgit never hide a written object:
   refinement of the abstract disk (Spec/ObjDisk.v) by Model/ObjVis.v. *)
From Coq Require Import List NArith Bool.
From GoGit Require Import Model.ObjVis Spec.ObjDisk.
Import ListNotations.
Local Open Scope N_scope.

(* the repaired tree, or no ExclusiveAccess *)
Definition guard (c : cfg) : bool := fixd c || negb (excl c).

Local Set Implicit Arguments.

Definition abs (s : st) : disk := Disk (loose s) (packs s) (ow s) (pw s).

Definition indexed (s : st) : Prop := forall p, memp p (index_val s) = memp p (packs s).

Record inv (c : cfg) (s : st) : Prop := {
  inv_ol : forall l, olist s = Some l -> excl c = true /\ l = loose s;
  inv_pl : forall l, plist s = Some l -> excl c = true /\ l = packs s;
  inv_ix : index s <> None -> indexed s;
  inv_pw : pw s <> [] -> index s <> None   (* PackfileWriter ran requireIndex *)
}.

(* [inv c s'] for an s' built from s by the set_… functions, I : inv c s *)
Ltac inv_fields I := constructor; cbn; try apply I; try (intros; discriminate).

Lemma mem_0 k : mem k 0 = false.
Proof. apply N.bits_0. Qed.

Lemma mem_lor k a b : mem k (N.lor a b) = mem k a || mem k b.
Proof. apply N.lor_spec. Qed.

Lemma mem_setbit k a j : mem k (N.setbit a j) = (j =? k) || mem k a.
Proof. apply N.setbit_eqb. Qed.

Lemma memp_In p l : memp p l = true <-> In p l.
Proof.
  unfold memp. rewrite existsb_exists. split.
  - now intros (x & Hx & ->%N.eqb_eq).
  - intros H. exists p. split; [assumption | apply N.eqb_refl].
Qed.

Lemma memp_snoc q l p : memp q (l ++ [p]) = memp q l || (q =? p).
Proof. unfold memp. rewrite existsb_app. cbn. now rewrite orb_false_r. Qed.

Lemma memp_addp q p l : memp q (addp p l) = (q =? p) || memp q l.
Proof.
  unfold addp. destruct (memp p l) eqn:E; [|rewrite memp_snoc; apply orb_comm].
  destruct (q =? p) eqn:Q; [apply N.eqb_eq in Q; subst; now rewrite E | reflexivity].
Qed.

Lemma mem_union_all k l : mem k (union_all l) = existsb (mem k) l.
Proof.
  induction l as [|p r IH]; [apply mem_0|].
  cbn [existsb]. rewrite <- IH. apply mem_lor.
Qed.

Lemma mem_union_all_ext k l1 l2 :
  (forall p, memp p l1 = memp p l2) -> mem k (union_all l1) = mem k (union_all l2).
Proof.
  intros H. rewrite !mem_union_all. apply eq_true_iff_eq. rewrite !existsb_exists.
  setoid_rewrite <- memp_In. now setoid_rewrite H.
Qed.

Lemma mem_union_all_addp k p l :
  mem k (union_all (addp p l)) = mem k p || mem k (union_all l).
Proof.
  rewrite <- mem_lor. change (N.lor p (union_all l)) with (union_all (p :: l)).
  apply mem_union_all_ext. intros q. apply memp_addp.
Qed.

Lemma visible_lor d k : visible d k = mem k (d_loose d) || mem k (union_all (d_packs d)).
Proof. apply mem_lor. Qed.

Arguments memp : simpl never.
Arguments mem : simpl never.
Arguments addp : simpl never.
Arguments union_all : simpl never.

(* s is what reads have made of s0.  Each reading primitive is described from
   such an s with its answer in terms of s0, so the lemmas chain and the
   answers are those of the spec at s0. *)

Definition keeps (c : cfg) (s0 s : st) : Prop :=
  inv c s /\ abs s = abs s0 /\ (index s0 <> None -> index s <> None).

Lemma keeps_refl c s : inv c s -> keeps c s s.
Proof. now split. Qed.

Lemma keeps_trans c s0 s1 s2 : keeps c s0 s1 -> keeps c s1 s2 -> keeps c s0 s2.
Proof. intros (_ & A1 & X1) (I & A2 & X2). split; [exact I|]. split; [congruence | auto]. Qed.

Lemma keeps_loose c s0 s : keeps c s0 s -> loose s = loose s0.
Proof. now intros (_ & [= ] & _). Qed.

Lemma keeps_packs c s0 s : keeps c s0 s -> packs s = packs s0.
Proof. now intros (_ & [= ] & _). Qed.

Lemma gen_olist_ok c s0 s : excl c = true -> keeps c s0 s ->
  keeps c s0 (gen_olist s) /\ olist_val (gen_olist s) = loose s0.
Proof.
  intros E K. rewrite <- (keeps_loose K). destruct K as (I & A & X).
  unfold gen_olist, olist_val. destruct (olist s) as [l|] eqn:O.
  - rewrite O. split; [now split | apply (inv_ol I O)].
  - split; [|reflexivity]. split; [|now split]. inv_fields I. now intros l [= <-].
Qed.

Lemma gen_plist_ok c s0 s : excl c = true -> keeps c s0 s ->
  keeps c s0 (gen_plist s) /\ plist_val (gen_plist s) = packs s0.
Proof.
  intros E K. rewrite <- (keeps_packs K). destruct K as (I & A & X).
  unfold gen_plist, plist_val. destruct (plist s) as [l|] eqn:P.
  - rewrite P. split; [now split | apply (inv_pl I P)].
  - split; [|reflexivity]. split; [|now split]. inv_fields I. now intros l [= <-].
Qed.

Lemma objects_ok c s0 s : keeps c s0 s ->
  exists s', objects c s = (s', loose s0) /\ keeps c s0 s'.
Proof.
  intros K. unfold objects. destruct (excl c) eqn:E.
  - destruct (gen_olist_ok E K) as [K1 ->]. eauto.
  - rewrite (keeps_loose K). eauto.
Qed.

Lemma loose_lookup_ok c s0 s k : keeps c s0 s ->
  exists s', loose_lookup c s k = (s', mem k (loose s0)) /\ keeps c s0 s'.
Proof.
  intros K. unfold loose_lookup, has_object. destruct (excl c) eqn:E.
  - destruct (gen_olist_ok E K) as [K1 ->]. rewrite (keeps_loose K1), andb_diag. eauto.
  - rewrite (keeps_loose K). eauto.
Qed.

Lemma object_packs_ok c s0 s : keeps c s0 s ->
  exists s', object_packs c s = (s', packs s0) /\ keeps c s0 s'.
Proof.
  intros K. unfold object_packs. destruct (excl c) eqn:E.
  - destruct (gen_plist_ok E K) as [K1 ->]. eauto.
  - rewrite (keeps_packs K). eauto.
Qed.

Lemma keeps_set_handles c s0 s v : keeps c s0 s -> keeps c s0 (set_handles s v).
Proof. intros (I & A & X). split; [inv_fields I | now split]. Qed.

Lemma has_pack_ok c s0 s p : keeps c s0 s -> memp p (packs s0) = true ->
  exists s', has_pack c s p = (s', true) /\ keeps c s0 s'.
Proof.
  intros K Hp. unfold has_pack. destruct (excl c) eqn:E; [|eauto].
  destruct (gen_plist_ok E K) as [K1 ->]. rewrite Hp. eauto.
Qed.

Lemma pack_handle_ok c s0 s p : keeps c s0 s -> memp p (packs s0) = true ->
  exists s', pack_handle c s p = (s', true) /\ keeps c s0 s'.
Proof.
  intros K Hp. unfold pack_handle. destruct (memp p (handles s)); [eauto|].
  destruct (has_pack_ok p K Hp) as (s1 & -> & K1). rewrite (keeps_packs K1), Hp.
  cbn. eauto using keeps_set_handles.
Qed.

Lemma keeps_indexed c s0 s : keeps c s0 s -> index s0 <> None -> indexed s.
Proof. intros (I & _ & X) X0. apply (inv_ix I), X, X0. Qed.

Lemma open_all_ok c s0 ps : index s0 <> None -> incl ps (packs s0) ->
  forall s, keeps c s0 s -> exists s', open_all c s ps = (s', true) /\ keeps c s0 s'.
Proof.
  intros X0. induction ps as [|p r IH]; intros Hin s K; cbn [open_all]; [eauto|].
  apply incl_cons_inv in Hin as [Hp%memp_In Hr].
  destruct (pack_handle_ok p K Hp) as (s1 & -> & K1).
  rewrite (keeps_indexed K1 X0), (keeps_packs K1), Hp. now apply IH.
Qed.

Lemma keeps_set_index c s0 s : keeps c s0 s -> keeps c s0 (set_index s (Some (packs s0))).
Proof.
  intros K. rewrite <- (keeps_packs K). destruct K as (I & A & X).
  split; [|now split]. inv_fields I. now intros _ p.
Qed.

Lemma require_index_ok c s0 s : keeps c s0 s ->
  keeps c s0 (require_index c s) /\ index (require_index c s) <> None.
Proof.
  intros K. unfold require_index, populate. destruct (index s) eqn:X.
  - split; [exact K | now rewrite X].
  - destruct (object_packs_ok K) as (s1 & -> & K1). split; [|discriminate].
    now apply keeps_set_index.
Qed.

Lemma visible_index c s0 s k : keeps c s0 s -> index s <> None ->
  visible (abs s0) k = mem k (loose s0) || existsb (mem k) (index_val s).
Proof.
  intros K X. rewrite visible_lor, <- mem_union_all. f_equal. cbn [abs d_packs].
  rewrite <- (keeps_packs K). symmetry. apply mem_union_all_ext, (inv_ix (proj1 K) X).
Qed.

(* the routing shared by HasEncodedObject, EncodedObjectSize, EncodedObject:
   requireIndex, then the pack found in the index or else the loose file *)
Lemma lookup_route c s k : inv c s ->
  let s1 := require_index c s in
  match find_pack s1 k with
  | Some p => visible (abs s) k = true /\ keeps c s s1 /\
              exists s', pack_handle c s1 p = (s', true) /\ keeps c s s'
  | None => exists s', loose_lookup c s1 k = (s', visible (abs s) k) /\ keeps c s s'
  end.
Proof.
  intros I s1. destruct (require_index_ok (keeps_refl I)) as (K & X). fold s1 in K, X.
  rewrite (visible_index k K X). destruct (find_pack s1 k) as [p|] eqn:F.
  - apply find_some in F as [Hin Hm]. split; [|split; [exact K|]].
    + apply orb_true_iff. right. apply existsb_exists. eauto.
    + apply (pack_handle_ok p K).
      rewrite <- (keeps_packs K), <- (inv_ix (proj1 K) X). now apply memp_In.
  - replace (existsb (mem k) (index_val s1)) with false; [rewrite orb_false_r; apply (loose_lookup_ok k K)|].
    symmetry. apply not_true_is_false. intros (p & Hp & Hm)%existsb_exists.
    now rewrite (find_none _ _ F p Hp) in Hm.
Qed.

(* whichever pack the routing (MRU hint, cache) picks among the indexed ones,
   the hasPack gate and the handle catalog let the read through *)
Lemma gate_open c s p : inv c s -> memp p (index_val s) = true -> snd (pack_handle c s p) = true.
Proof.
  intros I Hp.
  assert (X : index s <> None) by (intros X; unfold index_val in Hp; now rewrite X in Hp).
  rewrite (inv_ix I X) in Hp.
  now destruct (pack_handle_ok p (keeps_refl I) Hp) as (s' & -> & _).
Qed.

Lemma unrepaired_nonexclusive c : guard c = true -> fixd c = false -> excl c = false.
Proof. unfold guard. intros G F. rewrite F in G. now destruct (excl c). Qed.

Lemma inv_clean_olist c s : inv c s -> inv c (clean_olist s).
Proof. intros I. inv_fields I. Qed.

(* without the repair the guard leaves no list to invalidate: a reader may
   have regenerated olist since NewObject only under ExclusiveAccess *)
Lemma obj_saved_ok c s k : guard c = true -> inv c s ->
  inv c (obj_saved c s k) /\ abs (obj_saved c s k) = Disk (N.setbit (loose s) k) (packs s) (ow s) (pw s).
Proof.
  intros G I. unfold obj_saved. destruct (fixd c) eqn:F; (split; [|reflexivity]); inv_fields I.
  intros l [E _]%(inv_ol I). now rewrite (unrepaired_nonexclusive c G F) in E.
Qed.

Lemma pack_saved_ok c s p : guard c = true -> inv c s -> index s <> None ->
  inv c (pack_saved c s p) /\ abs (pack_saved c s p) = Disk (loose s) (addp p (packs s)) (ow s) (pw s).
Proof.
  intros G I X. unfold pack_saved.
  assert (H : forall q, memp q (addp p (index_val s)) = memp q (addp p (packs s)))
    by (intros q; now rewrite !memp_addp, (inv_ix I X)).
  destruct (fixd c) eqn:F; (split; [|reflexivity]); inv_fields I.
  - intros _. exact H.
  - intros l [E _]%(inv_pl I). now rewrite (unrepaired_nonexclusive c G F) in E.
  - intros _. exact H.
Qed.

Lemma inv_init c l ps : inv c (init_st l ps).
Proof. constructor; cbn; intros; try discriminate; congruence. Qed.

Lemma read_refines c s s1 (x : res) s' r : keeps c s s1 -> (s1, x) = (s', r) ->
  inv c s' /\ (abs s, x) = (abs s', r).
Proof. intros (I & A & _) [= <- <-]. now rewrite A. Qed.

Lemma step_refines c s o s' r : guard c = true -> inv c s -> step c s o = (s', r) ->
  inv c s' /\ spec_step (abs s) o = (abs s', r).
Proof.
  intros G I. pose proof (keeps_refl I) as K.
  (* a writer restores [inv] by obj_saved_ok / pack_saved_ok; a read is a chain of [keeps] closed by read_refines *)
  destruct o; cbn [step spec_step abs d_loose d_packs d_ow d_pw].
  - destruct (slot_get w (ow s)); intros [= <- <-]; [now split|].
    split; [inv_fields I | reflexivity].
  - destruct (slot_get w (ow s)) as [k|]; intros [= <- <-]; [|now split].
    assert (I1 : inv c (set_ow s (slot_del w (ow s)))) by inv_fields I.
    destruct (obj_saved_ok k G I1) as [I2 ->]. now split.
  - intros [= <- <-]. split; [now apply inv_clean_olist | reflexivity].
  - intros [= <- <-]. destruct (obj_saved_ok k G (inv_clean_olist I)) as [I2 ->]. now split.
  - destruct (slot_get w (pw s)); intros [= <- <-]; [now split|].
    destruct (require_index_ok K) as ((I1 & [= <- <- <- <-] & _) & X1).
    split; [inv_fields I1; auto | reflexivity].
  - destruct (slot_get w (pw s)) as [p|] eqn:W; [|intros [= <- <-]; now split].
    assert (X : index s <> None) by (apply (inv_pw I); intros E; now rewrite E in W).
    assert (I1 : inv c (set_pw s (slot_del w (pw s)))) by (inv_fields I; auto).
    destruct (p =? 0); intros [= <- <-].
    + split; [destruct (fixd c); [inv_fields I1 | exact I1] | now destruct (fixd c)].
    + destruct (pack_saved_ok p G I1 X) as [I2 ->]. now split.
  - generalize (lookup_route k I). cbv zeta. destruct (find_pack _ k) as [p|].
    + intros (-> & K1 & _). apply (read_refines K1).
    + intros (s2 & -> & K2). apply (read_refines K2).
  - generalize (lookup_route k I). cbv zeta. destruct (find_pack _ k) as [p|].
    + intros (-> & _ & s2 & -> & K2). apply (read_refines K2).
    + intros (s2 & -> & K2). apply (read_refines K2).
  - generalize (lookup_route k I). cbv zeta. destruct (find_pack _ k) as [p|].
    + intros (-> & _ & s2 & -> & K2). apply (read_refines K2).
    + intros (s2 & -> & K2). apply (read_refines K2).
  - destruct (objects_ok K) as (s1 & -> & K1).
    destruct (require_index_ok K1) as (K2 & X2).
    destruct (object_packs_ok (keeps_refl (proj1 K2))) as (s3 & -> & K3).
    destruct (open_all_ok X2 (incl_refl _) K3) as (s4 & -> & K4).
    rewrite (keeps_packs K2). apply (read_refines (keeps_trans K2 K4)).
  - destruct (objects_ok K) as (s1 & -> & K1).
    destruct (require_index_ok K1) as (K2 & X2).
    rewrite mem_lor, mem_union_all, <- (visible_index k K2 X2). apply (read_refines K2).
  - destruct (object_packs_ok K) as (s1 & -> & K1). apply (read_refines K1).
  - change (loose (clean_olist s)) with (loose s).
    destruct (mem k (loose s)); intros [= <- <-]; (split; [|reflexivity]).
    + inv_fields I.
    + now apply inv_clean_olist.
  - unfold populate. destruct (object_packs_ok K) as (s1 & -> & K1).
    apply (read_refines (keeps_set_index K1)).
Qed.

Lemma run_refines c ops s : guard c = true -> inv c s ->
  inv c (fst (run c s ops)) /\ spec_run (abs s) ops = (abs (fst (run c s ops)), snd (run c s ops)).
Proof.
  intros G. revert s. induction ops as [|o r IH]; intros s I; cbn [run spec_run]; [now split|].
  destruct (step c s o) as [s1 x] eqn:S. destruct (step_refines o G I S) as [I1 ->].
  destruct (IH s1 I1) as [I2 ->]. now destruct (run c s1 r).
Qed.

Theorem run_init c l0 p0 ops : guard c = true ->
  inv c (fst (run c (init_st l0 p0) ops)) /\
  spec_run (init_disk l0 p0) ops = (abs (fst (run c (init_st l0 p0) ops)), snd (run c (init_st l0 p0) ops)).
Proof. intros G. exact (run_refines ops G (inv_init c l0 p0)). Qed.

Lemma spec_run_app a b d :
  spec_run d (a ++ b) =
  (fst (spec_run (fst (spec_run d a)) b), snd (spec_run d a) ++ snd (spec_run (fst (spec_run d a)) b)).
Proof.
  revert d. induction a as [|o r IH]; intros d; cbn.
  - now destruct (spec_run d b).
  - destruct (spec_step d o) as [d1 x]. rewrite IH.
    destruct (spec_run d1 r) as [d2 xs]. cbn.
    now destruct (spec_run d2 b).
Qed.

Lemma spec_run_cons d o r : fst (spec_run d (o :: r)) = fst (spec_run (fst (spec_step d o)) r).
Proof. cbn. destruct (spec_step d o) as [d1 x]. cbn. now destruct (spec_run d1 r). Qed.

Lemma spec_run_preserves (P : disk -> Prop) (ok : op -> bool) :
  (forall d o, P d -> ok o = true -> P (fst (spec_step d o))) ->
  forall ops d, P d -> forallb ok ops = true -> P (fst (spec_run d ops)).
Proof.
  intros H ops. induction ops as [|o r IH]; intros d Pd A; [exact Pd|].
  apply andb_true_iff in A as [A1 A2]. rewrite spec_run_cons. auto.
Qed.

Lemma spec_step_loose k d o : mem k (d_loose d) = true -> negb (is_del k o) = true ->
  mem k (d_loose (fst (spec_step d o))) = true.
Proof.
  intros M D. destruct o; cbn; try destruct (slot_get _ _); cbn; trivial.
  - rewrite mem_setbit, M. apply orb_true_r.
  - rewrite mem_setbit, M. apply orb_true_r.
  - destruct (mem k0 (d_loose d)); cbn; [|exact M].
    unfold mem in *. now rewrite N.clearbit_eqb, M.
Qed.

Lemma spec_step_packed k d o : mem k (union_all (d_packs d)) = true ->
  mem k (union_all (d_packs (fst (spec_step d o)))) = true.
Proof.
  intros M. destruct o; cbn; try destruct (slot_get _ _); cbn; trivial.
  - destruct (p =? 0); [exact M|]. rewrite mem_union_all_addp, M. apply orb_true_r.
  - now destruct (mem k0 (d_loose d)).
Qed.

Lemma lookup_finds d k q : visible d k = true -> is_lookup k q = true ->
  finds k q (snd (spec_step d q)) = true.
Proof.
  intros V L. destruct q; try destruct t; try discriminate L; cbn in L |- *;
    try apply N.eqb_eq in L as ->; now rewrite ?V, ?N.eqb_refl.
Qed.

Lemma last_spec d ops q :
  last (snd (spec_run d (ops ++ [q]))) ROk = snd (spec_step (fst (spec_run d ops)) q).
Proof. rewrite spec_run_app. cbn. destruct (spec_step _ q). apply last_last. Qed.

Lemma closed_visible d w k ops : slot_get w (d_ow d) = Some k ->
  forallb (fun o => negb (is_del k o)) ops = true ->
  visible (fst (spec_run d (CloseObj w :: ops))) k = true.
Proof.
  intros W D. rewrite spec_run_cons. cbn [spec_step]. rewrite W.
  rewrite visible_lor, (spec_run_preserves _ _ (spec_step_loose k) _ _); trivial.
  cbn. now rewrite mem_setbit, N.eqb_refl.
Qed.

Lemma pack_closed_visible d w p k ops : slot_get w (d_pw d) = Some p -> mem k p = true ->
  visible (fst (spec_run d (ClosePack w :: ops))) k = true.
Proof.
  intros W M. rewrite spec_run_cons. cbn [spec_step]. rewrite W.
  rewrite visible_lor, (spec_run_preserves _ (fun _ => true) (fun d o M _ => spec_step_packed k d o M) ops _).
  - apply orb_true_r.
  - cbn. destruct (p =? 0) eqn:P0; [apply N.eqb_eq in P0; subst; now rewrite mem_0 in M|].
    now rewrite mem_union_all_addp, M.
  - now apply forallb_forall.
Qed.

Theorem found_after c l0 p0 ops1 o ops2 k q : guard c = true -> is_lookup k q = true ->
  visible (fst (spec_run (abs (fst (run c (init_st l0 p0) ops1))) (o :: ops2))) k = true ->
  finds k q (last (snd (run c (init_st l0 p0) (ops1 ++ o :: ops2 ++ [q]))) ROk) = true.
Proof.
  intros G L V. rewrite app_comm_cons, app_assoc.
  destruct (run_init c l0 p0 ((ops1 ++ o :: ops2) ++ [q]) G) as [_ E].
  apply (f_equal snd) in E. cbn [snd] in E. rewrite <- E, last_spec. apply lookup_finds; [|exact L].
  rewrite spec_run_app. cbn [fst]. now rewrite (proj2 (run_init c l0 p0 ops1 G)).
Qed.
