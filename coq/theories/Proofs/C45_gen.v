(* Proofs/C45_gen.v — the hunks generator of Model/Unified.v produces hunks whose strict application
   to the old lines gives the new lines: invariant of the Generate loop. *)
From Coq Require Import List NArith ZArith Bool Arith Lia.
From GoGit Require Import Base.Out Model.Unified Spec.HunkApply Proofs.C45_apply.
Import ListNotations.

Definition adds_from (o : dop) : bool := match o with Add => false | _ => true end.
Definition adds_to (o : dop) : bool := match o with Delete => false | _ => true end.
(* will processing chunk c put lines of this side into an open hunk? (Equal lines: only with ctx > 0) *)
Definition will_add (ctx : nat) (side : dop -> bool) (c : chunk) : bool :=
  side (fst c) && (negb (Nat.eqb ctx 0) || negb (dop_eqb (fst c) Equal)).

(* the header start of one side of the open hunk, relative to bc = lines of that side before the hunk *)
Definition HdrOK (ctx : nat) (side : dop -> bool) (line count bc : Z) (rest : list chunk) : Prop :=
  ((0 < count /\ line = bc + 1) \/
   (count = 0 /\ match rest with
                 | [] => line = bc
                 | c :: _ => if will_add ctx side c then line = bc + 1 else line = bc
                 end))%Z.
Definition NoStall (side : dop -> bool) (count : Z) (rest : list chunk) : Prop :=
  count = 0%Z -> match rest with [] => True | d :: _ => side (fst d) = true end.

Definition oldl (c : chunk) : list line := match fst c with Add => [] | _ => split_lines (snd c) end.
Definition newl (c : chunk) : list line := match fst c with Delete => [] | _ => split_lines (snd c) end.

Definition Base (hs : list hunk) (obase outp : list line) : Prop :=
  apply_pref hs 0 0 obase = Some (outp, Z.of_nat (length obase), Z.of_nat (length outp), []).

Definition Inv (ctx : nat) (st : gstate) (O N : list line) (rest : list chunk) : Prop :=
  st.(g_from) = Z.of_nat (length O) /\ st.(g_to) = Z.of_nat (length N) /\
  exists obase outp, Base st.(g_hunks) obase outp /\
  match st.(g_cur) with
  | None =>
    O = obase ++ st.(g_before) /\ N = outp ++ st.(g_before) /\
    (st.(g_hunks) <> [] -> rest <> [] -> (ctx < length st.(g_before))%nat)
  | Some h => exists gapl,
    O = obase ++ gapl ++ oldside h.(h_ops) /\ N = outp ++ gapl ++ newside h.(h_ops) /\
    h.(h_fromc) = Z.of_nat (length (oldside h.(h_ops))) /\
    h.(h_toc) = Z.of_nat (length (newside h.(h_ops))) /\
    HdrOK ctx adds_from h.(h_from) h.(h_fromc) (Z.of_nat (length obase + length gapl)) rest /\
    HdrOK ctx adds_to h.(h_to) h.(h_toc) (Z.of_nat (length outp + length gapl)) rest /\
    NoStall adds_from h.(h_fromc) rest /\ NoStall adds_to h.(h_toc) rest
  end.

(* what the loop needs to know about the chunk being processed and the one after it *)
Definition Gd (ctx : nat) (c : chunk) (rest : list chunk) : Prop :=
  snd c <> [] /\
  match rest with
  | [] => True
  | d :: _ => fst c <> fst d /\ (ctx = O -> fst c = Equal \/ fst d = Equal)
  end.

Definition next_of (rest : list chunk) : option dop := match rest with [] => None | d :: _ => Some (fst d) end.

(* the loop body without the final append *)
Definition core_step (ctx : nat) (st : gstate) (c : chunk) (next : option dop) : gstate :=
  let ls := split_lines (snd c) in
  let n := zlen ls in
  let is_last := match next with None => true | Some _ => false end in
  match fst c with
  | Equal => process_equals ctx (set_lines st (st.(g_from) + n) (st.(g_to) + n))%Z ls is_last
  | Delete =>
    let s1 := set_lines st (if (n =? 0)%Z then st.(g_from) else st.(g_from) + 1)%Z st.(g_to) in
    let s2 := process_hunk ctx s1 next Delete in
    cur_add (set_lines s2 (s2.(g_from) + (n - 1))%Z s2.(g_to)) Delete ls
  | Add =>
    let s1 := set_lines st st.(g_from) (if (n =? 0)%Z then st.(g_to) else st.(g_to) + 1)%Z in
    let s2 := process_hunk ctx s1 next Add in
    cur_add (set_lines s2 s2.(g_from) (s2.(g_to) + (n - 1))%Z) Add ls
  end.

Definition finish (st : gstate) : list hunk :=
  match st.(g_cur) with Some h => st.(g_hunks) ++ [h] | None => st.(g_hunks) end.

Lemma gen_step_core ctx st c next :
  g_hunks (gen_step ctx st c next) =
  match next with None => finish (core_step ctx st c next) | Some _ => g_hunks (core_step ctx st c next) end.
Proof.
  unfold gen_step, core_step, finish. cbv zeta. destruct next; [reflexivity|].
  destruct (fst c); cbn; match goal with |- context [g_cur ?s] => destruct (g_cur s) end; reflexivity.
Qed.

Lemma gen_step_core_some ctx st c d : gen_step ctx st c (Some d) = core_step ctx st c (Some d).
Proof. reflexivity. Qed.

Lemma Base_nil obase outp : Base [] obase outp -> obase = [] /\ outp = [].
Proof. unfold Base. cbn. intros H. inversion H; subst. auto. Qed.

Lemma Base_nil_intro : Base [] [] [].
Proof. reflexivity. Qed.

Lemma Base_close hs h obase outp gapl :
  Base hs obase outp ->
  start_index (h_from h) (h_fromc h) = Z.of_nat (length obase + length gapl) ->
  start_index (h_to h) (h_toc h) = Z.of_nat (length outp + length gapl) ->
  h_fromc h = Z.of_nat (length (oldside (h_ops h))) ->
  h_toc h = Z.of_nat (length (newside (h_ops h))) ->
  Base (hs ++ [h]) (obase ++ gapl ++ oldside (h_ops h)) (outp ++ gapl ++ newside (h_ops h)).
Proof.
  unfold Base. intros Hb Hf Ht Hfc Htc. rewrite (apply_pref_snoc h gapl _ _ _ _ _ _ _ Hb) by (repeat split; lia).
  rewrite !app_length, Hfc, Htc. repeat f_equal; lia.
Qed.

Lemma Base_apply hs obase outp X : Base hs obase outp -> strict_apply hs (obase ++ X) = Some (outp ++ X).
Proof. intros Hb. unfold strict_apply. now rewrite (apply_pref_ext _ _ _ _ _ _ _ _ X Hb). Qed.

Lemma zlen_len {A} (l : list A) : zlen l = Z.of_nat (length l).
Proof. reflexivity. Qed.

Lemma add_op_ops h t ls : h_ops (add_op h t ls) = h_ops h ++ map (fun l => (t, l)) ls.
Proof. reflexivity. Qed.
Lemma add_op_from h t ls : h_from (add_op h t ls) = h_from h.
Proof. reflexivity. Qed.
Lemma add_op_to h t ls : h_to (add_op h t ls) = h_to h.
Proof. reflexivity. Qed.
Lemma add_op_fromc h t ls :
  h_fromc (add_op h t ls) = (h_fromc h + (if adds_from t then Z.of_nat (length ls) else 0))%Z.
Proof. destruct t; cbn; unfold zlen; lia. Qed.
Lemma add_op_toc h t ls :
  h_toc (add_op h t ls) = (h_toc h + (if adds_to t then Z.of_nat (length ls) else 0))%Z.
Proof. destruct t; cbn; unfold zlen; lia. Qed.

Lemma oldside_add_op h t ls :
  oldside (h_ops (add_op h t ls)) = oldside (h_ops h) ++ (if adds_from t then ls else []).
Proof. rewrite add_op_ops, oldside_app, oldside_map. now destruct t. Qed.
Lemma newside_add_op h t ls :
  newside (h_ops (add_op h t ls)) = newside (h_ops h) ++ (if adds_to t then ls else []).
Proof. rewrite add_op_ops, newside_app, newside_map. now destruct t. Qed.

Lemma dop_eqb_eq a b : dop_eqb a b = true <-> a = b.
Proof. destruct a, b; cbn; split; congruence. Qed.

Lemma dop_equal_dec t : t = Equal \/ t <> Equal.
Proof. destruct t; auto; right; discriminate. Qed.

(* a side that gets k > 0 lines from the current chunk has a correct header afterwards *)
Lemma HdrOK_grow ctx side line count bc c rest rest' k :
  HdrOK ctx side line count bc (c :: rest) -> (0 < k)%Z ->
  will_add ctx side c = true ->
  HdrOK ctx side line (count + k) bc rest'.
Proof.
  intros [[H1 H2]|[H1 H2]] Hk Hw; left; (split; [lia|]); [exact H2|]. now rewrite Hw in H2.
Qed.

(* closing on an Equal chunk that contributes k = min ctx |ls| lines *)
Lemma HdrOK_close ctx side line count bc c rest k :
  HdrOK ctx side line count bc (c :: rest) -> fst c = Equal -> side Equal = true ->
  (ctx = O -> k = 0%Z) -> (ctx <> O -> 0 < k)%Z ->
  start_index line (count + k) = bc.
Proof.
  intros H He Hs H0 H1. unfold start_index.
  destruct H as [[Ha Hb]|[Ha Hb]]; [destruct (Z.eqb_spec (count + k) 0); lia|].
  unfold will_add in Hb. rewrite He, Hs in Hb. cbn in Hb.
  destruct (Nat.eqb_spec ctx 0); cbn in Hb; destruct (Z.eqb_spec (count + k) 0); lia.
Qed.

Lemma HdrOK_final ctx side line count bc : HdrOK ctx side line count bc [] -> start_index line count = bc.
Proof. unfold start_index. intros [[Ha Hb]|[Ha Hb]]; destruct (Z.eqb_spec count 0); lia. Qed.

Ltac simp_st := cbn [g_from g_to g_cur g_hunks g_before set_lines cur_add h_from h_to h_fromc h_toc h_ops h_prefix].

Lemma len_split_pos (c : chunk) : snd c <> [] -> (0 < length (split_lines (snd c)))%nat.
Proof. intros H. pose proof (split_lines_nonempty _ H). destruct (split_lines (snd c)); [congruence|cbn; lia]. Qed.

Lemma step_equal_none ctx st c rest O N :
  fst c = Equal -> g_cur st = None ->
  Inv ctx st O N (c :: rest) ->
  Inv ctx (core_step ctx st c (next_of rest)) (O ++ oldl c) (N ++ newl c) rest.
Proof.
  intros Hf Hc (H1 & H2 & obase & outp & Hb & Hi). rewrite Hc in Hi. destruct Hi as (HO & HN & H3).
  unfold core_step, oldl, newl. rewrite Hf. cbv zeta. unfold process_equals. simp_st. rewrite Hc. simp_st.
  unfold Inv. simp_st. split; [rewrite H1, app_length, zlen_len; lia|]. split; [rewrite H2, app_length, zlen_len; lia|].
  exists obase, outp. split; [exact Hb|]. simp_st.
  split; [rewrite HO; now rewrite app_assoc|]. split; [rewrite HN; now rewrite app_assoc|].
  intros Hh _. rewrite app_length. assert (ctx < length (g_before st))%nat by (apply H3; [exact Hh|discriminate]). lia.
Qed.

Lemma step_equal_some ctx st c rest O N h :
  fst c = Equal -> g_cur st = Some h -> Gd ctx c rest ->
  Inv ctx st O N (c :: rest) ->
  Inv ctx (core_step ctx st c (next_of rest)) (O ++ oldl c) (N ++ newl c) rest.
Proof.
  intros Hf Hc (Hne & Hg) (H1 & H2 & obase & outp & Hb & Hi). rewrite Hc in Hi.
  destruct Hi as (gapl & HO & HN & Hfc & Htc & Hhf & Hht & Hsf & Hst).
  pose proof (len_split_pos c Hne) as Hpos.
  set (ls := split_lines (snd c)) in *.
  unfold core_step, oldl, newl. rewrite Hf. cbv zeta. fold ls. unfold process_equals. simp_st. rewrite Hc.
  destruct (Nat.leb (length ls) (ctx * 2) && _) eqn:Hm.
  - (* merged into the hunk *)
    apply andb_true_iff in Hm as [Hm1 Hm2]. apply Nat.leb_le in Hm1.
    assert (Hctx : ctx <> 0%nat) by lia.
    assert (Hw : forall side, side Equal = true -> will_add ctx side c = true).
    { intros side Hs. unfold will_add. rewrite Hf, Hs. destruct ctx; [congruence|reflexivity]. }
    unfold Inv. simp_st. split; [rewrite H1, app_length, zlen_len; lia|]. split; [rewrite H2, app_length, zlen_len; lia|].
    exists obase, outp. split; [exact Hb|]. simp_st. exists gapl.
    rewrite oldside_add_op, newside_add_op, add_op_fromc, add_op_toc, add_op_from, add_op_to. cbn [adds_from adds_to].
    rewrite !app_length.
    split; [rewrite HO; now rewrite <- !app_assoc|]. split; [rewrite HN; now rewrite <- !app_assoc|].
    split; [lia|]. split; [lia|].
    split; [eapply HdrOK_grow; eauto; lia|]. split; [eapply HdrOK_grow; eauto; lia|].
    split; intros Hz; lia.
  - (* the hunk is closed with min ctx |ls| lines of context *)
    set (k := Nat.min ctx (length ls)).
    set (h' := add_op h Equal (firstn k ls)).
    assert (Hk : length (firstn k ls) = k) by (apply firstn_length_le; unfold k; lia).
    unfold Inv. simp_st. split; [rewrite H1, app_length, zlen_len; lia|]. split; [rewrite H2, app_length, zlen_len; lia|].
    exists (obase ++ gapl ++ oldside (h_ops h')), (outp ++ gapl ++ newside (h_ops h')).
    assert (Hfc' : h_fromc h' = Z.of_nat (length (oldside (h_ops h')))).
    { unfold h'. rewrite oldside_add_op, add_op_fromc, app_length. cbn [adds_from]. lia. }
    assert (Htc' : h_toc h' = Z.of_nat (length (newside (h_ops h')))).
    { unfold h'. rewrite newside_add_op, add_op_toc, app_length. cbn [adds_to]. lia. }
    split.
    + apply Base_close; auto.
      * unfold h'. rewrite add_op_from, add_op_fromc. cbn [adds_from]. rewrite Hk.
        eapply (HdrOK_close ctx adds_from); eauto; unfold k; lia.
      * unfold h'. rewrite add_op_to, add_op_toc. cbn [adds_to]. rewrite Hk.
        eapply (HdrOK_close ctx adds_to); eauto; unfold k; lia.
    + simp_st. unfold h'. rewrite oldside_add_op, newside_add_op. cbn [adds_from adds_to].
      split; [rewrite HO, <- !app_assoc; now rewrite (firstn_skipn k ls)|].
      split; [rewrite HN, <- !app_assoc; now rewrite (firstn_skipn k ls)|].
      intros _ Hr. rewrite skipn_length.
      destruct rest as [|d r]; [congruence|]. cbn in Hm. rewrite andb_true_r in Hm. apply Nat.leb_gt in Hm.
      unfold k. lia.
Qed.

(* a Delete or Add chunk: the two cases are mirror images, told apart by
   [adds_from (fst c)] and [adds_to (fst c)] *)
Lemma oldl_if (c : chunk) : oldl c = if adds_from (fst c) then split_lines (snd c) else [].
Proof. unfold oldl. now destruct (fst c). Qed.
Lemma newl_if (c : chunk) : newl c = if adds_to (fst c) then split_lines (snd c) else [].
Proof. unfold newl. now destruct (fst c). Qed.

(* the side a chunk adds to grows; the other side had lines already (NoStall) and keeps its header *)
Lemma HdrOK_change ctx side line count bc c rest rest' k :
  fst c <> Equal -> HdrOK ctx side line count bc (c :: rest) -> NoStall side count (c :: rest) ->
  (0 < k)%Z ->
  HdrOK ctx side line (count + (if side (fst c) then k else 0)) bc rest'.
Proof.
  intros Hne H Hs Hk. destruct (side (fst c)) eqn:E.
  - eapply HdrOK_grow; eauto. unfold will_add. rewrite E. destruct (fst c); [congruence|..]; apply orb_true_r.
  - rewrite Z.add_0_r. destruct H as [[H1 H2]|[H1 _]]; [left; auto|]. specialize (Hs H1). cbn in Hs. congruence.
Qed.

Lemma NoStall_change side count c rest rest' k :
  NoStall side count (c :: rest) -> (0 <= count)%Z -> (0 < k)%Z ->
  NoStall side (count + (if side (fst c) then k else 0)) rest'.
Proof.
  intros Hs Hc Hk Hz. destruct (side (fst c)) eqn:E; [lia|].
  rewrite Z.add_0_r in Hz. specialize (Hs Hz). cbn in Hs. congruence.
Qed.

(* the loop body for such a chunk: advance the changed side by one line (if the chunk has lines), open a
   hunk if none is open, advance by the remaining lines, append the lines *)
Lemma core_step_change ctx st (c : chunk) next : fst c <> Equal ->
  let ls := split_lines (snd c) in
  let one := if (zlen ls =? 0)%Z then 0%Z else 1%Z in
  let s2 := process_hunk ctx (set_lines st (g_from st + (if adds_from (fst c) then one else 0))
                                           (g_to st + (if adds_to (fst c) then one else 0)))%Z next (fst c) in
  core_step ctx st c next =
  cur_add (set_lines s2 (g_from s2 + (if adds_from (fst c) then zlen ls - 1 else 0))
                        (g_to s2 + (if adds_to (fst c) then zlen ls - 1 else 0)))%Z (fst c) ls.
Proof.
  intros Hf. unfold core_step. cbv zeta.
  destruct (fst c); [congruence|..]; cbn [adds_from adds_to];
    destruct (zlen (split_lines (snd c)) =? 0)%Z; rewrite !Z.add_0_r; reflexivity.
Qed.

(* a line counter advanced by one and then by the remaining |ls| - 1, on the side the chunk adds to *)
Lemma len_app_if (b : bool) (X ls : list line) : (0 < length ls)%nat ->
  Z.of_nat (length (X ++ (if b then ls else []))) =
  (Z.of_nat (length X) + (if b then 1 else 0) + (if b then zlen ls - 1 else 0))%Z.
Proof. intros Hpos. rewrite app_length. unfold zlen. destruct b; cbn [length]; lia. Qed.

Lemma step_change_some ctx st c rest O N h :
  fst c <> Equal -> g_cur st = Some h -> Gd ctx c rest ->
  Inv ctx st O N (c :: rest) ->
  Inv ctx (core_step ctx st c (next_of rest)) (O ++ oldl c) (N ++ newl c) rest.
Proof.
  intros Hf Hc (Hne & Hg) (H1 & H2 & obase & outp & Hb & Hi). rewrite Hc in Hi.
  destruct Hi as (gapl & HO & HN & Hfc & Htc & Hhf & Hht & Hsf & Hst).
  pose proof (len_split_pos c Hne) as Hpos.
  rewrite core_step_change, oldl_if, newl_if by assumption. cbv zeta.
  rewrite (proj2 (Z.eqb_neq (zlen (split_lines (snd c))) 0)) by (unfold zlen; lia).
  set (ls := split_lines (snd c)) in *. set (t := fst c) in *.
  unfold process_hunk. simp_st. rewrite Hc. unfold Inv, cur_add. simp_st. rewrite Hc. simp_st.
  split; [rewrite H1; symmetry; now apply len_app_if|]. split; [rewrite H2; symmetry; now apply len_app_if|].
  exists obase, outp. split; [exact Hb|]. exists gapl.
  rewrite oldside_add_op, newside_add_op, add_op_fromc, add_op_toc, add_op_from, add_op_to.
  split; [rewrite HO; now rewrite <- !app_assoc|]. split; [rewrite HN; now rewrite <- !app_assoc|].
  split; [rewrite app_length, Hfc; destruct (adds_from t); cbn [length]; lia|].
  split; [rewrite app_length, Htc; destruct (adds_to t); cbn [length]; lia|].
  split; [apply HdrOK_change with (rest := rest); auto; lia|].
  split; [apply HdrOK_change with (rest := rest); auto; lia|].
  split; apply NoStall_change with (rest := rest); auto; lia.
Qed.

(* the start line of one side of a hunk opened by a Delete/Add chunk t, from that side's own line
   counter l (already advanced if t adds to the side): the changed side starts right after the nb
   context lines (addLineNumbers' cla), the other side gets addLineNumbers' clb *)
Definition open_line (ctx : nat) (grows : bool) (l : Z) (nb : nat) (next : option dop) (t : dop) : Z :=
  if grows then (l - Z.of_nat nb)%Z
  else snd (add_line_numbers ctx 0 l nb next (if adds_from t then Add else Delete)).

Lemma process_hunk_none ctx st next t :
  t <> Equal -> g_cur st = None ->
  exists dropped b2 pfx,
    g_before st = dropped ++ b2 /\ length b2 = Nat.min ctx (length (g_before st)) /\
    process_hunk ctx st next t =
    {| g_from := g_from st; g_to := g_to st;
       g_cur := Some {| h_from := open_line ctx (adds_from t) (g_from st) (length b2) next t;
                        h_to := open_line ctx (adds_to t) (g_to st) (length b2) next t;
                        h_fromc := Z.of_nat (length b2); h_toc := Z.of_nat (length b2);
                        h_prefix := pfx; h_ops := map (fun l => (Equal, l)) b2 |};
       g_hunks := g_hunks st; g_before := [] |}.
Proof.
  intros Ht Hc. unfold process_hunk. rewrite Hc.
  destruct (Nat.ltb ctx (length (g_before st))) eqn:Hlt; [apply Nat.ltb_lt in Hlt|apply Nat.ltb_ge in Hlt].
  - exists (firstn (length (g_before st) - ctx) (g_before st)), (skipn (length (g_before st) - ctx) (g_before st)),
           (trim_lf (nth (length (g_before st) - ctx - 1) (g_before st) [])).
    split; [now rewrite firstn_skipn|]. split; [rewrite skipn_length; lia|].
    assert (Hl : length (skipn (length (g_before st) - ctx) (g_before st)) = ctx) by (rewrite skipn_length; lia).
    rewrite Hl. destruct t; [congruence|..]; unfold add_op, zlen; cbn; rewrite Hl; reflexivity.
  - exists [], (g_before st), (trim_lf []).
    split; [reflexivity|]. split; [lia|].
    destruct t; [congruence|..]; reflexivity.
Qed.

(* each side is left out by one kind of chunk only *)
Lemma adds_from_other t : adds_from t = false -> forall d, d <> t -> adds_from d = true.
Proof. intros Ht d. destruct t, d; cbn in *; congruence. Qed.
Lemma adds_to_other t : adds_to t = false -> forall d, d <> t -> adds_to d = true.
Proof. intros Ht d. destruct t, d; cbn in *; congruence. Qed.

(* the header of a side of the freshly opened hunk: bc lines of that side precede the hunk, nb context
   lines open it, then come k lines of the chunk if it adds to the side.  Fewer than ctx context lines
   are there only at the start of the file. *)
Lemma open_line_HdrOK ctx side c rest nb bc k :
  fst c <> Equal -> Gd ctx c rest -> (side (fst c) = false -> forall d, d <> fst c -> side d = true) ->
  (nb <= ctx)%nat -> ((nb < ctx)%nat -> bc = 0%Z) -> (0 <= bc)%Z -> (0 < k)%Z ->
  HdrOK ctx side
        (open_line ctx (side (fst c)) (bc + Z.of_nat nb + (if side (fst c) then 1 else 0)) nb (next_of rest) (fst c))
        (Z.of_nat nb + (if side (fst c) then k else 0)) bc rest.
Proof.
  intros Hf (_ & Hg) Hside Hnb Hstart Hbc Hk. unfold open_line. destruct (side (fst c)) eqn:Es.
  { left. lia. }
  specialize (Hside eq_refl). unfold add_line_numbers. cbn [snd]. rewrite !Z.add_0_r.
  destruct (Nat.eqb_spec nb 0) as [Eb|Eb]; destruct (Nat.eqb_spec ctx 0) as [Ec|Ec]; cbn [negb andb]; try lia.
  - (* ctx = 0: the next chunk is an Equal one, which adds nothing *)
    right. split; [lia|]. destruct rest as [|d r]; [lia|].
    destruct Hg as [_ Hg2]. destruct (Hg2 Ec) as [He|He]; [congruence|].
    unfold will_add. rewrite He. subst ctx. rewrite Hside by congruence. cbn. lia.
  - (* no line before the chunk: start of the file *)
    right. split; [lia|]. rewrite Hstart by lia. destruct rest as [|d r]; cbn [next_of]; [lia|].
    destruct Hg as [Hg1 _]. unfold will_add. rewrite Hside by congruence.
    rewrite (proj2 (Nat.eqb_neq ctx 0)) by exact Ec. cbn [negb orb andb].
    destruct (fst c), (fst d); cbn; congruence || lia.
  - (* context before *)
    left. split; [lia|]. rewrite Z.gtb_ltb.
    destruct (Z.ltb_spec (Z.of_nat ctx) (bc + Z.of_nat nb)); lia.
Qed.

Lemma step_change_none ctx st c rest O N :
  fst c <> Equal -> g_cur st = None -> Gd ctx c rest ->
  Inv ctx st O N (c :: rest) ->
  Inv ctx (core_step ctx st c (next_of rest)) (O ++ oldl c) (N ++ newl c) rest.
Proof.
  intros Hf Hc HG (H1 & H2 & obase & outp & Hb & Hi). rewrite Hc in Hi. destruct Hi as (HO & HN & H3).
  pose proof HG as (Hne & Hg). pose proof (len_split_pos c Hne) as Hpos.
  rewrite core_step_change, oldl_if, newl_if by assumption. cbv zeta.
  rewrite (proj2 (Z.eqb_neq (zlen (split_lines (snd c))) 0)) by (unfold zlen; lia).
  set (ls := split_lines (snd c)) in *. set (t := fst c) in *.
  match goal with |- context [process_hunk ctx ?s _ t] =>
    destruct (process_hunk_none ctx s (next_of rest) t Hf Hc) as (dropped & b2 & pfx & Hbef & Hlen & ->) end.
  cbn [set_lines g_before g_from g_to] in Hbef, Hlen |- *.
  assert (Hbl : length (g_before st) = (length dropped + length b2)%nat) by (rewrite Hbef, app_length; lia).
  (* fewer than ctx context lines: nothing precedes them on either side *)
  assert (Hnil : (length b2 < ctx)%nat -> (length obase + length dropped = 0 /\ length outp + length dropped = 0)%nat).
  { intros Hle. destruct (g_hunks st) eqn:Hh.
    - destruct (Base_nil _ _ Hb) as [-> ->]. cbn [length]. lia.
    - assert (ctx < length (g_before st))%nat by (apply H3; discriminate). lia. }
  unfold Inv, cur_add. simp_st.
  split; [rewrite H1; symmetry; now apply len_app_if|]. split; [rewrite H2; symmetry; now apply len_app_if|].
  exists obase, outp. split; [exact Hb|]. exists dropped.
  rewrite oldside_add_op, newside_add_op, add_op_fromc, add_op_toc, add_op_from, add_op_to. simp_st.
  rewrite oldside_map, newside_map, !app_length.
  split; [rewrite HO, Hbef; now rewrite <- !app_assoc|]. split; [rewrite HN, Hbef; now rewrite <- !app_assoc|].
  split; [destruct (adds_from t); cbn [length]; lia|]. split; [destruct (adds_to t); cbn [length]; lia|].
  split.
  { replace (g_from st) with (Z.of_nat (length obase + length dropped) + Z.of_nat (length b2))%Z
      by (rewrite H1, HO, Hbef, !app_length; lia).
    apply open_line_HdrOK; eauto using adds_from_other; lia. }
  split.
  { replace (g_to st) with (Z.of_nat (length outp + length dropped) + Z.of_nat (length b2))%Z
      by (rewrite H2, HN, Hbef, !app_length; lia).
    apply open_line_HdrOK; eauto using adds_to_other; lia. }
  (* the side the chunk does not add to has no line yet only if there is no context: then the next chunk adds to it *)
  split; intros Hz; destruct rest as [|d r]; try exact I; destruct Hg as [Hg1 _].
  - destruct (adds_from t) eqn:E; [lia|]. apply adds_from_other with t; auto.
  - destruct (adds_to t) eqn:E; [lia|]. apply adds_to_other with t; auto.
Qed.

Lemma step_inv ctx st c rest O N :
  Gd ctx c rest -> Inv ctx st O N (c :: rest) ->
  Inv ctx (core_step ctx st c (next_of rest)) (O ++ oldl c) (N ++ newl c) rest.
Proof.
  intros Hg HI. destruct (dop_equal_dec (fst c)) as [Hf|Hf]; destruct (g_cur st) as [h|] eqn:Hc;
    eauto using step_equal_none, step_equal_some, step_change_none, step_change_some.
Qed.

Lemma final_apply ctx st O N :
  Inv ctx st O N [] -> strict_apply (finish st) O = Some N.
Proof.
  intros (_ & _ & obase & outp & Hb & Hi). unfold finish.
  destruct (g_cur st) as [h|].
  - destruct Hi as (gapl & -> & -> & Hfc & Htc & Hhf & Hht & _ & _).
    rewrite <- (app_nil_r (obase ++ gapl ++ _)), <- (app_nil_r (outp ++ gapl ++ _)).
    apply Base_apply, Base_close; eauto using HdrOK_final.
  - destruct Hi as (-> & -> & _). now apply Base_apply.
Qed.

Fixpoint guards (ctx : nat) (cs : list chunk) : Prop :=
  match cs with
  | [] => True
  | c :: r => Gd ctx c r /\ guards ctx r
  end.

Lemma loop_apply ctx : forall cs c st O N,
  guards ctx (c :: cs) -> Inv ctx st O N (c :: cs) ->
  strict_apply (g_hunks (gen_loop ctx st (c :: cs))) (O ++ old_lines (c :: cs)) = Some (N ++ new_lines (c :: cs)).
Proof.
  induction cs as [|d r IH]; intros c st O N [Hg Hgs] HI.
  - cbn [gen_loop]. rewrite gen_step_core.
    pose proof (step_inv ctx st c [] O N Hg HI) as HI'. cbn [next_of] in HI'.
    unfold old_lines, new_lines. cbn [flat_map]. rewrite !app_nil_r.
    apply (final_apply ctx). exact HI'.
  - cbn [gen_loop]. rewrite gen_step_core_some.
    pose proof (step_inv ctx st c (d :: r) O N Hg HI) as HI'. cbn [next_of] in HI'.
    specialize (IH d _ _ _ Hgs HI').
    unfold old_lines, new_lines in *. cbn [flat_map] in *. rewrite <- !app_assoc in IH. exact IH.
Qed.

Lemma Inv_init ctx cs : Inv ctx g_init [] [] cs.
Proof.
  unfold Inv, g_init. cbn. split; [reflexivity|]. split; [reflexivity|].
  exists [], []. split; [reflexivity|]. repeat split; auto. intros H. exfalso. now apply H.
Qed.

Definition no_replace (cs : list chunk) : bool :=
  (fix go (cs : list chunk) : bool :=
     match cs with
     | c :: ((d :: _) as r) => (dop_eqb (fst c) Equal || dop_eqb (fst d) Equal) && go r
     | _ => true
     end) cs.

Lemma guards_of_normal ctx cs :
  normal cs = true -> (ctx <> 0%nat \/ no_replace cs = true) -> guards ctx cs.
Proof.
  unfold normal. intros Hn Hc. apply andb_true_iff in Hn as [Hne Halt].
  induction cs as [|c r IH]; [exact I|].
  cbn [forallb] in Hne. apply andb_true_iff in Hne as [Hc0 Hne].
  assert (Hc1 : snd c <> []) by (destruct c as [o [|b s]]; cbn in Hc0 |- *; [discriminate|discriminate]).
  destruct r as [|d r']; [now repeat split|].
  cbn [alternating] in Halt. apply andb_true_iff in Halt as [Ha Halt].
  assert (Hcr : ctx <> 0%nat \/ no_replace (d :: r') = true /\ (fst c = Equal \/ fst d = Equal)).
  { destruct Hc as [Hc|Hc]; [now left|right].
    change (no_replace (c :: d :: r')) with ((dop_eqb (fst c) Equal || dop_eqb (fst d) Equal) && no_replace (d :: r')) in Hc.
    apply andb_true_iff in Hc as [Hx Hy]. rewrite orb_true_iff, !dop_eqb_eq in Hx. auto. }
  split; [|apply IH; tauto].
  split; [exact Hc1|]. split; [|tauto].
  intros He. rewrite He in Ha. destruct (fst d); discriminate.
Qed.

Theorem generate_applies ctx cs :
  normal cs = true -> (ctx <> 0%nat \/ no_replace cs = true) ->
  strict_apply (generate ctx cs) (old_lines cs) = Some (new_lines cs).
Proof.
  intros Hn Hc. unfold generate. destruct cs as [|c r]; [reflexivity|].
  apply (loop_apply ctx r c g_init [] []).
  - now apply guards_of_normal.
  - apply Inv_init.
Qed.
