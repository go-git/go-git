(* Proofs/C48Interp.v — go-git's boolean / numeric readers against
   git_parse_maybe_bool / git_parse_int: where they agree, and witnesses
   where they do not. *)
From Coq Require Import List NArith ZArith Arith Lia ZifyBool ZifyNat ZifyN Bool.
From GoGit Require Import Base.Out Model.ConfigEnc Spec.GitConfig.
Import ListNotations.
Local Open Scope N_scope.

Lemma beqb_eq a : forall b, beqb a b = true -> a = b.
Proof.
  induction a as [|x a IH]; intros [|y b] H; try discriminate.
  - reflexivity.
  - cbn in H. apply andb_true_iff in H as [H1 H2]. apply N.eqb_eq in H1. subst. f_equal. auto.
Qed.

Lemma beqb_refl a : beqb a a = true.
Proof. induction a as [|x a IH]; [reflexivity|]. cbn. now rewrite N.eqb_refl. Qed.

Lemma beq_beqb a b : beq a b = beqb a b.
Proof. reflexivity. Qed.

Lemma lower_ascii s : lower s = map ascii_lower s.
Proof. reflexivity. Qed.

(* what go-git itself writes for a boolean: fmt %t / strconv.FormatBool *)
Definition canonical_bool (s : bytes) : bool := beqb s s_true || beqb s s_false.

Definition ob_of (o : option bool) : optbool :=
  match o with Some true => OBTrue | Some false => OBFalse | None => OBUnset end.

(* Get(key) == "true": core.bare, remote mirror / promisor *)
Lemma eq_true_refuted :
  exists v, git_bool v = Some true /\ go_eq_true (go_value v) = false.
Proof. exists (Some [121;101;115]). vm_compute. split; reflexivity. Qed.

Lemma eq_true_sound s : go_eq_true s = true -> git_bool (Some s) = Some true.
Proof. unfold go_eq_true. intros H. apply beqb_eq in H. subst. reflexivity. Qed.

Lemma canonical_cases s : canonical_bool s = true -> s = s_true \/ s = s_false.
Proof. intros H. apply orb_true_iff in H as [H|H]; apply beqb_eq in H; auto. Qed.

Lemma eq_true_partial s : canonical_bool s = true ->
  git_bool (Some s) = Some (go_eq_true s).
Proof. intros H. destruct (canonical_cases s H) as [-> | ->]; reflexivity. Qed.

(* != "false": core.filemode, pack.readReverseIndex / writeReverseIndex *)
Lemma ne_false_refuted :
  exists s, git_bool (Some s) = Some false /\ go_ne_false s = true.
Proof. exists [110;111]. vm_compute. split; reflexivity. Qed.

Lemma ne_false_partial s : canonical_bool s = true ->
  git_bool (Some s) = Some (go_ne_false s).
Proof. intros H. destruct (canonical_cases s H) as [-> | ->]; reflexivity. Qed.

(* strings.EqualFold(v, "true"): extensions.worktreeConfig *)
Lemma fold_true_refuted :
  exists s, git_bool (Some s) = Some true /\ go_fold_true s = false.
Proof. exists [111;110]. vm_compute. split; reflexivity. Qed.

(* any capitalisation of true / false *)
Definition folded_bool (s : bytes) : bool := beqb (lower s) s_true || beqb (lower s) s_false.

Lemma fold_true_partial s : folded_bool s = true ->
  git_bool (Some s) = Some (go_fold_true s).
Proof.
  unfold folded_bool, go_fold_true. change (map ascii_lower s) with (lower s). intros H.
  destruct s as [|c s]; [discriminate|].
  unfold git_bool, git_bool_text.
  apply orb_true_iff in H as [H|H]; apply beqb_eq in H; rewrite H; reflexivity.
Qed.

(* strconv.ParseBool: tag/commit.gpgSign, index.skipHash, uploadArchive.allowUnreachable *)
Lemma parsebool_refuted :
  (exists s, git_bool (Some s) = Some true /\ go_parse_bool s = OBUnset) /\
  (exists s, git_bool (Some s) = None /\ go_parse_bool s = OBTrue).
Proof.
  split; [exists [121;101;115] | exists [116]]; vm_compute; split; reflexivity.
Qed.

(* the spellings both accept: 1 0 true false TRUE FALSE True False *)
Definition parsebool_common (s : bytes) : bool :=
  existsb (beqb s) [[49]; [48]; s_true; s_false; [84;82;85;69]; [70;65;76;83;69]; [84;114;117;101]; [70;97;108;115;101]].

Lemma parsebool_partial s : parsebool_common s = true ->
  ob_of (git_bool (Some s)) = go_parse_bool s.
Proof.
  unfold parsebool_common. cbn [existsb]. intros H.
  repeat (apply orb_true_iff in H as [H|H]; [apply beqb_eq in H; subst; reflexivity|]).
  discriminate.
Qed.

(* a valueless key is true for git; decoder.go turns it into "" *)
Lemma valueless_refuted :
  git_bool None = Some true /\
  go_eq_true (go_value None) = false /\ go_fold_true (go_value None) = false /\
  go_parse_bool (go_value None) = OBUnset /\ parse_config_bool (go_value None) = OBUnset.
Proof. vm_compute. repeat split. Qed.

Definition all_digits (s : bytes) : bool := forallb g_isdigit s.

Lemma digits_dec d : forall acc seen, all_digits d = true ->
  exists n, dec_digits_val d acc = Some n /\
            digits 10 d acc seen = (n, seen || negb (match d with [] => true | _ => false end), []).
Proof.
  induction d as [|c d IH]; intros acc seen H.
  - exists acc. cbn. now rewrite orb_false_r.
  - cbn [all_digits forallb] in H. apply andb_true_iff in H as [Hc Hd].
    destruct (IH (acc * 10 + (c - 48)) true Hd) as (n & E1 & E2).
    exists n. unfold g_isdigit in Hc. cbn [dec_digits_val digits]. unfold digit_val, g_isdigit.
    rewrite Hc. split; [exact E1|].
    assert (Hlt : (c - 48 <? 10) = true) by lia. rewrite Hlt, E2. cbn. now rewrite orb_true_r.
Qed.

(* a decimal numeral as both sides write it: no sign, no leading zero (or just "0") *)
Definition plain_dec (s : bytes) : bool :=
  match s with
  | [] => false
  | c :: r => if c =? 48 then (match r with [] => true | _ => false end)
              else (49 <=? c) && (c <=? 57) && all_digits r
  end.

(* a numeral that starts with 1..9 has no blanks, sign or prefix: strtoimax reads it in base 10 *)
Lemma strtoimax0_nonzero c r : (49 <=? c) && (c <=? 57) = true ->
  strtoimax0 (c :: r) =
  let '(v, seen, rest) := digits 10 (c :: r) 0 false in if seen then Some (v, false, rest) else None.
Proof.
  intros Hc.
  assert (C : c = 49 \/ c = 50 \/ c = 51 \/ c = 52 \/ c = 53 \/ c = 54 \/ c = 55 \/ c = 56 \/ c = 57) by lia.
  repeat (destruct C as [-> | C]; [reflexivity|]). subst c. reflexivity.
Qed.

Lemma strtoimax0_plain s : plain_dec s = true ->
  exists n, dec_digits_val s 0 = Some n /\ strtoimax0 s = Some (n, false, []).
Proof.
  intros H. destruct s as [|c r]; [discriminate|]. cbn [plain_dec] in H.
  destruct (c =? 48) eqn:E.
  - apply N.eqb_eq in E. subst c. destruct r; [|discriminate]. exists 0. split; reflexivity.
  - apply andb_true_iff in H as [C Hr].
    assert (Hd : all_digits (c :: r) = true).
    { unfold all_digits in *. cbn [forallb]. rewrite Hr. unfold g_isdigit.
      assert (X : (48 <=? c) && (c <=? 57) = true) by lia. now rewrite X. }
    destruct (digits_dec (c :: r) 0 false Hd) as (n & E1 & E2).
    exists n. split; [exact E1|]. now rewrite strtoimax0_nonzero, E2.
Qed.

(* pack.window: strconv.ParseUint(v, 10, 32) vs git_config_int *)
Lemma window_refuted :
  (exists s, git_int (Some s) = Some 1024%Z /\ go_window s = None) /\
  (exists s, git_int (Some s) = Some 8%Z /\ go_window s = Some 10) /\
  (exists s, git_int (Some s) = None /\ go_window s = Some 4294967295).
Proof.
  split; [exists [49;107]|split; [exists [48;49;48]|exists [52;50;57;52;57;54;55;50;57;53]]];
    vm_compute; split; reflexivity.
Qed.

Lemma window_partial s n : plain_dec s = true -> dec_digits_val s 0 = Some n -> n <= 2147483647 ->
  git_int (Some s) = Some (Z.of_N n) /\ go_window s = Some n.
Proof.
  intros Hp Hn Hle. destruct (strtoimax0_plain s Hp) as (n' & E1 & E2).
  rewrite Hn in E1. injection E1 as <-.
  assert (Hs : s <> []) by (destruct s; [discriminate|congruence]).
  split.
  - unfold git_int, git_parse_int, git_parse_signed. destruct s as [|c r]; [congruence|].
    rewrite E2. cbn [unit_factor].
    assert (A : (9223372036854775807 <? n) = false) by lia. rewrite A.
    assert (B : (2147483647 <? 1 * n) = false) by lia. rewrite B.
    f_equal. f_equal. lia.
  - unfold go_window. destruct s as [|c r]; [congruence|]. rewrite Hn.
    assert (A : (n <? 4294967296) = true) by lia. rewrite A. reflexivity.
Qed.

(* optbool.go parseConfigBool: core.protectNTFS / protectHFS *)
Lemma configbool_refuted :
  (exists s, git_bool (Some s) = Some false /\ parse_config_bool s = OBUnset) /\
  (exists s, git_bool (Some s) = Some true /\ parse_config_bool s = OBUnset) /\
  (exists s, git_bool (Some s) = None /\ parse_config_bool s = OBTrue).
Proof.
  split; [exists []|split; [exists [49;107]|exists [50;49;52;55;52;56;51;54;52;56]]];
    vm_compute; split; reflexivity.
Qed.

(* the six words in any capitalisation *)
Definition word6 (s : bytes) : bool :=
  w_in (lower s) [s_true; [121;101;115]; [111;110]; s_false; [110;111]; [111;102;102]].

Lemma configbool_partial_words s : word6 s = true ->
  ob_of (git_bool (Some s)) = parse_config_bool s.
Proof.
  unfold word6, w_in. cbn [existsb]. intros H.
  destruct s as [|c0 s0]; [discriminate|]. remember (c0 :: s0) as s.
  unfold parse_config_bool, git_bool, git_bool_text. change (map ascii_lower s) with (lower s). subst s.
  unfold w_in. cbn [existsb].
  repeat (apply orb_true_iff in H as [H|H]; [apply beqb_eq in H; rewrite H; reflexivity|]).
  discriminate.
Qed.

(* a numeral is none of the words: they start with a lower-case letter *)
Lemma numeral_no_word c r k tl : g_isdigit c = true -> 97 <= k -> beq (lower (c :: r)) (k :: tl) = false.
Proof.
  unfold g_isdigit. intros Hc Hk. cbn [lower map beq]. unfold g_tolower, g_isupper.
  assert (X : (65 <=? c) && (c <=? 90) = false) by lia. rewrite X.
  assert (Y : (c =? k) = false) by lia. now rewrite Y.
Qed.

Lemma configbool_partial_num s n : plain_dec s = true -> dec_digits_val s 0 = Some n -> n <= 2147483647 ->
  ob_of (git_bool (Some s)) = parse_config_bool s.
Proof.
  intros Hp Hn Hle. destruct (window_partial s n Hp Hn Hle) as [G _]. unfold git_int in G.
  destruct s as [|c r]; [discriminate|].
  assert (Hd : g_isdigit c = true).
  { unfold g_isdigit. cbn [plain_dec] in Hp. destruct (c =? 48) eqn:E; lia. }
  unfold git_bool, git_bool_text, w_true, w_yes, w_on, w_false, w_no, w_off.
  rewrite !numeral_no_word by (assumption || lia). cbn [orb]. rewrite G.
  unfold parse_config_bool, w_in, s_true, s_false. cbn [existsb].
  change (map ascii_lower (c :: r)) with (lower (c :: r)). change beqb with beq.
  rewrite !numeral_no_word by (assumption || lia). cbn [orb].
  unfold go_atoi, g_isdigit in *.
  assert (S1 : (c =? 45) = false) by lia. assert (S2 : (c =? 43) = false) by lia.
  rewrite S1, S2.
  cbv beta iota. rewrite Hn. assert (A : (n <=? 9223372036854775807) = true) by lia. rewrite A.
  destruct n; reflexivity.
Qed.
