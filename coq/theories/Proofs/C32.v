(* Proofs/C32.v — SkipUnless selects exactly the entries inside a selected directory, "inside" being
   by whole path components; the string-prefix condition (before the repair) selects too much. *)
From Coq Require Import List NArith Arith Lia Bool.
From GoGit Require Import Base.Out Model.SparseCheckout Spec.SparseSpec.
Import ListNotations.
Local Open Scope N_scope.

Lemma bytes_eqb_eq a b : bytes_eqb a b = true <-> a = b.
Proof.
  revert b. induction a as [|x a IH]; destruct b as [|y b]; cbn; split; try congruence; try discriminate.
  - intros H. apply andb_true_iff in H as [H1 H2]. apply N.eqb_eq in H1. apply IH in H2. congruence.
  - intros H. inversion H; subst. rewrite N.eqb_refl. cbn. now apply IH.
Qed.

Lemma bytes_eqb_refl a : bytes_eqb a a = true.
Proof. now apply bytes_eqb_eq. Qed.

Lemma bytes_eqb_neq a b : bytes_eqb a b = false <-> a <> b.
Proof. rewrite <- bytes_eqb_eq. destruct (bytes_eqb a b); split; congruence. Qed.

Lemma has_prefix_iff p s : has_prefix p s = true <-> exists r, s = p ++ r.
Proof.
  revert s. induction p as [|x p IH]; intros s; cbn.
  - split; [intros _; now exists s|reflexivity].
  - destruct s as [|y s].
    + split; [discriminate|]. intros [r H]. discriminate.
    + rewrite andb_true_iff, N.eqb_eq, IH. split.
      * intros [-> [r ->]]. now exists r.
      * intros [r H]. inversion H; subst. split; [reflexivity|now exists r].
Qed.

Lemma pat_match_iff d p : pat_match d p = true <-> Inside d p.
Proof.
  unfold pat_match, Inside. rewrite orb_true_iff, bytes_eqb_eq, has_prefix_iff.
  split; intros [H|[r H]]; auto; right; exists r; rewrite H; rewrite <- ?app_assoc; reflexivity.
Qed.

Lemma included_iff D p : included D p = true <-> Selected D p.
Proof.
  unfold included, Selected. rewrite existsb_exists.
  split; intros [d [H1 H2]]; exists d; split; auto; now apply pat_match_iff.
Qed.

Lemma skip_unless_names D es : map e_name (skip_unless D es) = map e_name es.
Proof. unfold skip_unless. rewrite map_map. reflexivity. Qed.

Lemma skip_unless_data D es : map e_data (skip_unless D es) = map e_data es.
Proof. unfold skip_unless. rewrite map_map. reflexivity. Qed.

Lemma skip_unless_length D es : List.length (skip_unless D es) = List.length es.
Proof. unfold skip_unless. apply map_length. Qed.

(* every entry SkipUnless returns carries the flag it gave the entry's name *)
Definition flag_ok (dirs : list bytes) (e : entry) : Prop := e_skip e = negb (included dirs (e_name e)).

Lemma flag_ok_selected dirs e : flag_ok dirs e -> (e_skip e = false <-> Selected dirs (e_name e)).
Proof. unfold flag_ok. intros ->. rewrite negb_false_iff. apply included_iff. Qed.

Lemma skip_unless_flag_ok dirs i e : In e (skip_unless dirs i) -> flag_ok dirs e.
Proof. unfold skip_unless. intros H. apply in_map_iff in H as [x [<- _]]. reflexivity. Qed.

Lemma skip_unless_exact D es e :
  In e (skip_unless D es) -> (e_skip e = false <-> Selected D (e_name e)).
Proof. intros H. now apply flag_ok_selected, skip_unless_flag_ok with es. Qed.

Lemma split_go_app cur a b :
  split_go cur (a ++ SEP :: b) = split_go cur a ++ split_go [] b.
Proof.
  revert cur. induction a as [|c a IH]; intros cur; cbn [app split_go].
  - rewrite N.eqb_refl. reflexivity.
  - destruct (c =? SEP); [rewrite IH; reflexivity|apply IH].
Qed.

Lemma split_go_nonnil cur s : split_go cur s <> [].
Proof. revert cur. induction s as [|c s IH]; intros cur; cbn; [discriminate|]. destruct (c =? SEP); [discriminate|apply IH]. Qed.

(* join with '/' is a left inverse of split *)
Fixpoint join (l : list bytes) : bytes :=
  match l with
  | [] => []
  | [x] => x
  | x :: r => x ++ SEP :: join r
  end.

Lemma join_split cur s : join (split_go cur s) = cur ++ s.
Proof.
  revert cur. induction s as [|c s IH]; intros cur; cbn [split_go].
  - cbn. now rewrite app_nil_r.
  - destruct (c =? SEP) eqn:E.
    + apply N.eqb_eq in E. subst c. specialize (IH []).
      destruct (split_go [] s) eqn:Es; [now apply split_go_nonnil in Es|].
      cbn [join]. cbn [join] in IH. rewrite IH. reflexivity.
    + rewrite IH. rewrite <- app_assoc. reflexivity.
Qed.

Lemma join_app_cons l x r : l <> [] -> join (l ++ x :: r) = join l ++ SEP :: join (x :: r).
Proof.
  induction l as [|y l IH]; [congruence|]. intros _. destruct l as [|z l]; [reflexivity|].
  change (join ((y :: z :: l) ++ x :: r)) with (y ++ SEP :: join ((z :: l) ++ x :: r)).
  rewrite IH by discriminate. change (join (y :: z :: l)) with (y ++ SEP :: join (z :: l)). now rewrite <- app_assoc.
Qed.

Lemma inside_components d p : Inside d p <-> ComponentPrefix d p.
Proof.
  unfold Inside, ComponentPrefix, components. split.
  - intros [->|[r ->]].
    + exists []. now rewrite app_nil_r.
    + exists (split_go [] r). apply split_go_app.
  - intros [l H].
    assert (Hp : join (split_go [] p) = p) by apply (join_split [] p).
    assert (Hd : join (split_go [] d) = d) by apply (join_split [] d).
    destruct l as [|x l].
    + left. rewrite app_nil_r in H. rewrite <- Hp, <- Hd. now rewrite H.
    + right. exists (join (x :: l)). rewrite <- Hp at 1. rewrite H.
      rewrite join_app_cons by apply split_go_nonnil. now rewrite Hd.
Qed.

Lemma pat_match_components d p : pat_match d p = true <-> ComponentPrefix d p.
Proof. rewrite pat_match_iff. apply inside_components. Qed.

(* what the string-prefix condition (before the repair) got wrong *)
Definition skip_unless_old (pats : list bytes) (es : list entry) : list entry :=
  map (fun e => mkE (e_name e) (e_data e) (negb (existsb (fun p => pat_match_old p (e_name e)) pats))) es.

Lemma old_prefix_refuted :
  exists D es e, In e (skip_unless_old D es) /\ e_skip e = false /\ ~ Selected D (e_name e).
Proof.
  exists [[97]], [mkE [97;98;47;121] [] false], (mkE [97;98;47;121] [] false).
  split; [vm_compute; auto|]. split; [reflexivity|].
  intros [d [[<-|[]] Hin]]. apply pat_match_iff in Hin. vm_compute in Hin. discriminate.
Qed.
