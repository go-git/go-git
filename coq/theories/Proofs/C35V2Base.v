(* Proofs/C35V2Base.v — what the protocol-v2 decoders (which call pktline.ReadLine
   themselves) see of an encoded packet stream, for every chunking of the
   bytes: the packets in order, then io.EOF; and how many bytes are left in the
   reader after each of them. *)
From Coq Require Import List Arith NArith ZArith Bool Lia.
From GoGit Require Import Base.Out Base.GoInt Gen.C34 Model.PktLine Model.C35Utf8 Model.Packp Model.PackpV2
  Proofs.C34Stream Proofs.C34Hex Proofs.C34Pkt Proofs.C35Base.
Import ListNotations.

Arguments MaxSizeN : simpl never.
Opaque MaxSizeN.

(* the ReadLine result for packet p (when it fits a pkt-line and is no ERR line) *)
Definition rdp (p : pkt) : rd := mkrd (fst (item_of p)) (snd (item_of p)) None.

Lemma rd_of_pkt_rdp p : pkt_ok p = true -> no_errline p = true -> rd_of_pkt MaxSizeN p = rdp p.
Proof.
  intros Hok Hne. destruct (rd_of_pkt_max p Hok Hne) as [_ ->]. unfold rdp.
  destruct p as [b| | |]; try reflexivity. destruct b; reflexivity.
Qed.

Lemma rdp_err p : rd_err (rdp p) = None.
Proof. reflexivity. Qed.

Definition enc_len (ps : list pkt) : nat := match enc_pkts ps with Some s => List.length s | None => O end.

(* the packets with the number of bytes that follow each of them (t more bytes after the last) *)
Fixpoint tagged (ps : list pkt) (t : nat) : list (rd * nat) :=
  match ps with
  | [] => []
  | p :: r => (rdp p, (enc_len r + t)%nat) :: tagged r t
  end.

Lemma map_fst_tagged ps t : map fst (tagged ps t) = map rdp ps.
Proof. induction ps as [|p ps IH]; [reflexivity|]. cbn [tagged map fst]. now rewrite IH. Qed.

Lemma tagged_length ps t : List.length (tagged ps t) = List.length ps.
Proof. induction ps as [|p ps IH]; [reflexivity|]. cbn [tagged List.length]. now rewrite IH. Qed.

Lemma rl_all_go_enc : forall ps fuel r s t,
  enc_pkts ps = Some s -> forallb no_errline ps = true -> concat r = s ++ t ->
  exists r', concat r' = t /\ rl_all_go (List.length ps + fuel) r = tagged ps (List.length t) ++ rl_all_go fuel r'.
Proof.
  assert (4 <= MaxSizeN)%nat as Hb by (pose proof MaxSizeN_Z; lia).
  induction ps as [|p ps IH]; intros fuel r s t He Hne Hr.
  - cbn in He. injection He as <-. exists r. split; [exact Hr|reflexivity].
  - apply enc_pkts_cons in He. destruct He as (e & s' & Hp & Hps & ->).
    cbn [forallb] in Hne. apply andb_prop in Hne. destruct Hne as [Hn1 Hn2].
    rewrite <- app_assoc in Hr.
    destruct (pkt_read_enc MaxSizeN r p e (s' ++ t) Hb Hp Hr) as [Hd Hrest].
    rewrite (rd_of_pkt_rdp p (enc_pkt_some_ok _ _ Hp) Hn1) in Hd.
    destruct (IH fuel (snd (pkt_read MaxSizeN r)) s' t Hps Hn2 Hrest) as (r' & Hr' & Hgo).
    exists r'. split; [exact Hr'|].
    cbn [List.length plus rl_all_go]. unfold read_line.
    destruct (pkt_read MaxSizeN r) as [d r1]. cbn [fst snd] in Hd, Hrest, Hgo. subst d.
    rewrite rdp_err. cbn [tagged app]. rewrite Hgo. f_equal. f_equal.
    unfold rlen. rewrite Hrest, app_length. unfold enc_len. now rewrite Hps.
Qed.

Lemma rl_all_go_eof fuel r : concat r = [] -> rl_all_go (S fuel) r = [(rd_fail PEeof, O)].
Proof.
  assert (4 <= MaxSizeN)%nat as Hb by (pose proof MaxSizeN_Z; lia).
  intros Hr. cbn [rl_all_go]. unfold read_line.
  pose proof (pkt_read_empty MaxSizeN r Hb Hr) as Hd. pose proof (pkt_read_rlen MaxSizeN r) as Hl.
  destruct (pkt_read MaxSizeN r) as [d r1]. cbn [fst snd] in Hd, Hl. subst d. cbn [rd_err rd_fail].
  assert (rlen r = O) as E by (unfold rlen; now rewrite Hr). rewrite E in Hl. f_equal. f_equal. lia.
Qed.

(* every chunking r of the encoded packets followed by t: the ReadLine results begin with the packets *)
Theorem rl_all_tail ps s t r :
  enc_pkts ps = Some s -> forallb no_errline ps = true -> concat r = s ++ t ->
  exists rest, rl_all r = tagged ps (List.length t) ++ rest /\ (t = [] -> rest = [(rd_fail PEeof, O)]).
Proof.
  intros He Hne Hr. pose proof (enc_pkts_length _ _ He) as Hl.
  assert (rlen r = List.length s + List.length t)%nat as Hrl by (unfold rlen; now rewrite Hr, app_length).
  unfold rl_all.
  assert (exists f, S (S (rlen r)) = List.length ps + S f)%nat as (f & Ef) by (exists (S (rlen r) - List.length ps)%nat; lia).
  rewrite Ef. destruct (rl_all_go_enc ps (S f) r s t He Hne Hr) as (r' & Hr' & Hgo).
  rewrite Hgo. eexists. split; [reflexivity|]. intros ->. now apply rl_all_go_eof.
Qed.

(* ... and without anything after them, exactly the packets and then io.EOF *)
Theorem rl_all_fst ps s r :
  enc_pkts ps = Some s -> forallb no_errline ps = true -> concat r = s ->
  map fst (rl_all r) = map rdp ps ++ [rd_fail PEeof].
Proof.
  intros He Hne Hr. assert (concat r = s ++ []) as Hr' by (now rewrite app_nil_r).
  destruct (rl_all_tail ps s [] r He Hne Hr') as (rest & -> & Hrest).
  rewrite (Hrest eq_refl), map_app, map_fst_tagged. reflexivity.
Qed.

(* the result of a decoder without the unread lines *)
Definition val {A} (x : (A * lines) + v2err) : A + v2err :=
  match x with inl (a, _) => inl a | inr e => inr e end.

Lemma rdp_data b : (0 < List.length b)%nat -> rdp (PData b) = mkrd (zlen b + 4) b None.
Proof. intros H. unfold rdp. now rewrite item_of_ne. Qed.

Lemma rdp_line b : rdp (PData (b ++ [NL])) = mkrd (zlen (b ++ [NL]) + 4) (b ++ [NL]) None.
Proof. apply rdp_data. rewrite app_length. cbn. lia. Qed.

Lemma special_data b : is_special (zlen b + 4) = false.
Proof. unfold is_special, zlen. destruct (Z.eqb_spec (Z.of_nat (List.length b) + 4) 0), (Z.eqb_spec (Z.of_nat (List.length b) + 4) 1),
  (Z.eqb_spec (Z.of_nat (List.length b) + 4) 2); first [lia | reflexivity]. Qed.

Lemma len_data_nz b k : (k < 4)%Z -> ((zlen b + 4 =? k)%Z) = false.
Proof. intros H. unfold zlen. destruct (Z.eqb_spec (Z.of_nat (List.length b) + 4) k); [lia|reflexivity]. Qed.
