(* Proofs/C36.v — the protocol core of fetch: negotiation terminates, a
   reference update that goes through leaves the name at the new value,
   pruning only removes stale names, and what getShallowCommits reports lies
   where it says. *)
From Coq Require Import List NArith ZArith Bool Lia Arith.
From GoGit Require Import Base.Out Model.RefSpec Model.RevList Model.PushRules Model.FetchProto
     Spec.ObjReach Proofs.C37Trees Proofs.C36Refspec.
Import ListNotations.
(* the flush constants are unary numbers (LARGE_FLUSH = 16384): cbn must leave
   arithmetic on them folded *)
Local Arguments Nat.leb : simpl never.
Local Arguments Nat.ltb : simpl never.
Local Arguments Nat.min : simpl never.
Local Arguments Nat.sub : simpl never.
Local Arguments Nat.eqb : simpl never.

Lemma take_rev_lengths : forall n l t rest, take_rev n l = (t, rest) ->
  List.length t = Nat.min n (List.length l) /\ List.length rest = (List.length l - List.length t)%nat.
Proof.
  induction n as [|n IH]; intros l t rest H; cbn [take_rev] in H.
  - inversion H; subst. cbn. split; [reflexivity | lia].
  - destruct l as [|x l]; [inversion H; subst; cbn; split; reflexivity|].
    destruct (take_rev n l) as [t0 r0] eqn:E. inversion H; subst.
    destruct (IH _ _ _ E) as [A B]. cbn. split; lia.
Qed.

Lemma apply_acks_haves : forall st acks s,
  n_haves (apply_acks st acks s) = n_haves s /\ n_flush_at (apply_acks st acks s) = n_flush_at s /\
  n_done_after_ready (apply_acks st acks s) = n_done_after_ready s.
Proof.
  intros st acks. induction acks as [|[h stt] r IH]; intros s; cbn [apply_acks]; [auto|].
  match goal with |- context [apply_acks st r ?x] => destruct (IH x) as (A & B & C); rewrite A, B, C end.
  destruct stt; cbn; auto.
  destruct (st && negb (mem h (n_common s))); cbn; auto.
Qed.

Lemma next_flush_pos : forall st c, (1 <= c)%nat -> (1 <= next_flush st c)%nat.
Proof.
  intros st c H. unfold next_flush. destruct st.
  - destruct (Nat.ltb c LARGE_FLUSH) eqn:E; [lia|]. apply Nat.ltb_ge in E. unfold LARGE_FLUSH in E.
    apply Nat.div_le_lower_bound; lia.
  - destruct (Nat.ltb c PIPESAFE_FLUSH); lia.
Qed.

Lemma neg_recv_false : forall stl r acks s1 s2,
  neg_recv stl r acks s1 = (s2, false) ->
  n_haves s2 = n_haves s1 /\ n_flush_at s2 = next_flush stl (n_flush_at s1) /\
  r_done r = false /\ n_done_after_ready s1 = false.
Proof.
  intros stl r acks s1 s2 H. unfold neg_recv in H.
  set (sa := if r_done r || negb (Nat.eqb (List.length (r_haves r)) 0) then apply_acks stl acks s1 else s1) in *.
  assert (Hsa : n_haves sa = n_haves s1 /\ n_flush_at sa = n_flush_at s1 /\ n_done_after_ready sa = n_done_after_ready s1).
  { unfold sa. destruct (r_done r || negb (Nat.eqb (List.length (r_haves r)) 0)); [apply apply_acks_haves | auto]. }
  destruct Hsa as (A & B & C). cbn zeta in H.
  destruct (n_done_after_ready sa) eqn:D; [inversion H|]. inversion H; subst. cbn. rewrite A, B, <- C. auto.
Qed.

(* a round that does not end the negotiation consumed at least one have *)
Lemma neg_round_progress : forall stl wants ns s r s1 acks s2,
  (1 <= n_flush_at s)%nat ->
  neg_send stl wants ns s = NRound r s1 -> neg_recv stl r acks s1 = (s2, false) ->
  (List.length (n_haves s2) < List.length (n_haves s))%nat /\ (1 <= n_flush_at s2)%nat.
Proof.
  intros stl wants ns s r s1 acks s2 Hf HS HR.
  destruct (neg_recv_false _ _ _ _ _ HR) as (A & B & C & D). rewrite A, B. clear HR.
  unfold neg_send in HS.
  destruct (take_rev _ (rev (n_haves s))) as [taken rest] eqn:T.
  destruct (forallb _ wants && ns); [discriminate|]. inversion HS; subst r s1. clear HS.
  destruct (take_rev_lengths _ _ _ _ T) as [LT LR]. rewrite rev_length in LT, LR.
  cbn [n_haves n_flush_at n_done_after_ready r_done] in *. rewrite rev_length.
  split; [|now apply next_flush_pos].
  rewrite D in C. cbn [orb] in C. apply orb_false_iff in C. destruct C as [E2 E3].
  rewrite rev_length in E2. apply Nat.eqb_neq in E2. rewrite D in LT.
  destruct (n_got_continue s) eqn:GC.
  - destruct (Nat.leb (MAX_IN_VEIN - n_in_vein s) 0) eqn:Z.
    + exfalso. apply Nat.leb_le in Z. rewrite andb_true_l in E3. apply Nat.leb_gt in E3. lia.
    + apply Nat.leb_gt in Z. lia.
  - lia.
Qed.

Lemma negotiate_terminates : forall stl wants ns table fuel s rounds,
  (1 <= n_flush_at s)%nat -> (List.length (n_haves s) < fuel)%nat ->
  exists r nc, negotiate fuel stl wants ns table s rounds = Some (r, nc) /\
               (List.length r <= List.length rounds + S (List.length (n_haves s)))%nat.
Proof.
  intros stl wants ns table. induction fuel as [|f IH]; intros s rounds Hf Hl; [lia|]. cbn [negotiate].
  destruct (neg_send stl wants ns s) as [r s1|] eqn:SD.
  - destruct (neg_recv stl r (round_acks table r) s1) as [s2 stop] eqn:RV. destruct stop.
    + exists (rounds ++ [r]), false. split; [reflexivity|]. rewrite app_length. cbn. lia.
    + destruct (neg_round_progress _ _ _ _ _ _ _ _ Hf SD RV) as [A B].
      destruct (IH s2 (rounds ++ [r]) B ltac:(lia)) as (r' & nc & E & L). exists r', nc. split; [exact E|].
      rewrite app_length in L. cbn in L. lia.
  - exists rounds, true. split; [reflexivity | lia].
Qed.

Lemma ref_get_set_same : forall rs n t, ref_get (ref_set rs n t) n = Some t.
Proof.
  induction rs as [|[k v] rs IH]; intros n t; cbn [ref_set ref_get].
  - now rewrite beq_bytes_refl.
  - destruct (beq_bytes k n) eqn:E; cbn [ref_get]; rewrite E; [reflexivity | apply IH].
Qed.

(* checkAndUpdateReferenceStorerIfNeeded, as update_one continues from it:
   when it succeeds the name carries the new value *)
Lemma check_and_update_sets : forall local n h old upd fn u',
  match check_and_update local n h old with
  | None => None
  | Some (l', c) => Some (mkU l' (upd || c) fn)
  end = Some u' ->
  ref_get (u_local u') n = Some (RHash h).
Proof.
  intros local n h old upd fn u' H. unfold check_and_update in H.
  destruct (ref_get local n) as [[h'|t]|] eqn:G.
  - destruct (N.eqb h' h) eqn:E.
    + inversion H; subst. apply N.eqb_eq in E. now subst.
    + destruct old as [oh|]; [destruct (N.eqb h' oh); [|discriminate]|]; inversion H; subst; apply ref_get_set_same.
  - destruct old as [oh|]; [destruct (N.eqb 0 oh); [|discriminate]|]; inversion H; subst; apply ref_get_set_same.
  - inversion H; subst; apply ref_get_set_same.
Qed.

(* the local name a fetched reference is stored under *)
Definition local_name (spec n : bytes) : option bytes :=
  let raw := rs_dst spec n in
  if has_prefix REFS raw then Some raw else if is_hash_text raw then None else Some (HEADS ++ raw).

Lemma ref_get_del_other : forall rs n m, beq_bytes n m = false -> ref_get (ref_del rs n) m = ref_get rs m.
Proof.
  induction rs as [|[k v] rs IH]; intros n m H; cbn [ref_del ref_get]; [reflexivity|].
  destruct (beq_bytes k n) eqn:E.
  - apply beq_bytes_true in E. subst k. rewrite H. now apply IH.
  - cbn [ref_get]. destruct (beq_bytes k m); [reflexivity | now apply IH].
Qed.

(* pruning for one (reversed) refspec only ever removes a name the refspec
   maps back to a reference the server no longer advertises *)
Lemma prune_spec_only_stale : forall rv remote iter local ch m,
  ref_get local m <> None -> ref_get (fst (prune_spec rv remote iter local ch)) m = None ->
  exists n, beq_bytes n m = true /\ rs_match rv n = true /\ ref_get remote (rs_dst rv n) = None.
Proof.
  intros rv remote iter. induction iter as [|[n t] r IH]; intros local ch m Hl H; cbn [prune_spec] in H.
  - cbn in H. contradiction.
  - destruct (rs_match rv n) eqn:M; [|now apply IH in H].
    destruct (ref_get remote (rs_dst rv n)) eqn:G; [now apply IH in H|].
    destruct (beq_bytes n m) eqn:E; [exists n; auto|].
    apply IH in H; [exact H|]. now rewrite ref_get_del_other.
Qed.

(* a path of exactly k parent steps through stored commits *)
Inductive pdist (st : store) : oid -> oid -> nat -> Prop :=
| pd0 : forall a, pdist st a a 0
| pdS : forall a t ps tm p b k, get_commit st a = Some (t, ps, tm) -> In p ps -> pdist st p b k -> pdist st a b (S k).

Lemma pdist_snoc : forall st a b k t ps tm p,
  pdist st a b k -> get_commit st b = Some (t, ps, tm) -> In p ps -> pdist st a p (S k).
Proof.
  intros st a b k t ps tm p H. induction H; intros G Hp.
  - econstructor; eauto. constructor.
  - econstructor; eauto.
Qed.

Section ShallowWalk.
  Variable st : store.
  Variable depth : nat.
  Variable heads0 : list oid.

  (* c lies k parent steps below a wanted head, for a k that satisfies P *)
  Definition below_head (P : nat -> Prop) (c : oid) : Prop :=
    exists h k, In h heads0 /\ pdist st h c k /\ P k.
  (* a work item carries its distance *)
  Definition placed (w : swork) : Prop := below_head (eq (sw_depth w)) (sw_id w).

  Lemma placed_parent : forall w t ps tm p,
    placed w -> get_commit st (sw_id w) = Some (t, ps, tm) -> In p ps -> placed (mkSW p (S (sw_depth w))).
  Proof.
    intros w t ps tm p (h & k & Hh & Hd & <-) G Hp. exists h, (S (sw_depth w)).
    split; [exact Hh|]. split; [eapply pdist_snoc; eauto | reflexivity].
  Qed.

  Lemma push_parents_all : forall (P : swork -> Prop) d ps stack nxt stack',
    push_parents d ps stack = (nxt, stack') -> (forall p, In p ps -> P (mkSW p d)) -> Forall P stack ->
    (forall w, nxt = Some w -> P w) /\ Forall P stack'.
  Proof.
    intros P d. fix IH 1. intros ps stack nxt stack' H Hp Hs. destruct ps as [|p [|q rest]]; cbn [push_parents] in H.
    - inversion H; subst. split; [discriminate | exact Hs].
    - inversion H; subst. split; [|exact Hs]. intros w E. inversion E; subst. apply Hp. now left.
    - apply (IH rest _ _ _ H).
      + intros p' Hp'. apply Hp. right; right; exact Hp'.
      + constructor; [apply Hp; now left | exact Hs].
  Qed.

  (* every commit reported shallow is depth-1 parent steps (or more) from a
     wanted head, every commit reported not shallow is closer *)
  Lemma shallow_walk_sound : forall fuel cur heads stack sh un sh' un',
    shallow_walk fuel st depth cur heads stack sh un = Some (sh', un') ->
    incl heads heads0 -> (forall w, cur = Some w -> placed w) -> Forall placed stack ->
    Forall (below_head (fun k => depth <= S k)%nat) sh -> Forall (below_head (fun k => S k < depth)%nat) un ->
    Forall (below_head (fun k => depth <= S k)%nat) sh' /\ Forall (below_head (fun k => S k < depth)%nat) un'.
  Proof.
    induction fuel as [|f IH]; intros cur heads stack sh un sh' un' H Hh Hc Hs Hsh Hun; cbn [shallow_walk] in H; [discriminate|].
    destruct cur as [w|].
    - destruct (Hc w eq_refl) as (h & k & Hin & Hp & E).
      destruct (Nat.leb depth (S (sw_depth w))) eqn:D.
      + apply Nat.leb_le in D. eapply IH; [exact H | exact Hh | discriminate | exact Hs | | exact Hun].
        apply Forall_app. split; [exact Hsh|]. constructor; [|constructor]. exists h, k. subst k. auto.
      + apply Nat.leb_gt in D.
        destruct (get_commit st (sw_id w)) as [[[t ps] tm]|] eqn:G; [|discriminate].
        destruct (forallb _ ps); [|discriminate].
        destruct (push_parents (S (sw_depth w)) ps stack) as [nxt stack'] eqn:PP.
        destruct (push_parents_all placed _ _ _ _ _ PP) as [A B]; [|exact Hs|].
        { intros p Hp'. eapply placed_parent; eauto. }
        eapply IH; [exact H | exact Hh | exact A | exact B | exact Hsh |].
        apply Forall_app. split; [exact Hun|]. constructor; [|constructor]. exists h, k. subst k. auto.
    - destruct heads as [|h hs].
      + destruct stack as [|w ws]; [inversion H; subst; auto|]. inversion Hs; subst.
        eapply IH; [exact H | exact Hh | | eassumption | exact Hsh | exact Hun].
        intros w' E. inversion E; subst. assumption.
      + assert (Hh' : incl hs heads0) by (intros x Hx; apply Hh; now right).
        destruct (get_commit st h) eqn:G.
        * eapply IH; [exact H | exact Hh' | | exact Hs | exact Hsh | exact Hun].
          intros w' E. inversion E; subst. exists h, O. split; [apply Hh; now left|]. split; [constructor | reflexivity].
        * eapply IH; [exact H | exact Hh' | discriminate | exact Hs | exact Hsh | exact Hun].
  Qed.
End ShallowWalk.

Lemma diff_list_In : forall a b x, In x a -> In x (diff_list a b) \/ In x b.
Proof.
  intros a b x H. destruct (mem x b) eqn:M; [right; now apply mem_In|].
  left. unfold diff_list. apply filter_In. split; [exact H | now rewrite M].
Qed.

Lemma no_haves_reach : forall st sh o, ~ reach_set st sh [] o.
Proof. intros st sh o (r & [] & _). Qed.

