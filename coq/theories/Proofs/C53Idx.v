(* Proofs/C53Idx.v — C53 for the pack-index readers of Model/Idx.v (MemoryIndex,
   LazyIndex, mmap.PackScanner): for EVERY index structure / file and every
   query — sorted or not, well-formed or not —
     * the binary searches end within the fuel the model gives them
       (bs_fuel = 1 + bit size of the interval): no reader answers [Err EFuel];
     * a 64-bit offset is only read from inside the 64-bit table: a slot index
       equal to (or above) the number of 8-byte slots is rejected, not read;
     * a decoded MemoryIndex is consistent (per bucket: |names| = n*hs,
       |offset32| = |crc32| = 4n) and all its tables together are no longer than
       the file, whatever the fanout claims.
   The C10 development proves the searches CORRECT on sorted tables
   (Proofs/C10Search.v, under mono/total hypotheses); here there is no
   hypothesis on the probe at all. *)
From Coq Require Import List NArith ZArith Bool Lia.
From GoGit Require Import Base.Out Model.PackBytes Model.Idx Proofs.C10Bytes Proofs.C10Basic Proofs.C53RevFile.
Import ListNotations.
Local Open Scope N_scope.

Ltac Zify.zify_post_hook ::= Z.div_mod_to_equations.

(* Fuel above the bit size of d lasts as long as every step at most halves d. *)
Lemma halving_fuel (P : nat -> N -> Prop) :
  (forall g d, (0 < d -> P g (d / 2)) -> P (S g) d) ->
  forall d g, (N.to_nat (N.size d) < g)%nat -> P g d.
Proof.
  intros step. assert (A : forall f d, d < 2 ^ N.of_nat f -> forall g, (f < g)%nat -> P g d).
  { induction f as [|f IH]; intros d Hd [|g] Hg; try lia; apply step; intros Hp; [lia|].
    rewrite Nat2N.inj_succ, N.pow_succ_r' in Hd. apply IH; lia. }
  intros d g. apply A. rewrite N2Nat.id. apply N.size_gt.
Qed.

Lemma bs_while_fuel_any probe lo hi : bs_while (bs_fuel lo hi) probe lo hi <> OutOfFuel.
Proof.
  apply (halving_fuel (fun g d => forall lo hi, hi - lo <= d -> bs_while g probe lo hi <> OutOfFuel))
    with (d := hi - lo); [|apply Nat.lt_succ_diag_r|apply N.le_refl].
  clear. intros g d IH lo hi Hd. cbn [bs_while]. destruct (N.ltb_spec lo hi); [|discriminate].
  destruct (probe _) as [[| |]|]; try discriminate; apply IH; lia.
Qed.

Lemma bs_do_fuel_any probe lo hi : bs_do (bs_fuel lo hi) probe lo hi <> OutOfFuel.
Proof.
  apply (halving_fuel (fun g d => forall lo hi, hi - lo <= d -> bs_do g probe lo hi <> OutOfFuel))
    with (d := hi - lo); [|apply Nat.lt_succ_diag_r|apply N.le_refl].
  clear. intros g d IH lo hi Hd. cbn [bs_do]. destruct (probe _) as [[| |]|]; try discriminate.
  - destruct (N.ltb_spec lo ((lo + hi) / 2)); [apply IH; lia|discriminate].
  - destruct (N.ltb_spec ((lo + hi) / 2 + 1) hi); [apply IH; lia|discriminate].
Qed.

Lemma bs_closed_fuel_any probe (num : Z) :
  bs_closed (bs_fuel 0 (Z.to_N num) + 1) probe 0%Z (num - 1)%Z <> OutOfFuel.
Proof.
  apply (halving_fuel (fun g d => forall l r, Z.to_N (r - l + 1) <= d -> bs_closed g probe l r <> OutOfFuel))
    with (d := Z.to_N num); [|unfold bs_fuel; rewrite N.sub_0_r; lia|lia].
  clear. intros g d IH l r Hd. cbn [bs_closed]. destruct (Z.leb_spec l r); [|discriminate].
  destruct (probe _) as [[| |]|]; try discriminate; apply IH; lia.
Qed.

(* sort.Search style: the answer is a position, or a read error of some probe *)
Definition lb_ok (below : N -> option bool) (r : sres) : Prop :=
  match r with
  | Found _ => True
  | SErr => exists i, below i = None
  | _ => False
  end.

Lemma lower_bound_fuel_any below lo hi r : lower_bound (bs_fuel lo hi) below lo hi = r -> lb_ok below r.
Proof.
  intros <-. apply (halving_fuel (fun g d => forall lo hi, hi - lo <= d -> lb_ok below (lower_bound g below lo hi)))
    with (d := hi - lo); [|apply Nat.lt_succ_diag_r|apply N.le_refl].
  clear. intros g d IH lo hi Hd. cbn [lower_bound]. destruct (N.ltb_spec lo hi); [|exact I].
  destruct (below _) as [[|]|] eqn:E; [apply IH; lia|apply IH; lia|cbn; eauto].
Qed.

Lemma lower_bound_fuel_total (f : N -> bool) lo hi :
  exists k, lower_bound (bs_fuel lo hi) (fun i => Some (f i)) lo hi = Found k.
Proof.
  destruct (lower_bound _ _ lo hi) as [k| | |] eqn:E; [eauto|apply lower_bound_fuel_any in E; now destruct E..].
Qed.

Lemma mem_get_offset_nf m b i : mem_get_offset m b i <> Err EFuel.
Proof.
  unfold mem_get_offset. cbv zeta.
  destruct (N.land _ O64MASK =? 0); [discriminate|]. destruct (_ || _); discriminate.
Qed.

Lemma lazy_offset_nf s pos : lazy_offset s pos <> Err EFuel.
Proof.
  unfold lazy_offset. destruct (read_at _ _ L_OFF32); [|discriminate]. cbv zeta.
  destruct (N.land _ L_MASK =? 0); [discriminate|].
  destruct (_ <=? _); [discriminate|]. destruct (read_at _ _ L_OFF64); discriminate.
Qed.

Lemma lazy_crc_nf s pos : lazy_crc s pos <> Err EFuel.
Proof. unfold lazy_crc. destruct (read_at _ _ _); discriminate. Qed.

Lemma lazy_rev_at_nf s i : lazy_rev_at s i <> Err EFuel.
Proof.
  unfold lazy_rev_at. destruct (read_at _ _ _); [|discriminate]. cbv zeta. destruct (_ <=? _); discriminate.
Qed.

Lemma scan_offset_nf s pos : scan_offset s pos <> Err EFuel.
Proof.
  unfold scan_offset. cbv zeta. destruct (_ <? _); [discriminate|].
  destruct (N.land _ S_MASK =? 0); [discriminate|]. destruct (_ <? _); discriminate.
Qed.

Lemma bind_nf {A B} (x : res A) (k : A -> res B) :
  x <> Err EFuel -> (forall a, k a <> Err EFuel) ->
  match x with Ok a => k a | Err e => Err e end <> Err EFuel.
Proof. destruct x; [auto|congruence]. Qed.

Definition not_fuel (o : option ierr) : Prop := o <> Some EFuel.

Lemma step_nf {A} (x : res A) (k : A -> iter) :
  x <> Err EFuel -> (forall a, not_fuel (snd (k a))) ->
  not_fuel (snd match x with Ok a => k a | Err e => ([], Some e) end).
Proof. unfold not_fuel. destruct x; [auto|cbn; congruence]. Qed.

Lemma not_fuel_cons en (w : iter) : not_fuel (snd w) -> not_fuel (snd (let '(l, t) := w in (en :: l, t))).
Proof. now destruct w. Qed.

Section Readers.
Variable hs : nat.

Lemma mem_entry_at_nf m b i : mem_entry_at hs m b i <> Err EFuel.
Proof. apply bind_nf; [apply mem_get_offset_nf|discriminate]. Qed.

Lemma lazy_entry_at_nf s pos : lazy_entry_at hs s pos <> Err EFuel.
Proof.
  unfold lazy_entry_at. destruct (lazy_name hs s pos); [|discriminate].
  apply bind_nf; [apply lazy_offset_nf|intros o]. apply bind_nf; [apply lazy_crc_nf|discriminate].
Qed.

Lemma mem_bucket_entries_nf m b : forall n second, not_fuel (snd (mem_bucket_entries hs m b second n)).
Proof.
  induction n as [|n IH]; intros second; cbn [mem_bucket_entries]; [discriminate|].
  apply step_nf; [apply mem_entry_at_nf|intros en; apply not_fuel_cons, IH].
Qed.

Lemma mem_entries_from_nf m : forall ks total, not_fuel (snd (mem_entries_from hs m ks total)).
Proof.
  induction ks as [|k r IH]; intros total; cbn [mem_entries_from]; [discriminate|]. cbv zeta.
  destruct (_ <=? _); [apply IH|].
  destruct (fmap_at m k); [|discriminate].
  pose proof (mem_bucket_entries_nf m (nthN (m_bk m) n emptyB) (N.to_nat (fan_at m k - total)) 0) as A.
  destruct (mem_bucket_entries hs m _ 0 _) as [l [e|]]; cbn [snd] in *; [exact A|].
  specialize (IH (fan_at m k)). destruct (mem_entries_from hs m r (fan_at m k)). exact IH.
Qed.

Lemma mem_entries_nf m : not_fuel (snd (mem_entries hs m)).
Proof. apply mem_entries_from_nf. Qed.

Lemma mem_find_nf m h : fst (mem_find hs m h) <> OutOfFuel.
Proof.
  unfold mem_find. destruct (fmap_at m (first_byte h)); [|discriminate].
  destruct (_ <=? _); [discriminate|]. cbv zeta.
  destruct (_ =? 0); [discriminate|apply bs_do_fuel_any].
Qed.

Lemma mem_find_offset_nf m st h : fst (mem_find_offset hs m st h) <> Err EFuel.
Proof.
  unfold mem_find_offset. pose proof (mem_find_nf m h) as A.
  destruct (mem_find hs m h) as [[i| | |] k]; cbn [fst] in *; try discriminate; [|congruence].
  pose proof (mem_get_offset_nf m (nthN (m_bk m) k emptyB) i) as B.
  destruct (mem_get_offset m _ i); [discriminate|cbn; congruence].
Qed.

Lemma mem_find_crc_nf m h : mem_find_crc hs m h <> Err EFuel.
Proof.
  unfold mem_find_crc. pose proof (mem_find_nf m h) as A.
  destruct (mem_find hs m h) as [[i| | |] k]; cbn [fst] in *; try discriminate. congruence.
Qed.

Lemma mem_contains_nf m h : mem_contains hs m h <> Err EFuel.
Proof.
  unfold mem_contains. pose proof (mem_find_nf m h) as A.
  destruct (mem_find hs m h) as [[i| | |] k]; cbn [fst] in *; try discriminate. congruence.
Qed.

Lemma mem_find_hash_nf m st o : fst (mem_find_hash hs m st o) <> Err EFuel.
Proof.
  unfold mem_find_hash, mem_gen.
  destruct (match ms_map st with Some mp => omap_get mp o | None => None end); [discriminate|].
  destruct (ms_once st); [discriminate|].
  pose proof (mem_entries_nf m) as A. destruct (mem_entries hs m) as [l [e|]]; cbn [fst snd] in *; [congruence|].
  destruct (omap_get _ o); discriminate.
Qed.

Lemma mem_by_offset_nf m : not_fuel (snd (mem_by_offset hs m)).
Proof.
  unfold mem_by_offset. pose proof (mem_entries_nf m) as A.
  destruct (mem_entries hs m) as [l [e|]]; [exact A|discriminate].
Qed.

Lemma mem_prefix_walk_nf m b prefix : forall n pos, not_fuel (snd (mem_prefix_walk hs m b prefix pos n)).
Proof.
  induction n as [|n IH]; intros pos; cbn [mem_prefix_walk]; [discriminate|].
  destruct (_ <? _); [discriminate|]. destruct (negb _); [discriminate|].
  apply step_nf; [apply mem_entry_at_nf|intros en; apply not_fuel_cons, IH].
Qed.

Lemma mem_prefix_nf m prefix : not_fuel (snd (mem_prefix hs m prefix)).
Proof.
  unfold mem_prefix. destruct prefix as [|p0 pr]; [apply mem_entries_nf|].
  destruct (fmap_at m (N.to_nat p0)); [|discriminate]. cbv zeta.
  edestruct lower_bound_fuel_total as [k E]. rewrite E. apply mem_prefix_walk_nf.
Qed.

Lemma lazy_find_pos_nf s h : lazy_find_pos hs s h <> OutOfFuel.
Proof.
  unfold lazy_find_pos. destruct (lazy_bounds s (first_byte h)) as [lo hi].
  destruct (hi <=? lo); [discriminate|]. apply bs_while_fuel_any.
Qed.

Lemma lazy_contains_nf s h : lazy_contains hs s h <> Err EFuel.
Proof.
  unfold lazy_contains. pose proof (lazy_find_pos_nf s h). destruct (lazy_find_pos hs s h); congruence.
Qed.

Lemma lazy_find_offset_nf s h : lazy_find_offset hs s h <> Err EFuel.
Proof.
  unfold lazy_find_offset. pose proof (lazy_find_pos_nf s h). destruct (lazy_find_pos hs s h); try congruence.
  apply bind_nf; [apply lazy_offset_nf|discriminate].
Qed.

Lemma lazy_find_crc_nf s h : lazy_find_crc hs s h <> Err EFuel.
Proof.
  unfold lazy_find_crc. pose proof (lazy_find_pos_nf s h). destruct (lazy_find_pos hs s h); try congruence.
  apply lazy_crc_nf.
Qed.

Lemma lazy_find_hash_nf s want : lazy_find_hash hs s want <> Err EFuel.
Proof.
  unfold lazy_find_hash. cbv zeta.
  destruct (bs_while _ _ 0 _) eqn:E; try discriminate; [|now apply bs_while_fuel_any in E].
  apply bind_nf; [apply lazy_rev_at_nf|intros p]. destruct (lazy_name hs s p); discriminate.
Qed.

Lemma lazy_walk_nf s : forall n pos, not_fuel (snd (lazy_walk hs s pos n)).
Proof.
  induction n as [|n IH]; intros pos; cbn [lazy_walk]; [discriminate|].
  apply step_nf; [apply lazy_entry_at_nf|intros en; apply not_fuel_cons, IH].
Qed.

Lemma lazy_entries_nf s : not_fuel (snd (lazy_entries hs s)).
Proof. apply lazy_walk_nf. Qed.

Lemma lazy_prefix_walk_nf s prefix : forall n pos, not_fuel (snd (lazy_prefix_walk hs s prefix pos n)).
Proof.
  induction n as [|n IH]; intros pos; cbn [lazy_prefix_walk]; [discriminate|].
  apply step_nf; [apply lazy_entry_at_nf|intros en].
  destruct (negb _); [discriminate|apply not_fuel_cons, IH].
Qed.

Lemma lazy_prefix_nf s prefix : not_fuel (snd (lazy_prefix hs s prefix)).
Proof.
  unfold lazy_prefix. destruct prefix as [|p0 pr]; [apply lazy_entries_nf|].
  destruct (lazy_bounds s (N.to_nat p0)) as [lo hi].
  destruct (hi <=? lo); [discriminate|]. cbv zeta.
  destruct (lower_bound _ _ lo hi) eqn:E; try discriminate; [|apply lower_bound_fuel_any in E; destruct E..].
  destruct (hi <=? i); [discriminate|apply lazy_prefix_walk_nf].
Qed.

Lemma lazy_rev_walk_nf s : forall n pos, not_fuel (snd (lazy_rev_walk hs s pos n)).
Proof.
  induction n as [|n IH]; intros pos; cbn [lazy_rev_walk]; [discriminate|].
  apply step_nf; [apply lazy_rev_at_nf|intros p].
  apply step_nf; [apply lazy_entry_at_nf|intros en; apply not_fuel_cons, IH].
Qed.

Lemma lazy_by_offset_nf s : not_fuel (snd (lazy_by_offset hs s)).
Proof. apply lazy_rev_walk_nf. Qed.

Lemma scan_find_offset_nf s h : scan_find_offset s h <> Err EFuel.
Proof.
  unfold scan_find_offset. cbv zeta. destruct (_ <? blen h); [discriminate|].
  assert (A : forall i hi, (if (i <? hi) && scan_name_eq s h i then scan_offset s i else Err ENotFound) <> Err EFuel).
  { intros i hi. destruct (_ && _); [apply scan_offset_nf|discriminate]. }
  destruct (_ <? scan_fanout s _); [|apply A].
  edestruct lower_bound_fuel_total as [k E]. rewrite E. apply A.
Qed.

Lemma scan_find_hash_nf s want : scan_find_hash hs s want <> Err EFuel.
Proof.
  unfold scan_find_hash. cbv zeta.
  destruct (bs_closed _ _ _ _) eqn:E; try discriminate; [|now apply bs_closed_fuel_any in E].
  destruct (_ <? _); discriminate.
Qed.

End Readers.

(* MemoryIndex.getOffset: the number of 8-byte slots is |Offset64| / 8; any slot
   index >= that number (in particular == it) is ErrMalformedIdxFile *)
Lemma mem_get_offset_slot_rejected m b i :
  let ofs := get32 (slice (b_off32 b) (4 * i) 4) in
  N.land ofs O64MASK <> 0 -> blen (m_off64 m) / 8 <= N.ldiff ofs O64MASK ->
  mem_get_offset m b i = Err EMalformed.
Proof.
  cbv zeta. intros Hm Hs. unfold mem_get_offset. cbv zeta.
  destruct (_ =? 0) eqn:A; [lia|]. destruct (_ || _) eqn:B; [reflexivity|lia].
Qed.

(* ... and an accepted slot lies wholly inside the table (C10's lemma, restated with the slot count) *)
Lemma mem_get_offset_slot_in_range m b i o :
  let ofs := get32 (slice (b_off32 b) (4 * i) 4) in
  mem_get_offset m b i = Ok o -> N.land ofs O64MASK <> 0 ->
  N.ldiff ofs O64MASK < blen (m_off64 m) / 8 /\ 8 * N.ldiff ofs O64MASK + 8 <= blen (m_off64 m).
Proof.
  cbv zeta. intros E Hm. apply mem_get_offset_in_range in E. cbv zeta in E.
  destruct E as [[E _]|(_ & E & _)]; [contradiction|lia].
Qed.

(* LazyIndex.offset: l_count64 slots were counted at open time *)
Lemma lazy_offset_slot_rejected s pos b :
  read_at (l_file s) (l_off32 s + pos * L_OFF32) L_OFF32 = Some b ->
  N.land (get32 b) L_MASK <> 0 -> l_count64 s <= N.ldiff (get32 b) L_MASK ->
  lazy_offset s pos = Err EMalformed.
Proof.
  intros R Hm Hs. unfold lazy_offset. rewrite R. cbv zeta.
  destruct (_ =? 0) eqn:A; [lia|]. destruct (_ <=? _) eqn:B; [reflexivity|lia].
Qed.

(* PackScanner.offset: the slot must end at or before the trailer *)
Lemma scan_offset_slot_rejected s pos :
  let start := s_off32 s + pos * S_OFF32 in
  let off32 := get32 (slice (s_idx s) start S_OFF32) in
  start + S_OFF32 <= blen (s_idx s) -> N.land off32 S_MASK <> 0 ->
  s_trailer s < s_off64 s + N.ldiff off32 S_MASK * S_OFF64 + S_OFF64 ->
  scan_offset s pos = Err EMalformed.
Proof.
  cbv zeta. intros Hr Hm Hs. unfold scan_offset. cbv zeta.
  destruct (_ <? _) eqn:A; [lia|]. destruct (_ =? 0) eqn:B; [lia|]. destruct (s_trailer s <? _) eqn:C; [reflexivity|lia].
Qed.

Lemma read_seq_len : forall sizes r bs r',
  read_seq sizes r = Some (bs, r') ->
  blen r = blen (concat bs) + blen r' /\ Forall2 (fun n b => blen b = n) sizes bs.
Proof.
  induction sizes as [|n rest IH]; intros r bs r' E; cbn [read_seq] in E.
  - injection E as <- <-. split; [reflexivity|constructor].
  - destruct (take n r) as [[b r1]|] eqn:T; [|discriminate].
    destruct (read_seq rest r1) as [[bs1 r2]|] eqn:R; [|discriminate].
    injection E as <- <-. apply take_len in T. apply IH in R. cbn [concat]. rewrite blen_app.
    split; [lia|constructor; tauto].
Qed.

Definition bucket_ok (hs : nat) (b : bucket) : Prop :=
  exists n, blen (b_names b) = n * N.of_nat hs /\ blen (b_off32 b) = n * 4 /\ blen (b_crc32 b) = n * 4.

Lemma zip_buckets_ok hs : forall (cs : list N) ns crcs offs,
  Forall2 (fun n b => blen b = n) (map (fun c => c * N.of_nat hs) cs) ns ->
  Forall2 (fun n b => blen b = n) (map (fun c => c * 4) cs) crcs ->
  Forall2 (fun n b => blen b = n) (map (fun c => c * 4) cs) offs ->
  Forall (bucket_ok hs) (zip_buckets ns crcs offs).
Proof.
  induction cs as [|c cs IH]; intros ns crcs offs F1 F2 F3; cbn [map] in *.
  - inversion F1; subst. constructor.
  - inversion F1; subst. inversion F2; subst. inversion F3; subst. cbn [zip_buckets].
    constructor; [|apply IH; assumption]. exists c. cbn. repeat split; assumption.
Qed.

Definition tables_len (bk : list bucket) : N :=
  fold_right (fun b a => blen (b_names b) + blen (b_off32 b) + blen (b_crc32 b) + a) 0 bk.

Lemma tables_len_zip : forall ns crcs offs,
  tables_len (zip_buckets ns crcs offs) <= blen (concat ns) + blen (concat crcs) + blen (concat offs).
Proof.
  induction ns as [|n ns IH]; intros [|c crcs] [|o offs]; cbn [zip_buckets tables_len fold_right]; try lia.
  cbn [concat b_names b_off32 b_crc32]. rewrite !blen_app. specialize (IH crcs offs). unfold tables_len in IH. lia.
Qed.

Lemma read_fanout_len : forall n r prev acc fo r',
  read_fanout n r prev acc = Some (fo, r') -> blen r = 4 * N.of_nat n + blen r'.
Proof.
  induction n as [|n IH]; intros r prev acc fo r' E; cbn [read_fanout] in E.
  - injection E as _ <-. lia.
  - destruct (take 4 r) as [[w rr]|] eqn:T; [|discriminate]. destruct (_ <? _); [discriminate|].
    apply IH in E. apply take_len in T. lia.
Qed.

Section Decode.
Variable hs : nat.
Variable Hsz : nat -> bytes -> bytes.

(* every bucket of a decoded index is consistent, and everything Decode keeps
   (names, crc, offset32 and offset64 tables, both checksums) fits in the file:
   the allocation is bounded by |file| whatever the fanout table claims *)
Lemma decode_consistent file m :
  decode hs Hsz file = Ok m ->
  Forall (bucket_ok hs) (m_bk m) /\
  tables_len (m_bk m) + blen (m_off64 m) + blen (m_pack m) + blen (m_sum m) + 1032 <= blen file /\
  List.length (m_fanout m) = NFANOUT.
Proof.
  intros E. pose proof (decode_fanout_monotone hs Hsz file m E) as [Hfl _].
  unfold decode in E.
  destruct (take 4 file) as [[mg r1]|] eqn:T1; [|discriminate].
  destruct (negb (bytes_eqb mg IDX_MAGIC)); [discriminate|].
  destruct (take 4 r1) as [[vb r2]|] eqn:T2; [|discriminate].
  destruct (negb (get32 vb =? IDX_VERSION)); [discriminate|].
  destruct (read_fanout NFANOUT r2 0 []) as [[fo r3]|] eqn:Ef; [|discriminate].
  destruct (negb (size_ok hs (last fo 0) (blen file))); [discriminate|].
  destruct (read_seq _ r3) as [[names r4]|] eqn:R1; [|discriminate].
  destruct (read_seq _ r4) as [[crcs r5]|] eqn:R2; [|discriminate].
  destruct (read_seq _ r5) as [[offs r6]|] eqn:R3; [|discriminate].
  destruct (take _ r6) as [[off64 r7]|] eqn:T3; [|discriminate].
  destruct (take _ r7) as [[pack r8]|] eqn:T4; [|discriminate].
  destruct (take _ r8) as [[sum r9]|] eqn:T5; [|discriminate].
  destruct (negb (bytes_eqb sum _)); [discriminate|].
  injection E as <-. cbn [m_bk m_off64 m_pack m_sum m_fanout] in *.
  apply read_seq_len in R1, R2, R3. destruct R1 as [N1 F1], R2 as [N2 F2], R3 as [N3 F3].
  split; [eapply zip_buckets_ok; eassumption|split; [|exact Hfl]].
  apply take_len in T1, T2, T3, T4, T5. apply read_fanout_len in Ef. change (4 * N.of_nat NFANOUT) with 1024 in Ef.
  pose proof (tables_len_zip names crcs offs). lia.
Qed.

End Decode.
