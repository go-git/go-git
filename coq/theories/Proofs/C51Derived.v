(* Proofs/C51Derived.v — the commit-graph built from a history (Spec/Dag.v) with git's generation
   numbers reads back as that history: parents, tree, time, level (Dag.generation) and corrected
   commit date (DagGen2.corrected_date). *)
From Coq Require Import List Arith NArith ZArith Bool Lia ZifyBool ZifyN ZifyNat Permutation.
From GoGit Require Import Base.Out Gen.C51 Model.CommitGraph Spec.Dag Spec.DagGen2 Proofs.C51 Proofs.C51Reader
  Proofs.C51Bytes Proofs.C51Records Proofs.C51Roundtrip Proofs.C51Decode.
Import ListNotations.

Section Tables.
Variable A : Type.
Variable d : A.
Variable step : nat -> list node -> list A -> A.      (* value of node i from its parents and the values before it *)

Fixpoint table (i : nat) (l : list (list node)) (acc : list A) : list A :=
  match l with
  | [] => acc
  | ps :: r => table (S i) r (acc ++ [step i ps acc])
  end.

Lemma table_length : forall l i acc, List.length (table i l acc) = (List.length acc + List.length l)%nat.
Proof. induction l as [|ps r IH]; intros i acc; simpl; [lia|]. rewrite IH, app_length. simpl. lia. Qed.

Lemma table_prefix : forall l i acc k, (k < List.length acc)%nat -> nth k (table i l acc) d = nth k acc d.
Proof.
  induction l as [|ps r IH]; intros i acc k Hk; [reflexivity|]. simpl.
  rewrite IH by (rewrite app_length; simpl; lia). now rewrite app_nth1.
Qed.

(* an invariant P k v of the value of node k, preserved by every step *)
Variable P : nat -> A -> Prop.

Lemma table_inv : forall l i acc,
  List.length acc = i ->
  (forall k, (k < i)%nat -> P k (nth k acc d)) ->
  (forall k acc', (k < List.length l)%nat -> List.length acc' = (i + k)%nat ->
     (forall j, (j < i + k)%nat -> P j (nth j acc' d)) -> P (i + k) (step (i + k) (nth k l []) acc')) ->
  forall k, (k < i + List.length l)%nat -> P k (nth k (table i l acc) d).
Proof.
  induction l as [|ps r IH]; intros i acc Hlen Hacc Hstep k Hk.
  - simpl in *. apply Hacc. lia.
  - cbn [table]. apply (IH (S i)).
    + rewrite app_length. simpl. lia.
    + intros j Hj. destruct (Nat.eq_dec j i) as [->|Hne].
      * rewrite app_nth2 by lia. rewrite Hlen, Nat.sub_diag. cbn [nth].
        pose proof (Hstep 0%nat acc) as H0. rewrite Nat.add_0_r in H0. apply H0; [simpl; lia | exact Hlen | exact Hacc].
      * rewrite app_nth1 by lia. apply Hacc. lia.
    + intros j acc' Hj Hl' Hacc'. replace (S i + j)%nat with (i + S j)%nat by lia.
      apply (Hstep (S j) acc'); [simpl; lia | lia |]. intros m Hm. apply Hacc'. lia.
    + simpl in Hk. lia.
Qed.
End Tables.

Definition gen_step (i : nat) (ps : list node) (acc : list nat) : nat :=
  S (fold_right (fun p m => Nat.max (nth p acc 0) m) 0 ps).

Lemma gen_table_table : forall l i acc, gen_table i l acc = table nat gen_step i l acc.
Proof. induction l as [|ps r IH]; intros i acc; [reflexivity|]. simpl. now rewrite IH. Qed.

Definition cdate_step (times : list Z) (i : nat) (ps : list node) (acc : list Z) : Z :=
  fold_right (fun p m => Z.max (nth p acc 0%Z + 1) m) (nth i times 0%Z) ps.

Lemma cdate_table_table : forall times l i acc, cdate_table i l times acc = table Z (cdate_step times) i l acc.
Proof. induction l as [|ps r IH]; intros i acc; [reflexivity|]. simpl. now rewrite IH. Qed.

Lemma generation_le : forall g c, dag_ok g = true -> dag_closed g = true -> (c < nnodes g)%nat ->
  (1 <= generation g c <= c + 1)%nat.
Proof.
  intros g c Hok Hc Hlt. unfold generation. rewrite gen_table_table.
  apply (table_inv nat 0%nat gen_step (fun k v => (1 <= v <= k + 1)%nat) (dpar g) 0 []); try (simpl; lia); [|exact Hlt].
  intros k acc' Hk Hl' Hacc'. cbn [plus] in *. unfold gen_step.
  assert (Hps : forall p, In p (nth k (dpar g) []) -> (p < k)%nat) by (intros p Hp; exact (dag_ok_closed_parent g k p Hok Hc Hp)).
  induction (nth k (dpar g) []) as [|p ps IH]; [simpl; lia|].
  cbn [fold_right]. specialize (IH (fun q Hq => Hps q (or_intror Hq))).
  pose proof (Hps p (or_introl eq_refl)) as Hp. specialize (Hacc' p Hp). lia.
Qed.

Lemma corrected_date_bounds : forall g c T, dag_ok g = true -> dag_closed g = true -> (c < nnodes g)%nat ->
  (forall k, (k < nnodes g)%nat -> (ctime g k <= T)%Z) ->
  (ctime g c <= corrected_date g c <= T + Z.of_nat c)%Z.
Proof.
  intros g c T Hok Hc Hlt HT. unfold corrected_date. rewrite cdate_table_table.
  assert (G : forall k, (k < 0 + List.length (dpar g))%nat ->
            (fun k v => (k < nnodes g)%nat -> (ctime g k <= v <= T + Z.of_nat k)%Z) k
              (nth k (table Z (cdate_step (dtime g)) 0 (dpar g) []) 0%Z)).
  { apply (table_inv Z 0%Z (cdate_step (dtime g))
             (fun k v => (k < nnodes g)%nat -> (ctime g k <= v <= T + Z.of_nat k)%Z)); try (simpl; lia).
    intros k acc' Hk Hl' Hacc' Hkn. cbn [plus] in *. unfold cdate_step.
    assert (Hps : forall p, In p (nth k (dpar g) []) -> (p < k)%nat) by (intros p Hp; exact (dag_ok_closed_parent g k p Hok Hc Hp)).
    fold (ctime g k). pose proof (HT k Hkn) as HTk.
    induction (nth k (dpar g) []) as [|p ps IH]; [simpl; lia|].
    cbn [fold_right]. specialize (IH (fun q Hq => Hps q (or_intror Hq))).
    pose proof (Hps p (or_introl eq_refl)) as Hp. specialize (Hacc' p Hp). lia. }
  apply G; [unfold nnodes in Hlt; simpl; lia | exact Hlt].
Qed.

Local Open Scope N_scope.

Section Derived.
Variable g : dag.
Variable hash tree : node -> bytes.

Definition entry_of_node (c : node) : centry :=
  mkEntry (hash c) (tree c) (map hash (parents g c)) (N.of_nat (generation g c))
          (Z.to_N (corrected_date g c)) (ctime g c).

Definition entries_of_dag : list centry := map entry_of_node (nodes g).

Definition history_ok : Prop :=
  dag_ok g = true /\ dag_closed g = true /\
  NoDup (map hash (nodes g)) /\
  (forall c, (c < nnodes g)%nat ->
     List.length (hash c) = 20%nat /\ Forall (fun b => b < 256) (hash c) /\ List.length (tree c) = 20%nat) /\
  (forall c, (c < nnodes g)%nat -> (0 < ctime g c < 17179869184)%Z) /\
  N.of_nat (nnodes g) < 1073741824 /\
  N.of_nat (List.length (List.concat (dpar g))) < 2147483648.

Lemma sum_lengths : forall (l : list (list node)), sum_nat (map (@List.length node) l) = List.length (List.concat l).
Proof. induction l as [|x r IH]; [reflexivity|]. simpl. now rewrite app_length, IH. Qed.

Lemma sum_nat_le : forall (A : Type) (f h : A -> nat) l, (forall x, In x l -> (f x <= h x)%nat) ->
  (sum_nat (map f l) <= sum_nat (map h l))%nat.
Proof.
  intros A f h l H. induction l as [|x r IH]; [simpl; lia|]. simpl.
  pose proof (H x (or_introl eq_refl)). specialize (IH (fun y Hy => H y (or_intror Hy))). lia.
Qed.

Lemma history_graph_ok : history_ok -> graph_ok entries_of_dag /\ Forall (fun e => 0 < e_gen2 e < two64 - 1) entries_of_dag.
Proof.
  intros [Hok [Hc [Hnd [Hsz [Htm [Hn Hedges]]]]]].
  assert (Hall : forall P : centry -> Prop, (forall c, (c < nnodes g)%nat -> P (entry_of_node c)) -> Forall P entries_of_dag).
  { intros P H. apply Forall_forall. intros e He. apply in_map_iff in He. destruct He as [c [<- Hc']].
    apply H. unfold nodes in Hc'. apply in_seq in Hc'. lia. }
  assert (Hhashes : map e_hash entries_of_dag = map hash (nodes g)).
  { unfold entries_of_dag. rewrite map_map. reflexivity. }
  assert (Hcd : forall c, (c < nnodes g)%nat -> (0 < corrected_date g c < 17179869184 + 1073741824)%Z).
  { intros c Hlt. pose proof (corrected_date_bounds g c 17179869184 Hok Hc Hlt) as B.
    assert (HT : forall k, (k < nnodes g)%nat -> (ctime g k <= 17179869184)%Z) by (intros k Hk; specialize (Htm k Hk); lia).
    specialize (B HT). specialize (Htm c Hlt). lia. }
  split; [split; [|split; [|split; [|split]]]|].
  - split; [rewrite Hhashes; exact Hnd|]. apply Hall. intros c Hlt.
    destruct (Hsz c Hlt) as [A [_ B]]. split; assumption.
  - apply Hall. intros c Hlt. now destruct (Hsz c Hlt) as [_ [A _]].
  - apply Hall. intros c Hlt. rewrite Hhashes.
    split; [|split; [|split]]; cbn [e_parents e_when e_gen e_gen2 entry_of_node].
    + intros p Hp. apply in_map_iff in Hp. destruct Hp as [q [<- Hq]]. apply in_map.
      unfold nodes. apply in_seq. pose proof (dag_closed_parent g c q Hc Hq). lia.
    + specialize (Htm c Hlt). lia.
    + pose proof (generation_le g c Hok Hc Hlt). lia.
    + specialize (Hcd c Hlt). unfold two64. lia.
  - unfold entries_of_dag. rewrite map_length. unfold nodes. rewrite seq_length, const_parentNone. lia.
  - rewrite extra_edges_count_nat.
    assert (H : (sum_nat (map extra_nat entries_of_dag) <= List.length (List.concat (dpar g)))%nat).
    { rewrite <- sum_lengths. unfold entries_of_dag. rewrite map_map.
      rewrite <- (map_nth_seq _ (dpar g) []) at 1. rewrite map_map. fold (nnodes g). fold (nodes g).
      apply sum_nat_le. intros c _. unfold extra_nat. cbn [e_parents entry_of_node]. rewrite map_length. unfold parents.
      destruct (2 <? List.length (nth c (dpar g) []))%nat; lia. }
    lia.
  - apply Hall. intros c Hlt. cbn [e_gen2 entry_of_node]. specialize (Hcd c Hlt). unfold two64. lia.
Qed.

Theorem derived_readback : forall trailer, history_ok -> List.length trailer = 20%nat ->
  exists l, decode (encode entries_of_dag ++ trailer) = Ok (true, l) /\ Permutation l (map entry_of_node (nodes g)).
Proof.
  intros trailer H Htr. destruct (history_graph_ok H) as [Hg Hg2]. pose proof (graph_ok_wf _ Hg) as Hwf.
  exists (sorted_entries entries_of_dag). split.
  - now apply decode_roundtrip_exact.
  - apply sorted_entries_perm. apply (rt_wfe _ Hwf).
Qed.
End Derived.
