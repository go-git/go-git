(* Proofs/C07Select.v — what every run of the DeltaSelector model guarantees, for EVERY sort
   permutation [order] and EVERY delta-size function [dsz] (the chooser's nondeterminism). *)
From Coq Require Import List NArith ZArith Arith Bool Lia ZifyBool Permutation.
From GoGit Require Import Base.Out Model.PackEnc Model.DeltaSel Proofs.C07.
Import ListNotations.
Local Open Scope Z_scope.

Lemma maxDepth_pos : 0 < maxDepth. Proof. reflexivity. Qed.

Lemma quot_nonpos : forall a b, a <= 0 -> 0 < b -> Z.quot a b <= 0.
Proof.
  intros a b Ha Hb. replace a with (- (- a)) by lia. rewrite Z.quot_opp_l by lia.
  pose proof (Z.quot_pos (- a) b). lia.
Qed.

Lemma limit_depth : forall n bd td isd, 0 <= n -> 8 < delta_size_limit n bd td isd -> bd < maxDepth.
Proof.
  intros n bd td isd Hn H. pose proof maxDepth_pos as HM. unfold delta_size_limit in H.
  destruct (Z.lt_ge_cases bd maxDepth) as [Hlt|Hge]; [exact Hlt|exfalso].
  destruct isd; cbn [negb] in H.
  - destruct (td >=? maxDepth) eqn:E; [lia|].
    assert (Hq : Z.quot (n * (maxDepth - bd)) (maxDepth - td) <= 0) by (apply quot_nonpos; nia). lia.
  - assert (Hs : 0 <= Z.shiftr n 1) by (apply Z.shiftr_nonneg; exact Hn).
    assert (Hq : Z.quot (Z.shiftr n 1 * (maxDepth - bd)) maxDepth <= 0) by (apply quot_nonpos; nia). lia.
Qed.

Section Walk.
Variable objs : list sobj.
Variable dsz : nat -> nat -> Z.
Hypothesis dsz_nonneg : forall b t, 0 <= dsz b t.

Lemma try_deltify_cases : forall st t b, 0 <= sz st t ->
  try_deltify objs dsz st t b = st \/
  (try_deltify objs dsz st t b = set_delta st t b (dsz b t) /\ sd st b < maxDepth).
Proof.
  intros st t b Hsz. unfold try_deltify.
  destruct (_ <? Z.shiftr _ 4); [now left|].
  set (msz := delta_size_limit _ _ _ _).
  destruct (msz <=? 8) eqn:E; [now left|]. destruct (msz <? _); [now left|]. destruct (dsz b t <? msz); [|now left].
  right. split; [reflexivity|]. apply Z.leb_gt in E. exact (limit_depth _ _ _ _ Hsz E).
Qed.

(* the inner loop over the candidates of target t *)
Definition inner (t : nat) (cs : list nat) (st : sstate) : sstate :=
  fold_left (fun s b => if so_typ (obj_at objs b) =? so_typ (obj_at objs t) then try_deltify objs dsz s t b else s) cs st.

Lemma inner_ind (P : sstate -> Prop) t cs :
  (forall s b, In b cs -> so_typ (obj_at objs b) = so_typ (obj_at objs t) -> P s -> P (try_deltify objs dsz s t b)) ->
  forall st, P st -> P (inner t cs st).
Proof.
  unfold inner. induction cs as [|b r IH]; intros Hstep st H; [exact H|]. cbn [fold_left].
  apply IH; [intros s b' Hb'; apply Hstep; now right|].
  destruct (Z.eqb_spec (so_typ (obj_at objs b)) (so_typ (obj_at objs t))) as [E|_]; [|exact H].
  apply Hstep; [now left | exact E | exact H].
Qed.

Lemma In_firstn : forall (A : Type) n (l : list A) x, In x (firstn n l) -> In x l.
Proof. intros A n l x H. rewrite <- (firstn_skipn n l). apply in_or_app. now left. Qed.

(* [reused u]: u is a stored delta that fixAndBreakChains gave its base, which the walk leaves alone.
   Of the others only those visited so far ([proc]) have or are bases; their Depth is the length of the
   chain and stays within maxDepth *)
Variable reused : nat -> bool.

Definition INV (proc : list nat) (st : sstate) : Prop := forall u,
  0 <= sz st u /\ 0 <= sd st u /\
  if reused u then
    match sb st u with
    | None => False
    | Some b => exists bk asz, so_stored (obj_at objs u) = Some (bk, asz) /\
                               (b < List.length objs)%nat /\ so_key (obj_at objs b) = bk
    end
  else
    sd st u <= maxDepth /\
    match sb st u with
    | None => sd st u = 0
    | Some b => In u proc /\ In b proc /\ sd st u = sd st b + 1 /\
                so_typ (obj_at objs b) = so_typ (obj_at objs u) /\ deltable (so_typ (obj_at objs u)) = true
    end.

Lemma INV_incl : forall proc proc' st, incl proc proc' -> INV proc st -> INV proc' st.
Proof.
  intros proc proc' st Hi H u. destruct (H u) as (Z & D & M). split; [exact Z|]. split; [exact D|].
  destruct (reused u); [exact M|]. destruct M as (Dm & M). split; [exact Dm|].
  destruct (sb st u); [|exact M]. destruct M as (A & B & C). auto.
Qed.

Lemma walk_step_inv : forall window t before st proc,
  ~ In t proc -> incl before proc -> INV proc st ->
  INV (proc ++ [t])
      match sb st t with
      | Some _ => st
      | None => if negb (deltable (so_typ (obj_at objs t))) then st else inner t (firstn (window - 1) before) st
      end.
Proof.
  intros window t before st proc Ht Hinc HI.
  pose proof (INV_incl _ _ st (incl_appl [t] (incl_refl proc)) HI) as HI'.
  destruct (sb st t) eqn:Et; [exact HI'|]. destruct (negb (deltable _)) eqn:Edel; [exact HI'|].
  apply negb_false_iff in Edel.
  assert (Hrt : reused t = false).
  { destruct (HI t) as (_ & _ & M). rewrite Et in M. destruct (reused t); [destruct M | reflexivity]. }
  (* along the inner loop only t changes, so the bases of the other objects stay in proc *)
  apply (inner_ind (fun s => (forall u, u <> t -> sb s u = sb st u) /\ INV (proc ++ [t]) s)); [|split; [reflexivity | exact HI']].
  intros s b Hb Hty [S I]. destruct (try_deltify_cases s t b (proj1 (I t))) as [->|[-> Hm]]; [auto|].
  split; [intros x Hx; unfold set_delta; cbn [sb]; rewrite upd_other by exact Hx; exact (S x Hx)|].
  assert (Hbp : In b proc) by (apply Hinc; eapply In_firstn; exact Hb).
  assert (Hp : forall x, In x proc -> x <> t) by (intros x Hx ->; contradiction).
  intros u. unfold set_delta. cbn [sb sd sz]. destruct (Nat.eq_dec u t) as [->|Hne].
  - rewrite !upd_same, Hrt, (upd_other _ _ _ _ (Hp b Hbp)). destruct (I b) as (_ & Db & _).
    split; [apply dsz_nonneg|]. split; [lia|]. split; [lia|]. repeat split; auto using in_or_app, in_eq.
  - rewrite !upd_other by exact Hne. destruct (I u) as (Zu & Du & M). destruct (HI u) as (_ & _ & Mu).
    split; [exact Zu|]. split; [exact Du|]. destruct (reused u); [exact M|].
    destruct M as (Dm & M). split; [exact Dm|]. rewrite <- (S u Hne) in Mu.
    destruct (sb s u) as [b'|]; [|exact M]. destruct Mu as (_ & _ & B & _).
    rewrite (upd_other _ _ _ _ (Hp b' B)). exact M.
Qed.

(* [more]: what the later groups will visit *)
Lemma walk_go_inv : forall window more rest before st proc,
  NoDup (proc ++ rest ++ more) -> incl before proc -> INV proc st ->
  INV (proc ++ rest) (walk_go objs dsz window before rest st).
Proof.
  intros window more. induction rest as [|t r IH]; intros before st proc Hnd Hinc HI.
  - cbn. now rewrite app_nil_r.
  - cbn [walk_go].
    assert (Ht : ~ In t proc).
    { intros Hin. apply NoDup_remove_2 in Hnd. apply Hnd. apply in_or_app. now left. }
    replace (proc ++ t :: r) with ((proc ++ [t]) ++ r) by (now rewrite <- app_assoc).
    apply IH; [now rewrite <- app_assoc | | apply walk_step_inv; assumption].
    intros x [<-|Hx]; apply in_or_app; [right; now left | left; now apply Hinc].
Qed.

Lemma groups_inv : forall window gs st proc,
  NoDup (proc ++ List.concat gs) -> INV proc st ->
  INV (proc ++ List.concat gs) (fold_left (fun s g => walk_go objs dsz window [] g s) gs st).
Proof.
  intros window. induction gs as [|g r IH]; intros st proc Hnd HI; cbn [fold_left List.concat] in *.
  - now rewrite app_nil_r.
  - rewrite app_assoc. apply IH; [now rewrite <- app_assoc|].
    apply (walk_go_inv window (List.concat r)); [exact Hnd | intros x [] | exact HI].
Qed.
End Walk.

(* with window 1 the candidate list firstn (1 - 1) is empty *)
Lemma walk_go_window1 : forall objs dsz rest before st, walk_go objs dsz 1 before rest st = st.
Proof.
  intros objs dsz. induction rest as [|t r IH]; intros before st; [reflexivity|]. cbn [walk_go]. rewrite IH.
  destruct (sb st t); [reflexivity|]. destruct (negb _); reflexivity.
Qed.

Lemma select_window1 : forall objs order dsz st ord, select 1 objs order dsz = inl (st, ord) ->
  fix_all objs (seq 0 (List.length objs)) (init_state objs) = Some st.
Proof.
  intros objs order dsz st ord. unfold select.
  destruct (fix_all _ _ _) as [st0|]; [|discriminate]. destruct (negb _); [discriminate|]. intros [= <- _].
  induction (groups objs order []) as [|g gs IH] in st0 |- *; cbn [fold_left]; [reflexivity|].
  rewrite walk_go_window1. apply IH.
Qed.

Lemma groups_concat : forall objs l cur, List.concat (groups objs l cur) = rev cur ++ l.
Proof.
  intros objs. induction l as [|u r IH]; intros cur.
  - destruct cur; cbn [groups List.concat]; [reflexivity | now rewrite !app_nil_r].
  - cbn [groups]. destruct cur as [|p c].
    + rewrite IH. reflexivity.
    + destruct (so_typ (obj_at objs p) =? so_typ (obj_at objs u)).
      * rewrite IH. cbn [rev]. now rewrite <- app_assoc.
      * cbn [List.concat]. rewrite IH. reflexivity.
Qed.

Lemma is_perm_spec : forall n l, is_perm n l = true -> Permutation (seq 0 n) l.
Proof.
  intros n l H. apply andb_true_iff in H as [Hl Hall]. apply Nat.eqb_eq in Hl. rewrite forallb_forall in Hall.
  apply NoDup_Permutation_bis; [apply seq_NoDup | rewrite seq_length; lia |].
  intros u Hu. apply Hall, existsb_exists in Hu as (x & Hx & E). apply Nat.eqb_eq in E. now subst.
Qed.

Lemma forallb_obj_at : forall (p : sobj -> bool) objs, p (mkSObj 0 0 0 None) = true ->
  forallb p objs = true -> forall u, p (obj_at objs u) = true.
Proof.
  intros p objs Hd H u. unfold obj_at. rewrite forallb_forall in H.
  destruct (Nat.lt_ge_cases u (List.length objs)) as [Hlt|Hge]; [apply H; now apply nth_In | now rewrite nth_overflow].
Qed.

Definition no_reuse (objs : list sobj) : Prop := forall u, so_stored (obj_at objs u) = None.

Lemma fix_all_noreuse : forall objs us, no_reuse objs -> fix_all objs us (init_state objs) = Some (init_state objs).
Proof.
  intros objs us H. induction us as [|u r IH]; [reflexivity|]. cbn [fix_all fix_one].
  assert (E : sf (init_state objs) u = false) by (cbn; now rewrite H). rewrite E. cbn [negb]. exact IH.
Qed.

Lemma find_last_spec : forall objs k i found b, find_last objs k i found = Some b ->
  found = Some b \/ ((i <= b < i + List.length objs)%nat /\ so_key (obj_at objs (b - i)) = k).
Proof.
  induction objs as [|o r IH]; intros k i found b H; [now left|]. cbn [find_last] in H.
  destruct (IH k (S i) _ b H) as [E|[R K]].
  - destruct (so_key o =? k)%N eqn:Ek; [|now left]. injection E as <-. right. rewrite Nat.sub_diag. cbn.
    split; [lia | now apply N.eqb_eq].
  - right. split; [simpl; lia|]. replace (b - i)%nat with (S (b - S i)) by lia. exact K.
Qed.

(* every Base assigned so far is the object carrying the id the stored delta names as its base *)
Definition reuse_ok (objs : list sobj) (st : sstate) : Prop := forall u,
  0 <= sz st u /\ 0 <= sd st u /\
  match sb st u with
  | None => sd st u = 0
  | Some b => exists bk asz,
      so_stored (obj_at objs u) = Some (bk, asz) /\ (b < List.length objs)%nat /\ so_key (obj_at objs b) = bk
  end.

Lemma fix_one_ok : forall objs fuel st u st', reuse_ok objs st -> fix_one fuel objs st u = Some st' -> reuse_ok objs st'.
Proof.
  intros objs. induction fuel as [|f IH]; intros st u st' Hok H; [discriminate|]. cbn [fix_one] in H.
  destruct (negb (sf st u)); [injection H as <-; exact Hok|].
  destruct (so_stored (obj_at objs u)) as [[bk asz]|] eqn:Es; [|injection H as <-; exact Hok].
  destruct (find_last objs bk 0 None) as [b|] eqn:Ef.
  - destruct (fix_one f objs st b) as [s1|] eqn:E1; [|discriminate]. injection H as <-.
    specialize (IH _ _ _ Hok E1). intros x. unfold set_delta. cbn [sb sd sz].
    destruct (Nat.eq_dec x u) as [->|Hne]; [rewrite !upd_same | rewrite !upd_other by exact Hne; apply IH].
    destruct (IH u) as (Z & _). destruct (IH b) as (_ & D & _).
    destruct (find_last_spec _ _ _ _ _ Ef) as [?|[R K]]; [discriminate|]. rewrite Nat.sub_0_r in K.
    split; [exact Z|]. split; [lia|]. exists bk, asz. split; [exact Es|]. split; [lia | exact K].
  - injection H as <-. intros x. unfold undeltify. cbn [sb sd sz]. destruct (Hok x) as (Z & D & M).
    destruct (Nat.eq_dec x u) as [->|Hne]; [rewrite upd_same | rewrite upd_other by exact Hne; auto].
    split; [exact Z|]. split; [lia|]. destruct (sb st u); [exact M | reflexivity].
Qed.

Lemma fix_all_ok : forall objs us st st', reuse_ok objs st -> fix_all objs us st = Some st' -> reuse_ok objs st'.
Proof.
  intros objs. induction us as [|u r IH]; intros st st' Hok H; [injection H as <-; exact Hok|]. cbn [fix_all] in H.
  destruct (fix_one (S (List.length objs)) objs st u) as [s1|] eqn:E; [|discriminate].
  apply (IH s1); [eapply fix_one_ok; eassumption | exact H].
Qed.

Lemma select_inv : forall window objs order dsz st ord,
  (forall b t, 0 <= dsz b t) -> (forall u, 0 <= so_size (obj_at objs u)) ->
  select window objs order dsz = inl (st, ord) ->
  exists reused, INV objs reused ord st /\ (forall u, (u < List.length objs)%nat -> In u ord) /\
                 (no_reuse objs -> forall u, reused u = false).
Proof.
  intros window objs order dsz st ord Hd Hs H. pose proof maxDepth_pos as HM. unfold select in H. destruct window as [|w].
  - injection H as <- <-. exists (fun _ => false). split; [|split; [intros u Hu; apply in_seq; lia | reflexivity]].
    intros u. cbn. split; [apply Hs|]. split; [|split]; [lia.. | reflexivity].
  - destruct (fix_all objs (seq 0 (List.length objs)) (init_state objs)) as [st0|] eqn:Ef; [|discriminate].
    destruct (is_perm (List.length objs) order && sorted_by objs st0 order) eqn:E; [|discriminate].
    cbn [negb] in H. injection H as <- <-.
    apply andb_true_iff in E. destruct E as [Ep _]. apply is_perm_spec in Ep.
    assert (H0 : reuse_ok objs (init_state objs)).
    { intros u. cbn. split; [apply Hs|]. split; [lia | reflexivity]. }
    pose proof (fix_all_ok _ _ _ _ H0 Ef) as R0.
    (* the objects fixAndBreakChains gave a base are the reused ones: reuse_ok is INV [] for them, and the walk keeps INV *)
    set (reused := fun u => match sb st0 u with Some _ => true | None => false end).
    exists reused. split; [|split; [intros u Hu; apply (Permutation_in _ Ep), in_seq; lia|]].
    + pose proof (groups_inv objs dsz Hd reused (S w) (groups objs order []) st0 []) as G.
      rewrite groups_concat in G. apply G; [exact (Permutation_NoDup Ep (seq_NoDup _ _))|].
      intros u. destruct (R0 u) as (Z & D & M). split; [exact Z|]. split; [exact D|]. unfold reused.
      destruct (sb st0 u) as [b|]; [exact M|]. split; [lia | exact M].
    + intros Hn u. unfold reused. rewrite (fix_all_noreuse objs _ Hn) in Ef. injection Ef as <-. reflexivity.
Qed.

Theorem select_noreuse_inv : forall window objs order dsz st ord,
  (forall b t, 0 <= dsz b t) -> (forall u, 0 <= so_size (obj_at objs u)) -> no_reuse objs ->
  select window objs order dsz = inl (st, ord) -> INV objs (fun _ => false) ord st.
Proof.
  intros window objs order dsz st ord Hd Hs Hn H. destruct (select_inv _ _ _ _ _ _ Hd Hs H) as (reused & HI & _ & Hr).
  intros u. specialize (HI u). rewrite (Hr Hn u) in HI. exact HI.
Qed.

(* the true length of the chain hanging off an object (any number of steps followed) *)
Fixpoint chain_len (sbf : nat -> option nat) (fuel : nat) (u : nat) : nat :=
  match fuel with
  | O => O
  | S f => match sbf u with None => O | Some b => S (chain_len sbf f b) end
  end.

Lemma chain_len_le_rank : forall (g : nat -> option nat) (r : nat -> Z),
  (forall k, 0 <= r k) -> (forall k b, g k = Some b -> r b < r k) ->
  forall fuel k, Z.of_nat (chain_len g fuel k) <= r k.
Proof.
  intros g r H0 Hg. induction fuel as [|f IH]; intros k; cbn [chain_len]; [apply H0|].
  destruct (g k) as [b|] eqn:E; [|apply H0]. specialize (IH b). specialize (Hg k b E). lia.
Qed.

Lemma chain_len_le_depth : forall objs ord st, INV objs (fun _ => false) ord st ->
  forall fuel u, Z.of_nat (chain_len (sb st) fuel u) <= sd st u.
Proof.
  intros objs ord st HI. apply chain_len_le_rank; [apply HI|].
  intros k b E. destruct (HI k) as (_ & _ & _ & M). rewrite E in M. lia.
Qed.

Lemma chain_len_eq_depth : forall objs ord st, INV objs (fun _ => false) ord st ->
  forall fuel u, (Z.to_nat (sd st u) <= fuel)%nat -> Z.of_nat (chain_len (sb st) fuel u) = sd st u.
Proof.
  intros objs ord st HI. induction fuel as [|f IH]; intros u Hf; destruct (HI u) as (_ & D & _ & M); cbn [chain_len]; [lia|].
  destruct (sb st u) as [b|]; [|lia]. destruct M as (_ & _ & E & _). destruct (HI b) as (_ & Db & _).
  rewrite Nat2Z.inj_succ, (IH b); lia.
Qed.

Lemma pos_of_spec : forall u l i p, pos_of u l i = Some p -> (i <= p)%nat /\ nth_error l (p - i) = Some u.
Proof.
  intros u. induction l as [|x r IH]; intros i p H; [discriminate|]. cbn [pos_of] in H.
  destruct (Nat.eqb_spec x u) as [->|_].
  - injection H as <-. rewrite Nat.sub_diag. split; [lia | reflexivity].
  - destruct (IH (S i) p H) as [A B]. split; [lia|]. replace (p - i)%nat with (S (p - S i)) by lia. exact B.
Qed.

Lemma pos_of_in : forall u l i, In u l -> exists p, pos_of u l i = Some p.
Proof.
  intros u. induction l as [|x r IH]; intros i H; [contradiction|]. cbn [pos_of].
  destruct (Nat.eqb x u) eqn:E; [eexists; reflexivity|]. destruct H as [->|H]; [rewrite Nat.eqb_refl in E; discriminate|].
  now apply IH.
Qed.

Lemma sel_base_fun : forall objs st ord k b, base_fun (sel_nodes objs st ord) k = Some b ->
  (b < List.length ord)%nat /\ sb st (nth k ord 0%nat) = Some (nth b ord 0%nat).
Proof.
  intros objs st ord k b H. unfold base_fun, sel_nodes in H. rewrite nth_error_map in H.
  destruct (nth_error ord k) as [u|] eqn:E; [|discriminate]. cbn [option_map] in H.
  rewrite (nth_error_nth ord k 0%nat E).
  destruct (sb st u) as [bu|]; [|discriminate]. destruct (pos_of bu ord 0) as [p|] eqn:Ep; [|discriminate].
  injection H as <-. rewrite Nat2N.id. destruct (pos_of_spec _ _ _ _ Ep) as [_ C]. rewrite Nat.sub_0_r in C.
  rewrite (nth_error_nth ord p 0%nat C). split; [apply nth_error_Some; congruence | reflexivity].
Qed.

(* no reuse: the encoder's graph is acyclic (Depth is a rank) and its chains are at most maxDepth long *)
Theorem select_noreuse_graph : forall objs st ord, INV objs (fun _ => false) ord st ->
  let base0 := base_fun (sel_nodes objs st ord) in
  let rank := fun k => Z.to_nat (sd st (nth k ord 0%nat)) in
  (forall k b, base0 k = Some b -> (rank b < rank k)%nat) /\
  (forall fuel k, Z.of_nat (chain_len base0 fuel k) <= maxDepth).
Proof.
  intros objs st ord HI base0 rank.
  assert (Hedge : forall k b, base0 k = Some b ->
            0 <= sd st (nth b ord 0%nat) /\ sd st (nth k ord 0%nat) = sd st (nth b ord 0%nat) + 1).
  { intros k b E. destruct (sel_base_fun _ _ _ _ _ E) as [_ Hsb].
    destruct (HI (nth k ord 0%nat)) as (_ & _ & _ & M). rewrite Hsb in M. destruct (HI (nth b ord 0%nat)) as (_ & D & _).
    split; [exact D | apply M]. }
  split.
  - intros k b E. specialize (Hedge k b E). unfold rank. lia.
  - intros fuel k. destruct (HI (nth k ord 0%nat)) as (_ & _ & D & _). etransitivity; [|exact D].
    apply (chain_len_le_rank base0 (fun k => sd st (nth k ord 0%nat))); [intros j; apply HI|].
    intros j b E. specialize (Hedge j b E). lia.
Qed.
