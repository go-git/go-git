(* Proofs/C35V2Ls.v — protocol v2: the ls-refs output round-trips: references in
   order, a symbolic reference as (name, target), a peeled "^{}" entry folded
   into the peeled: attribute of its base line and unfolded again. *)
From Coq Require Import List Arith NArith ZArith Bool Lia String.
From GoGit Require Import Base.Out Base.GoInt Gen.C34 Model.PktLine Model.C35Utf8 Model.Packp Model.PackpV2
  Proofs.C34Pkt Proofs.C35Base Proofs.C35Utf8 Proofs.C35U Proofs.C35Msgs Proofs.C35Caps Proofs.C35Adv
  Proofs.C35V2Base Proofs.C35V2Caps Proofs.C35V2Fetch.
Import ListNotations.

Definition lsref_ok (x : lsref) : bool :=
  word_ok (fst x) && match snd x with RHash h => hash_ok h | RSym t => word_ok t end.

Definition lsout_canon_of (refs : list lsref) (x : lsref) : list lsref :=
  let (name, v) := x in
  if is_peeled name then []
  else match v with
  | RSym t => [(name, RSym t)]
  | RHash h => (name, RHash h) ::
               match hash_by_name refs (name ++ peeled_suffix) None with
               | Some ph => [(name ++ peeled_suffix, RHash ph)]
               | None => []
               end
  end.
Definition lsout_canon (refs : list lsref) : list lsref := flat_map (lsout_canon_of refs) refs.

Lemma hash_line_noerr h x : hash_ok h = true -> has_prefix errPrefix (hash_str h ++ x) = false.
Proof. now apply (hash_str_no_prefix 69 (skipn 1 errPrefix)). Qed.

Lemma hash_not_unborn h : hash_ok h = true -> beq (hash_str h) UNBORN = false.
Proof. intros H. rewrite <- (app_nil_r (hash_str h)). now apply (hash_str_not_kw 117 (skipn 1 UNBORN)). Qed.

Lemma word_tok_u w : word_ok w = true -> C35Utf8.tok_u w = true.
Proof.
  intros H. destruct (word_asciins w H) as [Hne Ha]. unfold C35Utf8.tok_u. rewrite Ha.
  destruct w; [contradiction|reflexivity].
Qed.

Lemma hash_tok_u h : hash_ok h = true -> C35Utf8.tok_u (hash_str h) = true.
Proof.
  intros H. unfold C35Utf8.tok_u. rewrite (hash_str_asciins h H).
  pose proof (hash_str_ne h H). destruct (hash_str h); [contradiction|reflexivity].
Qed.

Lemma app_tok_u (p : string) w : forallb C35Utf8.asciins (B p) = true -> B p <> [] -> forallb C35Utf8.asciins w = true ->
  C35Utf8.tok_u (B p ++ w) = true.
Proof.
  intros Hp Hne Hw. unfold C35Utf8.tok_u. rewrite forallb_app, Hp, Hw.
  destruct (B p ++ w) eqn:E; [destruct (B p); [contradiction|discriminate]|reflexivity].
Qed.

Lemma hash_by_name_ok : forall refs name found h, forallb lsref_ok refs = true ->
  (forall h0, found = Some h0 -> hash_ok h0 = true) ->
  hash_by_name refs name found = Some h -> hash_ok h = true.
Proof.
  induction refs as [|[n v] refs IH]; intros name found h Hr Hf E; [cbn in E; now apply Hf|].
  cbn [forallb] in Hr. apply andb_prop in Hr. destruct Hr as [H1 H2].
  cbn [hash_by_name] in E. destruct v as [h1|t].
  - destruct (beq n name).
    + apply (IH name (Some h1) h H2); [|exact E]. intros h0 [= <-]. unfold lsref_ok in H1. cbn [fst snd] in H1. now apply andb_prop in H1.
    + now apply (IH name found h H2).
  - now apply (IH name found h H2).
Qed.

Lemma hash_app_ne h x : hash_ok h = true -> hash_str h ++ x <> [].
Proof. intros H. pose proof (hash_str_ne h H). destruct (hash_str h); [contradiction|discriminate]. Qed.

Lemma lsout_step L rest acc rs : L <> [] -> parse_lsrefs_line L = Some rs ->
  lsout_decode (rdp (PData (L ++ [NL])) :: rest) acc = lsout_decode rest (acc ++ rs).
Proof.
  intros Hne Hp. rewrite rdp_line. cbn [lsout_decode rd_err rd_len rd_payload].
  rewrite len_data_nz by lia. rewrite trim_eol_app. destruct L as [|c t]; [contradiction|]. now rewrite Hp.
Qed.

Lemma parse_sym_line oid name t : C35Utf8.tok_u oid = true -> word_ok name = true -> word_ok t = true ->
  (beq oid UNBORN = true \/ exists h, parse_full_hash oid = Some h /\ beq oid UNBORN = false) ->
  parse_lsrefs_line (oid ++ [SP] ++ name ++ [SP] ++ B "symref-target:" ++ t) = Some [(name, RSym t)].
Proof.
  intros Ho Hn Ht Hoid. unfold parse_lsrefs_line.
  change (oid ++ [SP] ++ name ++ [SP] ++ B "symref-target:" ++ t) with (C35Utf8.join_sp [oid; name; B "symref-target:" ++ t]).
  destruct (word_asciins t Ht) as [Htn Hta].
  rewrite C35Utf8.fields_join; [|discriminate|].
  2:{ cbn [forallb]. rewrite Ho, (word_tok_u name Hn), (app_tok_u "symref-target:" t eq_refl ltac:(discriminate) Hta). reflexivity. }
  cbn [lsout_attrs]. rewrite has_prefix_app, (skipn_app_exact (B "symref-target:") t 14 eq_refl). cbn [lsout_attrs].
  destruct t as [|c t']; [contradiction|].
  destruct Hoid as [-> | (h & -> & ->)]; reflexivity.
Qed.

Lemma parse_hash_line h name : hash_ok h = true -> word_ok name = true ->
  parse_lsrefs_line (hash_str h ++ [SP] ++ name) = Some [(name, RHash h)].
Proof.
  intros Hh Hn. unfold parse_lsrefs_line.
  change (hash_str h ++ [SP] ++ name) with (C35Utf8.join_sp [hash_str h; name]).
  rewrite C35Utf8.fields_join; [|discriminate|].
  2:{ cbn [forallb]. rewrite (hash_tok_u h Hh), (word_tok_u name Hn). reflexivity. }
  cbn [lsout_attrs]. now rewrite (hash_not_unborn h Hh), (pfh_str h Hh).
Qed.

Lemma parse_peeled_line h name ph : hash_ok h = true -> word_ok name = true -> hash_ok ph = true ->
  parse_lsrefs_line (hash_str h ++ [SP] ++ name ++ [SP] ++ B "peeled:" ++ hash_str ph)
  = Some [(name, RHash h); (name ++ peeled_suffix, RHash ph)].
Proof.
  intros Hh Hn Hp. unfold parse_lsrefs_line.
  change (hash_str h ++ [SP] ++ name ++ [SP] ++ B "peeled:" ++ hash_str ph) with (C35Utf8.join_sp [hash_str h; name; B "peeled:" ++ hash_str ph]).
  rewrite C35Utf8.fields_join; [|discriminate|].
  2:{ cbn [forallb]. rewrite (hash_tok_u h Hh), (word_tok_u name Hn), (app_tok_u "peeled:" _ eq_refl ltac:(discriminate) (hash_str_asciins ph Hp)). reflexivity. }
  cbn [lsout_attrs]. rewrite !(has_prefix_clash _ (B "peeled:")) by reflexivity. cbv iota.
  rewrite has_prefix_app, (skipn_app_exact (B "peeled:") (hash_str ph) 7 eq_refl), (pfh_str ph Hp). cbn [lsout_attrs].
  now rewrite (hash_not_unborn h Hh), (pfh_str h Hh).
Qed.

Lemma lsout_elem refs x : forallb lsref_ok refs = true -> lsref_ok x = true ->
  (lsout_line refs x = [] /\ lsout_canon_of refs x = []) \/
  exists L, lsout_line refs x = [PData (L ++ [NL])] /\ L <> [] /\ has_prefix errPrefix (L ++ [NL]) = false /\
            parse_lsrefs_line L = Some (lsout_canon_of refs x).
Proof.
  intros Hrefs Hx. destruct x as [name v]. unfold lsref_ok in Hx. cbn [fst snd] in Hx. apply andb_prop in Hx. destruct Hx as [Hn Hv].
  unfold lsout_line, lsout_canon_of. destruct (is_peeled name); [now left|right]. cbv zeta.
  destruct v as [h|t].
  - (* a hash reference, with or without a peeled entry *)
    destruct (hash_by_name refs (name ++ peeled_suffix) None) as [ph|] eqn:Ep.
    + assert (hash_ok ph = true) as Hp by (apply (hash_by_name_ok refs (name ++ peeled_suffix) None ph Hrefs); [discriminate|exact Ep]).
      exists (hash_str h ++ [SP] ++ name ++ [SP] ++ B "peeled:" ++ hash_str ph).
      repeat split; [now rewrite <- !app_assoc|now apply hash_app_ne|rewrite <- app_assoc; now apply hash_line_noerr|now apply parse_peeled_line].
    + exists (hash_str h ++ [SP] ++ name).
      repeat split; [now apply hash_app_ne|rewrite <- app_assoc; now apply hash_line_noerr|now apply parse_hash_line].
  - (* a symbolic reference: the oid of its target, or "unborn" *)
    set (oid := match hash_by_name refs t None with
                | Some h => if hash_is_zero h then UNBORN else hash_str h
                | None => UNBORN
                end).
    assert (C35Utf8.tok_u oid = true /\ (forall x, has_prefix errPrefix (oid ++ x) = false) /\ oid <> [] /\
            (beq oid UNBORN = true \/ exists h, parse_full_hash oid = Some h /\ beq oid UNBORN = false)) as (Ho & Hne & Hon & Hoid).
    { unfold oid. destruct (hash_by_name refs t None) as [h|] eqn:Eh.
      - assert (hash_ok h = true) as Hh by (apply (hash_by_name_ok refs t None h Hrefs); [discriminate|exact Eh]).
        destruct (hash_is_zero h).
        + repeat split; try reflexivity; [discriminate|now left].
        + repeat split; [now apply hash_tok_u|intros x; now apply hash_line_noerr|now apply hash_str_ne|].
          right. exists h. split; [now apply pfh_str|now apply hash_not_unborn].
      - repeat split; try reflexivity; [discriminate|now left]. }
    exists (oid ++ [SP] ++ name ++ [SP] ++ B "symref-target:" ++ t).
    repeat split; [now rewrite <- !app_assoc|destruct oid; [contradiction|discriminate]|rewrite <- app_assoc; apply Hne|now apply parse_sym_line].
Qed.

Lemma lsout_lines refs : forallb lsref_ok refs = true -> forall l rest acc, forallb lsref_ok l = true ->
  forallb no_errline (flat_map (lsout_line refs) l) = true /\
  lsout_decode (map rdp (flat_map (lsout_line refs) l) ++ rest) acc = lsout_decode rest (acc ++ flat_map (lsout_canon_of refs) l).
Proof.
  intros Hrefs. induction l as [|x l IH]; intros rest acc Hl; [split; [reflexivity|cbn; now rewrite app_nil_r]|].
  cbn [forallb] in Hl. apply andb_prop in Hl. destruct Hl as [Hx Hl]. cbn [flat_map].
  destruct (lsout_elem refs x Hrefs Hx) as [[-> ->]|(L & -> & Hne & Herr & Hp)]; [now apply IH|].
  destruct (IH rest (acc ++ lsout_canon_of refs x) Hl) as [In Id]. cbn [app map forallb no_errline]. split.
  - now rewrite Herr, In.
  - now rewrite (lsout_step L _ acc _ Hne Hp), Id, <- app_assoc.
Qed.

Theorem lsout_roundtrip refs tail : forallb lsref_ok refs = true ->
  forallb no_errline (lsout_encode refs) = true /\
  lsout_decode (map rdp (lsout_encode refs ++ [PFlush]) ++ tail) [] = inl (lsout_canon refs, tail).
Proof.
  intros H. unfold lsout_encode, lsout_canon. destruct (lsout_lines refs H refs (rdp PFlush :: tail) [] H) as [Hn Hd]. split; [exact Hn|].
  rewrite map_app, <- app_assoc. cbn [map app]. rewrite Hd. reflexivity.
Qed.
