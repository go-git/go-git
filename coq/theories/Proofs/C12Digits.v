(* Proofs/C12Digits.v — printf("%d") / ("%o") as git's cache-tree and resolve-undo writers use them
   (Spec/GitIndex.g_print_nat, g_print_int) are read back by strconv.Atoi / ParseInt as modelled in
   Model/IndexFile.parse_int, and contain none of the delimiters NUL, space, newline. *)
From Coq Require Import List NArith ZArith Arith Lia ZifyBool ZifyNat ZifyN Bool.
From GoGit Require Import Base.Out Model.IndexFile Spec.GitIndex.
Import ListNotations.
Local Open Scope N_scope.

Definition is_dig (base c : N) : bool := (48 <=? c) && (c <? 48 + base).

Lemma digits_val_step base c r acc : is_dig base c = true ->
  digits_val base (c :: r) acc = digits_val base r (acc * base + (c - 48)).
Proof. unfold is_dig. intros E. cbn [digits_val]. now rewrite E. Qed.

Lemma is_dig_mod b base n : 1 <= base <= b -> is_dig b (48 + n mod base) = true.
Proof. intros Hb. unfold is_dig. pose proof (N.mod_upper_bound n base). lia. Qed.

(* reading the printed digits back: the value accumulates *)
Lemma digits_of_val base : 2 <= base -> forall f n acc,
  n < base ^ N.of_nat f ->
  digits_val base (g_digits_of f base n acc) 0 = digits_val base acc n.
Proof.
  intros Hb. induction f as [|f IH]; intros n acc Hn.
  - cbn in Hn. assert (n = 0) by lia. subst. reflexivity.
  - cbn [g_digits_of].
    (* reading the last digit of n after the others *)
    assert (Hd : digits_val base ((48 + n mod base) :: acc) (n / base) = digits_val base acc n).
    { rewrite digits_val_step by (apply is_dig_mod; lia). f_equal.
      pose proof (N.div_mod n base). pose proof (N.mod_upper_bound n base). nia. }
    destruct (n / base =? 0) eqn:E.
    + apply N.eqb_eq in E. now rewrite <- Hd, E.
    + rewrite IH; [exact Hd|].
      rewrite Nat2N.inj_succ, N.pow_succ_r' in Hn. apply N.div_lt_upper_bound; lia.
Qed.

Lemma digits_of_all base : base <= 10 -> 1 <= base -> forall f n acc,
  forallb (is_dig 10) acc = true -> forallb (is_dig 10) (g_digits_of f base n acc) = true.
Proof.
  intros Hb Hb1. induction f as [|f IH]; intros n acc Ha; cbn [g_digits_of]; [exact Ha|].
  assert (Hd : forallb (is_dig 10) ((48 + n mod base) :: acc) = true).
  { cbn [forallb]. now rewrite Ha, is_dig_mod. }
  destruct (n / base =? 0); [exact Hd|]. now apply IH.
Qed.

Lemma digits_of_nonempty : forall f base n acc, exists c r, g_digits_of (S f) base n acc = c :: r.
Proof.
  induction f as [|f IH]; intros base n acc.
  - cbn [g_digits_of]. destruct (n / base =? 0); eexists; eexists; reflexivity.
  - change (g_digits_of (S (S f)) base n acc)
      with (let acc' := (48 + n mod base) :: acc in if n / base =? 0 then acc' else g_digits_of (S f) base (n / base) acc').
    cbv zeta. destruct (n / base =? 0); [eexists; eexists; reflexivity|apply IH].
Qed.

Lemma print_nat_digits base n : 1 <= base <= 10 -> forallb (is_dig 10) (g_print_nat base n) = true.
Proof. intros [H1 H2]. unfold g_print_nat. apply digits_of_all; [assumption|assumption|reflexivity]. Qed.

Lemma pow_64_ge base : 2 <= base -> 18446744073709551616 <= base ^ N.of_nat 64.
Proof.
  intros Hb. change 18446744073709551616 with (2 ^ N.of_nat 64). apply N.pow_le_mono_l. exact Hb.
Qed.

Lemma print_nat_value base n : 2 <= base -> n < 18446744073709551616 ->
  digits_val base (g_print_nat base n) 0 = Some n /\ g_print_nat base n <> [].
Proof.
  intros Hb Hn. unfold g_print_nat. split.
  - rewrite (digits_of_val base Hb 64 n []); [reflexivity|].
    apply N.lt_le_trans with 18446744073709551616; [lia|apply pow_64_ge; exact Hb].
  - destruct (digits_of_nonempty 63 base n []) as (c & r & E).
    change (S 63) with 64%nat in E. rewrite E. discriminate.
Qed.

(* a string that starts with a digit has no sign *)
Lemma parse_int_digit base c r : is_dig 10 c = true ->
  parse_int base (c :: r) =
  match digits_val base (c :: r) 0 with
  | None => None
  | Some v => if v <? 9223372036854775808 then Some (Z.of_N v) else None
  end.
Proof.
  unfold is_dig. intros Hc. apply andb_true_iff in Hc as [Hc1 Hc2]. apply N.leb_le in Hc1. apply N.ltb_lt in Hc2.
  assert (Hcases : c = 48 \/ c = 49 \/ c = 50 \/ c = 51 \/ c = 52 \/ c = 53 \/ c = 54 \/ c = 55 \/ c = 56 \/ c = 57) by lia.
  unfold parse_int. repeat (destruct Hcases as [-> | Hcases]; [reflexivity|]). subst c. reflexivity.
Qed.

Lemma parse_int_minus base r :
  parse_int base (45 :: r) =
  match r with
  | [] => None
  | _ => match digits_val base r 0 with
         | None => None
         | Some v => if v <=? 9223372036854775808 then Some (- Z.of_N v)%Z else None
         end
  end.
Proof. reflexivity. Qed.

(* strconv.ParseInt(s, base, 64) of a printed unsigned number below 2^63 *)
Lemma parse_print_nat base n : 2 <= base <= 10 -> n < 9223372036854775808 ->
  parse_int base (g_print_nat base n) = Some (Z.of_N n).
Proof.
  intros Hb Hn. destruct (print_nat_value base n (proj1 Hb)) as [Hv Hne]; [lia|].
  pose proof (print_nat_digits base n) as Hd.
  destruct (g_print_nat base n) as [|c r]; [congruence|].
  cbn [forallb] in Hd. apply andb_true_iff in Hd as [Hc _]; [|lia].
  rewrite parse_int_digit, Hv, (proj2 (N.ltb_lt _ _)) by assumption. reflexivity.
Qed.

(* strconv.Atoi of printf("%d") for an int *)
Lemma parse_print_int z : (- 9223372036854775808 < z < 9223372036854775808)%Z ->
  parse_int 10 (g_print_int z) = Some z.
Proof.
  intros Hz. unfold g_print_int. destruct (z <? 0)%Z eqn:E.
  - apply Z.ltb_lt in E.
    assert (Hb : 2 <= 10) by lia.
    assert (Hn : Z.to_N (- z) < 18446744073709551616) by lia.
    destruct (print_nat_value 10 (Z.to_N (- z)) Hb Hn) as [Hv Hne].
    rewrite parse_int_minus.
    destruct (g_print_nat 10 (Z.to_N (- z))) as [|c r]; [congruence|].
    rewrite Hv.
    replace (Z.to_N (- z) <=? 9223372036854775808) with true by (symmetry; apply N.leb_le; lia).
    f_equal. lia.
  - apply Z.ltb_ge in E. rewrite parse_print_nat by lia. f_equal. lia.
Qed.

(* none of the delimiters occurs in a printed number *)
Lemma print_nat_no base n d : 1 <= base <= 10 -> (d <? 48) = true ->
  forallb (fun c => negb (c =? d)) (g_print_nat base n) = true.
Proof.
  intros Hb Hd. pose proof (print_nat_digits base n Hb) as Hall.
  induction (g_print_nat base n) as [|c r IH]; [reflexivity|].
  cbn [forallb] in *. apply andb_true_iff in Hall as [Hc Hr]. rewrite IH by exact Hr. rewrite andb_true_r.
  unfold is_dig in Hc. apply andb_true_iff in Hc as [Hc1 _]. apply N.leb_le in Hc1. apply N.ltb_lt in Hd.
  apply negb_true_iff. apply N.eqb_neq. lia.
Qed.

Lemma print_int_no z d : (d <? 45) = true -> forallb (fun c => negb (c =? d)) (g_print_int z) = true.
Proof.
  intros Hd. assert (Hd' : (d <? 48) = true) by (apply N.ltb_lt; apply N.ltb_lt in Hd; lia).
  unfold g_print_int. destruct (z <? 0)%Z.
  - cbn [forallb]. rewrite print_nat_no by (try lia; exact Hd'). rewrite andb_true_r.
    apply negb_true_iff. apply N.eqb_neq. apply N.ltb_lt in Hd. lia.
  - apply print_nat_no; [lia|exact Hd'].
Qed.
