(* Proofs/C52Lists.v — list/byte lemmas for C52: cut, cut_last, hex, decimal. *)
From Coq Require Import List NArith ZArith Bool Lia ZifyBool ZifyNat ZifyN.
From GoGit Require Import Base.Out Model.Reflog.
Import ListNotations.
Local Open Scope N_scope.

Definition lacks (c : N) (s : bytes) : bool := forallb (fun x => negb (x =? c)) s.

Lemma lacks_app c a b : lacks c (a ++ b) = lacks c a && lacks c b.
Proof. apply forallb_app. Qed.

Lemma lacks_cons c x s : lacks c (x :: s) = negb (x =? c) && lacks c s.
Proof. reflexivity. Qed.

Lemma forallb_impl {A} (p q : A -> bool) l :
  (forall x, p x = true -> q x = true) -> forallb p l = true -> forallb q l = true.
Proof.
  intros H; induction l as [|x l IH]; cbn; [easy|].
  rewrite !andb_true_iff; intros [? ?]; auto.
Qed.

(* a byte outside a class does not occur in a string of the class *)
Lemma forallb_lacks (p : N -> bool) c s : p c = false -> forallb p s = true -> lacks c s = true.
Proof.
  intros Hc. apply forallb_impl. intros x Hx.
  destruct (x =? c) eqn:E; [|easy]. apply N.eqb_eq in E. subst. congruence.
Qed.

Lemma cut_app c a b : lacks c a = true -> cut c (a ++ c :: b) = Some (a, b).
Proof.
  induction a as [|x a IH]; cbn [app cut]; intros H.
  - now rewrite N.eqb_refl.
  - rewrite lacks_cons in H. apply andb_true_iff in H as [Hx Ha].
    destruct (x =? c); [discriminate|]. now rewrite IH.
Qed.

Lemma cut_none c s : lacks c s = true -> cut c s = None.
Proof.
  induction s as [|x s IH]; cbn [cut]; intros H; [easy|].
  rewrite lacks_cons in H. apply andb_true_iff in H as [Hx Hs].
  destruct (x =? c); [discriminate|]. now rewrite IH.
Qed.

Lemma cut_last_none c s : lacks c s = true -> cut_last c s = None.
Proof.
  induction s as [|x s IH]; cbn [cut_last]; intros H; [easy|].
  rewrite lacks_cons in H. apply andb_true_iff in H as [Hx Hs].
  rewrite IH by easy. now destruct (x =? c).
Qed.

Lemma cut_last_app c a b : lacks c b = true -> cut_last c (a ++ c :: b) = Some (a, b).
Proof.
  intros Hb. induction a as [|x a IH]; cbn [app cut_last].
  - rewrite cut_last_none by easy. now rewrite N.eqb_refl.
  - now rewrite IH.
Qed.

Definition bytes_ok (b : bytes) : bool := forallb (fun c => c <? 256) b.
Definition is_lowhex (c : N) : bool := ((48 <=? c) && (c <=? 57)) || ((97 <=? c) && (c <=? 102)).

(* '0'+n below ten, 'a'+(n-10) from ten on *)
Lemma hexdig_val n : n < 16 -> hexval_opt (hexdig n) = Some n /\ is_lowhex (hexdig n) = true.
Proof.
  intros H. unfold hexdig. destruct (N.ltb_spec n 10); unfold hexval_opt, is_lowhex.
  - replace ((48 <=? 48 + n) && (48 + n <=? 57)) with true by lia. split; [f_equal; lia|reflexivity].
  - replace ((48 <=? 87 + n) && (87 + n <=? 57)) with false by lia.
    replace ((97 <=? 87 + n) && (87 + n <=? 102)) with true by lia. split; [f_equal; lia|reflexivity].
Qed.

Lemma hex_enc_spec b : bytes_ok b = true ->
  hex_dec (hex_enc b) = Some b /\ forallb is_lowhex (hex_enc b) = true.
Proof.
  induction b as [|c b IH]; cbn [hex_enc hex_dec bytes_ok forallb]; [easy|].
  intros [Hc%N.ltb_lt Hb]%andb_true_iff. destruct (IH Hb) as [-> ->].
  destruct (hexdig_val (c / 16)) as [-> ->]; [apply N.div_lt_upper_bound; lia|].
  destruct (hexdig_val (c mod 16)) as [-> ->]; [apply N.mod_lt; lia|].
  split; [|reflexivity]. do 2 f_equal. pose proof (N.div_mod c 16). lia.
Qed.

Lemma hex_enc_length b : List.length (hex_enc b) = (2 * List.length b)%nat.
Proof. induction b; cbn [hex_enc List.length]; lia. Qed.

Definition all_digits (s : bytes) : bool := forallb is_digit s.

Lemma digits_val_app a b acc :
  digits_val (a ++ b) acc = match digits_val a acc with Some v => digits_val b v | None => None end.
Proof.
  revert acc; induction a as [|c a IH]; intros acc; cbn [app digits_val]; [easy|].
  destruct (is_digit c); [apply IH|easy].
Qed.

Lemma size_bound n : n < 10 ^ N.of_nat (S (N.to_nat (N.size n))).
Proof.
  destruct (N.eq_dec n 0) as [->|Hn]; [cbn; lia|].
  assert (n < 2 ^ N.size n) by (apply N.size_gt).
  assert (2 ^ N.size n <= 10 ^ N.size n) by (apply N.pow_le_mono_l; lia).
  rewrite Nat2N.inj_succ, N2Nat.id, N.pow_succ_r'.
  assert (0 < 10 ^ N.size n) by (apply N.neq_0_lt_0, N.pow_nonzero; lia). lia.
Qed.

(* dec_N by its recursion: the fuel only makes it terminate *)
Lemma dec_digits_rev_fuel : forall f g n, n <> 0 -> n < 10 ^ N.of_nat f -> n < 10 ^ N.of_nat g ->
  dec_digits_rev f n = dec_digits_rev g n.
Proof.
  induction f as [|f IH]; intros [|g] n N0 Hf Hg; try (cbn in Hf, Hg; lia).
  cbn [dec_digits_rev]. f_equal. destruct (n / 10 =? 0) eqn:E; [reflexivity|]. apply N.eqb_neq in E.
  rewrite Nat2N.inj_succ, N.pow_succ_r' in Hf, Hg.
  apply IH; [exact E|apply N.div_lt_upper_bound; lia..].
Qed.

Lemma dec_N_small n : n < 10 -> dec_N n = [48 + n].
Proof. intros H. unfold dec_N. cbn [dec_digits_rev]. rewrite N.div_small, N.mod_small by lia. reflexivity. Qed.

Lemma dec_N_step n : 10 <= n -> dec_N n = dec_N (n / 10) ++ [48 + n mod 10].
Proof.
  intros H. assert (E : n / 10 <> 0) by (rewrite N.div_small_iff; lia).
  unfold dec_N.
  change (dec_digits_rev (S (N.to_nat (N.size n))) n)
    with ((48 + n mod 10) :: (if n / 10 =? 0 then [] else dec_digits_rev (N.to_nat (N.size n)) (n / 10))).
  rewrite (proj2 (N.eqb_neq _ _) E). cbn [rev]. do 2 f_equal.
  pose proof (size_bound n) as B. rewrite Nat2N.inj_succ, N.pow_succ_r' in B.
  apply dec_digits_rev_fuel; [exact E|apply N.div_lt_upper_bound; lia|apply size_bound].
Qed.

Lemma dec_N_spec n : all_digits (dec_N n) = true /\ digits_val (dec_N n) 0 = Some n /\ dec_N n <> [].
Proof.
  induction n as [n IH] using (well_founded_induction N.lt_wf_0).
  assert (Hd : is_digit (48 + n mod 10) = true) by (pose proof (N.mod_lt n 10); unfold is_digit; lia).
  destruct (N.lt_ge_cases n 10) as [Hs|Hl].
  - rewrite dec_N_small by easy. rewrite N.mod_small in Hd by easy.
    cbn [all_digits forallb digits_val]. rewrite Hd. split; [reflexivity|split; [f_equal; lia|easy]].
  - rewrite dec_N_step by easy. destruct (IH (n / 10)) as (A & B & _); [apply N.div_lt; lia|].
    unfold all_digits in *. rewrite forallb_app, digits_val_app, A, B. cbn [forallb digits_val]. rewrite Hd. cbv iota.
    split; [reflexivity|split; [f_equal; pose proof (N.div_mod n 10); lia|now destruct (dec_N (n / 10))]].
Qed.

Lemma digit_not_sign c : is_digit c = true -> (c =? PLUS) = false /\ (c =? MINUS) = false.
Proof. unfold is_digit, PLUS, MINUS. lia. Qed.

Lemma parse_int64_dec z : (- 2 ^ 63 <= z < 2 ^ 63)%Z -> parse_int64 (dec_Z z) = Some z.
Proof.
  intros Hz. destruct z as [|p|p]; cbn [dec_Z Z.to_N]; [reflexivity|..];
    destruct (dec_N_spec (N.pos p)) as (A & B & C); unfold parse_int64.
  - (* the first digit is not taken for a sign *)
    destruct (dec_N (N.pos p)) as [|c r]; [easy|].
    cbn [all_digits forallb] in A. apply andb_true_iff in A as [Ac _].
    destruct (digit_not_sign c Ac) as [-> ->]. rewrite B.
    destruct (N.pos p <? 2 ^ 63) eqn:L; [reflexivity|lia].
  - change (MINUS =? PLUS) with false. change (MINUS =? MINUS) with true. cbv iota.
    destruct (dec_N (N.pos p)) as [|c r]; [easy|]. rewrite B.
    destruct (N.pos p <=? 2 ^ 63) eqn:L; [reflexivity|lia].
Qed.
