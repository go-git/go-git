(* Proofs/C51Lookup.v — GetIndexByHash on a file the encoder wrote: the fanout bucket and the binary
   search find every commit at its position in id order. *)
From Coq Require Import List NArith ZArith Bool Lia ZifyBool ZifyN ZifyNat Permutation.
From GoGit Require Import Base.Out Gen.C51 Model.CommitGraph Proofs.C51 Proofs.C51Reader Proofs.C51Bytes
  Proofs.C51Records Proofs.C51Roundtrip.
Import ListNotations.
Local Open Scope N_scope.

Lemma bytes_cmp_antisym : forall a b, bytes_cmp b a = CompOpp (bytes_cmp a b).
Proof.
  induction a as [|x a IH]; destruct b as [|y b]; simpl; try reflexivity.
  rewrite (N.compare_antisym x y). destruct (x ?= y); simpl; auto.
Qed.

Lemma bytes_cmp_lt_trans : forall a b c, bytes_cmp a b = Lt -> bytes_cmp b c = Lt -> bytes_cmp a c = Lt.
Proof.
  induction a as [|x a IH]; destruct b as [|y b]; destruct c as [|z c]; simpl; try discriminate; auto.
  intros H1 H2. destruct (x ?= y) eqn:E1; destruct (y ?= z) eqn:E2; try discriminate.
  - apply N.compare_eq_iff in E1. apply N.compare_eq_iff in E2. subst. rewrite N.compare_refl. eauto.
  - apply N.compare_eq_iff in E1. subst. now rewrite E2.
  - apply N.compare_eq_iff in E2. subst. now rewrite E1.
  - change (x < y) in E1. change (y < z) in E2. assert (E : x < z) by lia. unfold N.lt in E. now rewrite E.
Qed.

Definition ble (a b : bytes) : Prop := bytes_cmp a b <> Gt.

Lemma ble_trans : forall a b c, ble a b -> ble b c -> ble a c.
Proof.
  unfold ble. intros a b c H1 H2.
  destruct (bytes_cmp a b) eqn:E1; [|clear H1|contradiction].
  - apply bytes_cmp_eq in E1. now subst.
  - destruct (bytes_cmp b c) eqn:E2; [| |contradiction].
    + apply bytes_cmp_eq in E2. subst. now rewrite E1.
    + now rewrite (bytes_cmp_lt_trans a b c E1 E2).
Qed.

Fixpoint sorted_le (l : list bytes) : Prop :=
  match l with [] => True | x :: r => (forall y, In y r -> ble x y) /\ sorted_le r end.

Lemma insert_hash_sorted : forall h l, sorted_le l -> sorted_le (insert_hash h l).
Proof.
  intros h. induction l as [|x r IH]; intros Hs.
  - simpl. split; [intros y []|exact I].
  - destruct Hs as [Hx Hr]. cbn [insert_hash].
    assert (Hle : ble h x -> sorted_le (h :: x :: r)).
    { intros L. split; [|split; assumption]. intros y [<-|Hy]; [exact L|]. apply (ble_trans h x y L). now apply Hx. }
    destruct (bytes_cmp h x) eqn:E; [apply Hle; unfold ble; now rewrite E..|].
    split; [|now apply IH]. intros y Hy.
    apply (Permutation_in _ (insert_hash_perm h r)) in Hy. destruct Hy as [<-|Hy]; [|now apply Hx].
    unfold ble. rewrite (bytes_cmp_antisym h x), E. discriminate.
Qed.

Lemma sort_hashes_sorted : forall l, sorted_le (sort_hashes l).
Proof. induction l as [|h r IH]; [exact I|]. simpl. now apply insert_hash_sorted. Qed.

Lemma sorted_nth_lt : forall l i j, sorted_le l -> NoDup l -> (i < j < List.length l)%nat ->
  bytes_cmp (nth i l []) (nth j l []) = Lt.
Proof.
  induction l as [|x r IH]; intros i j Hs Hnd Hij; [simpl in Hij; lia|].
  destruct Hs as [Hx Hr]. inversion Hnd as [|? ? Hn Hnd']; subst.
  destruct j as [|j]; [lia|]. destruct i as [|i].
  - cbn [nth]. assert (Hin : In (nth j r []) r) by (apply nth_In; simpl in Hij; lia).
    specialize (Hx _ Hin). unfold ble in Hx. destruct (bytes_cmp x (nth j r [])) eqn:E; [|reflexivity|contradiction].
    apply bytes_cmp_eq in E. subst x. contradiction.
  - cbn [nth]. apply IH; auto. simpl in Hij. lia.
Qed.

Definition first_le (b : N) (h : bytes) : bool := match h with c :: _ => c <=? b | [] => true end.

Lemma cmp_first : forall a b x y, bytes_cmp (x :: a) (y :: b) <> Gt -> x <= y.
Proof.
  intros a b x y H. simpl in H. destruct (x ?= y) eqn:E.
  - apply N.compare_eq_iff in E. lia.
  - change (x < y) in E. lia.
  - contradiction.
Qed.

Lemma filter_prefix : forall b l, sorted_le l -> (forall h, In h l -> h <> []) ->
  forall i, (i < List.length l)%nat ->
  ((i < List.length (filter (first_le b) l))%nat <-> first_le b (nth i l []) = true).
Proof.
  intros b. induction l as [|x r IH]; intros Hs Hne i Hi; [simpl in Hi; lia|].
  destruct Hs as [Hx Hr]. cbn [filter]. destruct (first_le b x) eqn:E.
  - destruct i as [|i]; cbn [nth List.length]; [split; [intros _; exact E | lia]|].
    rewrite <- (IH Hr (fun h Hh => Hne h (or_intror Hh)) i) by (simpl in Hi; lia). lia.
  - assert (Hall : forall y, In y r -> first_le b y = false).
    { intros y Hy. specialize (Hx y Hy). pose proof (Hne x (or_introl eq_refl)) as Nx. pose proof (Hne y (or_intror Hy)) as Ny.
      destruct x as [|cx tx]; [congruence|]. destruct y as [|cy ty]; [congruence|].
      pose proof (cmp_first tx ty cx cy Hx). cbn [first_le] in *. lia. }
    assert (Hnil : filter (first_le b) r = []).
    { clear - Hall. induction r as [|y r IH]; [reflexivity|]. cbn [filter]. rewrite (Hall y (or_introl eq_refl)).
      apply IH. intros z Hz. apply Hall. now right. }
    rewrite Hnil. cbn [List.length]. split; [lia|]. intros H. exfalso.
    destruct i as [|i]; cbn [nth] in H; [congruence|].
    rewrite (Hall (nth i r [])) in H; [discriminate|]. apply nth_In. simpl in Hi. lia.
Qed.

Section Lookup.
Variable es : list centry.
Variable trailer : bytes.
Hypothesis Hwf : wf_graph es.
Hypothesis Htr : List.length trailer = 20%nat.
Variable fi : findex.
Hypothesis Hopen : open_file (encode es ++ trailer) = Ok fi.

Let sorted := sorted_of es.
Let nn := List.length sorted.
Let file := encode es ++ trailer.

Lemma lk_sorted : sorted_le sorted.
Proof. unfold sorted, sorted_of. apply sort_hashes_sorted. Qed.

Lemma lk_slice : forall m, (m < nn)%nat ->
  slice file (off_of (f_off fi) 1 + Z.of_N (N.of_nat m) * 20) 20 = Some (nth m sorted []).
Proof.
  intros m Hm. pose proof (rt_hash_local es trailer Hwf Htr fi Hopen m Hm) as H. fold file sorted in H.
  unfold hash_local in H. destruct (ncommits fi <=? N.of_nat m); [discriminate|].
  destruct (slice file (off_of (f_off fi) 1 + Z.of_N (N.of_nat m) * 20) 20); [|discriminate]. now injection H as ->.
Qed.

Lemma lk_bsearch : forall i, (i < nn)%nat -> forall fuel low high,
  low <= N.of_nat i < high -> high <= N.of_nat nn -> high - low < 2 ^ N.of_nat fuel ->
  bsearch file fi (nth i sorted []) fuel low high = Ok (N.of_nat i).
Proof.
  intros i Hi. pose proof (rt_nn_bound es Hwf) as Hnb. fold sorted nn in Hnb. rewrite const_parentNone in Hnb.
  induction fuel as [|k IH]; intros low high Hr Hh Hf.
  - cbn in Hf. lia.
  - cbn [bsearch]. assert (C : low <? high = true) by lia. rewrite C.
    assert (Em : (low + high) mod two32 = low + high) by (apply N.mod_small; unfold two32; lia).
    rewrite Em, N.shiftr_div_pow2. change (2 ^ 1) with 2.
    set (mid := (low + high) / 2).
    assert (Hmid : 2 * mid <= low + high < 2 * mid + 2).
    { unfold mid. pose proof (N.div_mod (low + high) 2). pose proof (N.mod_lt (low + high) 2). lia. }
    assert (Hmn : (N.to_nat mid < nn)%nat) by lia.
    pose proof (lk_slice (N.to_nat mid) Hmn) as S. rewrite N2Nat.id in S. rewrite S.
    rewrite Nat2N.inj_succ, N.pow_succ_r' in Hf.
    (* the ids are sorted and distinct, so they compare as their positions do *)
    destruct (Nat.lt_trichotomy i (N.to_nat mid)) as [Hlt|[Heq|Hgt]].
    + rewrite (sorted_nth_lt sorted i (N.to_nat mid) lk_sorted (rt_nodup es Hwf)) by (fold nn; lia).
      apply IH; clear - Hr Hh Hf Hmid Hlt; lia.
    + rewrite <- Heq. assert (E : bytes_cmp (nth i sorted []) (nth i sorted []) = Eq) by (now apply bytes_cmp_eq).
      rewrite E. f_equal. lia.
    + pose proof (sorted_nth_lt sorted (N.to_nat mid) i lk_sorted (rt_nodup es Hwf)) as L.
      rewrite (bytes_cmp_antisym (nth (N.to_nat mid) sorted []) (nth i sorted [])), L by (fold nn; lia).
      cbn [CompOpp]. apply IH; clear - Hr Hh Hf Hmid Hgt; lia.
Qed.

Theorem lookup_readback : forall i, (i < nn)%nat -> index_by_hash file fi (nth i sorted []) = Ok (N.of_nat i).
Proof.
  intros i Hi. set (h := nth i sorted []).
  assert (Hin : In h sorted) by (apply nth_In; exact Hi).
  pose proof (rt_len20 es Hwf h Hin) as Hlen.
  destruct (rt_fi es trailer Hwf Htr fi Hopen) as (_ & _ & Hfan & _).
  destruct h as [|b0 t] eqn:Eh; [simpl in Hlen; lia|]. unfold index_by_hash.
  assert (Hb0 : b0 < 256).
  { destruct (rt_wff es Hwf) as [_ [Hb _]]. pose proof (sorted_hash_all es _ (rt_wfe es Hwf) Hb _ Hin) as F. now inversion F. }
  assert (Hnth : forall c, c < 256 -> nth (N.to_nat c) (f_fanout fi) 0 = count_le_first sorted c)
    by (rewrite Hfan; apply fanout_nth).
  assert (Hne : forall x, In x sorted -> x <> []).
  { intros x Hx E. pose proof (rt_len20 es Hwf x Hx) as L. rewrite E in L. simpl in L. lia. }
  assert (Hcount : forall c, count_le_first sorted c = N.of_nat (List.length (filter (first_le c) sorted))) by reflexivity.
  pose proof (rt_nn_bound es Hwf) as Hnb. fold sorted nn in Hnb. rewrite const_parentNone in Hnb.
  (* the ids whose first byte is <= c are the first fanout[c] of the sorted list (filter_prefix),
     so fanout[b0 - 1] <= i < fanout[b0] *)
  rewrite <- Eh. fold h. apply lk_bsearch; [exact Hi| | |].
  - split.
    + destruct (b0 =? 0) eqn:E0; [lia|].
      replace (N.to_nat b0 - 1)%nat with (N.to_nat (b0 - 1)) by lia. rewrite (Hnth (b0 - 1)) by lia. rewrite Hcount.
      destruct (Nat.lt_ge_cases i (List.length (filter (first_le (b0 - 1)) sorted))) as [Hlt|Hge]; [|lia].
      apply (filter_prefix (b0 - 1) sorted lk_sorted Hne i Hi) in Hlt. fold h in Hlt. rewrite Eh in Hlt. cbn [first_le] in Hlt. lia.
    + rewrite (Hnth b0 Hb0), Hcount.
      assert (Hlt : (i < List.length (filter (first_le b0) sorted))%nat).
      { apply (filter_prefix b0 sorted lk_sorted Hne i Hi). fold h. rewrite Eh. cbn [first_le]. lia. }
      lia.
  - rewrite (Hnth b0 Hb0). apply count_le_first_le.
  - rewrite (Hnth b0 Hb0). pose proof (count_le_first_le sorted b0). fold nn in H.
    change (2 ^ N.of_nat 40) with 1099511627776. lia.
Qed.
End Lookup.
