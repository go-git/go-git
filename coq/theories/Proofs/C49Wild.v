(* Proofs/C49Wild.v — dowild (flags = 0, the only way gitignore calls it) is
   sound and complete for the declarative glob semantics of Spec/Glob.v on
   the fragment  literal | \c | ? | * | ** | bracket sets (ranges, escapes,
   negation, POSIX classes).
   What needs proof is the pruning: wmAbortAll claims that no suffix of the
   text can match, and the fast-forward over bytes different from a literal
   that follows a star. *)
From Coq Require Import List NArith Bool Lia.
From GoGit Require Import Base.Out Model.Gitignore Spec.Glob Proofs.C49Total Proofs.C49Sets.
Import ListNotations.
Local Open Scope N_scope.

Definition suffix (t' t : bytes) : Prop := exists s, t = s ++ t'.

Lemma suffix_refl t : suffix t t.
Proof. exists []. reflexivity. Qed.

Lemma suffix_cons c t' t : suffix t' t -> suffix t' (c :: t).
Proof. intros [s ->]. exists (c :: s). reflexivity. Qed.

Lemma suffix_cons_inv c t t'' : suffix t'' (c :: t) -> t'' = c :: t \/ suffix t'' t.
Proof.
  intros [s H]. destruct s as [|x s]; cbn in H.
  - left. symmetry. exact H.
  - right. inversion H; subst. exists s. reflexivity.
Qed.

Lemma suffix_nil t : suffix t [] -> t = [].
Proof. intros [s H]. symmetry in H. apply app_eq_nil in H. tauto. Qed.

Lemma suffix_tail x a c t : suffix (x :: a) (c :: t) -> suffix a t.
Proof.
  intros H. apply suffix_cons_inv in H. destruct H as [H|[s ->]].
  - inversion H; subst. apply suffix_refl.
  - exists (s ++ [x]). rewrite <- app_assoc. reflexivity.
Qed.

Lemma suffix_trans a b c : suffix a b -> suffix b c -> suffix a c.
Proof. intros [s ->] [s' ->]. exists (s' ++ s). now rewrite app_assoc. Qed.

Lemma Gmatch_nil_inv t : Gmatch [] t -> t = [].
Proof. intros H; inversion H; reflexivity. Qed.

Lemma Gmatch_one_inv it g t : is_star it = false -> Gmatch (it :: g) t ->
  exists c t', t = c :: t' /\ item_ok it c = true /\ Gmatch g t'.
Proof.
  intros Hs H. inversion H; subst.
  - eauto.
  - discriminate.
Qed.

Lemma Gmatch_star_iff g t : Gmatch (IStar :: g) t <-> exists t', suffix t' t /\ Gmatch g t'.
Proof.
  split.
  - intros H. inversion H; subst.
    + discriminate.
    + exists t0. split; [exists s; reflexivity|assumption].
  - intros [t' [[s ->] H]]. now constructor.
Qed.

Lemma Gmatch_stars k g t :
  Gmatch (IStar :: repeat IStar k ++ g) t <-> exists t', suffix t' t /\ Gmatch g t'.
Proof.
  revert t. induction k as [|k IH]; intros t; cbn [repeat app].
  - apply Gmatch_star_iff.
  - rewrite Gmatch_star_iff. split.
    + intros [t1 [H1 H2]]. apply IH in H2. destruct H2 as [t2 [H3 H4]].
      exists t2. split; [eapply suffix_trans; eassumption|assumption].
    + intros [t2 [H1 H2]]. exists t. split; [apply suffix_refl|]. apply IH. eauto.
Qed.

Lemma gmatch_spec g : forall t, gmatch g t = true <-> Gmatch g t.
Proof.
  induction g as [|it g IH]; intros t.
  - cbn. destruct t; split; intros H; try constructor; try discriminate. inversion H.
  - destruct it as [d| | |neg rs].
    1,2,4: (cbn [gmatch]; destruct t as [|c t'];
      [ split; [discriminate|intros H; apply Gmatch_one_inv in H; [|reflexivity];
                            destruct H as (? & ? & ? & _); discriminate]
      | rewrite andb_true_iff, IH; split;
        [ intros [A B]; now constructor
        | intros H; apply Gmatch_one_inv in H; [|reflexivity];
          destruct H as (c0 & t0 & E & A & B); inversion E; subst; tauto ] ]).
    rewrite Gmatch_star_iff. cbn [gmatch].
    induction t as [|c t' IHt].
    + rewrite orb_false_r, IH. split.
      * intros H. exists []. split; [apply suffix_refl|assumption].
      * intros [t' [Hs H]]. apply suffix_nil in Hs. now subst.
    + rewrite orb_true_iff, IH, IHt. split.
      * intros [H|[t2 [Hs H]]].
        -- exists (c :: t'). split; [apply suffix_refl|assumption].
        -- exists t2. split; [now apply suffix_cons|assumption].
      * intros [t2 [Hs H]]. apply suffix_cons_inv in Hs. destruct Hs as [->|Hs]; [now left|].
        right. eauto.
Qed.

Definition R (g : list item) (w : wm) (t : bytes) : Prop :=
  match w with
  | WMatch => Gmatch g t
  | WNoMatch => ~ Gmatch g t
  | WAbortAll => forall t', suffix t' t -> ~ Gmatch g t'
  | _ => False
  end.

(* a non-star item against the text: WAbortAll at its end, else one byte *)
Lemma R_step it g (w : bytes -> wm) t :
  is_star it = false -> (forall t1, R g (w t1) t1) ->
  R (it :: g) (match t with [] => WAbortAll | c :: t1 => if item_ok it c then w t1 else WNoMatch end) t.
Proof.
  intros Hs Hw.
  assert (Hinv : forall t', Gmatch (it :: g) t' ->
            exists c t0, t' = c :: t0 /\ item_ok it c = true /\ Gmatch g t0)
    by (intros t'; now apply Gmatch_one_inv).
  destruct t as [|c t1].
  - intros t' Hsuf H'. apply suffix_nil in Hsuf. subst. destruct (Hinv _ H') as (? & ? & ? & _). discriminate.
  - specialize (Hw t1). destruct (item_ok it c) eqn:Hok.
    + destruct (w t1); cbn in Hw |- *; try tauto.
      * now constructor.
      * intros H'. destruct (Hinv _ H') as (c0 & t0 & E & _ & B). inversion E; subst. tauto.
      * intros t' Hsuf H'. destruct (Hinv _ H') as (c0 & t0 & -> & _ & B).
        apply suffix_tail in Hsuf. exact (Hw _ Hsuf B).
    + intros H'. destruct (Hinv _ H') as (c0 & t0 & E & A & _). inversion E; subst. congruence.
Qed.

Lemma leb_both c tch : (c <=? tch) && (tch <=? c) = (tch =? c).
Proof.
  destruct (tch =? c) eqn:E.
  - apply N.eqb_eq in E. subst. now rewrite N.leb_refl.
  - apply N.eqb_neq in E. destruct (c <=? tch) eqn:A; destruct (tch <=? c) eqn:B; try reflexivity.
    apply N.leb_le in A. apply N.leb_le in B. lia.
Qed.

Lemma in_ranges_single c tch : in_ranges [(c, c)] tch = (tch =? c).
Proof. unfold in_ranges. cbn. now rewrite orb_false_r, leb_both. Qed.

Lemma in_ranges_one lo hi tch : in_ranges [(lo, hi)] tch = (tch <=? hi) && (lo <=? tch).
Proof. unfold in_ranges. cbn. rewrite orb_false_r. apply andb_comm. Qed.

Lemma in_ranges_app a b c : in_ranges (a ++ b) c = in_ranges a c || in_ranges b c.
Proof. unfold in_ranges. apply existsb_app. Qed.

Lemma bytes_eqb_beq a b : bytes_eqb a b = beq a b.
Proof. reflexivity. Qed.

Lemma cut_rb_split s : cut_rb s = split_rb s.
Proof. reflexivity. Qed.

(* an equation between boolean combinations of comparisons on N: read both
   sides as propositions and leave the arithmetic to lia *)
Ltac bool_lia :=
  apply eq_true_iff_eq; unfold in_ranges, is_alpha, is_digit, is_upper, is_lower, is_punct;
  cbn [existsb fst snd andb orb];
  rewrite ?orb_false_r; rewrite ?orb_true_iff, ?andb_true_iff, ?N.leb_le, ?N.ltb_lt, ?N.eqb_eq; lia.

(* POSIX classes: matchPOSIXClass decides membership in the ranges the class denotes *)
Lemma posix_class_ranges name tch :
  posix_class name tch false =
  match class_ranges name with Some rs => Some (in_ranges rs tch) | None => None end.
Proof.
  unfold posix_class, class_ranges. change bytes_eqb with beq.
  repeat match goal with
  | |- (if beq name ?l then _ else _) = _ => destruct (beq name l); [apply f_equal; bool_lia|]
  end.
  reflexivity.
Qed.

Definition prevN (prev : option N) : N := match prev with Some x => x | None => 0 end.
Definition prev_ok (prev : option N) : Prop := match prev with Some x => x <> 0 | None => True end.

Lemma prev_some prev : prev_ok prev -> negb (prevN prev =? 0) = is_some prev.
Proof.
  destruct prev as [x|]; cbn; [|reflexivity]. intros H. apply N.eqb_neq in H. now rewrite H.
Qed.

Lemma cls_loop_parse_n : forall n fuel pfuel prev c r rs rest tch matched,
  (List.length r < n)%nat -> prev_ok prev ->
  parse_elems pfuel prev (c :: r) = Some (rs, rest) -> (List.length r < fuel)%nat ->
  cls_loop fuel false tch (prevN prev) matched c r = CDone (matched || in_ranges rs tch) rest.
Proof.
  induction n as [|n IH]; intros fuel pfuel prev c r rs rest tch matched Hn Hok Hp Hf; [lia|].
  destruct fuel as [|f]; [lia|]. destruct pfuel as [|pf]; [discriminate|].
  (* the tail of the loop computes what the continuation of the parser denotes *)
  assert (Htail : forall prev' rs0 rest0 m0, prev_ok prev' -> (List.length rest0 <= List.length r)%nat ->
     pe_cont pf prev' rs0 rest0 = Some (rs, rest) ->
     m0 = matched || in_ranges rs0 tch ->
     cls_tail f false tch (prevN prev') m0 rest0 = CDone (matched || in_ranges rs tch) rest).
  { intros prev' rs0 rest0 m0 Hok' Hl H ->. destruct rest0 as [|x r0]; [discriminate|].
    cbn [pe_cont cls_tail] in H |- *. unfold cRB.
    destruct (x =? 93); [now inversion H|].
    destruct (parse_elems pf prev' (x :: r0)) as [[rs' rest']|] eqn:E; [|discriminate].
    inversion H; subst. rewrite in_ranges_app, orb_assoc. cbn in Hl.
    apply (IH f pf prev' x r0 rs' rest tch); [lia|assumption|assumption|lia]. }
  cbn [parse_elems] in Hp. cbn [cls_loop]. unfold cBSL, cDASH, cLB, cRB, cCOLON.
  destruct (c =? 0) eqn:C0; [discriminate|].
  destruct (c =? 92) eqn:C92.
  { destruct r as [|e r']; [discriminate|]. destruct (e =? 0) eqn:E0; [discriminate|].
    apply (Htail (Some e) [(e, e)] r'); [cbn; now apply N.eqb_neq|cbn; lia|exact Hp|].
    now rewrite in_ranges_single. }
  rewrite (prev_some _ Hok).
  destruct ((c =? 45) && is_some prev && match r with [] => false | h :: _ => negb (h =? 93) end) eqn:CD.
  { destruct prev as [lo|]; [|now rewrite andb_false_r in CD].
    destruct r as [|h r1]; [discriminate|]. cbn [prevN].
    destruct (h =? 92) eqn:H92.
    - destruct r1 as [|e2 r2]; [discriminate|].
      apply (Htail None [(lo, e2)] r2); [exact I|cbn; lia|exact Hp|].
      cbn [andb]. now rewrite in_ranges_one, orb_false_r.
    - apply (Htail None [(lo, h)] r1); [exact I|cbn; lia|exact Hp|].
      cbn [andb]. now rewrite in_ranges_one, orb_false_r. }
  destruct ((c =? 91) && match r with [] => false | h :: _ => h =? 58 end) eqn:CP.
  { (* "[:" *)
    apply andb_true_iff in CP. destruct CP as [C91 _]. apply N.eqb_eq in C91. subst c.
    destruct r as [|c0 r0]; [discriminate|].
    rewrite cut_rb_split in Hp.
    destruct (split_rb r0) as [[name' after]|] eqn:Esp; [|discriminate].
    pose proof (split_rb_len _ _ _ Esp) as Hlen.
    (* without a closing ":]" the bracket is an ordinary element *)
    destruct (rev name') as [|lastc rname].
    { apply (Htail (Some 91) [(91, 91)] (c0 :: r0)); [cbn; discriminate|lia|exact Hp|].
      now rewrite in_ranges_single. }
    destruct (negb (lastc =? 58)).
    { apply (Htail (Some 91) [(91, 91)] (c0 :: r0)); [cbn; discriminate|lia|exact Hp|].
      now rewrite in_ranges_single. }
    rewrite posix_class_ranges.
    destruct (class_ranges (rev rname)) as [crs|]; [|discriminate].
    apply (Htail None crs after); [exact I|cbn in Hlen |- *; lia|exact Hp|reflexivity]. }
  apply (Htail (Some c) [(c, c)] r); [cbn; now apply N.eqb_neq|lia|exact Hp|].
  now rewrite in_ranges_single.
Qed.

Lemma cls_loop_parse fuel pfuel c r rs rest tch matched :
  parse_elems pfuel None (c :: r) = Some (rs, rest) -> (List.length r < fuel)%nat ->
  cls_loop fuel false tch 0 matched c r = CDone (matched || in_ranges rs tch) rest.
Proof. intros. eapply (cls_loop_parse_n (S (List.length r)) fuel pfuel None); eauto. exact I. Qed.

Lemma bracket_parse q neg rs rest tch :
  parse_set q = Some (ISet neg rs, rest) ->
  bracket false tch q = (CDone (in_ranges rs tch) rest, neg).
Proof.
  unfold parse_set, bracket. destruct q as [|c q1]; [discriminate|]. unfold cCARET, cBANG.
  assert (Hneg : ((if c =? 94 then 33 else c) =? 33) = (c =? 33) || (c =? 94)).
  { destruct (c =? 94); [now rewrite orb_true_r|now rewrite orb_false_r]. }
  rewrite Hneg. destruct ((c =? 33) || (c =? 94)) eqn:E.
  - destruct (parse_elems _ None q1) as [[rs' rest']|] eqn:Hp; [|discriminate].
    intros H; inversion H; subst. destruct q1 as [|c2 q2]; [discriminate|].
    now rewrite (cls_loop_parse (S (List.length q2)) _ _ _ _ _ tch false Hp ltac:(lia)).
  - apply orb_false_iff in E. destruct E as [_ E]. rewrite E.
    destruct (parse_elems _ None (c :: q1)) as [[rs' rest']|] eqn:Hp; [|discriminate].
    intros H; inversion H; subst.
    now rewrite (cls_loop_parse (S (List.length q1)) _ _ _ _ _ tch false Hp ltac:(lia)).
Qed.

Lemma parse_set_is_set q it rest : parse_set q = Some (it, rest) -> exists neg rs, it = ISet neg rs.
Proof.
  unfold parse_set. destruct q as [|c r]; [discriminate|].
  destruct ((c =? 33) || (c =? 94)).
  - destruct (parse_elems _ None r) as [[rs rest']|]; [|discriminate]. intros H; inversion H; eauto.
  - destruct (parse_elems _ None (c :: r)) as [[rs rest']|]; [|discriminate]. intros H; inversion H; eauto.
Qed.

Lemma parse_glob_star f r :
  parse_glob (S f) (cSTAR :: r) = match parse_glob f r with Some g => Some (IStar :: g) | None => None end.
Proof. reflexivity. Qed.

Lemma parse_drop_stars : forall p1 f g1, parse_glob f p1 = Some g1 ->
  exists k f' g2, g1 = repeat IStar k ++ g2 /\ parse_glob f' (drop_stars p1) = Some g2.
Proof.
  induction p1 as [|c r IH]; intros f g1 Hp.
  - exists O, f, g1. split; [reflexivity|exact Hp].
  - cbn [drop_stars]. unfold cSTAR. destruct (c =? 42) eqn:C42.
    + destruct f as [|f0]; [discriminate|]. apply N.eqb_eq in C42. subst c. rewrite parse_glob_star in Hp.
      destruct (parse_glob f0 r) as [g|] eqn:Hr; [|discriminate]. inversion Hp; subst.
      destruct (IH _ _ Hr) as (k & f' & g2 & -> & H2).
      exists (S k), f', g2. split; [reflexivity|exact H2].
    + exists O, f, g1. split; [reflexivity|exact Hp].
Qed.

Lemma drop_stars_head p q0 q1 : drop_stars p = q0 :: q1 -> (q0 =? 42) = false.
Proof.
  induction p as [|c r IH]; cbn; [discriminate|].
  unfold cSTAR. destruct (c =? 42) eqn:C; [exact IH|]. intros H; inversion H; subst. exact C.
Qed.

(* the item a pattern begins with when its first byte q0 is not a star, and
   the pattern after it *)
Definition parse_item (q0 : N) (q1 : bytes) : option (item * bytes) :=
  if q0 =? 92 then match q1 with e :: r => Some (ILit e, r) | [] => None end
  else if q0 =? 63 then Some (IAny, q1)
  else if q0 =? 91 then parse_set q1
  else Some (ILit q0, q1).

Lemma parse_glob_item f q0 q1 : (q0 =? 42) = false ->
  parse_glob (S f) (q0 :: q1) =
  match parse_item q0 q1 with
  | Some (it, rest) => match parse_glob f rest with Some g => Some (it :: g) | None => None end
  | None => None
  end.
Proof.
  intros Hs. cbn [parse_glob]. unfold parse_item. rewrite Hs.
  destruct (q0 =? 92); [destruct q1; reflexivity|].
  destruct (q0 =? 63); [reflexivity|].
  destruct (q0 =? 91); [|reflexivity]. destruct (parse_set q1) as [[it rest]|]; reflexivity.
Qed.

Lemma parse_item_head q0 q1 it rest : parse_item q0 q1 = Some (it, rest) ->
  is_star it = false /\ (is_glob_special q0 = false -> it = ILit q0) /\
  (List.length rest <= List.length q1)%nat.
Proof.
  unfold parse_item, is_glob_special, cSTAR, cQM, cLB, cBSL. intros H.
  destruct (q0 =? 92).
  { destruct q1 as [|e r]; [discriminate|]. inversion H; subst. rewrite !orb_true_r.
    split; [reflexivity|]. split; [discriminate|cbn; lia]. }
  destruct (q0 =? 63).
  { inversion H; subst. rewrite orb_true_r. split; [reflexivity|]. split; [discriminate|lia]. }
  destruct (q0 =? 91).
  { destruct (parse_set_is_set _ _ _ H) as (neg & rs & ->).
    destruct (parse_set_suffix _ _ _ H) as (pre & -> & _). rewrite orb_true_r.
    split; [reflexivity|]. split; [discriminate|rewrite app_length; lia]. }
  inversion H; subst. split; [reflexivity|]. split; [reflexivity|lia].
Qed.

(* M: the texts that the pattern after the stars matches.  What the loop that
   crosses slashes claims, *)
Definition RS (M : bytes -> Prop) (w : wm) (t : bytes) : Prop :=
  match w with
  | WMatch => exists t', suffix t' t /\ M t'
  | WAbortAll | WNoMatch => forall t', suffix t' t -> ~ M t'
  | _ => False
  end.

(* and what it needs of the code returned for that pattern at t *)
Definition rec_claims (M : bytes -> Prop) (w : wm) (t : bytes) : Prop :=
  match w with
  | WMatch => M t
  | WNoMatch | WAbortStarStar => ~ M t
  | WAbortAll => forall t', suffix t' t -> ~ M t'
  | WFuel => False
  end.

Lemma R_rec_claims g w t : R g w t -> rec_claims (Gmatch g) w t.
Proof. destruct w; cbn; tauto. Qed.

Lemma star_loop_RS rec M lit q0 :
  (forall t, rec_claims M (rec t) t) ->
  ~ M [] ->
  (lit = true -> forall t, M t -> exists t1, t = q0 :: t1) ->
  forall litfail, litfail = WAbortAll \/ litfail = WNoMatch ->
  forall t skipped, RS M (star_loop rec true lit false q0 litfail skipped t) t.
Proof.
  intros Hrec Hne Hlit litfail Hlf. induction t as [|c t' IH]; intros skipped; cbn [star_loop].
  - assert (H : forall t', suffix t' [] -> ~ M t').
    { intros t' Hs. apply suffix_nil in Hs. now subst. }
    destruct skipped; [destruct Hlf as [-> | ->]|]; exact H.
  - cbn [negb andb orb fold].
    assert (Hskip : ~ M (c :: t') -> forall sk,
              RS M (star_loop rec true lit false q0 litfail sk t') (c :: t')).
    { intros Hno sk. specialize (IH sk).
      destruct (star_loop rec true lit false q0 litfail sk t'); cbn in *; try tauto.
      - destruct IH as [t2 [Hs H]]. exists t2. split; [now apply suffix_cons|assumption].
      - intros t2 Hs. apply suffix_cons_inv in Hs. destruct Hs as [->|Hs]; [assumption|now apply IH].
      - intros t2 Hs. apply suffix_cons_inv in Hs. destruct Hs as [->|Hs]; [assumption|now apply IH]. }
    assert (Htry :
      RS M (let m := rec (c :: t') in
            if negb (wm_eqb m WNoMatch)
            then if negb (wm_eqb m WAbortStarStar) then m
                 else star_loop rec true lit false q0 litfail false t'
            else star_loop rec true lit false q0 litfail false t') (c :: t')).
    { cbv zeta. pose proof (Hrec (c :: t')) as Hm.
      destruct (rec (c :: t')); cbn in Hm |- *; try tauto.
      - exists (c :: t'). split; [apply suffix_refl|assumption].
      - now apply Hskip.
      - now apply Hskip. }
    destruct lit.
    + destruct (c =? q0) eqn:Ec.
      * exact Htry.
      * apply Hskip. intros H. destruct (Hlit eq_refl _ H) as [t1 E]. inversion E; subst.
        rewrite N.eqb_refl in Ec. discriminate.
    + exact Htry.
Qed.

Lemma R_stars_of_RS k g2 w t : RS (Gmatch g2) w t -> R (IStar :: repeat IStar k ++ g2) w t.
Proof.
  destruct w; cbn; try tauto.
  - intros H. now apply Gmatch_stars.
  - intros HRS H. apply Gmatch_stars in H. destruct H as [t2 [Hs2 H]]. exact (HRS _ Hs2 H).
  - intros HRS t' Hs H. apply Gmatch_stars in H. destruct H as [t2 [Hs2 H]].
    eapply HRS; [|exact H]. eapply suffix_trans; eassumption.
Qed.

Lemma star_case_flags0 rec cf c1 c2 c3 prev p1 t :
  star_case rec false cf c1 c2 c3 prev p1 t =
  match drop_stars p1 with
  | [] => WMatch
  | q0 :: q1 => star_loop (rec None (q0 :: q1)) true (negb (is_glob_special q0)) cf (fold cf q0)
                          (c3 true) false t
  end.
Proof.
  unfold star_case. rewrite andb_false_r. cbn [andb negb orb].
  destruct (match p1 with [] => false | c :: _ => c =? cSTAR end); cbn [negb andb orb];
    destruct (drop_stars p1); reflexivity.
Qed.

(* one invocation of dowild, its recursive calls being [rec].  c_trail,
   c_noslash, c_lit: the return codes of the abort paths of case '*', the only
   place where go-git's port and wildmatch.c of git 2.39.5 differ *)
Definition wild_step (rec : option N -> bytes -> bytes -> wm) (c_trail c_noslash : wm)
           (c_lit : bool -> wm) (flags : N) (prev : option N) (p t : bytes) : wm :=
  let cf := fl_casefold flags in
  let pn := fl_pathname flags in
  match p with
  | [] => match t with [] => WMatch | _ => WNoMatch end
  | pc0 :: p1 =>
    let at_end := match t with [] => true | _ => false end in
    let tc0 := match t with [] => 0 | c :: _ => c end in
    let t1 := match t with [] => [] | _ :: r => r end in
    if at_end && negb (pc0 =? cSTAR) then WAbortAll else
    let tc := fold cf tc0 in
    let pc := fold cf pc0 in
    if pc =? cBSL then
      match p1 with
      | [] => WNoMatch
      | e :: p2 => if negb (tc =? e) then WNoMatch else rec (Some e) p2 t1
      end
    else if pc =? cQM then
      if pn && (tc =? cSLASH) then WNoMatch else rec (Some pc0) p1 t1
    else if pc =? cSTAR then star_case rec pn cf c_trail c_noslash c_lit prev p1 t
    else if pc =? cLB then
      match bracket cf tc p1 with
      | (CAbort, _) => WAbortAll
      | (CFuel, _) => WFuel
      | (CDone matched rest, negated) =>
        if Bool.eqb matched negated || (pn && (tc =? cSLASH)) then WNoMatch
        else rec (Some cRB) rest t1
      end
    else
      if negb (tc =? pc) then WNoMatch else rec (Some pc0) p1 t1
  end.

Lemma dowild_S f flags prev p t :
  dowild (S f) flags prev p t =
  wild_step (dowild f flags) WAbortStarStar WAbortAll
            (fun ms : bool => if ms then WAbortAll else WAbortStarStar) flags prev p t.
Proof. reflexivity. Qed.

Lemma wild_step_star rec c1 c2 c3 flags prev p1 t : fl_casefold flags = false ->
  wild_step rec c1 c2 c3 flags prev (42 :: p1) t =
  star_case rec (fl_pathname flags) false c1 c2 c3 prev p1 t.
Proof. intros Hcf. unfold wild_step. rewrite Hcf. now destruct t. Qed.

(* On a pattern that begins with a non-star item, one invocation consumes the
   item and one byte of the text; under WM_PATHNAME "?" and brackets refuse
   the slash (a literal slash is not an item of path patterns). *)
Lemma wild_step_item rec c1 c2 c3 flags prev q0 q1 it rest :
  fl_casefold flags = false -> (q0 =? 42) = false ->
  parse_item q0 q1 = Some (it, rest) ->
  (fl_pathname flags = true -> it <> ILit 47) ->
  exists pv, forall t, wild_step rec c1 c2 c3 flags prev (q0 :: q1) t =
    match t with
    | [] => WAbortAll
    | tc :: t1 => if negb (fl_pathname flags && (tc =? 47)) && item_ok it tc then rec pv rest t1 else WNoMatch
    end.
Proof.
  intros Hcf Hs Hit Hsl. unfold wild_step, parse_item in *. rewrite Hcf.
  unfold cBSL, cQM, cSTAR, cLB, cRB, cSLASH. cbn [fold andb]. rewrite Hs. cbn [negb].
  set (pn := fl_pathname flags) in *.
  assert (Hlit : forall e tc, it = ILit e -> negb (pn && (tc =? 47)) && (tc =? e) = (tc =? e)).
  { intros e tc ->. destruct pn; [|reflexivity]. destruct (tc =? e) eqn:E; [|apply andb_false_r].
    apply N.eqb_eq in E. subst tc. destruct (e =? 47) eqn:E47; [|reflexivity].
    apply N.eqb_eq in E47. subst e. now destruct (Hsl eq_refl). }
  destruct (q0 =? 92).
  { destruct q1 as [|e r]; [discriminate|]. inversion Hit; subst. exists (Some e).
    intros [|tc t1]; [reflexivity|]. cbn [item_ok]. rewrite (Hlit e tc eq_refl). now destruct (tc =? e). }
  destruct (q0 =? 63).
  { inversion Hit; subst. exists (Some q0). intros [|tc t1]; [reflexivity|].
    cbn [item_ok]. rewrite andb_true_r. now destruct (pn && (tc =? 47)). }
  destruct (q0 =? 91).
  { destruct (parse_set_is_set _ _ _ Hit) as (neg & rs & ->). exists (Some 93).
    intros [|tc t1]; [reflexivity|]. rewrite (bracket_parse _ _ _ _ tc Hit). cbn [item_ok].
    destruct (eqb (in_ranges rs tc) neg); cbn [negb orb andb]; [now rewrite andb_false_r|].
    rewrite andb_true_r. now destruct (pn && (tc =? 47)). }
  inversion Hit; subst. exists (Some q0). intros [|tc t1]; [reflexivity|].
  cbn [item_ok]. rewrite (Hlit q0 tc eq_refl). now destruct (tc =? q0).
Qed.

(* The invariant holds of every function that unfolds to wild_step, whichever
   of the two codes it returns when the literal after a star is not found. *)
Section Codes.
Variables (dw : nat -> N -> option N -> bytes -> bytes -> wm) (c_trail c_noslash : wm) (c_lit : bool -> wm).
Hypothesis dw_S : forall f flags prev p t,
  dw (S f) flags prev p t = wild_step (dw f flags) c_trail c_noslash c_lit flags prev p t.
Hypothesis c_lit_abort : c_lit true = WAbortAll \/ c_lit true = WNoMatch.

Lemma wild_R : forall fuel fuel' p t prev g,
  (List.length p < fuel)%nat -> parse_glob fuel' p = Some g ->
  R g (dw fuel 0 prev p t) t.
Proof.
  induction fuel as [|f IH]; intros fuel' p t prev g Hf Hp; [lia|].
  destruct fuel' as [|f']; [discriminate|]. rewrite dw_S.
  destruct p as [|pc0 p1].
  { cbn in Hp. inversion Hp; subst. destruct t; cbn; [constructor|]. intros H; inversion H. }
  cbn in Hf. destruct (pc0 =? 42) eqn:E3.
  { (* star *)
    apply N.eqb_eq in E3. subst pc0. rewrite wild_step_star by reflexivity. rewrite parse_glob_star in Hp.
    destruct (parse_glob f' p1) as [g1|] eqn:Hp1; [|discriminate]. inversion Hp; subst.
    change (fl_pathname 0) with false. rewrite star_case_flags0.
    destruct (parse_drop_stars _ _ _ Hp1) as (k & f2 & g2 & -> & Hp2).
    destruct (drop_stars p1) as [|q0 q1] eqn:Ed.
    - destruct f2; [discriminate|]. cbn in Hp2. inversion Hp2; subst.
      cbn [R]. apply Gmatch_stars. exists []. split; [|constructor].
      exists t. now rewrite app_nil_r.
    - pose proof (drop_stars_head _ _ _ Ed) as Hq0.
      destruct f2 as [|f2]; [discriminate|]. pose proof Hp2 as Hg2. rewrite (parse_glob_item _ _ _ Hq0) in Hg2.
      destruct (parse_item q0 q1) as [[it rest]|] eqn:Hit; [|discriminate].
      destruct (parse_glob f2 rest) as [g'|]; [|discriminate]. inversion Hg2; subst g2.
      destruct (parse_item_head _ _ _ _ Hit) as (Hstar & Hlit & _).
      pose proof (drop_stars_len p1) as Hlen. rewrite Ed in Hlen.
      cbn [fold andb]. apply R_stars_of_RS. apply star_loop_RS.
      + intros t0. apply R_rec_claims. eapply IH; [lia|exact Hp2].
      + intros H. apply Gmatch_one_inv in H; [|assumption]. destruct H as (? & ? & ? & _). discriminate.
      + intros Hl t0 H. apply negb_true_iff in Hl. rewrite (Hlit Hl) in H.
        apply Gmatch_one_inv in H; [|reflexivity]. destruct H as (c0 & t1 & -> & A & _).
        cbn in A. apply N.eqb_eq in A. subst. eauto.
      + exact c_lit_abort. }
  (* one item *)
  rewrite (parse_glob_item _ _ _ E3) in Hp.
  destruct (parse_item pc0 p1) as [[it rest]|] eqn:Hit; [|discriminate].
  destruct (parse_glob f' rest) as [g'|] eqn:Hpr; [|discriminate]. inversion Hp; subst.
  destruct (parse_item_head _ _ _ _ Hit) as (Hstar & _ & Hlen).
  destruct (wild_step_item (dw f 0) c_trail c_noslash c_lit 0 prev _ _ _ _ eq_refl E3 Hit ltac:(discriminate))
    as (pv & ->).
  change (fl_pathname 0) with false. cbn [andb negb].
  apply (R_step it g' (dw f 0 pv rest)); [exact Hstar|]. intros t1. eapply IH; [lia|exact Hpr].
Qed.

End Codes.

Lemma dowild_R : forall fuel fuel' p t prev g,
  (List.length p < fuel)%nat -> parse_glob fuel' p = Some g ->
  R g (dowild fuel 0 prev p t) t.
Proof. exact (wild_R dowild _ _ _ dowild_S (or_introl eq_refl)). Qed.

(* at the top level only WMatch counts *)
Lemma R_match g w t : R g w t -> (wm_eqb w WMatch = true <-> Gmatch g t).
Proof.
  destruct w; cbn; intros H; split; try tauto; try discriminate.
  intros H'. exfalso. apply (H t); [apply suffix_refl|assumption].
Qed.

(* wildmatch(p, t) holds exactly when the glob denoted by p matches t *)
Theorem wildmatch_sound_complete p g t :
  glob_of p = Some g -> (wildmatch p t = true <-> Gmatch g t).
Proof.
  intros Hp. apply R_match. eapply dowild_R; [unfold wm_fuel; lia|exact Hp].
Qed.

Corollary wildmatch_eq_gmatch p g t :
  glob_of p = Some g -> wildmatch p t = gmatch g t.
Proof.
  intros Hp. apply eq_true_iff_eq. now rewrite gmatch_spec, (wildmatch_sound_complete p g).
Qed.
