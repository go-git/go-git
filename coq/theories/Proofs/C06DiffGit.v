(* Proofs/C06DiffGit.v — git's patch_delta applied to diffDelta's output gives
   the target back (whenever the target is not empty: git refuses the 2-byte
   delta of an empty target, finding below-git-min-delta-size). *)
From Coq Require Import List NArith Arith Lia Bool.
From Coq Require Import ZifyBool ZifyNat ZifyN.
From GoGit Require Import Base.Out Model.Delta Spec.GitDelta Proofs.C06Apply Proofs.C06Diff.
Import ListNotations.
Local Open Scope N_scope.

Lemma bytes_ok_cons x l : bytes_ok (x :: l) = (x <? 256) && bytes_ok l.
Proof. reflexivity. Qed.

Lemma bytes_ok_firstn n b : bytes_ok b = true -> bytes_ok (firstn n b) = true.
Proof.
  intros H. rewrite <- (firstn_skipn n b), bytes_ok_app in H. apply andb_true_iff in H. tauto.
Qed.

Lemma bytes_ok_take n b : bytes_ok b = true -> bytes_ok (take n b) = true.
Proof. rewrite take_firstn. apply bytes_ok_firstn. Qed.

Lemma enc_leb_go_ok : forall f n, bytes_ok (enc_leb_go f n) = true.
Proof.
  induction f as [|f IH]; intros n; [reflexivity|]. cbn [enc_leb_go]. cbv zeta.
  pose proof (land127_lt n) as H127.
  destruct (N.shiftr n 7 =? 0).
  - rewrite bytes_ok_cons. cbn [bytes_ok forallb]. rewrite andb_true_r. apply N.ltb_lt. lia.
  - rewrite bytes_ok_cons, IH, andb_true_r. apply N.ltb_lt.
    apply (lor_lt_pow2 _ _ 8); change (2 ^ 8) with 256; [lia|vm_compute; reflexivity].
Qed.

Lemma enc_leb_cons n : exists b r, enc_leb n = b :: r.
Proof. unfold enc_leb. cbn [enc_leb_go]. cbv zeta. destruct (N.shiftr n 7 =? 0); eauto. Qed.

Lemma enc_insert_go_ok : forall fuel b, bytes_ok b = true -> bytes_ok (enc_insert_go fuel b) = true.
Proof.
  induction fuel as [|fuel IH]; intros b Hb; [reflexivity|]. cbn [enc_insert_go].
  destruct (is_nil b); [reflexivity|]. destruct (127 <? len b) eqn:E.
  - rewrite bytes_ok_cons, bytes_ok_app, bytes_ok_take, IH by (try apply bytes_ok_drop; assumption). reflexivity.
  - apply N.ltb_ge in E. rewrite bytes_ok_cons, Hb, andb_true_r. apply N.ltb_lt. lia.
Qed.

Lemma enc_insert_go_len : forall fuel b, b <> [] -> (2 <= List.length (enc_insert_go (S fuel) b))%nat.
Proof.
  intros fuel b Hb. cbn [enc_insert_go]. destruct b as [|x b']; [congruence|]. cbn [is_nil].
  destruct (127 <? len (x :: b')); cbn [List.length].
  - rewrite take_firstn. change (N.to_nat 127) with (S 126). cbn [firstn app List.length]. lia.
  - lia.
Qed.

Lemma field_byte_lt v i : field_byte v i < 256.
Proof.
  unfold field_byte. change 256 with (2 ^ 8). apply lt_pow2_shiftr.
  rewrite N.shiftr_shiftr, N.shiftr_land, N.shiftr_shiftl_r by lia.
  replace (8 * i + 8 - 8 * i) with 8 by lia. change (N.shiftr 255 8) with 0. apply N.land_0_r.
Qed.

Lemma bytes_ok_filter f b : bytes_ok b = true -> bytes_ok (filter f b) = true.
Proof.
  induction b as [|x b IH]; [reflexivity|]. rewrite bytes_ok_cons. intros H. apply andb_true_iff in H as [Hx Hb].
  cbn [filter]. destruct (f x); [rewrite bytes_ok_cons, Hx|]; auto.
Qed.

Lemma field_bytes_ok v ks : bytes_ok (map (field_byte v) ks) = true.
Proof.
  induction ks as [|k ks IH]; [reflexivity|]. cbn [map]. rewrite bytes_ok_cons, IH, andb_true_r.
  apply N.ltb_lt, field_byte_lt.
Qed.

Lemma enc_list_lt es : forall j, fst (enc_list (2 ^ j) es) < 2 ^ (j + len es).
Proof.
  induction es as [|e t IH]; intros j; [apply N.neq_0_lt_0, N.pow_nonzero; discriminate|].
  cbn [enc_list]. rewrite <- N.pow_succ_r'. specialize (IH (N.succ j)).
  rewrite len_cons. replace (j + (1 + len t)) with (N.succ j + len t) by lia.
  destruct (enc_list (2 ^ N.succ j) t) as [code bs]. cbn [fst] in IH.
  destruct (e =? 0); cbn [fst]; [assumption|]. apply lor_lt_pow2; [|assumption].
  apply N.pow_lt_mono_r; lia.
Qed.

Lemma enc_copy_ok off l : bytes_ok (enc_copy off l) = true.
Proof.
  unfold enc_copy. rewrite enc_fields_list4, enc_fields_list3.
  pose proof (enc_list_lt (map (field_byte off) [0; 1; 2; 3]) 0) as H1.
  pose proof (enc_list_lt (map (field_byte l) [0; 1; 2]) 4) as H2.
  pose proof (enc_list_snd (map (field_byte off) [0; 1; 2; 3]) (2 ^ 0)) as B1.
  pose proof (enc_list_snd (map (field_byte l) [0; 1; 2]) (2 ^ 4)) as B2.
  change (2 ^ (0 + len _)) with 16 in H1. change (2 ^ (4 + len _)) with 128 in H2.
  destruct (enc_list (2 ^ 0) _) as [c1 b1], (enc_list (2 ^ 4) _) as [c2 b2]. cbn [fst snd] in *. subst b1 b2.
  rewrite bytes_ok_cons, bytes_ok_app, !bytes_ok_filter by apply field_bytes_ok.
  rewrite !andb_true_r. apply N.ltb_lt.
  repeat apply (lor_lt_pow2 _ _ 8); change (2 ^ 8) with 256; lia.
Qed.

Lemma enc_copy_len off l : 1 <= l -> l < 2 ^ 24 -> (2 <= List.length (enc_copy off l))%nat.
Proof.
  intros H1 H24. unfold enc_copy. rewrite enc_fields_list3.
  destruct (enc_fields 4 0 1 off) as [c1 b1].
  pose proof (recompose3 l H24) as R. unfold join_fields in R. cbn [map] in R. cbn [enc_list map].
  destruct (field_byte l 0 =? 0) eqn:E0; destruct (field_byte l 1 =? 0) eqn:E1; destruct (field_byte l 2 =? 0) eqn:E2;
    cbn [List.length]; rewrite ?app_length; cbn [List.length]; try lia.
  apply N.eqb_eq in E0, E1, E2. rewrite E0, E1, E2 in R. cbn in R. lia.
Qed.

Lemma enc_copies_ok : forall fuel off l, bytes_ok (enc_copies fuel off l) = true.
Proof.
  induction fuel as [|fuel IH]; intros off l; [reflexivity|]. cbn [enc_copies].
  destruct (l =? 0); [reflexivity|]. destruct (l <? max_copy_size); [apply enc_copy_ok|].
  rewrite bytes_ok_app, enc_copy_ok, IH. reflexivity.
Qed.

Lemma enc_copy_run_len off l : 1 <= l -> (2 <= List.length (enc_copy_run off l))%nat.
Proof.
  intros H1. unfold enc_copy_run. cbn [enc_copies]. unfold max_copy_size.
  assert (E : l =? 0 = false) by (apply N.eqb_neq; lia). rewrite E.
  destruct (l <? 65536) eqn:E2.
  - apply N.ltb_lt in E2. apply enc_copy_len; [assumption|].
    apply N.lt_trans with 65536; [assumption|vm_compute; reflexivity].
  - rewrite app_length. pose proof (enc_copy_len off 65536 ltac:(lia) ltac:(vm_compute; reflexivity)). lia.
Qed.

Lemma diff_ops_ok src p t ops : diff_ops src p t ops -> bytes_ok (p ++ t) = true -> bytes_ok ops = true.
Proof.
  intros H. induction H as [p t|l p t ops _ IH|off l p t rest _ _ _ _ IH]; intros Hok.
  - apply enc_insert_go_ok. exact Hok.
  - apply IH. rewrite <- app_assoc, firstn_skipn. exact Hok.
  - rewrite bytes_ok_app in Hok. apply andb_true_iff in Hok as [Hp Ht].
    unfold enc_copy_run, enc_insert. rewrite !bytes_ok_app, enc_copies_ok, IH, (enc_insert_go_ok _ p Hp); [reflexivity|].
    apply bytes_ok_skipn. exact Ht.
Qed.

Lemma diff_ops_len src p t ops : diff_ops src p t ops -> p ++ t <> [] -> (2 <= List.length ops)%nat.
Proof.
  intros H. induction H as [p t|l p t ops _ IH|off l p t rest Hl _ _ _ _]; intros Hne.
  - apply enc_insert_go_len. exact Hne.
  - apply IH. rewrite <- app_assoc, firstn_skipn. exact Hne.
  - rewrite !app_length. pose proof (enc_copy_run_len (N.of_nat off) (N.of_nat l) ltac:(lia)). lia.
Qed.

Lemma diff_git pick src tgt :
  bytes_ok tgt = true -> tgt <> [] -> len src <= 2 ^ 32 -> len tgt < 2 ^ 63 ->
  exists d, diff_delta pick src tgt = Some d /\ git_patch_delta src d = GOk tgt.
Proof.
  intros Hok Hne H32 H63.
  destruct (diff_roundtrip pick src tgt H32 H63) as (d & Hd & Hp).
  exists d. split; [assumption|].
  destruct (diff_delta_ops pick src tgt) as (ops & E & O). rewrite E in Hd. injection Hd as <-.
  assert (Hs63 : len src < 2 ^ 63) by (pose proof pow32_63; lia).
  pose proof (diff_ops_ok _ _ _ _ O Hok) as Hopsok. pose proof (diff_ops_len _ _ _ _ O Hne) as Hopslen.
  rewrite <- (apply_eq_git src).
  - rewrite Hp. reflexivity.
  - unfold enc_leb. rewrite !bytes_ok_app, !enc_leb_go_ok, Hopsok. reflexivity.
  - unfold git_guard. apply andb_true_iff.
    destruct (enc_leb_cons (len src)) as (b1 & r1 & E1), (enc_leb_cons (len tgt)) as (b2 & r2 & E2). split.
    + apply N.leb_le. rewrite !len_app, E1, E2, !len_cons. unfold len. lia.
    + rewrite leb_buf_enc_leb by assumption.
      replace (is_nil (enc_leb (len tgt) ++ ops)) with false by now rewrite E2.
      cbn [negb andb]. now rewrite leb_buf_enc_leb.
Qed.
