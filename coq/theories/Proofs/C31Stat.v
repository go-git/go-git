(* Proofs/C31Stat.v — GetStat (Go, one flag) computes git's gather_stats
   (one byte of look-ahead), up to the NUL/non-printable bookkeeping.
   Both are folds of the same per-byte increment [byte_stat]. *)
From Coq Require Import List NArith Lia Bool ZifyBool.
From GoGit Require Import Base.Out Model.Eol Spec.GitConvert.
Import ListNotations.
Local Open Scope N_scope.

(* the loop of GetStat alone (well-behaved reader) *)
Fixpoint gloop (bs : bytes) (st : stat) (h : bool) : stat * bool :=
  match bs with
  | [] => (st, h)
  | b :: r => let '(st', h') := stat_step st h b in gloop r st' h'
  end.

Lemma get_stat_ev_gloop bs : forall st h b0,
  get_stat_ev (map RByte bs) st h b0 =
  let '(st', h') := gloop bs st h in stat_finish st' h' (last (b0 :: bs) 0).
Proof.
  induction bs as [|b r IH]; intros st h b0; [reflexivity|].
  cbn [map get_stat_ev gloop]. destruct (stat_step st h b) as [st' h']. apply IH.
Qed.

Lemma gloop_app a b : forall st h,
  gloop (a ++ b) st h = let '(st', h') := gloop a st h in gloop b st' h'.
Proof.
  induction a as [|x a IH]; intros st h; [reflexivity|].
  cbn [app gloop]. destruct (stat_step st h x) as [st' h']. apply IH.
Qed.

(* go-git does not count NUL as non-printable; git does *)
Definition nulfix (s : stat) : stat :=
  mkStat (s_nul s) (s_lonecr s) (s_lonelf s) (s_crlf s) (s_print s) (s_nonprint s + s_nul s).
Definition fincr (s : stat) (h : bool) : stat :=
  mkStat (s_nul s) (if h then s_lonecr s + 1 else s_lonecr s) (s_lonelf s) (s_crlf s) (s_print s) (s_nonprint s).

(* what git still has to count when Go's flag is h and bs remains *)
Definition pend (h : bool) (bs : bytes) : stat :=
  if h then
    match bs with
    | c :: r => if c =? LF then sadd (mkStat 0 0 0 1 0 0) (git_gather r)
                else sadd (mkStat 0 1 0 0 0 0) (git_gather bs)
    | [] => mkStat 0 1 0 0 0 0
    end
  else git_gather bs.

(* what byte c adds to git's counters when the byte before it is a CR not yet
   accounted for (h) *)
Definition byte_stat (h : bool) (c : N) : stat :=
  if c =? LF then (if h then mkStat 0 0 0 1 0 0 else mkStat 0 0 1 0 0 0)
  else sadd (fincr stat0 h) (if c =? CR then stat0 else git_class c).

Lemma stat_eq a b :
  s_nul a = s_nul b -> s_lonecr a = s_lonecr b -> s_lonelf a = s_lonelf b ->
  s_crlf a = s_crlf b -> s_print a = s_print b -> s_nonprint a = s_nonprint b -> a = b.
Proof. destruct a, b; cbn; intros; subst; reflexivity. Qed.

(* equations between sums of counters, field by field *)
Ltac stat_solve :=
  apply stat_eq; cbn [s_nul s_lonecr s_lonelf s_crlf s_print s_nonprint sadd nulfix fincr stat0]; lia.

(* the five outcomes of the tests in git_class (and in stat_step after LF and CR) *)
Ltac class_cases c :=
  destruct (c =? 127); [|destruct (c <? 32);
    [destruct ((c =? 8) || (c =? 9) || (c =? 27) || (c =? 12)); [|destruct (c =? 0)]|]].

Lemma git_class_fields c :
  s_lonecr (git_class c) = 0 /\ s_lonelf (git_class c) = 0 /\ s_crlf (git_class c) = 0 /\
  s_nonprint (git_class c) <= 1.
Proof. unfold git_class. class_cases c; cbn; lia. Qed.

(* a pending CR is counted, as lone or as half of a CRLF, by the byte after it *)
Lemma byte_stat_fields h c :
  s_lonecr (byte_stat h c) + s_crlf (byte_stat h c) = (if h then 1 else 0) /\
  s_nonprint (byte_stat h c) <= 1.
Proof.
  unfold byte_stat. pose proof (git_class_fields c).
  destruct h, (c =? LF), (c =? CR); cbn [s_lonecr s_crlf s_nonprint sadd fincr stat0]; lia.
Qed.

Lemma git_gather_cr r : git_gather (CR :: r) = pend true r.
Proof. reflexivity. Qed.

(* git's look-ahead as one step per byte *)
Lemma pend_cons h c r : pend h (c :: r) = sadd (byte_stat h c) (pend (c =? CR) r).
Proof.
  assert (G : git_gather (c :: r) = sadd (byte_stat false c) (pend (c =? CR) r)).
  { unfold byte_stat. destruct (c =? CR) eqn:E.
    - apply N.eqb_eq in E. subst c. rewrite git_gather_cr. change (CR =? LF) with false. stat_solve.
    - cbn [git_gather pend]. rewrite E. destruct (c =? LF); stat_solve. }
  destruct h; [|exact G]. cbn [pend]. rewrite G. unfold byte_stat.
  destruct (N.eqb_spec c LF) as [->|_]; [reflexivity|stat_solve].
Qed.

(* Go's step adds the same increment, NUL apart *)
Lemma stat_step_spec st h c :
  exists st', stat_step st h c = (st', c =? CR) /\ nulfix st' = sadd (nulfix st) (byte_stat h c).
Proof.
  unfold stat_step, byte_stat, git_class.
  destruct (N.eqb_spec c LF) as [->|_]; cbn [negb andb].
  - destruct h; eexists; (split; [reflexivity|stat_solve]).
  - destruct h, (c =? CR).
    1, 3: eexists; (split; [reflexivity|stat_solve]).
    all: class_cases c; eexists; (split; [reflexivity|stat_solve]).
Qed.

Lemma gloop_spec bs : forall st h,
  let '(st', h') := gloop bs st h in
  nulfix (fincr st' h') = sadd (nulfix st) (pend h bs).
Proof.
  induction bs as [|c r IH]; intros st h.
  - destruct h; cbn [gloop pend git_gather]; stat_solve.
  - cbn [gloop]. destruct (stat_step_spec st h c) as (st1 & -> & E).
    specialize (IH st1 (c =? CR)). destruct (gloop r st1 (c =? CR)) as [st' h'].
    rewrite IH, E, pend_cons. stat_solve.
Qed.

(* at most one non-printable per byte: on short input Go's 64-bit counter has not wrapped *)
Lemma pend_bound bs : forall h, s_nonprint (pend h bs) <= N.of_nat (List.length bs).
Proof.
  induction bs as [|c r IH]; intros h.
  - destruct h; cbn; lia.
  - rewrite pend_cons. specialize (IH (c =? CR)). pose proof (byte_stat_fields h c).
    cbn [sadd s_nonprint List.length]. lia.
Qed.

(* a final ^Z has been counted as non-printable by Go's loop *)
Lemma gloop_last_sub bs st h :
  last bs 0 = SUB -> 1 <= s_nonprint (fst (gloop bs st h)).
Proof.
  intros Hl. destruct bs as [|b bs] using rev_ind; [discriminate|].
  rewrite last_last in Hl. subst b. rewrite gloop_app.
  destruct (gloop bs st h) as [s1 h1]. cbn [gloop].
  assert (E : s_nonprint (fst (stat_step s1 h1 SUB)) = s_nonprint s1 + 1) by (destruct h1; reflexivity).
  destruct (stat_step s1 h1 SUB). cbn [fst] in *. lia.
Qed.

(* the uint64 decrement of stat_finish *)
Lemma wrap_pred x : 1 <= x < 2 ^ 64 -> (x + (2 ^ 64 - 1)) mod 2 ^ 64 = x - 1.
Proof.
  intros H. replace (x + (2 ^ 64 - 1)) with (x - 1 + 1 * 2 ^ 64) by lia.
  rewrite N.mod_add by discriminate. apply N.mod_small. lia.
Qed.

Definition short (bs : bytes) : bool := N.of_nat (List.length bs) <? 2 ^ 64.

Lemma get_stat_git bs :
  short bs = true ->
  nulfix (get_stat bs) = git_stats bs.
Proof.
  unfold short, get_stat, git_stats. intros Hs. rewrite get_stat_ev_gloop. unfold stat_finish.
  replace (last (0 :: bs) 0) with (last bs 0) by (destruct bs; reflexivity).
  pose proof (gloop_spec bs stat0 false) as Hg. pose proof (pend_bound bs false) as Hb.
  pose proof (gloop_last_sub bs stat0 false) as Hsub.
  destruct (gloop bs stat0 false) as [st' h']. cbn [pend fst] in *.
  replace (git_gather bs) with (nulfix (fincr st' h')) in * by (rewrite Hg; stat_solve).
  cbn [nulfix fincr s_nonprint s_nul] in Hb.
  destruct (last bs 0 =? SUB) eqn:EL; [|reflexivity].
  apply N.eqb_eq in EL. specialize (Hsub EL). rewrite wrap_pred by lia.
  destruct h'; stat_solve.
Qed.

Lemma is_binary_git s :
  is_binary s = git_is_binary (nulfix s).
Proof.
  unfold is_binary, git_is_binary. cbn [nulfix s_nul s_lonecr s_print s_nonprint].
  destruct (0 <? s_nul s) eqn:E1; destruct (0 <? s_lonecr s) eqn:E2; try reflexivity.
  assert (s_nul s = 0) by lia. rewrite H, N.add_0_r.
  destruct (s_nonprint s <=? N.shiftr (s_print s) 7) eqn:E3; cbn [negb]; symmetry; lia.
Qed.

Lemma is_binary_get_stat bs :
  short bs = true -> is_binary (get_stat bs) = git_is_binary (git_stats bs).
Proof. intros H. rewrite is_binary_git, get_stat_git by assumption. reflexivity. Qed.
