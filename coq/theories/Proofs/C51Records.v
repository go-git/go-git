(* Proofs/C51Records.v — what the encoder writes per commit: the CDAT record, the slice of the
   EDGE chunk, the GDA2 word and the GDO2 slot (structure of commit_data and gen2_chunks); from
   these, the whole file: every chunk declared in the table of contents has exactly the declared
   number of bytes and nothing else is written (after the repair of the overflow count). *)
From Coq Require Import List NArith ZArith Bool Lia ZifyBool ZifyN ZifyNat Permutation.
From GoGit Require Import Base.Out Gen.C51 Model.CommitGraph Proofs.C51.
Import ListNotations.
Local Open Scope N_scope.

Section Records.
Variable sorted : list bytes.
Variable es : list centry.

Definition pidx_of (e : centry) : list N := map (hash_to_index sorted) (e_parents e).

(* the extra edges a commit appends to the EDGE chunk *)
Definition new_edges (e : centry) : list N :=
  match e_parents e with
  | _ :: b :: c :: rest => set_last (map (hash_to_index sorted) (b :: c :: rest))
  | _ => []
  end.

(* the two parent words, given the number of edges written before this commit *)
Definition parent_words (e : centry) (pos : nat) : N * N :=
  match e_parents e with
  | [] => (parentNone, parentNone)
  | [a] => (hash_to_index sorted a, parentNone)
  | [a; b] => (hash_to_index sorted a, hash_to_index sorted b)
  | a :: _ => (hash_to_index sorted a, N.lor (N.of_nat pos mod two32) parentOctopusUsed)
  end.

Definition time_word (e : centry) : N := N.lor (u64_of_Z (e_when e)) ((N.shiftl (e_gen e) 34) mod two64).

Definition record (e : centry) (pos : nat) : bytes :=
  e_tree e ++ be32 (fst (parent_words e pos)) ++ be32 (snd (parent_words e pos)) ++ be64 (time_word e).

Fixpoint records (ents : list centry) (pos : nat) : list bytes :=
  match ents with
  | [] => []
  | e :: r => record e pos :: records r (pos + List.length (new_edges e))
  end.

Lemma commit_data_records : forall hs edges,
  (forall h, In h hs -> find_entry h es None = Some (entry_of es h)) ->
  commit_data sorted es hs edges =
    (List.concat (records (map (entry_of es) hs) (List.length edges)),
     edges ++ flat_map new_edges (map (entry_of es) hs)).
Proof.
  induction hs as [|h r IH]; intros edges H.
  - simpl. now rewrite app_nil_r.
  - assert (Hr : forall h0, In h0 r -> find_entry h0 es None = Some (entry_of es h0)) by (intros; apply H; now right).
    cbn [commit_data map records flat_map List.concat]. rewrite (H h (or_introl eq_refl)).
    set (e := entry_of es h). unfold record, parent_words, new_edges, time_word.
    destruct (e_parents e) as [|a [|b [|c rest]]]; rewrite (IH _ Hr); cbn [fst snd List.length app];
      rewrite ?Nat.add_0_r, ?app_length, <- ?app_assoc; reflexivity.
Qed.

Lemma records_length : forall ents pos, List.length (records ents pos) = List.length ents.
Proof. induction ents as [|e r IH]; intros pos; [reflexivity|]. simpl. now rewrite IH. Qed.

Lemma records_nth : forall ents pos i, (i < List.length ents)%nat ->
  nth i (records ents pos) [] =
  record (nth i ents dummy_entry) (pos + List.length (flat_map new_edges (firstn i ents))).
Proof.
  induction ents as [|e r IH]; intros pos i Hi; [simpl in Hi; lia|].
  destruct i as [|i].
  - simpl. now rewrite Nat.add_0_r.
  - cbn [records nth firstn flat_map]. rewrite IH by (simpl in Hi; lia). rewrite app_length. f_equal. lia.
Qed.

Lemma record_length : forall e pos, List.length (e_tree e) = 20%nat -> List.length (record e pos) = 36%nat.
Proof. intros e pos H. unfold record. rewrite !app_length, !be32_length, be64_length, H. reflexivity. Qed.

Lemma records_width : forall ents pos, Forall (fun e => List.length (e_tree e) = 20%nat) ents ->
  forall r, In r (records ents pos) -> List.length r = 36%nat.
Proof.
  induction ents as [|e rs IH]; intros pos H r Hr; [contradiction|].
  inversion H; subst. simpl in Hr. destruct Hr as [Hr|Hr]; [subst r; now apply record_length | eapply IH; eauto].
Qed.

(* the edges of commit i sit in the chunk right after those of the commits before it *)
Definition flat_map_split_nth := flat_map_split centry new_edges dummy_entry.

Lemma new_edges_length : forall e, List.length (new_edges e) = extra_nat e.
Proof.
  intros e. unfold new_edges, extra_nat. destruct (e_parents e) as [|a [|b [|c rest]]]; try reflexivity.
  rewrite set_last_length, map_length. cbn [List.length]. destruct (2 <? S (S (S (List.length rest))))%nat eqn:E; lia.
Qed.

Lemma flat_new_edges_length : forall ents, List.length (flat_map new_edges ents) = sum_nat (map extra_nat ents).
Proof.
  induction ents as [|e r IH]; [reflexivity|]. cbn [flat_map map sum_nat]. now rewrite app_length, new_edges_length, IH.
Qed.
End Records.

Definition is_ovf (d : N) : bool := 2147483648 <=? d.

Fixpoint gen2_words (ds : list N) (head : N) : list N :=
  match ds with
  | [] => []
  | d :: r => if is_ovf d then N.lor (head mod two32) 2147483648 :: gen2_words r (head + 1)
              else d :: gen2_words r head
  end.

Lemma gen2_chunks_words : forall ds head,
  gen2_chunks ds head = (flat_map be32 (gen2_words ds head), filter is_ovf ds).
Proof.
  induction ds as [|d r IH]; intros head; [reflexivity|].
  cbn [gen2_chunks gen2_words filter]. unfold is_ovf at 1 2. fold (is_ovf d). destruct (is_ovf d); rewrite IH; reflexivity.
Qed.

Lemma gen2_words_length : forall ds head, List.length (gen2_words ds head) = List.length ds.
Proof.
  induction ds as [|d r IH]; intros head; [reflexivity|]. cbn [gen2_words]. destruct (is_ovf d); simpl; now rewrite IH.
Qed.

Definition ovf_before (ds : list N) (i : nat) : nat := List.length (filter is_ovf (firstn i ds)).

Lemma gen2_words_nth : forall ds head i, (i < List.length ds)%nat ->
  nth i (gen2_words ds head) 0 =
  if is_ovf (nth i ds 0) then N.lor ((head + N.of_nat (ovf_before ds i)) mod two32) 2147483648 else nth i ds 0.
Proof.
  induction ds as [|d r IH]; intros head i Hi; [simpl in Hi; lia|].
  destruct i as [|i].
  - cbn [gen2_words nth]. unfold ovf_before. cbn [firstn filter List.length]. destruct (is_ovf d); cbn [nth]; [|reflexivity].
    now rewrite N.add_0_r.
  - cbn [gen2_words nth]. unfold ovf_before. cbn [firstn filter]. destruct (is_ovf d) eqn:E; cbn [nth].
    + rewrite IH by (simpl in Hi; lia). unfold ovf_before. cbn [List.length].
      replace (head + 1 + N.of_nat (List.length (filter is_ovf (firstn i r))))
        with (head + N.of_nat (S (List.length (filter is_ovf (firstn i r))))) by lia. reflexivity.
    + rewrite IH by (simpl in Hi; lia). reflexivity.
Qed.

(* the slot of an overflowing value in the overflow chunk *)
Lemma filter_nth_ovf : forall ds i, (i < List.length ds)%nat -> is_ovf (nth i ds 0) = true ->
  (ovf_before ds i < List.length (filter is_ovf ds))%nat /\
  nth (ovf_before ds i) (filter is_ovf ds) 0 = nth i ds 0.
Proof.
  induction ds as [|d r IH]; intros i Hi Ho; [simpl in Hi; lia|].
  destruct i as [|i].
  - cbn [nth] in Ho. unfold ovf_before. cbn [firstn filter List.length nth]. rewrite Ho. cbn [List.length nth]. split; [lia | reflexivity].
  - cbn [nth] in Ho. destruct (IH i) as [A B]; [simpl in Hi; lia | exact Ho |].
    unfold ovf_before in *. cbn [firstn filter nth]. destruct (is_ovf d); cbn [List.length nth]; split; try lia; exact B.
Qed.

Lemma ovf_before_le : forall ds i, (ovf_before ds i <= i)%nat.
Proof.
  intros ds i. unfold ovf_before. pose proof (filter_length_le _ is_ovf (firstn i ds)).
  pose proof (firstn_le_length i ds). lia.
Qed.

Lemma find_sorted : forall es h, wf_entries es -> In h (sorted_of es) ->
  find_entry h es None = Some (entry_of es h).
Proof. intros es h Hwf Hh. destruct (sorted_in es h Hwf Hh) as [e [_ [_ Hf]]]. unfold entry_of. now rewrite Hf. Qed.

Lemma gen2_data_sorted : forall es, wf_entries es ->
  map (fun h => match find_entry h es None with Some e => gen2_data e | None => 0 end) (sorted_of es)
  = map gen2_data (sorted_entries es).
Proof.
  intros es Hwf. unfold sorted_entries. rewrite map_map. apply map_ext_in. intros h Hh.
  now rewrite (find_sorted es h Hwf Hh).
Qed.

Lemma edges_count : forall es, wf_entries es ->
  N.of_nat (List.length (flat_map (new_edges (sorted_of es)) (sorted_entries es))) = extra_edges_count es.
Proof.
  intros es Hwf. rewrite flat_new_edges_length, extra_edges_count_nat. f_equal.
  apply sum_nat_perm, Permutation_map, (sorted_entries_perm es Hwf).
Qed.

Lemma overflow_count_filter : forall es, wf_entries es -> has_gen2 es = true ->
  overflow_count es = N.of_nat (List.length (filter is_ovf (map gen2_data (sorted_entries es)))).
Proof.
  intros es Hwf Hg. unfold overflow_count. rewrite Hg. f_equal.
  rewrite filter_map_length. rewrite (filter_length_perm _ _ _ _ (sorted_entries_perm es Hwf)).
  f_equal. apply filter_ext. intros e. unfold is_ovf, two31. lia.
Qed.

Lemma sorted_trees : forall es, wf_entries es -> Forall (fun e => List.length (e_tree e) = 20%nat) (sorted_entries es).
Proof.
  intros es Hwf. apply (Permutation_Forall (Permutation_sym (sorted_entries_perm es Hwf))).
  destruct Hwf as [_ Hall]. eapply Forall_impl; [|exact Hall]. now intros e [_ H].
Qed.

(* the output, chunk by chunk *)
Lemma encode_shape : forall es, wf_entries es ->
  let sorted := sorted_of es in
  let ents := sorted_entries es in
  let ds := map gen2_data ents in
  let tbl := chunk_table es (N.of_nat (List.length sorted)) in
  let k := N.of_nat (List.length tbl) in
  encode es =
  (sig_CGPH ++ [1; 1; k mod 256; 0] ++ chunk_headers tbl (8 + (k + 1) * 12)) ++
  flat_map be32 (fanout_of sorted) ++ List.concat sorted ++ List.concat (records sorted ents 0) ++
  flat_map be32 (flat_map (new_edges sorted) ents) ++
  (if has_gen2 es then flat_map be32 (gen2_words ds 0) ++ flat_map be64 (filter is_ovf ds) else []).
Proof.
  intros es Hwf sorted ents ds tbl k.
  unfold encode. fold (sorted_of es). fold sorted. fold tbl. fold k.
  rewrite (commit_data_records sorted es sorted [] (fun h => find_sorted es h Hwf)). cbv iota beta.
  pose proof (gen2_data_sorted es Hwf) as Hds. fold sorted ents ds in Hds.
  rewrite Hds, gen2_chunks_words. cbn [List.length app]. change (map (entry_of es) sorted) with ents.
  destruct (has_gen2 es); now rewrite <- ?app_assoc.
Qed.

(* header ++ table ++ the payloads in table order, each of the size the table declares *)
Theorem encode_layout : forall es, wf_entries es ->
  let sorted := sorted_of es in
  let n := N.of_nat (List.length sorted) in
  let tbl := chunk_table es n in
  let k := N.of_nat (List.length tbl) in
  exists payloads,
    encode es = sig_CGPH ++ [1; 1; k mod 256; 0] ++ chunk_headers tbl (8 + (k + 1) * 12) ++ List.concat payloads
    /\ Forall2 payload_ok payloads tbl
    /\ nth 0 payloads [] = flat_map be32 (fanout_of sorted).
Proof.
  intros es Hwf sorted n tbl k.
  set (ents := sorted_entries es). set (ds := map gen2_data ents).
  set (edges := flat_map (new_edges sorted) ents). set (recs := records sorted ents 0).
  set (fan := flat_map be32 (fanout_of sorted)).
  exists ([fan; List.concat sorted; List.concat recs]
          ++ (if 0 <? extra_edges_count es then [flat_map be32 edges] else [])
          ++ (if has_gen2 es then flat_map be32 (gen2_words ds 0) ::
                (if 0 <? overflow_count es then [flat_map be64 (filter is_ovf ds)] else []) else [])).
  pose proof (edges_count es Hwf) as Hedges. fold sorted ents edges in Hedges.
  pose proof (overflow_count_filter es Hwf) as Hovc. fold ents ds in Hovc.
  split; [|split; [|reflexivity]].
  - pose proof (encode_shape es Hwf) as S. cbv zeta in S. rewrite S.
    (* an EDGE or GDO2 chunk is left out exactly when its payload is empty *)
    assert (He : List.concat (if 0 <? extra_edges_count es then [flat_map be32 edges] else []) = flat_map be32 edges).
    { destruct (0 <? extra_edges_count es) eqn:Ex; cbn [List.concat]; [apply app_nil_r|].
      destruct edges; [reflexivity|simpl in Hedges; lia]. }
    assert (Ho : has_gen2 es = true ->
                 List.concat (if 0 <? overflow_count es then [flat_map be64 (filter is_ovf ds)] else [])
                 = flat_map be64 (filter is_ovf ds)).
    { intros Hg. specialize (Hovc Hg). destruct (0 <? overflow_count es) eqn:Eo; cbn [List.concat]; [apply app_nil_r|].
      destruct (filter is_ovf ds); [reflexivity|simpl in Hovc; lia]. }
    rewrite !concat_app, He. cbn [List.concat].
    destruct (has_gen2 es).
    + cbn [List.concat]. rewrite (Ho eq_refl), ?app_nil_r, <- ?app_assoc. reflexivity.
    + rewrite ?app_nil_r, <- ?app_assoc. reflexivity.
  - unfold tbl, chunk_table. apply Forall2_app; [|apply Forall2_app].
    + constructor; [reflexivity|]. repeat constructor; unfold payload_ok; cbn [snd].
      * rewrite (concat_length_const sorted 20 (sorted_len20 es Hwf)). unfold n, hashSize. lia.
      * rewrite (concat_length_const recs 36 (records_width sorted ents 0 (sorted_trees es Hwf))).
        unfold recs, ents, sorted_entries. rewrite records_length, map_length. fold sorted.
        unfold n, hashSize, szCommitData. change (zN cg_szCommitData) with 16. lia.
    + destruct (0 <? extra_edges_count es); repeat constructor. unfold payload_ok. cbn [snd]. rewrite flat_map_be32_length. lia.
    + destruct (has_gen2 es); repeat constructor; unfold payload_ok; cbn [snd].
      * unfold ds, ents, sorted_entries. rewrite flat_map_be32_length, gen2_words_length, !map_length. fold sorted. unfold n. lia.
      * destruct (0 <? overflow_count es); repeat constructor. unfold payload_ok. cbn [snd]. rewrite flat_map_be64_length, (Hovc eq_refl). lia.
Qed.
