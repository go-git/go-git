(* Proofs/C49Segs.v — the path-glob semantics on a path joined with slashes is
   a component-wise matching of segments against components. *)
From Coq Require Import List NArith Bool Lia PeanoNat.
From GoGit Require Import Base.Out Model.Gitignore Spec.Glob Spec.PathGlob Spec.GitIgnore
     Proofs.C49Total Proofs.C49Wild Proofs.C49Path Proofs.C49Names Proofs.C49Walk.
Import ListNotations.
Local Open Scope N_scope.

Inductive pseg := SReg (g : list item) | SDirs.

Fixpoint flatten (F : list pseg) : list pitem :=
  match F with
  | [] => []
  | SReg g :: r => map PIt g ++ match r with [] => [] | _ => PSep :: flatten r end
  | SDirs :: r => PDirs :: flatten r
  end.

(* segments against the components of a non-empty path *)
Inductive SMatch : list pseg -> list bytes -> Prop :=
| SM_last : forall g c, Gmatch g c -> SMatch [SReg g] [c]
| SM_reg : forall g c F cs, F <> [] -> Gmatch g c -> SMatch F cs -> SMatch (SReg g :: F) (c :: cs)
| SM_dirs0 : forall F cs, SMatch F cs -> SMatch (SDirs :: F) cs
| SM_dirsS : forall F c cs, SMatch (SDirs :: F) cs -> SMatch (SDirs :: F) (c :: cs).

Lemma SMatch_nonempty F cs : SMatch F cs -> cs <> [].
Proof. induction 1; try discriminate; assumption. Qed.

Lemma SMatch_dirs_iff F cs : SMatch (SDirs :: F) cs <-> exists k, SMatch F (skipn k cs).
Proof.
  split.
  - intros H. remember (SDirs :: F) as G eqn:EG. induction H; inversion EG; subst.
    + exists O. assumption.
    + destruct (IHSMatch eq_refl) as [k Hk]. exists (S k). exact Hk.
  - intros [k Hk]. revert cs Hk. induction k as [|k IH]; intros cs Hk.
    + now apply SM_dirs0.
    + destruct cs as [|c cs']; [cbn in Hk; now apply SM_dirs0|]. apply SM_dirsS. now apply IH.
Qed.

Lemma Gmatch_noslash_split g : forall c, Gmatch (IStar :: g) c -> noslash c ->
  exists s c1, c = s ++ c1 /\ noslash s /\ noslash c1 /\ Gmatch g c1.
Proof.
  intros c H Hc. apply Gmatch_star_iff in H. destruct H as (c1 & (s & ->) & Hm).
  exists s, c1. split; [reflexivity|]. unfold noslash in *.
  repeat split; try assumption; intros Hin; apply Hc; apply in_or_app; tauto.
Qed.

Lemma PM_seg g : forall rest t,
  PMatch (map PIt g ++ rest) t <->
  exists c t', t = c ++ t' /\ noslash c /\ Gmatch g c /\ PMatch rest t'.
Proof.
  induction g as [|it g IH]; intros rest t; cbn [map app].
  - split.
    + intros H. exists [], t. repeat split; [apply noslash_nil|constructor|assumption].
    + intros (c & t' & -> & _ & Hg & Hm). apply Gmatch_nil_inv in Hg. now subst.
  - destruct (is_star it) eqn:Es.
    + destruct it; try discriminate. rewrite PM_star_iff. split.
      * intros (t1 & (s & -> & Hs) & Hm). apply IH in Hm.
        destruct Hm as (c1 & t' & -> & Hc1 & Hg & Hr).
        exists (s ++ c1), t'. split; [now rewrite app_assoc|]. split; [now apply noslash_app|].
        split; [now constructor|assumption].
      * intros (c & t' & -> & Hc & Hg & Hr).
        destruct (Gmatch_noslash_split _ _ Hg Hc) as (s & c1 & -> & Hs & Hc1 & Hg1).
        exists (c1 ++ t'). split; [exists s; split; [now rewrite app_assoc|assumption]|].
        apply IH. exists c1, t'. repeat split; assumption.
    + split.
      * intros H. apply PM_item_inv in H; [|assumption].
        destruct H as (c0 & t0 & -> & Hok & Hc0 & Hm). apply IH in Hm.
        destruct Hm as (c1 & t' & -> & Hc1 & Hg & Hr).
        exists (c0 :: c1), t'. split; [reflexivity|]. split; [now apply noslash_cons|].
        split; [now constructor|assumption].
      * intros (c & t' & -> & Hc & Hg & Hr).
        apply Gmatch_one_inv in Hg; [|assumption].
        destruct Hg as (c0 & c1 & -> & Hok & Hg1).
        apply noslash_cons_inv in Hc. destruct Hc as [Hc0 Hc1].
        cbn [app]. constructor; try assumption.
        apply IH. exists c1, t'. repeat split; assumption.
Qed.

Lemma join_cons c cs : cs <> [] -> join_slash (c :: cs) = c ++ 47 :: join_slash cs.
Proof. destruct cs; [congruence|reflexivity]. Qed.

Lemma comp_ok_noslash c : comp_ok c = true -> noslash c /\ c <> [].
Proof.
  unfold comp_ok. rewrite !andb_true_iff. intros [[H1 H2] _]. split.
  - apply noslash_has_slash. now apply negb_true_iff in H2.
  - destruct c; [discriminate|discriminate].
Qed.

Lemma path_ok_cons c cs : path_ok (c :: cs) = true -> noslash c /\ path_ok cs = true.
Proof.
  cbn [path_ok forallb]. intros H. apply andb_true_iff in H. destruct H as [Hc H].
  split; [now apply comp_ok_noslash|exact H].
Qed.

Lemma join_noslash_single cs : noslash (join_slash cs) -> (List.length cs <= 1)%nat.
Proof.
  destruct cs as [|c [|c2 r]]; cbn [List.length]; try lia.
  intros H. exfalso. rewrite join_cons in H by discriminate. apply H.
  apply in_or_app. right. now left.
Qed.

Lemma join_split cs : path_ok cs = true -> forall s t', join_slash cs = s ++ 47 :: t' ->
  exists k, (0 < k < List.length cs)%nat /\ s = join_slash (firstn k cs) /\ t' = join_slash (skipn k cs).
Proof.
  induction cs as [|c cs IH]; intros Hok s t' H.
  - destruct s; discriminate.
  - apply path_ok_cons in Hok. destruct Hok as [Hns Hok].
    destruct cs as [|c2 r].
    + exfalso. cbn in H. apply Hns. rewrite H. apply in_or_app. right. now left.
    + rewrite join_cons in H by discriminate.
      destruct (first_slash _ _ _ _ Hns H) as [[-> ->]|(x & -> & Hx)].
      * exists 1%nat. cbn [List.length]. split; [lia|]. split; reflexivity.
      * destruct (IH Hok _ _ Hx) as (k & Hk & -> & ->).
        exists (S k). cbn [List.length] in *. split; [lia|]. split; [|reflexivity].
        cbn [firstn]. rewrite join_cons; [reflexivity|].
        destruct k; [lia|]. discriminate.
Qed.

Lemma join_app a b : a <> [] -> b <> [] -> join_slash (a ++ b) = join_slash a ++ 47 :: join_slash b.
Proof.
  intros Ha Hb. induction a as [|c a IH]; [congruence|]. destruct a as [|c2 a'].
  - apply join_cons, Hb.
  - cbn [app] in *. rewrite (join_cons c (c2 :: a' ++ b)), (join_cons c (c2 :: a')) by discriminate.
    rewrite (IH ltac:(discriminate)). now rewrite <- app_assoc.
Qed.

(* no "**" at the end *)
Fixpoint wfF (F : list pseg) : bool :=
  match F with
  | [] => false
  | [SReg _] => true
  | [SDirs] => false
  | _ :: r => wfF r
  end.

Lemma wfF_cons_ne x F : F <> [] -> wfF (x :: F) = wfF F.
Proof. destruct F; [congruence|]. destruct x; reflexivity. Qed.

Lemma flatten_match : forall F cs, wfF F = true -> path_ok cs = true -> cs <> [] ->
  (PMatch (flatten F) (join_slash cs) <-> SMatch F cs).
Proof.
  induction F as [|x F IH]; intros cs Hwf Hok Hne; [discriminate|].
  destruct x as [g|].
  - destruct F as [|y F'].
    + (* the last segment *)
      cbn [flatten]. rewrite PM_seg. split.
      * intros (c & t' & E & Hc & Hg & Hm). apply PM_nil_inv in Hm. subst t'.
        rewrite app_nil_r in E.
        assert (Hl : (List.length cs <= 1)%nat) by (apply join_noslash_single; now rewrite E).
        destruct cs as [|c0 [|c1 r]]; [congruence| |cbn in Hl; lia].
        cbn in E. subst. now constructor.
      * intros H. inversion H; subst; [|congruence].
        exists c, []. cbn [join_slash]. rewrite app_nil_r.
        cbn in Hok. rewrite andb_true_r in Hok. destruct (comp_ok_noslash _ Hok) as [Hns _].
        repeat split; try assumption. constructor.
    + assert (Hwf' : wfF (y :: F') = true) by (rewrite wfF_cons_ne in Hwf by discriminate; exact Hwf).
      change (flatten (SReg g :: y :: F')) with (map PIt g ++ PSep :: flatten (y :: F')).
      rewrite PM_seg. split.
      * intros (c & t' & E & Hc & Hg & Hm). apply PM_sep_inv in Hm. destruct Hm as (t'' & -> & Hm).
        destruct cs as [|c0 cs']; [congruence|].
        apply path_ok_cons in Hok. destruct Hok as [Hns0 Hok'].
        destruct cs' as [|c1 r].
        { exfalso. cbn in E. apply Hns0. rewrite E. apply in_or_app. right. now left. }
        rewrite join_cons in E by discriminate.
        destruct (first_slash_unique _ _ _ _ Hns0 Hc E) as [E1 E2]. subst c t''.
        apply SM_reg; [discriminate|assumption|].
        apply IH; [assumption|assumption|discriminate|assumption].
      * intros H. inversion H as [|? c ? cs0 _ Hgc Hrest| |]; subst.
        apply path_ok_cons in Hok. destruct Hok as [Hns0 Hok'].
        pose proof (SMatch_nonempty _ _ Hrest) as Hne'.
        exists c, (47 :: join_slash cs0). split; [now apply join_cons|].
        repeat split; try assumption. constructor.
        apply IH; assumption.
  - (* "**/" *)
    assert (HFne : F <> []) by (destruct F; [discriminate|discriminate]).
    assert (Hwf' : wfF F = true) by (rewrite wfF_cons_ne in Hwf by assumption; exact Hwf).
    cbn [flatten]. rewrite PM_dirs_iff, SMatch_dirs_iff. split.
    + intros [H|(s & t' & E & H)].
      * exists O. apply IH; assumption.
      * destruct (join_split _ Hok _ _ E) as (k & Hk & -> & ->).
        exists k. apply IH; [assumption|now apply path_ok_skipn| |assumption].
        intros E0. assert (List.length (skipn k cs) = O) by now rewrite E0.
        rewrite skipn_length in H0. lia.
    + intros [k Hk]. pose proof (SMatch_nonempty _ _ Hk) as Hne'.
      destruct k as [|k]; [left; apply IH; assumption|].
      right. exists (join_slash (firstn (S k) cs)), (join_slash (skipn (S k) cs)).
      split; [rewrite <- join_app, firstn_skipn by (assumption || now destruct cs); reflexivity|].
      apply IH; [assumption|now apply path_ok_skipn|assumption|assumption].
Qed.
