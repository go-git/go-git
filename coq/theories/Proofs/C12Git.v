(* Proofs/C12Git.v — git (S = Spec/GitIndex.v) reads what go-git's encoder (G = Model/IndexFile.v) writes. *)
From Coq Require Import List NArith ZArith Arith Lia ZifyBool ZifyNat ZifyN Bool.
From GoGit Require Import Base.Out Model.IndexFile Spec.GitIndex Proofs.C12 Proofs.C12Size.
Import ListNotations.
Local Open Scope N_scope.

(* wherever go-git's reader succeeds, git's decode_varint returns the same value and position:
   go-git's overflow limit is the stricter one *)
Lemma g_varint_of_read : forall fuel v c b r,
  read_varint_loop fuel v c b = Ok r -> g_varint_loop fuel v c b = GOk r.
Proof.
  assert (Hlim : forall v, (varint_limit <=? v) = false -> (144115188075855872 <=? v + 1) = false)
    by (unfold varint_limit; lia).
  induction fuel as [|f IH]; intros v c b r; cbn [read_varint_loop g_varint_loop];
    (destruct (c <? 128); [intros [= <-]; reflexivity|]);
    (destruct (varint_limit <=? v) eqn:El; [discriminate|]); rewrite (Hlim v El);
    (destruct b as [|c' b']; [discriminate|]).
  - discriminate.
  - apply IH.
Qed.

Lemma g_decode_varint_of_read b r : read_varint b = Ok r -> g_decode_varint b = GOk r.
Proof. unfold read_varint, g_decode_varint. destruct b; [discriminate|]. apply g_varint_of_read. Qed.

Lemma g_decode_varint_varint n rest : n < 4294967296 -> g_decode_varint (varint n ++ rest) = GOk (n, rest).
Proof. intros Hn. apply g_decode_varint_of_read. now apply read_varint_varint. Qed.

(* encode_varint writes the bytes WriteVariableWidthInt writes *)
Lemma g_varint_more_eq : forall f value acc, g_varint_more f value acc = varint_more f (value / 128) acc.
Proof.
  induction f as [|f IH]; intros value acc; cbn [g_varint_more varint_more]; [reflexivity|].
  destruct (value / 128 =? 0); [reflexivity|]. apply IH.
Qed.

Lemma g_encode_varint_eq n : g_encode_varint n = varint n.
Proof. unfold g_encode_varint, varint. apply g_varint_more_eq. Qed.

Lemma g_strlen_app s r : nonul s = true -> g_strlen (s ++ 0 :: r) = Some (List.length s).
Proof.
  induction s as [|c s IH]; intros Hn; cbn [app g_strlen List.length]; [reflexivity|].
  cbn in Hn. apply andb_true_iff in Hn as [Hc Hs]. apply negb_true_iff in Hc. rewrite Hc, IH by assumption. reflexivity.
Qed.

Lemma g_nonul_eq s : g_nonul s = nonul s.
Proof. reflexivity. Qed.

Lemma g_ondisk_enc hs f r : fixed_ok hs f -> f_flags f < 65536 ->
  g_ondisk hs (enc_fixed f ++ r) =
  Some (mkGE (f_sec f) (f_nsec f) (f_msec f) (f_mnsec f) (f_dev f) (f_ino f) (f_mode f) (f_uid f) (f_gid f) (f_size f) (f_hash f),
        f_flags f, r).
Proof.
  intros (? & ? & ? & ? & ? & ? & ? & ? & ? & ? & ?) ?. unfold g_ondisk, enc_fixed. rewrite <- !app_assoc.
  do 10 (rewrite get_u32_u32 by assumption).
  rewrite (take_app_n hs), get_u16_u16 by assumption. reflexivity.
Qed.

Definition time_raw (t : gtime) : N * N := match time_to_u32 t with Ok p => p | Err _ => (0, 0) end.

(* what git holds in memory for an entry go-git encoded *)
Definition git_of_entry (e : entry) : gentry :=
  mkGE (fst (time_raw (e_ctime e))) (snd (time_raw (e_ctime e))) (fst (time_raw (e_mtime e))) (snd (time_raw (e_mtime e)))
       (e_dev e) (e_ino e) (e_mode e) (e_uid e) (e_gid e) (e_size e) (e_hash e)
       (e_stage e) (e_ita e || e_skip e) false (e_ita e) (e_skip e) (e_name e).

(* the second flag word as create_from_disk reads it (no bit outside CE_EXTENDED_FLAGS): four combinations *)
Lemma g_read_ext_bytes ita skip tail :
  (if (ita || skip)%bool
   then match get_u16 (ext_bytes ita skip ++ tail) with
        | None => GErr GOob
        | Some (x, b2) => if N.ldiff x 24576 =? 0 then GOk (N.testbit x 13, N.testbit x 14, b2) else GErr GUnknownEntryFormat
        end
   else GOk (false, false, ext_bytes ita skip ++ tail)) = GOk (ita, skip, tail).
Proof. destruct ita, skip; reflexivity. Qed.

Lemma take_zeros_more n m r : (n <= m)%nat -> exists z, take n (zeros m ++ r) = Some (zeros n, z).
Proof.
  intros Hle. replace m with (n + (m - n))%nat by lia. unfold zeros. rewrite repeat_app, <- app_assoc.
  eexists. apply take_app_n. apply repeat_length.
Qed.

Lemma ce_size_pad hs (ext : bool) nl :
  (g_ondisk_ce_size hs ext nl - (40 + hs + 2 + (if ext then 2 else 0)) =
   nl + (8 - (42 + hs + (if ext then 2 else 0) + nl) mod 8))%nat.
Proof.
  unfold g_ondisk_ce_size.
  replace (40 + hs + 2 + (if ext then 2 else 0) + nl)%nat with (42 + hs + (if ext then 2 else 0) + nl)%nat by lia.
  rewrite align8. lia.
Qed.

Lemma name_len_field_small name : name_len_field name <> 4095 -> N.to_nat (name_len_field name) = List.length name.
Proof. unfold name_len_field. destruct (N.of_nat (List.length name) <? 4095) eqn:E; lia. Qed.

(* the name length git works with: the length field, or strlen of what remains plus what was copied *)
Lemma g_name_len name s tail (f : nat -> nat) : nonul s = true -> f (List.length s) = List.length name ->
  (if name_len_field name =? 4095
   then match g_strlen (s ++ 0 :: tail) with None => GErr GOob | Some l0 => GOk (f l0) end
   else GOk (N.to_nat (name_len_field name))) = GOk (List.length name).
Proof.
  intros Hs Hf. destruct (name_len_field name =? 4095) eqn:E.
  - now rewrite g_strlen_app, Hf.
  - apply N.eqb_neq in E. now rewrite name_len_field_small.
Qed.

(* V2/V3: git takes the name by its length field (or strlen) and jumps to ondisk_ce_size *)
Lemma g_name_v23_ok hs (ext : bool) name rest :
  nonul name = true ->
  g_name_v23 hs ext (40 + hs + 2 + (if ext then 2 else 0)) (name_len_field name)
             (name ++ zeros (8 - (42 + hs + (if ext then 2 else 0) + List.length name) mod 8) ++ rest) = GOk (name, rest).
Proof.
  intros Hn. unfold g_name_v23.
  set (nl := List.length name).
  pose proof (Nat.mod_upper_bound (42 + hs + (if ext then 2 else 0) + nl) 8) as Hpad.
  destruct (8 - (42 + hs + (if ext then 2 else 0) + nl) mod 8)%nat as [|pad] eqn:Ep; [lia|]. rewrite zeros_S. cbn [app].
  rewrite (g_name_len name name _ (fun l => l)), take_app by auto. cbn [N.eqb negb orb].
  rewrite g_nonul_eq, Hn. cbn [negb]. fold nl. rewrite ce_size_pad, Ep.
  change (name ++ 0 :: zeros pad ++ rest) with (name ++ zeros (S pad) ++ rest). rewrite app_assoc.
  rewrite (take_app_n (nl + S pad)) by (rewrite app_length, zeros_length; reflexivity).
  reflexivity.
Qed.

(* V4: strip length against the previous name, suffix, NUL *)
Lemma g_name_v4_ok last name rest :
  nonul name = true -> last_ok last ->
  g_name_v4 last (name_len_field name)
            (varint (N.of_nat (v4_strip last name)) ++ skipn (v4_prefix last name) name ++ [0] ++ rest) = GOk (name, rest).
Proof.
  intros Hn Hlast. unfold g_name_v4.
  set (nl := List.length name). set (prefix := v4_prefix last name).
  rewrite g_decode_varint_varint by now apply v4_strip_lt.
  assert (Hcopy : (match last with
                   | None => GOk O
                   | Some p => if N.of_nat (List.length p) <? N.of_nat (v4_strip last name) then GErr GMalformedName
                               else GOk (List.length p - N.to_nat (N.of_nat (v4_strip last name)))%nat
                   end) = GOk prefix /\ (prefix <= nl)%nat /\
                  firstn prefix (match last with Some p => p | None => [] end) = firstn prefix name).
  { unfold prefix. destruct last as [ln|]; cbn [v4_strip v4_prefix].
    - pose proof (cpl_le ln name) as Hle.
      rewrite (proj2 (N.ltb_ge _ _)), Nat2N.id by lia.
      split; [f_equal; lia|]. split; [apply cpl_le_r|apply cpl_firstn].
    - split; [reflexivity|]. split; [lia|reflexivity]. }
  destruct Hcopy as (-> & Hple & Hpre).
  assert (Hsuf : List.length (skipn prefix name) = (nl - prefix)%nat) by apply skipn_length.
  cbn [app]. rewrite (g_name_len name (skipn prefix name) _ (fun l => (l + prefix)%nat)) by (try apply nonul_skipn; auto; lia).
  fold nl. rewrite (proj2 (Nat.ltb_ge _ _)) by lia.
  rewrite <- Hsuf, take_app. cbn [app N.eqb negb orb].
  rewrite Hpre, firstn_skipn, g_nonul_eq, Hn. reflexivity.
Qed.

Lemma g_create_entry_bytes hs ver last f stage valid ita skip name rest :
  fixed_ok hs f -> ver = 2 \/ ver = 3 \/ ver = 4 -> last_ok last -> nonul name = true -> stage < 4 ->
  f_flags f = flag_word stage (ita || skip) valid (name_len_field name) ->
  g_create_from_disk hs ver last (entry_bytes hs ver last f ita skip name ++ rest) =
  GOk (mkGE (f_sec f) (f_nsec f) (f_msec f) (f_mnsec f) (f_dev f) (f_ino f) (f_mode f) (f_uid f) (f_gid f) (f_size f) (f_hash f)
            stage (ita || skip) valid ita skip name, rest).
Proof.
  intros Hf Hver Hlast Hn Hst Hfl.
  destruct (flag_word_fields stage _ (ita || skip) valid Hst (name_len_field_lt name)) as (Hstage & Hlen & Hbit & Hvalid & Hfw).
  rewrite <- Hfl in *. unfold g_create_from_disk, entry_bytes. rewrite <- !app_assoc.
  rewrite g_ondisk_enc by assumption. cbv zeta. rewrite Hbit, g_read_ext_bytes, Hlen, Hstage, Hvalid.
  unfold name_part. destruct (ver_cases ver Hver) as [[-> ->] | [-> ->]]; rewrite <- !app_assoc.
  - now rewrite g_name_v23_ok.
  - now rewrite g_name_v4_ok.
Qed.

Lemma entry_git_reads hs ver last e rest :
  wf_entry hs e = true -> ver = 2 \/ ver = 3 \/ ver = 4 -> last_ok last ->
  exists b, encode_entry hs ver last e = Ok b /\
            g_create_from_disk hs ver last (b ++ rest) = GOk (git_of_entry e, rest).
Proof.
  intros Hw Hver Hlast.
  destruct (encode_entry_bytes hs ver last e Hw Hver) as (sec & nsec & msec & mnsec & Ec & Em & _ & _ & Hf & Hst & Hn & ->).
  eexists. split; [reflexivity|].
  rewrite (g_create_entry_bytes hs ver last _ (e_stage e) false) by (assumption || reflexivity).
  unfold git_of_entry, time_raw. now rewrite Ec, Em.
Qed.

Lemma g_load_entries_encoded hs ver : ver = 2 \/ ver = 3 \/ ver = 4 ->
  forall l last b rest acc fuel,
  forallb (wf_entry hs) l = true -> last_ok last -> encode_entries hs ver last l = Ok b -> (List.length l < fuel)%nat ->
  g_load_entries hs fuel ver (N.of_nat (List.length l)) last (b ++ rest) acc = GOk (rev acc ++ map git_of_entry l, rest).
Proof.
  intros Hver. induction l as [|e l IH]; intros last b rest acc fuel Hw Hlast Eb Hfuel; cbn [encode_entries] in Eb.
  - injection Eb as <-. destruct fuel; cbn; now rewrite app_nil_r.
  - cbn [forallb] in Hw. apply andb_true_iff in Hw as [He Hl].
    destruct fuel as [|fuel]; [cbn in Hfuel; lia|].
    destruct (encode_entries hs ver (Some (e_name e)) l) as [b2|] eqn:E2.
    2:{ destruct (encode_entry hs ver last e); discriminate. }
    destruct (entry_git_reads hs ver last e (b2 ++ rest) He Hver Hlast) as (b1 & E1 & R1).
    rewrite E1 in Eb. injection Eb as <-.
    cbn [g_load_entries List.length]. rewrite (proj2 (N.eqb_neq _ 0)) by lia.
    replace (N.of_nat (S (List.length l)) - 1) with (N.of_nat (List.length l)) by lia.
    rewrite <- app_assoc, R1. change (ge_name (git_of_entry e)) with (e_name e).
    rewrite (IH _ b2) by (try apply wf_entry_name_len with hs; cbn [List.length] in Hfuel; auto; lia).
    cbn [rev map]. rewrite <- app_assoc. reflexivity.
Qed.

Definition git_view (ver : N) (entries : list entry) : gindex :=
  mkGI ver (map git_of_entry entries) None None None None false.

(* the bytes before the trailer *)
Lemma encode_shape hs H skip ver entries file :
  encode hs H skip ver entries = Ok file ->
  exists body, encode_body hs ver entries = Ok body /\
               file = body ++ (if skip then zeros hs else fit hs (H body)).
Proof.
  unfold encode. destruct (encode_body hs ver entries) as [body|]; [|discriminate].
  intros E. injection E as <-. exists body. split; reflexivity.
Qed.

Lemma trailer_length hs (H : bytes -> bytes) (skip : bool) body : List.length (if skip then zeros hs else fit hs (H body)) = hs.
Proof. destruct skip; [apply zeros_length|apply fit_length]. Qed.

(* do_read_index on go-git's output, with or without fsck's verifications *)
Lemma git_reads_ours_gen hs H skip v null_ok ver entries :
  ver = 2 \/ ver = 3 \/ ver = 4 ->
  forallb (wf_entry hs) entries = true ->
  N.of_nat (List.length entries) < 4294967296 ->
  (v = true -> ((skip = false /\ forall x, List.length (H x) = hs) \/ (skip = true /\ null_ok = true)) /\
               g_check_order (map git_of_entry (sort_entries entries)) = None) ->
  exists file, encode hs H skip ver entries = Ok file /\
               git_decode hs H (mkGM v null_ok false) file = GOk (git_view ver (sort_entries entries)).
Proof.
  intros Hver Hw Hcount Hv.
  destruct (encode_ok hs H skip ver entries Hver Hw) as (b & Eb & Lb & Efile). cbv zeta in Efile.
  eexists. split; [exact Efile|].
  destruct (ver_range ver Hver) as [Hvlt Hrange].
  rewrite !N.mod_small by assumption.
  set (body := DIRC ++ u32 ver ++ u32 (N.of_nat (List.length entries)) ++ b).
  set (trailer := if skip then _ else _).
  assert (Htl : List.length trailer = hs) by apply trailer_length.
  assert (Hbl : List.length body = (12 + List.length b)%nat) by (unfold body; rewrite !app_length, !u32_length; reflexivity).
  unfold git_decode. cbv zeta. rewrite app_length, Hbl, Htl.
  rewrite (proj2 (Nat.ltb_ge _ _)) by lia.
  replace (12 + List.length b + hs - hs)%nat with (List.length body) by lia.
  rewrite skipn_length_app, firstn_length_app.
  unfold body at 1. rewrite <- !app_assoc.
  rewrite (take_app_n 4 DIRC) by reflexivity. cbn [bytes_eqb DIRC gDIRC N.eqb Pos.eqb andb negb].
  rewrite !get_u32_u32, Hrange by assumption.
  (* the checksum test *)
  assert (Hsum : (v && negb (null_ok && g_is_zero trailer) && negb (bytes_eqb (H body) trailer))%bool = false).
  { destruct v; [|reflexivity]. unfold trailer. destruct (Hv eq_refl) as [[[-> HH] | [-> ->]] _].
    - now rewrite (fit_id hs) by apply HH; rewrite bytes_eqb_refl, andb_false_r.
    - change g_is_zero with is_zero. now rewrite is_zero_zeros. }
  cbn [gm_verify gm_null_ok gm_threads]. rewrite Hsum.
  rewrite <- (sort_entries_length entries) at 1.
  rewrite (g_load_entries_encoded hs ver Hver _ None b); [|exact (sort_entries_forallb _ _ Hw)|exact I|exact Eb|].
  2:{ rewrite sort_entries_length, app_length. lia. }
  cbn [rev app N.eqb negb andb g_load_extensions]. rewrite (proj2 (Nat.ltb_lt _ _)) by lia.
  destruct v; [|reflexivity].
  destruct (Hv eq_refl) as [_ Ho]. unfold git_view. rewrite Ho. reflexivity.
Qed.

Lemma bytes_eqb_sym : forall a b, bytes_eqb a b = bytes_eqb b a.
Proof. induction a as [|x a IH]; intros [|y b]; cbn; try reflexivity. now rewrite IH, N.eqb_sym. Qed.

Lemma bytes_eqb_ltb : forall a b, bytes_eqb a b = true -> bytes_ltb a b = false.
Proof.
  induction a as [|x a IH]; intros [|y b]; cbn; try discriminate; try reflexivity.
  intros E. apply andb_true_iff in E as [Exy E]. apply N.eqb_eq in Exy. subst y.
  rewrite N.ltb_irrefl. now apply IH.
Qed.

Lemma bytes_ltb_asym : forall a b, bytes_ltb a b = true -> bytes_ltb b a = false.
Proof.
  induction a as [|x a IH]; intros [|y b]; cbn; try discriminate; try reflexivity.
  destruct (x <? y) eqn:E1; destruct (y <? x) eqn:E2; try reflexivity; try discriminate.
  - apply N.ltb_lt in E1, E2. lia.
  - apply IH.
Qed.

Lemma entry_less_asym x y : entry_less y x = true -> entry_less x y = false.
Proof.
  unfold entry_less. rewrite (bytes_eqb_sym (e_name x) (e_name y)).
  destruct (bytes_eqb (e_name y) (e_name x)).
  - intros E. apply N.ltb_lt in E. apply N.ltb_ge. lia.
  - apply bytes_ltb_asym.
Qed.

(* no entry is smaller than its predecessor *)
Fixpoint adj_ok (l : list entry) : bool :=
  match l with
  | a :: ((b :: _) as r) => negb (entry_less b a) && adj_ok r
  | _ => true
  end.

Lemma insert_adj x : forall l, adj_ok l = true -> adj_ok (insert_entry x l) = true.
Proof.
  induction l as [|y l IH]; intros Hl; [reflexivity|].
  cbn [insert_entry]. destruct (entry_less y x) eqn:E.
  - destruct l as [|z l'].
    + cbn [insert_entry adj_ok]. rewrite (entry_less_asym _ _ E). reflexivity.
    + cbn [adj_ok] in Hl. apply andb_true_iff in Hl as [Hzy Hl].
      specialize (IH Hl). cbn [insert_entry] in *. destruct (entry_less z x) eqn:E'.
      * cbn [adj_ok] in *. now rewrite Hzy, IH.
      * cbn [adj_ok] in *. rewrite (entry_less_asym _ _ E). cbn [negb andb]. exact IH.
  - cbn [adj_ok]. rewrite E. cbn [negb andb]. exact Hl.
Qed.

Lemma sort_adj l : adj_ok (sort_entries l) = true.
Proof. unfold sort_entries. induction l as [|x l IH]; [reflexivity|]. cbn [fold_right]. now apply insert_adj. Qed.

(* a merged entry (stage 0) is the only entry of its name *)
Fixpoint no_merged_dup (l : list entry) : bool :=
  match l with
  | a :: ((b :: _) as r) => negb (bytes_eqb (e_name a) (e_name b) && (e_stage a =? 0)) && no_merged_dup r
  | _ => true
  end.

Lemma check_order_ok : forall l, adj_ok l = true -> no_merged_dup l = true -> g_check_order (map git_of_entry l) = None.
Proof.
  induction l as [|a l IH]; intros Ha Hm; [reflexivity|].
  destruct l as [|b l']; [reflexivity|].
  cbn [adj_ok no_merged_dup] in Ha, Hm.
  apply andb_true_iff in Ha as [Hab Ha]. apply andb_true_iff in Hm as [Hmab Hm].
  apply negb_true_iff in Hab, Hmab.
  change (map git_of_entry (a :: b :: l')) with (git_of_entry a :: git_of_entry b :: map git_of_entry l').
  cbn [g_check_order]. change (ge_name (git_of_entry a)) with (e_name a). change (ge_name (git_of_entry b)) with (e_name b).
  change (ge_stage (git_of_entry a)) with (e_stage a). change (ge_stage (git_of_entry b)) with (e_stage b).
  unfold entry_less in Hab. rewrite (bytes_eqb_sym (e_name b) (e_name a)) in Hab.
  destruct (bytes_eqb (e_name a) (e_name b)) eqn:E.
  - rewrite (bytes_eqb_sym (e_name a) (e_name b)) in E. rewrite (bytes_eqb_ltb _ _ E).
    cbn [andb] in Hmab. rewrite Hmab, Hab. apply (IH Ha Hm).
  - rewrite Hab. apply (IH Ha Hm).
Qed.

(* git fsck's read: the trailer is verified and check_ce_order runs *)
Theorem git_fsck_reads_ours hs H skip null_ok ver entries :
  (forall x, List.length (H x) = hs) ->
  ver = 2 \/ ver = 3 \/ ver = 4 ->
  forallb (wf_entry hs) entries = true ->
  N.of_nat (List.length entries) < 4294967296 ->
  no_merged_dup (sort_entries entries) = true ->
  skip = false \/ null_ok = true ->
  exists file, encode hs H skip ver entries = Ok file /\
               git_decode hs H (mkGM true null_ok false) file = GOk (git_view ver (sort_entries entries)).
Proof.
  intros HH Hver Hw Hcount Hm Hs. apply git_reads_ours_gen; try assumption.
  intros _. split.
  - destruct skip; [right|left]; split; auto. destruct Hs; [discriminate|assumption].
  - apply check_order_ok; [apply sort_adj|exact Hm].
Qed.
