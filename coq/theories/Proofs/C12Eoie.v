(* Proofs/C12Eoie.v — read_eoie_extension (S) accepts the EOIE extension do_write_index (S) emits in a
   SHA-1 repository, and returns the offset of the first extension; eoie_sha256_example is a SHA-256
   index on which the same reader rejects it (it insists on 4 + 20 bytes). *)
From Coq Require Import List NArith ZArith Arith Lia ZifyBool ZifyNat ZifyN Bool.
From GoGit Require Import Base.Out Model.IndexFile Spec.GitIndex Proofs.C12.
Import ListNotations.
Local Open Scope N_scope.

Definition ext_ok (x : bytes * bytes) : bool :=
  (List.length (fst x) =? 4)%nat && (N.of_nat (List.length (snd x)) <? 4294967296).

Lemma eoie_walk_exts : forall exts acc fuel,
  forallb ext_ok exts = true -> (List.length exts <= fuel)%nat ->
  g_eoie_walk fuel (flat_map g_ext_bytes exts) acc = Some (acc ++ flat_map g_ext_header exts).
Proof.
  induction exts as [|[sig data] exts IH]; intros acc fuel Hw Hf.
  - cbn [flat_map]. destruct fuel; cbn [g_eoie_walk]; now rewrite app_nil_r.
  - cbn [forallb] in Hw. apply andb_true_iff in Hw as [Hx Hw].
    unfold ext_ok in Hx. cbn [fst snd] in Hx. apply andb_true_iff in Hx as [Hs Hd]. apply Nat.eqb_eq in Hs. apply N.ltb_lt in Hd.
    destruct fuel as [|fuel]; [cbn in Hf; lia|].
    cbn [flat_map]. unfold g_ext_bytes at 1, g_ext_header at 1. cbn [fst snd]. rewrite <- !app_assoc.
    set (tail := flat_map g_ext_bytes exts).
    (* one step of the walk: the region is not empty since sig is not *)
    assert (E : g_eoie_walk (S fuel) (sig ++ u32 (N.of_nat (List.length data)) ++ data ++ tail) acc =
                match take 8 (sig ++ u32 (N.of_nat (List.length data)) ++ data ++ tail) with
                | None => None
                | Some (hdr, r) =>
                  match get_u32 (skipn 4 hdr) with
                  | None => None
                  | Some (sz, _) => if N.of_nat (List.length r) <? sz then None
                                    else g_eoie_walk fuel (skipn (N.to_nat sz) r) (acc ++ hdr)
                  end
                end) by (destruct sig; [discriminate|reflexivity]).
    rewrite E, (app_assoc sig), (take_app_n 8) by (rewrite app_length, u32_length; lia).
    rewrite <- Hs, skipn_length_app, <- (app_nil_r (u32 _)), get_u32_u32 by exact Hd.
    rewrite (proj2 (N.ltb_ge _ _)), Nat2N.id, skipn_length_app by (rewrite app_length; lia).
    rewrite IH by (try exact Hw; cbn [List.length] in Hf; lia).
    unfold g_ext_header. cbn [fst snd]. now rewrite app_nil_r, <- !app_assoc.
Qed.

Lemma exts_length_le : forall exts : list (bytes * bytes), (List.length exts <= List.length (flat_map g_ext_bytes exts))%nat.
Proof.
  intros exts. apply flat_map_length_ge. intros x.
  unfold g_ext_bytes, g_ext_header. rewrite !app_length, u32_length. lia.
Qed.

Section Eoie.
Variable H : bytes -> bytes.
Hypothesis H_len : forall x, List.length (H x) = 20%nat.

Lemma read_eoie_shape P exts hash T off :
  forallb ext_ok exts = true -> exts <> [] -> List.length T = 20%nat ->
  off = N.of_nat (List.length P) -> 12 <= off -> off < 4294967296 -> hash = H (flat_map g_ext_header exts) ->
  g_read_eoie 20 H (P ++ flat_map g_ext_bytes exts ++ (gEOIE ++ u32 24 ++ u32 off ++ hash) ++ T) = off.
Proof.
  intros Hw Hne HT HP Hoff12 Hoff Hh.
  assert (Hhash : List.length hash = 20%nat) by (rewrite Hh; apply H_len).
  pose proof (exts_length_le exts) as HX. set (X := flat_map g_ext_bytes exts) in *.
  assert (HX1 : (1 <= List.length X)%nat) by (destruct exts; [congruence|cbn [List.length] in HX; lia]).
  unfold g_read_eoie. rewrite !app_length, !u32_length, Hhash, HT. cbn [List.length gEOIE].
  rewrite (proj2 (Nat.ltb_ge _ _)) by lia.
  (* the reader looks 32 bytes (signature, size, offset, hash) before the 20-byte trailer *)
  replace (List.length P + (List.length X + (4 + (4 + (4 + 20)) + 20)) - 32 - 20)%nat with (List.length (P ++ X)) by (rewrite app_length; lia).
  rewrite (app_assoc P X), skipn_length_app, <- !app_assoc.
  rewrite (take_app_n 4 gEOIE) by reflexivity. cbn [bytes_eqb gEOIE N.eqb Pos.eqb andb negb].
  rewrite get_u32_u32 by lia. cbn [N.eqb Pos.eqb negb]. rewrite get_u32_u32 by exact Hoff.
  rewrite (proj2 (N.ltb_ge _ _)), (proj2 (N.leb_gt _ _)) by (rewrite ?app_length; lia). cbn [orb].
  rewrite HP, Nat2N.id, skipn_length_app.
  replace (List.length (P ++ X) - List.length P)%nat with (List.length X) by (rewrite app_length; lia).
  rewrite firstn_length_app.
  unfold X. rewrite eoie_walk_exts by (try exact Hw; fold X; lia). cbn [app].
  rewrite <- Hh, <- Hhash, firstn_length_app, bytes_eqb_refl. reflexivity.
Qed.

Theorem eoie_accepts_own skip_w g :
  forallb ext_ok (g_ext_list g) = true -> g_ext_list g <> [] ->
  git_eoie_offset 20 g < 4294967296 ->
  g_read_eoie 20 H (git_encode 20 H true skip_w g) = git_eoie_offset 20 g.
Proof.
  intros Hw Hne Hoff.
  assert (Hhash : List.length (git_eoie_hash H g) = 20%nat) by apply H_len.
  assert (Hoff12 : 12 <= git_eoie_offset 20 g).
  { unfold git_eoie_offset, git_encode_entries, gDIRC. rewrite !app_length, !u32_length. cbn [List.length]. lia. }
  unfold git_encode.
  match goal with |- g_read_eoie _ _ (?body ++ ?T) = _ =>
    assert (HT : List.length T = 20%nat) by (destruct skip_w; [apply zeros_length|apply H_len]);
    replace (body ++ T) with (git_encode_entries 20 g ++ flat_map g_ext_bytes (g_ext_list g) ++
                              (gEOIE ++ u32 24 ++ u32 (git_eoie_offset 20 g) ++ git_eoie_hash H g) ++ T)
  end.
  - apply read_eoie_shape; try assumption; reflexivity.
  - unfold g_ext_bytes, g_ext_header. cbn [fst snd].
    rewrite app_length, u32_length, Hhash. change (N.of_nat (4 + 20)) with 24.
    repeat rewrite <- app_assoc. reflexivity.
Qed.

End Eoie.

(* SHA-256: the extension git writes is 4 + 32 bytes long, the reader looks for one of 4 + 20 *)
Lemma eoie_sha256_example :
  let Hf := fun _ : bytes => repeat 7 32 in
  let g := mkGI 2 [] None None (Some [1; 2; 3]) None false in
  g_read_eoie 32 Hf (git_encode 32 Hf true false g) = 0 /\
  g_read_eoie 20 (fun _ => repeat 7 20) (git_encode 20 (fun _ => repeat 7 20) true false g) = 12.
Proof. vm_compute. split; reflexivity. Qed.
