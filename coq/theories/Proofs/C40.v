(* Proofs/C40.v — lexical confinement of FilesystemLoader.load *)
From Coq Require Import List NArith Arith Lia Bool.
From GoGit Require Import Base.Out Model.GoPath Model.Loader Proofs.GoPathFacts.
Import ListNotations.
Local Open Scope N_scope.

(* p is R followed by normal components: no "..", no ".", no empty component *)
Definition under (R p : bytes) : Prop :=
  exists cs, Forall normal cs /\ p = R ++ flat_map (fun c => SL :: c) cs.

Lemma clean_abs_shape p : is_abs p = true -> exists ns, Forall normal ns /\ clean p = SL :: join_sl ns.
Proof.
  intro H. destruct p as [|c p']; [discriminate|]. unfold clean. rewrite H.
  eexists. split; [|reflexivity]. apply reduce_rooted_normal; [constructor|apply split_sl_nosl].
Qed.

Lemma clean_rooted_id ns : Forall normal ns -> clean (SL :: join_sl ns) = SL :: join_sl ns.
Proof.
  intro H. destruct ns as [|c r]; [reflexivity|].
  rewrite clean_rooted; [now rewrite filter_notskip_normal|discriminate|now apply normal_or_skip].
Qed.

Lemma clean_under_root_shape x : exists cs, Forall normal cs /\ clean_under_root x = join_sl cs.
Proof.
  unfold clean_under_root, join2. cbn [app].
  destruct (clean_abs_shape (SL :: SL :: x) eq_refl) as (ns & Hn & E).
  exists ns. split; [assumption|]. rewrite E. cbn [trim_left_sl]. rewrite N.eqb_refl.
  now apply trim_left_join.
Qed.

Lemma skipn_Forall {A} (P : A -> Prop) n l : Forall P l -> Forall P (skipn n l).
Proof.
  revert l. induction n; intros l H; [assumption|]. destruct l; [constructor|].
  inversion H; subst. now apply IHn.
Qed.

Lemma relative_inside_base_shape R name rel :
  is_abs name = true -> relative_inside_base R name = Some rel ->
  exists cs, Forall normal cs /\ rel = join_sl cs.
Proof.
  intros Ha H. unfold relative_inside_base in H.
  destruct (is_prefix _ _); [|discriminate]. inversion H; subst. clear H.
  destruct (clean_abs_shape name Ha) as (ns & Hn & E). rewrite E.
  rewrite comps_rooted by assumption.
  eexists. split; [|reflexivity]. now apply skipn_Forall.
Qed.

Lemma to_relative_shape R path : exists cs, Forall normal cs /\ to_relative R path = join_sl cs.
Proof.
  unfold to_relative. destruct path as [|c p]; [exists []; split; [constructor|reflexivity]|].
  destruct (is_abs (c :: p)) eqn:Ha; [|apply clean_under_root_shape].
  destruct (relative_inside_base R (c :: p)); apply clean_under_root_shape.
Qed.

Lemma join2_ne a b : a <> [] -> join2 a b = clean (a ++ SL :: b).
Proof. destruct a; [congruence|]. intros _. destruct b; reflexivity. Qed.

Lemma rooted_flat rs : rs <> [] -> SL :: join_sl rs = flat_map (fun c => SL :: c) rs.
Proof. destruct rs; [congruence|reflexivity]. Qed.

Lemma rooted_last rs : rs <> [] -> Forall normal rs ->
  exists pre z, SL :: join_sl rs = pre ++ [z] /\ z <> SL.
Proof.
  intros Hne Hrs. destruct (exists_last Hne) as (rs' & l & ->).
  apply Forall_app in Hrs as [_ Hl]. inversion Hl as [|? ? (Hlne & _ & _ & Hns) _]; subst.
  destruct (exists_last Hlne) as (l' & z & ->).
  exists (flat_map (fun c => SL :: c) rs' ++ SL :: l'), z. split.
  - rewrite rooted_flat, flat_map_app by exact Hne. cbn. now rewrite app_nil_r, <- app_assoc.
  - intros ->. apply Hns, in_or_app. right. now left.
Qed.

(* every path load hands to the filesystem is ".git" or "config" directly below a Chroot result *)
Definition touched k fs R (q : bytes) : Prop :=
  exists p r0, chroot k fs R p = Ok r0 /\ (q = join2 r0 DOTGIT \/ q = join2 r0 CONFIG).

(* ... and what it serves is a Chroot result holding a regular file "config" *)
Definition load_ok k fs R (x : res bytes * list bytes) : Prop :=
  (forall root, fst x = Ok root ->
     (exists p, chroot k fs R p = Ok root) /\ exists c, lstat k fs root CONFIG = Some (NFile c))
  /\ Forall (touched k fs R) (snd x).

Lemma load_ok_err k fs R e t : Forall (touched k fs R) t -> load_ok k fs R (Err e, t).
Proof. split; [discriminate|assumption]. Qed.

Lemma load_ok_again k fs R x t : load_ok k fs R x -> Forall (touched k fs R) t ->
  load_ok k fs R (let '(r, l) := x in (r, t ++ l)).
Proof. destruct x as [r l]. intros [H1 H2] Ht. split; [exact H1|]. apply Forall_app. now split. Qed.

Lemma load_inv fuel : forall k fs R strict path tried, load_ok k fs R (load fuel k fs R strict path tried).
Proof.
  induction fuel as [|fuel IH]; intros; cbn [load]; [now apply load_ok_err|].
  destruct (chroot k fs R path) as [r0|e] eqn:Ec; [|now apply load_ok_err].
  assert (Hg : Forall (touched k fs R) [join2 r0 DOTGIT]) by (repeat constructor; exists path, r0; auto).
  assert (Hc : touched k fs R (join2 r0 CONFIG)) by (exists path, r0; auto).
  assert (Hbare : forall t, Forall (touched k fs R) t -> load_ok k fs R (match lstat k fs r0 CONFIG with
        | Some (NFile _) => (Ok r0, t ++ [join2 r0 CONFIG])
        | _ => if negb strict && negb tried
               then let '(r, l) := load fuel k fs R strict (path ++ DOTGIT) true in (r, (t ++ [join2 r0 CONFIG]) ++ l)
               else (Err ENotFound, t ++ [join2 r0 CONFIG]) end)).
  { intros t Ht. assert (Ht' : Forall (touched k fs R) (t ++ [join2 r0 CONFIG])) by (apply Forall_app; auto).
    destruct (lstat k fs r0 CONFIG) as [[|c]|] eqn:El.
    2: { split; [|exact Ht']. intros root E. injection E as <-. eauto. }
    all: destruct (negb strict && negb tried); [now apply load_ok_again|now apply load_ok_err]. }
  destruct (negb tried && negb strict); [|now apply Hbare].
  destruct (lstat k fs r0 DOTGIT) as [[|c]|]; [now apply load_ok_again| |now apply Hbare].
  destruct (parse_gitfile c); [now apply load_ok_again|now apply load_ok_err].
Qed.

Lemma normal_DOTGIT : normal DOTGIT.
Proof. repeat split; try discriminate. cbv. intuition discriminate. Qed.
Lemma normal_CONFIG : normal CONFIG.
Proof. repeat split; try discriminate. cbv. intuition discriminate. Qed.

Section Root.
  Variable R : bytes.
  Hypothesis HR : good_root R = true.

  Lemma R_ne : R <> [].
  Proof. destruct (good_root_shape R HR) as (rs & _ & _ & E). rewrite E. discriminate. Qed.

  Lemma under_R : under R R.
  Proof. exists []. split; [constructor|]. cbn. now rewrite app_nil_r. Qed.

  Lemma under_clean_id p : under R p -> clean p = p.
  Proof.
    intros (cs & Hcs & E). destruct (good_root_shape R HR) as (rs & Hne & Hrs & ER).
    subst p. rewrite ER. cbn [app]. rewrite <- join_sl_app by assumption.
    apply clean_rooted_id. apply Forall_app. now split.
  Qed.

  Lemma under_join root cs : under R root -> Forall skip_or_normal cs ->
    under R (clean (root ++ SL :: join_sl cs)).
  Proof.
    intros (ds & Hds & E) Hc. destruct (good_root_shape R HR) as (rs & Hne & Hrs & ER).
    assert (Er : root = SL :: join_sl (rs ++ ds)).
    { subst root. rewrite ER. cbn [app]. now rewrite <- join_sl_app. }
    (* no component at all joins like one empty component *)
    assert (E' : exists cs', cs' <> [] /\ Forall skip_or_normal cs' /\ join_sl cs = join_sl cs').
    { destruct cs as [|c cs]; [exists [[]]|exists (c :: cs)]; repeat split; try discriminate; auto.
      now repeat constructor. }
    destruct E' as (cs' & Hne' & Hc' & ->).
    rewrite Er, clean_under; [|now destruct rs|now apply Forall_app|assumption|assumption].
    exists (ds ++ filter (fun c => negb (skip c)) cs').
    split; [apply Forall_app; split; [assumption|now apply filter_skip_normal]|].
    rewrite ER. cbn [app]. rewrite join_sl_app by assumption. now rewrite flat_map_app, app_assoc.
  Qed.

  Lemma chroot_path_under path : under R (chroot_path R path).
  Proof.
    unfold chroot_path.
    assert (G : forall cs, Forall normal cs -> under R (clean (join2 R (join_sl cs)))).
    { intros cs H. rewrite (join2_ne _ _ R_ne), under_clean_id; apply under_join; auto using under_R, normal_or_skip. }
    destruct (clean_under_root_shape path) as (cs & Hcs & ->).
    destruct (is_abs path) eqn:Ha; [|now apply G].
    destruct (relative_inside_base R path) as [rel|] eqn:Er; [|now apply G].
    destruct (relative_inside_base_shape _ _ _ Ha Er) as (cs' & Hcs' & ->). now apply G.
  Qed.

  Lemma R_last : exists pre z, R = pre ++ [z] /\ z <> SL.
  Proof.
    destruct (good_root_shape R HR) as (rs & Hne & Hrs & E). rewrite E. now apply rooted_last.
  Qed.

  Lemma os_join_path_R n : os_join_path R n = R ++ SL :: n.
  Proof.
    destruct R_last as (pre & z & E & Hz). unfold os_join_path. rewrite E at 1.
    rewrite rev_app_distr. cbn [rev app]. apply N.eqb_neq in Hz. now rewrite Hz.
  Qed.

  Lemma chroot_bound_under fs path root : chroot_bound fs R path = Ok root -> under R root.
  Proof.
    unfold chroot_bound. intro H.
    destruct (lookup fs (comps R)) as [[|c]|].
    - destruct (to_relative_shape R path) as (cs & Hcs & E). rewrite E in H.
      destruct (walk fs (comps R) (comps (join_sl cs))).
      + inversion H; subst. clear H. rewrite os_join_path_R.
        destruct cs as [|c r]; [apply (under_join R [DOT]); [apply under_R|now repeat constructor]|].
        assert (Hn : is_nil (join_sl (c :: r)) = false).
        { inversion Hcs as [|? ? Hc _]; subst. destruct Hc as (Hne & _). destruct c; [congruence|reflexivity]. }
        rewrite Hn. apply under_join; auto using under_R, normal_or_skip.
      + inversion H; subst. apply chroot_path_under.
      + discriminate.
    - discriminate.
    - inversion H; subst. apply chroot_path_under.
  Qed.

  Lemma chroot_helper_under path root : chroot_helper R path = Ok root -> under R root.
  Proof.
    unfold chroot_helper. destruct (is_cross_boundaries path) eqn:Hx; [discriminate|].
    intro H. inversion H; subst. clear H.
    destruct (good_root_shape R HR) as (rs & Hne & Hrs & E).
    rewrite (join2_ne _ _ R_ne).
    (* path alone reduces to U, which does not start with "..": reducing below R never pops a component of R *)
    set (U := reduce false [] (split_sl (trim_left_sl path))).
    assert (HU : forall U', U <> DOTDOT :: U').
    { intros U' EU. unfold is_cross_boundaries in Hx. apply orb_false_iff in Hx as [Hx1 Hx2].
      unfold clean in Hx1, Hx2. rewrite trim_left_not_abs in Hx1, Hx2.
      destruct (trim_left_sl path) as [|c t] eqn:Et.
      - subst U. cbn in EU. discriminate.
      - fold U in Hx1, Hx2. rewrite EU in Hx1, Hx2. destruct U' as [|u U''].
        + cbn in Hx1. discriminate.
        + cbn in Hx2. discriminate. }
    destruct (reduce_rel_rooted (split_sl (trim_left_sl path)) [] (rev rs)
                (Forall_nil _) (split_sl_nosl _) HU) as [E1 E2].
    fold U in E1, E2. cbn [app] in E1. rewrite rev_involutive in E1.
    assert (EC : clean (R ++ SL :: path) = SL :: join_sl (rs ++ U)).
    { unfold clean. rewrite E. cbn [app is_abs]. rewrite N.eqb_refl. f_equal. f_equal.
      change (SL :: join_sl rs ++ SL :: path) with ((SL :: join_sl rs) ++ SL :: path).
      rewrite split_sl_app, split_sl_rooted by auto using normal_nosl.
      cbn [app reduce is_nil orb]. rewrite reduce_app_normal by assumption.
      rewrite app_nil_r, reduce_trim_left. exact E1. }
    rewrite EC. exists U. split; [assumption|].
    rewrite join_sl_app by assumption. rewrite E. reflexivity.
  Qed.

  Lemma chroot_under k fs path root : chroot k fs R path = Ok root -> under R root.
  Proof. destruct k; [apply chroot_bound_under|apply chroot_helper_under]. Qed.

  Lemma under_child root name : under R root -> normal name -> under R (join2 root name).
  Proof.
    intros Hr Hn. rewrite join2_ne.
    - rewrite <- (app_nil_r name). apply (under_join root [name]); [exact Hr|]. apply normal_or_skip. now constructor.
    - destruct Hr as (cs & _ & ->). intros [E _]%app_eq_nil. now apply R_ne.
  Qed.
End Root.

Lemma chroot_err k fs R path e : chroot k fs R path = Err e -> e = EChroot.
Proof.
  destruct k; cbn [chroot].
  - unfold chroot_bound. destruct (lookup fs (comps R)) as [[|c]|]; try congruence.
    destruct (walk _ _ _); congruence.
  - unfold chroot_helper. destruct (is_cross_boundaries path); congruence.
Qed.

(* fuel never runs out: a second-level call has tried = true and does not recurse *)
Lemma load_tried_no_fuel n k fs R strict path :
  fst (load (S n) k fs R strict path true) <> Err EFuel.
Proof.
  cbn [load]. destruct (chroot k fs R path) eqn:Ec; [|apply chroot_err in Ec; subst; cbn; discriminate].
  cbn [negb andb]. rewrite andb_false_r.
  destruct (lstat k fs a CONFIG) as [[|c]|]; cbn; discriminate.
Qed.
