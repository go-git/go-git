(* Proofs/C53Index.v — C53 for the index (DIRC) decoder of Model/IndexFile.v:
   for EVERY byte string, version, hash size and checksum function
     total   Decode never answers [Err EFuel]: the entry loop is driven by the
             32-bit count of the header, but every entry consumes at least
             42+hs input bytes, every extension at least 8, every TREE / REUC
             record at least one, and the offset varint one byte per round;
     no_oob  index v4: the "strip N bytes of the previous name" varint is
             accepted only for N <= |previous name| (N = |prev| allowed,
             N = |prev|+1 rejected), so prev[:len-N] is in range; a fixed part
             carries an object id of exactly hs bytes;
     alloc   #entries * (42+hs) <= |input| whatever the declared count;
             #TREE records and #REUC records <= size of the extension. *)
From Coq Require Import List ZArith Bool Lia.
From GoGit Require Import Base.Out Model.IndexFile.
Import ListNotations.

Lemma take_len n b a r : take n b = Some (a, r) -> List.length b = (n + List.length r)%nat /\ List.length a = n.
Proof.
  unfold take. destruct (Nat.leb_spec n (List.length b)); [|discriminate].
  intros [= <- <-]. rewrite firstn_length, skipn_length. lia.
Qed.

Lemma get_u32_len b v r : get_u32 b = Some (v, r) -> List.length b = (4 + List.length r)%nat.
Proof. destruct b as [|x [|y [|z [|w t]]]]; cbn [get_u32]; try discriminate. intros [= _ <-]. reflexivity. Qed.

Lemma get_u16_len b v r : get_u16 b = Some (v, r) -> List.length b = (2 + List.length r)%nat.
Proof. destruct b as [|x [|y t]]; cbn [get_u16]; try discriminate. intros [= _ <-]. reflexivity. Qed.

Lemma read_until_len d : forall b v r, read_until d b = Some (v, r) -> List.length b = (List.length v + 1 + List.length r)%nat.
Proof.
  induction b as [|c t IH]; intros v r H; cbn [read_until] in H; [discriminate|].
  destruct (N.eqb c d).
  - injection H as <- <-. cbn [List.length]. lia.
  - destruct (read_until d t) as [[v' r']|] eqn:E; [|discriminate]. injection H as <- <-.
    specialize (IH _ _ eq_refl). cbn [List.length]. lia.
Qed.

(* a reader that never reports exhausted fuel and hands back a suffix of its input *)
Definition shrinks {A} (b : bytes) (r : res (A * bytes)) : Prop :=
  match r with Ok (_, b') => (List.length b' <= List.length b)%nat | Err e => e <> EFuel end.

Lemma shrinks_le {A} b b' (r : res (A * bytes)) : (List.length b <= List.length b')%nat -> shrinks b r -> shrinks b' r.
Proof. destruct r as [[a r']|e]; cbn; [lia|auto]. Qed.

Lemma read_varint_loop_shrinks : forall fuel v c b, (List.length b <= fuel)%nat -> shrinks b (read_varint_loop fuel v c b).
Proof.
  induction fuel as [|f IH]; intros v c b Hf; cbn [read_varint_loop].
  all: destruct (N.ltb c 128); [cbn; lia|]; destruct (N.leb varint_limit v); [cbn; discriminate|].
  all: destruct b as [|c' t]; [cbn; discriminate|]; cbn [List.length] in Hf.
  - lia.
  - eapply shrinks_le; [|apply IH; lia]. cbn [List.length]. lia.
Qed.

Lemma read_varint_shrinks b : shrinks b (read_varint b).
Proof.
  destruct b as [|c t]; [cbn; discriminate|]. cbn [read_varint].
  eapply shrinks_le; [|apply read_varint_loop_shrinks, le_n]. cbn [List.length]. lia.
Qed.

Lemma read_name23_shrinks flags rd b : shrinks b (read_name23 flags rd b).
Proof.
  unfold read_name23. cbv zeta.
  (* the name (NUL-terminated when its length does not fit the flags), then the padding *)
  destruct (N.eqb (flags mod 4096) nameMask).
  1: destruct (read_until 0 b) as [[name b']|] eqn:E; [apply read_until_len in E|cbn; discriminate].
  2: destruct (take (N.to_nat (flags mod 4096)) b) as [[name b']|] eqn:E; [apply take_len in E|cbn; discriminate].
  all: destruct (take _ b') as [[p b'']|] eqn:T; [apply take_len in T; cbn; lia|cbn; discriminate].
Qed.

Lemma read_name4_shrinks last b : shrinks b (read_name4 last b).
Proof.
  unfold read_name4. pose proof (read_varint_shrinks b) as V.
  destruct (read_varint b) as [[l b1]|e]; [cbn in V|exact V].
  destruct last as [ln|]; [destruct (N.ltb _ l)|destruct (N.ltb 0 l)]; try (cbn; discriminate).
  all: destruct (read_until 0 b1) as [[suffix b']|] eqn:E; [apply read_until_len in E; cbn; lia|cbn; discriminate].
Qed.

(* index v4: the strip length is checked against the previous name before it is used *)
Lemma read_name4_strip_rejected ln b l b1 :
  read_varint b = Ok (l, b1) -> (N.of_nat (List.length ln) < l)%N -> read_name4 (Some ln) b = Err EMalformed.
Proof.
  intros R Hl. unfold read_name4. rewrite R. destruct (N.ltb_spec (N.of_nat (List.length ln)) l); [reflexivity|lia].
Qed.

Lemma read_name4_strip_in_range ln b nm r :
  read_name4 (Some ln) b = Ok (nm, r) ->
  exists l b1 suffix, read_varint b = Ok (l, b1) /\ (N.to_nat l <= List.length ln)%nat /\
    nm = firstn (List.length ln - N.to_nat l) ln ++ suffix.
Proof.
  unfold read_name4. destruct (read_varint b) as [[l b1]|e]; [|discriminate].
  destruct (N.ltb_spec (N.of_nat (List.length ln)) l); [discriminate|].
  destruct (read_until 0 b1) as [[suffix b']|]; [|discriminate]. intros [= <- <-].
  exists l, b1, suffix. repeat split; lia.
Qed.

Lemma read_name_shrinks ver flags rd last b r :
  (if (ver =? 2) || (ver =? 3) then read_name23 flags rd b
   else if ver =? 4 then read_name4 last b else Err EUnsupportedVersion)%N = r -> shrinks b r.
Proof.
  intros <-. destruct (_ || _); [apply read_name23_shrinks|]. destruct (ver =? 4)%N; [apply read_name4_shrinks|cbn; discriminate].
Qed.

Section Codec.
Variable hs : nat.

Lemma get_u32_bind {A} b (k : N -> bytes -> option A) x :
  match get_u32 b with None => None | Some (v, b') => k v b' end = Some x ->
  exists v b', List.length b = (4 + List.length b')%nat /\ k v b' = Some x.
Proof. destruct (get_u32 b) as [[v b']|] eqn:G; [|discriminate]. apply get_u32_len in G. eauto. Qed.

(* 42 + hs: ten 32-bit words (ctime .. size), the object id, the 16-bit flags *)
Lemma read_fixed_len b f r : read_fixed hs b = Some (f, r) ->
  List.length b = (42 + hs + List.length r)%nat /\ List.length (f_hash f) = hs.
Proof.
  unfold read_fixed. intros E. do 10 (apply get_u32_bind in E; destruct E as (? & ? & ? & E)).
  destruct (take hs _) as [[hash b11]|] eqn:T; [|discriminate]. apply take_len in T.
  destruct (get_u16 b11) as [[flags b12]|] eqn:G; [|discriminate]. apply get_u16_len in G.
  injection E as <- <-. cbn [f_hash]. lia.
Qed.

Lemma read_entry_props ver last b :
  match read_entry hs ver last b with
  | Ok (e, r) => (42 + hs + List.length r <= List.length b)%nat /\ List.length (e_hash e) = hs
  | Err x => x <> EFuel
  end.
Proof.
  unfold read_entry. destruct (read_fixed hs b) as [[f b1]|] eqn:F; [|discriminate].
  apply read_fixed_len in F. destruct F as [F Fh]. cbv zeta.
  (* the optional extended-flags word, then the name: the same argument with or without the word *)
  destruct (N.testbit (f_flags f) 14).
  1: destruct (get_u16 b1) as [[x b']|] eqn:G; [apply get_u16_len in G|discriminate].
  all: cbv beta iota.
  all: destruct (if (ver =? 2) || _ then _ else _)%N as [[nm r']|e] eqn:A; apply read_name_shrinks in A; [cbn in A|exact A].
  all: cbn [e_hash]; split; [lia|exact Fh].
Qed.

Lemma read_entries_props ver : forall fuel count last b acc, (List.length b < fuel)%nat ->
  match read_entries hs fuel ver count last b acc with
  | Ok (es, r) =>
      (List.length es * (42 + hs) + List.length r <= List.length acc * (42 + hs) + List.length b)%nat /\
      (Forall (fun e => List.length (e_hash e) = hs) acc -> Forall (fun e => List.length (e_hash e) = hs) es)
  | Err x => x <> EFuel
  end.
Proof.
  induction fuel as [|f IH]; intros count last b acc Hf; [lia|].
  cbn [read_entries]. destruct (N.eqb count 0); [split; [rewrite rev_length; lia|apply Forall_rev]|].
  pose proof (read_entry_props ver last b) as A.
  destruct (read_entry hs ver last b) as [[e b']|x]; [destruct A as [L Hh]|exact A].
  specialize (IH (count - 1)%N (Some (e_name e)) b' (e :: acc) ltac:(lia)).
  destruct (read_entries _ _ _ _ _ _ _) as [[es r]|x]; [|exact IH]. destruct IH as [E1 E2]. cbn [List.length] in E1.
  split; [lia|]. intros Ha. apply E2. constructor; assumption.
Qed.

Theorem decode_entries_bound ver count b3 es b4 :
  read_entries hs (S (List.length b3)) ver count None b3 [] = Ok (es, b4) ->
  (List.length es * (42 + hs) + List.length b4 <= List.length b3)%nat /\ Forall (fun e => List.length (e_hash e) = hs) es.
Proof.
  intros E. pose proof (read_entries_props ver _ count None b3 [] (Nat.lt_succ_diag_r _)) as A. rewrite E in A.
  destruct A as [E1 E2]. cbn [List.length] in E1. split; [lia|apply E2; constructor].
Qed.

(* an extension decoder that never reports exhausted fuel and returns at most n records *)
Definition at_most {A} (n : nat) (r : res (list A)) : Prop :=
  match r with Ok l => (List.length l <= n)%nat | Err e => e <> EFuel end.

Lemma at_most_bind {A B} n (r : res (list A)) (k : list A -> res B) :
  at_most n r -> (forall l, k l <> Err EFuel) -> match r with Ok l => k l | Err e => Err e end <> Err EFuel.
Proof. destruct r; cbn; [auto|congruence]. Qed.

Lemma at_most_le {A} n m (r : res (list A)) : (n <= m)%nat -> at_most n r -> at_most m r.
Proof. destruct r; cbn; [lia|auto]. Qed.

(* a truncated record ends an extension with what has been read *)
Lemma at_most_rev {A} (acc : list A) n : at_most (List.length acc + n) (Ok (rev acc)).
Proof. cbn. rewrite rev_length. lia. Qed.

Lemma read_tree_ext_props : forall fuel b acc, (List.length b < fuel)%nat ->
  at_most (List.length acc + List.length b) (read_tree_ext hs fuel b acc).
Proof.
  induction fuel as [|f IH]; intros b acc Hf; [lia|]. cbn [read_tree_ext].
  destruct (read_until 0 b) as [[path b1]|] eqn:E1; [|apply at_most_rev]. apply read_until_len in E1.
  destruct (read_until 32 b1) as [[cnt b2]|] eqn:E2; [|apply at_most_rev]. apply read_until_len in E2.
  destruct (parse_int 10 cnt) as [i|]; [|discriminate].
  destruct (read_until 10 b2) as [[tr b3]|] eqn:E3; [|apply at_most_rev]. apply read_until_len in E3.
  destruct (parse_int 10 tr) as [t|]; [|discriminate].
  destruct (Z.ltb i 0).
  - eapply at_most_le; [|apply IH; lia]. lia.
  - destruct b3 as [|x b3']; [apply at_most_rev|].
    destruct (take hs (x :: b3')) as [[h b4]|] eqn:T; [|discriminate]. apply take_len in T.
    eapply at_most_le; [|apply IH; lia]. cbn [List.length]. lia.
Qed.

Lemma read_reuc_stage_shrinks b : match read_reuc_stage b with Some r => shrinks b r | None => True end.
Proof.
  unfold read_reuc_stage. destruct (read_until 0 b) as [[a b']|] eqn:E; [|exact I]. apply read_until_len in E.
  destruct (parse_int 8 a); cbn; [lia|discriminate].
Qed.

Lemma read_reuc_hashes_shrinks : forall present b acc,
  match read_reuc_hashes hs present b acc with Some r => shrinks b r | None => True end.
Proof.
  induction present as [|s rest IH]; intros b acc; cbn [read_reuc_hashes]; [cbn; lia|].
  destruct b as [|c t]; [exact I|].
  destruct (take hs (c :: t)) as [[h b']|] eqn:T; [|cbn; discriminate]. apply take_len in T.
  specialize (IH b' ((s, h) :: acc)). destruct (read_reuc_hashes hs rest b' _); [|exact I].
  eapply shrinks_le; [|exact IH]. lia.
Qed.

Lemma read_reuc_ext_props : forall fuel b acc, (List.length b < fuel)%nat ->
  at_most (List.length acc + List.length b) (read_reuc_ext hs fuel b acc).
Proof.
  induction fuel as [|f IH]; intros b acc Hf; [lia|]. cbn [read_reuc_ext].
  destruct (read_until 0 b) as [[path b0]|] eqn:E0; [|apply at_most_rev]. apply read_until_len in E0.
  pose proof (read_reuc_stage_shrinks b0) as S1.
  destruct (read_reuc_stage b0) as [[[p1 b1]|x]|]; [cbn in S1|exact S1|apply at_most_rev].
  pose proof (read_reuc_stage_shrinks b1) as S2.
  destruct (read_reuc_stage b1) as [[[p2 b2]|x]|]; [cbn in S2|exact S2|apply at_most_rev].
  pose proof (read_reuc_stage_shrinks b2) as S3.
  destruct (read_reuc_stage b2) as [[[p3 b3]|x]|]; [cbn in S3|exact S3|apply at_most_rev].
  cbv zeta.
  match goal with |- context [read_reuc_hashes hs ?pr b3 []] =>
    pose proof (read_reuc_hashes_shrinks pr b3 []) as SH; destruct (read_reuc_hashes hs pr b3 []) as [[[st b4]|x]|] end;
    [cbn in SH|exact SH|apply at_most_rev].
  eapply at_most_le; [|apply IH; lia]. cbn [List.length]. lia.
Qed.

Variable H : bytes -> bytes.

Lemma read_extensions_total skip all : forall fuel b idx, (List.length b < fuel)%nat ->
  read_extensions hs H fuel skip all b idx <> Err EFuel.
Proof.
  induction fuel as [|f IH]; intros b idx Hf; [lia|]. cbn [read_extensions].
  destruct (Nat.ltb (List.length b) (8 + hs)).
  - destruct (take hs b) as [[h r]|]; [|discriminate]. destruct (_ || _); [discriminate|].
    destruct (bytes_eqb _ _); discriminate.
  - destruct (take 4 b) as [[sig b1]|] eqn:T; [|discriminate]. apply take_len in T.
    destruct (get_u32 b1) as [[len b2]|] eqn:G; [|discriminate]. apply get_u32_len in G. cbv zeta.
    set (n := N.to_nat (N.min len (N.of_nat (List.length b2)))).
    assert (Hr : (List.length (skipn n b2) < f)%nat) by (rewrite skipn_length; lia).
    destruct (bytes_eqb sig TREE).
    { eapply at_most_bind; [apply read_tree_ext_props, Nat.lt_succ_diag_r|intros l; apply IH, Hr]. }
    destruct (bytes_eqb sig REUC).
    { eapply at_most_bind; [apply read_reuc_ext_props, Nat.lt_succ_diag_r|intros l; apply IH, Hr]. }
    destruct (bytes_eqb sig EOIE).
    { destruct (get_u32 (firstn n b2)) as [[off d1]|]; [|discriminate].
      destruct (take hs d1) as [[h d2]|]; [|discriminate]. apply IH. exact Hr. }
    destruct sig as [|c s]; [discriminate|]. destruct (_ && _); [apply IH; exact Hr|discriminate].
Qed.

Theorem decode_total skip b : decode hs H skip b <> Err EFuel.
Proof.
  unfold decode. destruct (take 4 b) as [[sig b1]|]; [|discriminate].
  destruct (negb _); [discriminate|]. destruct (get_u32 b1) as [[ver b2]|]; [|discriminate].
  destruct (_ || _); [discriminate|]. destruct (get_u32 b2) as [[count b3]|]; [|discriminate].
  pose proof (read_entries_props ver _ count None b3 [] (Nat.lt_succ_diag_r _)) as A.
  destruct (read_entries hs _ ver count None b3 []) as [[es b4]|x]; [|congruence].
  apply read_extensions_total. lia.
Qed.

End Codec.
