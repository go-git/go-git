(* Proofs/C37Term.v — the fuel of Model/RevList never runs out on a ranked
   store: revlist.Objects never answers "out of fuel", every error of the model
   is one the Go code returns. *)
From Coq Require Import List NArith ZArith Bool Lia Arith.
From GoGit Require Import Model.RevList Spec.ObjReach Proofs.C37Trees.
Import ListNotations.
Local Open Scope N_scope.

(* sub-directories were created before the tree that lists them (hashes are acyclic) *)
Definition tree_ranked (st : store) : bool :=
  forallb (fun ido => match snd ido with
                      | Tree es => forallb (fun e => match e_kind e with KDir => e_id e <? fst ido | _ => true end) es
                      | _ => true
                      end) st.

Lemma filter_length_le : forall (A : Type) (f g : A -> bool) l,
  (forall x, f x = true -> g x = true) -> (List.length (filter f l) <= List.length (filter g l))%nat.
Proof.
  intros A f g l H. induction l as [|x l IH]; cbn; [lia|].
  destruct (f x) eqn:F; [rewrite (H x F); cbn; lia | destruct (g x); cbn; lia].
Qed.

Lemma filter_length_lt : forall (A : Type) (f g : A -> bool) l x,
  (forall y, f y = true -> g y = true) -> In x l -> f x = false -> g x = true ->
  (List.length (filter f l) < List.length (filter g l))%nat.
Proof.
  intros A f g l x H. induction l as [|y l IH]; intros Hin Fx Gx; [contradiction|]. cbn.
  destruct Hin as [->|Hin].
  - rewrite Fx, Gx. cbn. pose proof (filter_length_le A f g l H). lia.
  - specialize (IH Hin Fx Gx). destruct (f y) eqn:F; [rewrite (H y F); cbn; lia | destruct (g y); cbn; lia].
Qed.

Lemma filter_length_all : forall (A : Type) (f : A -> bool) l, (List.length (filter f l) <= List.length l)%nat.
Proof. intros. induction l as [|x l IH]; cbn; [lia | destruct (f x); cbn; lia]. Qed.

Lemma insert_sorted_length : forall q c, List.length (insert_sorted q c) = S (List.length q).
Proof. induction q as [|x q IH]; intros c; cbn [insert_sorted]; [reflexivity|]. destruct (c_time x <? c_time c)%Z; cbn; [reflexivity | now rewrite IH]. Qed.

Lemma fold_insert_length : forall l q, List.length (fold_left insert_sorted l q) = (List.length l + List.length q)%nat.
Proof. induction l as [|c l IH]; intros q; cbn [fold_left]; [reflexivity|]. rewrite IH, insert_sorted_length. cbn. lia. Qed.

Section Term.
  Variable st : store.
  Hypothesis Hrank : tree_ranked st = true.

  (* the measure of the tree recursions: how many stored ids lie below x; it
     drops from a tree to each stored sub-directory (dir_entry_lt), and
     tree_fuel exceeds it *)
  Definition cnt (x : oid) : nat := List.length (filter (fun ko : oid * object => fst ko <? x) st).

  Lemma cnt_lt : forall y x o, get st y = Some o -> y < x -> (cnt y < cnt x)%nat.
  Proof.
    intros y x o G L. unfold cnt. apply (filter_length_lt _ _ _ st (y, o)).
    - intros k Hk. apply N.ltb_lt in Hk. apply N.ltb_lt. lia.
    - now apply get_In.
    - cbn. apply N.ltb_irrefl.
    - cbn. now apply N.ltb_lt.
  Qed.

  Lemma cnt_le : forall x, (cnt x <= List.length st)%nat.
  Proof. intros. apply filter_length_all. Qed.

  Lemma dir_entry_lt : forall th es e, get_tree st th = Some es -> In e es -> e_kind e = KDir -> e_id e < th.
  Proof.
    intros th es e Ht Hi Hk. apply get_tree_get in Ht. apply get_In in Ht.
    unfold tree_ranked in Hrank. rewrite forallb_forall in Hrank. specialize (Hrank _ Ht). cbn in Hrank.
    rewrite forallb_forall in Hrank. specialize (Hrank _ Hi). rewrite Hk in Hrank. now apply N.ltb_lt.
  Qed.

  Lemma sub_fuel : forall th es e es' f, get_tree st th = Some es -> In e es -> e_kind e = KDir ->
    get_tree st (e_id e) = Some es' -> (cnt th < S f)%nat -> (cnt (e_id e) < f)%nat.
  Proof.
    intros th es e es' f Ht Hi Hk Hs Hc. apply get_tree_get in Hs.
    pose proof (cnt_lt _ _ _ Hs (dir_entry_lt _ _ _ Ht Hi Hk)). lia.
  Qed.

  Lemma mark_tree_fuel : forall fuel th es seen, get_tree st th = Some es -> (cnt th < fuel)%nat ->
    mark_tree fuel st th es seen <> None.
  Proof.
    induction fuel as [|f IH]; intros th es seen Ht Hc; [lia|]. cbn [mark_tree].
    destruct (mem th seen); [discriminate|].
    assert (K : forall es', incl es' es -> forall sn, mark_entries (mark_tree f st) st es' sn <> None).
    { induction es' as [|e r IHr]; intros Hinc sn; cbn [mark_entries]; [discriminate|].
      assert (Hr : incl r es) by (intros x Hx; apply Hinc; now right).
      destruct (e_kind e) eqn:K; [| |now apply IHr].
      - destruct (mem (e_id e) sn); [now apply IHr|].
        destruct (get_tree st (e_id e)) as [es'|] eqn:G; [|now apply IHr].
        pose proof (IH _ _ sn G (sub_fuel th es e es' f Ht (Hinc e (or_introl eq_refl)) K G Hc)) as M.
        destruct (mark_tree f st (e_id e) es' sn); [now apply IHr | exact M].
      - destruct (mem (e_id e) sn); now apply IHr. }
    apply K, incl_refl.
  Qed.

  Lemma collect_all_fuel : forall fuel th es s, get_tree st th = Some es -> (cnt th < fuel)%nat ->
    collect_all fuel st th es s <> Err EFuel.
  Proof.
    induction fuel as [|f IH]; intros th es s Ht Hc; [lia|]. cbn [collect_all].
    destruct (mem th (fst s)); [discriminate|].
    assert (K : forall es', incl es' es -> forall sn, all_entries (collect_all f st) st es' sn <> Err EFuel).
    { induction es' as [|e r IHr]; intros Hinc sn; cbn [all_entries]; [discriminate|].
      assert (Hr : incl r es) by (intros x Hx; apply Hinc; now right).
      destruct (e_kind e) eqn:K; [| |now apply IHr].
      - destruct (mem (e_id e) (fst sn)); [now apply IHr|].
        destruct (get_tree st (e_id e)) as [es'|] eqn:G; [|discriminate].
        pose proof (IH _ _ sn G (sub_fuel th es e es' f Ht (Hinc e (or_introl eq_refl)) K G Hc)) as M.
        destruct (collect_all f st (e_id e) es' sn) as [s1|x]; [now apply IHr | exact M].
      - destruct (mem (e_id e) (fst sn)); now apply IHr. }
    apply K, incl_refl.
  Qed.

  Lemma collect_changed_fuel : forall fuel nh nes olds s, get_tree st nh = Some nes -> (cnt nh < fuel)%nat ->
    collect_changed fuel st nh nes olds s <> Err EFuel.
  Proof.
    induction fuel as [|f IH]; intros nh nes olds s Ht Hc; [lia|]. cbn [collect_changed].
    destruct (existsb (fun o => fst o =? nh) olds); [discriminate|].
    assert (K : forall es', incl es' nes -> forall sn, changed_entries (collect_changed f st) st olds es' sn <> Err EFuel).
    { induction es' as [|e r IHr]; intros Hinc sn; cbn [changed_entries]; [discriminate|].
      assert (Hr : incl r nes) by (intros x Hx; apply Hinc; now right).
      destruct (e_kind e) eqn:K; [| |now apply IHr].
      - destruct (unchanged_in e olds); [now apply IHr|].
        destruct (get_tree st (e_id e)) as [es'|] eqn:G; [|discriminate].
        pose proof (IH _ _ (old_subs st (e_name e) olds) sn G (sub_fuel nh nes e es' f Ht (Hinc e (or_introl eq_refl)) K G Hc)) as M.
        destruct (collect_changed f st (e_id e) es' (old_subs st (e_name e) olds) sn) as [s1|x]; [now apply IHr | exact M].
      - destruct (mem (e_id e) (fst sn)); [now apply IHr|]. destruct (unchanged_in e olds); now apply IHr. }
    apply K, incl_refl.
  Qed.

  Lemma tree_fuel_ok : forall th, (cnt th < tree_fuel st)%nat.
  Proof. intros. unfold tree_fuel. pose proof (cnt_le th). lia. Qed.

  (* the stored objects of kind p not yet in seen.  The loops over a work list
     or queue are measured by the length of the list plus this count: an
     element is only ever added to the list together with a new stored id of
     kind p to seen *)
  Definition uncounted (p : object -> bool) (seen : list oid) : nat :=
    List.length (filter (fun ko : oid * object => p (snd ko) && negb (mem (fst ko) seen)) st).

  Lemma uncounted_le : forall p seen, (uncounted p seen <= List.length st)%nat.
  Proof. intros. apply filter_length_all. Qed.

  Lemma uncounted_mono : forall p seen seen', incl seen seen' -> (uncounted p seen' <= uncounted p seen)%nat.
  Proof.
    intros p seen seen' H. apply filter_length_le. intros [k o] Hx. cbn in *.
    apply andb_true_iff in Hx. destruct Hx as [A B]. rewrite A. cbn. apply negb_true_iff in B. apply negb_true_iff.
    apply mem_false in B. apply mem_false. intro X. apply B, H, X.
  Qed.

  Lemma uncounted_dec : forall p seen h o, get st h = Some o -> p o = true -> mem h seen = false ->
    (uncounted p (h :: seen) < uncounted p seen)%nat.
  Proof.
    intros p seen h o G P M. apply (filter_length_lt _ _ _ st (h, o)).
    - intros [k v] Hx. cbn in *. apply andb_true_iff in Hx. destruct Hx as [A B]. rewrite A. cbn.
      apply negb_true_iff in B. apply orb_false_iff in B. destruct B as [_ B]. now rewrite B.
    - now apply get_In.
    - cbn. rewrite P, N.eqb_refl. reflexivity.
    - cbn. now rewrite P, M.
  Qed.

  Definition is_tag (o : object) : bool := match o with Tag _ => true | _ => false end.
  Definition is_commit (o : object) : bool := match o with Commit _ _ _ => true | _ => false end.

  Variable sh : list oid.
  Variable haves : list oid.
  Hypothesis Hwf : wf_store st = true.

  (* markTreeSeen with the fuel the model gives it succeeds, and only adds to the seen set *)
  Lemma mark_tree_ok : forall p t es seen, get_tree st t = Some es ->
    exists sn, mark_tree (tree_fuel st) st t es seen = Some sn /\ (uncounted p sn <= uncounted p seen)%nat.
  Proof.
    intros p t es seen T. pose proof (mark_tree_fuel _ _ _ seen T (tree_fuel_ok t)) as NF.
    destruct (mark_tree (tree_fuel st) st t es seen) as [sn|] eqn:MK; [|contradiction].
    exists sn. split; [reflexivity|]. apply uncounted_mono. apply (mark_tree_spec st [] _ _ _ _ _ MK T).
  Qed.

  Lemma seed_haves_fuel : forall fuel hv hseen hq seen,
    (List.length hv + uncounted is_tag seen < fuel)%nat -> seed_haves fuel st hv hseen hq seen <> Err EFuel.
  Proof.
    induction fuel as [|f IH]; intros hv hseen hq seen H; [lia|]. cbn [seed_haves].
    destruct hv as [|h r]; [discriminate|]. cbn [List.length] in H.
    destruct (mem h hseen || mem h seen) eqn:M; [apply IH; lia|].
    apply orb_false_iff in M. destruct M as [_ M].
    destruct (get st h) as [[t ps tm|es| |tg]|] eqn:G.
    - destruct (get_tree st t) as [es|] eqn:T; [|apply IH; lia].
      destruct (mark_tree_ok is_tag t es seen T) as (sn & -> & L). apply IH. lia.
    - destruct (mark_tree_ok is_tag h es seen (proj2 (get_tree_get _ _ _) G)) as (sn & -> & L). apply IH. lia.
    - apply IH. pose proof (uncounted_mono is_tag seen (h :: seen) (incl_tl _ (incl_refl _))). lia.
    - apply IH. rewrite app_length. cbn. pose proof (uncounted_dec is_tag seen h _ G eq_refl M). lia.
    - apply IH. lia.
  Qed.

  Lemma seed_wants_fuel : forall fuel wl wseen wq s,
    (List.length wl + uncounted is_tag (fst s) < fuel)%nat -> seed_wants fuel st wl wseen wq s <> Err EFuel.
  Proof.
    induction fuel as [|f IH]; intros wl wseen wq s H; [lia|]. cbn [seed_wants].
    destruct wl as [|h r]; [discriminate|]. cbn [List.length] in H.
    destruct (mem h wseen || mem h (fst s)) eqn:M; [apply IH; lia|].
    apply orb_false_iff in M. destruct M as [_ M].
    destruct (get st h) as [[t ps tm|es| |tg]|] eqn:G; [| | | |discriminate].
    - apply IH. lia.
    - apply get_tree_get in G. pose proof (collect_all_fuel _ _ _ s G (tree_fuel_ok h)) as NF.
      destruct (collect_all (tree_fuel st) st h es s) as [s1|x] eqn:CA; [|congruence].
      apply IH. destruct (collect_all_spec st [] [] Hwf _ _ _ _ _ CA G) as [[[[A _] _ _ _] _] _].
      pose proof (uncounted_mono is_tag _ _ A). lia.
    - apply IH. cbn [fst emit]. pose proof (uncounted_mono is_tag (fst s) (h :: fst s) (incl_tl _ (incl_refl _))). lia.
    - apply IH. rewrite app_length. cbn [fst emit List.length]. pose proof (uncounted_dec is_tag (fst s) h _ G eq_refl M). lia.
  Qed.

  Lemma full_parents_measure : forall ps wseen q wseen' q',
    full_parents st ps wseen q = Ok (wseen', q') ->
    (List.length q' + uncounted is_commit wseen' <= List.length q + uncounted is_commit wseen)%nat.
  Proof.
    induction ps as [|p ps IH]; intros wseen q wseen' q' H; cbn [full_parents] in H.
    - inversion H; subst. lia.
    - destruct (mem p wseen) eqn:M; [now apply IH|].
      destruct (get_commit st p) as [[[t pps] tm]|] eqn:G; [|discriminate].
      apply IH in H. rewrite insert_sorted_length in H. apply get_commit_get in G.
      pose proof (uncounted_dec is_commit wseen p _ G eq_refl M). lia.
  Qed.

  Lemma full_parents_no_fuel : forall ps wseen q, full_parents st ps wseen q <> Err EFuel.
  Proof.
    induction ps as [|p ps IH]; intros wseen q; cbn [full_parents]; [discriminate|].
    destruct (mem p wseen); [apply IH|]. destruct (get_commit st p) as [[[t pps] tm]|]; [apply IH | discriminate].
  Qed.

  Lemma walk_full_fuel : forall fuel wseen q s,
    (List.length q + uncounted is_commit wseen < fuel)%nat -> walk_full fuel st sh wseen q s <> Err EFuel.
  Proof.
    induction fuel as [|f IH]; intros wseen q s H; [lia|]. cbn [walk_full].
    destruct q as [|lc q]; [discriminate|]. cbn [List.length] in H.
    destruct (mem (c_id lc) (fst s)); [apply IH; lia|].
    destruct (get_tree st (c_tree lc)) as [es|] eqn:T; [|discriminate].
    pose proof (collect_all_fuel _ _ _ (emit (c_id lc) s) T (tree_fuel_ok _)) as CA.
    destruct (collect_all (tree_fuel st) st (c_tree lc) es (emit (c_id lc) s)) as [s2|x]; [|exact CA].
    destruct (mem (c_id lc) sh); [apply IH; lia|].
    pose proof (full_parents_no_fuel (c_parents lc) wseen q) as NF.
    destruct (full_parents st (c_parents lc) wseen q) as [[w' q']|x] eqn:FP; [|congruence].
    apply IH. pose proof (full_parents_measure _ _ _ _ _ FP). lia.
  Qed.

  (* falls with every iteration of the painted loop: one commit is popped, and
     propagate pushes a parent only when it sets a new flag on it.  The factor
     2 is the one in paint_fuel *)
  Definition phi (p : paint) : nat :=
    (List.length (p_q p) + 2 * (uncounted is_commit (p_w p) + uncounted is_commit (p_h p)))%nat.

  (* a new flag on a stored object of the kind counted lowers the count; no flag raises it *)
  Lemma uncounted_flag : forall p (f : bool) x l,
    (uncounted p (if f && negb (mem x l) then x :: l else l) <= uncounted p l)%nat /\
    (forall o, get st x = Some o -> p o = true -> implb f (mem x l) = false ->
       (uncounted p (if f && negb (mem x l) then x :: l else l) < uncounted p l)%nat).
  Proof.
    intros p f x l. split.
    - apply uncounted_mono. destruct (f && negb (mem x l)); [apply incl_tl|]; apply incl_refl.
    - intros o G P SK. destruct f; [|discriminate]. cbn in SK. rewrite SK. cbn. eapply uncounted_dec; eauto.
  Qed.

  Lemma propagate_phi : forall fw fh c ps p, (phi (propagate st fw fh c ps p) <= phi p)%nat.
  Proof.
    intros fw fh c. induction ps as [|ph r IH]; intros p; cbn [propagate]; [lia|].
    destruct (implb fw (mem ph (p_w p)) && implb fh (mem ph (p_h p))) eqn:SK; [apply IH|].
    destruct (uncounted_flag is_commit fw ph (p_w p)) as [Ww Dw].
    destruct (uncounted_flag is_commit fh ph (p_h p)) as [Wh Dh].
    destruct (get_commit st ph) as [[[t pps] tm]|] eqn:G.
    - eapply Nat.le_trans; [apply IH|]. unfold phi. cbn [p_w p_h p_q]. rewrite insert_sorted_length.
      apply get_commit_get in G. apply andb_false_iff in SK. destruct SK as [SK|SK].
      + specialize (Dw _ G eq_refl SK). lia.
      + specialize (Dh _ G eq_refl SK). lia.
    - eapply Nat.le_trans; [apply IH|]. unfold phi. cbn [p_w p_h p_q]. lia.
  Qed.

  Lemma paint_loop_fuel : forall fuel p newc, (phi p < fuel)%nat -> paint_loop fuel st sh p newc <> Err EFuel.
  Proof.
    induction fuel as [|f IH]; intros p newc H; [lia|]. cbn [paint_loop].
    destruct (p_q p) as [|lc q] eqn:Q; [discriminate|].
    match goal with |- (if all_stale (p_q ?p1) ?p1 then _ else _) <> _ => set (pp := p1) end.
    destruct (all_stale (p_q pp) pp); [discriminate|]. apply IH.
    assert (P0 : (phi (mkP (p_w p) (p_h p) q (p_miss p)) < phi p)%nat) by (unfold phi; cbn [p_q p_w p_h]; rewrite Q; cbn; lia).
    unfold pp. destruct (mem (c_id lc) sh); [lia|].
    pose proof (propagate_phi (mem (c_id lc) (p_w p)) (mem (c_id lc) (p_h p)) (c_id lc) (c_parents lc) (mkP (p_w p) (p_h p) q (p_miss p))). lia.
  Qed.

  Lemma parent_trees_no_fuel : forall ps, parent_trees st ps <> Err EFuel.
  Proof.
    induction ps as [|p ps IH]; cbn [parent_trees]; [discriminate|].
    destruct (get_commit st p) as [[[t a] b]|]; [|exact IH].
    destruct (get_tree st t); [|discriminate]. destruct (parent_trees st ps); [discriminate | exact IH].
  Qed.

  Lemma phase2_fuel : forall hp newc s, phase2 st sh hp newc s <> Err EFuel.
  Proof.
    intros hp. induction newc as [|lc r IH]; intros s; cbn [phase2]; [discriminate|].
    destruct (mem (c_id lc) hp); [apply IH|].
    assert (PC : process_commit st sh lc s <> Err EFuel).
    { unfold process_commit. destruct (get_tree st (c_tree lc)) as [es|] eqn:T; [|discriminate].
      pose proof (parent_trees_no_fuel (if mem (c_id lc) sh then [] else c_parents lc)) as PT.
      destruct (parent_trees st _) as [olds|x]; [|congruence].
      apply collect_changed_fuel; [exact T | apply tree_fuel_ok]. }
    destruct (process_commit st sh lc s) as [s1|x]; [apply IH | exact PC].
  Qed.

  Lemma objects_fuel : forall wants, objects st sh wants haves <> Err EFuel.
  Proof.
    intros wants. unfold objects.
    assert (SH : seed_haves (S (List.length haves + List.length st)) st haves [] [] [] <> Err EFuel)
      by (apply seed_haves_fuel; pose proof (uncounted_le is_tag []); lia).
    destruct (seed_haves _ st haves [] [] []) as [[hq seen]|x]; [|congruence].
    assert (SW : seed_wants (S (List.length wants + List.length st)) st wants [] [] (seen, []) <> Err EFuel)
      by (apply seed_wants_fuel; pose proof (uncounted_le is_tag seen); cbn [fst]; lia).
    destruct (seed_wants _ st wants [] [] (seen, [])) as [[[wseen wq] s0]|x]; [|congruence].
    assert (WK : walk st sh wseen wq hq s0 <> Err EFuel).
    { unfold walk. destruct hq as [|hc hq'].
      - apply walk_full_fuel. pose proof (uncounted_le is_commit wseen). lia.
      - set (q2 := fold_left insert_sorted (hc :: hq') (fold_left insert_sorted wq [])).
        set (p0 := mkP (map c_id wq) (map c_id (hc :: hq')) q2 []).
        assert (PL : paint_loop (paint_fuel st (List.length q2)) st sh p0 [] <> Err EFuel).
        { apply paint_loop_fuel. unfold phi, paint_fuel, p0. cbn [p_q p_w p_h].
          pose proof (uncounted_le is_commit (map c_id wq)). pose proof (uncounted_le is_commit (map c_id (hc :: hq'))). lia. }
        destruct (paint_loop _ st sh p0 []) as [[p' newc]|x]; [|congruence].
        destruct (check_missing (p_miss p') (p_h p')); [apply phase2_fuel | discriminate]. }
    destruct (walk st sh wseen wq hq s0) as [s'|x]; [discriminate | congruence].
  Qed.
End Term.
