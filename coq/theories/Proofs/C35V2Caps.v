(* Proofs/C35V2Caps.v — protocol v2: the one-capability-per-line list
   (EncodeListV2 / DecodeListV2), the capability advertisement and the
   ls-refs arguments round-trip. *)
From Coq Require Import List Arith NArith ZArith Bool Lia String.
From GoGit Require Import Base.Out Base.GoInt Gen.C34 Model.PktLine Model.C35Utf8 Model.Packp Model.PackpV2
  Proofs.C34Pkt Proofs.C35Base Proofs.C35Msgs Proofs.C35Caps Proofs.C35V2Base.
Import ListNotations.

(* a v2 value is one word: non-empty, graphic, no blank *)
Definition val2_ok (v : bytes) : bool := match v with [] => false | _ => forallb tokc v end.
Definition caps2_ok (l : caps) : bool :=
  forallb (fun e => key_ok (fst e) && forallb val2_ok (snd e)) l && keys_distinct l.

Definition cap2_line (e : bytes * list bytes) : bytes :=
  match snd e with [] => fst e | vs => fst e ++ [EQ] ++ join [SP] vs end.

Lemma caps2_encode_eq l : caps2_encode l = map (fun e => PData (cap2_line e ++ [NL])) l.
Proof.
  unfold caps2_encode. apply map_ext. intros [k vs]. unfold cap2_line. cbn [fst snd].
  destruct vs; [reflexivity|]. now rewrite <- !app_assoc.
Qed.

Lemma val2_props v : val2_ok v = true -> v <> [] /\ no_byte SP v = true.
Proof.
  unfold val2_ok. destruct v as [|c v]; [discriminate|]. intros H. split; [discriminate|now apply tokc_nosp].
Qed.

Lemma add_values_go k : forall vs acc v0s, absent k acc = true -> forallb val2_ok vs = true ->
  caps2_add_values (acc ++ [(k, v0s)]) k vs = acc ++ [(k, v0s ++ vs)].
Proof.
  induction vs as [|v vs IH]; intros acc v0s Ha Hv; [cbn; now rewrite app_nil_r|].
  cbn [forallb] in Hv. apply andb_prop in Hv. destruct Hv as [Hv1 Hv2].
  destruct (val2_props v Hv1) as [Hne _]. unfold caps2_add_values. cbn [fold_left].
  destruct v as [|c v']; [contradiction|].
  etransitivity; [apply f_equal; apply (cap_add_last acc k v0s [c :: v'] Ha)|].
  etransitivity; [apply (IH acc (v0s ++ [c :: v']) Ha Hv2)|]. do 3 f_equal. now rewrite <- app_assoc.
Qed.

Lemma add_values k vs acc : absent k acc = true -> vs <> [] -> forallb val2_ok vs = true ->
  caps2_add_values acc k vs = acc ++ [(k, vs)].
Proof.
  intros Ha Hne Hv. destruct vs as [|v vs]; [contradiction|].
  cbn [forallb] in Hv. apply andb_prop in Hv. destruct Hv as [Hv1 Hv2].
  destruct (val2_props v Hv1) as [Hvn _]. unfold caps2_add_values. cbn [fold_left].
  destruct v as [|c v']; [contradiction|].
  etransitivity; [apply f_equal; apply (cap_add_absent acc k [c :: v'] Ha)|].
  apply (add_values_go k vs acc [c :: v'] Ha Hv2).
Qed.

Lemma caps2_step e rest acc : key_ok (fst e) = true -> forallb val2_ok (snd e) = true -> absent (fst e) acc = true ->
  caps2_decode (rdp (PData (cap2_line e ++ [NL])) :: rest) acc = caps2_decode rest (acc ++ [e]).
Proof.
  destruct e as [k vs]. cbn [fst snd]. intros Hk Hv Ha. destruct (key_noeq k Hk) as [Hne Hnn].
  unfold EQ in *. rewrite rdp_line. cbn [caps2_decode rd_err rd_len rd_payload]. rewrite special_data, trim_eol_app.
  unfold cap2_line. cbn [fst snd]. unfold EQ. destruct vs as [|v vs].
  - destruct k as [|c k]; [contradiction|]. rewrite (cut_none 61%N _ Hne). now rewrite (cap_add_absent acc (c :: k) [] Ha).
  - destruct (k ++ [61%N] ++ join [SP] (v :: vs)) as [|c0 t0] eqn:E; [destruct k; discriminate|]. rewrite <- E.
    change (k ++ [61%N] ++ join [SP] (v :: vs)) with (k ++ 61%N :: join [SP] (v :: vs)). rewrite (cut_app 61%N k _ Hne).
    rewrite split_join; [|discriminate|].
    + now rewrite (add_values k (v :: vs) acc Ha ltac:(discriminate) Hv).
    + apply forallb_forall. intros x Hx. rewrite forallb_forall in Hv. now destruct (val2_props x (Hv x Hx)).
Qed.

Lemma caps2_lines : forall l rest acc,
  forallb (fun e => key_ok (fst e) && forallb val2_ok (snd e)) l = true -> keys_distinct l = true ->
  forallb (fun e => absent (fst e) acc) l = true ->
  caps2_decode (map rdp (caps2_encode l) ++ rest) acc = caps2_decode rest (acc ++ l).
Proof.
  intros l rest. rewrite caps2_encode_eq.
  induction l as [|[k vs] l IH]; intros acc Hk Hd Ha; [cbn; now rewrite app_nil_r|].
  cbn [forallb fst snd] in Hk, Ha. apply andb_prop in Hk, Ha. destruct Hk as [Hk1 Hk2], Ha as [Ha1 Ha2].
  apply andb_prop in Hk1. destruct Hk1 as [Hkk Hkv].
  cbn [keys_distinct] in Hd. apply andb_prop in Hd. destruct Hd as [Hd1 Hd2].
  cbn [map app]. rewrite (caps2_step (k, vs) _ acc Hkk Hkv Ha1).
  rewrite IH; [now rewrite <- app_assoc|assumption|assumption|].
  now apply absent_snoc.
Qed.

Lemma caps2_all l rest : caps2_ok l = true ->
  caps2_decode (map rdp (caps2_encode l) ++ rest) [] = caps2_decode rest l.
Proof.
  unfold caps2_ok. intros H. apply andb_prop in H. destruct H as [H1 H2].
  rewrite (caps2_lines l rest [] H1 H2); [reflexivity|]. apply forallb_forall. intros e _. reflexivity.
Qed.

(* no capability line is an ERR line: a key has no space, and what follows it ('=' or the newline) is no byte of "ERR " *)
Lemma cap2_line_noerr e : key_ok (fst e) = true -> no_errline (PData (cap2_line e ++ [NL])) = true.
Proof.
  destruct e as [k vs]. cbn [fst]. intros Hk. cbn [no_errline]. apply negb_true_iff.
  pose proof (tokc_nosp k (proj2 (key_tokc k Hk))) as Hsp.
  unfold cap2_line. cbn [fst snd]. destruct vs as [|v vs].
  - now apply has_prefix_word.
  - rewrite <- !app_assoc. now apply has_prefix_word.
Qed.

Lemma caps2_noerr l : forallb (fun e => key_ok (fst e) && forallb val2_ok (snd e)) l = true ->
  forallb no_errline (caps2_encode l) = true.
Proof.
  rewrite caps2_encode_eq. apply forallb_map_impl. intros e He. apply andb_prop in He. now apply cap2_line_noerr.
Qed.

Lemma capadv_head rest : capadv_decode (rdp (PData (B "version 2" ++ [NL])) :: rest) =
  match caps2_decode rest [] with
  | inr e => inr e
  | inl (len, l, r') => if (len =? 0)%Z then inl (2%Z, l, r') else inr V2Other
  end.
Proof. reflexivity. Qed.

Theorem capadv_roundtrip l ps tail : caps2_ok l = true -> capadv_encode 2 l = Some ps ->
  forallb no_errline ps = true /\
  capadv_decode (map rdp ps ++ tail) = inl (2%Z, l, tail).
Proof.
  intros Hok He. unfold capadv_encode in He. cbn [Z.eqb Pos.eqb] in He. injection He as <-. split.
  - cbn [forallb]. rewrite forallb_app. cbn [forallb andb].
    unfold caps2_ok in Hok. apply andb_prop in Hok. destruct Hok as [H1 _]. rewrite (caps2_noerr l H1). reflexivity.
  - cbn [map app]. rewrite capadv_head. rewrite map_app, <- app_assoc. rewrite (caps2_all l _ Hok). reflexivity.
Qed.

(* a prefix Encode accepts and Decode gives back: non-empty graphic ASCII without blanks *)
Definition prefix_ok (p : bytes) : bool := match p with [] => false | _ => forallb tokc p end.
Definition lsargs_ok (a : lsargs) : bool := forallb prefix_ok (la_prefixes a).

Lemma tokc_ascii c : tokc c = true -> C35Utf8.ascii c = true.
Proof. intros H. pose proof (tokc_asciins c H) as A. unfold C35Utf8.asciins in A. now apply andb_prop in A. Qed.

Lemma prefix_ok_ref p : prefix_ok p = true -> ref_prefix_ok p = true.
Proof.
  unfold prefix_ok, ref_prefix_ok. destruct p as [|c p]; [discriminate|]. intros H. apply negb_true_iff.
  rewrite C35Utf8.contains_rune_ascii.
  - apply not_true_iff_false. intros E. apply existsb_exists in E. destruct E as (x & Hx & Hf).
    rewrite forallb_forall in H. specialize (H x Hx). pose proof (tokc_asciins x H) as A.
    destruct (C35Utf8.asciins_spec x A) as (_ & S1 & _). rewrite S1, orb_false_r in Hf.
    unfold tokc in H. apply andb_prop in H. destruct H as [H1 H2]. apply N.leb_le in H1, H2.
    unfold is_control_rune in Hf. destruct (N.eqb_spec x 0); [lia|]. cbn [orb] in Hf.
    destruct (N.ltb_spec x 32); [lia|]. cbn [orb] in Hf. apply andb_prop in Hf. destruct Hf as [Hf1 Hf2].
    apply N.leb_le in Hf1. lia.
  - rewrite forallb_forall in *. intros x Hx. now apply tokc_ascii, H.
Qed.

Lemma lsargs_prefix_step p rest pl sy un ps :
  lsargs_decode (rdp (PData (B "ref-prefix " ++ p ++ [NL])) :: rest) (mklsargs pl sy un ps) = lsargs_decode rest (mklsargs pl sy un (ps ++ [p])).
Proof.
  change (B "ref-prefix " ++ p ++ [NL]) with ((B "ref-prefix " ++ p) ++ [NL]).
  rewrite rdp_line. cbn [lsargs_decode rd_err rd_len rd_payload]. rewrite len_data_nz by lia. rewrite trim_eol_app.
  destruct (B "ref-prefix " ++ p) as [|c0 t0] eqn:E; [discriminate|]. rewrite <- E.
  change (beq (B "ref-prefix " ++ p) (B "peel")) with false.
  change (beq (B "ref-prefix " ++ p) (B "symrefs")) with false.
  change (beq (B "ref-prefix " ++ p) (B "unborn")) with false. cbv iota.
  rewrite has_prefix_app. now rewrite (skipn_app_exact (B "ref-prefix ") p 11 eq_refl).
Qed.

Lemma lsargs_prefix_lines ps rest a :
  lsargs_decode (map rdp (map (fun p => PData (B "ref-prefix " ++ p ++ [NL])) ps) ++ rest) a
  = lsargs_decode rest (mklsargs (la_peel a) (la_symrefs a) (la_unborn a) (la_prefixes a ++ ps)).
Proof.
  destruct a as [pl sy un pre]. rewrite map_map.
  apply (lines_acc lsargs_decode _ (mklsargs pl sy un) (fun _ => True) (fun p r acc _ => lsargs_prefix_step p r pl sy un acc)).
  now apply Forall_forall.
Qed.

(* an optional flag line: st b is the arguments with that flag set to b *)
Lemma lsargs_flag (b : bool) (name : string) (st : bool -> lsargs) rest :
  lsargs_decode (rdp (PData (B name ++ [NL])) :: rest) (st false) = lsargs_decode rest (st true) ->
  lsargs_decode (map rdp (if b then [PData (B name ++ [NL])] else []) ++ rest) (st false) = lsargs_decode rest (st b).
Proof. intros H. destruct b; [exact H|reflexivity]. Qed.

Theorem lsargs_roundtrip a ps tail : lsargs_ok a = true ->
  lsargs_encode a = Some ps ->
  forallb no_errline ps = true /\
  lsargs_decode (map rdp (ps ++ [PFlush]) ++ tail) lsargs_zero = inl (a, tail).
Proof.
  intros Hok He. unfold lsargs_ok in Hok. unfold lsargs_encode in He.
  assert (forallb ref_prefix_ok (la_prefixes a) = true) as Hr.
  { rewrite forallb_forall in *. intros p Hp. now apply prefix_ok_ref, Hok. }
  rewrite Hr in He. injection He as <-. split.
  - rewrite !forallb_app. repeat (apply andb_true_intro; split).
    + destruct (la_peel a); reflexivity.
    + destruct (la_symrefs a); reflexivity.
    + destruct (la_unborn a); reflexivity.
    + now apply forallb_map_all.
  - rewrite <- !app_assoc. rewrite !map_app, <- !app_assoc. unfold lsargs_zero.
    rewrite (lsargs_flag (la_peel a) "peel" (fun b => mklsargs b false false [])) by reflexivity.
    rewrite (lsargs_flag (la_symrefs a) "symrefs" (fun b => mklsargs (la_peel a) b false [])) by reflexivity.
    rewrite (lsargs_flag (la_unborn a) "unborn" (fun b => mklsargs (la_peel a) (la_symrefs a) b [])) by reflexivity.
    rewrite (lsargs_prefix_lines (la_prefixes a)). now destruct a.
Qed.
