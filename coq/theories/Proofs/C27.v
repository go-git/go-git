(* Proofs/C27.v — Worktree.status: the fold of the two change lists is a
   per-path function, and that function is git's XY classification under an
   explicit per-path guard. *)
From Coq Require Import List NArith Arith Lia Bool ZifyBool ZifyN.
From GoGit Require Import Base.Out Model.Status Spec.GitStatus.
Import ListNotations.
Local Open Scope N_scope.

Lemma bytes_eqb_eq a : forall b, bytes_eqb a b = true <-> a = b.
Proof.
  induction a as [|x a IH]; intros [|y b]; cbn [bytes_eqb]; split; intros H; try reflexivity; try discriminate.
  - apply andb_true_iff in H as [H1 H2]. apply N.eqb_eq in H1. apply IH in H2. now subst.
  - inversion H; subst. rewrite N.eqb_refl. cbn. now apply IH.
Qed.

Lemma bytes_eqb_refl a : bytes_eqb a a = true.
Proof. now apply bytes_eqb_eq. Qed.

Lemma bytes_eqb_neq a b : a <> b -> bytes_eqb a b = false.
Proof. intros H. apply not_true_is_false. now rewrite bytes_eqb_eq. Qed.

Lemma bytes_eqb_sym a b : bytes_eqb a b = bytes_eqb b a.
Proof. apply eq_true_iff_eq. rewrite !bytes_eqb_eq. split; congruence. Qed.

Lemma fmode_eqb_eq a b : fmode_eqb a b = true <-> a = b.
Proof. destruct a, b; cbn; split; intros H; try reflexivity; discriminate. Qed.

Definition is_some {A} (o : option A) : bool := match o with Some _ => true | None => false end.

Lemma find_t_find l q : find_t l q = find (fun e => bytes_eqb (te_path e) q) l.
Proof. induction l as [|e r IH]; [reflexivity|]. cbn [find_t find]. now rewrite IH. Qed.
Lemma find_i_find l q : find_i l q = find (fun e => bytes_eqb (ie_path e) q) l.
Proof. induction l as [|e r IH]; [reflexivity|]. cbn [find_i find]. now rewrite IH. Qed.
Lemma find_w_find l q : find_w l q = find (fun e => bytes_eqb (wf_path e) q) l.
Proof. induction l as [|e r IH]; [reflexivity|]. cbn [find_w find]. now rewrite IH. Qed.

Section Keyed.
  Context {A : Type} (key : A -> path).
  Notation look l q := (find (fun e => bytes_eqb (key e) q) l).

  Lemma look_some l q e : look l q = Some e -> In e l /\ key e = q.
  Proof. intros H. apply find_some in H as [H1 H2]. now apply bytes_eqb_eq in H2. Qed.

  Lemma mem_look q l : mem_path q (map key l) = is_some (look l q).
  Proof.
    induction l as [|e r IH]; [reflexivity|]. cbn [map mem_path find].
    destruct (bytes_eqb (key e) q); [reflexivity|exact IH].
  Qed.

  Lemma look_filter (g : path -> bool) l q :
    look (filter (fun e => g (key e)) l) q = if g q then look l q else None.
  Proof.
    induction l as [|e r IH]; [now destruct (g q)|]. cbn [filter find].
    destruct (bytes_eqb (key e) q) eqn:E.
    - apply bytes_eqb_eq in E. subst q.
      destruct (g (key e)) eqn:G; [cbn [find]; now rewrite bytes_eqb_refl|exact IH].
    - rewrite <- IH. destruct (g (key e)); [cbn [find]; now rewrite E|reflexivity].
  Qed.

  Lemma look_map {B} (d : B -> A) l q :
    look (map d l) q = option_map d (find (fun x => bytes_eqb (key (d x)) q) l).
  Proof.
    induction l as [|x r IH]; [reflexivity|]. cbn [map find].
    destruct (bytes_eqb (key (d x)) q); [reflexivity|exact IH].
  Qed.
End Keyed.

Lemma existsb_false {A} (P : A -> bool) l : existsb P l = false <-> forall x, In x l -> P x = false.
Proof.
  rewrite <- not_true_iff_false, existsb_exists. split.
  - intros H x Hx. apply not_true_is_false. intros Px. apply H. now exists x.
  - intros H [x [Hx Px]]. rewrite (H x Hx) in Px. discriminate.
Qed.

Lemma sget_sset m p v : forall q,
  sget (sset m p v) q = if bytes_eqb p q then Some v else sget m q.
Proof.
  induction m as [|[r w] m IH]; intros q.
  - cbn [sset sget]. reflexivity.
  - cbn [sset]. destruct (bytes_eqb r p) eqn:E.
    + apply bytes_eqb_eq in E. subst r. cbn [sget]. destruct (bytes_eqb p q); reflexivity.
    + cbn [sget]. destruct (bytes_eqb r q) eqn:E2.
      * apply bytes_eqb_eq in E2. subst r. rewrite bytes_eqb_sym, E. reflexivity.
      * apply IH.
Qed.

Fixpoint nodup_b (ps : list path) : bool :=
  match ps with [] => true | p :: r => negb (mem_path p r) && nodup_b r end.

Lemma mem_dedup p l : mem_path p (dedup l) = mem_path p l.
Proof.
  induction l as [|q l IH]; [reflexivity|]. cbn [dedup mem_path].
  destruct (mem_path q l) eqn:E.
  - rewrite IH. destruct (bytes_eqb q p) eqn:E2; [|reflexivity].
    apply bytes_eqb_eq in E2. subst. now rewrite E.
  - cbn [mem_path]. now rewrite IH.
Qed.

Lemma dedup_nodup l : nodup_b (dedup l) = true.
Proof.
  induction l as [|q l IH]; [reflexivity|]. cbn [dedup].
  destruct (mem_path q l) eqn:E; [exact IH|]. cbn [nodup_b]. now rewrite mem_dedup, E, IH.
Qed.

Lemma mem_path_in p l : mem_path p l = true <-> In p l.
Proof.
  induction l as [|q l IH]; cbn [mem_path In]; [split; [discriminate|tauto]|].
  rewrite orb_true_iff, IH, bytes_eqb_eq. reflexivity.
Qed.

Definition stg (a : action) : code := match a with Del => CDel | Ins => CAdd | Mod => CMod end.

(* what one right change makes of the entry found (or created) for its path *)
Definition rapply (v : code * code) (a : action) : code * code :=
  let st := if code_eqb (fst v) CUntracked then CUnmod else fst v in
  match a with Del => (st, CDel) | Ins => (CUntracked, CUntracked) | Mod => (st, CMod) end.

Lemma sget_left_apply m p a q :
  sget (left_apply m (p, a)) q = if bytes_eqb p q then Some (stg a, CUnmod) else sget m q.
Proof. unfold left_apply. destruct (sfile m p). rewrite sget_sset. now destruct a. Qed.

Lemma sget_right_apply m p a q :
  sget (right_apply m (p, a)) q = if bytes_eqb p q then Some (rapply (sfile m p) a) else sget m q.
Proof. unfold right_apply, rapply. destruct (sfile m p) as [st0 w0]. cbn [fst]. destruct a; apply sget_sset. Qed.

Definition assoc (q : path) (L : list (path * action)) : option action :=
  option_map snd (find (fun x => bytes_eqb (fst x) q) L).

(* a loop whose step writes, at the change's path, a value made from the entry found there:
   over changes with distinct paths, every path sees at most its own change, applied to the initial entry *)
Section Fold.
  Variables (ap : smap -> path * action -> smap) (v : option (code * code) -> action -> code * code).
  Hypothesis step : forall m p a q,
    sget (ap m (p, a)) q = if bytes_eqb p q then Some (v (sget m p) a) else sget m q.

  Lemma fold_apply L : forall m q,
    NoDup (map fst L) ->
    sget (fold_left ap L m) q = match assoc q L with Some a => Some (v (sget m q) a) | None => sget m q end.
  Proof.
    induction L as [|[p a] L IH]; intros m q Hn; [reflexivity|].
    inversion Hn as [|? ? Hnin Hn']; subst. cbn [fold_left]. rewrite IH, !step by exact Hn'.
    unfold assoc. cbn [find fst]. destruct (bytes_eqb p q) eqn:E; [|reflexivity].
    apply bytes_eqb_eq in E. subst q.
    destruct (find (fun x => bytes_eqb (fst x) p) L) as [[p' a']|] eqn:F; [|reflexivity].
    apply find_some in F as [F1 F2]. apply bytes_eqb_eq in F2. cbn [fst] in F2. subst p'.
    destruct Hnin. apply in_map_iff. now exists (p, a').
  Qed.
End Fold.

Lemma sget_fold_left_apply L m q :
  NoDup (map fst L) ->
  sget (fold_left left_apply L m) q = match assoc q L with Some a => Some (stg a, CUnmod) | None => sget m q end.
Proof. exact (fold_apply left_apply (fun _ a => (stg a, CUnmod)) sget_left_apply L m q). Qed.

Lemma sget_fold_right_apply L m q :
  NoDup (map fst L) ->
  sget (fold_left right_apply L m) q = match assoc q L with Some a => Some (rapply (sfile m q) a) | None => sget m q end.
Proof.
  exact (fold_apply right_apply
           (fun o => rapply match o with Some x => x | None => (CUntracked, CUntracked) end) sget_right_apply L m q).
Qed.

Lemma assoc_changes f ps q : assoc q (changes f ps) = if mem_path q ps then f q else None.
Proof.
  induction ps as [|p ps IH]; [reflexivity|]. unfold changes, assoc in *. cbn [flat_map mem_path].
  destruct (bytes_eqb p q) eqn:E.
  - apply bytes_eqb_eq in E. subst p. destruct (f q) as [a|] eqn:F; cbn [app find fst orb].
    + now rewrite bytes_eqb_refl.
    + rewrite IH. now destruct (mem_path q ps).
  - destruct (f p); cbn [app find fst orb]; rewrite ?E; exact IH.
Qed.

Lemma changes_nodup f ps : nodup_b ps = true -> NoDup (map fst (changes f ps)).
Proof.
  induction ps as [|p ps IH]; cbn [nodup_b]; [constructor|]. intros H.
  apply andb_true_iff in H as [Hp H]. apply negb_true_iff in Hp.
  unfold changes. cbn [flat_map]. destruct (f p); [|now apply IH]. cbn [app map fst]. constructor; [|now apply IH].
  intros Hi. apply in_map_iff in Hi as ([q b] & <- & Hq). apply in_flat_map in Hq as (q' & Hq' & Hx).
  destruct (f q'); [|destruct Hx]. destruct Hx as [Hx|[]]. inversion Hx; subst q'.
  apply mem_path_in in Hq'. cbn [fst] in Hp. congruence.
Qed.

(* the per-path result of Worktree.status *)
Definition g_class (l r : option action) : option (code * code) :=
  match l, r with
  | None, None => None
  | None, Some a => Some (rapply (CUntracked, CUntracked) a)
  | Some a, None => Some (stg a, CUnmod)
  | Some a, Some b => Some (rapply (stg a, CUnmod) b)
  end.

Lemma mem_head_paths q h : mem_path q (map te_path h) = is_some (find_t h q).
Proof. rewrite find_t_find. apply mem_look. Qed.
Lemma mem_idx_paths q i : mem_path q (map ie_path i) = is_some (find_i i q).
Proof. rewrite find_i_find. apply mem_look. Qed.
Lemma mem_wt_paths q w : mem_path q (map wf_path w) = is_some (find_w w q).
Proof. rewrite find_w_find. apply mem_look. Qed.
Lemma mem_path_app p a b : mem_path p (a ++ b) = mem_path p a || mem_path p b.
Proof. induction a as [|q a IH]; [reflexivity|]. cbn [app mem_path]. now rewrite IH, orb_assoc. Qed.

Lemma outside_paths s p :
  mem_path p (all_paths s) = false -> left_change s p = None /\ right_change s p = None.
Proof.
  unfold all_paths, left_change, right_change.
  rewrite mem_dedup, !mem_path_app, mem_head_paths, mem_idx_paths, mem_wt_paths.
  destruct (find_t _ p), (find_i _ p), (find_w _ p); try discriminate. now split.
Qed.

Lemma status_map_get s p :
  sget (status_map s) p = g_class (left_change s p) (right_change s p).
Proof.
  unfold status_map. cbv zeta.
  rewrite sget_fold_right_apply by apply changes_nodup, dedup_nodup.
  unfold sfile. rewrite sget_fold_left_apply by apply changes_nodup, dedup_nodup. rewrite !assoc_changes. cbn [sget].
  destruct (mem_path p (all_paths s)) eqn:M.
  - destruct (left_change s p) as [a|], (right_change s p) as [b|]; reflexivity.
  - destruct (outside_paths s p M) as [-> ->]. reflexivity.
Qed.

Definition list_of (p : path) (v : option (code * code)) : list (path * code * code) :=
  match v with
  | Some (x, y) => if code_eqb x CUnmod && code_eqb y CUnmod then [] else [(p, x, y)]
  | None => []
  end.

Lemma status_pointwise s ps :
  status s ps = flat_map (fun p => list_of p (g_class (left_change s p) (right_change s p))) ps.
Proof.
  unfold status, listing. apply flat_map_ext. intros p. rewrite status_map_get. reflexivity.
Qed.

(* the per-path guard: none of the recorded deviations applies at p *)
Definition ok_path (s : state) (p : path) : bool :=
  let h := find_t (st_head s) p in
  let i := find_i (st_index s) p in
  let w := find_w (st_wt s) p in
  (* ids of the repository's format *)
  match h with Some a => h_fmt (te_hash a) =? st_fmt s | None => true end &&
  match i with Some e => (h_fmt (ie_hash e) =? st_fmt s) && negb (ie_ita e) | None => true end &&
  (* no type change *)
  match h, i with Some a, Some e => Bool.eqb (is_link (te_mode a)) (is_link (ie_mode e)) | _, _ => true end &&
  match i, w with Some e, Some f => Bool.eqb (is_link (ie_mode e)) (is_link (wf_mode f)) | _, _ => true end &&
  (* untracked files: .git/info/exclude changes nothing; no staged deletion of a file still present *)
  match i, w with
  | None, Some f => Bool.eqb (wf_ignored f) (wf_ignored_git f) && (negb (is_some h) || wf_ignored f)
  | _, _ => true
  end &&
  (* tracked files present in the worktree *)
  match i, w with
  | Some e, Some f =>
    ((st_fmt s =? 0) || metadata_matches s e f) &&
    (st_filemode s || negb (fmode_eqb (wf_mode f) MExec)) &&
    (negb (metadata_matches s e f) || (h_cid (ie_hash e) =? wf_cid f))
  | _, _ => true
  end.

Lemma find_i_path l p e : find_i l p = Some e -> ie_path e = p.
Proof. rewrite find_i_find. intros H. now apply look_some in H. Qed.
Lemma find_i_in l p e : find_i l p = Some e -> In e l.
Proof. rewrite find_i_find. intros H. now apply look_some in H. Qed.
Lemma find_w_path l p f : find_w l p = Some f -> wf_path f = p.
Proof. rewrite find_w_find. intros H. now apply look_some in H. Qed.
Lemma find_w_in l p f : find_w l p = Some f -> In f l.
Proof. rewrite find_w_find. intros H. now apply look_some in H. Qed.

(* diffStagingWithWorktree per path, by what the index and the worktree hold there *)
Lemma right_change_cases s q :
  right_change s q =
  match find_i (st_index s) q, find_w (st_wt s) q with
  | Some e, Some f => if nhash_eqb (inode_hash (st_filemode s) e) (wnode_hash s f) then None else Some Mod
  | Some _, None => Some Del
  | None, Some f => if wf_ignored f then None else Some Ins
  | None, None => None
  end.
Proof.
  unfold right_change, wt_visible.
  destruct (find_i (st_index s) q) as [e|] eqn:Ei, (find_w (st_wt s) q) as [f|] eqn:Ew; try reflexivity;
    rewrite (find_w_path _ _ _ Ew), Ei; [reflexivity|]. now destruct (wf_ignored f).
Qed.

(* the two columns of a path that has an index entry: its right change is never an insertion *)
Definition xcode (l : option action) : code := match l with Some a => stg a | None => CUnmod end.
Definition ycode (r : option action) : code :=
  match r with Some Del => CDel | Some _ => CMod | None => CUnmod end.

Lemma list_of_tracked p l r :
  r <> Some Ins ->
  list_of p (g_class l r) =
  if code_eqb (xcode l) CUnmod && code_eqb (ycode r) CUnmod then [] else [(p, xcode l, ycode r)].
Proof. destruct l as [[]|], r as [[]|]; intros H; try reflexivity; now destruct H. Qed.

Lemma left_x a e :
  is_link (te_mode a) = is_link (ie_mode e) ->
  xcode (change1 (Some (tnode_hash a)) (Some (inode_hash true e))) =
  if hash_eqb (te_hash a) (ie_hash e) && fmode_eqb (te_mode a) (ie_mode e) then CUnmod
  else if Bool.eqb (is_link (te_mode a)) (is_link (ie_mode e)) then CMod else CType.
Proof.
  intros L. rewrite L, eqb_reflx. unfold change1, nhash_eqb, tnode_hash, inode_hash. cbn [fst snd].
  now destruct (ie_mode e), (hash_eqb _ _ && _).
Qed.

(* the mode half of a noder hash comparison: without core.fileMode the index noder degrades Executable
   to Regular, where git takes the entry's mode for the file's; the two agree unless the file is executable *)
Lemma inode_mode_eq fm e mw :
  fm || negb (fmode_eqb mw MExec) = true -> is_link (ie_mode e) = is_link mw ->
  fmode_eqb (snd (inode_hash fm e)) mw = fmode_eqb (if fm then mw else ie_mode e) (ie_mode e).
Proof. unfold inode_hash. destruct fm, (ie_mode e), mw; try reflexivity; discriminate. Qed.

(* Y: under the guard the two noder hashes are equal exactly when git sees neither a mode nor a
   content change.  With a metadata match the staged id stands for the content (last guard);
   without one the content is hashed with SHA-1, which is then the entry's format. *)
Lemma wt_hash_eq s e f :
  find_i (st_index s) (wf_path f) = Some e ->
  h_fmt (ie_hash e) = st_fmt s ->
  is_link (ie_mode e) = is_link (wf_mode f) ->
  (st_fmt s =? 0) || metadata_matches s e f = true ->
  st_filemode s || negb (fmode_eqb (wf_mode f) MExec) = true ->
  negb (metadata_matches s e f) || (h_cid (ie_hash e) =? wf_cid f) = true ->
  nhash_eqb (inode_hash (st_filemode s) e) (wnode_hash s f) =
  fmode_eqb (if st_filemode s then wf_mode f else ie_mode e) (ie_mode e) && (h_cid (ie_hash e) =? wf_cid f).
Proof.
  intros Ei Hf L G1 G2 G3. unfold wnode_hash, nhash_eqb. rewrite Ei, andb_comm.
  destruct (metadata_matches s e f); cbn [fst snd]; (f_equal; [now apply inode_mode_eq|]);
    unfold hash_eqb, inode_hash; cbn [fst].
  - rewrite !N.eqb_refl. symmetry. exact G3.
  - rewrite orb_false_r in G1. apply N.eqb_eq in G1. cbn [h_fmt h_cid]. now rewrite Hf, G1.
Qed.

Lemma tracked_x s p e :
  find_i (st_index s) p = Some e -> ok_path s p = true -> xcode (left_change s p) = git_x s p.
Proof.
  unfold ok_path, left_change, git_x, find_i_visible. cbv zeta. intros -> G.
  destruct (find_t (st_head s) p) as [a|]; cbv beta iota in G; rewrite !andb_true_iff, ?negb_true_iff in G;
    destruct G as (((((_ & _ & ->) & L) & _) & _) & _); [|reflexivity].
  apply left_x, eqb_prop, L.
Qed.

Lemma tracked_y s p e :
  find_i (st_index s) p = Some e -> ok_path s p = true -> ycode (right_change s p) = git_y s p.
Proof.
  unfold ok_path, right_change, git_y, wt_visible. cbv zeta. intros Ei G. rewrite Ei in *.
  destruct (find_w (st_wt s) p) as [f|] eqn:Ew; [|reflexivity]. apply find_w_path in Ew. subst p.
  cbv beta iota in G. rewrite !andb_true_iff, ?negb_true_iff in G.
  destruct G as (((((_ & Hf & Hita) & _) & L) & _) & (G1 & G2) & G3).
  apply N.eqb_eq in Hf. apply eqb_prop in L.
  rewrite Ei, Hita, L, eqb_reflx. cbn [negb option_map change1]. rewrite (wt_hash_eq s e f) by assumption.
  now destruct (fmode_eqb _ (ie_mode e)), (h_cid (ie_hash e) =? wf_cid f).
Qed.

Lemma per_path s p :
  ok_path s p = true ->
  list_of p (g_class (left_change s p) (right_change s p)) = git_records s p.
Proof.
  intros G. unfold git_records, git_untracked. destruct (find_i (st_index s) p) as [e|] eqn:Ei.
  - rewrite list_of_tracked, (tracked_x s p e), (tracked_y s p e), app_nil_r; trivial.
    rewrite right_change_cases, Ei. destruct (find_w (st_wt s) p); [destruct (nhash_eqb _ _)|]; discriminate.
  - revert G. rewrite right_change_cases. unfold ok_path, left_change, git_x, git_y, find_i_visible. cbv zeta. rewrite Ei.
    destruct (find_t (st_head s) p) as [a|], (find_w (st_wt s) p) as [f|]; try reflexivity;
      destruct (wf_ignored f), (wf_ignored_git f); rewrite ?andb_false_r; (discriminate || reflexivity).
Qed.

Lemma status_eq_git s ps :
  forallb (ok_path s) ps = true -> status s ps = git_status s ps.
Proof.
  intros H. rewrite forallb_forall in H. rewrite status_pointwise. unfold git_status.
  rewrite !flat_map_concat_map. f_equal. apply map_ext_in. intros p Hp. now apply per_path, H.
Qed.

Definition tl_inv (s : tl_state) : Prop :=
  tl_idxtime s <= tl_clock s /\ snd (tl_file s) <= tl_clock s /\
  match tl_entry s with
  | None => True
  | Some e => tl_file s = e \/ tl_idxtime s <= snd (tl_file s)
  end.

Lemma tl_inv_step s e :
  tl_inv s -> (match e with TTouchIndex => False | _ => True end) -> tl_inv (tl_step s e).
Proof.
  intros (H1 & H2 & H3) He. destruct e; cbn [tl_step]; unfold tl_inv; cbn [tl_clock tl_file tl_entry tl_idxtime snd].
  - repeat split; try lia. exact H3.
  - repeat split; try lia. destruct (tl_entry s); [right; lia|exact I].
  - repeat split; try lia. now left.
  - contradiction.
Qed.

Lemma tl_inv_run h : forall s, tl_inv s -> tl_no_touch h = true -> tl_inv (tl_run s h).
Proof.
  induction h as [|e h IH]; intros s Hi Hn; [exact Hi|].
  cbn [tl_no_touch forallb] in Hn. apply andb_true_iff in Hn as [He Hn].
  cbn [tl_run fold_left]. apply IH; [|exact Hn]. apply tl_inv_step; [exact Hi|].
  destruct e; try exact I. discriminate.
Qed.

Definition tl_init (c sz : N) : tl_state := mkTL 0 (c, sz, 0) None 0.

Lemma tl_shortcut_sound c sz h :
  tl_no_touch h = true ->
  tl_matches (tl_run (tl_init c sz) h) = true -> tl_same_content (tl_run (tl_init c sz) h) = true.
Proof.
  intros Hn Hm.
  assert (Hi : tl_inv (tl_run (tl_init c sz) h)).
  { apply tl_inv_run; [|exact Hn]. unfold tl_inv, tl_init; cbn. repeat split; lia. }
  destruct Hi as (_ & _ & H3). unfold tl_matches in Hm. unfold tl_same_content.
  destruct (tl_entry _) as [[[ec esz] emt]|]; [|discriminate].
  destruct (tl_file _) as [[fc fsz] fmt] eqn:EF. cbn [snd] in H3.
  destruct H3 as [H3|H3].
  - inversion H3; subst. apply N.eqb_refl.
  - exfalso. lia.
Qed.
