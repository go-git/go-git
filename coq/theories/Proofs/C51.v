(* Proofs/C51.v — the commit-graph encoder's input: byte strings and their order, sorted
   distinct ids, well-formed entry lists, the count of extra (octopus) edges; and the overflow
   count as it was before its repair. *)
From Coq Require Import List NArith ZArith Bool Lia ZifyBool ZifyNat ZifyN Permutation.
From GoGit Require Import Base.Out Gen.C51 Model.CommitGraph.
Import ListNotations.
Local Open Scope N_scope.

Lemma bytes_cmp_eq : forall a b, bytes_cmp a b = Eq <-> a = b.
Proof.
  induction a as [|x a IH]; destruct b as [|y b]; simpl; try (split; [discriminate | congruence]).
  - tauto.
  - destruct (N.compare x y) eqn:E.
    + apply N.compare_eq_iff in E. subst y. rewrite IH. split; congruence.
    + split; [discriminate|]. intros [= -> _]. rewrite N.compare_refl in E. discriminate.
    + split; [discriminate|]. intros [= -> _]. rewrite N.compare_refl in E. discriminate.
Qed.

Lemma bytes_eqb_eq : forall a b, bytes_eqb a b = true <-> a = b.
Proof.
  intros a b. unfold bytes_eqb. rewrite <- bytes_cmp_eq. destruct (bytes_cmp a b); split; congruence.
Qed.

Lemma bytes_eqb_refl : forall a, bytes_eqb a a = true.
Proof. intros a. now apply bytes_eqb_eq. Qed.

Lemma bytes_eqb_neq : forall a b, a <> b -> bytes_eqb a b = false.
Proof. intros a b H. destruct (bytes_eqb a b) eqn:E; [|reflexivity]. now apply bytes_eqb_eq in E. Qed.

Lemma existsb_not_in : forall h l, ~ In h l -> existsb (bytes_eqb h) l = false.
Proof.
  intros h l H. destruct (existsb (bytes_eqb h) l) eqn:E; [|reflexivity].
  apply existsb_exists in E. destruct E as [x [Hx E]]. apply bytes_eqb_eq in E. now subst x.
Qed.

Lemma be_length : forall w x, List.length (be w x) = w.
Proof. induction w as [|w IH]; intros x; simpl; [reflexivity | now rewrite IH]. Qed.

Lemma be32_length : forall x, List.length (be32 x) = 4%nat.
Proof. intros. apply be_length. Qed.
Lemma be64_length : forall x, List.length (be64 x) = 8%nat.
Proof. intros. apply be_length. Qed.

Lemma flat_map_length_const : forall (A : Type) (f : A -> bytes) w l, (forall x, List.length (f x) = w) ->
  List.length (flat_map f l) = (w * List.length l)%nat.
Proof.
  intros A f w l H. induction l as [|x r IH]; [simpl; lia|]. cbn [flat_map]. rewrite app_length, H, IH. simpl. lia.
Qed.

Definition flat_map_be32_length l := flat_map_length_const N be32 4 l be32_length.
Definition flat_map_be64_length l := flat_map_length_const N be64 8 l be64_length.

Lemma flat_map_split : forall (A : Type) (f : A -> bytes) d l k, (k < List.length l)%nat ->
  flat_map f l = flat_map f (firstn k l) ++ f (nth k l d) ++ flat_map f (skipn (S k) l).
Proof.
  induction l as [|x r IH]; intros k H; [simpl in H; lia|].
  destruct k as [|k]; [reflexivity|]. cbn [firstn skipn nth flat_map]. rewrite <- app_assoc. f_equal.
  apply IH. simpl in H. lia.
Qed.

Lemma concat_length_const : forall (l : list bytes) w, (forall h, In h l -> List.length h = w) ->
  List.length (List.concat l) = (w * List.length l)%nat.
Proof.
  induction l as [|h r IH]; intros w H; [simpl; lia|]. simpl. rewrite app_length, (H h (or_introl eq_refl)), (IH w).
  - lia.
  - intros h0 Hh0. apply H. now right.
Qed.

Lemma insert_hash_perm : forall h l, Permutation (insert_hash h l) (h :: l).
Proof.
  intros h l. induction l as [|x r IH]; simpl; [apply Permutation_refl|].
  destruct (bytes_cmp h x); try apply Permutation_refl.
  eapply Permutation_trans; [apply perm_skip; exact IH | apply perm_swap].
Qed.

Lemma sort_hashes_perm : forall l, Permutation (sort_hashes l) l.
Proof.
  induction l as [|h r IH]; simpl; [apply Permutation_refl|].
  eapply Permutation_trans; [apply insert_hash_perm | now apply perm_skip].
Qed.

Lemma dedup_hashes_nodup : forall l, NoDup l -> dedup_hashes l = l.
Proof.
  induction l as [|h r IH]; intros H; [reflexivity|]. simpl.
  inversion H as [|? ? Hn Hr]; subst. now rewrite (existsb_not_in h r Hn), IH.
Qed.

Definition wf_entries (es : list centry) : Prop :=
  NoDup (map e_hash es) /\
  Forall (fun e => List.length (e_hash e) = 20%nat /\ List.length (e_tree e) = 20%nat) es.

Definition sorted_of (es : list centry) : list bytes := sort_hashes (dedup_hashes (map e_hash es)).

Lemma sorted_perm : forall es, wf_entries es -> Permutation (sorted_of es) (map e_hash es).
Proof.
  intros es [Hnd _]. unfold sorted_of. rewrite dedup_hashes_nodup by exact Hnd. apply sort_hashes_perm.
Qed.

Lemma sorted_of_length : forall es, wf_entries es -> List.length (sorted_of es) = List.length es.
Proof. intros es Hwf. rewrite (Permutation_length (sorted_perm es Hwf)). apply map_length. Qed.

Lemma find_entry_none : forall h es found,
  (forall e, In e es -> e_hash e <> h) -> find_entry h es found = found.
Proof.
  intros h es. induction es as [|x r IH]; intros found H; [reflexivity|]. simpl.
  rewrite bytes_eqb_neq by (intros E; now apply (H x (or_introl eq_refl))).
  apply IH. intros e He. apply H. now right.
Qed.

Lemma find_entry_in : forall es e found, NoDup (map e_hash es) -> In e es ->
  find_entry (e_hash e) es found = Some e.
Proof.
  induction es as [|x r IH]; intros e found Hnd Hin; [contradiction|]. simpl in *.
  inversion Hnd as [|? ? Hn Hr]; subst. destruct Hin as [Hin|Hin].
  - subst x. rewrite bytes_eqb_refl. apply find_entry_none.
    intros e' He' Eq. apply Hn. rewrite <- Eq. now apply in_map.
  - now apply IH.
Qed.

Definition dummy_entry : centry := mkEntry [] [] [] 0 0 0%Z.
Definition entry_of (es : list centry) (h : bytes) : centry :=
  match find_entry h es None with Some e => e | None => dummy_entry end.
Definition sorted_entries (es : list centry) : list centry := map (entry_of es) (sorted_of es).

Lemma sorted_entries_perm : forall es, wf_entries es -> Permutation (sorted_entries es) es.
Proof.
  intros es Hwf. pose proof (sorted_perm es Hwf) as P. destruct Hwf as [Hnd _].
  unfold sorted_entries. eapply Permutation_trans; [apply Permutation_map; exact P|].
  rewrite map_map. rewrite <- (map_id es) at 2. apply Permutation_refl' .
  apply map_ext_in. intros e He. unfold entry_of. now rewrite (find_entry_in es e None Hnd He).
Qed.

Lemma sorted_in : forall es h, wf_entries es -> In h (sorted_of es) -> exists e, In e es /\ e_hash e = h /\ find_entry h es None = Some e.
Proof.
  intros es h Hwf Hin. pose proof (sorted_perm es Hwf) as P.
  apply (Permutation_in _ P) in Hin. apply in_map_iff in Hin. destruct Hin as [e [Eh He]].
  exists e. split; [exact He|]. split; [exact Eh|]. subst h. destruct Hwf as [Hnd _]. now apply find_entry_in.
Qed.

(* what holds of every id of the input holds of every id of the sorted list *)
Lemma sorted_hash_all : forall es (P : bytes -> Prop), wf_entries es -> Forall (fun e => P (e_hash e)) es ->
  forall h, In h (sorted_of es) -> P h.
Proof.
  intros es P Hwf Hall h Hh. destruct (sorted_in es h Hwf Hh) as [e [He [<- _]]].
  rewrite Forall_forall in Hall. now apply Hall.
Qed.

Lemma sorted_len20 : forall es, wf_entries es -> forall h, In h (sorted_of es) -> List.length h = 20%nat.
Proof.
  intros es Hwf. apply sorted_hash_all; [exact Hwf|]. destruct Hwf as [_ Hall].
  eapply Forall_impl; [|exact Hall]. now intros e [H _].
Qed.

Fixpoint sum_nat (l : list nat) : nat := match l with [] => O | x :: r => (x + sum_nat r)%nat end.

Lemma sum_nat_perm : forall l l', Permutation l l' -> sum_nat l = sum_nat l'.
Proof. induction 1; simpl; lia. Qed.

Lemma filter_length_perm : forall (A : Type) (p : A -> bool) l l', Permutation l l' ->
  List.length (filter p l) = List.length (filter p l').
Proof.
  intros A p l l' H. induction H; simpl; try lia.
  - destruct (p x); simpl; lia.
  - destruct (p x), (p y); simpl; lia.
Qed.

Lemma filter_length_le : forall (A : Type) (p : A -> bool) l, (List.length (filter p l) <= List.length l)%nat.
Proof. intros A p l. induction l as [|x r IH]; simpl; [lia|]. destruct (p x); simpl; lia. Qed.

Lemma filter_map_length : forall (A B : Type) (f : A -> B) (p : B -> bool) l,
  List.length (filter p (map f l)) = List.length (filter (fun x => p (f x)) l).
Proof.
  intros A B f p l. induction l as [|x r IH]; [reflexivity|]. simpl. destruct (p (f x)); simpl; now rewrite IH.
Qed.

Definition extra_nat (e : centry) : nat :=
  if (2 <? List.length (e_parents e))%nat then (List.length (e_parents e) - 1)%nat else O.

Lemma extra_edges_count_nat : forall es, extra_edges_count es = N.of_nat (sum_nat (map extra_nat es)).
Proof.
  induction es as [|e r IH]; [reflexivity|]. unfold extra_edges_count in *. simpl. rewrite IH.
  unfold extra_nat. destruct (2 <? N.of_nat (List.length (e_parents e))) eqn:E1;
    destruct (2 <? List.length (e_parents e))%nat eqn:E2; lia.
Qed.

Lemma set_last_length : forall l, List.length (set_last l) = List.length l.
Proof.
  induction l as [|x r IH]; [reflexivity|]. destruct r as [|y r']; [reflexivity|].
  change (set_last (x :: y :: r')) with (x :: set_last (y :: r')). simpl in *. now rewrite IH.
Qed.

Definition payload_ok (p : bytes) (t : bytes * N) : Prop := N.of_nat (List.length p) = snd t.

(* the defect repaired in the repository (fix: commitgraph encoder sizes the generation
   overflow chunk ...): before the fix prepare() counted overflow entries with `> MaxUint32`
   while encodeGenerationV2Data writes one for every offset >= 2^31 *)
Definition overflow_count_before_fix (es : list centry) : N :=
  if has_gen2 es then N.of_nat (List.length (filter (fun e => two32 - 1 <? gen2_data e) es)) else 0.

Definition written_overflow_entries (es : list centry) : list N :=
  filter (fun d => 2147483648 <=? d) (map gen2_data (sorted_entries es)).

Definition h20 (b : N) : bytes := repeat b 20.
Definition witness_entries : list centry :=
  [mkEntry (h20 1) (h20 9) [] 1 4500000000 4500000000%Z;
   mkEntry (h20 2) (h20 9) [h20 1] 2 4500000001 1500000000%Z].

Lemma overflow_before_fix_refuted :
  wf_entries witness_entries /\ has_gen2 witness_entries = true /\
  overflow_count_before_fix witness_entries = 0 /\
  List.length (written_overflow_entries witness_entries) = 1%nat /\
  overflow_count witness_entries = 1.
Proof.
  split.
  - split.
    + simpl. repeat constructor; simpl; intuition discriminate.
    + repeat constructor.
  - vm_compute. repeat split.
Qed.
