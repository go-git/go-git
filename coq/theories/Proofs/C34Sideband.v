(* Proofs/C34Sideband.v — the sideband multiplexer cuts every write into
   packets below the channel limit, and the demultiplexer returns exactly the
   PackData bytes of ANY valid sideband packet stream, for any chunking of the
   stream and any sequence of read sizes; progress bytes reach the sink in
   order; neither loop ever runs out of fuel. *)
From Coq Require Import List NArith ZArith Bool Lia Arith.
From GoGit Require Import Base.Out Base.GoInt Gen.C34 Model.PktLine Model.Sideband
  Proofs.C34Stream Proofs.C34Hex Proofs.C34Pkt.
Import ListNotations.

Arguments MaxSizeN : simpl never.
Opaque MaxSizeN.

Definition sbpkt := (N * bytes)%type.
Definition enc_sb (q : sbpkt) : bytes := hex16 (zlen (snd q) + 5) ++ fst q :: snd q.
Definition sb_stream (qs : list sbpkt) : bytes := flat_map enc_sb qs.
Definition sb_valid (t : Z) (q : sbpkt) : Prop :=
  (fst q = 1%N \/ fst q = 2%N) /\ (zlen (snd q) + 5 <= sb_max t)%Z.
Definition pack_of (qs : list sbpkt) : bytes :=
  flat_map (fun q => if N.eqb (fst q) 1 then snd q else []) qs.
Definition prog_of (hp : bool) (qs : list sbpkt) : bytes :=
  if hp then flat_map (fun q => if N.eqb (fst q) 2 then snd q else []) qs else [].

Lemma sb_max_cases t : sb_max t = 1000%Z \/ sb_max t = 65520%Z.
Proof. unfold sb_max. destruct (t =? sideband_Sideband)%Z; auto. Qed.

Lemma zlen_cons a (b : bytes) : zlen (a :: b) = (zlen b + 1)%Z.
Proof. unfold zlen. cbn [List.length]. lia. Qed.

Lemma zlen_nonneg b : (0 <= zlen b)%Z.
Proof. unfold zlen. lia. Qed.

Lemma scan_sb t q r rest : sb_valid t q -> concat r = enc_sb q ++ rest ->
  fst (scan r) = mkscan true (zlen (snd q) + 5) (fst q :: snd q) None /\ concat (snd (scan r)) = rest.
Proof.
  destruct q as [ch body]. unfold enc_sb. cbn [fst snd]. intros [Hch Hlen] Hr. cbn [fst snd] in Hch, Hlen. rewrite <- app_assoc in Hr.
  pose proof (zlen_nonneg body) as Hnn. pose proof (sb_max_cases t) as Hm.
  destruct (pkt_read_frame MaxSizeN r (hex16 (zlen body + 5)) (zlen body + 5) (ch :: body) rest MaxSizeN_ge4 eq_refl) as [Hd Hrest];
    [apply parse_length_hex16; unfold pktline_MaxSize; lia|unfold zlen in *; cbn [List.length]; lia|exact Hr|].
  unfold rd_frame in Hd. destruct (Z.leb_spec (zlen body + 5) 4); [lia|].
  destruct (Z.gtb_spec (zlen body + 5) (Z.of_nat MaxSizeN)); [rewrite MaxSizeN_Z in *; lia|].
  assert (errline_of (ch :: body) = None) as E by (destruct Hch as [-> | ->]; reflexivity).
  rewrite E in Hd. rewrite (scan_ok _ _ Hd eq_refl). now split.
Qed.

Lemma scan_flush r rest : concat r = flushPkt ++ rest ->
  fst (scan r) = mkscan true 0 [] None /\ concat (snd (scan r)) = rest.
Proof.
  intros Hr. destruct (pkt_read_frame MaxSizeN r flushPkt 0 [] rest MaxSizeN_ge4 eq_refl parse_flush eq_refl Hr) as [Hd Hrest].
  now rewrite (scan_ok _ _ Hd eq_refl).
Qed.

Lemma scan_end r : concat r = [] ->
  fst (scan r) = mkscan false (-1) [] None /\ concat (snd (scan r)) = [].
Proof.
  intros Hr. pose proof (pkt_read_empty MaxSizeN r MaxSizeN_ge4 Hr) as Hd. pose proof (pkt_read_rlen MaxSizeN r) as Hl.
  unfold scan. destruct (pkt_read MaxSizeN r) as [d r']. cbn [fst snd] in Hd, Hl. subst d. cbn. split; [reflexivity|].
  unfold rlen in Hl. rewrite Hr in Hl. cbn in Hl. destruct (concat r'); [reflexivity|cbn in Hl; lia].
Qed.

(* taking n items of l1 ++ l2: what l1 cannot give is taken from what follows *)
Lemma split_at {A} (l1 l2 : list A) n :
  let k := (n - List.length (firstn n l1))%nat in
  let r := skipn n l1 ++ l2 in
  firstn n (l1 ++ l2) = firstn n l1 ++ firstn k r /\ skipn n (l1 ++ l2) = skipn k r /\
  Nat.leb n (List.length (l1 ++ l2)) = Nat.leb k (List.length r).
Proof.
  cbv zeta. rewrite firstn_app, skipn_app, !app_length, firstn_length, skipn_length.
  destruct (Nat.le_gt_cases n (List.length l1)).
  - rewrite Nat.min_l by lia. replace (n - List.length l1)%nat with 0%nat by lia. rewrite Nat.sub_diag.
    repeat split. destruct (Nat.leb_spec n (List.length l1 + List.length l2)); [reflexivity|lia].
  - rewrite Nat.min_r, skipn_all2 by lia. repeat split.
    destruct (Nat.leb_spec n (List.length l1 + List.length l2));
      destruct (Nat.leb_spec (n - List.length l1) (List.length l1 - n + List.length l2)); lia.
Qed.

Section Demux.
Variable t : Z.
Variable hp : bool.

Definition tail_ok (tail rest : bytes) : Prop := tail = flushPkt ++ rest \/ (tail = [] /\ rest = []).

(* what one Read must achieve from state d in front of packets qs *)
Definition read_post (res : dres) (req : nat) (acc : bytes) (d : dmx) (qs : list sbpkt) (tail rest : bytes) : Prop :=
  let avail := d_pending d ++ pack_of qs in
  exists d',
    if Nat.leb req (List.length avail) then
      res = DRes (acc ++ firstn req avail) None d' /\
      exists qs', Forall (sb_valid t) qs' /\ concat (d_r d') = sb_stream qs' ++ tail /\
                  d_pending d' ++ pack_of qs' = skipn req avail /\
                  d_prog d' ++ prog_of hp qs' = d_prog d ++ prog_of hp qs
    else
      res = DRes (acc ++ avail) (Some DEeof) d' /\
      d_pending d' = [] /\ concat (d_r d') = rest /\ d_prog d' = d_prog d ++ prog_of hp qs.

(* one copy step: content l1 is handed out, the rest of the data is l2 *)
Lemma copy_step res req acc (d2 : dmx) (qs2 : list sbpkt) l1 l2 tail rest d qs :
  d_pending d2 = skipn req l1 ->
  d_pending d ++ pack_of qs = l1 ++ l2 -> pack_of qs2 = l2 ->
  d_prog d2 ++ prog_of hp qs2 = d_prog d ++ prog_of hp qs ->
  read_post res (req - List.length (firstn req l1)) (acc ++ firstn req l1) d2 qs2 tail rest ->
  read_post res req acc d qs tail rest.
Proof.
  intros Hp Hav Hpk Hpr. unfold read_post. rewrite Hp, Hpk, Hav, Hpr.
  destruct (split_at l1 l2 req) as (Hfirst & Hskip & ->).
  intros [d' H]. exists d'.
  destruct (Nat.leb (req - List.length (firstn req l1)) (List.length (skipn req l1 ++ l2))).
  - destruct H as [Hres H]. split; [|rewrite Hskip; exact H].
    rewrite Hres, Hfirst, <- app_assoc. reflexivity.
  - destruct H as [Hres H]. split; [|exact H].
    rewrite Hres, <- app_assoc. f_equal. f_equal.
    (* all of the data was delivered: firstn req l1 ++ skipn req l1 ++ l2 = l1 ++ l2 *)
    rewrite app_assoc, firstn_skipn. reflexivity.
Qed.

Lemma do_read_fields wanted (content : bytes) d1 :
  d_pending d1 = [] ->
  let d2 := if Nat.ltb wanted (List.length content)
            then mkdmx (d_r d1) (skipn wanted content) (d_prog d1) else d1 in
  d_pending d2 = skipn wanted content /\ d_r d2 = d_r d1 /\ d_prog d2 = d_prog d1.
Proof.
  intros Hp. cbn zeta. destruct (Nat.ltb_spec wanted (List.length content)).
  - cbn. auto.
  - rewrite skipn_all2 by lia. auto.
Qed.

Lemma demux_loop_S f max req acc d : req <> 0%nat ->
  demux_loop (S f) max hp req acc d =
  let '(chunk, err, d') := do_read max hp req d in
  match err with
  | Some e => DRes (acc ++ chunk) (Some e) d'
  | None => demux_loop f max hp (req - List.length chunk) (acc ++ chunk) d'
  end.
Proof. destruct req; [contradiction|reflexivity]. Qed.

(* nextPackData after the last packet: a flush packet or the end of the stream, both io.EOF *)
Lemma next_pack_end max d tail rest :
  d_pending d = [] -> tail_ok tail rest -> concat (d_r d) = tail ->
  exists r', next_pack_data max hp d = ([], Some DEeof, mkdmx r' [] (d_prog d)) /\ concat r' = rest.
Proof.
  intros Hp Ht Hr. unfold next_pack_data. rewrite Hp.
  destruct Ht as [-> | [-> ->]]; [destruct (scan_flush _ _ Hr) as [Hs Hr']|destruct (scan_end _ Hr) as [Hs Hr']];
    destruct (scan (d_r d)) as [s r']; cbn [fst snd] in Hs, Hr'; subst s; exists r'; auto.
Qed.

(* nextPackData with bytes pending or in front of a valid packet: it hands out
   content (none for a progress packet) and leaves nothing pending *)
Lemma next_pack_ok d qs tail :
  Forall (sb_valid t) qs -> concat (d_r d) = sb_stream qs ++ tail -> d_pending d <> [] \/ qs <> [] ->
  exists content d1 qs1,
    next_pack_data (sb_max t) hp d = (content, None, d1) /\ d_pending d1 = [] /\
    Forall (sb_valid t) qs1 /\ concat (d_r d1) = sb_stream qs1 ++ tail /\
    d_pending d ++ pack_of qs = content ++ pack_of qs1 /\
    d_prog d1 ++ prog_of hp qs1 = d_prog d ++ prog_of hp qs /\
    (content <> [] /\ qs1 = qs \/ S (List.length qs1) = List.length qs).
Proof.
  intros Hv Hr Hne. unfold next_pack_data. destruct (d_pending d) as [|c p] eqn:Hpend.
  2:{ exists (c :: p), (mkdmx (d_r d) [] (d_prog d)), qs. repeat split; auto. left. now split. }
  destruct qs as [|[ch body] qs']; [now destruct Hne|].
  pose proof (Forall_inv Hv) as Hq. cbn [sb_stream flat_map] in Hr. rewrite <- app_assoc in Hr.
  destruct (scan_sb t _ _ _ Hq Hr) as [Hs Hr']. destruct (scan (d_r d)) as [s r']. cbn [fst snd] in Hs, Hr'. subst s.
  cbn [sc_ok sc_err sc_len sc_bytes negb]. destruct Hq as [Hch Hlen]. cbn [fst snd] in Hch, Hlen.
  pose proof (zlen_nonneg body). unfold pktline_Flush, pktline_LenSize.
  destruct (Z.eqb_spec (zlen body + 5) 0); [lia|].
  destruct (Z.gtb_spec (zlen body + 5) (sb_max t)); [lia|].
  destruct (Z.geb_spec (zlen body + 5) 4); [|lia].
  exists (if N.eqb ch 1 then body else []), (mkdmx r' [] (d_prog d ++ prog_of hp [(ch, body)])), qs'.
  unfold prog_of. destruct Hch as [-> | ->], hp; cbn; rewrite ?app_nil_r, <- ?app_assoc;
    repeat split; eauto using Forall_inv_tail.
Qed.

Lemma demux_loop_spec : forall fuel qs req acc d tail rest,
  Forall (sb_valid t) qs -> tail_ok tail rest ->
  concat (d_r d) = sb_stream qs ++ tail ->
  (req + List.length qs < fuel)%nat ->
  read_post (demux_loop fuel (sb_max t) hp req acc d) req acc d qs tail rest.
Proof.
  induction fuel as [|f IH]; intros qs req acc d tail rest Hv Ht Hr Hf; [lia|].
  destruct req as [|req'].
  { (* Read(b) with len(b) = 0 *)
    cbn [demux_loop]. unfold read_post. exists d. cbn [Nat.leb firstn skipn]. rewrite app_nil_r.
    split; [reflexivity|]. exists qs. auto. }
  remember (S req') as req eqn:Ereq.
  rewrite demux_loop_S by (subst req; discriminate). unfold do_read.
  assert (d_pending d = [] /\ qs = [] \/ d_pending d <> [] \/ qs <> []) as [[Hpend ->]|Hne].
  { destruct (d_pending d); [destruct qs; [auto|]|]; right; [right|left]; discriminate. }
  - destruct (next_pack_end (sb_max t) d tail rest Hpend Ht Hr) as (r' & -> & Hr').
    unfold read_post. rewrite Hpend. subst req. cbn [pack_of flat_map app List.length firstn Nat.ltb Nat.leb].
    exists (mkdmx r' [] (d_prog d)). split; [reflexivity|].
    cbn [d_pending d_r d_prog]. unfold prog_of. destruct hp; cbn [flat_map]; rewrite ?app_nil_r; auto.
  - destruct (next_pack_ok d qs tail Hv Hr Hne) as (content & d1 & qs1 & -> & Hp1 & Hv1 & Hr1 & Hav & Hpg & Hm).
    destruct (do_read_fields req content d1 Hp1) as (Hp2 & Hr2 & Hg2).
    eapply copy_step with (qs2 := qs1) (l1 := content) (l2 := pack_of qs1);
      [exact Hp2|exact Hav|reflexivity|rewrite Hg2; exact Hpg|].
    apply IH; auto; [rewrite Hr2; exact Hr1|].
    (* the measure decreases: a byte was copied or a packet consumed *)
    rewrite firstn_length. destruct Hm as [[Hc ->]|Hm]; [destruct content; [contradiction|cbn [List.length]]|]; lia.
Qed.

(* fuel of demux_read is enough for every valid stream *)
Lemma sb_stream_length qs : (5 * List.length qs <= List.length (sb_stream qs))%nat.
Proof.
  induction qs as [|q qs IH]; [cbn; lia|].
  cbn [sb_stream flat_map]. fold (sb_stream qs). rewrite app_length. unfold enc_sb.
  rewrite app_length, hex16_length. cbn [List.length]. lia.
Qed.

Lemma demux_read_spec qs req d tail rest :
  Forall (sb_valid t) qs -> tail_ok tail rest ->
  concat (d_r d) = sb_stream qs ++ tail ->
  read_post (demux_read t hp req d) req [] d qs tail rest.
Proof.
  intros Hv Ht Hr. unfold demux_read. apply demux_loop_spec; auto.
  pose proof (sb_stream_length qs). unfold rlen. rewrite Hr, app_length. lia.
Qed.

End Demux.

Definition sum (l : list nat) : nat := fold_right Nat.add 0%nat l.

Lemma demux_session_spec t hp : forall sizes d qs tail rest acc,
  Forall (sb_valid t) qs -> tail_ok tail rest -> concat (d_r d) = sb_stream qs ++ tail ->
  exists reads d',
    demux_session t hp sizes d acc = DSess (rev acc ++ reads) d' /\
    let avail := d_pending d ++ pack_of qs in
    concat (map fst reads) = firstn (sum sizes) avail /\
    (sum sizes <= List.length avail ->
       map (fun x => List.length (fst x)) reads = sizes /\ Forall (fun x => snd x = None) reads /\
       exists qs', Forall (sb_valid t) qs' /\ concat (d_r d') = sb_stream qs' ++ tail /\
                   d_pending d' ++ pack_of qs' = skipn (sum sizes) avail /\
                   d_prog d' ++ prog_of hp qs' = d_prog d ++ prog_of hp qs) /\
    (List.length avail < sum sizes ->
       (exists reads0 data, reads = reads0 ++ [(data, Some DEeof)] /\ Forall (fun x => snd x = None) reads0) /\
       d_prog d' = d_prog d ++ prog_of hp qs /\ concat (d_r d') = rest).
Proof.
  (* one demux_read_spec per size; successive firstn / skipn compose by firstn_add / skipn_skipn' *)
  induction sizes as [|n sizes IH]; intros d qs tail rest acc Hv Ht Hr.
  - exists [], d. cbn [demux_session sum fold_right]. rewrite app_nil_r. split; [reflexivity|].
    cbn zeta. cbn [map concat firstn skipn]. split; [reflexivity|]. split.
    + intros _. repeat split; auto. exists qs. auto.
    + intros H. lia.
  - cbn [demux_session]. destruct (demux_read_spec t hp qs n d tail rest Hv Ht Hr) as [d1 H1].
    cbn zeta in H1. set (avail := d_pending d ++ pack_of qs) in *.
    destruct (Nat.leb_spec n (List.length avail)) as [Hn|Hn].
    + destruct H1 as (Hres & qs1 & Hv1 & Hr1 & Hav1 & Hpg1). rewrite Hres. cbn [app].
      destruct (IH d1 qs1 tail rest ((firstn n avail, None) :: acc) Hv1 Ht Hr1) as (reads & d' & Hs & Hc & Hle & Hgt).
      cbn zeta in Hc, Hle, Hgt. rewrite Hav1 in Hc, Hle, Hgt. rewrite skipn_length in Hle, Hgt.
      exists ((firstn n avail, None) :: reads), d'. split.
      { etransitivity; [exact Hs|]. cbn [rev]. rewrite <- app_assoc. reflexivity. }
      cbn zeta. fold avail. cbn [sum fold_right map concat fst]. fold (sum sizes). split.
      { rewrite Hc. symmetry. apply firstn_add. }
      split.
      * intros Hsum. destruct Hle as (Hl1 & Hl2 & qs' & Hl3 & Hl4 & Hl5 & Hl6); [lia|].
        split. { cbn [map fst]. rewrite firstn_length, Nat.min_l by lia. now rewrite Hl1. }
        split. { constructor; [reflexivity|assumption]. }
        exists qs'. repeat split; auto.
        -- rewrite Hl5. apply skipn_skipn'.
        -- rewrite Hl6. exact Hpg1.
      * intros Hsum. destruct Hgt as ((reads0 & data & -> & Hf0) & Hg2 & Hg3); [lia|].
        split. { exists ((firstn n avail, None) :: reads0), data. split; [reflexivity|]. constructor; [reflexivity|assumption]. }
        split; [rewrite Hg2; exact Hpg1|assumption].
    + destruct H1 as (Hres & Hp1 & Hr1 & Hpg1). rewrite Hres. cbn [app].
      exists [(avail, Some DEeof)], d1. split; [reflexivity|].
      cbn zeta. fold avail. cbn [sum fold_right map concat fst]. fold (sum sizes). rewrite app_nil_r. split.
      { rewrite firstn_all2 by lia. reflexivity. }
      split; [intros; lia|]. intros _. split; [|auto].
      exists [], avail. split; [reflexivity|constructor].
Qed.

Fixpoint chunks_of (fuel max : nat) (p : bytes) : list bytes :=
  match p with
  | [] => []
  | _ :: _ => match fuel with
              | O => []
              | S f => firstn max p :: chunks_of f max (skipn max p)
              end
  end.

(* doWrite's sz = min(len(p), max) cuts p where max does *)
Lemma cut_min {A} (l : list A) n :
  firstn (Nat.min (List.length l) n) l = firstn n l /\ skipn (Nat.min (List.length l) n) l = skipn n l.
Proof.
  destruct (Nat.min_spec (List.length l) n) as [[H ->]|[H ->]]; [|now split].
  now rewrite firstn_all, skipn_all, firstn_all2, skipn_all2 by lia.
Qed.

Lemma mux_go_spec max ch : (1 <= max)%nat -> (Z.of_nat max + 1 <= pktline_MaxPayloadSize)%Z ->
  forall fuel p acc, (List.length p <= fuel)%nat ->
  mux_go fuel max ch p acc = MOk (acc ++ sb_stream (map (pair ch) (chunks_of fuel max p))).
Proof.
  intros Hm1 Hm2. induction fuel as [|f IH]; intros p acc Hf.
  - destruct p; [cbn; now rewrite app_nil_r|cbn in Hf; lia].
  - destruct p as [|a p]; [cbn; now rewrite app_nil_r|].
    cbn [mux_go chunks_of]. remember (a :: p) as q eqn:Eq.
    destruct (cut_min q max) as [-> ->].
    assert (1 <= List.length (firstn max q) <= max)%nat as Hl.
    { rewrite firstn_length. subst q. cbn [List.length]. lia. }
    rewrite pkt_write_some by (rewrite zlen_cons; unfold zlen; lia).
    cbn [List.length Nat.eqb]. rewrite IH.
    2:{ rewrite skipn_length. subst q. cbn [List.length] in *. lia. }
    cbn [map sb_stream flat_map]. unfold enc_sb at 2. cbn [fst snd].
    rewrite zlen_cons. replace (zlen (firstn max q) + 1 + 4)%Z with (zlen (firstn max q) + 5)%Z by lia.
    rewrite <- !app_assoc. reflexivity.
Qed.

Lemma chunks_of_spec max : (1 <= max)%nat -> forall fuel p, (List.length p <= fuel)%nat ->
  concat (chunks_of fuel max p) = p /\
  Forall (fun c => 1 <= List.length c <= max)%nat (chunks_of fuel max p) /\
  Forall (fun c => List.length c = max) (removelast (chunks_of fuel max p)).
Proof.
  intros Hm. induction fuel as [|f IH]; intros p Hf.
  - destruct p; [repeat split; constructor|cbn in Hf; lia].
  - destruct p as [|a p]; [repeat split; constructor|]. cbn [chunks_of]. remember (a :: p) as q.
    assert (List.length (skipn max q) <= f)%nat as Hs.
    { rewrite skipn_length. subst q. cbn [List.length] in *. lia. }
    destruct (IH (skipn max q) Hs) as (Hc & Hb & Hfull). split; [|split].
    + cbn [concat]. rewrite Hc. apply firstn_skipn.
    + constructor; [|exact Hb]. rewrite firstn_length. subst q. cbn [List.length]. lia.
    + destruct (chunks_of f max (skipn max q)) as [|c cs] eqn:E; [constructor|].
      cbn [removelast]. constructor; [|exact Hfull].
      (* a further chunk exists, so skipn max q is non-empty, so q has more than max bytes *)
      rewrite firstn_length. destruct (Nat.le_gt_cases max (List.length q)); [lia|].
      rewrite skipn_all2 in E by lia. destruct f; discriminate.
Qed.

Definition mux_max_nat (t : Z) : nat := Z.to_nat (mux_max t).

Lemma mux_max_cases t : mux_max t = 995%Z \/ mux_max t = 65515%Z.
Proof. unfold mux_max. destruct (sb_max_cases t) as [-> | ->]; [left|right]; reflexivity. Qed.

Definition sb_pkts_of (t : Z) (w : N * bytes) : list sbpkt :=
  map (pair (fst w)) (chunks_of (List.length (snd w)) (mux_max_nat t) (snd w)).

Lemma mux_write_spec t ch p : mux_write t ch p = MOk (sb_stream (sb_pkts_of t (ch, p))).
Proof.
  unfold mux_write, sb_pkts_of. cbn [fst snd]. fold (mux_max_nat t).
  rewrite mux_go_spec; [reflexivity| | |lia]; unfold mux_max_nat, pktline_MaxPayloadSize;
    destruct (mux_max_cases t) as [-> | ->]; lia.
Qed.

Lemma mux_max_nat_pos t : (1 <= mux_max_nat t)%nat.
Proof. unfold mux_max_nat. destruct (mux_max_cases t) as [-> | ->]; lia. Qed.

Lemma sb_pkts_valid t ch p : (ch = 1 \/ ch = 2)%N -> Forall (sb_valid t) (sb_pkts_of t (ch, p)).
Proof.
  intros Hch. unfold sb_pkts_of. cbn [fst snd]. apply Forall_map.
  eapply Forall_impl; [|apply (chunks_of_spec _ (mux_max_nat_pos t) _ p (le_n _))].
  intros c [_ Hc]. split; [exact Hch|]. cbn [snd]. unfold zlen, mux_max_nat, mux_max, pktline_LenSize, sideband_chLen in *.
  destruct (sb_max_cases t) as [E|E]; rewrite E in *; lia.
Qed.

(* the bytes one channel contributes to the packets of a single write *)
Lemma flat_map_channel (sel : N -> bool) ch (cs : list bytes) :
  flat_map (fun q : sbpkt => if sel (fst q) then snd q else []) (map (pair ch) cs) = if sel ch then concat cs else [].
Proof.
  induction cs as [|c cs IH]; cbn [map flat_map concat fst snd]; [now destruct (sel ch)|].
  rewrite IH. destruct (sel ch); reflexivity.
Qed.

Lemma pack_of_pkts t ch p : pack_of (sb_pkts_of t (ch, p)) = if N.eqb ch 1 then p else [].
Proof.
  unfold sb_pkts_of, pack_of. cbn [fst snd]. rewrite (flat_map_channel (fun c => N.eqb c 1)).
  rewrite (proj1 (chunks_of_spec _ (mux_max_nat_pos t) _ p (le_n _))). reflexivity.
Qed.

Lemma prog_of_pkts t hp ch p : prog_of hp (sb_pkts_of t (ch, p)) = if hp && N.eqb ch 2 then p else [].
Proof.
  unfold sb_pkts_of, prog_of. destruct hp; [|reflexivity]. cbn [fst snd andb].
  rewrite (flat_map_channel (fun c => N.eqb c 2)).
  rewrite (proj1 (chunks_of_spec _ (mux_max_nat_pos t) _ p (le_n _))). reflexivity.
Qed.

Lemma sb_stream_app a b : sb_stream (a ++ b) = sb_stream a ++ sb_stream b.
Proof. unfold sb_stream. apply flat_map_app. Qed.
Lemma pack_of_app a b : pack_of (a ++ b) = pack_of a ++ pack_of b.
Proof. unfold pack_of. apply flat_map_app. Qed.
Lemma prog_of_app hp a b : prog_of hp (a ++ b) = prog_of hp a ++ prog_of hp b.
Proof. unfold prog_of. destruct hp; [apply flat_map_app|reflexivity]. Qed.

Lemma mux_session_spec t ws : mux_session t ws = MOk (sb_stream (flat_map (sb_pkts_of t) ws)).
Proof.
  induction ws as [|[ch p] ws IH]; [reflexivity|].
  cbn [mux_session flat_map]. rewrite mux_write_spec, IH, sb_stream_app. reflexivity.
Qed.

(* the PackData / progress bytes of a list of writes *)
Definition pack_bytes (ws : list (N * bytes)) : bytes := flat_map (fun w => if N.eqb (fst w) 1 then snd w else []) ws.
Definition prog_bytes (hp : bool) (ws : list (N * bytes)) : bytes :=
  flat_map (fun w => if hp && N.eqb (fst w) 2 then snd w else []) ws.

Lemma session_pkts t hp ws : Forall (fun w => fst w = 1 \/ fst w = 2)%N ws ->
  Forall (sb_valid t) (flat_map (sb_pkts_of t) ws) /\
  pack_of (flat_map (sb_pkts_of t) ws) = pack_bytes ws /\
  prog_of hp (flat_map (sb_pkts_of t) ws) = prog_bytes hp ws.
Proof.
  induction 1 as [|[ch p] ws Hch _ IH]; [destruct hp; repeat split; constructor|].
  destruct IH as (I1 & I2 & I3). cbn [flat_map pack_bytes prog_bytes fst snd].
  rewrite pack_of_app, prog_of_app, pack_of_pkts, prog_of_pkts, I2, I3. repeat split; auto.
  apply Forall_app. split; [now apply sb_pkts_valid|assumption].
Qed.

(* nextPackData without error has scanned a packet (4 bytes at least) or handed out pending bytes *)
Lemma next_pack_progress max hp d content d1 :
  next_pack_data max hp d = (content, None, d1) ->
  (rlen (d_r d1) + 4 <= rlen (d_r d))%nat \/ content <> [] /\ d_r d1 = d_r d.
Proof.
  unfold next_pack_data. destruct (d_pending d) as [|c p].
  2:{ intros [= <- <-]. right. now split. }
  pose proof (scan_ok_consumes (d_r d)) as C. destruct (scan (d_r d)) as [s r']. cbn [fst snd] in C.
  destruct (sc_ok s); cbn [negb]; [specialize (C eq_refl)|destruct (sc_err s); discriminate].
  destruct (sc_len s =? pktline_Flush)%Z; [discriminate|].
  destruct (sc_len s >? max)%Z; [discriminate|].
  destruct (if (sc_len s >=? pktline_LenSize)%Z then sc_bytes s else []) as [|ch body]; [discriminate|].
  destruct (Z.of_N ch =? sideband_PackData)%Z; [intros [= <- <-]; now left|].
  destruct (Z.of_N ch =? sideband_ProgressMessage)%Z; [|discriminate].
  intros [= <- <-]. left. now destruct hp.
Qed.

Lemma do_read_progress max hp req d chunk d' :
  (1 <= req)%nat -> do_read max hp req d = (chunk, None, d') ->
  ((req - List.length chunk) + rlen (d_r d') < req + rlen (d_r d))%nat.
Proof.
  intros Hreq. unfold do_read. destruct (next_pack_data max hp d) as [[content err] d1] eqn:E.
  intros [= <- -> <-]. apply next_pack_progress in E. rewrite firstn_length.
  replace (d_r (if Nat.ltb req (List.length content) then _ else d1)) with (d_r d1) by now destruct (Nat.ltb _ _).
  destruct E as [E|[Hc ->]]; [lia|]. destruct content; [contradiction|cbn [List.length]; lia].
Qed.

Lemma demux_loop_total max hp : forall fuel req acc d,
  (req + rlen (d_r d) < fuel)%nat -> demux_loop fuel max hp req acc d <> DFuel.
Proof.
  induction fuel as [|f IH]; intros req acc d Hf; [lia|].
  destruct (Nat.eq_dec req 0) as [->|Hreq]; [discriminate|]. rewrite demux_loop_S by assumption.
  destruct (do_read max hp req d) as [[chunk err] d'] eqn:R.
  destruct err as [e|]; [discriminate|].
  apply IH. apply do_read_progress in R; lia.
Qed.

Theorem demux_read_total t hp req d : demux_read t hp req d <> DFuel.
Proof. unfold demux_read. apply demux_loop_total. lia. Qed.

Theorem demux_session_total t hp : forall sizes d acc, demux_session t hp sizes d acc <> DSFuel.
Proof.
  induction sizes as [|n sizes IH]; intros d acc; [discriminate|].
  cbn [demux_session]. pose proof (demux_read_total t hp n d) as T.
  destruct (demux_read t hp n d) as [data [e|] d'|]; [discriminate|apply IH|contradiction].
Qed.

(* the muxer never runs out of fuel either (max >= 1 for both sideband types) *)
Theorem mux_session_total t ws : mux_session t ws <> MFuel /\ mux_session t ws <> MTooLong.
Proof. rewrite mux_session_spec. split; discriminate. Qed.
