(* Proofs/C17.v — the memory model and the filesystem model refine the
   abstract store, call by call, outside the guarded call patterns. *)
From Coq Require Import List NArith Bool Lia Permutation.
From GoGit Require Import Base.Out Spec.AStore Model.StorageAPI Proofs.AStoreFacts.
Import ListNotations.
Local Open Scope N_scope.

Definition res_equiv (a b : res) : Prop :=
  match a, b with
  | RRefs l1, RRefs l2 => Permutation l1 l2
  | RIds l1, RIds l2 => Permutation l1 l2
  | _, _ => a = b
  end.

Lemma res_equiv_refl a : res_equiv a a.
Proof. destruct a; cbn; reflexivity. Qed.

Lemma res_equiv_trans a b c : res_equiv a b -> res_equiv b c -> res_equiv a c.
Proof.
  destruct a, b; cbn; try discriminate; destruct c; cbn; intros H1 H2;
    congruence || (etransitivity; eassumption).
Qed.

Lemma res_equiv_sym a b : res_equiv a b -> res_equiv b a.
Proof. destruct a, b; cbn; try discriminate; intro H; congruence || (symmetry; exact H). Qed.

Lemma Forall2_equiv_trans l1 : forall l2 l3,
  Forall2 res_equiv l1 l2 -> Forall2 res_equiv l2 l3 -> Forall2 res_equiv l1 l3.
Proof.
  induction l1 as [|a r IH]; intros l2 l3 H1 H2; inversion H1; subst; inversion H2; subst; constructor.
  - eapply res_equiv_trans; eassumption.
  - eapply IH; eassumption.
Qed.

Lemma Forall2_equiv_sym l1 : forall l2, Forall2 res_equiv l1 l2 -> Forall2 res_equiv l2 l1.
Proof.
  induction l1 as [|a r IH]; intros l2 H; inversion H; subst; constructor.
  - apply res_equiv_sym; assumption.
  - apply IH; assumption.
Qed.

Lemma Forall2_equiv_refl l : Forall2 res_equiv l l.
Proof. induction l; constructor; [apply res_equiv_refl|assumption]. Qed.

(* the one call on which memory departs from the abstract store: a
   CheckAndSetReference whose old reference has another name than the new one *)
Definition mem_ok (s : store) (o : sop) : bool :=
  match o with
  | SBase (OCas n _ on _) => on =? n
  | _ => true
  end.

Lemma mem_step_spec U s o : mem_ok s o = true -> mem_step U s o = spec_sstep U s o.
Proof.
  destruct o as [b| | |]; try reflexivity. destruct b; try reflexivity.
  cbn [mem_ok mem_step spec_sstep st_step]. intro H1.
  apply N.eqb_eq in H1; subst on. unfold mem_cas, st_cas.
  destruct (fm_get n (s_refs s)); reflexivity.
Qed.

Fixpoint mem_guards (U : universe) (s : store) (ops : list sop) : bool :=
  match ops with
  | [] => true
  | o :: r => mem_ok s o && mem_guards U (fst (mem_step U s o)) r
  end.

Lemma mem_run_spec U ops : forall s,
  mem_guards U s ops = true -> run_ops (mem_step U) s ops = run_ops (spec_sstep U) s ops.
Proof.
  induction ops as [|o r IH]; intros s Hg; [reflexivity|].
  cbn [mem_guards] in Hg. apply andb_true_iff in Hg as [H1 H2].
  cbn [run_ops]. rewrite (mem_step_spec U s o H1) in *.
  destruct (spec_sstep U s o) as [s1 x]. cbn [fst] in H2. rewrite (IH s1 H2). reflexivity.
Qed.

(* what a name resolves to: the reference file when it is not empty, else packed-refs *)
Definition fs_lookup (f : fstore) (n : N) : option refval :=
  match fm_get n (f_loose f) with
  | Some (Some v) => Some v
  | _ => match packed_lookup n (f_packed f) with
         | Some (Some h) => Some (RHash h)
         | _ => None
         end
  end.

Definition pname (p : pline) : option N := match p with PGood n _ => Some n | PBad => None end.
Fixpoint pnames (l : list pline) : list N :=
  match l with
  | [] => []
  | PGood n _ :: r => n :: pnames r
  | PBad :: r => pnames r
  end.

(* states the filesystem storer is in as long as the guarded patterns are avoided *)
Record FsInv (f : fstore) : Prop := mkFsInv {
  fi_ok : fm_ok (f_loose f);
  fi_nonempty : forall n, fm_get n (f_loose f) <> Some None;
  fi_packed : packed_okb (f_packed f) = true;
  fi_nodup : NoDup (pnames (f_packed f))
}.

Definition rest_eq (a b : store) : Prop :=
  s_objs a = s_objs b /\ s_idx a = s_idx b /\ s_cfg a = s_cfg b
  /\ s_shallow a = s_shallow b /\ s_logs a = s_logs b.

Record FsRel (f : fstore) (s : store) : Prop := mkFsRel {
  fr_inv : FsInv f;
  fr_ok : fm_ok (s_refs s);
  fr_refs : forall n, fm_get n (s_refs s) = fs_lookup f n;
  fr_rest : rest_eq (f_rest f) s
}.

(* the calls on which the filesystem storer answers like the abstract store
   and stays in FsInv *)
Definition fs_ok (f : fstore) (o : sop) : bool :=
  match o with
  | SBase (OCas n _ on ov) =>
    (on =? n) &&
    match fm_get n (f_loose f) with
    | Some (Some _) => true                      (* a reference file exists: compared in place *)
    | _ => match packed_lookup n (f_packed f) with
           | Some (Some h) => rv_hash_eqb (RHash h) ov    (* packed only: the CAS must succeed *)
           | _ => false                                   (* absent: an empty file would stay behind *)
           end
    end
  | _ => true
  end.

(* a well-formed packed-refs is an association list name -> id, looked up by first match *)
Fixpoint pairs (l : list pline) : list (N * N) :=
  match l with
  | [] => []
  | PGood n h :: r => (n, h) :: pairs r
  | PBad :: r => pairs r
  end.

Lemma pnames_pairs l : pnames l = map fst (pairs l).
Proof. induction l as [|[n h|] r IH]; cbn [pnames pairs map fst]; now rewrite ?IH. Qed.

Lemma In_pairs n h l : In (PGood n h) l <-> In (n, h) (pairs l).
Proof.
  induction l as [|[a b|] r IH]; cbn [In pairs]; [tauto| |]; rewrite IH.
  - split; (intros [[= -> ->]|H]; [now left|now right]).
  - split; [now intros [[=]|H]|now right].
Qed.

Lemma packed_lookup_pairs n l : packed_okb l = true -> packed_lookup n l = Some (fm_get n (pairs l)).
Proof.
  induction l as [|[m h|] r IH]; cbn [packed_okb forallb packed_lookup pairs fm_get]; intro H;
    [reflexivity| |discriminate].
  destruct (n =? m); [reflexivity|now apply IH].
Qed.

Lemma packed_lookup_ok n l : packed_okb l = true -> packed_lookup n l <> None.
Proof. intro H. now rewrite packed_lookup_pairs. Qed.

Lemma packed_lookup_In n h l :
  packed_okb l = true -> NoDup (pnames l) ->
  (packed_lookup n l = Some (Some h) <-> In (PGood n h) l).
Proof.
  intros Hok Hnd. rewrite pnames_pairs in Hnd.
  rewrite (packed_lookup_pairs n l Hok), In_pairs, <- (fm_get_In_NoDup n h _ Hnd). split; congruence.
Qed.

Lemma packed_lookup_none_iff n l :
  packed_okb l = true -> (packed_lookup n l = Some None <-> ~ In n (pnames l)).
Proof.
  intro Hok. rewrite (packed_lookup_pairs n l Hok), pnames_pairs, <- fm_get_None. split; congruence.
Qed.

Definition pfilter (n : N) (l : list pline) : list pline :=
  filter (fun p => match p with PGood n' _ => negb (n' =? n) | PBad => true end) l.

Lemma pfilter_ok n l : packed_okb l = true -> packed_okb (pfilter n l) = true.
Proof.
  unfold packed_okb, pfilter. rewrite !forallb_forall. intros H p Hp. apply filter_In in Hp as [Hp _]. apply H; exact Hp.
Qed.

Lemma pairs_pfilter n l : pairs (pfilter n l) = fm_del n (pairs l).
Proof.
  unfold pfilter, fm_del. induction l as [|[m k|] r IH]; cbn [filter pairs fst]; [reflexivity| |exact IH].
  destruct (negb (m =? n)); cbn [pairs]; now rewrite IH.
Qed.

Lemma packed_lookup_pfilter k n l :
  packed_okb l = true ->
  packed_lookup k (pfilter n l) = if k =? n then Some None else packed_lookup k l.
Proof.
  intro Hok. rewrite !packed_lookup_pairs, pairs_pfilter, fm_get_del by auto using pfilter_ok.
  now destruct (k =? n).
Qed.

Lemma loose_list_some (l : fmap (option refval)) :
  (forall n v, In (n, v) l -> v <> None) ->
  exists x, loose_list l = Some x /\ l = map (fun p => (fst p, Some (snd p))) x.
Proof.
  induction l as [|[n [v|]] r IH]; intro Hne.
  - now exists [].
  - destruct IH as (x & Hx & ->); [intros k w Hin; apply (Hne k w); now right|].
    exists ((n, v) :: x). cbn [loose_list]. now rewrite Hx.
  - now destruct (Hne n None (or_introl eq_refl)).
Qed.

(* the unseen lines are the first matches of the names not seen: what packed_lookup finds *)
Lemma packed_unseen_char l : forall seen k v, packed_okb l = true ->
  (In (k, v) (packed_unseen seen l) <->
   nmem k seen = false /\ exists h, v = RHash h /\ packed_lookup k l = Some (Some h)).
Proof.
  induction l as [|[n h|] r IH]; intros seen k v Hok; cbn [packed_unseen packed_okb forallb packed_lookup] in *.
  - split; [intros []|now intros [_ (h & _ & [=])]].
  - destruct (nmem n seen) eqn:Es; [|cbn [In]]; rewrite (IH _ k v Hok); cbn [nmem existsb];
      destruct (k =? n) eqn:E; cbn [orb]; try reflexivity.
    + apply N.eqb_eq in E; subst k. rewrite Es. split; now intros [[=] _].
    + apply N.eqb_eq in E; subst k. rewrite Es. split.
      * intros [[= <-]|[[=] _]]. eauto.
      * intros [_ (h' & -> & [= <-])]. now left.
    + split; [intros [[= -> _]|H]; [now rewrite N.eqb_refl in E|exact H]|now right].
  - discriminate.
Qed.

Lemma packed_unseen_fresh l seen k : packed_okb l = true ->
  In k (map fst (packed_unseen seen l)) -> nmem k seen = false.
Proof.
  intros Hok ([k' v] & <- & Hin)%in_map_iff. now apply (packed_unseen_char l seen k' v Hok) in Hin.
Qed.

Lemma packed_unseen_NoDup l : forall seen,
  packed_okb l = true -> NoDup (map fst (packed_unseen seen l)).
Proof.
  induction l as [|[n h|] r IH]; intros seen Hok; cbn [packed_unseen packed_okb forallb] in *.
  - constructor.
  - destruct (nmem n seen); [now apply IH|]. cbn [map fst]. constructor; [|now apply IH].
    intro Hin. apply packed_unseen_fresh in Hin; auto. cbn [nmem existsb] in Hin. now rewrite N.eqb_refl in Hin.
  - discriminate.
Qed.

Lemma fs_listing f :
  FsInv f ->
  exists x, loose_list (f_loose f) = Some x
    /\ (forall k v, In (k, v) (x ++ packed_unseen (map fst x) (f_packed f)) <-> fs_lookup f k = Some v)
    /\ NoDup (map fst (x ++ packed_unseen (map fst x) (f_packed f))).
Proof.
  intros [Hok Hne Hp Hnd].
  destruct (loose_list_some (f_loose f)) as (x & Hx & Elo).
  { intros n v Hin ->. apply (Hne n), (fm_get_In n None _ Hok), Hin. }
  assert (Hk : map fst x = map fst (f_loose f)) by now rewrite Elo, map_map.
  assert (Hin : forall k v, In (k, v) x <-> fm_get k (f_loose f) = Some (Some v)).
  { intros k v. rewrite (fm_get_In k (Some v) _ Hok), Elo, in_map_iff. split.
    - now exists (k, v).
    - now intros ([a b] & [= <- <-] & H). }
  exists x.
  split; [exact Hx|]. split.
  - intros k v. rewrite in_app_iff, Hin, (packed_unseen_char _ _ k v Hp), Hk, nmem_keys.
    unfold fs_lookup, fm_has. destruct (fm_get k (f_loose f)) as [[w|]|] eqn:El.
    + split; [intros [H|[[=] _]]; congruence|intro H; left; congruence].
    + now apply Hne in El.
    + split.
      * intros [[=]|[_ (h & -> & ->)]]. reflexivity.
      * destruct (packed_lookup k (f_packed f)) as [[h|]|]; try discriminate. intros [= <-]. eauto.
  - rewrite map_app.
    apply NoDup_app_intro; [rewrite Hk; now apply fm_ok_keys_NoDup|now apply packed_unseen_NoDup|].
    intros k Hk1 Hk2. apply packed_unseen_fresh in Hk2; auto. apply nmem_In in Hk1. congruence.
Qed.

Definition ref_op (b : op) : bool :=
  match b with OSetRef _ _ | OCas _ _ _ _ | OGetRef _ | OIterRefs | ODelRef _ => true | _ => false end.

Definition fs_sim U f s o : Prop :=
  FsRel (fst (fs_step U f o)) (fst (spec_sstep U s o))
  /\ res_equiv (snd (fs_step U f o)) (snd (spec_sstep U s o)).

Lemma FsInv_filter g f p : FsInv f -> packed_okb p = true -> NoDup (pnames p) ->
  FsInv (mkFs (filter g (f_loose f)) p (f_rest f)).
Proof.
  intros [Hok Hne _ _] Hp Hnd. constructor; cbn [f_loose f_packed]; try assumption.
  - now apply fm_ok_filter.
  - intros k Hk. apply (fm_get_In k None _ (fm_ok_filter g _ Hok)), filter_In in Hk as [Hk _].
    apply (fm_get_In k None _ Hok) in Hk. exact (Hne k Hk).
Qed.

Lemma FsInv_set f n v : FsInv f -> FsInv (mkFs (fm_set n (Some v) (f_loose f)) (f_packed f) (f_rest f)).
Proof.
  intros [Hok Hne Hp Hnd]. constructor; cbn [f_loose f_packed]; try assumption.
  - apply fm_ok_set; exact Hok.
  - intro k. rewrite fm_get_set. destruct (k =? n); [discriminate|apply Hne].
Qed.

Lemma fs_lookup_set f n v k :
  fs_lookup (mkFs (fm_set n (Some v) (f_loose f)) (f_packed f) (f_rest f)) k
  = if k =? n then Some v else fs_lookup f k.
Proof. unfold fs_lookup. cbn [f_loose f_packed]. rewrite fm_get_set. destruct (k =? n); reflexivity. Qed.

Lemma FsRel_set f s n v :
  FsRel f s ->
  FsRel (mkFs (fm_set n (Some v) (f_loose f)) (f_packed f) (f_rest f)) (st_with_refs s (fm_set n v (s_refs s))).
Proof.
  intros [HI Hok Hr Hrest]. constructor.
  - apply FsInv_set; exact HI.
  - cbn [st_with_refs s_refs]. apply fm_ok_set; exact Hok.
  - intro k. cbn [st_with_refs s_refs]. rewrite fm_get_set, fs_lookup_set, Hr. reflexivity.
  - exact Hrest.
Qed.

Lemma fs_sim_refs U f s b :
  FsRel f s -> fs_ok f (SBase b) = true -> ref_op b = true -> fs_sim U f s (SBase b).
Proof.
  intros HR Hg Hb. pose proof HR as [HI Hok Hr Hrest]. unfold fs_sim.
  destruct b; try discriminate; cbn [fs_step spec_sstep st_step fst snd].
  (* OSetRef, OCas, OGetRef, OIterRefs, ODelRef *)
  - split; [apply FsRel_set; exact HR|reflexivity].
  - cbn [fs_ok] in Hg. apply andb_true_iff in Hg as [Hn Hg]. apply N.eqb_eq in Hn; subst on.
    unfold fs_cas, st_cas. rewrite (Hr n). unfold fs_lookup.
    destruct (fm_get n (f_loose f)) as [[cur|]|] eqn:El.
    + destruct (rv_hash_eqb cur ov); cbn [fst snd].
      * split; [apply FsRel_set; exact HR|reflexivity].
      * split; [exact HR|reflexivity].
    + now apply (fi_nonempty f HI) in El.
    + destruct (packed_lookup n (f_packed f)) as [[h|]|]; try discriminate.
      rewrite Hg. cbn [fst snd]. split; [apply FsRel_set; exact HR|reflexivity].
  - split; [exact HR|]. unfold fs_get_ref. rewrite (Hr n). unfold fs_lookup.
    destruct (fm_get n (f_loose f)) as [[cur|]|] eqn:El; [apply res_equiv_refl| |].
    + now apply (fi_nonempty f HI) in El.
    + pose proof (packed_lookup_ok n _ (fi_packed f HI)) as Hp.
      destruct (packed_lookup n (f_packed f)) as [[h|]|]; [apply res_equiv_refl|apply res_equiv_refl|congruence].
  - split; [exact HR|]. unfold fs_iter_refs.
    destruct (fs_listing f HI) as [x [Hx [Hin Hnd]]]. rewrite Hx, (fi_packed f HI).
    cbn [res_equiv]. apply (perm_of_lookup _ _ Hok); [eapply NoDup_map_inv, Hnd|].
    intros k v. now rewrite Hin, Hr.
  - unfold fs_del_ref. rewrite (fi_packed f HI). cbn [fst snd]. split; [|reflexivity].
    pose proof HI as [_ _ Hp Hnd]. constructor.
    + apply (FsInv_filter _ f (pfilter n (f_packed f)) HI (pfilter_ok n _ Hp)).
      rewrite pnames_pairs in *. rewrite pairs_pfilter. now apply NoDup_map_filter.
    + cbn [st_with_refs s_refs]. apply fm_ok_del; exact Hok.
    + intro k. cbn [st_with_refs s_refs]. rewrite fm_get_del, Hr. unfold fs_lookup. cbn [f_loose f_packed].
      rewrite fm_get_del. change (filter _ (f_packed f)) with (pfilter n (f_packed f)).
      rewrite (packed_lookup_pfilter k n _ Hp). destruct (k =? n); reflexivity.
    + exact Hrest.
Qed.

(* packing turns the hash entries into lines and the symbolic ones into bad lines *)
Lemma pairs_map_pack k h (l : list (N * refval)) : In (k, h) (pairs (map pack_line l)) <-> In (k, RHash h) l.
Proof.
  induction l as [|[n [j|t]] r IH]; cbn [map pack_line snd fst pairs In]; rewrite ?IH; [tauto| |].
  - split; (intros [[= -> ->]|H]; [now left|now right]).
  - split; [now right|now intros [[=]|H]].
Qed.

Lemma packed_ok_map_pack (l : list (N * refval)) :
  packed_okb (map pack_line l) = forallb (fun p => is_hash (snd p)) l.
Proof.
  unfold packed_okb. induction l as [|[n [h|t]] r IH]; cbn [forallb map pack_line snd is_hash]; now rewrite ?IH.
Qed.

Lemma pnames_map_pack (l : list (N * refval)) :
  forallb (fun p => is_hash (snd p)) l = true -> pnames (map pack_line l) = map fst l.
Proof.
  induction l as [|[n [h|t]] r IH]; cbn [forallb map pack_line snd fst pnames is_hash]; intro H; try discriminate.
  - reflexivity.
  - now rewrite IH.
Qed.

(* PackRefs: the reference files other than HEAD are listed, the hash entries of the
   listing and the unseen packed lines become packed-refs, symbolic files and HEAD stay *)
Lemma pack_core f :
  FsInv f ->
  exists x, loose_list (fm_del head_name (f_loose f)) = Some x /\
  let P := map pack_line (filter (fun p => is_hash (snd p)) x)
           ++ map pack_line (packed_unseen (map fst x) (f_packed f)) in
  let f' := mkFs (filter keeps_loose_or_head (f_loose f)) P (f_rest f) in
  FsInv f' /\ forall k, fs_lookup f' k = fs_lookup f k.
Proof.
  intros HI. set (fd := mkFs (fm_del head_name (f_loose f)) (f_packed f) (f_rest f)).
  assert (HId : FsInv fd) by (apply (FsInv_filter _ f); [exact HI|apply HI|apply HI]).
  destruct (fs_listing fd HId) as [x [Hx [Hin Hnd]]]. cbn [fd f_loose f_packed] in Hx, Hin, Hnd.
  exists x. split; [exact Hx|]. cbn zeta.
  set (un := packed_unseen (map fst x) (f_packed f)) in *.
  (* the unseen packed lines are hash lines: the new packed-refs holds the hash entries of the listing *)
  assert (Hun : forallb (fun p => is_hash (snd p)) un = true).
  { apply forallb_forall. intros [k v] Hk.
    now apply (packed_unseen_char _ _ k v (fi_packed f HI)) in Hk as [_ (h & -> & _)]. }
  set (hs := filter (fun p => is_hash (snd p)) (x ++ un)).
  replace (_ ++ map pack_line un) with (map pack_line hs)
    by (unfold hs; now rewrite filter_app, map_app, (filter_all _ un Hun)).
  pose proof (forallb_filter (fun p : N * refval => is_hash (snd p)) (x ++ un)) as Hhs. fold hs in Hhs.
  assert (HI' : FsInv (mkFs (filter keeps_loose_or_head (f_loose f)) (map pack_line hs) (f_rest f))).
  { apply FsInv_filter; [exact HI|now rewrite packed_ok_map_pack|].
    rewrite pnames_map_pack by exact Hhs. now apply NoDup_map_filter. }
  (* the new packed-refs holds, for each name, the id it resolved to in fd *)
  assert (HP : forall k, packed_lookup k (map pack_line hs)
               = Some (match fs_lookup fd k with Some (RHash h) => Some h | _ => None end)).
  { intro k. rewrite packed_lookup_pairs by apply HI'. f_equal.
    assert (E : forall h, fm_get k (pairs (map pack_line hs)) = Some h <-> fs_lookup fd k = Some (RHash h)).
    { intro h. rewrite fm_get_In_NoDup, pairs_map_pack by (rewrite <- pnames_pairs; apply HI').
      unfold hs. rewrite filter_In, Hin. cbn [snd is_hash]. tauto. }
    destruct (fs_lookup fd k) as [[h|t]|]; [now apply E| |];
      (destruct (fm_get k (pairs _)) as [h'|]; [discriminate (proj1 (E h') eq_refl)|reflexivity]). }
  (* apart from a HEAD file, names resolve in fd as in f *)
  assert (Hfd : forall k, fm_get k (f_loose f) = None \/ (k =? head_name) = false -> fs_lookup fd k = fs_lookup f k).
  { intros k Hk. unfold fs_lookup. cbn [fd f_loose f_packed]. rewrite fm_get_del.
    destruct Hk as [-> | ->]; [now destruct (k =? head_name)|reflexivity]. }
  split; [exact HI'|]. intro k. unfold fs_lookup at 1. cbn [f_loose f_packed].
  rewrite (fm_get_filter _ _ k (fi_ok f HI)), HP. unfold keeps_loose_or_head, keeps_loose. cbn [fst snd].
  destruct (fm_get k (f_loose f)) as [[[h|t]|]|] eqn:El.
  - destruct (k =? head_name) eqn:Ek; cbn [orb].
    + (* HEAD keeps its file *) unfold fs_lookup. now rewrite El.
    + (* a hash reference file: now the packed line *) rewrite Hfd by auto. unfold fs_lookup. now rewrite El.
  - (* a symbolic reference file stays *) rewrite orb_true_r. unfold fs_lookup. now rewrite El.
  - now apply (fi_nonempty f HI) in El.
  - (* no file: the packed line of the name, if any, is kept *)
    rewrite Hfd by auto. unfold fs_lookup. rewrite El. now destruct (packed_lookup k (f_packed f)) as [[?|]|].
Qed.

Lemma fs_sim_pack U f s : FsRel f s -> fs_sim U f s SPackRefs.
Proof.
  intros HR. pose proof HR as [HI Hok Hr Hrest]. unfold fs_sim.
  cbn [fs_step spec_sstep fst snd]. unfold fs_pack_refs.
  destruct (pack_core f HI) as (x & -> & HI' & Hlk).
  destruct x as [|p0 x']; [split; [exact HR|reflexivity]|].
  rewrite (fi_packed f HI). cbn [fst snd]. split; [|reflexivity].
  constructor; [exact HI'|exact Hok| |exact Hrest]. intro k. now rewrite Hr, Hlk.
Qed.

Lemma rest_step U a b o :
  ref_op o = false -> rest_eq a b ->
  rest_eq (fst (st_step U a o)) (fst (st_step U b o))
  /\ snd (st_step U a o) = snd (st_step U b o)
  /\ s_refs (fst (st_step U b o)) = s_refs b.
Proof.
  intros Hr (H1 & H2 & H3 & H4 & H5). unfold rest_eq.
  destruct o; try discriminate; cbn [st_step fst snd];
    unfold st_get_obj, st_iter_objs, st_with_objs, st_with_idx, st_with_cfg, st_with_shallow, st_with_logs;
    try destruct (valid_typ U k); cbn [fst snd s_refs s_objs s_idx s_cfg s_shallow s_logs];
    rewrite ?H1, ?H2, ?H3, ?H4, ?H5; repeat split; reflexivity.
Qed.

Lemma rest_eq_objs g a b : rest_eq a b ->
  rest_eq (st_with_objs a (g (s_objs a))) (st_with_objs b (g (s_objs b))).
Proof. intros (-> & H). exact (conj eq_refl H). Qed.

Lemma FsRel_rest f s r' s' : FsRel f s -> s_refs s' = s_refs s -> rest_eq r' s' ->
  FsRel (mkFs (f_loose f) (f_packed f) r') s'.
Proof.
  intros [[H1 H2 H3 H4] Hok Hr _] E Hrest.
  constructor; [constructor; assumption|now rewrite E|intro k; rewrite E; apply Hr|exact Hrest].
Qed.

Lemma fs_sim_all U f s o : FsRel f s -> fs_ok f o = true -> fs_sim U f s o.
Proof.
  intros HR Hg. destruct o as [b| |l|].
  - destruct (ref_op b) eqn:Hb; [apply fs_sim_refs; assumption|].
    pose proof HR as [HI Hok Hr Hrest]. unfold fs_sim.
    assert (E : fs_step U f (SBase b) =
                (mkFs (f_loose f) (f_packed f) (fst (st_step U (f_rest f) b)), snd (st_step U (f_rest f) b))).
    { destruct b; try discriminate; cbn [fs_step]; destruct (st_step U (f_rest f) _); reflexivity. }
    rewrite E. cbn [spec_sstep fst snd].
    destruct (rest_step U (f_rest f) s b Hb Hrest) as (H1 & H2 & H3).
    split; [now apply (FsRel_rest f s)|rewrite H2; apply res_equiv_refl].
  - apply fs_sim_pack; assumption.
  - pose proof HR as [HI Hok Hr Hrest]. unfold fs_sim. cbn [fs_step spec_sstep fst snd].
    split; [|reflexivity]. apply (FsRel_rest f s); [exact HR|reflexivity|].
    exact (rest_eq_objs (fun m => fold_right (fun k m => fm_set k tt m) m l) _ _ Hrest).
  - unfold fs_sim. cbn [fs_step spec_sstep fst snd]. split; [exact HR|reflexivity].
Qed.

Fixpoint fs_guards (U : universe) (f : fstore) (ops : list sop) : bool :=
  match ops with
  | [] => true
  | o :: r => fs_ok f o && fs_guards U (fst (fs_step U f o)) r
  end.

Lemma fs_run_spec U ops : forall f s,
  FsRel f s -> fs_guards U f ops = true ->
  FsRel (fst (run_ops (fs_step U) f ops)) (fst (run_ops (spec_sstep U) s ops))
  /\ Forall2 res_equiv (snd (run_ops (fs_step U) f ops)) (snd (run_ops (spec_sstep U) s ops)).
Proof.
  induction ops as [|o r IH]; intros f s HR Hg.
  - cbn. split; [exact HR|constructor].
  - cbn [fs_guards] in Hg. apply andb_true_iff in Hg as [H1 H2].
    destruct (fs_sim_all U f s o HR H1) as [HR1 Hx]. cbn [run_ops].
    destruct (fs_step U f o) as [f1 x]. destruct (spec_sstep U s o) as [s1 y]. cbn [fst snd] in *.
    destruct (IH f1 s1 HR1 H2) as [HR2 Hall].
    destruct (run_ops (fs_step U) f1 r) as [f2 xs]. destruct (run_ops (spec_sstep U) s1 r) as [s2 ys].
    cbn [fst snd] in *. split; [exact HR2|constructor; assumption].
Qed.

Lemma FsRel_empty : FsRel fs_empty st_empty.
Proof.
  constructor.
  - constructor; cbn; try constructor. intro n. discriminate.
  - constructor.
  - intro n. reflexivity.
  - repeat split; reflexivity.
Qed.
