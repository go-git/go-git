(* Proofs/C12.v — decoding what the encoder wrote gives back the sorted entries.
   Both writers (go-git's encode_entry, git's g_write_entry) lay an entry out as [entry_bytes];
   both readers are proved once against that layout. *)
From Coq Require Import List NArith ZArith Arith Lia ZifyBool ZifyNat ZifyN Bool.
From GoGit Require Import Base.Out Model.IndexFile Gen.C12.
Import ListNotations.
Local Open Scope N_scope.

Lemma get_u32_u32 n r : n < 4294967296 -> get_u32 (u32 n ++ r) = Some (n, r).
Proof. intros H. unfold get_u32, u32. cbn [app]. f_equal. f_equal. lia. Qed.

Lemma get_u16_u16 n r : n < 65536 -> get_u16 (u16 n ++ r) = Some (n, r).
Proof. intros H. unfold get_u16, u16. cbn [app]. f_equal. f_equal. lia. Qed.

Lemma u32_length n : List.length (u32 n) = 4%nat. Proof. reflexivity. Qed.
Lemma u16_length n : List.length (u16 n) = 2%nat. Proof. reflexivity. Qed.

Lemma firstn_length_app {A} (a b : list A) : firstn (List.length a) (a ++ b) = a.
Proof. now rewrite firstn_app, Nat.sub_diag, firstn_all, firstn_O, app_nil_r. Qed.

Lemma skipn_length_app {A} (a b : list A) : skipn (List.length a) (a ++ b) = b.
Proof. now rewrite skipn_app, Nat.sub_diag, skipn_all. Qed.

(* the decoders' fuel: a concatenation of non-empty pieces is at least as long as their number *)
Lemma flat_map_length_ge {A B} (f : A -> list B) l :
  (forall x, (1 <= List.length (f x))%nat) -> (List.length l <= List.length (flat_map f l))%nat.
Proof.
  intros Hf. induction l as [|x l IH]; cbn [flat_map List.length]; [lia|].
  rewrite app_length. specialize (Hf x). lia.
Qed.

Lemma take_app (a r : bytes) : take (List.length a) (a ++ r) = Some (a, r).
Proof.
  unfold take. rewrite app_length, (proj2 (Nat.leb_le _ _)) by lia.
  now rewrite firstn_length_app, skipn_length_app.
Qed.

Lemma take_app_n n (a r : bytes) : List.length a = n -> take n (a ++ r) = Some (a, r).
Proof. intros <-. apply take_app. Qed.

Lemma take_all n (a : bytes) : List.length a = n -> take n a = Some (a, []).
Proof. intros Ha. rewrite <- (app_nil_r a) at 1. now apply take_app_n. Qed.

Lemma zeros_length n : List.length (zeros n) = n.
Proof. apply repeat_length. Qed.

Lemma zeros_S n : zeros (S n) = 0 :: zeros n. Proof. reflexivity. Qed.

Lemma take_zeros n r : take n (zeros n ++ r) = Some (zeros n, r).
Proof. apply take_app_n, zeros_length. Qed.

(* (w + 8) & ~7: how git and go-git both round an entry up to a multiple of 8 *)
Lemma align8 w : ((w + 8) / 8 * 8 = w + (8 - w mod 8))%nat.
Proof. lia. Qed.

Definition nonul (s : bytes) : bool := forallb (fun c => negb (c =? 0)) s.

(* binary.ReadUntil stops at the first delimiter; [nonul s] is the hypothesis for d = 0 *)
Lemma read_until_delim d s r : forallb (fun c => negb (c =? d)) s = true -> read_until d (s ++ d :: r) = Some (s, r).
Proof.
  induction s as [|c s IH]; cbn [app read_until forallb]; intros Hs.
  - now rewrite N.eqb_refl.
  - apply andb_true_iff in Hs as [Hc Hr]. apply negb_true_iff in Hc. now rewrite Hc, IH.
Qed.

Lemma nonul_skipn k s : nonul s = true -> nonul (skipn k s) = true.
Proof.
  revert k. induction s as [|c s IH]; intros [|k] H; cbn [skipn]; auto.
  cbn in H. apply andb_true_iff in H as [_ Hs]. now apply IH.
Qed.

(* the continuation bytes WriteVariableWidthInt puts before the last one, most significant first *)
Fixpoint pre (fuel : nat) (m : N) : bytes :=
  match fuel with
  | O => []
  | S f => if m =? 0 then [] else pre f ((m - 1) / 128) ++ [128 + (m - 1) mod 128]
  end.

Lemma varint_more_pre f : forall m acc, varint_more f m acc = pre f m ++ acc.
Proof.
  induction f as [|f IH]; intros m acc; cbn [varint_more pre]; [reflexivity|].
  destruct (m =? 0); [reflexivity|]. rewrite IH, <- app_assoc. reflexivity.
Qed.

Lemma pre_zero f : pre f 0 = [].
Proof. destruct f; reflexivity. Qed.

Lemma varint_loop_done fuel v c b : c < 128 -> read_varint_loop fuel v c b = Ok (v, b).
Proof. intros Hc. apply N.ltb_lt in Hc. destruct fuel; cbn [read_varint_loop]; now rewrite Hc. Qed.

Lemma varint_loop_more fuel v c c' b : 128 <= c -> v < varint_limit ->
  read_varint_loop (S fuel) v c (c' :: b) = read_varint_loop fuel ((v + 1) * 128 + c' mod 128) c' b.
Proof.
  intros Hc Hv. apply N.ltb_ge in Hc. apply N.leb_gt in Hv. cbn [read_varint_loop]. now rewrite Hc, Hv.
Qed.

(* after the continuation bytes of m the reader holds m - 1 and a byte with the high bit set *)
Lemma read_pre f : forall m t,
  1 <= m < 128 ^ N.of_nat f -> m <= varint_limit ->
  exists c, 128 <= c /\ read_varint (pre f m ++ t) = read_varint_loop (List.length t) (m - 1) c t.
Proof.
  unfold varint_limit. induction f as [|f IH]; intros m t Hm Hlim; [cbn in Hm; lia|].
  rewrite Nat2N.inj_succ, N.pow_succ_r' in Hm.
  cbn [pre]. rewrite (proj2 (N.eqb_neq m 0)) by lia.
  set (m' := (m - 1) / 128). set (x := 128 + (m - 1) mod 128).
  exists x. split; [unfold x; lia|]. rewrite <- app_assoc. cbn [app].
  destruct (N.eq_dec m' 0) as [E0|E0].
  - rewrite E0, pre_zero. cbn [app read_varint]. f_equal. unfold x, m' in *. lia.
  - destruct (IH m' (x :: t)) as (c' & Hc' & ->); [unfold m'; lia..|].
    cbn [List.length]. rewrite varint_loop_more by (unfold varint_limit, m'; lia).
    f_equal. unfold x, m'. lia.
Qed.

Lemma read_varint_varint n rest : n < 4294967296 -> read_varint (varint n ++ rest) = Ok (n, rest).
Proof.
  intros Hn. unfold varint. rewrite varint_more_pre, <- app_assoc. cbn [app].
  destruct (N.eq_dec (n / 128) 0) as [E0|E0].
  - rewrite E0, pre_zero. cbn [app read_varint]. rewrite varint_loop_done by lia. do 2 f_equal. lia.
  - destruct (read_pre 10 (n / 128) (n mod 128 :: rest)) as (c & Hc & ->).
    { change (128 ^ N.of_nat 10) with 1180591620717411303424. lia. }
    { unfold varint_limit. lia. }
    cbn [List.length]. rewrite varint_loop_more by (unfold varint_limit; lia).
    rewrite varint_loop_done by lia. do 2 f_equal. lia.
Qed.

Definition wf_time (t : gtime) : bool :=
  match t with
  | TZero => true
  | TUnix s n => ((0 <=? s)%Z && (s <? 4294967296)%Z && (n <? 1000000000) && negb ((s =? 0)%Z && (n =? 0)))%bool
  end.

Lemma time_roundtrip t : wf_time t = true ->
  exists a b, time_to_u32 t = Ok (a, b) /\ a < 4294967296 /\ b < 4294967296 /\ mk_time a b = t.
Proof.
  destruct t as [|s n]; cbn [wf_time]; intros Hw.
  - exists 0, 0. cbn. repeat split; lia.
  - assert (Hs : (0 <= s < 4294967296)%Z /\ n < 1000000000 /\ ~ (s = 0%Z /\ n = 0)) by lia.
    clear Hw. destruct Hs as (Hs & Hn & Hnz).
    exists (Z.to_N s), n. unfold time_to_u32, wrap64s.
    rewrite (Z.mod_small (s * 1000000000 + Z.of_N n)), Z.mod_small, N.mod_small by lia.
    rewrite (proj2 (Z.ltb_lt _ 9223372036854775808)), (proj2 (Z.ltb_ge s 0)), (proj2 (Z.ltb_ge _ 0)) by lia.
    repeat split; try lia.
    unfold mk_time. rewrite N.div_small, N.mod_small, N.add_0_r, Z2N.id by lia.
    destruct (Z.to_N s =? 0) eqn:Es; [destruct (n =? 0) eqn:En; [lia|]|]; reflexivity.
Qed.

Section FixedPart.
Variable hs : nat.

Definition u32ok (n : N) : bool := n <? 4294967296.

Definition wf_entry (e : entry) : bool :=
  (nonul (e_name e) && (e_stage e <? 4) && wf_time (e_ctime e) && wf_time (e_mtime e) &&
   u32ok (e_dev e) && u32ok (e_ino e) && u32ok (e_mode e) && u32ok (e_uid e) && u32ok (e_gid e) && u32ok (e_size e) &&
   (List.length (e_hash e) =? hs)%nat && (N.of_nat (List.length (e_name e)) <? 4294967296))%bool.

Definition enc_fixed (f : fixedf) : bytes :=
  u32 (f_sec f) ++ u32 (f_nsec f) ++ u32 (f_msec f) ++ u32 (f_mnsec f) ++ u32 (f_dev f) ++ u32 (f_ino f) ++
  u32 (f_mode f) ++ u32 (f_uid f) ++ u32 (f_gid f) ++ u32 (f_size f) ++ f_hash f ++ u16 (f_flags f).

Definition fixed_ok (f : fixedf) : Prop :=
  f_sec f < 4294967296 /\ f_nsec f < 4294967296 /\ f_msec f < 4294967296 /\ f_mnsec f < 4294967296 /\
  f_dev f < 4294967296 /\ f_ino f < 4294967296 /\ f_mode f < 4294967296 /\ f_uid f < 4294967296 /\
  f_gid f < 4294967296 /\ f_size f < 4294967296 /\ List.length (f_hash f) = hs.

Lemma read_fixed_enc f r : fixed_ok f -> f_flags f < 65536 -> read_fixed hs (enc_fixed f ++ r) = Some (f, r).
Proof.
  intros (? & ? & ? & ? & ? & ? & ? & ? & ? & ? & ?) ?. unfold read_fixed, enc_fixed. rewrite <- !app_assoc.
  do 10 (rewrite get_u32_u32 by assumption).
  rewrite (take_app_n hs), get_u16_u16 by assumption. destruct f. reflexivity.
Qed.
End FixedPart.

(* the low 12 bits of the flag word: the name length, saturated *)
Definition name_len_field (name : bytes) : N :=
  if N.of_nat (List.length name) <? 4095 then N.of_nat (List.length name) else 4095.

Lemma name_len_field_lt name : name_len_field name < 4096.
Proof. unfold name_len_field. destruct (N.of_nat (List.length name) <? 4095) eqn:E; lia. Qed.

Definition flag_word (stage : N) (ext valid : bool) (m : N) : N :=
  stage * 4096 + (if ext then 16384 else 0) + (if valid then 32768 else 0) + m.

Lemma flag_word_fields s m (ext valid : bool) : s < 4 -> m < 4096 ->
  let fw := flag_word s ext valid m in
  (fw / 4096) mod 4 = s /\ fw mod 4096 = m /\ N.testbit fw 14 = ext /\ N.testbit fw 15 = valid /\ fw < 65536.
Proof.
  intros Hs Hm. unfold flag_word. rewrite !N.testbit_eqb. change (2 ^ 14) with 16384. change (2 ^ 15) with 32768.
  destruct ext, valid; repeat split; lia.
Qed.

(* encodeEntry adds CE_EXTENDED to the finished word and appends the second word *)
Lemma flag_bytes_go s m (ext : bool) (x : bytes) :
  (if ext then u16 (s * 4096 + m + entryExtended) ++ x else u16 (s * 4096 + m)) =
  u16 (flag_word s ext false m) ++ (if ext then x else []).
Proof. unfold flag_word, entryExtended. destruct ext; [f_equal|rewrite app_nil_r]; f_equal; lia. Qed.

Definition ext_word (ita skip : bool) : N := (if ita then intentToAddMask else 0) + (if skip then skipWorkTreeMask else 0).
Definition ext_bytes (ita skip : bool) : bytes := if (ita || skip)%bool then u16 (ext_word ita skip) else [].

(* four flag combinations: evaluation *)
Lemma read_ext_bytes ita skip tail :
  (if (ita || skip)%bool
   then match get_u16 (ext_bytes ita skip ++ tail) with
        | None => Err EEof
        | Some (x, b') => Ok (N.testbit x 13, N.testbit x 14, b')
        end
   else Ok (false, false, ext_bytes ita skip ++ tail)) = Ok (ita, skip, tail).
Proof. destruct ita, skip; reflexivity. Qed.

(* V4: the length of the prefix shared with the previous name, and what is stripped off that name *)
Definition v4_prefix (last : option bytes) (name : bytes) : nat :=
  match last with Some ln => common_prefix_len ln name | None => O end.
Definition v4_strip (last : option bytes) (name : bytes) : nat :=
  match last with Some ln => (List.length ln - v4_prefix last name)%nat | None => O end.

(* what follows the flags: the name and 1..8 NULs up to a multiple of 8 (V2/V3), or
   strip length, suffix, NUL (V4) *)
Definition name_part (hs : nat) (ver : N) (last : option bytes) (ext : bool) (name : bytes) : bytes :=
  if ((ver =? 2) || (ver =? 3))%bool
  then name ++ zeros (8 - (42 + hs + (if ext then 2 else 0) + List.length name) mod 8)
  else varint (N.of_nat (v4_strip last name)) ++ skipn (v4_prefix last name) name ++ [0].

Definition entry_bytes (hs : nat) (ver : N) (last : option bytes) (f : fixedf) (ita skip : bool) (name : bytes) : bytes :=
  enc_fixed f ++ ext_bytes ita skip ++ name_part hs ver last (ita || skip) name.

Lemma entry_bytes_pos hs ver last f ita skip name : (1 <= List.length (entry_bytes hs ver last f ita skip name))%nat.
Proof. unfold entry_bytes, enc_fixed. rewrite !app_length, u32_length. lia. Qed.

Lemma ver_cases ver : ver = 2 \/ ver = 3 \/ ver = 4 ->
  ((ver =? 2) || (ver =? 3) = true /\ (ver =? 4) = false) \/ ((ver =? 2) || (ver =? 3) = false /\ (ver =? 4) = true).
Proof. intros [-> | [-> | ->]]; auto. Qed.

Lemma ver_range ver : ver = 2 \/ ver = 3 \/ ver = 4 ->
  ver < 4294967296 /\ ((ver <? 2) || (4 <? ver))%bool = false.
Proof. intros [-> | [-> | ->]]; split; reflexivity. Qed.

Lemma read_name23_ok flags rd name rest :
  nonul name = true -> flags mod 4096 = name_len_field name ->
  read_name23 flags rd (name ++ zeros (8 - (rd + List.length name) mod 8) ++ rest) = Ok (name, rest).
Proof.
  intros Hn Hf. unfold read_name23, name_len_field in *. rewrite Hf. unfold nameMask.
  assert (Hmod : ((rd + List.length name) mod 8 < 8)%nat) by (apply Nat.mod_upper_bound; lia).
  destruct (N.of_nat (List.length name) <? 4095) eqn:El.
  - rewrite (proj2 (N.eqb_neq _ 4095)) by lia.
    rewrite Nat2N.id, take_app, Nat.sub_diag, Nat.sub_0_r, take_zeros. reflexivity.
  - (* a long name is found by its terminator, which is the first byte of the padding *)
    cbn [N.eqb Pos.eqb].
    destruct (8 - (rd + List.length name) mod 8)%nat as [|pad] eqn:Ep; [lia|].
    rewrite zeros_S. cbn [app]. rewrite read_until_delim by exact Hn.
    replace (8 - (rd + List.length name) mod 8 - (S (List.length name) - List.length name))%nat with pad by lia.
    rewrite take_zeros. reflexivity.
Qed.

Lemma cpl_le a b : (common_prefix_len a b <= List.length a)%nat.
Proof. revert b. induction a as [|x a IH]; intros [|y b]; cbn; try lia. destruct (x =? y); cbn; [specialize (IH b)|]; lia. Qed.

Lemma cpl_le_r : forall a b : bytes, (common_prefix_len a b <= List.length b)%nat.
Proof. induction a as [|p a IH]; intros [|q b0]; cbn; try lia. destruct (p =? q); cbn; [specialize (IH b0)|]; lia. Qed.

Lemma cpl_firstn a b : firstn (common_prefix_len a b) a = firstn (common_prefix_len a b) b.
Proof.
  revert b. induction a as [|x a IH]; intros [|y b]; cbn; try reflexivity.
  destruct (x =? y) eqn:E; cbn; [|reflexivity]. apply N.eqb_eq in E. subst. f_equal. apply IH.
Qed.

Definition last_ok (last : option bytes) : Prop :=
  match last with Some ln => N.of_nat (List.length ln) < 4294967296 | None => True end.

Lemma v4_strip_lt last name : last_ok last -> N.of_nat (v4_strip last name) < 4294967296.
Proof. destruct last; cbn; lia. Qed.

Lemma read_name4_ok last name rest :
  nonul name = true -> last_ok last ->
  read_name4 last (varint (N.of_nat (v4_strip last name)) ++ skipn (v4_prefix last name) name ++ [0] ++ rest) = Ok (name, rest).
Proof.
  intros Hn Hl. unfold read_name4.
  rewrite read_varint_varint by now apply v4_strip_lt.
  cbn [app]. rewrite read_until_delim by (apply nonul_skipn; exact Hn).
  destruct last as [ln|]; [|reflexivity]. cbn [v4_strip v4_prefix].
  pose proof (cpl_le ln name) as Hle.
  rewrite (proj2 (N.ltb_ge _ _)), Nat2N.id by lia.
  replace (List.length ln - (List.length ln - common_prefix_len ln name))%nat with (common_prefix_len ln name) by lia.
  rewrite cpl_firstn, firstn_skipn. reflexivity.
Qed.

Lemma read_entry_bytes hs ver last f stage valid ita skip name rest :
  fixed_ok hs f -> ver = 2 \/ ver = 3 \/ ver = 4 -> last_ok last -> nonul name = true -> stage < 4 ->
  f_flags f = flag_word stage (ita || skip) valid (name_len_field name) ->
  read_entry hs ver last (entry_bytes hs ver last f ita skip name ++ rest) =
  Ok (mkEntry name stage (mk_time (f_sec f) (f_nsec f)) (mk_time (f_msec f) (f_mnsec f))
              (f_dev f) (f_ino f) (f_mode f) (f_uid f) (f_gid f) (f_size f) (f_hash f) skip ita, rest).
Proof.
  intros Hf Hver Hlast Hn Hst Hfl.
  destruct (flag_word_fields stage _ (ita || skip) valid Hst (name_len_field_lt name)) as (Hstage & Hlen & Hbit & _ & Hfw).
  rewrite <- Hfl in *. unfold read_entry, entry_bytes. rewrite <- !app_assoc.
  rewrite read_fixed_enc by assumption. cbv zeta. rewrite Hbit, read_ext_bytes, Hstage.
  unfold name_part. destruct (ver_cases ver Hver) as [[-> _] | [-> ->]]; rewrite <- !app_assoc.
  - now rewrite read_name23_ok.
  - now rewrite read_name4_ok.
Qed.

(* the fixed part go-git writes for e, given the two timestamps as 32-bit pairs *)
Definition entry_fixed (sec nsec msec mnsec : N) (e : entry) : fixedf :=
  mkF sec nsec msec mnsec (e_dev e) (e_ino e) (e_mode e) (e_uid e) (e_gid e) (e_size e) (e_hash e)
      (flag_word (e_stage e) (e_ita e || e_skip e) false (name_len_field (e_name e))).

Lemma encode_entry_bytes hs ver last e : wf_entry hs e = true -> ver = 2 \/ ver = 3 \/ ver = 4 ->
  exists sec nsec msec mnsec,
    time_to_u32 (e_ctime e) = Ok (sec, nsec) /\ time_to_u32 (e_mtime e) = Ok (msec, mnsec) /\
    mk_time sec nsec = e_ctime e /\ mk_time msec mnsec = e_mtime e /\
    fixed_ok hs (entry_fixed sec nsec msec mnsec e) /\ e_stage e < 4 /\ nonul (e_name e) = true /\
    encode_entry hs ver last e = Ok (entry_bytes hs ver last (entry_fixed sec nsec msec mnsec e) (e_ita e) (e_skip e) (e_name e)).
Proof.
  intros Hw Hver. unfold wf_entry, u32ok in Hw. rewrite !andb_true_iff, !N.ltb_lt, Nat.eqb_eq in Hw.
  destruct Hw as (((((((((((Hname & Hst) & Hct) & Hmt) & Hdev) & Hino) & Hmode) & Huid) & Hgid) & Hsize) & Hhash) & _).
  destruct (time_roundtrip _ Hct) as (sec & nsec & Ec & Hsec & Hnsec & Mc).
  destruct (time_roundtrip _ Hmt) as (msec & mnsec & Em & Hmsec & Hmnsec & Mm).
  exists sec, nsec, msec, mnsec. do 4 (split; [assumption|]).
  split; [|split; [exact Hst|split; [exact Hname|]]].
  - unfold fixed_ok, entry_fixed. cbn [f_sec f_nsec f_msec f_mnsec f_dev f_ino f_mode f_uid f_gid f_size f_hash]. tauto.
  - unfold encode_entry. rewrite Ec, Em, (N.mod_small _ 4) by exact Hst. cbv zeta.
    change (if N.of_nat (List.length (e_name e)) <? nameMask then N.of_nat (List.length (e_name e)) else nameMask)
      with (name_len_field (e_name e)).
    rewrite flag_bytes_go. unfold entry_bytes, enc_fixed, entry_fixed, name_part.
    cbn [f_sec f_nsec f_msec f_mnsec f_dev f_ino f_mode f_uid f_gid f_size f_hash f_flags].
    destruct (ver_cases ver Hver) as [[-> _] | [-> ->]]; rewrite <- !app_assoc; reflexivity.
Qed.

Theorem entry_roundtrip hs ver last e rest :
  wf_entry hs e = true -> ver = 2 \/ ver = 3 \/ ver = 4 -> last_ok last ->
  exists b, encode_entry hs ver last e = Ok b /\ read_entry hs ver last (b ++ rest) = Ok (e, rest) /\ (1 <= List.length b)%nat.
Proof.
  intros Hw Hver Hlast.
  destruct (encode_entry_bytes hs ver last e Hw Hver) as (sec & nsec & msec & mnsec & _ & _ & Mc & Mm & Hf & Hst & Hn & ->).
  eexists. split; [reflexivity|]. split; [|apply entry_bytes_pos].
  rewrite (read_entry_bytes hs ver last _ (e_stage e) false) by (assumption || reflexivity).
  cbn [entry_fixed f_sec f_nsec f_msec f_mnsec f_dev f_ino f_mode f_uid f_gid f_size f_hash].
  rewrite Mc, Mm. destruct e; reflexivity.
Qed.

Lemma wf_entry_name_len hs e : wf_entry hs e = true -> last_ok (Some (e_name e)).
Proof. unfold wf_entry. intros Hw. apply andb_true_iff in Hw as [_ Hw]. now apply N.ltb_lt. Qed.

Lemma read_entries_0 hs fuel ver last b acc : read_entries hs fuel ver 0 last b acc = Ok (rev acc, b).
Proof. destruct fuel; reflexivity. Qed.

Lemma read_entries_S hs fuel ver n last b acc :
  read_entries hs (S fuel) ver (N.of_nat (S n)) last b acc =
  match read_entry hs ver last b with
  | Err x => Err x
  | Ok (e, b') => read_entries hs fuel ver (N.of_nat n) (Some (e_name e)) b' (e :: acc)
  end.
Proof.
  cbn [read_entries]. rewrite (proj2 (N.eqb_neq _ 0)) by lia.
  replace (N.of_nat (S n) - 1) with (N.of_nat n) by lia. reflexivity.
Qed.

Lemma encode_entries_ok hs ver : ver = 2 \/ ver = 3 \/ ver = 4 ->
  forall l last, forallb (wf_entry hs) l = true ->
  exists b, encode_entries hs ver last l = Ok b /\ (List.length l <= List.length b)%nat.
Proof.
  intros Hver. induction l as [|e l IH]; intros last Hw; cbn [encode_entries].
  - exists []. split; [reflexivity|cbn; lia].
  - cbn [forallb] in Hw. apply andb_true_iff in Hw as [He Hl].
    destruct (encode_entry_bytes hs ver last e He Hver) as (sec & nsec & msec & mnsec & _ & _ & _ & _ & _ & _ & _ & ->).
    destruct (IH (Some (e_name e)) Hl) as (b' & -> & Lb').
    eexists. split; [reflexivity|]. rewrite app_length.
    pose proof (entry_bytes_pos hs ver last (entry_fixed sec nsec msec mnsec e) (e_ita e) (e_skip e) (e_name e)).
    cbn [List.length]. lia.
Qed.

Lemma read_entries_encoded hs ver : ver = 2 \/ ver = 3 \/ ver = 4 ->
  forall l last b rest acc fuel,
  forallb (wf_entry hs) l = true -> last_ok last -> encode_entries hs ver last l = Ok b -> (List.length l < fuel)%nat ->
  read_entries hs fuel ver (N.of_nat (List.length l)) last (b ++ rest) acc = Ok (rev acc ++ l, rest).
Proof.
  intros Hver. induction l as [|e l IH]; intros last b rest acc fuel Hw Hlast Eb Hfuel; cbn [encode_entries] in Eb.
  - injection Eb as <-. rewrite read_entries_0, app_nil_r. reflexivity.
  - cbn [forallb] in Hw. apply andb_true_iff in Hw as [He Hl].
    destruct fuel as [|fuel]; [cbn in Hfuel; lia|].
    destruct (encode_entries hs ver (Some (e_name e)) l) as [b2|] eqn:E2.
    2:{ destruct (encode_entry hs ver last e); discriminate. }
    destruct (entry_roundtrip hs ver last e (b2 ++ rest) He Hver Hlast) as (b1 & E1 & R1 & _).
    rewrite E1 in Eb. injection Eb as <-.
    cbn [List.length]. rewrite read_entries_S, <- app_assoc, R1.
    rewrite (IH _ b2) by (try apply wf_entry_name_len with hs; cbn [List.length] in Hfuel; auto; lia).
    cbn [rev]. rewrite <- app_assoc. reflexivity.
Qed.

Lemma insert_entry_forallb (P : entry -> bool) x l :
  P x = true -> forallb P l = true -> forallb P (insert_entry x l) = true.
Proof.
  intros Hx. induction l as [|y l IH]; cbn; intros Hl; [now rewrite Hx|].
  apply andb_true_iff in Hl as [Hy Hl]. destruct (entry_less y x); cbn; [rewrite Hy, IH by assumption|rewrite Hx, Hy, Hl]; reflexivity.
Qed.

Lemma sort_entries_forallb P l : forallb P l = true -> forallb P (sort_entries l) = true.
Proof.
  unfold sort_entries. induction l as [|x l IH]; cbn; intros Hl; [reflexivity|].
  apply andb_true_iff in Hl as [Hx Hl]. apply insert_entry_forallb; auto.
Qed.

Lemma insert_entry_length x l : List.length (insert_entry x l) = S (List.length l).
Proof. induction l as [|y l IH]; cbn; [reflexivity|]. destruct (entry_less y x); cbn; now rewrite ?IH. Qed.

Lemma sort_entries_length l : List.length (sort_entries l) = List.length l.
Proof. unfold sort_entries. induction l as [|x l IH]; cbn; [reflexivity|]. now rewrite insert_entry_length, IH. Qed.

Lemma bytes_eqb_refl a : bytes_eqb a a = true.
Proof. induction a; cbn; [reflexivity|]. now rewrite N.eqb_refl. Qed.

Lemma fit_length hs x : List.length (fit hs x) = hs.
Proof. unfold fit. rewrite firstn_length, app_length, zeros_length. lia. Qed.

Lemma fit_id hs x : List.length x = hs -> fit hs x = x.
Proof. intros <-. apply firstn_length_app. Qed.

Lemma is_zero_zeros n : is_zero (zeros n) = true.
Proof. induction n; cbn; auto. Qed.

Lemma firstn_app_all {A} (a b : list A) : firstn (List.length (a ++ b) - List.length b) (a ++ b) = a.
Proof. rewrite app_length, Nat.add_sub. apply firstn_length_app. Qed.

(* readChecksum on the trailer alone: a null trailer or skip_hash is accepted, otherwise the
   trailer has to be the checksum of everything before it *)
Lemma read_trailer hs H fuel sk body tr idx :
  List.length tr = hs -> (is_zero tr = false -> tr = fit hs (H body)) ->
  read_extensions hs H fuel sk (body ++ tr) tr idx = Ok idx.
Proof.
  intros Htl Htr.
  assert (E : read_extensions hs H fuel sk (body ++ tr) tr idx =
              match take hs tr with
              | None => Err EEof
              | Some (h, _) =>
                if (is_zero h || sk)%bool then Ok idx
                else if bytes_eqb h (fit hs (H (firstn (List.length (body ++ tr) - List.length tr) (body ++ tr)))) then Ok idx
                else Err EInvalidChecksum
              end).
  { destruct fuel; cbn [read_extensions]; now rewrite (proj2 (Nat.ltb_lt _ _)) by lia. }
  rewrite E, take_all, firstn_app_all by exact Htl.
  destruct (is_zero tr) eqn:Ez; [reflexivity|]. destruct sk; [reflexivity|].
  cbn [orb]. now rewrite <- Htr, bytes_eqb_refl.
Qed.

Lemma encode_ok hs H skip ver entries :
  ver = 2 \/ ver = 3 \/ ver = 4 -> forallb (wf_entry hs) entries = true ->
  exists b, encode_entries hs ver None (sort_entries entries) = Ok b /\
            (List.length entries <= List.length b)%nat /\
            let body := DIRC ++ u32 (ver mod 4294967296) ++ u32 (N.of_nat (List.length entries) mod 4294967296) ++ b in
            encode hs H skip ver entries = Ok (body ++ (if skip then zeros hs else fit hs (H body))).
Proof.
  intros Hver Hw.
  destruct (encode_entries_ok hs ver Hver (sort_entries entries) None (sort_entries_forallb _ _ Hw)) as (b & Eb & Lb).
  exists b. rewrite sort_entries_length in Lb. split; [exact Eb|]. split; [exact Lb|].
  unfold encode, encode_body. rewrite Eb.
  now destruct Hver as [-> | [-> | ->]].
Qed.

Theorem roundtrip hs H skip sk ver entries :
  ver = 2 \/ ver = 3 \/ ver = 4 ->
  forallb (wf_entry hs) entries = true ->
  N.of_nat (List.length entries) < 4294967296 ->
  exists file, encode hs H skip ver entries = Ok file /\
               decode hs H sk file = Ok (mkIndex ver (sort_entries entries) None None None).
Proof.
  intros Hver Hw Hcount.
  destruct (encode_ok hs H skip ver entries Hver Hw) as (b & Eb & Lb & Efile). cbv zeta in Efile.
  eexists. split; [exact Efile|].
  destruct (ver_range ver Hver) as [Hv Hrange].
  rewrite !N.mod_small by assumption.
  set (body := DIRC ++ u32 ver ++ u32 (N.of_nat (List.length entries)) ++ b).
  set (trailer := if skip then _ else _).
  unfold decode. unfold body at 1. rewrite <- !app_assoc.
  rewrite (take_app_n 4 DIRC) by reflexivity. cbn [bytes_eqb DIRC N.eqb Pos.eqb andb negb].
  rewrite !get_u32_u32, Hrange by assumption.
  rewrite <- (sort_entries_length entries) at 1.
  rewrite (read_entries_encoded hs ver Hver _ None b); [|exact (sort_entries_forallb _ _ Hw)|exact I|exact Eb|].
  2:{ rewrite sort_entries_length, app_length. lia. }
  (* no extension: only the trailer is left *)
  apply read_trailer; unfold trailer; destruct skip; auto using zeros_length, fit_length.
  rewrite is_zero_zeros. discriminate.
Qed.

(* the decoder before the repair ranged over a Go map: the order in which the present
   stages receive the stored object names was arbitrary.  [order] is that iteration order. *)
Fixpoint sort_stages (l : list (N * bytes)) : list (N * bytes) :=
  match l with
  | [] => []
  | x :: r => (fix ins (y : N * bytes) (s : list (N * bytes)) :=
                 match s with [] => [y] | z :: t => if fst y <=? fst z then y :: s else z :: ins y t end) x (sort_stages r)
  end.
Definition reuc_hashes_maporder (hs : nat) (order : list N) (b : bytes) : option (res (list (N * bytes) * bytes)) :=
  match read_reuc_hashes hs order b [] with
  | Some (Ok (l, r)) => Some (Ok (sort_stages l, r))
  | x => x
  end.

Lemma reuc_maporder_refuted :
  exists order1 order2 data,
    reuc_hashes_maporder 2 order1 data <> reuc_hashes_maporder 2 order2 data /\
    reuc_hashes_maporder 2 order1 data = read_reuc_hashes 2 [1; 2] data [].
Proof. exists [1; 2], [2; 1], [10; 11; 20; 21]. split; vm_compute; [discriminate|reflexivity]. Qed.

Lemma reuc_hash1 hs s o tail acc present : List.length o = hs -> (0 < hs)%nat ->
  read_reuc_hashes hs (s :: present) (o ++ tail) acc = read_reuc_hashes hs present tail ((s, o) :: acc).
Proof.
  intros Ho Hhs. cbn [read_reuc_hashes]. rewrite (take_app_n hs) by exact Ho.
  destruct o; [cbn in Ho; lia|reflexivity].
Qed.

(* in stage order the k-th present stage gets the k-th stored name *)
Lemma reuc_stage_order hs : forall present (names : list bytes) rest acc,
  List.length present = List.length names -> (0 < hs)%nat ->
  Forall (fun n => List.length n = hs) names ->
  read_reuc_hashes hs present (concat names ++ rest) acc = Some (Ok (rev acc ++ combine present names, rest)).
Proof.
  induction present as [|s present IH]; intros [|n names] rest acc Hlen Hhs Hn; try discriminate.
  - cbn. now rewrite app_nil_r.
  - inversion Hn as [|? ? Hn1 Hn2]; subst.
    cbn [concat]. rewrite <- app_assoc, reuc_hash1, IH by (cbn in Hlen; auto; lia).
    cbn [rev combine]. rewrite <- app_assoc. reflexivity.
Qed.

(* the constants of the model are the constants of the source (Gen/C12.v is regenerated
   from plumbing/format/index/decoder.go and utils/binary/read.go on every run) *)
Lemma gen_constants :
  index_entryHeaderLength = Z.of_N entryHeaderLength /\ index_entryHeaderLength = 42%Z /\
  index_entryExtended = Z.of_N entryExtended /\ index_entryExtended = (2 ^ 14)%Z /\
  index_nameMask = Z.of_N nameMask /\ (index_nameMask + 1 = 4096)%Z /\
  index_intentToAddMask = Z.of_N intentToAddMask /\ index_intentToAddMask = (2 ^ 13)%Z /\
  index_skipWorkTreeMask = Z.of_N skipWorkTreeMask /\ index_skipWorkTreeMask = (2 ^ 14)%Z /\
  binary_maskContinue = 128%Z /\ binary_maskLength = 127%Z /\ (2 ^ binary_lengthBits = 128)%Z.
Proof. vm_compute. repeat split; reflexivity. Qed.
