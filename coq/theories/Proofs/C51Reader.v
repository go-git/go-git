(* Proofs/C51Reader.v — the reader model accepts what the encoder model writes: big-endian codec
   round trip and byte-slice algebra, read_toc on a table laid out as the encoder lays it out
   (mkT), and reader_accepts(_strong): open_file succeeds on encode es ++ trailer and finds every
   declared chunk at its offset with its size. *)
From Coq Require Import List NArith ZArith Bool Lia ZifyBool ZifyN ZifyNat.
From GoGit Require Import Base.Out Gen.C51 Model.CommitGraph Proofs.C51 Proofs.C51Records.
Import ListNotations.
Local Open Scope N_scope.

Lemma unbe_be : forall w x acc, unbe (be w x) acc = acc * 2 ^ (8 * N.of_nat w) + x mod 2 ^ (8 * N.of_nat w).
Proof.
  induction w as [|w IH]; intros x acc.
  - simpl. rewrite N.mod_1_r. lia.
  - cbn [be unbe]. rewrite IH. rewrite N.shiftr_div_pow2.
    replace (8 * N.of_nat (S w)) with (8 * N.of_nat w + 8) by lia.
    rewrite N.pow_add_r. change (2 ^ 8) with 256.
    set (P := 2 ^ (8 * N.of_nat w)).
    assert (HP : P <> 0) by (unfold P; apply N.pow_nonzero; lia).
    rewrite (N.mod_mul_r x P 256) by (auto; lia). lia.
Qed.

Lemma unbe_be32 : forall x, x < two32 -> unbe (be32 x) 0 = x.
Proof.
  intros x H. unfold be32. rewrite unbe_be. change (2 ^ (8 * N.of_nat 4)) with two32.
  rewrite N.mod_mod by (unfold two32; lia). rewrite N.mod_small by exact H. lia.
Qed.

Lemma unbe_be64 : forall x, x < two64 -> unbe (be64 x) 0 = x.
Proof.
  intros x H. unfold be64. rewrite unbe_be. change (2 ^ (8 * N.of_nat 8)) with two64.
  rewrite N.mod_mod by (unfold two64; lia). rewrite N.mod_small by exact H. lia.
Qed.

Lemma slice_app : forall (pre body rest : bytes),
  slice (pre ++ body ++ rest) (Z.of_nat (List.length pre)) (List.length body) = Some body.
Proof.
  intros pre body rest. unfold slice.
  assert (E1 : (Z.of_nat (List.length pre) <? 0)%Z = false) by lia.
  assert (E2 : (Z.of_nat (List.length (pre ++ body ++ rest)) <? Z.of_nat (List.length pre) + Z.of_nat (List.length body))%Z = false).
  { rewrite !app_length. lia. }
  rewrite E1, E2. simpl. rewrite Nat2Z.id.
  rewrite skipn_app, skipn_all, Nat.sub_diag. simpl.
  rewrite firstn_app, firstn_all, Nat.sub_diag. simpl. now rewrite app_nil_r.
Qed.

Lemma slice_at : forall (file pre body rest : bytes) off len,
  file = pre ++ body ++ rest -> off = Z.of_nat (List.length pre) -> len = List.length body ->
  slice file off len = Some body.
Proof. intros file pre body rest off len -> -> ->. apply slice_app. Qed.

(* a big-endian field of w bytes holding values below M, alone and as the i-th of a run *)
Section Field.
Variables (enc : N -> bytes) (w : nat) (M : N).
Hypothesis enc_length : forall x, List.length (enc x) = w.
Hypothesis unbe_enc : forall x, x < M -> unbe (enc x) 0 = x.

Lemma rd_app : forall (pre rest : bytes) x, x < M ->
  rd (pre ++ enc x ++ rest) (Z.of_nat (List.length pre)) w = Ok x.
Proof. intros pre rest x H. unfold rd. rewrite <- (enc_length x), slice_app. now rewrite unbe_enc. Qed.

Lemma rd_at : forall (file pre rest : bytes) off x,
  file = pre ++ enc x ++ rest -> off = Z.of_nat (List.length pre) -> x < M -> rd file off w = Ok x.
Proof. intros file pre rest off x -> -> H. now apply rd_app. Qed.

Lemma rd_word : forall (pre rest : bytes) (l : list N) i off,
  (i < List.length l)%nat -> nth i l 0 < M -> off = (Z.of_nat (List.length pre) + Z.of_nat (w * i))%Z ->
  rd (pre ++ flat_map enc l ++ rest) off w = Ok (nth i l 0).
Proof.
  intros pre rest l i off Hi Hx ->.
  apply (rd_at _ (pre ++ flat_map enc (firstn i l)) (flat_map enc (skipn (S i) l) ++ rest)); [| |exact Hx].
  - rewrite (flat_map_split N enc 0 l i Hi) at 1. now rewrite <- !app_assoc.
  - rewrite app_length, (flat_map_length_const N enc w _ enc_length), firstn_length. lia.
Qed.
End Field.

Definition rd32_app := rd_app be32 4 two32 be32_length unbe_be32.
Definition rd64_app := rd_app be64 8 two64 be64_length unbe_be64.
Definition rd32_at := rd_at be32 4 two32 be32_length unbe_be32.
Definition rd64_at := rd_at be64 8 two64 be64_length unbe_be64.
Definition rd32_word := rd_word be32 4 two32 be32_length unbe_be32.
Definition rd64_word := rd_word be64 8 two64 be64_length unbe_be64.

Definition tent := (bytes * nat * N)%type.      (* signature, chunk kind, offset *)
Definition ent_bytes (e : tent) : bytes := fst (fst e) ++ be64 (snd e).
Definition ent_ct (e : tent) : nat := snd (fst e).
Definition ent_off (e : tent) : Z := Z.of_N (snd e).

(* what read_toc demands of the entries T when the previous offset is prev, the terminator's is
   upper and the signatures in seen have been met *)
Fixpoint toc_ok (prev upper : Z) (seen : list bytes) (T : list tent) : Prop :=
  match T with
  | [] => True
  | e :: r =>
    List.length (fst (fst e)) = 4%nat /\ chunk_type (fst (fst e)) = Some (ent_ct e) /\ ent_ct e <> 9%nat /\
    snd e < 9223372036854775808 /\ (prev <= ent_off e <= upper)%Z /\
    existsb (bytes_eqb (fst (fst e))) seen = false /\
    toc_ok (ent_off e) upper (fst (fst e) :: seen) r
  end.

Lemma i64_small : forall x, x < 9223372036854775808 -> i64_of_N x = Z.of_N x.
Proof.
  intros x H. unfold i64_of_N. rewrite N.mod_small by (unfold two64; lia).
  destruct (Z.of_N x <? 9223372036854775808)%Z eqn:E; [reflexivity | lia].
Qed.

Lemma u64_small : forall z, (0 <= z < Z.of_N two64)%Z -> u64_of_Z z = Z.to_N z.
Proof. intros z H. unfold u64_of_Z. now rewrite Z.mod_small. Qed.

(* 9 is the kind of the terminating zero chunk, which read_toc refuses inside the table *)
Lemma not9 : forall (A : Type) ct (a b : A), ct <> 9%nat -> match ct with 9%nat => a | _ => b end = b.
Proof. intros A ct a b H. do 9 (destruct ct as [|ct]; [reflexivity|]). destruct ct; [now exfalso | reflexivity]. Qed.

Lemma toc_read : forall T file pre rest i prev upper seen offs assigned,
  Z.of_nat (List.length pre) = (8 + 12 * Z.of_nat i)%Z ->
  file = pre ++ flat_map ent_bytes T ++ rest ->
  toc_ok prev upper seen T ->
  read_toc file (List.length T) i prev upper seen offs assigned =
  Ok (fold_left (fun o e => set_nth (ent_ct e) (ent_off e) o) T offs,
      assigned ++ map (fun e => (ent_ct e, ent_off e)) T).
Proof.
  induction T as [|e r IH]; intros file pre rest i prev upper seen offs assigned Hpre Hfile Hok.
  - simpl. now rewrite app_nil_r.
  - destruct e as [[s ct] off]. cbn [toc_ok] in Hok. unfold ent_ct, ent_off in Hok. cbn [fst snd] in Hok.
    destruct Hok as [Hs [Hct [Hne [Hoff [[Hlo Hhi] [Hseen Hrest]]]]]].
    cbn [List.length read_toc].
    assert (F : file = pre ++ s ++ be64 off ++ flat_map ent_bytes r ++ rest).
    { rewrite Hfile. cbn [flat_map]. unfold ent_bytes at 1. cbn [fst snd]. now rewrite <- !app_assoc. }
    rewrite (slice_at file pre s _ _ 4 F) by (lia || now rewrite Hs).
    assert (R1 : rd file (8 + 12 * Z.of_nat i + 4) 8 = Ok off).
    { apply (rd64_at _ (pre ++ s) (flat_map ent_bytes r ++ rest)); [rewrite F; now rewrite <- app_assoc | | unfold two64; lia].
      rewrite app_length. lia. }
    rewrite R1. rewrite (i64_small off Hoff).
    assert (C1 : ((upper <? Z.of_N off) || (Z.of_N off <? prev))%Z = false) by lia.
    rewrite C1, Hseen, Hct.
    rewrite (not9 _ ct _ _ Hne).
    rewrite (IH file (pre ++ s ++ be64 off) rest (S i) (Z.of_N off) upper (s :: seen)
               (set_nth ct (Z.of_N off) offs) (assigned ++ [(ct, Z.of_N off)])).
    + cbn [fold_left map]. unfold ent_ct at 1 3, ent_off at 1 3. cbn [fst snd]. now rewrite <- app_assoc.
    + rewrite !app_length, be64_length, Hs. lia.
    + rewrite F. now rewrite <- !app_assoc.
    + exact Hrest.
Qed.

Lemma set_nth_length : forall (A : Type) i (x : A) l, List.length (set_nth i x l) = List.length l.
Proof. intros. unfold set_nth. rewrite map_length, combine_length, seq_length. apply Nat.min_id. Qed.

Lemma set_nth_nth : forall i (x : Z) l j, (j < List.length l)%nat ->
  nth j (set_nth i x l) 0%Z = if Nat.eqb j i then x else nth j l 0%Z.
Proof.
  intros i x l j Hj. unfold set_nth.
  set (f := fun kx : nat * Z => if Nat.eqb (fst kx) i then x else snd kx).
  rewrite (nth_indep _ 0%Z (f (O, 0%Z))).
  - rewrite map_nth. rewrite combine_nth by (now rewrite seq_length).
    rewrite seq_nth by exact Hj. reflexivity.
  - rewrite map_length, combine_length, seq_length, Nat.min_id. exact Hj.
Qed.

Lemma fold_set_length : forall (T : list tent) offs,
  List.length (fold_left (fun o e => set_nth (ent_ct e) (ent_off e) o) T offs) = List.length offs.
Proof.
  induction T as [|e r IH]; intros offs; [reflexivity|]. simpl. rewrite IH. apply set_nth_length.
Qed.

Lemma fold_set_notin : forall (T : list tent) offs ct, (ct < List.length offs)%nat ->
  ~ In ct (map ent_ct T) ->
  nth ct (fold_left (fun o e => set_nth (ent_ct e) (ent_off e) o) T offs) 0%Z = nth ct offs 0%Z.
Proof.
  induction T as [|e r IH]; intros offs ct Hlt Hn; [reflexivity|]. simpl in *.
  rewrite IH; [| now rewrite set_nth_length | tauto].
  rewrite set_nth_nth by exact Hlt.
  destruct (Nat.eqb ct (ent_ct e)) eqn:E; [|reflexivity]. apply Nat.eqb_eq in E. exfalso. apply Hn. now left.
Qed.

Lemma fold_set_in : forall (T : list tent) offs e, NoDup (map ent_ct T) -> In e T ->
  (ent_ct e < List.length offs)%nat ->
  nth (ent_ct e) (fold_left (fun o e => set_nth (ent_ct e) (ent_off e) o) T offs) 0%Z = ent_off e.
Proof.
  induction T as [|e0 r IH]; intros offs e Hnd Hin Hlt; [contradiction|]. simpl in *.
  inversion Hnd as [|? ? Hn Hr]; subst. destruct Hin as [Hin|Hin].
  - subst e0. rewrite fold_set_notin; [| now rewrite set_nth_length | exact Hn].
    rewrite set_nth_nth by exact Hlt. now rewrite Nat.eqb_refl.
  - apply IH; auto. now rewrite set_nth_length.
Qed.

Lemma assign_sizes_length : forall assigned term sizes,
  List.length (assign_sizes assigned term sizes) = List.length sizes.
Proof.
  induction assigned as [|[ct o] r IH]; intros term sizes; [reflexivity|]. simpl. rewrite IH. apply set_nth_length.
Qed.

Lemma assign_sizes_notin : forall assigned term sizes ct, (ct < List.length sizes)%nat ->
  ~ In ct (map fst assigned) -> nth ct (assign_sizes assigned term sizes) 0%Z = nth ct sizes 0%Z.
Proof.
  induction assigned as [|[c o] r IH]; intros term sizes ct Hlt Hn; [reflexivity|]. simpl in *.
  rewrite IH; [| now rewrite set_nth_length | tauto].
  rewrite set_nth_nth by exact Hlt.
  destruct (Nat.eqb ct c) eqn:E; [|reflexivity]. apply Nat.eqb_eq in E. exfalso. apply Hn. now left.
Qed.

(* the encoder's table as reader entries: consecutive offsets *)
Definition ct_of (s : bytes) : nat := match chunk_type s with Some c => c | None => O end.

Fixpoint mkT (tbl : list (bytes * N)) (off : N) : list tent :=
  match tbl with
  | [] => []
  | (s, sz) :: r => (s, ct_of s, off) :: mkT r (off + sz)
  end.

Fixpoint total (tbl : list (bytes * N)) : N :=
  match tbl with [] => 0 | (_, sz) :: r => sz + total r end.

Lemma chunk_headers_mkT : forall tbl off,
  chunk_headers tbl off = flat_map ent_bytes (mkT tbl off) ++ sig_ZERO ++ be64 (off + total tbl).
Proof.
  induction tbl as [|[s sz] r IH]; intros off.
  - simpl. now rewrite N.add_0_r.
  - cbn [chunk_headers mkT flat_map total]. unfold ent_bytes at 1. cbn [fst snd]. rewrite IH.
    rewrite <- !app_assoc. now rewrite N.add_assoc.
Qed.

Lemma mkT_cts : forall tbl off, map ent_ct (mkT tbl off) = map (fun t => ct_of (fst t)) tbl.
Proof. induction tbl as [|[s sz] r IH]; intros off; [reflexivity|]. simpl. now rewrite IH. Qed.

Lemma mkT_length : forall tbl off, List.length (mkT tbl off) = List.length tbl.
Proof. induction tbl as [|[s sz] r IH]; intros off; [reflexivity|]. simpl. now rewrite IH. Qed.

Lemma mkT_in_tbl : forall tbl off s c o, In (s, c, o) (mkT tbl off) -> exists z, In (s, z) tbl.
Proof.
  induction tbl as [|[s1 z1] r IH]; intros off s c o Hin; [contradiction|].
  destruct Hin as [[= <- _ _]|Hin]; [eexists; now left|].
  destruct (IH _ _ _ _ Hin) as [z Hz]. exists z. now right.
Qed.

Lemma mkT_in_off : forall tbl off s sz, In (s, sz) tbl -> exists o, In (s, ct_of s, o) (mkT tbl off) /\ off <= o.
Proof.
  induction tbl as [|[s1 z1] r IH]; intros off s sz Hin; [contradiction|]. cbn [mkT].
  destruct Hin as [[= -> ->]|Hin]; [exists off; split; [now left|lia]|].
  destruct (IH (off + z1) s sz Hin) as [o [H1 H2]]. exists o. split; [now right|lia].
Qed.

Lemma assign_sizes_mkT : forall tbl off sizes s sz,
  NoDup (map (fun t => ct_of (fst t)) tbl) -> In (s, sz) tbl ->
  (forall t, In t tbl -> (ct_of (fst t) < List.length sizes)%nat) ->
  nth (ct_of s)
      (assign_sizes (map (fun e => (ent_ct e, ent_off e)) (mkT tbl off)) (Z.of_N (off + total tbl)) sizes) 0%Z
  = Z.of_N sz.
Proof.
  induction tbl as [|[s0 sz0] r IH]; intros off sizes s sz Hnd Hin Hlt; [contradiction|].
  cbn [mkT map assign_sizes total]. unfold ent_ct at 1, ent_off at 1. cbn [fst snd].
  inversion Hnd as [|? ? Hn Hr]; subst.
  (* where the first chunk ends: at the next entry's offset, or at the terminator's *)
  set (e := match map (fun e0 => (ent_ct e0, ent_off e0)) (mkT r (off + sz0)) with
            | (_, o') :: _ => o' | [] => Z.of_N (off + (sz0 + total r)) end).
  assert (He : e = Z.of_N (off + sz0)).
  { unfold e. destruct r as [|[s1 sz1] r']; simpl; [f_equal; lia | reflexivity]. }
  rewrite He. replace (off + (sz0 + total r)) with (off + sz0 + total r) by lia.
  destruct Hin as [Hin|Hin].
  - injection Hin as E1 E2. subst s0 sz0.
    rewrite assign_sizes_notin.
    + rewrite set_nth_nth by (apply (Hlt (s, sz)); now left). rewrite Nat.eqb_refl. unfold ent_off. cbn [snd]. lia.
    + rewrite set_nth_length. apply (Hlt (s, sz)). now left.
    + rewrite map_map. simpl. rewrite mkT_cts. exact Hn.
  - apply IH; auto.
    + intros t Ht. rewrite set_nth_length. apply Hlt. now right.
Qed.

Lemma read_fanout_spec : forall l pre rest,
  (forall x, In x l -> x <= 2147483647) ->
  read_fanout (pre ++ flat_map be32 l ++ rest) (Z.of_nat (List.length pre)) (List.length l) = Ok l.
Proof.
  induction l as [|x r IH]; intros pre rest H; [reflexivity|].
  cbn [List.length read_fanout flat_map]. rewrite <- app_assoc.
  rewrite rd32_app by (pose proof (H x (or_introl eq_refl)); unfold two32; lia).
  assert (C : 2147483647 <? x = false) by (pose proof (H x (or_introl eq_refl)); lia).
  rewrite C.
  replace (Z.of_nat (List.length pre) + 4)%Z with (Z.of_nat (List.length (pre ++ be32 x)))
    by (rewrite app_length, be32_length; lia).
  rewrite (app_assoc pre (be32 x)), IH; [reflexivity|]. intros y Hy. apply H. now right.
Qed.

Definition sig_ok (t : bytes * N) : Prop :=
  List.length (fst t) = 4%nat /\ chunk_type (fst t) = Some (ct_of (fst t)) /\ ct_of (fst t) <> 9%nat /\ (ct_of (fst t) < 9)%nat.

Lemma chunk_table_facts : forall es n,
  Forall sig_ok (chunk_table es n) /\ NoDup (map fst (chunk_table es n)) /\
  NoDup (map (fun t => ct_of (fst t)) (chunk_table es n)) /\
  In (sig_OIDF, 4 * lenFanout) (chunk_table es n) /\ In (sig_OIDL, n * hashSize) (chunk_table es n) /\
  In (sig_CDAT, n * (hashSize + szCommitData)) (chunk_table es n) /\
  (has_gen2 es = true -> In (sig_GDA2, n * 4) (chunk_table es n)) /\
  (has_gen2 es = false -> ~ In 3%nat (map (fun t => ct_of (fst t)) (chunk_table es n))) /\
  (1 <= List.length (chunk_table es n) <= 6)%nat /\
  exists r, chunk_table es n = (sig_OIDF, 4 * lenFanout) :: r.
Proof.
  intros es n.
  assert (S : forall s, In s [sig_OIDF; sig_OIDL; sig_CDAT; sig_EDGE; sig_GDA2; sig_GDO2] -> forall z, sig_ok (s, z)).
  { intros s Hs z. unfold sig_ok. simpl in Hs.
    repeat (destruct Hs as [Hs|Hs]; [subst s; vm_compute; repeat split; try discriminate; lia|]). contradiction. }
  (* the chunk kinds of each of the eight possible tables are distinct, hence so are the signatures *)
  assert (Fct : NoDup (map (fun t => ct_of (fst t)) (chunk_table es n))).
  { unfold chunk_table. destruct (0 <? extra_edges_count es), (has_gen2 es), (0 <? overflow_count es);
      vm_compute; repeat constructor; simpl; lia. }
  split; [|split; [|split; [exact Fct|]]].
  - unfold chunk_table. destruct (0 <? extra_edges_count es), (has_gen2 es), (0 <? overflow_count es);
      repeat constructor; apply S; simpl; tauto.
  - apply (NoDup_map_inv ct_of). rewrite map_map. exact Fct.
  - unfold chunk_table. cbn [app]. split; [simpl; tauto|]. split; [simpl; tauto|]. split; [simpl; tauto|].
    split; [intros ->; apply in_cons, in_cons, in_cons, in_or_app; right; now left|].
    split; [intros ->; destruct (0 <? extra_edges_count es); vm_compute; lia|].
    split; [|eexists; reflexivity].
    destruct (0 <? extra_edges_count es), (has_gen2 es), (0 <? overflow_count es); simpl; lia.
Qed.

Lemma toc_ok_mkT : forall tbl off prev upper seen,
  Forall sig_ok tbl -> NoDup (map fst tbl) -> (forall t, In t tbl -> ~ In (fst t) seen) ->
  (prev <= Z.of_N off)%Z -> off + total tbl <= upper -> upper < 9223372036854775808 ->
  toc_ok prev (Z.of_N upper) seen (mkT tbl off).
Proof.
  induction tbl as [|[s sz] r IH]; intros off prev upper seen Hs Hnd Hseen Hprev Hup Hlt; [exact I|].
  cbn [mkT toc_ok total] in *. unfold ent_ct, ent_off. cbn [fst snd].
  inversion Hs as [|? ? [S1 [S2 [S3 S4]]] Hs']; subst. inversion Hnd as [|? ? Hn Hnd']; subst.
  cbn [fst] in *.
  split; [exact S1|]. split; [exact S2|]. split; [exact S3|]. split; [lia|]. split; [lia|]. split.
  - apply existsb_not_in. exact (Hseen (s, sz) (or_introl eq_refl)).
  - apply IH; auto; try lia.
    intros t Ht [E|E].
    + apply Hn. rewrite E. now apply in_map.
    + apply (Hseen t); [now right | exact E].
Qed.

Lemma ents_length : forall tbl off, Forall sig_ok tbl ->
  List.length (flat_map ent_bytes (mkT tbl off)) = (12 * List.length tbl)%nat.
Proof.
  induction tbl as [|[s sz] r IH]; intros off H; [reflexivity|].
  inversion H as [|? ? [S1 _] H']; subst. cbn [mkT flat_map List.length]. unfold ent_bytes at 1. cbn [fst snd] in *.
  rewrite !app_length, be64_length, S1, IH by exact H'. lia.
Qed.

Lemma chunk_headers_length : forall tbl off, Forall sig_ok tbl ->
  List.length (chunk_headers tbl off) = (12 * S (List.length tbl))%nat.
Proof.
  intros tbl off H. rewrite chunk_headers_mkT, app_length, (ents_length tbl off H), app_length, be64_length.
  change (List.length sig_ZERO) with 4%nat. lia.
Qed.

Lemma concat_total : forall payloads tbl, Forall2 payload_ok payloads tbl ->
  N.of_nat (List.length (List.concat payloads)) = total tbl.
Proof.
  intros payloads tbl H. induction H as [|p t ps ts Hp H IH]; [reflexivity|].
  destruct t as [s sz]. unfold payload_ok in Hp. cbn [snd] in Hp. cbn [List.concat total].
  rewrite app_length. lia.
Qed.

Definition wf_file (es : list centry) : Prop :=
  wf_entries es /\
  Forall (fun e => Forall (fun c => c < 256) (e_hash e)) es /\
  N.of_nat (List.length (sorted_of es)) < 2147483648 /\
  (Z.of_nat (List.length (encode es)) < 4611686018427387904)%Z.

Lemma count_le_first_le : forall sorted b, count_le_first sorted b <= N.of_nat (List.length sorted).
Proof.
  intros sorted b'. unfold count_le_first, N.le. rewrite <- Nat2N.inj_compare.
  apply Nat.compare_le_iff, filter_length_le.
Qed.

Lemma fanout_nth : forall sorted c, c < 256 -> nth (N.to_nat c) (fanout_of sorted) 0 = count_le_first sorted c.
Proof.
  intros sorted c Hc. unfold fanout_of.
  rewrite (nth_indep _ 0 (count_le_first sorted (N.of_nat 0))) by (rewrite map_length, seq_length; lia).
  rewrite (map_nth (fun k => count_le_first sorted (N.of_nat k)) (seq 0 256) O (N.to_nat c)).
  rewrite seq_nth by lia. cbn [plus]. now rewrite N2Nat.id.
Qed.

Lemma count_le_first_255 : forall sorted, (forall h, In h sorted -> Forall (fun c => c < 256) h) ->
  count_le_first sorted 255 = N.of_nat (List.length sorted).
Proof.
  intros sorted H. unfold count_le_first. f_equal. f_equal.
  induction sorted as [|h r IH]; [reflexivity|]. simpl.
  assert (E : match h with c :: _ => c <=? 255 | [] => true end = true).
  { destruct h as [|c t]; [reflexivity|]. pose proof (H (c :: t) (or_introl eq_refl)) as Hh.
    inversion Hh; subst. lia. }
  rewrite E. simpl. f_equal. apply IH. intros h0 Hh0. apply H. now right.
Qed.

(* a file laid out as header, table of contents T, terminator, fanout fo, rest: the reads succeed by
   the layout alone; what is left is arithmetic on the offsets and sizes the reader derives from T *)
Lemma open_file_shape : forall k (T : list tent) term fo rest,
  let file := (sig_CGPH ++ [1; 1; k; 0]) ++ flat_map ent_bytes T ++ (sig_ZERO ++ be64 term) ++ flat_map be32 fo ++ rest in
  let offs := fold_left (fun o e => set_nth (ent_ct e) (ent_off e) o) T zeros9 in
  let sizes := assign_sizes (map (fun e => (ent_ct e, ent_off e)) T) (Z.of_N term) zeros9 in
  let n := nth 255 fo 0 in
  k = N.of_nat (List.length T) -> List.length (flat_map ent_bytes T) = (12 * List.length T)%nat ->
  Z.of_nat (List.length file) = (Z.of_N term + 20)%Z -> term < 9223372036854775808 ->
  8 + (k + 1) * 12 + 1024 <= term ->
  toc_ok 0 (Z.of_N term) [] T ->
  List.length fo = 256%nat -> (forall x, In x fo -> x <= 2147483647) ->
  off_of offs 0 = Z.of_N (8 + (k + 1) * 12) -> (0 < off_of offs 1)%Z -> (0 < off_of offs 2)%Z ->
  off_of sizes 0 = 1024%Z -> off_of sizes 1 = (Z.of_N n * 20)%Z -> off_of sizes 2 = (Z.of_N n * 36)%Z ->
  ((0 < off_of offs 3)%Z -> off_of sizes 3 = (Z.of_N n * 4)%Z) ->
  open_file file = Ok (mkFI fo offs sizes (0 <? off_of offs 3)%Z (Z.of_nat (List.length file))).
Proof.
  intros k T term fo rest file offs sizes n Hk Htoc Hlen Hterm Hmin Hok Hfo Hle Ho0 Ho1 Ho2 Hs0 Hs1 Hs2 Hs3.
  set (hd := sig_CGPH ++ [1; 1; k; 0]) in *. set (toc := flat_map ent_bytes T) in *.
  set (P := (hd ++ toc) ++ sig_ZERO ++ be64 term).
  assert (EP : file = P ++ flat_map be32 fo ++ rest) by (unfold file, P; now rewrite <- !app_assoc).
  assert (LP : Z.of_nat (List.length P) = Z.of_N (8 + (k + 1) * 12)).
  { unfold P. rewrite !app_length, Htoc, be64_length. change (List.length hd) with 8%nat.
    change (List.length sig_ZERO) with 4%nat. lia. }
  assert (Hn : n <= 2147483647) by (apply Hle, nth_In; lia).
  assert (S1 : slice file 0 4 = Some sig_CGPH).
  { unfold file, hd. rewrite <- !app_assoc. apply (slice_app [] sig_CGPH). }
  assert (S2 : slice file 4 4 = Some [1; 1; k; 0]).
  { unfold file, hd. rewrite <- !app_assoc. apply (slice_app sig_CGPH [1; 1; k; 0]). }
  assert (Rt : read_toc file (N.to_nat k) 0 0%Z (Z.of_nat (List.length file) - 20)%Z [] zeros9 [] =
               Ok (offs, map (fun e => (ent_ct e, ent_off e)) T)).
  { replace (N.to_nat k) with (List.length T) by lia.
    replace (Z.of_nat (List.length file) - 20)%Z with (Z.of_N term) by lia.
    eapply (toc_read T file hd _ 0 0%Z _ [] zeros9 []); [reflexivity | reflexivity | exact Hok]. }
  assert (S3 : slice file (8 + 12 * Z.of_N k) 4 = Some sig_ZERO).
  { eapply (slice_at _ (hd ++ toc) sig_ZERO);
      [unfold file; now rewrite <- !app_assoc | rewrite app_length, Htoc; change (List.length hd) with 8%nat; lia | reflexivity]. }
  assert (R1 : rd file (8 + 12 * Z.of_N k + 4) 8 = Ok term).
  { eapply (rd64_at _ ((hd ++ toc) ++ sig_ZERO));
      [unfold file; now rewrite <- !app_assoc | | unfold two64; lia].
    rewrite !app_length, Htoc. change (List.length hd) with 8%nat. change (List.length sig_ZERO) with 4%nat. lia. }
  assert (R2 : rd file (off_of offs 0 + 1020) 4 = Ok n).
  { rewrite Ho0, EP, <- LP. apply (rd32_word P rest fo 255); [lia | unfold two32; lia | reflexivity]. }
  assert (R3 : read_fanout file (off_of offs 0) 256 = Ok fo).
  { rewrite Ho0, EP, <- LP, <- Hfo. now apply read_fanout_spec. }
  unfold open_file. rewrite S1. change (bytes_eqb sig_CGPH sig_CGPH) with true. cbn [negb].
  rewrite S2. change (1 =? 1) with true. cbn [negb].
  assert (C1 : (Z.of_nat (List.length file) <? 8 + (Z.of_N k + 1) * 12 + 1024 + 20)%Z = false) by lia.
  rewrite C1, Rt, S3, R1. change (bytes_eqb sig_ZERO sig_ZERO) with true. cbn [negb].
  rewrite (i64_small term Hterm). fold sizes.
  assert (C2 : ((off_of offs 0 <=? 0) || (off_of offs 1 <=? 0) || (off_of offs 2 <=? 0))%Z = false) by lia.
  rewrite C2, Hs0, R2. change (negb (1024 =? 1024)%Z) with false. cbv iota.
  assert (C3 : (2147483647 <? Z.of_N n)%Z = false) by lia.
  rewrite C3, Hs1, Hs2, !Z.eqb_refl. cbn [negb].
  assert (C4 : ((0 <? off_of offs 3)%Z && negb (off_of sizes 3 =? Z.of_N n * 4)%Z) = false).
  { destruct (0 <? off_of offs 3)%Z eqn:E; [|reflexivity]. rewrite Hs3, Z.eqb_refl by lia. reflexivity. }
  rewrite C4, R3. reflexivity.
Qed.

(* beyond reader_accepts below: the reader believes every declared chunk to be at the offset the
   encoder's table assigns to it (mkT), with the declared size *)
Theorem reader_accepts_strong : forall es trailer, wf_file es -> List.length trailer = 20%nat ->
  let tbl := chunk_table es (N.of_nat (List.length (sorted_of es))) in
  let off0 := 8 + (N.of_nat (List.length tbl) + 1) * 12 in
  exists fi, open_file (encode es ++ trailer) = Ok fi /\
    ncommits fi = N.of_nat (List.length (sorted_of es)) /\
    f_gen2 fi = has_gen2 es /\
    f_fanout fi = fanout_of (sorted_of es) /\
    (forall s off, In (s, ct_of s, off) (mkT tbl off0) -> off_of (f_off fi) (ct_of s) = Z.of_N off) /\
    (forall s sz, In (s, sz) tbl -> off_of (f_size fi) (ct_of s) = Z.of_N sz).
Proof.
  intros es trailer [Hwf [Hbytes [Hn Hsz]]] Htr. cbv zeta.
  destruct (encode_layout es Hwf) as [payloads [Henc [Hpay Hfan]]].
  set (sorted := sorted_of es) in *. set (n := N.of_nat (List.length sorted)) in *.
  set (tbl := chunk_table es n) in *. set (k := N.of_nat (List.length tbl)) in *.
  destruct (chunk_table_facts es n) as (Fs & Fnd & Fct & I0 & I1 & I2 & I3 & I3' & Flen & r0 & Er0).
  fold tbl in Fs, Fnd, Fct, I0, I1, I2, I3, I3', Flen, Er0.
  set (off0 := 8 + (k + 1) * 12) in *. set (T := mkT tbl off0). set (term := off0 + total tbl).
  set (fo := fanout_of sorted) in *.
  (* the payload area starts with the fanout *)
  destruct payloads as [|fan ps]; [inversion Hpay as [E|]; rewrite <- E in Flen; simpl in Flen; lia|].
  cbn [nth] in Hfan. subst fan.
  pose proof (concat_total _ tbl Hpay) as Htot. cbn [List.concat] in Htot.
  rewrite app_length, flat_map_be32_length in Htot.
  assert (Hents : List.length (flat_map ent_bytes T) = (12 * List.length tbl)%nat) by (apply ents_length; exact Fs).
  assert (Hfile : encode es ++ trailer = (sig_CGPH ++ [1; 1; k; 0]) ++ flat_map ent_bytes T ++
                    (sig_ZERO ++ be64 term) ++ flat_map be32 fo ++ (List.concat ps ++ trailer)).
  { rewrite Henc, (N.mod_small k 256), (chunk_headers_mkT tbl off0) by (unfold k; lia).
    cbn [List.concat]. now rewrite <- !app_assoc. }
  assert (Hlen : Z.of_nat (List.length (encode es ++ trailer)) = (Z.of_N term + 20)%Z).
  { rewrite Hfile, !app_length, Hents, be64_length, flat_map_be32_length, Htr.
    change (List.length sig_CGPH) with 4%nat. change (List.length sig_ZERO) with 4%nat.
    change (List.length [1; 1; k; 0]) with 4%nat. unfold term, off0, k. lia. }
  assert (Hup : term < 9223372036854775808) by (rewrite app_length, Htr in Hlen; lia).
  assert (Hfo_le : forall x, In x fo -> x <= 2147483647).
  { intros x Hx. unfold fo, fanout_of in Hx. apply in_map_iff in Hx. destruct Hx as [i [<- _]].
    pose proof (count_le_first_le sorted (N.of_nat i)) as H. fold n in H. lia. }
  assert (Hfo255 : nth 255 fo 0 = n).
  { etransitivity; [exact (fanout_nth sorted 255 eq_refl)|]. exact (count_le_first_255 _ (sorted_hash_all es _ Hwf Hbytes)). }
  set (offs := fold_left (fun o e => set_nth (ent_ct e) (ent_off e) o) T zeros9).
  set (sizes := assign_sizes (map (fun e => (ent_ct e, ent_off e)) T) (Z.of_N term) zeros9).
  assert (Hct : forall t, In t tbl -> (ct_of (fst t) < 9)%nat).
  { intros t Ht. rewrite Forall_forall in Fs. now destruct (Fs t Ht) as (_ & _ & _ & H9). }
  assert (Hoffs : forall s off, In (s, ct_of s, off) T -> off_of offs (ct_of s) = Z.of_N off).
  { intros s off Hin. destruct (mkT_in_tbl _ _ _ _ _ Hin) as [z Hz].
    apply (fold_set_in T zeros9 (s, ct_of s, off)); [unfold T; rewrite mkT_cts; exact Fct | exact Hin | exact (Hct _ Hz)]. }
  assert (Hoff_pos : forall s sz, In (s, sz) tbl -> (0 < off_of offs (ct_of s))%Z).
  { intros s sz Hin. destruct (mkT_in_off tbl off0 s sz Hin) as [off [Hin2 Hle]].
    rewrite (Hoffs s off Hin2). unfold off0 in Hle. clear - Hle. lia. }
  assert (Hsizes : forall s sz, In (s, sz) tbl -> off_of sizes (ct_of s) = Z.of_N sz).
  { intros s sz Hin. apply assign_sizes_mkT; auto. }
  assert (Hno3 : has_gen2 es = false -> off_of offs 3 = 0%Z).
  { intros Eg. apply fold_set_notin; [simpl; lia|]. unfold T. rewrite mkT_cts. now apply I3'. }
  rewrite Hfile in Hlen |- *.
  eexists. split.
  - apply (open_file_shape k T term fo (List.concat ps ++ trailer)); fold offs sizes; rewrite ?Hfo255.
    + unfold T, k. now rewrite mkT_length.
    + rewrite Hents. unfold T. now rewrite mkT_length.
    + exact Hlen.
    + exact Hup.
    + unfold term. rewrite Er0. cbn [total]. change lenFanout with 256. clear. lia.
    + apply toc_ok_mkT; auto; clear - Hup; lia.
    + unfold fo, fanout_of. now rewrite map_length, seq_length.
    + exact Hfo_le.
    + apply (Hoffs sig_OIDF off0). unfold T. rewrite Er0. now left.
    + exact (Hoff_pos _ _ I1).
    + exact (Hoff_pos _ _ I2).
    + exact (Hsizes _ _ I0).
    + rewrite (Hsizes _ _ I1 : off_of sizes 1 = _). unfold hashSize. clear. lia.
    + rewrite (Hsizes _ _ I2 : off_of sizes 2 = _). unfold hashSize, szCommitData. change (zN cg_szCommitData) with 16. clear. lia.
    + intros Hpos. destruct (has_gen2 es) eqn:Eg; [|rewrite (Hno3 eq_refl) in Hpos; discriminate].
      rewrite (Hsizes _ _ (I3 eq_refl) : off_of sizes 3 = _). clear. lia.
  - cbn [ncommits f_fanout f_gen2 f_off f_size]. fold offs sizes. split; [exact Hfo255|]. split; [|split; [reflexivity|]].
    + destruct (has_gen2 es) eqn:Eg; [|now rewrite (Hno3 eq_refl)].
      pose proof (Hoff_pos _ _ (I3 eq_refl) : (0 < off_of offs 3)%Z) as Hp. clear - Hp. lia.
    + split; [exact Hoffs|exact Hsizes].
Qed.

Theorem reader_accepts : forall es trailer, wf_file es -> List.length trailer = 20%nat ->
  exists fi, open_file (encode es ++ trailer) = Ok fi /\
    ncommits fi = N.of_nat (List.length (sorted_of es)) /\
    f_gen2 fi = has_gen2 es /\
    f_fanout fi = fanout_of (sorted_of es).
Proof.
  intros es trailer Hwf Htr. destruct (reader_accepts_strong es trailer Hwf Htr) as [fi [A [B [C [D _]]]]].
  exists fi. auto.
Qed.
