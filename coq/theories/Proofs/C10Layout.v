(* Proofs/C10Layout.v — the domain [wf_tbl] of the C10 theorems and what it gives about
   the entries and their offset codes; git's idx v2 layout (Spec/IdxFormat.v) of such a
   table as the list of its sections, and what a ReadAt of one section or of one record
   of a section returns. *)
From Coq Require Import List NArith Bool Lia ZifyBool ZifyNat ZifyN.
From GoGit Require Import Base.Out Model.PackBytes Model.Idx Spec.IdxFormat
  Proofs.C10Order Proofs.C10Bytes Proofs.C10Table.
Import ListNotations.
Local Open Scope N_scope.

(* the domain of the C10 theorems: a table sorted by id whose ids have the
   size of the object format, with 64-bit offsets, 32-bit CRCs and fewer
   than 2^31 objects *)
Record wf_tbl (hs : nat) (tbl : list entry) : Prop := mkWf {
  wf_sorted : sorted_tbl tbl;
  wf_size : forall e, In e tbl -> List.length (e_hash e) = hs;
  wf_bytes : forall e b, In e tbl -> In b (e_hash e) -> b < 256;
  wf_off : forall e, In e tbl -> e_off e < 18446744073709551616;
  wf_crc : forall e, In e tbl -> e_crc e < 4294967296;
  wf_count : N.of_nat (List.length tbl) < 2147483648;
  wf_hs : (0 < hs)%nat }.

Definition d0 : entry := mkE [] 0 0.

Lemma nth_in (tbl : list entry) i : i < N.of_nat (List.length tbl) -> In (nth (N.to_nat i) tbl d0) tbl.
Proof. intros Hi. apply nth_In. lia. Qed.

Lemma wf_tbl_app_l hs a b : wf_tbl hs (a ++ b) -> wf_tbl hs a.
Proof.
  intros [S Z B O C N Hh]. assert (I : forall e, In e a -> In e (a ++ b)) by (intros; apply in_or_app; now left).
  constructor; eauto; [apply (sorted_app hlt a b S)|rewrite app_length in N; lia].
Qed.

Section Table.
Context {hs : nat} {tbl : list entry} (WF : wf_tbl hs tbl).

Lemma hash_nonempty e : In e tbl -> e_hash e <> [].
Proof. intros He E. pose proof (wf_size _ _ WF e He) as L. rewrite E in L. cbn in L. pose proof (wf_hs _ _ WF). lia. Qed.

Lemma blen_hash e : In e tbl -> blen (e_hash e) = N.of_nat hs.
Proof. intros He. unfold blen. now rewrite (wf_size _ _ WF e He). Qed.

Lemma first_lt_256 e : In e tbl -> first_of e < 256.
Proof.
  intros He. unfold first_of. destruct (e_hash e) as [|b r] eqn:E; [now apply hash_nonempty in He|].
  apply (wf_bytes _ _ WF e b He). rewrite E. now left.
Qed.

Lemma fan_first e : In e tbl -> N.of_nat (first_byte (e_hash e)) = first_of e.
Proof. intros He. pose proof (first_lt_256 e He). unfold first_byte, first_of in *. lia. Qed.

Lemma count_all : F tbl 255 = N.of_nat (List.length tbl).
Proof. apply count_le_all. intros e He. pose proof (first_lt_256 e He). lia. Qed.

Lemma fanout_lt x : In x (fanout_of tbl) -> x < 4294967296.
Proof. intros Hx. pose proof (fanout_bound tbl x Hx). pose proof (wf_count _ _ WF). lia. Qed.

Lemma codes_lt c : In c (off32_codes tbl 0) -> c < 4294967296.
Proof.
  apply off32_codes_bound.
  - pose proof (n_big_le tbl). pose proof (wf_count _ _ WF). lia.
  - unfold is_big. intros e _ Hb. lia.
Qed.

(* the offset of the i-th object, through its 32-bit code and the 64-bit table: what every
   reader's offset function computes from [c] *)
Lemma code_cases i : i < N.of_nat (List.length tbl) ->
  let c := nth (N.to_nat i) (off32_codes tbl 0) 0 in
  let o := e_off (nth (N.to_nat i) tbl d0) in
  c < 4294967296 /\ o < 18446744073709551616 /\
  ((N.land c P31 = 0 /\ c = o) \/
   (N.land c P31 <> 0 /\ N.ldiff c P31 < n_big tbl /\ nth (N.to_nat (N.ldiff c P31)) (big_offsets tbl) 0 = o)).
Proof.
  intros Hi c o.
  assert (Hc : c < 4294967296) by (apply codes_lt, nth_In; rewrite off32_codes_length; lia).
  split; [exact Hc|]. split; [apply (wf_off _ _ WF), nth_in, Hi|].
  rewrite land_mask31, ldiff_mask31 by exact Hc. unfold c, o in *.
  rewrite (off32_codes_nth tbl 0 (N.to_nat i) d0) in * by lia.
  destruct (is_big (nth (N.to_nat i) tbl d0)) eqn:Eb.
  - destruct (big_offsets_nth tbl (N.to_nat i) d0) as [A B]; [lia|exact Eb|].
    right. unfold P31 in *. replace (_ <? _) with false by lia.
    replace ((0 + n_big (firstn (N.to_nat i) tbl) + 2147483648) mod 2147483648) with (n_big (firstn (N.to_nat i) tbl)) by lia.
    repeat split; [discriminate|exact B|exact A].
  - left. unfold is_big, P31 in *. now replace (_ <? _) with true by lia.
Qed.

End Table.

Section Layout.
Variable hs : nat.
Variable H : bytes -> bytes.
Variable tbl : list entry.
Variable pack : bytes.
Hypothesis WF : wf_tbl hs tbl.
Hypothesis Hpack : List.length pack = hs.

Let file := idx_file H tbl pack.

Definition S_HDRB : bytes := [255; 116; 79; 99] ++ be32 2.
Definition S_FAN : bytes := flat_map be32 (fanout_of tbl).
Definition S_NAMES : bytes := flat_map e_hash tbl.
Definition S_CRC : bytes := flat_map (fun e => be32 (e_crc e)) tbl.
Definition S_O32 : bytes := flat_map be32 (off32_codes tbl 0).
Definition S_O64 : bytes := flat_map be64 (big_offsets tbl).
Definition S_SUM : bytes := H (idx_body tbl pack).

Lemma file_parts : file = concat [S_HDRB; S_FAN; S_NAMES; S_CRC; S_O32; S_O64; pack; S_SUM].
Proof.
  unfold file, idx_file, idx_body, S_HDRB, S_FAN, S_NAMES, S_CRC, S_O32, S_O64, S_SUM.
  cbn [concat]. now rewrite <- !app_assoc, app_nil_r.
Qed.

Lemma read_header : read_at file 0 8 = Some S_HDRB.
Proof using hs H tbl pack WF Hpack. rewrite file_parts. now apply (read_part []). Qed.

End Layout.

Lemma blen_FAN tbl : blen (S_FAN tbl) = 1024.
Proof. unfold S_FAN. rewrite (blen_flat_map be32 4), fanout_length; auto using blen_be32. Qed.
Lemma blen_CRC tbl : blen (S_CRC tbl) = N.of_nat (List.length tbl) * 4.
Proof. apply blen_flat_map. auto using blen_be32. Qed.
Lemma blen_O32 tbl : blen (S_O32 tbl) = N.of_nat (List.length tbl) * 4.
Proof. unfold S_O32. rewrite (blen_flat_map be32 4), off32_codes_length; auto using blen_be32. Qed.
Lemma blen_O64 tbl : blen (S_O64 tbl) = n_big tbl * 8.
Proof. unfold S_O64. rewrite (blen_flat_map be64 8), big_offsets_length; auto using blen_be64. Qed.

#[global] Hint Rewrite blen_app blen_nil blen_FAN blen_CRC blen_O32 blen_O64 : blen.

Section Reads.
Context {hs : nat} (H : bytes -> bytes) {tbl : list entry} {pack : bytes}.
Context (WF : wf_tbl hs tbl) (Hpack : List.length pack = hs).

Let n : N := N.of_nat (List.length tbl).
Let HS : N := N.of_nat hs.
Let file := idx_file H tbl pack.
(* one calling convention for the section: [lemma H WF Hpack ...] *)
Set Default Proof Using "WF Hpack".

Lemma blen_NAMES : blen (S_NAMES tbl) = n * HS.
Proof. apply blen_flat_map. intros; now apply (blen_hash WF). Qed.
Lemma blen_pack : blen pack = HS.
Proof. unfold blen, HS. now rewrite Hpack. Qed.

Hint Rewrite blen_NAMES blen_pack : blen.

Lemma blen_file : blen file = 1032 + n * HS + n * 4 + n * 4 + n_big tbl * 8 + HS + blen (S_SUM H tbl pack).
Proof. unfold file. rewrite file_parts. cbn [concat]. autorewrite with blen. change (blen S_HDRB) with 8. lia. Qed.

(* each offset is the total length of the sections before it *)
Ltac sections_before := cbn [concat]; autorewrite with blen; change (blen S_HDRB) with 8; lia.

Lemma read_fanout_tbl : read_at file 8 1024 = Some (S_FAN tbl).
Proof. unfold file. rewrite file_parts. apply (read_part [S_HDRB]); [reflexivity|now rewrite blen_FAN]. Qed.

Lemma read_fan k : (k < 256)%nat -> read_at file (8 + N.of_nat k * 4) 4 = Some (be32 (F tbl k)).
Proof.
  intros Hk. unfold file. rewrite file_parts.
  replace (F tbl k) with (nth (N.to_nat (N.of_nat k)) (fanout_of tbl) 0) by now rewrite Nat2N.id, fanout_nth.
  apply (read_part_record be32 4 (fanout_of tbl) [S_HDRB]); [auto using blen_be32|rewrite fanout_length; lia|reflexivity].
Qed.

Lemma read_name i : i < n ->
  read_at file (1032 + i * HS) HS = Some (e_hash (nth (N.to_nat i) tbl d0)).
Proof.
  intros Hi. unfold file. rewrite file_parts.
  apply (read_part_record e_hash HS tbl [S_HDRB; S_FAN tbl]); [intros; now apply (blen_hash WF)|exact Hi|sections_before].
Qed.

Lemma read_crc i : i < n ->
  read_at file (1032 + n * HS + i * 4) 4 = Some (be32 (e_crc (nth (N.to_nat i) tbl d0))).
Proof.
  intros Hi. unfold file. rewrite file_parts.
  apply (read_part_record (fun e => be32 (e_crc e)) 4 tbl [S_HDRB; S_FAN tbl; S_NAMES tbl]);
    [auto using blen_be32|exact Hi|sections_before].
Qed.

Lemma read_code i : i < n ->
  read_at file (1032 + n * HS + n * 4 + i * 4) 4 = Some (be32 (nth (N.to_nat i) (off32_codes tbl 0) 0)).
Proof.
  intros Hi. unfold file. rewrite file_parts.
  apply (read_part_record be32 4 (off32_codes tbl 0) [S_HDRB; S_FAN tbl; S_NAMES tbl; S_CRC tbl]);
    [auto using blen_be32|now rewrite off32_codes_length|sections_before].
Qed.

Lemma read_o32_table : read_at file (1032 + n * HS + n * 4) (n * 4) = Some (S_O32 tbl).
Proof.
  unfold file. rewrite file_parts.
  apply (read_part [S_HDRB; S_FAN tbl; S_NAMES tbl; S_CRC tbl]); [sections_before|now rewrite blen_O32].
Qed.

Lemma read_big j : j < n_big tbl ->
  read_at file (1032 + n * HS + n * 4 + n * 4 + j * 8) 8 = Some (be64 (nth (N.to_nat j) (big_offsets tbl) 0)).
Proof.
  intros Hj. unfold file. rewrite file_parts.
  apply (read_part_record be64 8 (big_offsets tbl) [S_HDRB; S_FAN tbl; S_NAMES tbl; S_CRC tbl; S_O32 tbl]);
    [auto using blen_be64|now rewrite big_offsets_length|sections_before].
Qed.

Lemma read_pack :
  read_at file (1032 + n * HS + n * 4 + n * 4 + n_big tbl * 8) HS = Some pack.
Proof.
  unfold file. rewrite file_parts.
  apply (read_part [S_HDRB; S_FAN tbl; S_NAMES tbl; S_CRC tbl; S_O32 tbl; S_O64 tbl]); [sections_before|now rewrite blen_pack].
Qed.

End Reads.
