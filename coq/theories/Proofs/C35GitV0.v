(* Proofs/C35GitV0.v — go-git's upload-request is in git's documented grammar
   (Spec/GitProto.v git_ulreq) and means the request. *)
From Coq Require Import List Arith NArith ZArith Bool Lia String.
From GoGit Require Import Base.Out Base.GoInt Gen.C34 Model.PktLine Model.C35Utf8 Model.Packp Spec.GitProto
  Proofs.C34Pkt Proofs.C35Base Proofs.C35Utf8 Proofs.C35U Proofs.C35Msgs Proofs.C35Caps Proofs.C35Dec Proofs.C35Adv Proofs.C35Ul
  Proofs.C35Git.
Import ListNotations.

Lemma filter_nonempty_id (l : list bytes) : Forall (fun t => t <> []) l ->
  filter (fun w => negb (Nat.eqb (List.length w) 0)) l = l.
Proof.
  induction 1 as [|t l Ht Hl IH]; [reflexivity|]. cbn [filter]. destruct t as [|c t]; [contradiction|]. cbn. now rewrite IH.
Qed.

Lemma cap_words_encode l : caps_ok l = true -> cap_words (cap_encode l) = cap_tokens l.
Proof.
  unfold caps_ok. intros H. apply andb_prop in H. destruct H as [H1 _]. pose proof (tokens_props l H1) as Ht.
  unfold cap_words, cap_encode. destruct (cap_tokens l) as [|t0 toks] eqn:E; [reflexivity|]. rewrite <- E in *.
  rewrite split_join.
  - apply filter_nonempty_id. eapply Forall_impl; [|exact Ht]. intros t [Hne _]. exact Hne.
  - rewrite E. discriminate.
  - apply forallb_forall. intros t Hin. rewrite Forall_forall in Ht. destruct (Ht t Hin) as [_ Htt]. now apply tokc_nosp.
Qed.

Lemma git_number_dec z : (0 <= z)%Z -> git_number (dec_bytes z) = Some z.
Proof.
  intros Hz. unfold dec_bytes, dec_of_Z. destruct z as [|p|p]; [reflexivity| |lia].
  destruct (dec_of_N_spec (N.pos p)) as (ds & <- & Hne & Hd & Hp).
  unfold git_number. destruct (bytes_of_string (dec_of_N (N.pos p))) as [|c t] eqn:E; [contradiction|].
  assert (forallb isdigit (c :: t) = true) as -> by exact Hd.
  rewrite Hp. reflexivity.
Qed.

Lemma since_range (t : option Z) : match t with Some t => since_ok t | None => true end = true ->
  match t with Some t => (0 <? t)%Z | None => true end = true -> match t with Some t => (0 < t < 2 ^ 63)%Z | None => True end.
Proof.
  destruct t as [t|]; [intros Hs Ht|easy]. apply Z.ltb_lt in Ht. split; [exact Ht|apply (int64_ok_spec t (since_ok_int64 t Hs))].
Qed.

Section UlLine.
Variables (hexsz : nat) (cp : list bytes) (w s : list hash) (d si : option Z) (n : list bytes) (fi : option bytes).

Ltac ul_line kw := cbn [git_ul_lines gu_caps gu_wants gu_shallows gu_deepen gu_since gu_not gu_filter]; kw_line kw.

Lemma git_ul_want h r acc : sized hexsz h = true ->
  git_ul_lines hexsz (PData (B "want " ++ hash_str h ++ [NL]) :: r) 0 (mkgulreq cp acc s d si n fi)
  = git_ul_lines hexsz r 0 (mkgulreq cp (acc ++ [h]) s d si n fi).
Proof. intros H. ul_line (B "want "). now rewrite (git_oid_str hexsz h H). Qed.

Lemma git_ul_shallow h r acc ph : (ph <= 1)%nat -> sized hexsz h = true ->
  git_ul_lines hexsz (PData (B "shallow " ++ hash_str h ++ [NL]) :: r) ph (mkgulreq cp w acc d si n fi)
  = git_ul_lines hexsz r 1 (mkgulreq cp w (acc ++ [h]) d si n fi).
Proof. intros Hp H. ul_line (B "shallow "). now rewrite (proj2 (Nat.ltb_ge 1 ph) Hp), (git_oid_str hexsz h H). Qed.

Lemma git_ul_not x r acc ph : (ph <= 2)%nat -> x <> [] ->
  git_ul_lines hexsz (PData (B "deepen-not " ++ x ++ [NL]) :: r) ph (mkgulreq cp w s None si acc fi)
  = git_ul_lines hexsz r 2 (mkgulreq cp w s None si (acc ++ [x]) fi).
Proof. intros Hp H. ul_line (B "deepen-not "). rewrite (proj2 (Nat.ltb_ge 2 ph) Hp). now destruct x. Qed.

(* The optional lines are written when the field is not its zero value, which is what git has for it when
   there is no line; v is what git makes of the rest, in whatever phase up to 2 it is then. *)
Lemma git_ul_deepen z r ph v : (ph <= 2)%nat -> (0 <= z < 2 ^ 31)%Z ->
  (forall ph', (ph' <= 2)%nat -> git_ul_lines hexsz r ph' (mkgulreq cp w s (if (z >? 0)%Z then Some z else None) None [] fi) = v) ->
  git_ul_lines hexsz ((if (z >? 0)%Z then [PData (B "deepen " ++ dec_bytes z ++ [NL])] else []) ++ r) ph (mkgulreq cp w s None None [] fi) = v.
Proof.
  intros Hp [H0 H1] K. destruct (Z.gtb_spec z 0) as [Hz|_]; [|now apply K]. rewrite <- (K 2%nat (le_n 2)). cbn [app]. ul_line (B "deepen ").
  now rewrite (proj2 (Nat.ltb_ge 2 ph) Hp), (git_number_dec z H0), (proj2 (Z.ltb_lt 0 z) Hz), (proj2 (Z.ltb_lt _ _) H1).
Qed.

Lemma git_ul_since (t : option Z) r ph v : (ph <= 2)%nat -> match t with Some t => (0 < t < 2 ^ 63)%Z | None => True end ->
  (forall ph', (ph' <= 2)%nat -> git_ul_lines hexsz r ph' (mkgulreq cp w s None t n fi) = v) ->
  git_ul_lines hexsz (match t with Some t => [PData (B "deepen-since " ++ dec_bytes t ++ [NL])] | None => [] end ++ r) ph
               (mkgulreq cp w s None None n fi) = v.
Proof.
  intros Hp Ht K. destruct t as [t|]; [destruct Ht as [H0 H1]|now apply K]. rewrite <- (K 2%nat (le_n 2)). cbn [app]. ul_line (B "deepen-since ").
  now rewrite (proj2 (Nat.ltb_ge 2 ph) Hp), (git_number_dec t (Z.lt_le_incl _ _ H0)), (proj2 (Z.ltb_lt _ _) H0), (proj2 (Z.ltb_lt _ _) H1).
Qed.

Lemma git_ul_ftail (x : bytes) ph : (ph <= 2)%nat ->
  git_ul_lines hexsz (ftail x) ph (mkgulreq cp w s d si n None) = Some (mkgulreq cp w s d si n (match x with [] => None | _ => Some x end)).
Proof.
  intros Hp. unfold ftail. destruct x as [|c l]; [reflexivity|]. set (x := c :: l). cbn [app]. ul_line (B "filter ").
  now rewrite (proj2 (Nat.ltb_ge 2 ph) Hp).
Qed.
End UlLine.

Lemma git_ulreq_first hexsz w0 cps r : sized hexsz w0 = true ->
  git_ulreq hexsz (PData (B "want " ++ hash_str w0 ++ cps ++ [NL]) :: r) =
  match cps with
  | [] => git_ul_lines hexsz r 0 (mkgulreq [] [w0] [] None None [] None)
  | c :: capstr => if N.eqb c SP then git_ul_lines hexsz r 0 (mkgulreq (cap_words capstr) [w0] [] None None [] None) else None
  end.
Proof.
  intros H. destruct (kw_oid_rest hexsz (B "want ") 5 w0 cps H eq_refl) as [Ho Hr]. unfold git_ulreq.
  now rewrite (app_assoc (hash_str w0)), chomp_kw, has_prefix_app, Ho, Hr.
Qed.

(* what git learns from an upload-request *)
Definition ul_abs (u : ulreq) : gulreq :=
  mkgulreq (cap_tokens (ul_caps u)) (ul_wants u) (ul_shallows u)
           (if (ul_deepen u >? 0)%Z then Some (ul_deepen u) else None) (ul_since u) (ul_not u)
           (match ul_filter u with [] => None | f => Some f end).

(* beyond ul_ok: one object format, a depth git's int holds, a positive deepen-since, non-empty deepen-not references *)
Definition ul_git_ok (hexsz : nat) (u : ulreq) : bool :=
  forallb (sized hexsz) (ul_wants u) && forallb (sized hexsz) (ul_shallows u) &&
  (ul_deepen u <? 2 ^ 31)%Z && match ul_since u with Some t => (0 <? t)%Z | None => true end &&
  forallb (fun r => negb (Nat.eqb (List.length r) 0)) (ul_not u).

Lemma sized_sorted hexsz hs : forallb (sized hexsz) hs = true -> Forall (fun h => sized hexsz h = true) (sort_hashes hs).
Proof. intros H. apply sort_by_Forall. now apply forallb_Forall. Qed.

Theorem git_ulreq_enc hexsz u : ul_ok u = true -> ul_git_ok hexsz u = true ->
  exists ps, ul_encode u = ULok ps /\ git_ulreq hexsz ps = Some (ul_abs (ul_canon u)).
Proof.
  unfold ul_git_ok. intros H G. destruct (ul_encode_ok u H) as (w0 & ws & Es & He).
  destruct (ul_ok_spec u H) as (Hcaps & _ & _ & H0 & _ & Hsi & Hex).
  do 4 (apply andb_prop in G; let X := fresh "J" in destruct G as [G X]).
  rename G into Gw, J2 into Gs, J1 into Gd, J0 into Gt, J into Gn. apply Z.ltb_lt in Gd.
  destruct (ul_sorted_ok (sized hexsz) u w0 ws Gw Gs Es) as (Hw0 & Hdw & Hds).
  assert (Forall (fun r => r <> []) (ul_not u)) as Hn.
  { apply forallb_Forall in Gn. revert Gn. apply Forall_impl. now intros [|c r]. }
  eexists. split; [exact He|]. clear He.
  (* the lines after the first want *)
  assert (forall caps0, git_ul_lines hexsz (want_lines (dedup_from w0 ws) ++ ulshallow_lines (dedup_from zero_hash (sort_hashes (ul_shallows u))) ++
                                            depth_lines u ++ ftail (ul_filter u)) 0 (mkgulreq caps0 [w0] [] None None [] None)
          = Some (mkgulreq caps0 (w0 :: dedup_from w0 ws) (dedup_from zero_hash (sort_hashes (ul_shallows u)))
                           (if (ul_deepen u >? 0)%Z then Some (ul_deepen u) else None) (ul_since u) (ul_not u)
                           (match ul_filter u with [] => None | f => Some f end))) as Hrest.
  { intros caps0. unfold want_lines, ulshallow_lines, depth_lines. rewrite <- !app_assoc.
    rewrite (lines_acc (fun ps => git_ul_lines hexsz ps 0) _ (fun acc => mkgulreq _ acc _ _ _ _ _) _ (git_ul_want hexsz _ _ _ _ _ _))
      by now apply forallb_Forall.
    apply (lines_phase (git_ul_lines hexsz) _ (fun acc => mkgulreq _ _ acc _ _ _ _) _ (fun ph => ph <= 1)%nat 1%nat (le_n 1) (git_ul_shallow hexsz _ _ _ _ _ _));
      [apply Nat.le_0_l|now apply forallb_Forall|intros ph Hph]. apply le_S in Hph.
    destruct Hex as [E|[Esi En]].
    - rewrite E. cbn [app]. apply git_ul_since; [exact Hph|exact (since_range _ Hsi Gt)|intros ph2 Hph2].
      apply (lines_phase (git_ul_lines hexsz) _ (fun acc => mkgulreq _ _ _ _ _ acc _) _ (fun ph => ph <= 2)%nat 2%nat (le_n 2) (git_ul_not hexsz _ _ _ _ _));
        [exact Hph2|exact Hn|intros ph3 Hph3].
      rewrite git_ul_ftail by exact Hph3. now destruct (ul_filter u).
    - (* deepen n excludes the other depth forms *)
      rewrite Esi, En. cbn [map app]. apply git_ul_deepen; [exact Hph|now split|intros ph2 Hph2].
      rewrite git_ul_ftail by exact Hph2. now destruct (ul_filter u). }
  (* the first want line *)
  unfold ul_abs, ul_canon, ul_first. cbn [ul_caps ul_wants ul_shallows ul_deepen ul_since ul_not ul_filter]. rewrite Es.
  destruct (ul_caps u) as [|e caps'] eqn:Ec.
  - rewrite (git_ulreq_first hexsz w0 [] _ Hw0). apply Hrest.
  - rewrite <- Ec in *. rewrite (git_ulreq_first hexsz w0 ([SP] ++ cap_encode (ul_caps u)) _ Hw0).
    cbn [app]. rewrite N.eqb_refl, (cap_words_encode _ Hcaps). apply Hrest.
Qed.
