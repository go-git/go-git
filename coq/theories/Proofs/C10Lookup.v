(* Proofs/C10Lookup.v — searching a well-formed table: the ids with first byte k sit
   at the positions [Fp k, F k) delimited by the fanout counts, comparison probes
   against the ids are monotone, and a binary search over that range that meets its
   specification (Proofs/C10Search.v) answers like the map [lookup]: [search_lookup]
   for the three-way searches, [lower_bound_cut] and [cut_lookup] for sort.Search.  The
   readers' probes look at position [a + i] for a fixed shift [a] (0 for LazyIndex and
   the PackScanner, the start of the bucket for MemoryIndex). *)
From Coq Require Import List NArith Bool Lia ZifyBool ZifyNat ZifyN.
From GoGit Require Import Base.Out Model.PackBytes Model.Idx Spec.IdxFormat
  Proofs.C10Search Proofs.C10Order Proofs.C10Table Proofs.C10Layout.
Import ListNotations.
Local Open Scope N_scope.

Lemma lookup_none tbl h : (forall e, In e tbl -> e_hash e <> h) -> lookup tbl h = None.
Proof. apply (find_key_none e_hash bytes_eqb bytes_eqb_eq). Qed.

Section Lookup.
Context {hs : nat} {tbl : list entry} (WF : wf_tbl hs tbl).

Let n : N := N.of_nat (List.length tbl).
Let hash_at (i : N) : bytes := e_hash (nth (N.to_nat i) tbl d0).

Lemma hash_at_sorted i j : i < j -> j < n -> bytes_cmp (hash_at i) (hash_at j) = Lt.
Proof. intros Hij Hj. apply (sorted_nth hlt tbl (wf_sorted _ _ WF)); unfold n in *; lia. Qed.

Lemma lookup_nth i : i < n -> lookup tbl (hash_at i) = Some (nth (N.to_nat i) tbl d0).
Proof.
  intros Hi. apply (find_key_nth e_hash bytes_eqb bytes_eqb_eq); [apply sorted_distinct, (wf_sorted _ _ WF)|].
  unfold n in Hi. lia.
Qed.

Lemma bucket_range i fb : i < n ->
  (first_of (nth (N.to_nat i) tbl d0) = N.of_nat fb <-> Fp tbl fb <= i < F tbl fb).
Proof.
  intros Hi. unfold Fp, F.
  assert (P : forall k, i < count_le tbl k <-> first_of (nth (N.to_nat i) tbl d0) <= k).
  { intros k. rewrite <- (N2Nat.id i) at 1.
    apply (count_le_pos tbl k (N.to_nat i) d0 (wf_sorted _ _ WF)). unfold n in Hi. lia. }
  pose proof (P (N.of_nat fb)). destruct fb as [|fb]; cbn [Nat.eqb]; [lia|].
  pose proof (P (N.of_nat (S fb - 1))). lia.
Qed.

Lemma hash_in_bucket h i : hd 0 h < 256 -> i < n -> hash_at i = h ->
  Fp tbl (first_byte h) <= i < F tbl (first_byte h).
Proof.
  intros Hh Hi E. apply (bucket_range i (first_byte h) Hi).
  unfold first_of. fold (hash_at i). rewrite E. unfold first_byte. lia.
Qed.

Lemma lookup_none_bucket h : hd 0 h < 256 ->
  (forall i, Fp tbl (first_byte h) <= i -> i < F tbl (first_byte h) -> hash_at i <> h) -> lookup tbl h = None.
Proof.
  intros Hh Hno. apply lookup_none. intros e He E. destruct (In_nth tbl e d0 He) as (k & Hk & Ek).
  assert (Ea : hash_at (N.of_nat k) = h) by (unfold hash_at; now rewrite Nat2N.id, Ek).
  destruct (hash_in_bucket h (N.of_nat k) Hh ltac:(unfold n; lia) Ea). now apply (Hno (N.of_nat k)).
Qed.

Lemma cmp_probe h a lo hi P : a + hi <= n ->
  (forall i, lo <= i -> i < hi -> P i = Some (bytes_cmp h (hash_at (a + i)))) ->
  mono P lo hi /\ total P lo hi.
Proof.
  intros Hn Pv. split.
  - intros i j Hi Hij Hj. rewrite !Pv by lia.
    destruct (N.eq_dec i j) as [<-|Hne]; [split; auto|].
    assert (Hs := hash_at_sorted (a + i) (a + j) ltac:(lia) ltac:(lia)).
    split; intros E; injection E as E1; f_equal.
    + eapply bytes_cmp_trans; [exact E1|exact Hs].
    + apply bytes_cmp_lt_gt. apply bytes_cmp_lt_gt in E1. eapply bytes_cmp_trans; [exact Hs|exact E1].
  - intros i Hi Hj. rewrite Pv by lia. discriminate.
Qed.

(* a search for h over the bucket of h's first byte; the last hypothesis is one of the
   [bs_*_fuel] lemmas *)
Lemma search_lookup h a lo hi P r : hd 0 h < 256 ->
  a + lo = Fp tbl (first_byte h) -> a + hi = F tbl (first_byte h) ->
  (forall i, lo <= i -> i < hi -> P i = Some (bytes_cmp h (hash_at (a + i)))) ->
  (mono P lo hi -> total P lo hi -> search_spec P lo hi r) ->
  match r with
  | Found i => lo <= i < hi /\ lookup tbl h = Some (nth (N.to_nat (a + i)) tbl d0)
  | NotFound => lookup tbl h = None
  | _ => False
  end.
Proof.
  intros Hh Elo Ehi Pv Sp. pose proof (F_le tbl (first_byte h)) as Hn. fold n in Hn.
  destruct (cmp_probe h a lo hi P ltac:(lia) Pv) as [M T]. specialize (Sp M T).
  destruct r as [i| | |]; cbn in Sp; try contradiction.
  - destruct Sp as [Hr Hp]. split; [exact Hr|]. rewrite Pv in Hp by lia. injection Hp as Hc.
    apply bytes_cmp_eq in Hc. rewrite Hc. apply lookup_nth. lia.
  - apply (lookup_none_bucket h Hh). intros i Hi Hj E.
    apply (Sp (i - a)); [lia|lia|]. rewrite Pv by lia. replace (a + (i - a)) with i by lia. now rewrite E, bytes_cmp_refl.
Qed.

(* sort.Search for a target t: the ids below t, then the others *)
Lemma lower_bound_cut t a lo hi B : lo <= hi -> a + hi <= n ->
  (forall i, lo <= i -> i < hi -> B i = Some (is_lt (bytes_cmp (hash_at (a + i)) t))) ->
  exists k, lower_bound (bs_fuel lo hi) B lo hi = Found k /\ lo <= k <= hi /\
    (forall i, lo <= i -> i < k -> bytes_cmp (hash_at (a + i)) t = Lt) /\
    (forall i, k <= i -> i < hi -> bytes_cmp (hash_at (a + i)) t <> Lt).
Proof.
  intros Hle Hn Bv.
  assert (Sp : lb_spec B lo hi (lower_bound (bs_fuel lo hi) B lo hi)).
  { apply lower_bound_fuel; [exact Hle| |].
    - intros i j Hi Hij Hj Eb. rewrite Bv in * by lia. f_equal. injection Eb as Eb.
      destruct (N.eq_dec i j) as [->|Hne]; [exact Eb|].
      assert (Hs := hash_at_sorted (a + i) (a + j) ltac:(lia) ltac:(lia)).
      unfold is_lt in *. destruct (bytes_cmp (hash_at (a + j)) t) eqn:Cj; try discriminate.
      now rewrite (bytes_cmp_trans _ _ _ Hs Cj).
    - intros i Hi Hj. rewrite Bv by lia. discriminate. }
  destruct (lower_bound _ B lo hi) as [k| | |]; cbn in Sp; try contradiction.
  destruct Sp as (Hk & Hb & Ha). exists k. split; [reflexivity|]. split; [exact Hk|].
  split; intros i H1 H2.
  - specialize (Hb i H1 H2). rewrite Bv in Hb by lia. unfold is_lt in Hb. destruct (bytes_cmp _ t); congruence.
  - specialize (Ha i H1 H2). rewrite Bv in Ha by lia. unfold is_lt in Ha. destruct (bytes_cmp _ t); congruence.
Qed.

(* sort.Search leaves the first id not below h: h is in the table iff that id is h *)
Lemma cut_lookup h j : hd 0 h < 256 ->
  Fp tbl (first_byte h) <= j ->
  (forall i, Fp tbl (first_byte h) <= i -> i < j -> bytes_cmp (hash_at i) h = Lt) ->
  (forall i, j <= i -> i < F tbl (first_byte h) -> bytes_cmp (hash_at i) h <> Lt) ->
  lookup tbl h = if (j <? F tbl (first_byte h)) && bytes_eqb (hash_at j) h
                 then Some (nth (N.to_nat j) tbl d0) else None.
Proof.
  intros Hh Hlo Hbelow Habove. pose proof (F_le tbl (first_byte h)) as Hn. fold n in Hn.
  destruct (_ && _) eqn:E.
  - apply andb_true_iff in E. destruct E as [Ej Eeq]. apply bytes_eqb_eq in Eeq.
    rewrite <- Eeq. apply lookup_nth. lia.
  - apply (lookup_none_bucket h Hh). intros i Hi1 Hi2 Ei.
    destruct (N.lt_ge_cases i j) as [L|G].
    + specialize (Hbelow i Hi1 L). rewrite Ei, bytes_cmp_refl in Hbelow. discriminate.
    + apply (Habove j); [lia|lia|]. destruct (N.eq_dec i j) as [->|Hne].
      * rewrite Ei, (proj2 (bytes_eqb_eq h h) eq_refl) in E. lia.
      * rewrite <- Ei. apply hash_at_sorted; lia.
Qed.

End Lookup.
