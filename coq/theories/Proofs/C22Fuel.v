(* Proofs/C22Fuel.v — the fuel given to the walker suffices: it never reports
   exhaustion.  The walker marks an object before descending, so along any call
   chain the number of unmarked objects of the (finite) universe strictly
   decreases. *)
From Coq Require Import List NArith ZArith Arith Lia Bool.
From GoGit Require Import Base.Out Gen.C22 Model.Gc Proofs.C22.
Import ListNotations.
Local Open Scope N_scope.

Section Fuel.
  Variable r : repo.
  Let U := universe r.

  Lemma U_nodup : NoDup U.
  Proof. apply NoDup_nodup. Qed.

  Lemma root_in_U h : In h r.(roots) -> In h U.
  Proof. intro H. apply nodup_In. apply in_or_app. now left. Qed.

  Lemma child_in_U h o c : get r h = Some o -> In c (children o) -> In c U.
  Proof.
    intros Hg Hc. apply get_assoc, assoc_In in Hg. apply nodup_In. apply in_or_app. right.
    apply in_flat_map. exists (h, o). split; [assumption|]. right. exact Hc.
  Qed.

  Definition unseen (st : wst) : nat := List.length (filter (fun x => negb (mem x st.(seen))) U).

  (* the unseen objects are a duplicate-free sublist of U: comparing counts is comparing sets *)
  Lemma unseen_nodup st : NoDup (filter (fun x => negb (mem x st.(seen))) U).
  Proof. apply NoDup_filter, U_nodup. Qed.

  Lemma unseen_incl st st' : incl st.(seen) st'.(seen) ->
    incl (filter (fun x => negb (mem x st'.(seen))) U) (filter (fun x => negb (mem x st.(seen))) U).
  Proof.
    intros I x Hx. apply filter_In in Hx as [Hu Hx]. apply filter_In. split; [assumption|].
    apply negb_true_iff, mem_nIn in Hx. apply negb_true_iff, mem_nIn. intro H. apply Hx, I, H.
  Qed.

  Lemma unseen_mono st st' : incl st.(seen) st'.(seen) -> (unseen st' <= unseen st)%nat.
  Proof. intro I. apply NoDup_incl_length; [apply unseen_nodup|now apply unseen_incl]. Qed.

  Lemma unseen_add h st : In h U -> mem h st.(seen) = false -> (unseen (add_seen h st) < unseen st)%nat.
  Proof.
    intros Hu Hm. apply Nat.nle_gt. intro Hle.
    (* otherwise the two sets would be equal, but h is unseen only before *)
    assert (Hh : In h (filter (fun x => negb (mem x (add_seen h st).(seen))) U)).
    { apply (NoDup_length_incl (unseen_nodup (add_seen h st)) Hle).
      - apply unseen_incl. intros x Hx. apply add_seen_seen. now right.
      - apply filter_In. split; [assumption|]. now rewrite Hm. }
    apply filter_In in Hh as [_ Hh]. apply negb_true_iff, mem_nIn in Hh. apply Hh, add_seen_seen. now left.
  Qed.

  Lemma walk_incl fuel : forall st h st', walk fuel r st h = Ok st' -> incl st.(seen) st'.(seen).
  Proof.
    apply (walk_rel r (fun a b => incl a.(seen) b.(seen))); [intro; apply incl_refl|intros a b c; apply incl_tran|].
    intros; apply incl_leaf.
  Qed.

  (* folding a step that never runs out of fuel on states with few unseen objects *)
  Lemma fold_res_fuel {A} (f : wst -> A -> res wst) (ok : A -> Prop) (n : nat) :
    (forall st a, ok a -> (unseen st < n)%nat -> f st a <> Err EFuel) ->
    (forall st a st', f st a = Ok st' -> incl st.(seen) st'.(seen)) ->
    forall l st, Forall ok l -> (unseen st < n)%nat -> fold_res f l st <> Err EFuel.
  Proof.
    intros Hf Hi l. induction l as [|a l IH]; intros st Hl Hn; cbn; [discriminate|].
    inversion Hl; subst. destruct (f st a) as [s1|e] eqn:E.
    - apply IH; [assumption|]. pose proof (unseen_mono _ _ (Hi _ _ _ E)). lia.
    - intro H. inversion H; subst. now apply (Hf st a).
  Qed.

  Lemma walk_fuel fuel : forall st h, In h U -> (unseen st < fuel)%nat -> walk fuel r st h <> Err EFuel.
  Proof.
    induction fuel as [|f IH]; intros st h Hu Hn; [lia|]. cbn [walk].
    destruct (mem h st.(seen)) eqn:Es; [discriminate|].
    pose proof (unseen_add h st Hu Es) as Hlt.
    assert (Hn1 : (unseen (add_seen h st) < f)%nat) by lia.
    destruct (get r h) as [[|es|t ps|t]|] eqn:Eg.
    - discriminate.
    - apply (fold_res_fuel _ (fun e => In (snd e) U) f); try assumption.
      + intros s0 e He Hs. cbn beta. destruct (is_file_mode (fst e)); [discriminate|now apply IH].
      + (* a file entry is marked, anything else is walked *)
        intros s0 e s1 He. cbn beta in He. destruct (is_file_mode (fst e)); [|now apply (walk_incl _ _ _ _ He)].
        inversion He; subst. apply incl_leaf.
      + apply Forall_forall. intros e He. eapply child_in_U; [eassumption|]. cbn. now apply in_map.
    - assert (Ht : In t U) by (eapply child_in_U; [eassumption|now left]).
      destruct (walk f r (add_seen h st) t) as [s2|e] eqn:Et.
      + destruct (mem h r.(shallow)); [discriminate|].
        apply (fold_res_fuel _ (fun c => In c U) f).
        * intros; now apply IH.
        * intros; eapply walk_incl; eassumption.
        * apply Forall_forall. intros c Hc. eapply child_in_U; [eassumption|now right].
        * pose proof (unseen_mono _ _ (walk_incl _ _ _ _ Et)). lia.
      + intro H. inversion H; subst. now apply (IH (add_seen h st) t).
    - apply IH; [|assumption]. eapply child_in_U; [eassumption|now left].
    - destruct (promisor r); discriminate.
  Qed.

  Lemma unseen_le_U st : (unseen st <= List.length U)%nat.
  Proof. apply NoDup_incl_length; [apply unseen_nodup|apply incl_filter]. Qed.

  Lemma walk_all_fuel : walk_all (gc_fuel r) r <> Err EFuel.
  Proof.
    unfold walk_all, gc_fuel. fold U.
    destruct (fold_res (walk (S (List.length U)) r) r.(roots) {| seen := []; missing := [] |}) as [st|e] eqn:E; [discriminate|].
    intro H. inversion H; subst.
    apply (fold_res_fuel (walk (S (List.length U)) r) (fun c => In c U) (S (List.length U))) in E; try assumption.
    - intros; now apply walk_fuel.
    - intros; eapply walk_incl; eassumption.
    - apply Forall_forall. intros c Hc. now apply root_in_U.
    - pose proof (unseen_le_U {| seen := []; missing := [] |}). lia.
  Qed.
End Fuel.
