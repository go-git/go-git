(* Proofs/C43.v — every commit walker of Model/CommitWalk.v is an instance of
   Proofs/Worklist.v: in a graph with every parent present the model loop never
   fails a lookup and is the generic loop over its container. *)
From Coq Require Import List Arith ZArith Bool Lia Permutation.
From GoGit Require Import Spec.Dag Model.CommitWalk Proofs.Worklist.
Import ListNotations.

(* pushing the unseen successors, as every walker but the post-order ones does *)
Lemma selects_unseen : forall succ w, (forall c, length (succ c) <= w c) ->
  selects succ w (fun c seen => filter (fun p => negb (mem p seen)) (succ c)).
Proof.
  intros succ w Hw. split; intros c seen.
  - apply incl_filter.
  - intros p Hp Hn. apply filter_In. split; [exact Hp|]. now apply negb_true_iff, mem_false_In.
  - apply Nat.le_trans with (length (succ c)); [apply filter_length_le' | apply Hw].
Qed.

Lemma pop_frames_none : forall st, pop_frames st = None -> concat st = [].
Proof.
  induction st as [|f r IH]; intros H; [reflexivity|].
  destruct f as [|h t]; simpl in *; [now apply IH | discriminate].
Qed.

Lemma pop_frames_some : forall st h st', pop_frames st = Some (h, st') -> concat st = h :: concat st'.
Proof.
  induction st as [|f r IH]; intros h st' H; [discriminate|].
  destruct f as [|x t]; simpl in *.
  - now apply IH.
  - injection H as H1 H2. subst. reflexivity.
Qed.

Lemma pops_frames : pops (list (list node)) (@concat node) pop_frames.
Proof.
  split; [exact pop_frames_none|]. intros b c b' H. now rewrite (pop_frames_some _ _ _ H).
Qed.

Definition pop_list (st : list node) : option (node * list node) :=
  match st with [] => None | c :: r => Some (c, r) end.

Lemma pops_list : pops (list node) (fun l => l) pop_list.
Proof.
  split.
  - intros [|x r] H; [reflexivity | discriminate].
  - intros [|x r] c b' H; [discriminate|]. injection H as -> ->. reflexivity.
Qed.

Lemma ra_incl_reach : forall g succ I s x,
  (forall c, incl (succ c) (parents g c)) -> ra succ I s x -> reach g s x.
Proof.
  intros g succ I s x Hsub H. induction H as [_ | y x _ IH Hp _]; [constructor|].
  apply (reach_trans g s y x IH). apply (reach_step g y x x); [now apply Hsub | constructor].
Qed.

(* ra over the parent relation with nothing ignored is reachability *)
Lemma ra_reach : forall g s x, ra (parents g) [] s x <-> reach g s x.
Proof.
  intros g s x. split; [apply ra_incl_reach; intros c; apply incl_refl|].
  intros H.
  enough (G : forall c, reach g c x -> ra (parents g) [] s c -> ra (parents g) [] s x)
    by (apply (G s H); constructor; intros []).
  clear H. intros c H. induction H as [c | c p a Hp _ IH]; intros Hc; [exact Hc|].
  apply IH. eapply ra_step; eauto.
Qed.

Section Walkers.
  Variable g : dag.

  Let n := nnodes g.
  Let w := fun c => length (parents g c).

  Lemma budget_on_nil : forall L, budget_on w L [] = fold_right (fun x t => w x + t) 0 L.
  Proof. induction L as [|x r IH]; simpl; [reflexivity|]. now rewrite IH. Qed.

  Lemma sum_nth : forall (L pre : list (list node)),
    fold_right (fun x t => length (nth x (pre ++ L) []) + t) 0 (seq (length pre) (length L))
    = fold_right (fun ps t => length ps + t) 0 L.
  Proof.
    induction L as [|ps r IH]; intros pre; simpl; [reflexivity|].
    rewrite nth_middle. f_equal.
    specialize (IH (pre ++ [ps])). rewrite app_length in IH. simpl in IH.
    rewrite Nat.add_1_r in IH. rewrite <- app_assoc in IH. simpl in IH. exact IH.
  Qed.

  Lemma budget_nil : budget n w [] = nedges g.
  Proof.
    unfold budget. rewrite budget_on_nil. unfold w, parents, n, nnodes, nedges.
    exact (sum_nth (dpar g) []).
  Qed.

  (* from a container that holds just the start, [walk_fuel g] is enough *)
  Lemma gloop_walk_post : forall stop (succ : node -> list node) B contents pop push pushed (b : B) I (s : node),
    (forall c p, c < n -> In p (succ c) -> p < n) ->
    pops B contents pop ->
    (forall c seen b, Permutation (contents (push c seen b)) (pushed c seen ++ contents b)) ->
    selects succ w pushed ->
    s < n -> contents b = [s] ->
    Post succ stop I s (gloop B pop push stop (walk_fuel g) b I []).
  Proof.
    intros stop succ B contents pop push pushed b I s Hlt Hpop Hpush Hsel Hs Hb.
    apply (gloop_post succ n w Hlt B contents pop push pushed Hpop Hpush Hsel stop I s); [exact Hs | |].
    - split; [constructor | intros x; simpl; tauto | rewrite Hb; apply front_init | intros x [] | apply prefixed_nil].
    - rewrite Hb, budget_nil. unfold walk_fuel, n. simpl. lia.
  Qed.

  Hypothesis Hclosed : dag_closed g = true.
  Variable stop : node -> bool.

  Lemma par_lt : forall c p : node, c < n -> In p (parents g c) -> p < n.
  Proof. intros c p _ H. eapply dag_closed_parent; eauto. Qed.

  Lemma parents_stored : forall c, Forall (fun p => p < n) (parents g c).
  Proof. intros c. apply Forall_forall. intros p. now apply dag_closed_parent. Qed.

  Lemma unseen_stored : forall seen c, Forall (fun p => p < n) (unseen_parents g seen c).
  Proof. intros seen c. apply (incl_Forall (incl_filter _ _)), parents_stored. Qed.

  Lemma forallb_present : forall l, Forall (fun x => x < n) l -> forallb (present g) l = true.
  Proof.
    intros l H. apply forallb_forall. rewrite Forall_forall in H.
    intros x Hx. now apply present_lt, H.
  Qed.

  Definition pre_push (c : node) (seen : list node) (st : list (list node)) :=
    unseen_parents g seen c :: st.

  Lemma pre_loop_eq : forall fuel (st : list (list node)) (seen acc : list node),
    Forall (fun x => x < n) (concat st) ->
    pre_loop g stop fuel st seen acc = gloop _ pop_frames pre_push stop fuel st seen acc.
  Proof.
    induction fuel as [|f IH]; intros st seen acc Hst; [reflexivity|].
    simpl. destruct (pop_frames st) as [[h st']|] eqn:Ep; [|reflexivity].
    rewrite (pop_frames_some _ _ _ Ep) in Hst. inversion_clear Hst as [|? ? Hh Hst'].
    rewrite (proj2 (present_lt g h) Hh). simpl.
    destruct (mem h seen); [now apply IH|]. destruct (stop h); [reflexivity|].
    apply IH, Forall_app. split; [apply unseen_stored | exact Hst'].
  Qed.

  Theorem pre_walk_post : forall (I : list node) (s : node), s < n ->
    Post (parents g) stop I s (pre_walk g stop (walk_fuel g) s I).
  Proof.
    intros I s Hs. unfold pre_walk. rewrite pre_loop_eq by (repeat constructor; exact Hs).
    apply (gloop_walk_post stop (parents g) _ (@concat node) _ _ (fun c seen => unseen_parents g seen c));
      [exact par_lt | exact pops_frames | reflexivity | exact (selects_unseen _ _ (fun c => le_n _)) | exact Hs | reflexivity].
  Qed.

  Definition post_push (c : node) (_ : list node) (st : list node) := rev (parents g c) ++ st.

  Lemma post_loop_eq : forall fuel (st seen acc : list node),
    Forall (fun x => x < n) st ->
    post_loop g stop fuel st seen acc = gloop _ pop_list post_push stop fuel st seen acc.
  Proof.
    induction fuel as [|f IH]; intros st seen acc Hst; [reflexivity|].
    destruct st as [|c st']; [reflexivity|]. simpl. apply Forall_inv_tail in Hst.
    destruct (mem c seen); [now apply IH|].
    rewrite (forallb_present _ (parents_stored c)). simpl. destruct (stop c); [reflexivity|].
    apply IH, Forall_app. split; [apply Forall_rev, parents_stored | exact Hst].
  Qed.

  Theorem post_walk_post : forall (I : list node) (s : node), s < n ->
    Post (parents g) stop I s (post_walk g stop (walk_fuel g) s I).
  Proof.
    intros I s Hs. unfold post_walk. rewrite post_loop_eq by (repeat constructor; exact Hs).
    apply (gloop_walk_post stop (parents g) _ (fun l => l) _ _ (fun c _ => rev (parents g c)));
      [exact par_lt | exact pops_list | reflexivity | | exact Hs | reflexivity].
    split; intros c seen.
    - intros x. apply in_rev.
    - intros p Hp _. now apply in_rev in Hp.
    - unfold w. now rewrite rev_length.
  Qed.

  Definition fp_succ (c : node) : list node :=
    match parents g c with [] => [] | p0 :: _ => [p0] end.
  Definition fp_push (c : node) (_ : list node) (st : list node) :=
    rev (first_parent_pushes (parents g c)) ++ st.

  Lemma fp_succ_incl : forall c, incl (fp_succ c) (parents g c).
  Proof. intros c. unfold fp_succ. destruct (parents g c); [apply incl_refl|]. intros x [<-|[]]. now left. Qed.

  Lemma first_parent_pushes_incl : forall ps, incl (first_parent_pushes ps) ps.
  Proof. intros [|p0 r]; [apply incl_refl | apply incl_filter]. Qed.

  (* the copies of ParentHashes[0] *)
  Lemma first_parent_pushes_in : forall c x,
    In x (first_parent_pushes (parents g c)) <-> In x (fp_succ c).
  Proof.
    intros c x. unfold fp_succ, first_parent_pushes. destruct (parents g c) as [|p0 r]; [tauto|].
    rewrite filter_In, Nat.eqb_eq. simpl. intuition (subst; auto).
  Qed.

  Lemma postfp_loop_eq : forall fuel (st seen acc : list node),
    Forall (fun x => x < n) st ->
    postfp_loop g stop fuel st seen acc = gloop _ pop_list fp_push stop fuel st seen acc.
  Proof.
    induction fuel as [|f IH]; intros st seen acc Hst; [reflexivity|].
    destruct st as [|c st']; [reflexivity|]. simpl. apply Forall_inv_tail in Hst.
    destruct (mem c seen); [now apply IH|].
    rewrite (forallb_present _ (parents_stored c)). simpl. destruct (stop c); [reflexivity|].
    apply IH, Forall_app. split; [|exact Hst].
    apply Forall_rev, (incl_Forall (first_parent_pushes_incl _)), parents_stored.
  Qed.

  Theorem postfp_walk_post : forall (I : list node) (s : node), s < n ->
    Post fp_succ stop I s (postfp_walk g stop (walk_fuel g) s I).
  Proof.
    intros I s Hs. unfold postfp_walk. rewrite postfp_loop_eq by (repeat constructor; exact Hs).
    apply (gloop_walk_post stop fp_succ _ (fun l => l) _ _ (fun c _ => rev (first_parent_pushes (parents g c))));
      [ | exact pops_list | reflexivity | | exact Hs | reflexivity].
    - intros c p Hc Hp. apply (par_lt c p Hc). now apply fp_succ_incl.
    - split; intros c seen.
      + intros x Hx. now apply in_rev, first_parent_pushes_in in Hx.
      + intros p Hp _. rewrite <- in_rev. now apply first_parent_pushes_in.
      + unfold w. rewrite rev_length. destruct (parents g c); [apply Nat.le_refl | apply filter_length_le'].
  Qed.

  Definition bfs_push (c : node) (seen : list node) (q : list node) := q ++ unseen_parents g seen c.

  Lemma bfs_loop_eq : forall fuel (q seen acc : list node),
    Forall (fun x => x < n) q ->
    bfs_loop g stop fuel q seen acc = gloop _ pop_list bfs_push stop fuel q seen acc.
  Proof.
    induction fuel as [|f IH]; intros q seen acc Hq; [reflexivity|].
    destruct q as [|c q']; [reflexivity|]. simpl. apply Forall_inv_tail in Hq.
    destruct (mem c seen); [now apply IH|].
    rewrite (forallb_present _ (unseen_stored (c :: seen) c)). simpl. destruct (stop c); [reflexivity|].
    apply IH, Forall_app. split; [exact Hq | apply unseen_stored].
  Qed.

  Theorem bfs_walk_post : forall (I : list node) (s : node), s < n ->
    Post (parents g) stop I s (bfs_walk g stop (walk_fuel g) s I).
  Proof.
    intros I s Hs. unfold bfs_walk. rewrite bfs_loop_eq by (repeat constructor; exact Hs).
    apply (gloop_walk_post stop (parents g) _ (fun l => l) _ _ (fun c seen => unseen_parents g seen c));
      [exact par_lt | exact pops_list | | exact (selects_unseen _ _ (fun c => le_n _)) | exact Hs | reflexivity].
    intros c seen b. apply Permutation_app_comm.
  Qed.
End Walkers.

Lemma ra_fp_reach : forall g s x, ra (fp_succ g) [] s x <-> fp_reach g s x.
Proof.
  intros g s x. split.
  - intros H. induction H as [_ | y x Hy IH Hp _].
    + constructor.
    + unfold fp_succ in Hp. destruct (parents g y) as [|p0 r] eqn:E; [contradiction|].
      destruct Hp as [Hp|[]]. subst x.
      clear Hy. induction IH as [c | c p r' a Hc Hr IH'].
      * eapply fp_step; [exact E | constructor].
      * eapply fp_step; [exact Hc | now apply IH'].
  - intros H.
    enough (G : forall c, fp_reach g c x -> ra (fp_succ g) [] s c -> ra (fp_succ g) [] s x)
      by (apply (G s H); constructor; intros []).
    clear H. intros c H. induction H as [c | c p r a Hp _ IH]; intros Hc; [exact Hc|].
    apply IH. eapply ra_step; [exact Hc | | intros []]. unfold fp_succ. rewrite Hp. now left.
Qed.
