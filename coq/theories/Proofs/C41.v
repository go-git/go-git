(* Proofs/C41.v — shell quoting is injection-free: the spec lexer of
   Spec/ShWords.v splits what Model/ShellQuote.v builds into the words it was
   built from, and git-shell's dequoting recovers them. *)
From Coq Require Import List NArith Arith Lia Bool.
From GoGit Require Import Base.Out Model.ShellQuote Spec.ShWords.
Import ListNotations.
Local Open Scope N_scope.

Lemma lex_plain w r cur acc :
  forallb plain w = true ->
  lex (w ++ r) false cur acc =
  lex r false (match w, cur with [], _ => cur | _, Some c => Some (c ++ w) | _, None => Some w end) acc.
Proof.
  revert cur. induction w as [|c w IH]; intros cur Hp; [reflexivity|].
  cbn [forallb] in Hp. apply andb_true_iff in Hp as [Hc Hw].
  unfold plain in Hc. apply negb_true_iff in Hc.
  apply orb_false_iff in Hc as [Hc Hbs]. apply orb_false_iff in Hc as [Hc Hsq].
  apply orb_false_iff in Hc as [Hsp Hbl].
  cbn [app lex]. rewrite Hsq, Hbs, Hbl, Hsp. rewrite IH by assumption.
  destruct w, cur; cbn; rewrite <- ?app_assoc; reflexivity.
Qed.

(* inside a quote, after the opening SQ: body then closing SQ *)
Lemma lex_inq body r w acc :
  lex (flat_map quote1 body ++ SQ :: r) true (Some w) acc = lex r false (Some (w ++ body)) acc.
Proof.
  revert w. induction body as [|c b IH]; intros w.
  - cbn. rewrite app_nil_r. reflexivity.
  - cbn [flat_map]. rewrite <- app_assoc. unfold quote1 at 1.
    destruct ((c =? SQ) || (c =? BANG)) eqn:E.
    + (* ' \ c ' : close, escaped c, reopen *)
      cbn. rewrite IH. rewrite <- app_assoc. reflexivity.
    + apply orb_false_iff in E as [E1 E2]. cbn [app lex]. rewrite E1. rewrite IH.
      rewrite <- app_assoc. reflexivity.
Qed.

Lemma lex_quote s r cur acc :
  lex (quote s ++ r) false cur acc =
  lex r false (Some ((match cur with Some w => w | None => [] end) ++ s)) acc.
Proof.
  unfold quote. cbn [app lex]. rewrite <- app_assoc. cbn [app]. apply lex_inq.
Qed.

Lemma lex_args args : forall cur0 acc,
  lex (flat_map (fun a => SP :: quote a) args) false (Some cur0) acc
  = Some (rev acc ++ cur0 :: args).
Proof.
  induction args as [|a args IH]; intros cur0 acc.
  - cbn. reflexivity.
  - cbn [flat_map]. rewrite <- app_comm_cons.
    assert (E : forall r, lex (SP :: r) false (Some cur0) acc = lex r false None (cur0 :: acc))
      by (intro r; reflexivity).
    rewrite E, lex_quote. cbn [app]. rewrite IH. cbn [rev]. rewrite <- app_assoc. reflexivity.
Qed.

Lemma sh_words_build cmd path args :
  cmd <> [] -> forallb plain cmd = true ->
  sh_words (build cmd path args) = Some (cmd :: path :: args).
Proof.
  intros Hne Hp. unfold sh_words, build. rewrite lex_plain by assumption.
  destruct cmd as [|c cmd]; [congruence|].
  assert (E : forall r, lex ([SP] ++ r) false (Some (c :: cmd)) [] = lex r false None [c :: cmd])
    by (intro r; reflexivity).
  rewrite E, lex_quote. cbn [app]. rewrite lex_args. reflexivity.
Qed.

Definition no_nul (s : bytes) : bool := forallb (fun c => negb (c =? 0)) s.

Definition after_close (hn : bool) (acc tail : bytes) : option (bytes * option bytes) :=
  match tail with
  | [] => Some (acc, None)
  | _ => if hn then Some (acc, Some tail) else None
  end.

(* inside a quote: the quoted body, the closing quote, then a tail that does
   not resume (empty, or not starting with a backslash) *)
Lemma sq_step_body hn body : forall fuel tail acc,
  (List.length (flat_map quote1 body) < fuel)%nat ->
  match tail with [] => True | d :: _ => (d =? BS) = false end ->
  sq_step hn fuel (flat_map quote1 body ++ SQ :: tail) acc = after_close hn (acc ++ body) tail.
Proof.
  induction body as [|c b IH]; intros fuel tail acc Hf Ht.
  - cbn [flat_map app List.length] in *. rewrite app_nil_r.
    destruct fuel as [|fuel]; [lia|]. cbn [sq_step]. rewrite N.eqb_refl.
    destruct tail as [|d r]; [reflexivity|]. rewrite Ht. reflexivity.
  - cbn [flat_map] in *. rewrite <- app_assoc. rewrite app_length in Hf.
    unfold quote1 at 1. unfold quote1 at 1 in Hf.
    destruct ((c =? SQ) || (c =? BANG)) eqn:E.
    + cbn [List.length] in Hf.
      destruct fuel as [|fuel]; [lia|].
      cbn [app sq_step]. rewrite !N.eqb_refl. rewrite E. cbn [andb].
      rewrite IH; [|simpl in Hf; lia|assumption].
      rewrite <- app_assoc. reflexivity.
    + apply orb_false_iff in E as [E1 E2]. cbn [List.length] in Hf.
      destruct fuel as [|fuel]; [lia|].
      cbn [app sq_step]. rewrite E1. rewrite IH; [|simpl in Hf; lia|assumption].
      rewrite <- app_assoc. reflexivity.
Qed.

Lemma quote_length s : (List.length (flat_map quote1 s) <= 4 * List.length s)%nat.
Proof.
  induction s as [|c s IH]; cbn [flat_map List.length]; [lia|].
  rewrite app_length. unfold quote1 at 1. destruct ((c =? SQ) || (c =? BANG)); simpl List.length; lia.
Qed.

Lemma sq_dequote_step_quote hn s tail :
  match tail with [] => True | d :: _ => (d =? BS) = false end ->
  sq_dequote_step hn (quote s ++ tail) = after_close hn s tail.
Proof.
  intros Ht. unfold sq_dequote_step, quote. cbn [app]. rewrite N.eqb_refl.
  rewrite <- app_assoc. cbn [app].
  rewrite sq_step_body; [reflexivity| |assumption].
  rewrite !app_length. cbn [List.length]. lia.
Qed.

Lemma sq_dequote_quote s : sq_dequote (quote s) = Some s.
Proof.
  unfold sq_dequote. rewrite <- (app_nil_r (quote s)).
  rewrite sq_dequote_step_quote by exact I. reflexivity.
Qed.

Lemma sq_dequote_argv_quotes args : forall a fuel acc,
  (List.length args < fuel)%nat ->
  sq_dequote_argv fuel (quote a ++ flat_map (fun x => SP :: quote x) args) acc
  = Some (rev acc ++ a :: args).
Proof.
  induction args as [|b args IH]; intros a fuel acc Hf.
  - cbn [flat_map]. destruct fuel as [|fuel]; [cbn in Hf; lia|].
    cbn [sq_dequote_argv]. rewrite sq_dequote_step_quote by exact I.
    cbn. reflexivity.
  - cbn [flat_map List.length] in *. destruct fuel as [|fuel]; [lia|].
    cbn [sq_dequote_argv]. rewrite sq_dequote_step_quote by reflexivity.
    cbn [after_close app].
    change (gspace SP) with true. cbn iota.
    change (skip_gspace (quote b ++ flat_map (fun x => SP :: quote x) args))
      with (quote b ++ flat_map (fun x => SP :: quote x) args).
    rewrite IH by lia. cbn [rev]. rewrite <- app_assoc. reflexivity.
Qed.
