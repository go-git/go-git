(* Proofs/C27TrieMain.v — assembling Proofs/C27Trie.v: status_rec = status of the flattened state
   for every well-formed state (ts_wf), hence git's listing under ok_path. *)
From Coq Require Import List NArith ZArith Bool Arith.
From GoGit Require Import Base.Out Model.Status Model.StatusTrie Spec.GitStatus Spec.GitStatusTrie Proofs.C27 Proofs.C27Trie.
From GoGit Require Model.DiffTree Spec.MapDiff Proofs.C44_diff Proofs.C44_spec Proofs.C44_paths.
Import ListNotations.
Local Open Scope N_scope.

(* names distinct per directory, names non-empty and free of '/', HEAD leaves well-formed *)
Definition ts_wf (ts : tstate) : bool :=
  MapDiff.tree_ok (ts_head ts) && MapDiff.tree_ok (ts_index ts) && MapDiff.tree_ok (ts_wt ts) &&
  C44_paths.names_ok (ts_head ts) && C44_paths.names_ok (ts_index ts) && C44_paths.names_ok (ts_wt ts) &&
  forallb (fun pl => head_leaf_ok (snd pl)) (fl (ts_head ts)).

Lemma ffm_ext f g pre m : (forall p l, f p l = g p l) -> ffm f pre m = ffm g pre m.
Proof. intros H. unfold ffm. apply flat_map_ext. intros [p l]. cbn [fst snd]. now rewrite H. Qed.

Lemma ffm_id f m : (forall p l, In (p, l) m -> f p l = Some l) -> ffm f [] m = m.
Proof.
  induction m as [|[p l] m IH]; intros H; [reflexivity|].
  unfold ffm in *. cbn [flat_map fst snd app]. rewrite (H p l (or_introl eq_refl)). cbn [app]. f_equal.
  apply IH. intros p' l' Hi. apply H. now right.
Qed.

Lemma listing_ext m1 m2 ps : (forall q, sget m1 q = sget m2 q) -> listing m1 ps = listing m2 ps.
Proof. intros H. unfold listing. apply flat_map_ext. intros p. now rewrite H. Qed.

Lemma paths_ok_fl t : C44_paths.names_ok t = true -> paths_ok (fl t).
Proof. intros H p l Hi. eapply C44_paths.flatten_paths_ok; eassumption. Qed.

(* one walk, as a change list characterised per joined path *)
Lemma walk_char (X Y : list (dpath * dleaf)) hx hy a b :
  paths_ok X -> paths_ok Y -> C44_spec.keys_unique X -> C44_spec.keys_unique Y ->
  MapDiff.tree_ok a = true -> MapDiff.tree_ok b = true ->
  fl a = ffm (fun p l => Some (enc (hx (p, l)))) [] X ->
  fl b = ffm (fun p l => option_map enc (hy (p, l))) [] Y ->
  exists cs, DiffTree.difftree a b = Some cs /\
             NoDup (map fst (map change_of cs)) /\
             forall q, assoc q (map change_of cs) = chg X Y hx hy q.
Proof.
  intros HpX HpY HkX HkY Ha Hb Ea Eb.
  destruct (C44_spec.difftree_spec a b Ha Hb) as (cs & Hd & Hs).
  unfold MapDiff.flatten in Hs. fold (fl a) (fl b) in Hs. rewrite Ea, Eb in Hs.
  exists cs. split; [exact Hd|].
  assert (Hn : NoDup (map fst (map change_of cs))).
  { rewrite map_map. apply C44_diff.NoDup_map_in; [exact (C44_spec.difftree_nodup a b cs Ha Hb Hd)|].
    intros c c' Hc Hc' E. apply Hs in Hc, Hc'.
    eapply (spec_same_path X Y hx hy HpX HpY HkX HkY); eassumption. }
  split; [exact Hn|].
  apply assoc_char; [exact Hn|]. intros q act. split.
  - intros Hi. apply in_map_iff in Hi as (c & Ec & Hc). apply Hs in Hc.
    pose proof (spec_to_chg X Y hx hy HpX HpY HkX HkY c Hc) as H. rewrite Ec in H. exact H.
  - intros Hq. destruct (chg_to_spec X Y hx hy HpX HpY HkY q act Hq) as (c & Hc & Ec).
    apply in_map_iff. exists c. split; [exact Ec|]. now apply Hs.
Qed.

Section Main.
Variables (ts : tstate) (ig : dpath -> bool).
Hypothesis WF : ts_wf ts = true.

Let s := flat_of ts ig.
Let s0 := flat_of ts (fun _ => false).
Let XH := fl (ts_head ts).
Let XI := fl (ts_index ts).
Let XW := fl (ts_wt ts).

Definition hxH (pl : dpath * dleaf) : nhash := tnode_hash (dec_t pl).
Definition hyI (uphold : bool) (pl : dpath * dleaf) : option nhash := Some (inode_hash uphold (dec_i pl)).
Definition hxI (uphold : bool) (pl : dpath * dleaf) : nhash := inode_hash uphold (dec_i pl).
Definition hyW (pl : dpath * dleaf) : option nhash :=
  let f := dec_w ts (fun _ => false) pl in
  if wt_visible s0 f then Some (wnode_hash s0 f) else None.

Lemma wf_parts :
  MapDiff.tree_ok (ts_head ts) = true /\ MapDiff.tree_ok (ts_index ts) = true /\ MapDiff.tree_ok (ts_wt ts) = true /\
  C44_paths.names_ok (ts_head ts) = true /\ C44_paths.names_ok (ts_index ts) = true /\ C44_paths.names_ok (ts_wt ts) = true /\
  forallb (fun pl => head_leaf_ok (snd pl)) (fl (ts_head ts)) = true.
Proof.
  pose proof WF as W. unfold ts_wf in W. do 6 (apply andb_true_iff in W as [W ?]). repeat split; assumption.
Qed.

Lemma left_is_chg q : left_change s q = chg XH XI hxH (hyI true) q.
Proof.
  unfold left_change, chg, s, flat_of. cbn [st_head st_index]. rewrite find_t_dec, find_i_dec.
  fold XH XI. destruct (find_j XH q), (find_j XI q); reflexivity.
Qed.

Lemma right_is_chg q : right_change s q = chg XI XW (hxI (ts_filemode ts)) hyW q.
Proof.
  unfold right_change, chg, s, flat_of. cbn [st_index st_wt st_filemode]. rewrite find_i_dec, find_w_dec.
  fold XI XW. destruct (find_j XI q), (find_j XW q); reflexivity.
Qed.

Lemma head_as_ffm : ffm (fun p l => Some (enc (hxH (p, l)))) [] XH = XH.
Proof.
  destruct wf_parts as (_ & _ & _ & _ & _ & _ & HL). rewrite forallb_forall in HL.
  apply ffm_id. intros p l Hi. f_equal. apply head_leaf_enc. apply (HL (p, l) Hi).
Qed.

Lemma index_as_ffm u : fl (index_tree ts u) = ffm (fun p l => option_map enc (hyI u (p, l))) [] XI.
Proof. unfold index_tree. rewrite files_tfm. reflexivity. Qed.

Lemma wt_as_ffm : fl (fs_tree ts) = ffm (fun p l => option_map enc (hyW (p, l))) [] XW.
Proof.
  unfold fs_tree. rewrite files_tfm. apply ffm_ext. intros p l. unfold f_wt, hyW. fold s0.
  destruct (wt_visible s0 (dec_w ts (fun _ => false) (p, l))); reflexivity.
Qed.

Lemma status_rec_flat ps : status_rec ts ps = Some (status s ps).
Proof.
  destruct wf_parts as (TH & TI & TW & NH & NI & NW & HL).
  pose proof (paths_ok_fl _ NH) as PH. pose proof (paths_ok_fl _ NI) as PI. pose proof (paths_ok_fl _ NW) as PW.
  pose proof (C44_spec.flatten_keys_unique _ TH) as KH. pose proof (C44_spec.flatten_keys_unique _ TI) as KI. pose proof (C44_spec.flatten_keys_unique _ TW) as KW.
  destruct (walk_char XH XI hxH (hyI true) (ts_head ts) (index_tree ts true) PH PI KH KI TH
              (tree_ok_tfm _ _ TI) (eq_sym head_as_ffm) (index_as_ffm true)) as (csL & DL & NL & CL).
  destruct (walk_char XI XW (hxI (ts_filemode ts)) hyW (index_tree ts (ts_filemode ts)) (fs_tree ts) PI PW KI KW
              (tree_ok_tfm _ _ TI) (tree_ok_tfm _ _ TW) (index_as_ffm _) wt_as_ffm) as (csR & DR & NR & CR).
  unfold status_rec. rewrite DL, DR. f_equal. unfold status. apply listing_ext. intros q.
  rewrite status_map_get. unfold fold_status.
  rewrite sget_fold_right_apply by exact NR. unfold sfile. rewrite sget_fold_left_apply by exact NL.
  rewrite CL, CR, <- left_is_chg, <- right_is_chg. cbn [sget].
  destruct (left_change s q), (right_change s q); reflexivity.
Qed.

End Main.

Lemma git_status_noskip ts ps : ts_skip ts = [] -> git_status_ts ts ps = git_status (flat_git ts) ps.
Proof.
  intros H. unfold git_status_ts, git_status. apply flat_map_ext. intros p.
  unfold git_records_ts, git_records. rewrite H. reflexivity.
Qed.

Lemma status_rec_git ts ps :
  ts_wf ts = true -> ts_skip ts = [] -> forallb (ok_path (flat_git ts)) ps = true ->
  status_rec ts ps = Some (git_status_ts ts ps).
Proof.
  intros W K G. unfold flat_git in *. rewrite (status_rec_flat ts (ign_git ts) W ps).
  rewrite git_status_noskip by exact K. f_equal. now apply status_eq_git.
Qed.
