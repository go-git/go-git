(* Proofs/C15b.v — the two containers of the reference store: the list of
   loose files and the lines of packed-refs (lookup / update algebra, first
   occurrence semantics, removal, re-rendering). *)
From Coq Require Import List Arith NArith Bool String.
From GoGit Require Import Base.Out Model.RefStrings Model.RefName Model.RefGuard Model.RefStore Gen.C14
  Proofs.C13 Proofs.C15a.
Import ListNotations.
Local Open Scope N_scope.

Lemma beqb_refl a : beqb a a = true.
Proof. now apply beqb_eq. Qed.
Lemma beqb_sym a b : beqb a b = beqb b a.
Proof. apply eq_iff_eq_true. rewrite !beqb_eq. split; congruence. Qed.

Lemma existsb_beqb_in (n : bytes) l : existsb (beqb n) l = true <-> In n l.
Proof.
  split.
  - intros H. apply existsb_exists in H as [x [Hx E]]. apply beqb_eq in E. now subst.
  - intros H. apply existsb_exists. exists n. split; [assumption|apply beqb_refl].
Qed.

Fixpoint nodup_keys (l : list (bytes * bytes)) : bool :=
  match l with
  | [] => true
  | (p, _) :: r => negb (existsb (fun e => beqb p (fst e)) r) && nodup_keys r
  end.

Lemma lookup_set_same p c l : lookup p (set_file p c l) = Some c.
Proof.
  induction l as [|[q d] l IH]; cbn; [now rewrite beqb_refl|].
  destruct (beqb p q) eqn:E; cbn; [now rewrite beqb_refl|now rewrite E].
Qed.

Lemma lookup_set_other p q c l : beqb q p = false -> lookup q (set_file p c l) = lookup q l.
Proof.
  intros H. induction l as [|[r d] l IH]; cbn; [now rewrite H|].
  destruct (beqb p r) eqn:E; cbn.
  - apply beqb_eq in E. subst r. now rewrite H.
  - destruct (beqb q r); [reflexivity|exact IH].
Qed.

Lemma lookup_filter (f : bytes -> bool) q l :
  lookup q (filter (fun e => f (fst e)) l) = if f q then lookup q l else None.
Proof.
  induction l as [|[r d] l IH]; cbn; [now destruct (f q)|].
  destruct (f r) eqn:Ef; cbn.
  - destruct (beqb q r) eqn:E; [apply beqb_eq in E; subst; now rewrite Ef|exact IH].
  - destruct (beqb q r) eqn:E; [apply beqb_eq in E; subst; rewrite Ef in *; exact IH|exact IH].
Qed.

Lemma lookup_del_same p l : lookup p (del_file p l) = None.
Proof. unfold del_file. rewrite (lookup_filter (fun x => negb (beqb p x))). now rewrite beqb_refl. Qed.

Lemma lookup_del_other p q l : beqb q p = false -> lookup q (del_file p l) = lookup q l.
Proof.
  intros H. unfold del_file. rewrite (lookup_filter (fun x => negb (beqb p x))).
  now rewrite beqb_sym, H.
Qed.

Lemma keys_set p c l q :
  existsb (fun e => beqb q (fst e)) (set_file p c l) = beqb q p || existsb (fun e => beqb q (fst e)) l.
Proof.
  induction l as [|[r d] l IH]; cbn; [now rewrite orb_false_r|].
  destruct (beqb p r) eqn:E; cbn.
  - apply beqb_eq in E. subst r. now destruct (beqb q p).
  - rewrite IH. destruct (beqb q p), (beqb q r); reflexivity.
Qed.

Lemma nodup_set p c l : nodup_keys l = true -> nodup_keys (set_file p c l) = true.
Proof.
  induction l as [|[r d] l IH]; intros H; [reflexivity|].
  cbn in H. apply andb_true_iff in H as [Hr H]. cbn [set_file].
  destruct (beqb p r) eqn:E.
  - apply beqb_eq in E. subst r. cbn. now rewrite Hr, H.
  - cbn. rewrite keys_set, (beqb_sym r p), E. cbn [orb]. now rewrite Hr, IH.
Qed.

Lemma existsb_filter {A} (g f : A -> bool) l : existsb g l = false -> existsb g (filter f l) = false.
Proof.
  induction l as [|x l IH]; intros H; [reflexivity|]. cbn in *.
  apply orb_false_iff in H as [Hx H]. destruct (f x); cbn; [rewrite Hx|]; auto.
Qed.

Lemma nodup_filter f l : nodup_keys l = true -> nodup_keys (filter f l) = true.
Proof.
  induction l as [|[r d] l IH]; intros H; [reflexivity|].
  cbn in H. apply andb_true_iff in H as [Hr H]. apply negb_true_iff in Hr. cbn [filter].
  destruct (f (r, d)); [|auto]. cbn. rewrite existsb_filter by assumption. cbn. auto.
Qed.

Lemma lookup_in p c l : In (p, c) l -> nodup_keys l = true -> lookup p l = Some c.
Proof.
  induction l as [|[r d] l IH]; intros Hin Hn; [contradiction|].
  cbn in Hn. apply andb_true_iff in Hn as [Hr Hn]. apply negb_true_iff in Hr.
  destruct Hin as [Hin|Hin].
  - injection Hin as -> ->. cbn. now rewrite beqb_refl.
  - cbn. destruct (beqb p r) eqn:E; [|auto].
    apply beqb_eq in E. subst r.
    apply (existsb_In _ _ _ Hr) in Hin. cbn in Hin. now rewrite beqb_refl in Hin.
Qed.

Lemma in_lookup p c l : lookup p l = Some c -> In (p, c) l.
Proof.
  induction l as [|[r d] l IH]; [discriminate|]. cbn. destruct (beqb p r) eqn:E.
  - apply beqb_eq in E. subst r. intros H. injection H as ->. now left.
  - intros H. right. auto.
Qed.

Definition parses (l : bytes) : bool := match process_line l with None => false | Some _ => true end.
Definition all_parse (lines : list bytes) : bool := forallb parses lines.

Lemma find_packed_total name lines : all_parse lines = true -> exists r, find_packed name lines = Ok r.
Proof.
  induction lines as [|l r IH]; intros H; [now exists None|].
  cbn in H. apply andb_true_iff in H as [Hl H]. unfold parses in Hl. cbn [find_packed].
  destruct (process_line l) as [[[n v]|]|]; [|auto|discriminate].
  destruct (beqb n name); [now exists (Some v)|auto].
Qed.

(* the packed entries a listing adds: first occurrence of each name not seen yet *)
Fixpoint first_occ (lines : list bytes) (seen : list bytes) : list (bytes * refval) :=
  match lines with
  | [] => []
  | l :: r =>
    match process_line l with
    | Some (Some (n, v)) =>
      if existsb (beqb n) seen then first_occ r seen else (n, v) :: first_occ r (n :: seen)
    | _ => first_occ r seen
    end
  end.

Lemma packed_all_first lines : forall seen acc,
  all_parse lines = true -> packed_all lines seen acc = Ok (rev acc ++ first_occ lines seen).
Proof.
  induction lines as [|l r IH]; intros seen acc H.
  - cbn. now rewrite app_nil_r.
  - cbn in H. apply andb_true_iff in H as [Hl H]. unfold parses in Hl. cbn [packed_all first_occ].
    destruct (process_line l) as [[[n v]|]|]; [|auto|discriminate].
    destruct (existsb (beqb n) seen); [auto|]. rewrite IH by assumption. cbn [rev]. now rewrite <- app_assoc.
Qed.

Lemma first_occ_unseen lines : forall seen n v,
  In (n, v) (first_occ lines seen) -> existsb (beqb n) seen = false.
Proof.
  induction lines as [|l r IH]; intros seen n v H; [contradiction|]. cbn [first_occ] in H.
  destruct (process_line l) as [[[m w]|]|]; eauto.
  destruct (existsb (beqb m) seen) eqn:E; [eauto|].
  destruct H as [H|H]; [injection H as -> ->; assumption|].
  apply IH in H. cbn in H. now apply orb_false_iff in H as [_ H].
Qed.

Lemma first_occ_in lines : forall seen n v,
  all_parse lines = true ->
  (In (n, v) (first_occ lines seen) <->
   existsb (beqb n) seen = false /\ find_packed n lines = Ok (Some v)).
Proof.
  induction lines as [|l r IH]; intros seen n v H.
  - cbn. split; [contradiction|intros [_ E]; discriminate].
  - cbn in H. apply andb_true_iff in H as [Hl H]. unfold parses in Hl. cbn [first_occ find_packed].
    destruct (process_line l) as [[[m w]|]|]; [|now apply IH|discriminate].
    destruct (beqb m n) eqn:E; [apply beqb_eq in E; subst m|].
    + (* the line names n: it is n's entry unless n was seen already *)
      destruct (existsb (beqb n) seen) eqn:Es; [|cbn [In]]; rewrite IH by assumption.
      * rewrite Es. intuition congruence.
      * cbn [existsb]. rewrite beqb_refl. cbn [orb]. intuition congruence.
    + destruct (existsb (beqb m) seen) eqn:Es; [now apply IH|]. cbn [In]. rewrite IH by assumption.
      cbn [existsb]. rewrite (beqb_sym n m), E. apply beqb_false in E. cbn [orb]. intuition congruence.
Qed.

Lemma first_occ_val lines seen n v : all_parse lines = true ->
  (In (n, v) (first_occ lines seen) <->
   ~ In n seen /\ match find_packed n lines with Ok r => r | Er _ => None end = Some v).
Proof.
  intros H. rewrite first_occ_in by assumption. destruct (find_packed_total n lines H) as [r ->].
  rewrite <- not_true_iff_false, existsb_beqb_in. split; intros [Hs Hf]; (split; [assumption|congruence]).
Qed.

Lemma first_occ_nodup lines : forall seen, NoDup (map fst (first_occ lines seen)).
Proof.
  induction lines as [|l r IH]; intros seen; [constructor|]. cbn [first_occ].
  destruct (process_line l) as [[[m w]|]|]; auto.
  destruct (existsb (beqb m) seen); [auto|]. cbn [map fst]. constructor; [|auto].
  intros Hin. apply in_map_iff in Hin as [[m' w'] [Em Hin]]. cbn in Em. subst m'.
  apply first_occ_unseen in Hin. cbn in Hin. rewrite beqb_refl in Hin. discriminate.
Qed.

(* rewritePackedRefsWithoutRef *)
Lemma drop_lines_spec name lines : all_parse lines = true -> forall rp,
  exists kept found,
    drop_lines name lines rp = Ok (kept, found) /\
    incl kept lines /\
    (forall x, find_packed x kept = if beqb x name then Ok None else find_packed x lines) /\
    (found = false -> find_packed name lines = Ok None).
Proof.
  induction lines as [|l r IH]; intros H rp.
  - exists [], false. cbn. repeat split; auto; [apply incl_refl|intros x; now destruct (beqb x name)].
  - cbn in H. apply andb_true_iff in H as [Hl H]. unfold parses in Hl.
    cbn [drop_lines find_packed].
    destruct (process_line l) as [pl|] eqn:EP; [|discriminate].
    destruct (match pl with Some (n, _) => beqb n name | None => false end) eqn:EN.
    + destruct pl as [[n v]|]; [|discriminate]. apply beqb_eq in EN. subst n.
      destruct (IH H true) as [kept [found [E [Hi [Hf _]]]]]. rewrite E.
      exists kept, true. repeat split; auto; [now apply incl_tl| |discriminate].
      intros x. rewrite Hf. rewrite (beqb_sym name x). now destruct (beqb x name).
    + destruct (rp && has_prefix [94] l) eqn:ER.
      * (* a peeled line after a removed one: a comment for every lookup *)
        destruct (IH H true) as [kept [found [E [Hi [Hf Hn]]]]]. rewrite E.
        apply andb_true_iff in ER as [_ ER].
        assert (EPN : pl = None).
        { destruct l as [|c l']; [discriminate|]. cbn [has_prefix] in ER. rewrite andb_true_r in ER.
          apply N.eqb_eq in ER. subst c. unfold process_line in EP.
          change ((94 =? 35) || (94 =? 94)) with true in EP. now injection EP as <-. }
        subst pl. exists kept, found. repeat split; auto. now apply incl_tl.
      * destruct (IH H false) as [kept [found [E [Hi [Hf Hn]]]]]. rewrite E.
        exists (l :: kept), found. repeat split.
        -- intros y [<-|Hy]; [now left|right; auto].
        -- intros x. cbn [find_packed]. rewrite EP, Hf. destruct (beqb x name) eqn:Ex; [|reflexivity].
           apply beqb_eq in Ex. subst x. destruct pl as [[m w]|]; [now rewrite EN|reflexivity].
        -- intros Hfd. destruct pl as [[m w]|]; [rewrite EN|]; auto.
Qed.

(* the value packed_line leaves findable for x: symbolic entries are not written (find_render) *)
Fixpoint assoc_h (x : bytes) (L : list (bytes * refval)) : option refval :=
  match L with
  | [] => None
  | (n, v) :: r => if is_hash_ref (n, v) && beqb n x then Some v else assoc_h x r
  end.

Lemma assoc_h_app x L1 L2 :
  assoc_h x (L1 ++ L2) = match assoc_h x L1 with Some v => Some v | None => assoc_h x L2 end.
Proof.
  induction L1 as [|[n v] L1 IH]; [reflexivity|]. cbn [app assoc_h].
  destruct (is_hash_ref (n, v) && beqb n x); [reflexivity|exact IH].
Qed.

Definition renderable (e : bytes * refval) : bool :=
  match snd e with
  | VHash h f => hash_okb h f && negb (mem 32 (fst e))
  | VSym _ => true
  end.

Lemma find_render x L : forallb renderable L = true ->
  find_packed x (flat_map packed_line L) = Ok (assoc_h x L).
Proof.
  induction L as [|[n v] L IH]; intros H; [reflexivity|].
  cbn [forallb] in H. apply andb_true_iff in H as [He H].
  cbn [flat_map assoc_h]. unfold renderable in He. unfold packed_line at 1. cbn [fst snd] in *.
  destruct v as [h f|t].
  - apply andb_true_iff in He as [Hh Hn]. apply negb_true_iff in Hn.
    change ([hash_string h f ++ [32] ++ n] ++ flat_map packed_line L)
      with ((hash_string h f ++ [32] ++ n) :: flat_map packed_line L).
    cbn [find_packed is_hash_ref snd andb]. rewrite process_line_render by assumption.
    destruct (beqb n x); [reflexivity|auto].
  - cbn [app is_hash_ref snd andb]. auto.
Qed.

Lemma all_parse_render L : forallb renderable L = true -> all_parse (flat_map packed_line L) = true.
Proof.
  induction L as [|[n v] L IH]; intros H; [reflexivity|].
  cbn [forallb] in H. apply andb_true_iff in H as [He H]. cbn [flat_map].
  unfold all_parse. rewrite forallb_app. fold (all_parse (flat_map packed_line L)). rewrite IH by assumption.
  unfold renderable in He. unfold packed_line. cbn [fst snd] in *. destruct v as [h f|t]; [|reflexivity].
  apply andb_true_iff in He as [Hh Hn]. apply negb_true_iff in Hn.
  cbn [forallb]. unfold parses. now rewrite process_line_render.
Qed.
