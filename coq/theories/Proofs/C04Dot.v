(* Proofs/C04Dot.v — the whole-name level.  ValidTreePath tests the fields of a name
   (split at '/' and '\'), git's fsck_tree the whole name: an HFS+ .git holds no
   separator, git's is_ntfs_dotgit looks at the first field only, and git's
   .gitmodules verdict is Validate's two tests plus one it does not make.
   name_guard is the condition under which Properties/C04.v shows written trees fsck-clean. *)
From Coq Require Import List NArith ZArith Bool Lia ZifyBool ZifyNat ZifyN.
From GoGit Require Import Base.Out Gen.C04 Model.TreeObj Spec.GitTree Proofs.C04 Proofs.C04Utf8 Proofs.C04Hfs Proofs.C04Ntfs.
Import ListNotations.
Local Open Scope N_scope.

Definition nosep (s : bytes) : bool := forallb (fun c => negb (is_sep c)) s.

Lemma nosep_cons c s : nosep (c :: s) = true <-> is_sep c = false /\ nosep s = true.
Proof. unfold nosep. cbn [forallb]. rewrite andb_true_iff, negb_true_iff. tauto. Qed.

Lemma nosep_tlacks s : tlacks 47 s = true -> tlacks 92 s = true -> nosep s = true.
Proof.
  induction s as [|c s IH]; intros H1 H2; [reflexivity|].
  apply tlacks_cons in H1 as [C1 H1]. apply tlacks_cons in H2 as [C2 H2].
  apply nosep_cons. split; [unfold is_sep; lia|auto].
Qed.

Lemma tlacks_nosep s : nosep s = true -> tlacks 47 s = true /\ tlacks 92 s = true.
Proof.
  induction s as [|c s IH]; intros H; [split; reflexivity|].
  apply nosep_cons in H as [C H]. destruct (IH H) as [A B]. unfold is_sep in C.
  split; apply tlacks_cons; split; auto; lia.
Qed.

(* the first field of strings.FieldsFunc, empty if the string starts with a separator *)
Fixpoint seg (s : bytes) : bytes :=
  match s with [] => [] | c :: r => if is_sep c then [] else c :: seg r end.

Lemma nosep_seg s : nosep (seg s) = true.
Proof.
  induction s as [|c s IH]; [reflexivity|]. cbn [seg]. destruct (is_sep c) eqn:S; [reflexivity|].
  apply nosep_cons. now split.
Qed.

Lemma seg_nosep s : nosep s = true -> seg s = s.
Proof.
  induction s as [|c s IH]; intros H; [reflexivity|]. apply nosep_cons in H as [C H].
  cbn [seg]. now rewrite C, IH.
Qed.

(* what parts_go emits for its pending field [cur] (reversed) at a separator and at the end *)
Definition flush (cur : bytes) : list bytes := match cur with [] => [] | _ => [rev cur] end.

Lemma parts_go_sep pre : forall c r cur, is_sep c = true ->
  parts_go (pre ++ c :: r) cur = parts_go pre cur ++ parts_go r [].
Proof.
  induction pre as [|x pre IH]; intros c r cur S.
  - cbn [app parts_go]. rewrite S. destruct cur; reflexivity.
  - cbn [app parts_go]. destruct (is_sep x).
    + destruct cur; rewrite IH by exact S; reflexivity.
    + now apply IH.
Qed.

(* the pending field [cur] (reversed) and the first field of [s] make the first field *)
Lemma parts_go_first s : forall cur, rev cur ++ seg s <> [] -> exists tl, parts_go s cur = (rev cur ++ seg s) :: tl.
Proof.
  induction s as [|c s IH]; intros cur NE; cbn [seg parts_go] in *.
  - rewrite app_nil_r in *. destruct cur; [now elim NE|]. now exists [].
  - destruct (is_sep c).
    + rewrite app_nil_r in *. destruct cur; [now elim NE|]. eexists. reflexivity.
    + specialize (IH (c :: cur)). cbn [rev] in IH. rewrite <- app_assoc in IH. exact (IH NE).
Qed.

Lemma parts_seg s : seg s <> [] -> exists tl, parts s = seg s :: tl.
Proof. exact (parts_go_first s []). Qed.

Lemma parts_after_sep pre c r p : is_sep c = true -> In p (parts r) -> In p (parts (pre ++ c :: r)).
Proof. intros S H. unfold parts. rewrite parts_go_sep by exact S. apply in_or_app. now right. Qed.

Lemma valid_parts n : valid_tree_path n = true -> forall p, In p (parts n) -> bad_part p = false.
Proof.
  unfold valid_tree_path. intros H p Hp. apply andb_true_iff in H as [_ H].
  destruct (parts n) as [|q ps] eqn:P; [discriminate|]. apply negb_true_iff in H.
  destruct (bad_part p) eqn:B; [|reflexivity].
  assert (existsb bad_part (q :: ps) = true); [|congruence]. apply existsb_exists. now exists p.
Qed.

Lemma bad_hfs p : is_hfs_dot p N_git = true -> bad_part p = true.
Proof. intros H. unfold bad_part. rewrite H. now rewrite !orb_true_r. Qed.
Lemma bad_ntfs p : is_ntfs_dotgit p = true -> bad_part p = true.
Proof. intros H. unfold bad_part. rewrite H. now rewrite !orb_true_r. Qed.

(* an HFS+ ".git" holds no separator *)
Lemma is_ign_high a b c : is_ign a b c = true -> is_sep a = false /\ is_sep b = false /\ is_sep c = false.
Proof. intros H. apply is_ign_cases in H. unfold is_sep. lia. Qed.

Lemma skip_ign_nosep : forall n s, (List.length s <= n)%nat -> nosep (skip_ign s) = true -> nosep s = true.
Proof.
  induction n as [|n IH]; intros s L.
  - destruct s; [auto|cbn in L; lia].
  - rewrite skip_ign_eq. destruct s as [|a [|b [|c r]]]; auto.
    destruct (is_ign a b c) eqn:I; auto. intros H. destruct (is_ign_high a b c I) as (A & B & C).
    apply nosep_cons. split; [exact A|]. apply nosep_cons. split; [exact B|]. apply nosep_cons. split; [exact C|].
    apply IH; [cbn [List.length] in L; lia|exact H].
Qed.

Lemma lower_sep c : is_sep c = true -> lower c = c.
Proof. intros H. rewrite lower_c. unfold c_tolower, is_sep in *. destruct ((65 <=? c) && (c <=? 90)) eqn:E; lia. Qed.

Lemma hfs_needle_nosep : forall f ns s, nosep ns = true -> hfs_needle f s ns = true -> nosep s = true.
Proof.
  induction f as [|f IH]; intros ns s N H; [discriminate|]. cbn [hfs_needle] in H.
  apply (skip_ign_nosep _ s (Nat.le_refl _)).
  destruct ns as [|e ns].
  - destruct (skip_ign s); [reflexivity|discriminate].
  - destruct (skip_ign s) as [|c r]; [discriminate|].
    apply andb_true_iff in H as [H H3]. apply andb_true_iff in H as [H1 H2].
    apply nosep_cons in N as [Ne N]. apply nosep_cons. split; [|now apply (IH ns)].
    destruct (is_sep c) eqn:S; [|reflexivity]. rewrite (lower_sep c S) in H2.
    assert (c = e) by lia. subst. congruence.
Qed.

Lemma hfs_dot_nosep n needle : nosep needle = true -> is_hfs_dot n needle = true -> nosep n = true /\ n <> [].
Proof.
  intros N H. split; [|intros ->; discriminate H].
  rewrite is_hfs_dot_needle in H. apply hfs_needle_nosep in H; [exact H|]. apply nosep_cons. now split.
Qed.

(* git's is_ntfs_dotgit only looks at the first field *)
Lemma ntfs_tail_seg r : ntfs_tail (seg r) = ntfs_tail r.
Proof.
  induction r as [|c r IH]; [reflexivity|]. cbn [seg]. destruct (is_sep c) eqn:S.
  - cbn [ntfs_tail]. unfold is_sep in S. assert (E : (c =? 47) || (c =? 92) || (c =? 58) = true) by lia. now rewrite E.
  - cbn [ntfs_tail]. now rewrite IH.
Qed.

Lemma eqb_nosep c x : (c =? x) = true -> is_sep x = false -> is_sep c = false.
Proof. intros E. apply N.eqb_eq in E. now subst. Qed.

Lemma is_ch_nosep c x : is_ch c x = true -> is_sep x = false -> is_sep (x - 32) = false -> is_sep c = false.
Proof. unfold is_ch. intros E. apply orb_true_iff in E as [E|E]; apply N.eqb_eq in E; now subst. Qed.

Lemma git_ntfs_seg r : git_is_ntfs_dotgit r = true -> git_is_ntfs_dotgit (seg r) = true /\ seg r <> [].
Proof.
  unfold git_is_ntfs_dotgit at 1. destruct r as [|c p1]; [discriminate|].
  destruct (c =? 46) eqn:C46.
  - destruct p1 as [|g [|i [|t r']]]; try discriminate.
    destruct (is_ch g 103) eqn:G, (is_ch i 105) eqn:I, (is_ch t 116) eqn:T; try discriminate. cbn [negb orb]. intros H.
    cbn [seg]. rewrite (eqb_nosep c 46), (is_ch_nosep g 103), (is_ch_nosep i 105), (is_ch_nosep t 116)
      by (assumption || reflexivity).
    split; [|discriminate].
    unfold git_is_ntfs_dotgit. rewrite C46, G, I, T. cbn [negb orb]. now rewrite ntfs_tail_seg.
  - destruct (is_ch c 103) eqn:G; [|discriminate].
    destruct p1 as [|i [|t [|d [|e r']]]]; try discriminate.
    destruct (is_ch i 105) eqn:I, (is_ch t 116) eqn:T, (d =? 126) eqn:D, (e =? 49) eqn:E; try discriminate.
    cbn [negb orb]. intros H.
    cbn [seg]. rewrite (is_ch_nosep c 103), (is_ch_nosep i 105), (is_ch_nosep t 116), (eqb_nosep d 126), (eqb_nosep e 49)
      by (assumption || reflexivity).
    split; [|discriminate].
    unfold git_is_ntfs_dotgit. rewrite C46, G, I, T, D, E. cbn [negb orb]. now rewrite ntfs_tail_seg.
Qed.

Lemma git_ntfs_bad_part r : git_is_ntfs_dotgit r = true -> exists p, In p (parts r) /\ bad_part p = true.
Proof.
  intros H. destruct (git_ntfs_seg r H) as [G NE]. destruct (parts_seg r NE) as [tl P].
  exists (seg r). split; [rewrite P; now left|]. apply bad_ntfs.
  destruct (tlacks_nosep _ (nosep_seg r)) as [A B].
  now rewrite ntfs_dotgit_eq_git.
Qed.

Lemma after_bs_inv n r : In r (after_backslashes n) -> exists pre, n = pre ++ 92 :: r.
Proof.
  induction n as [|c n IH]; [intros []|]. cbn [after_backslashes]. intros H. apply in_app_or in H as [H|H].
  - destruct (c =? 92) eqn:E; [|destruct H]. destruct H as [<-|[]]. exists []. cbn. f_equal. lia.
  - destruct (IH H) as [pre ->]. now exists (c :: pre).
Qed.

Lemma existsb_ext_in {A} (f g : A -> bool) l : (forall x, In x l -> f x = g x) -> existsb f l = existsb g l.
Proof.
  induction l as [|x l IH]; intros H; [reflexivity|]. cbn [existsb].
  rewrite (H x (or_introl eq_refl)), IH; [reflexivity|]. intros y Hy. apply H. now right.
Qed.

Lemma is_bytes_app a b : is_bytes (a ++ b) = is_bytes a && is_bytes b.
Proof. apply forallb_app. Qed.

Definition ntfs_gitmodules_after_backslash (n : bytes) : bool :=
  existsb (fun s => is_ntfs_dot s N_gitmodules S_gi7eba) (after_backslashes n).

Lemma dotgitmodules_eq n :
  is_bytes n = true -> utf8_guard n = true -> tlacks 0 n = true -> tlacks 47 n = true ->
  git_is_dotgitmodules n =
  is_hfs_dot n N_gitmodules || is_ntfs_dot n N_gitmodules S_gi7eba || ntfs_gitmodules_after_backslash n.
Proof.
  intros HB HW H0 H47. unfold git_is_dotgitmodules, ntfs_gitmodules_after_backslash.
  rewrite <- (hfs_dot_eq_git n N_gitmodules HB HW H0 H47), <- (ntfs_gitmodules_eq n HB H0).
  f_equal. apply existsb_ext_in. intros r Hr. destruct (after_bs_inv n r Hr) as [pre ->].
  symmetry. apply ntfs_gitmodules_eq.
  - rewrite is_bytes_app in HB. apply andb_true_iff in HB as [_ HB]. now apply is_bytes_cons in HB.
  - apply tlacks_app_r in H0. now apply tlacks_cons in H0.
Qed.

Lemma no_backslash_after n : tlacks 92 n = true -> after_backslashes n = [].
Proof.
  induction n as [|c n IH]; intros H; [reflexivity|]. apply tlacks_cons in H as [C H].
  cbn [after_backslashes]. rewrite (IH H). assert (E : (c =? 92) = false) by lia. now rewrite E.
Qed.

Definition link_ok (e : tentry) : Prop :=
  ((t_mode e =? fmode_Symlink)%Z && dot_symlink_name (t_name e)) = false.

Lemma validate_entry_link seen prev e : v_invalid (validate_entry seen prev e) = false -> link_ok e.
Proof. intros H. now apply validate_entry_inv in H as (_ & _ & _ & _ & _ & _ & H & _). Qed.

Lemma validate_all_link es : v_invalid (validate es) = false -> Forall link_ok es.
Proof.
  intros H. apply (Forall_impl _ (P := entry_passes)); [|now apply validate_all].
  intros e (seen & prev & He). now apply (validate_entry_link seen prev).
Qed.

(* the guard: the name is a byte string, well-formed UTF-8 if it starts like a
   dot-file (HFS+-ignorable code points skipped), and, for a symlink, no
   suffix that follows a backslash is an NTFS variant of .gitmodules *)
Definition name_guard (e : tentry) : bool :=
  is_bytes (t_name e) && utf8_guard (t_name e) &&
  (negb (t_mode e =? fmode_Symlink)%Z || negb (ntfs_gitmodules_after_backslash (t_name e))).
