(* Proofs/C07SelResolves.v — every graph the DeltaSelector model can hand to the encoder satisfies the
   hypotheses of C07_resolves, so the pack written from it resolves to the requested objects; and the
   depth bound fails once stored deltas are reused. *)
From Coq Require Import List NArith ZArith Arith Bool Lia.
From GoGit Require Import Base.Out Model.Delta Model.PackEnc Model.DeltaSel Proofs.C06Diff Proofs.C07
  Proofs.C07Select.
Import ListNotations.

Section Resolves.
Variable window : nat.
Variable objs : list sobj.
Variable order : list nat.
Variable dsz : nat -> nat -> Z.
Variable st : sstate.
Variable ord : list nat.
Hypothesis dsz_nonneg : forall b t, (0 <= dsz b t)%Z.
Hypothesis size_nonneg : forall u, (0 <= so_size (obj_at objs u))%Z.
Hypothesis Hsel : select window objs order dsz = inl (st, ord).

Variable content : nat -> bytes.       (* the bytes of the object with uid u *)
Variable stored : nat -> bytes.        (* the delta the storer holds for u, when it holds one *)
Variable pick : nat -> option nat.     (* diffDelta's candidate function *)

(* the storer is consistent: a stored delta applies to the object that carries the id of its base *)
Hypothesis store_ok : forall u b bk asz, so_stored (obj_at objs u) = Some (bk, asz) -> so_key (obj_at objs b) = bk ->
  patch_delta (content b) (stored u) = Ok (content u).
Hypothesis small : forall u, (len (content u) <= 2 ^ 32)%N.

Let nodes := sel_nodes objs st ord.
Let base0 := base_fun nodes.
Let orig (k : nat) : bytes := content (nth k ord 0%nat).

Theorem select_hyps : exists delta : nat -> bytes,
  (forall k b, base0 k = Some b -> (b < List.length ord)%nat) /\
  (forall k b, base0 k = Some b -> patch_delta (orig b) (delta k) = Ok (orig k)).
Proof.
  destruct (select_inv window objs order dsz st ord dsz_nonneg size_nonneg Hsel) as (reused & HI & _).
  exists (fun k => match base0 k with
                   | Some b => if reused (nth k ord 0%nat) then stored (nth k ord 0%nat)
                               else match diff_delta pick (orig b) (orig k) with Some d => d | None => [] end
                   | None => []
                   end).
  split.
  - intros k b E. apply (sel_base_fun _ _ _ _ _ E).
  - intros k b E. rewrite E. destruct (sel_base_fun _ _ _ _ _ E) as [_ Hsb].
    destruct (HI (nth k ord 0%nat)) as (_ & _ & M).
    destruct (reused (nth k ord 0%nat)).
    + rewrite Hsb in M. destruct M as (bk & asz & E1 & _ & E2).
      unfold orig. now apply (store_ok _ _ bk asz).
    + assert (H63 : (len (orig k) < 2 ^ 63)%N).
      { eapply N.le_lt_trans; [apply small|]. reflexivity. }
      destruct (diff_roundtrip pick (orig b) (orig k) (small _) H63) as [d [Hd Hp]]. rewrite Hd. exact Hp.
Qed.

Theorem select_resolves : forall esize es, (forall o, (0 < esize o)%N) ->
  encode (List.length ord) base0 esize = Some es ->
  exists delta, resolved orig delta (rev es) = Some (map (fun e => (e_node e, orig (e_node e))) (rev es)).
Proof.
  intros esize es Hp He. destruct select_hyps as [delta [H1 H2]]. exists delta.
  eapply encode_resolves; eassumption.
Qed.
End Resolves.

(* Reuse breaks the depth bound.
   21 blobs x0 > x1 > ... > x20 of decreasing size, each a small delta away from the previous one; a blob r,
   smaller, also close to x20; and 30 objects c1..c30 stored as a chain of deltas on r (c1 on r, c2 on c1, ...).
   fixAndBreakChains gives c_i Depth i (r has Depth 0 then); the walk makes x_k a delta of x_(k-1) (Depth k)
   and then r a delta of x20 (Depth 21): c30 now hangs 51 deltas deep although every recorded Depth is <= 30. *)
Definition wit_objs : list sobj :=
  map (fun k => mkSObj (N.of_nat k) 3 (2000 - Z.of_nat k) None) (seq 0 21)
  ++ [mkSObj 21 3 1975 None]
  ++ map (fun i => mkSObj (N.of_nat (21 + i)) 3 (900 - Z.of_nat i) (Some (N.of_nat (20 + i), 900 - Z.of_nat i)%Z)) (seq 1 30).

Definition wit_st : sstate :=
  match select 2 wit_objs (seq 0 52) (fun _ _ => 20%Z) with inl (st, _) => st | inr _ => mkSt (fun _ => None) (fun _ => 0%Z) (fun _ => 0%Z) (fun _ => false) end.

(* stated through the projection [wit_st] and closed by vm_compute, so that the kernel re-checks it with the
   virtual machine as well (its lazy conversion is hopeless on the selector's function-valued state) *)
Lemma reuse_depth_witness :
  select 2 wit_objs (seq 0 52) (fun _ _ => 20%Z) = inl (wit_st, seq 0 52) /\ sd wit_st 51%nat = 30%Z /\ chain_len (sb wit_st) 100 51 = 51%nat /\
  forallb (fun u => (sd wit_st u <=? 30)%Z) (seq 0 52) = true.
Proof. vm_compute. repeat split. Qed.
