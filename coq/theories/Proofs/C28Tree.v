(* Proofs/C28Tree.v — buildTreeHelper.BuildTree for nested directories: the files
   recorded in all trees are exactly the non-zero index entries. *)
From Coq Require Import List NArith Arith Bool Permutation.
From GoGit Require Import Base.Out Model.Status Model.IndexOps Proofs.C27 Proofs.C28.
Import ListNotations.
Local Open Scope N_scope.

Definition walk (p : path) := walk_parts [] (split_slash p []).
Definition full_of (x : path * path * bytes) : path := snd (fst x).
Definition dirs_of (p : path) : list path := map full_of (removelast (walk p)).

(* the path is its own last joined prefix, differs from the earlier ones, and is not empty *)
Definition normal (p : path) : bool :=
  negb (bytes_eqb p []) &&
  forallb (fun d => negb (bytes_eqb d p)) (dirs_of p) &&
  match rev (walk p) with x :: _ => bytes_eqb (full_of x) p | [] => false end.

Definition has_key (t : trees) (d : path) : bool := is_some (trees_get t d).

Definition files1 (d : path) (es : list tent) : list (path * fmode * hash) :=
  flat_map (fun '(n, k) => match k with Some (m, h) => [(join d n, m, h)] | None => [] end) es.

Lemma tree_files_cons d es t : tree_files ((d, es) :: t) = files1 d es ++ tree_files t.
Proof. reflexivity. Qed.
Lemma tree_files_app a b : tree_files (a ++ b) = tree_files a ++ tree_files b.
Proof. unfold tree_files. apply flat_map_app. Qed.
Lemma files1_app d a b : files1 d (a ++ b) = files1 d a ++ files1 d b.
Proof. unfold files1. apply flat_map_app. Qed.

Lemma get_append t d x : forall q,
  trees_get (trees_append t d x) q =
  match trees_get t q with Some es => Some (if bytes_eqb d q then es ++ [x] else es) | None => None end.
Proof.
  induction t as [|[k es] t IH]; intros q; [reflexivity|].
  cbn [trees_append]. destruct (bytes_eqb k d) eqn:E.
  - apply bytes_eqb_eq in E. subst k. cbn [trees_get]. destruct (bytes_eqb d q); [reflexivity|].
    destruct (trees_get t q); reflexivity.
  - cbn [trees_get]. destruct (bytes_eqb k q) eqn:E2.
    + apply bytes_eqb_eq in E2. subst k. rewrite bytes_eqb_sym, E. reflexivity.
    + apply IH.
Qed.

Lemma get_app_new t d : forall q,
  trees_get (t ++ [(d, [])]) q =
  match trees_get t q with Some es => Some es | None => if bytes_eqb d q then Some [] else None end.
Proof.
  induction t as [|[k es] t IH]; intros q; [cbn; destruct (bytes_eqb d q); reflexivity|].
  cbn [app trees_get]. destruct (bytes_eqb k q); [reflexivity|apply IH].
Qed.

Lemma files_append_none t d n : tree_files (trees_append t d (n, None)) = tree_files t.
Proof.
  induction t as [|[k es] t IH]; [reflexivity|].
  cbn [trees_append]. destruct (bytes_eqb k d).
  - rewrite !tree_files_cons, files1_app. cbn [files1 flat_map]. now rewrite !app_nil_r.
  - rewrite !tree_files_cons, IH. reflexivity.
Qed.

Lemma files_append_some t d n m h :
  has_key t d = true ->
  Permutation (tree_files (trees_append t d (n, Some (m, h)))) ((join d n, m, h) :: tree_files t).
Proof.
  unfold has_key. induction t as [|[k es] t IH]; intros H; [discriminate|].
  cbn [trees_append]. cbn [trees_get] in H. destruct (bytes_eqb k d) eqn:E.
  - apply bytes_eqb_eq in E. subst k. rewrite !tree_files_cons, files1_app. cbn [files1 flat_map app].
    rewrite <- app_assoc. cbn [app]. symmetry. apply Permutation_middle.
  - rewrite !tree_files_cons. specialize (IH H).
    eapply perm_trans; [apply Permutation_app_head; exact IH|]. symmetry. apply Permutation_middle.
Qed.

Lemma has_key_append t d x q : has_key (trees_append t d x) q = has_key t q.
Proof. unfold has_key. rewrite get_append. now destruct (trees_get t q). Qed.

Lemma has_key_new t d q : has_key (t ++ [(d, [])]) q = has_key t q || bytes_eqb d q.
Proof. unfold has_key. rewrite get_app_new. destruct (trees_get t q); [reflexivity|]. now destruct (bytes_eqb d q). Qed.

Fixpoint final_parent (parent : path) (parts : list bytes) : path :=
  match parts with [] => parent | n :: r => final_parent (join parent n) r end.

Lemma walk_parts_app parent a b :
  walk_parts parent (a ++ b) = walk_parts parent a ++ walk_parts (final_parent parent a) b.
Proof. revert parent. induction a as [|n a IH]; intros parent; [reflexivity|]. cbn [app walk_parts final_parent]. now rewrite IH. Qed.

Section Entry.
Variable e : ientry.
Let p := ie_path e.

(* a directory step records no file; the directory exists afterwards *)
Lemma dir_step t parent n :
  bytes_eqb (join parent n) p = false ->
  let t1 := do_build e t (parent, join parent n, n) in
  tree_files t1 = tree_files t /\ forall q, has_key t1 q = has_key t q || bytes_eqb (join parent n) q.
Proof.
  intros Hn. unfold do_build. destruct (trees_get t (join parent n)) as [es|] eqn:G; cbv zeta.
  - split; [reflexivity|]. intros q. destruct (bytes_eqb (join parent n) q) eqn:E; [|now rewrite orb_false_r].
    apply bytes_eqb_eq in E. subst q. unfold has_key. now rewrite G.
  - fold p. rewrite Hn. split.
    + rewrite tree_files_app, files_append_none. cbn [tree_files flat_map app]. now rewrite app_nil_r.
    + intros q. now rewrite has_key_new, has_key_append.
Qed.

Lemma dir_steps parts : forall parent t,
  has_key t parent = true ->
  forallb (fun x => negb (bytes_eqb (full_of x) p)) (walk_parts parent parts) = true ->
  let t' := fold_left (do_build e) (walk_parts parent parts) t in
  tree_files t' = tree_files t /\ has_key t' (final_parent parent parts) = true /\
  forall q, has_key t' q = has_key t q || mem_path q (map full_of (walk_parts parent parts)).
Proof.
  induction parts as [|n r IH]; intros parent t Hp Hne; cbv zeta.
  - cbn. repeat split; auto. intros q. now rewrite orb_false_r.
  - cbn [walk_parts forallb] in Hne. apply andb_true_iff in Hne as [Hn Hne].
    cbn [full_of fst snd] in Hn. apply negb_true_iff in Hn.
    cbn [walk_parts fold_left final_parent map mem_path full_of fst snd].
    destruct (dir_step t parent n Hn) as (S1 & S2). cbv zeta in S1, S2.
    destruct (IH (join parent n) (do_build e t (parent, join parent n, n))) as (I1 & I2 & I3); [|exact Hne|].
    { rewrite S2, bytes_eqb_refl. apply orb_true_r. }
    cbv zeta in I1, I2, I3. split; [now rewrite I1|]. split; [exact I2|].
    intros q. rewrite I3, S2. symmetry. apply orb_assoc.
Qed.

(* the last step records the file *)
Lemma file_step t parent n :
  has_key t parent = true -> has_key t (join parent n) = false -> bytes_eqb (join parent n) p = true ->
  let t' := do_build e t (parent, join parent n, n) in
  Permutation (tree_files t') ((p, ie_mode e, ie_hash e) :: tree_files t) /\
  (forall q, has_key t' q = has_key t q).
Proof.
  intros Hp Hf Hj. unfold do_build, has_key in *. destruct (trees_get t (join parent n)); [discriminate|].
  fold p. rewrite Hj. cbv zeta. split.
  - apply bytes_eqb_eq in Hj. rewrite <- Hj. now apply files_append_some.
  - intros q. rewrite get_append. destruct (trees_get t q); reflexivity.
Qed.

Lemma commit_entry_spec t :
  has_key t [] = true -> normal p = true -> nonzero e = true -> has_key t p = false ->
  let t' := commit_entry t e in
  Permutation (tree_files t') (proj e :: tree_files t) /\
  forall q, has_key t' q = has_key t q || mem_path q (dirs_of p).
Proof.
  intros Hroot Hn Hz Hk. unfold commit_entry. fold p.
  unfold nonzero in Hz. apply negb_true_iff in Hz. rewrite Hz.
  unfold normal in Hn. apply andb_true_iff in Hn as [Hn Hlast]. apply andb_true_iff in Hn as [Hne Hdirs].
  unfold dirs_of, walk in *.
  destruct (split_slash p []) as [|c0 cs] eqn:ES.
  { cbn in Hlast. discriminate. }
  (* the components are the directories [init] and the base name [n]: dir_steps, then file_step *)
  destruct (@exists_last _ (c0 :: cs) ltac:(discriminate)) as (init & n & Ei). rewrite Ei in *.
  rewrite walk_parts_app in *. cbn [walk_parts] in *.
  rewrite removelast_last in Hdirs. rewrite rev_app_distr in Hlast. cbn [rev app full_of fst snd] in Hlast.
  rewrite fold_left_app. cbn [fold_left].
  assert (Hd : forallb (fun x => negb (bytes_eqb (full_of x) p)) (walk_parts [] init) = true).
  { rewrite forallb_forall in *. intros x Hx. apply Hdirs. now apply in_map. }
  destruct (dir_steps init [] t Hroot Hd) as (D1 & D2 & D3). cbv zeta in *.
  set (t1 := fold_left (do_build e) (walk_parts [] init) t) in *.
  set (fp := final_parent [] init) in *.
  assert (Hf : has_key t1 (join fp n) = false).
  { apply bytes_eqb_eq in Hlast. rewrite D3, Hlast, Hk. apply not_true_is_false. intros C. apply mem_path_in in C.
    rewrite forallb_forall in Hdirs. specialize (Hdirs _ C). rewrite bytes_eqb_refl in Hdirs. discriminate. }
  destruct (file_step t1 fp n D2 Hf Hlast) as (F1 & F2). cbv zeta in *.
  rewrite removelast_last. split.
  - unfold proj. fold p. rewrite <- D1. exact F1.
  - intros q. rewrite F2. apply D3.
Qed.
End Entry.

Lemma fold_skip_zero i : forall t, fold_left commit_entry i t = fold_left commit_entry (filter nonzero i) t.
Proof.
  induction i as [|e i IH]; intros t; [reflexivity|]. cbn [fold_left filter].
  destruct (nonzero e) eqn:Hz; [apply IH|]. rewrite <- IH. f_equal.
  unfold commit_entry. unfold nonzero in Hz. apply negb_false_iff in Hz. now rewrite Hz.
Qed.

(* K lists the directories the trees so far may hold beside the root; no later entry's path is among them *)
Lemma fold_entries i : forall t K,
  has_key t [] = true ->
  (forall q, has_key t q = true -> q = [] \/ In q K) ->
  (forall e, In e i ->
     nonzero e = true /\ normal (ie_path e) = true /\ ~ In (ie_path e) K /\
     forall e', In e' i -> ~ In (ie_path e) (dirs_of (ie_path e'))) ->
  Permutation (tree_files (fold_left commit_entry i t)) (map proj i ++ tree_files t).
Proof.
  induction i as [|e i IH]; intros t K Hroot Hkeys Hg; [reflexivity|].
  cbn [fold_left]. destruct (Hg e (or_introl eq_refl)) as (Hz & Hn & HK & Hdf).
  assert (Hk : has_key t (ie_path e) = false).
  { destruct (has_key t (ie_path e)) eqn:H; [|reflexivity]. exfalso.
    destruct (Hkeys _ H) as [H'|H']; [|contradiction].
    unfold normal in Hn. rewrite H' in Hn. cbn in Hn. discriminate. }
  destruct (commit_entry_spec e t Hroot Hn Hz Hk) as (P1 & P2). cbv zeta in *.
  eapply perm_trans.
  - apply (IH (commit_entry t e) (K ++ dirs_of (ie_path e))).
    + now rewrite P2, Hroot.
    + intros q Hq. rewrite P2 in Hq. apply orb_true_iff in Hq as [H|H].
      * destruct (Hkeys q H) as [H'|H']; [now left|right; apply in_or_app; now left].
      * right. apply in_or_app. right. now apply mem_path_in.
    + intros e2 He2. destruct (Hg e2 (or_intror He2)) as (Z2 & N2 & K2 & D2).
      split; [exact Z2|]. split; [exact N2|]. split.
      * intros Hin. apply in_app_or in Hin as [Hin|Hin]; [contradiction|]. exact (D2 e (or_introl eq_refl) Hin).
      * intros e' He'. apply D2. now right.
  - cbn [map app]. eapply perm_trans; [apply Permutation_app_head; exact P1|].
    symmetry. apply Permutation_middle.
Qed.

(* normal paths, and no path is a directory of another *)
Definition tree_guard (i : list ientry) : bool :=
  let ps := map ie_path (filter nonzero i) in
  forallb normal ps && forallb (fun p => forallb (fun p' => negb (mem_path p (dirs_of p'))) ps) ps.

Theorem write_tree_nested s :
  tree_guard (st_index s) = true ->
  Permutation (g_commit_files s) (map proj (filter nonzero (st_index s))).
Proof.
  unfold tree_guard. intros G. apply andb_true_iff in G as [G1 G2].
  rewrite forallb_forall in G1, G2.
  unfold g_commit_files, build_trees. rewrite fold_skip_zero.
  eapply perm_trans.
  - apply (fold_entries (filter nonzero (st_index s)) [([], [])] []); [reflexivity| |].
    + intros q Hq. unfold has_key in Hq. cbn [trees_get] in Hq. destruct (bytes_eqb [] q) eqn:E; [|discriminate].
      left. symmetry. now apply bytes_eqb_eq.
    + intros e He. pose proof (in_map ie_path _ _ He) as Hin.
      split; [now apply filter_In in He|]. split; [now apply G1|]. split; [tauto|].
      intros e' He' Hd. specialize (G2 _ Hin). rewrite forallb_forall in G2.
      specialize (G2 _ (in_map ie_path _ _ He')). apply negb_true_iff in G2. apply mem_path_in in Hd. congruence.
  - cbn [tree_files flat_map app]. now rewrite app_nil_r.
Qed.

(* the guard holds of nested directories with a dot-name next to a directory; it fails for a
   file below a file, an empty component and a leading '/' *)
Example tree_guard_ex :
  let mk p := mkI p MReg (mkHash 0 1) 1 1 false in
  tree_guard [mk [97]; mk [100; 46; 120]; mk [100; 47; 101]; mk [100; 47; 103; 47; 104]; mk [122]] = true /\
  tree_guard [mk [97]; mk [97; 47; 98]] = false /\ tree_guard [mk [97; 47; 47; 98]] = false /\ tree_guard [mk [47; 97]] = false.
Proof. vm_compute. repeat split. Qed.
