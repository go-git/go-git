(* Proofs/C28.v — index operations against git's, on the flattened state: BuildTree for an
   index of top-level entries, rm of a file, mv, clean -d; removal by path as a filter. *)
From Coq Require Import List NArith Arith Bool.
From GoGit Require Import Base.Out Model.Status Model.IndexOps Spec.GitStatus Spec.GitIndexOps Proofs.C27.
Import ListNotations.
Local Open Scope N_scope.

Definition has_slash (p : path) : bool := existsb (fun c => c =? SLASH) p.
Definition flat_entry (e : ientry) : bool :=
  negb (has_slash (ie_path e)) && negb (bytes_eqb (ie_path e) []).
Definition nonzero (e : ientry) : bool := negb (h_cid (ie_hash e) =? zero_cid).
Definition proj (e : ientry) : path * fmode * hash := (ie_path e, ie_mode e, ie_hash e).

Lemma split_noslash p : forall cur, has_slash p = false -> split_slash p cur = [cur ++ p].
Proof.
  induction p as [|c r IH]; intros cur H; [cbn; now rewrite app_nil_r|].
  cbn [has_slash existsb] in H. apply orb_false_iff in H as [Hc H].
  cbn [split_slash]. rewrite Hc. rewrite IH by exact H. rewrite <- app_assoc. reflexivity.
Qed.

Lemma join_nil p : join [] p = p.
Proof. unfold join. now destruct p. Qed.

Lemma commit_flat es e :
  flat_entry e = true ->
  commit_entry [([], es)] e = [([], if nonzero e then es ++ [(ie_path e, Some (ie_mode e, ie_hash e))] else es)].
Proof.
  intros H. unfold flat_entry in H. apply andb_true_iff in H as [H1 H2].
  apply negb_true_iff in H1, H2. unfold commit_entry, nonzero.
  destruct (h_cid (ie_hash e) =? zero_cid); [reflexivity|]. cbn [negb].
  rewrite split_noslash by exact H1. cbn [app walk_parts fold_left do_build].
  rewrite join_nil. cbn [trees_get]. rewrite bytes_eqb_sym, H2. rewrite bytes_eqb_refl. cbn [trees_append].
  rewrite bytes_eqb_refl. reflexivity.
Qed.

Lemma build_flat i : forall es,
  forallb flat_entry i = true ->
  fold_left commit_entry i [([], es)] =
  [([], es ++ map (fun e => (ie_path e, Some (ie_mode e, ie_hash e))) (filter nonzero i))].
Proof.
  induction i as [|e i IH]; intros es H; [cbn; now rewrite app_nil_r|].
  cbn [forallb] in H. apply andb_true_iff in H as [He H].
  cbn [fold_left]. rewrite commit_flat by exact He. rewrite IH by exact H.
  cbn [filter]. destruct (nonzero e); [|reflexivity]. cbn [map]. rewrite <- app_assoc. reflexivity.
Qed.

Lemma tree_files_root es :
  tree_files [([], map (fun e => (ie_path e, Some (ie_mode e, ie_hash e))) es)] = map proj es.
Proof.
  unfold tree_files. cbn [flat_map]. rewrite app_nil_r.
  induction es as [|e es IH]; [reflexivity|]. cbn [map flat_map app] in *.
  rewrite join_nil. f_equal. exact IH.
Qed.

Lemma write_tree_flat s :
  forallb flat_entry (st_index s) = true ->
  g_commit_files s = map proj (filter nonzero (st_index s)).
Proof.
  intros H. unfold g_commit_files, build_trees. rewrite build_flat by exact H. cbn [app]. apply tree_files_root.
Qed.

Lemma tree_files_git s :
  forallb (fun e => nonzero e && negb (ie_ita e)) (st_index s) = true ->
  map proj (filter nonzero (st_index s)) = s_tree_files s.
Proof.
  unfold s_tree_files. induction (st_index s) as [|e i IH]; [reflexivity|].
  cbn [forallb]. intros G. apply andb_true_iff in G as [Ge G]. apply andb_true_iff in Ge as [G1 G2].
  cbn [filter]. rewrite G1, G2. cbn [map]. f_equal. now apply IH.
Qed.

Lemma write_tree_flat_git s :
  forallb flat_entry (st_index s) = true ->
  forallb (fun e => nonzero e && negb (ie_ita e)) (st_index s) = true ->
  g_commit_files s = s_tree_files s.
Proof. intros H G. rewrite write_tree_flat by exact H. now apply tree_files_git. Qed.

(* removal by path is a filter on the path, for entries and for files alike *)
Lemma idx_remove_filter l p : idx_remove l p = filter (fun e => negb (bytes_eqb (ie_path e) p)) l.
Proof.
  induction l as [|e r IH]; [reflexivity|]. cbn [idx_remove filter]. rewrite IH. now destruct (bytes_eqb (ie_path e) p).
Qed.
Lemma wt_remove_filter l p : wt_remove l p = filter (fun f => negb (bytes_eqb (wf_path f) p)) l.
Proof.
  induction l as [|f r IH]; [reflexivity|]. cbn [wt_remove filter]. rewrite IH. now destruct (bytes_eqb (wf_path f) p).
Qed.

Lemma fold_remove {A} (key : A -> path) (rm : list A -> path -> list A) :
  (forall l p, rm l p = filter (fun e => negb (bytes_eqb (key e) p)) l) ->
  forall vs l, fold_left rm vs l = filter (fun e => negb (mem_path (key e) vs)) l.
Proof.
  intros Hrm. induction vs as [|v vs IH]; intros l; cbn [fold_left].
  - induction l as [|e r IHr]; [reflexivity|]. cbn [filter mem_path negb]. f_equal. exact IHr.
  - cbn [mem_path]. rewrite IH, Hrm. induction l as [|e r IHr]; [reflexivity|]. cbn [filter]. rewrite (bytes_eqb_sym v).
    destruct (bytes_eqb (key e) v); cbn [negb orb filter]; [exact IHr|].
    destruct (mem_path (key e) vs); cbn [negb]; [exact IHr|now rewrite IHr].
Qed.

Lemma rm_file_eq s p :
  is_some (find_i (st_index s) p) = true ->
  is_dir_wt s p && negb (has_file s p) = false ->
  existsb (fun f => under (wf_path f) p) (st_wt s) = false ->
  g_rm s p = s_rm s p.
Proof.
  intros H1 H2 H3. unfold g_rm, s_rm. rewrite H2, H3. destruct (find_i (st_index s) p); [reflexivity|discriminate].
Qed.

(* the file is as staged and the destination directory exists *)
Definition mv_guard (s : state) (from to : path) : bool :=
  match find_w (st_wt s) from, find_i (st_index s) from with
  | Some f, Some e =>
    fmode_eqb (wf_mode f) (ie_mode e) && (wf_size f mod 2 ^ 32 =? ie_size e) && (wf_mtime f =? ie_mtime e) &&
    negb (ie_ita e) && forallb (fun d => is_dir_wt s d) (dir_prefixes to [])
  | _, _ => true
  end.

Lemma mv_eq s from to : mv_guard s from to = true -> g_mv s from to = s_mv s from to.
Proof.
  unfold mv_guard, g_mv, s_mv.
  destruct (find_w (st_wt s) from) as [f|]; [|reflexivity].
  destruct (find_i (st_index s) from) as [e|]; [|destruct (has_file s to || is_dir_wt s to); reflexivity].
  rewrite !andb_true_iff. intros ((((G1 & G2) & G3) & G4) & G5).
  destruct (has_file s to || is_dir_wt s to); [reflexivity|].
  rewrite G5. cbn [negb].
  apply fmode_eqb_eq in G1. apply N.eqb_eq in G2. apply N.eqb_eq in G3. apply negb_true_iff in G4.
  rewrite G1, G2, G3, G4. reflexivity.
Qed.

Lemma g_class_untracked l r :
  match g_class l r with Some (_, w) => code_eqb w CUntracked | None => false end =
  match r with Some Ins => true | _ => false end.
Proof. destruct l as [[]|], r as [[]|]; reflexivity. Qed.

Lemma clean_cond s q :
  code_eqb (snd (sfile (status_map s) q)) CUntracked && is_some (sget (status_map s) q) =
  match right_change s q with Some Ins => true | _ => false end.
Proof.
  unfold sfile. rewrite status_map_get. rewrite <- (g_class_untracked (left_change s q)).
  destruct (g_class (left_change s q) (right_change s q)) as [[x w]|]; cbn; [now rewrite andb_true_r|reflexivity].
Qed.

Definition clean_guard (s : state) : bool :=
  forallb (fun f => Bool.eqb (wf_ignored f) (wf_ignored_git f)) (st_wt s) &&
  forallb (fun f => negb (existsb (fun e => under (ie_path e) (wf_path f)) (st_index s))) (st_wt s).

Lemma right_ins s q :
  forallb (fun f => Bool.eqb (wf_ignored f) (wf_ignored_git f)) (st_wt s) = true ->
  match right_change s q with Some Ins => true | _ => false end = git_untracked s q.
Proof.
  intros G. rewrite right_change_cases. unfold git_untracked.
  destruct (find_i (st_index s) q) as [e|], (find_w (st_wt s) q) as [f|] eqn:Ew; try reflexivity.
  - now destruct (nhash_eqb _ _).
  - rewrite forallb_forall in G. rewrite <- (eqb_prop _ _ (G f (find_w_in _ _ _ Ew))). now destruct (wf_ignored f).
Qed.

Lemma clean_eq s dir :
  clean_guard s = true ->
  (forall f, In f (st_wt s) -> git_untracked s (wf_path f) = true ->
     dir || at_root (wf_path f) = dir || in_tracked_dirs s (wf_path f)) ->
  g_clean s dir = s_clean s dir.
Proof.
  unfold clean_guard. intros G D. apply andb_true_iff in G as [G1 G2].
  unfold g_clean, s_clean. cbv zeta. f_equal. f_equal. f_equal.
  rewrite forallb_forall in G2.
  apply filter_ext_in. intros q Hq. apply in_map_iff in Hq as [f [<- Hf]].
  rewrite clean_cond, (right_ins s _ G1), (G2 f Hf), andb_true_r.
  destruct (git_untracked s (wf_path f)) eqn:U; [|reflexivity]. now rewrite (D f Hf U).
Qed.

Lemma clean_d_eq s : clean_guard s = true -> g_clean s true = s_clean s true.
Proof. intros G. now apply clean_eq. Qed.
