(* Proofs/C02Tag.v — decode_tag (encode_tag t true) = Ok t for every
   well-formed tag struct (Spec/ObjWf.wf_tag). *)
From Coq Require Import List NArith ZArith Bool Lia ZifyBool ZifyNat ZifyN.
From GoGit Require Import Base.Out Model.ObjLines Model.Ident Model.Commit Model.Tag Spec.ObjWf
     Proofs.ObjLinesFacts Proofs.C02Ident Proofs.C03TagSig Proofs.C02Lines Proofs.C02Commit.
Import ListNotations.
Local Open Scope N_scope.

Lemma psb_app a : forall b pos m, psb pos m (a ++ b) = psb (pos + List.length (List.concat a)) (psb pos m a) b.
Proof.
  induction a as [|l a IH]; intros b pos m.
  - cbn [app psb List.concat List.length]. now rewrite Nat.add_0_r.
  - cbn [app psb]. rewrite IH. cbn [List.concat]. rewrite app_length. now rewrite Nat.add_assoc.
Qed.

Lemma split_lines_app_lf p s : split_lines ((p ++ [LF]) ++ s) = split_lines (p ++ [LF]) ++ split_lines s.
Proof.
  induction p as [|c p IH]; [reflexivity|]. cbn [app split_lines]. rewrite IH.
  destruct (c =? LF); [reflexivity|].
  destruct (split_lines (p ++ [LF])) eqn:S; [|reflexivity].
  apply (f_equal (@List.concat N)) in S. rewrite concat_split_lines in S. now destruct p.
Qed.

Lemma last_is_snoc c b : last_is c b = true -> exists p, b = p ++ [c].
Proof.
  intros H. unfold last_is in H. destruct (rev b) as [|x r] eqn:E.
  - discriminate H.
  - cbn in H. apply N.eqb_eq in H. subst x. exists (rev r).
    apply (f_equal (@rev N)) in E. rewrite rev_involutive in E. cbn in E. exact E.
Qed.

Lemma split_lines_app_complete m s : (m = [] \/ last_is LF m = true) ->
  split_lines (m ++ s) = split_lines m ++ split_lines s.
Proof.
  intros [->|H]; [reflexivity|]. destruct (last_is_snoc LF m H) as [p ->]. apply split_lines_app_lf.
Qed.

Lemma psb_msg_sig m s : parse_signed_bytes m = None -> (m = [] \/ last_is LF m = true) ->
  parse_signed_bytes s = Some O -> parse_signed_bytes (m ++ s) = Some (List.length m).
Proof.
  unfold parse_signed_bytes. intros Hm Hl Hs. rewrite (split_lines_app_complete _ _ Hl), psb_app, Hm.
  rewrite concat_split_lines. cbn [Nat.add]. rewrite psb_from, Hs. cbn [option_map]. now rewrite Nat.add_0_r.
Qed.

Definition object_line (h : bytes) : bytes := k_object ++ SPC :: hex_encode h ++ [LF].
Definition kv_line (K v : bytes) : bytes := K ++ SPC :: v ++ [LF].
Definition tagger_lines (i : ident) : list bytes := if ident_is_zero i then [] else [ident_line k_tagger i].
Definition thdr_lines (t : tag) : list bytes :=
  object_line (t_target t) :: kv_line k_type (t_type t) :: kv_line k_tag (t_name t) ::
  tagger_lines (t_tagger t) ++ sig_lines k_gpgsig256 (t_sig256 t) ++ [[LF]].

Lemma sig256_piece s :
  match s with [] => [] | n :: l => k_gpgsig256 ++ [SPC] ++ indent_nl (trim_suffix_lf (n :: l)) ++ [LF] end
  = List.concat (sig_lines k_gpgsig256 s).
Proof.
  unfold sig_lines. destruct s as [|y s]; [reflexivity|]. rewrite <- val_lines_concat. norm_app. reflexivity.
Qed.

Lemma encode_tag_lines t : encode_tag t true = List.concat (thdr_lines t) ++ (t_msg t ++ t_sig t).
Proof.
  unfold encode_tag. rewrite sig256_piece.
  unfold thdr_lines, object_line, kv_line, tagger_lines, ident_line. cbn [List.concat]. rewrite !concat_app.
  destruct (ident_is_zero (t_tagger t)); cbn [List.concat]; norm_app; reflexivity.
Qed.

Lemma valid_type_no_lf ty : valid_type ty = true -> no_lf ty = true.
Proof.
  unfold valid_type. intros H. apply existsb_exists in H as [x [Hin Hb]]. apply beqb_eq in Hb. subst x.
  cbn in Hin. repeat (destruct Hin as [<-|Hin]; [reflexivity|]). contradiction.
Qed.

Record wf_tag_facts (t : tag) : Prop := {
  wt_target : oid_ok (t_target t) = true;
  wt_type : valid_type (t_type t) = true;
  wt_name : no_lf (t_name t) = true;
  wt_tagger : (ident_is_zero (t_tagger t) = true /\ t_tagger t = ident_zero) \/
              (ident_is_zero (t_tagger t) = false /\ wf_ident (t_tagger t) = true);
  wt_sig256 : wf_sigval (t_sig256 t) = true;
  wt_msg : parse_signed_bytes (t_msg t) = None;
  wt_join : t_sig t = [] \/ ((t_msg t = [] \/ last_is LF (t_msg t) = true) /\ parse_signed_bytes (t_sig t) = Some O) }.

Lemma wf_ident_not_zero i : wf_ident i = true -> ident_is_zero i = false.
Proof.
  unfold wf_ident, ident_is_zero. intros H. apply andb_true_iff in H as [H _]. apply andb_true_iff in H as [_ H].
  destruct (id_name i); [|reflexivity]. destruct (id_email i); [|reflexivity]. unfold zero_ts. lia.
Qed.

Lemma wf_tag_parts t : wf_tag t = true -> wf_tag_facts t.
Proof.
  unfold wf_tag. rewrite !andb_true_iff, negb_true_iff. intros [[[[[[[H1 H2] H3] H4] H5] H6] H7] H8].
  constructor; try assumption.
  - now apply no_lf_of_has.
  - apply orb_true_iff in H4 as [H4|H4].
    + left. apply andb_true_iff in H4 as [Hz Htz]. split; [exact Hz|].
      destruct (t_tagger t) as [nm em ts tz]. unfold ident_is_zero in Hz. cbn [id_name id_email id_ts id_tz] in *.
      destruct nm; [|discriminate]. destruct em; [|discriminate]. apply Z.eqb_eq in Hz, Htz. now subst.
    + right. split; [now apply wf_ident_not_zero|exact H4].
  - destruct (parse_signed_bytes (t_msg t)); [discriminate|reflexivity].
  - destruct (t_sig t) as [|y s] eqn:Es; [now left|right]. split.
    + destruct (t_msg t); [now left|now right].
    + destruct (parse_signed_bytes (y :: s)) as [[|n]|]; try discriminate. reflexivity.
Qed.

Lemma thdr_lines_cline t : wf_tag t = true -> Forall cline (thdr_lines t).
Proof.
  intros Hwf. destruct (wf_tag_parts _ Hwf) as [Ht Hty Hn Htg Hs _ _].
  unfold thdr_lines. constructor; [|constructor; [|constructor]].
  - apply kline_cline; [reflexivity|]. now apply oid_plain.
  - apply kline_cline; [reflexivity|]. now apply valid_type_no_lf.
  - now apply kline_cline.
  - rewrite !Forall_app. repeat split.
    + unfold tagger_lines. destruct Htg as [[-> _]|[-> Hw]]; constructor; [|constructor].
      apply kline_cline; [reflexivity|now apply encode_ident_no_lf].
    + now apply sig_lines_cline.
    + constructor; [|constructor]. exists []. now split.
Qed.

Lemma need_header_ok key v rest stop k : key <> [] -> no_lf key = true -> has_byte SPC key = false -> no_lf v = true ->
  need_header key (kv_line key v :: rest) stop k = k v rest.
Proof.
  intros H1 H2 H3 Hv. unfold need_header, kv_line.
  now rewrite (is_blank_kline key _ H1), (split_header_kv key v H2 H3 Hv), beqb_refl, ends_nl_kv.
Qed.

Lemma trun_step st t l rest t' st' : ends_nl l = true -> tstep st t l = (t', st') -> trun st t (l :: rest) = trun st' t' rest.
Proof. intros He Hs. cbn [trun]. now rewrite Hs, He. Qed.

Lemma tstep_sig256 st t s1 : st <> TMessage -> no_lf s1 = true ->
  tstep st t (k_gpgsig256 ++ SPC :: s1 ++ [LF]) = (set_tsig256 t (t_sig256 t ++ s1 ++ [LF]), TPgp256).
Proof.
  intros Hh Hs. pose proof (is_blank_kline k_gpgsig256 (s1 ++ [LF]) ltac:(discriminate)) as Hb.
  pose proof (split_header_kv k_gpgsig256 _ eq_refl eq_refl Hs) as Hk.
  destruct st; try contradiction; cbn [tstep]; unfold on_theaders; rewrite ?Hb, ?Hk; reflexivity.
Qed.

Lemma trun_pgp256_conts ss : Forall (fun s => no_lf s = true) ss -> forall t rest,
  trun TPgp256 t (map (fun s => SPC :: s ++ [LF]) ss ++ rest) =
  trun TPgp256 (set_tsig256 t (t_sig256 t ++ List.concat (map (fun s => s ++ [LF]) ss))) rest.
Proof.
  induction 1 as [|s ss Hs _ IH]; intros t rest.
  - cbn [map List.concat app]. rewrite app_nil_r. now destruct t.
  - cbn [map app List.concat].
    rewrite (trun_step TPgp256 t (SPC :: s ++ [LF]) _ (set_tsig256 t (t_sig256 t ++ s ++ [LF])) TPgp256).
    + rewrite IH. destruct t as [a b c d e f g]. unfold set_tsig256.
      cbn [t_target t_type t_name t_tagger t_sig256 t_msg t_sig]. now rewrite <- app_assoc.
    + apply (ends_nl_kv []).
    + reflexivity.
Qed.

Lemma trun_sig256 st t s rest : st <> TMessage -> wf_sigval s = true ->
  exists st', trun st t (sig_lines k_gpgsig256 s ++ rest) = trun st' (set_tsig256 t (t_sig256 t ++ s)) rest /\ st' <> TMessage.
Proof.
  intros Hh Hwf. unfold sig_lines. destruct s as [|y s].
  - exists st. split; [|exact Hh]. rewrite app_nil_r. now destruct t.
  - set (w := trim_suffix_lf (y :: s)). destruct (segs_no_lf w) as [N1 N2].
    exists TPgp256. split; [|discriminate].
    unfold val_lines. cbn [app].
    rewrite (trun_step st t _ _ _ _ (ends_nl_kv _ _ _) (tstep_sig256 st t _ Hh N1)).
    rewrite (trun_pgp256_conts _ N2). f_equal. destruct t as [a b c d e f g]. unfold set_tsig256.
    cbn [t_target t_type t_name t_tagger t_sig256 t_msg t_sig]. f_equal.
    rewrite <- !app_assoc. f_equal. rewrite val_lines_acc.
    exact (trim_suffix_lf_snoc _ Hwf).
Qed.

Theorem tag_dec_enc : forall t, wf_tag t = true -> decode_tag (encode_tag t true) = Ok t.
Proof.
  intros t Hwf. destruct (wf_tag_parts _ Hwf) as [Ht Hty Hn Htg Hs Hm Hj].
  unfold decode_tag. rewrite encode_tag_lines, (split_lines_clines _ (thdr_lines_cline _ Hwf)).
  unfold thdr_lines, decode_tag_lines, object_line.
  destruct (oid_plain _ Ht) as [P1 P2].
  change (k_object ++ SPC :: hex_encode (t_target t) ++ [LF]) with (kv_line k_object (hex_encode (t_target t))).
  cbn [app].
  rewrite (need_header_ok k_object _ _ _ _ ltac:(discriminate) eq_refl eq_refl P1), (parse_oid_hex _ Ht).
  rewrite (need_header_ok k_type _ _ _ _ ltac:(discriminate) eq_refl eq_refl (valid_type_no_lf _ Hty)), Hty. cbn [negb].
  rewrite (need_header_ok k_tag _ _ _ _ ltac:(discriminate) eq_refl eq_refl Hn).
  f_equal.
  set (T0 := tag_init (t_target t) (t_type t) (t_name t)).
  assert (exists st1, trun TTagger T0 ((tagger_lines (t_tagger t) ++ sig_lines k_gpgsig256 (t_sig256 t) ++ [[LF]]) ++ split_lines (t_msg t ++ t_sig t))
                      = trun st1 (set_ttagger T0 (t_tagger t)) (sig_lines k_gpgsig256 (t_sig256 t) ++ [LF] :: split_lines (t_msg t ++ t_sig t))
                      /\ st1 <> TMessage) as [st1 [E1 H1]].
  { unfold tagger_lines. destruct Htg as [[-> Hz]|[-> Hw]].
    - exists TTagger. split; [|discriminate]. cbn [app]. now rewrite <- app_assoc, Hz.
    - exists THeaders. split; [|discriminate].
      destruct (ident_line_facts k_tagger (t_tagger t) ltac:(discriminate) eq_refl eq_refl Hw) as [Ea [Eb Es]].
      cbn [app]. rewrite <- app_assoc. apply trun_step; [exact Ea|].
      cbn [tstep]. rewrite Eb, Es. rewrite beqb_refl.
      now rewrite (ident_dec_enc _ Hw). }
  rewrite E1.
  destruct (trun_sig256 st1 (set_ttagger T0 (t_tagger t)) (t_sig256 t) ([LF] :: split_lines (t_msg t ++ t_sig t)) H1 Hs)
    as [st2 [E2 H2]].
  rewrite E2, (trun_step st2 _ [LF] _ _ TMessage eq_refl (tstep_blank' _ _ [LF] H2 eq_refl)).
  rewrite (trun_message _ (split_lines_abl _)), concat_split_lines.
  unfold T0, split_tag_sig.
  destruct t as [tg ty nm tgr s256 msg sg].
  cbn [t_target t_type t_name t_tagger t_sig256 t_msg t_sig tag_init set_ttagger set_tsig256 set_tmsg app] in *.
  destruct Hj as [->|[Hl Hp]].
  - rewrite app_nil_r, Hm. reflexivity.
  - rewrite (psb_msg_sig _ _ Hm Hl Hp), firstn_app_exact, skipn_app_exact. reflexivity.
Qed.
