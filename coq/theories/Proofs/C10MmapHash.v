(* Proofs/C10MmapHash.v — mmap.PackScanner.FindHash: the closed-interval binary search
   of lookupOffset through the mapped .rev file answers like the map by offset. *)
From Coq Require Import List NArith ZArith Bool Lia ZifyBool ZifyNat ZifyN.
From GoGit Require Import Base.Out Model.PackBytes Model.Idx Spec.IdxFormat
  Proofs.C10Search Proofs.C10Bytes Proofs.C10Layout
  Proofs.C10Mmap Proofs.C10Rev.
Import ListNotations.
Local Open Scope N_scope.

Section MmapHash.
Variable hs : nat.
Variable H : bytes -> bytes.
Variable tbl : list entry.
Variable pack : bytes.
Variable hf : N.
Hypothesis WF : wf_tbl hs tbl.
Hypothesis Hpack : List.length pack = hs.
Hypothesis Hhs20 : (20 <= hs)%nat.
Hypothesis Hdigest : forall b, List.length (H b) = hs.
Hypothesis Hdist : distinct_offsets tbl.

Let n : N := N.of_nat (List.length tbl).
Let HS : N := N.of_nat hs.
Let file := idx_file H tbl pack.
Let rev := rev_file H hf tbl pack.
Set Default Proof Using "hs H tbl pack hf WF Hpack Hhs20 Hdigest Hdist".

Lemma blen_rev : blen rev = 12 + n * 4 + HS + HS.
Proof.
  unfold rev, rev_file, rev_body. rewrite !blen_app.
  rewrite (blen_flat_map be32 4) by auto using blen_be32. rewrite rev_positions_length.
  assert (E1 : blen pack = HS) by (unfold blen, HS; now rewrite Hpack).
  assert (E2 : forall b, blen (H b) = HS) by (intros b; unfold blen, HS; now rewrite Hdigest).
  rewrite E1, E2, !blen_be32. change (blen [82; 73; 68; 88]) with 4. unfold n. lia.
Qed.

Lemma rev16 : 16 <= blen rev.
Proof. rewrite blen_rev. unfold HS. lia. Qed.

Lemma sum_len : blen (S_SUM H tbl pack) = N.of_nat hs.
Proof. unfold S_SUM, blen. now rewrite Hdigest. Qed.

Let Sc := the_scanner hs H tbl pack rev.
Let ScanOffset := scan_offset_ok hs H tbl pack rev WF Hpack (rev_file_hdr H hf tbl pack) rev16 Hhs20 sum_len.
Let NameSlice := name_slice hs H tbl pack rev WF Hpack (rev_file_hdr H hf tbl pack) rev16 Hhs20 sum_len.

Theorem scan_find_hash_map o :
  scan_find_hash hs Sc o = match lookup_off tbl o with Some e => Ok (e_hash e) | None => Err ENotFound end.
Proof.
  unfold scan_find_hash, Sc, the_scanner. cbn [s_rev s_names s_crcs s_idx]. fold rev. fold file.
  change S_REVHDR with 12. rewrite blen_rev.
  replace (Z.of_N (12 + n * 4 + HS + HS) - Z.of_N 12 - 2 * Z.of_nat hs)%Z with (Z.of_N n * 4)%Z by (unfold HS; lia).
  rewrite Z.quot_mul by lia. rewrite N2Z.id.
  match goal with |- context [bs_closed _ ?p _ _] => set (probe := p) end.
  pose proof (wf_count _ _ WF) as Hcnt.
  assert (Pv : forall i, i < n -> probe (Z.of_N i) = Some (o ?= e_off (nth (N.to_nat i) (sort_by_off tbl) d0))).
  { intros i Hi. unfold probe, rev. rewrite N2Z.id.
    destruct (rev_pos_ok tbl i Hdist Hi) as [Hp En].
    now rewrite (rev_entry H hf tbl pack i Hi), get32_be32', ScanOffset, En by lia. }
  pose proof (search_lookup_off tbl o (fun i => probe (Z.of_N i)) _ Hdist Pv (bs_closed_fuel probe n)) as S.
  destruct (bs_closed (bs_fuel 0 n + 1) probe 0 (Z.of_N n - 1)) as [mid| | |]; try contradiction; [|now rewrite S].
  destruct S as [Hm ->]. destruct (rev_pos_ok tbl mid Hdist Hm) as [Hp En].
  cbv zeta. unfold rev. destruct (read_at_some _ _ _ _ (rev_entry H hf tbl pack mid Hm)) as [_ <-].
  rewrite get32_be32' by lia. fold HS.
  replace (1032 + N.of_nat (List.length tbl) * HS <? 1032 + rev_pos tbl mid * HS + HS) with false by nia.
  unfold file. now rewrite NameSlice, En.
Qed.

End MmapHash.
