(* Proofs/C30.v — which local content survives a non-forced checkout and a
   merge / keep / soft / mixed reset. *)
From Coq Require Import List NArith ZArith Bool String.
From GoGit Require Import Base.Out Model.Porcelain Proofs.PorcelainMaps Proofs.Porcelain Proofs.C25 Proofs.C29.
Import ListNotations.
Local Open Scope N_scope.

Lemma unstaged_true : forall s p e, In (p, e) (idx s) -> lookup p (wt s) <> Some e -> unstaged s = true.
Proof.
  intros s p e Hin Hne. unfold unstaged. apply existsb_exists. exists (p, e). split; [assumption|].
  cbn [fst snd]. apply negb_true_iff.
  destruct (ofent_eqb (lookup p (wt s)) (Some e)) eqn:E; [|reflexivity].
  apply ofent_eqb_true in E. contradiction.
Qed.

Lemma merge_reset_refuses_unstaged : forall commit from s p e,
  In (p, e) (idx s) -> lookup p (wt s) <> Some e ->
  exists er, reset commit Merge from s = (Some er, s).
Proof.
  intros commit from s p e Hin Hne. pose proof (unstaged_true _ _ _ Hin Hne) as Hu.
  unfold reset. destruct (reset_commit commit s) as [[e1|] c]; [eauto|].
  rewrite Hu. eauto.
Qed.

Lemma checkout_merge_refuses_unstaged : forall o s p e,
  co_force o = false -> co_keep o = false ->
  In (p, e) (idx s) -> lookup p (wt s) <> Some e ->
  exists er, checkout o s = (Some er, s).
Proof.
  intros o s p e Hf Hk Hin Hne.
  assert (Hm : co_mode o = Merge) by (unfold co_mode; now rewrite Hf, Hk).
  destruct (checkout o s) as [[er|] s'] eqn:Ec.
  - exists er. now rewrite (checkout_err_unchanged _ _ _ _ Ec).
  - exfalso. destruct (checkout_ok _ _ _ Ec ltac:(rewrite Hm; discriminate)) as (c & t & pv & _ & _ & _ & _ & _ & _ & _ & K).
    rewrite (unstaged_true _ _ _ Hin Hne) in K. specialize (K Hm). discriminate.
Qed.

Lemma merge_reset_preserves : forall commit from s s',
  reset commit Merge from s = (None, s') ->
  exists c t, reset_target commit s = Some c /\ tree_of s c = Some t /\
    forall p, lookup p (idx s) = lookup p t -> lookup p (wt s') = lookup p (wt s).
Proof.
  intros commit from s s' H.
  destruct (reset_ok _ _ _ _ _ H ltac:(discriminate)) as (c & t & s1 & R1 & R2 & _ & _ & _ & _ & _ & R8 & _).
  exists c, t. repeat split; auto. intros p Hp. rewrite R8. cbn [wt_after].
  now rewrite (proj2 (differs_false _ _ _) Hp).
Qed.

Lemma checkout_merge_preserves : forall o s s',
  co_force o = false -> co_keep o = false -> checkout o s = (None, s') ->
  exists c t, checkout_target o s = Some c /\ tree_of s c = Some t /\
    forall p, lookup p (idx s) = lookup p t -> lookup p (wt s') = lookup p (wt s).
Proof.
  intros o s s' Hf Hk H.
  assert (Hm : co_mode o = Merge) by (unfold co_mode; now rewrite Hf, Hk).
  destruct (checkout_ok _ _ _ H ltac:(rewrite Hm; discriminate)) as (c & t & pv & K1 & K2 & _ & _ & _ & K6 & _).
  exists c, t. repeat split; auto. intros p Hp. rewrite K6, Hm. cbn [wt_after].
  now rewrite (proj2 (differs_false _ _ _) Hp).
Qed.

Lemma keep_reset_effect : forall commit s s',
  reset commit Keep None s = (None, s') ->
  exists c t, reset_target commit s = Some c /\ tree_of s c = Some t /\
    (forall p e, lookup p t = Some e -> lookup p (wt s') = Some e) /\
    (forall p, lookup p t = None -> lookup p (tree_or_empty (head_tree s)) = None ->
               lookup p (wt s') = lookup p (wt s)).
Proof.
  intros commit s s' H.
  destruct (reset_ok _ _ _ _ _ H ltac:(discriminate)) as (c & t & s1 & R1 & R2 & _ & _ & _ & _ & _ & R8 & _).
  destruct (hard_writes t (prev_of Keep None s) (idx s) (wt s) (wt s') R8) as [W1 W2].
  exists c, t. repeat split; auto.
Qed.

Lemma reset_mixed_wt : forall commit from s r, reset commit Mixed from s = r -> wt (snd r) = wt s.
Proof.
  intros commit from s [[e|] s'] H; cbn [snd].
  - apply reset_err_unchanged in H. now subst.
  - (* reset_ok gives the worktree pointwise only; for Mixed it is literally untouched *)
    unfold reset in H. destruct (reset_commit commit s) as [[e1|] c1]; [discriminate|].
    cbv beta iota in H. unfold prev_tree in H. cbv beta iota in H.
    destruct (tree_of s c1); [|discriminate]. unfold apply_reset in H.
    destruct (set_head_commit c1 s) as [[e2|] s2] eqn:E2; [discriminate|].
    destruct (set_head_commit_ok _ _ _ E2) as (_ & _ & W & _).
    inversion H; subst. cbn. exact W.
Qed.

Lemma checkout_keep_untouched : forall o s r,
  co_force o = false -> co_keep o = true -> checkout o s = r ->
  idx (snd r) = idx s /\ wt (snd r) = wt s.
Proof.
  intros o s r Hf Hk <-. destruct (checkout o s) as [[e|] s'] eqn:Ec; cbn [snd].
  - now rewrite (checkout_err_unchanged _ _ _ _ Ec).
  - unfold checkout in Ec.
    destruct (checkout_pre o s) as [[e1|] [[[c m] from] s2]] eqn:Ep; [discriminate|].
    destruct (checkout_pre_ok _ _ _ _ _ _ Ep) as (-> & _ & _ & _ & A & B & _).
    assert (Hm : co_mode o = Soft) by (unfold co_mode; now rewrite Hf, Hk).
    rewrite Hm in Ec. destruct (reset_soft c from s2 _ Ec) as (X & Y). cbn [snd] in X, Y. split; congruence.
Qed.

(* witnesses of lost local content, each replayed on the real code *)

(* (i) a staged new file that the target lacks is deleted from disk *)
Definition c30_t0 : fmap := [(b "a", (KReg, b "A0"))].
Definition c30_t1 : fmap := [(b "a", (KReg, b "A1")); (b "n", (KReg, b "N"))].
Definition c30_base (ix w : fmap) : state :=
  mkState [c30_t0; c30_t1] [(master, 0%Z); (o_other, 1%Z)] (HSym master) ix w [].
Definition co_plain (br : bytes) := mkCopts br (-1) false false false.

Definition c30_staged : state :=
  c30_base [(b "a", (KReg, b "A0")); (b "s", (KReg, b "S"))] [(b "a", (KReg, b "A0")); (b "s", (KReg, b "S"))].

Lemma checkout_deletes_staged_new :
  exists s', checkout (co_plain o_other) c30_staged = (None, s') /\
    lookup (b "s") (wt c30_staged) = Some (KReg, b "S") /\ lookup (b "s") (wt s') = None /\
    lookup (b "s") (idx s') = None.
Proof. eexists. vm_compute. repeat split. Qed.

(* (ii) an untracked file at a path the target adds is overwritten *)
Definition c30_untracked : state :=
  c30_base c30_t0 [(b "a", (KReg, b "A0")); (b "n", (KReg, b "mine"))].

Lemma checkout_overwrites_untracked :
  exists s', checkout (co_plain o_other) c30_untracked = (None, s') /\
    lookup (b "n") (idx c30_untracked) = None /\
    lookup (b "n") (wt c30_untracked) = Some (KReg, b "mine") /\
    lookup (b "n") (wt s') = Some (KReg, b "N").
Proof. eexists. vm_compute. repeat split. Qed.

(* (iii) KeepReset: an unstaged modification of a file the reset does not touch
   (same entry in HEAD and target) is overwritten with the target's version *)
Definition c30_k0 : fmap := [(b "a", (KReg, b "A0")); (b "u", (KReg, b "U"))].
Definition c30_k1 : fmap := [(b "a", (KReg, b "A1")); (b "u", (KReg, b "U"))].
Definition c30_keep : state :=
  mkState [c30_k0; c30_k1] [(master, 0%Z)] (HSym master) c30_k0
          [(b "a", (KReg, b "A0")); (b "u", (KReg, b "local"))] [].

Lemma keep_overwrites_untouched :
  exists s', reset 1 Keep None c30_keep = (None, s') /\
    lookup (b "u") c30_k0 = lookup (b "u") c30_k1 /\
    lookup (b "u") (wt c30_keep) = Some (KReg, b "local") /\
    lookup (b "u") (wt s') = Some (KReg, b "U").
Proof. eexists. vm_compute. repeat split. Qed.
