(* Proofs/C35Git.v — go-git's encodings are in git's documented grammars
   (Spec/GitProto.v) and mean the message: git_<msg> (encode m) = Some m.
   hexsz is the object format of the conversation: every id has that length. *)
From Coq Require Import List Arith NArith ZArith Bool Lia String.
From GoGit Require Import Base.Out Base.GoInt Gen.C34 Model.PktLine Model.C35Utf8 Model.Packp Model.PackpV2 Spec.GitProto
  Proofs.C34Pkt Proofs.C35Base Proofs.C35Utf8 Proofs.C35U Proofs.C35Msgs Proofs.C35Caps Proofs.C35Dec.
Import ListNotations.

Definition sized (hexsz : nat) (h : hash) : bool := hash_ok h && Nat.eqb (hash_hexsize h) hexsz.

Lemma sized_spec hexsz h : sized hexsz h = true -> hash_ok h = true /\ List.length (hash_str h) = hexsz.
Proof.
  unfold sized. intros H. apply andb_prop in H. destruct H as [H1 H2]. apply Nat.eqb_eq in H2.
  split; [assumption|]. now rewrite (hash_str_length h H1).
Qed.

Lemma git_oid_str hexsz h : sized hexsz h = true -> git_oid hexsz (hash_str h) = Some h.
Proof.
  intros H. destruct (sized_spec hexsz h H) as [Hok Hl]. unfold git_oid. rewrite Hl, Nat.eqb_refl.
  rewrite (hash_str_all ishex h eq_refl Hok). cbn [andb]. now rewrite (new_hash_str h Hok).
Qed.

Lemma chomp_app x : chomp (x ++ [NL]) = x.
Proof. apply trim_eol_app. Qed.

Lemma chomp_id s : N.eqb NL (last s 0%N) = false -> chomp s = s.
Proof. apply trim_eol_id. Qed.

Lemma chomp_kw kw x : chomp (kw ++ x ++ [NL]) = kw ++ x.
Proof. rewrite app_assoc. apply chomp_app. Qed.

(* The line "kw x LF" in a parser that tries keywords in turn: the keywords tried before kw differ from it at
   some letter, so the parser reaches the branch of kw, which goes on with x. *)
Ltac kw_line kw :=
  rewrite chomp_kw, ?(has_prefix_clash _ kw) by reflexivity; cbv iota; rewrite has_prefix_app, ?(skipn_app_len kw).

(* "<kw> <oid>" *)
Lemma kw_oid_str hexsz (kw : string) p h : p = B kw ++ [SP] -> sized hexsz h = true -> kw_oid hexsz kw (p ++ hash_str h) = Some h.
Proof.
  intros -> H. unfold kw_oid. rewrite has_prefix_app.
  replace (List.length (B kw) + 1)%nat with (List.length (B kw ++ [SP])) by (rewrite app_length; reflexivity).
  rewrite skipn_app_len. now apply git_oid_str.
Qed.

Lemma oid_sp_str hexsz h rest : sized hexsz h = true -> oid_sp hexsz (hash_str h ++ SP :: rest) = Some (h, rest).
Proof.
  intros H. destruct (sized_spec hexsz h H) as [Hok Hl]. unfold oid_sp.
  rewrite (firstn_app_exact (hash_str h) (SP :: rest) _ Hl), (skipn_app_exact (hash_str h) (SP :: rest) _ Hl), (git_oid_str hexsz h H).
  now rewrite N.eqb_refl.
Qed.

Lemma kw_oid_rest hexsz kw k h x : sized hexsz h = true -> List.length kw = k ->
  git_oid hexsz (firstn hexsz (skipn k (kw ++ hash_str h ++ x))) = Some h /\ skipn (k + hexsz) (kw ++ hash_str h ++ x) = x.
Proof.
  intros H <-. destruct (sized_spec hexsz h H) as [_ Hl]. split.
  - now rewrite skipn_app_len, (firstn_app_exact _ _ _ Hl), git_oid_str.
  - now rewrite <- Hl, <- app_length, app_assoc, skipn_app_len.
Qed.

(* lines_acc for a loop with a phase: lines of one kind are accepted in the phases ok, and the first of them moves the
   loop to phase k; v is what the loop makes of the rest, in whatever phase it is then. *)
Lemma lines_phase {X I Ph S R} (go : list I -> Ph -> S -> R) (line : X -> I) (st : list X -> S) (P : X -> Prop) (ok : Ph -> Prop) k :
  ok k -> (forall x r acc ph, ok ph -> P x -> go (line x :: r) ph (st acc) = go r k (st (acc ++ [x]))) ->
  forall xs r acc ph v, ok ph -> Forall P xs ->
  (forall ph', ok ph' -> go r ph' (st (acc ++ xs)) = v) -> go (map line xs ++ r) ph (st acc) = v.
Proof.
  intros Hk step xs r acc ph v Hp H K. destruct xs as [|x xs]; [rewrite <- (K ph Hp); now rewrite app_nil_r|].
  inversion_clear H. cbn [map app]. rewrite step by assumption.
  rewrite (lines_acc (fun ps => go ps k) line st P (fun x r acc => step x r acc k Hk)) by assumption.
  rewrite <- app_assoc. now apply K.
Qed.

Lemma git_shupd_shallow hexsz uns h r sh : sized hexsz h = true ->
  git_shupd hexsz (PData (B "shallow " ++ hash_str h ++ [NL]) :: r) false sh uns = git_shupd hexsz r false (sh ++ [h]) uns.
Proof. intros H. cbn [git_shupd]. now rewrite chomp_kw, (kw_oid_str hexsz "shallow" (B "shallow ") h eq_refl H). Qed.

Lemma kw_shallow_unshallow hexsz x : kw_oid hexsz "shallow" (B "unshallow " ++ x) = None.
Proof. reflexivity. Qed.

Lemma git_shupd_unshallow hexsz sh h r uns un : sized hexsz h = true ->
  git_shupd hexsz (PData (B "unshallow " ++ hash_str h ++ [NL]) :: r) un sh uns = git_shupd hexsz r true sh (uns ++ [h]).
Proof. intros H. cbn [git_shupd]. now rewrite chomp_kw, kw_shallow_unshallow, (kw_oid_str hexsz "unshallow" (B "unshallow ") h eq_refl H). Qed.

Theorem git_shupd_enc hexsz m : forallb (sized hexsz) (su_shallows m) = true -> forallb (sized hexsz) (su_unshallows m) = true ->
  git_shupd hexsz (su_encode m) false [] [] = Some (su_shallows m, su_unshallows m).
Proof.
  intros H1 H2. unfold su_encode.
  rewrite (lines_acc (fun ps sh => git_shupd hexsz ps false sh []) _ (fun sh => sh) _ (fun h r sh => git_shupd_shallow hexsz [] h r sh))
    by now apply forallb_Forall.
  apply (lines_phase (fun ps un uns => git_shupd hexsz ps un _ uns) _ (fun uns => uns) _ (fun _ => True) true I
                     (fun h r uns un _ => git_shupd_unshallow hexsz _ h r uns un)); [exact I|now apply forallb_Forall|reflexivity].
Qed.

(* a have line is read the same way whether or not it is the last: alone it is not "done", and nothing follows it *)
Lemma git_haves_have hexsz h r acc : sized hexsz h = true ->
  git_haves hexsz (PData (B "have " ++ hash_str h ++ [NL]) :: r) acc = git_haves hexsz r (acc ++ [h]).
Proof.
  intros H. destruct r as [|x r]; cbn [git_haves]; rewrite chomp_kw.
  - now assert (beq (B "have " ++ hash_str h) (B "done") = false) as -> by reflexivity.
  - now rewrite (kw_oid_str hexsz "have" (B "have ") h eq_refl H).
Qed.

Theorem git_haves_enc hexsz m : forallb (sized hexsz) (uh_haves m) = true ->
  git_haves hexsz (uh_encode m) [] = Some (uh_haves (uh_canon m), uh_done m).
Proof.
  intros H. unfold uh_encode, uh_canon. cbn [uh_haves uh_done].
  rewrite (lines_acc (git_haves hexsz) _ (fun a => a) _ (git_haves_have hexsz))
    by (apply dedup_from_Forall, sort_by_Forall; now apply forallb_Forall).
  now destruct (uh_done m).
Qed.

Lemma git_pushopts_lines : forall opts acc, forallb (fun o => negb (N.eqb NL (last o 0%N))) opts = true ->
  git_pushopts (map PData opts ++ [PFlush]) acc = Some (acc ++ opts).
Proof.
  intros opts acc H. rewrite (lines_acc git_pushopts PData (fun a => a) (fun o => N.eqb NL (last o 0%N) = false)); [reflexivity| |].
  - intros o r a Ho. cbn [git_pushopts]. now rewrite (chomp_id o Ho).
  - apply forallb_Forall in H. revert H. apply Forall_impl. intros o. apply negb_true_iff.
Qed.

Lemma existsb_nobyte c s : no_byte c s = true -> existsb (N.eqb c) s = false.
Proof.
  unfold no_byte. induction s as [|x s IH]; [reflexivity|]. cbn [forallb existsb]. intros H. apply andb_prop in H. destruct H as [H1 H2].
  apply negb_true_iff in H1. rewrite N.eqb_sym, H1. now apply IH.
Qed.

Lemma git_status_ok name r acc : name <> [] -> no_byte SP name = true ->
  git_statuses (PData (B "ok " ++ name ++ [NL]) :: r) acc = git_statuses r (acc ++ [(name, OKb)]).
Proof. intros Hne Hsp. cbn [git_statuses]. kw_line (B "ok "). destruct name; [contradiction|]. now rewrite (existsb_nobyte SP _ Hsp). Qed.

Lemma git_status_ng name st r acc : name <> [] -> no_byte SP name = true ->
  git_statuses (PData (B "ng " ++ name ++ [SP] ++ st ++ [NL]) :: r) acc = git_statuses r (acc ++ [(name, st)]).
Proof.
  intros Hne Hsp. cbn [git_statuses].
  assert (B "ng " ++ name ++ [SP] ++ st ++ [NL] = B "ng " ++ (name ++ SP :: st) ++ [NL]) as -> by now rewrite <- app_assoc.
  kw_line (B "ng "). rewrite (cut_app SP name st Hsp). now destruct name.
Qed.

Lemma git_statuses_lines cs acc :
  forallb (fun c => negb (Nat.eqb (List.length (fst c)) 0) && no_byte SP (fst c)) cs = true ->
  git_statuses (map (fun c => if beq (snd c) OKb then PData (B "ok " ++ fst c ++ [NL])
                              else PData (B "ng " ++ fst c ++ [SP] ++ snd c ++ [NL])) cs ++ [PFlush]) acc
  = Some (acc ++ cs).
Proof.
  intros H. rewrite (lines_acc git_statuses _ (fun a => a) (fun c => fst c <> [] /\ no_byte SP (fst c) = true)); [reflexivity| |].
  - intros [name st] r a [Hne Hsp]. cbn [fst snd]. destruct (beq st OKb) eqn:E; [|now apply git_status_ng].
    apply beq_eq in E. subst st. now apply git_status_ok.
  - apply forallb_Forall in H. revert H. apply Forall_impl. intros [name st] Hc. cbn [fst] in Hc |- *. apply andb_prop in Hc.
    destruct Hc as [Hne Hsp]. split; [now destruct name|exact Hsp].
Qed.

(* reference names are non-empty and free of blanks *)
Definition report_ok (m : report) : bool :=
  forallb (fun c => negb (Nat.eqb (List.length (fst c)) 0) && no_byte SP (fst c)) (rs_cmds m).

Theorem git_report_enc m : report_ok m = true -> git_report (rs_encode m) = Some (rs_unpack m, rs_cmds m).
Proof.
  intros Hok. unfold rs_encode. cbn [git_report]. kw_line (B "unpack "). now rewrite (git_statuses_lines _ [] Hok).
Qed.

Lemma git_ack_status_str st : (1 <= st <= 3)%N -> git_ack_status (status_str st) = Some st.
Proof. intros H. assert (st = 1 \/ st = 2 \/ st = 3)%N as [-> | [-> | ->]] by lia; reflexivity. Qed.

Lemma git_srv_multi hexsz h st r acc : sized hexsz h = true -> (1 <= st <= 3)%N ->
  git_srvresp hexsz (PData (B "ACK " ++ hash_str h ++ [SP] ++ status_str st ++ [NL]) :: r) acc
  = git_srvresp hexsz r (acc ++ [(h, st)]).
Proof.
  intros H Hst. destruct (kw_oid_rest hexsz (B "ACK ") 4 h (SP :: status_str st) H eq_refl) as [Ho Hr]. cbn [git_srvresp].
  assert (B "ACK " ++ hash_str h ++ [SP] ++ status_str st ++ [NL] = B "ACK " ++ (hash_str h ++ SP :: status_str st) ++ [NL]) as ->
    by now rewrite <- app_assoc.
  rewrite chomp_kw. assert (beq (B "ACK " ++ hash_str h ++ SP :: status_str st) (B "NAK") = false) as -> by reflexivity.
  now rewrite has_prefix_app, Ho, Hr, N.eqb_refl, (git_ack_status_str st Hst).
Qed.

Lemma git_srv_plain hexsz h acc : sized hexsz h = true ->
  git_srvresp hexsz [PData (B "ACK " ++ hash_str h ++ [NL])] acc = Some (acc ++ [(h, 0%N)]).
Proof.
  intros H. destruct (kw_oid_rest hexsz (B "ACK ") 4 h [] H eq_refl) as [Ho Hr]. rewrite app_nil_r in Ho, Hr. cbn [git_srvresp].
  rewrite chomp_kw. assert (beq (B "ACK " ++ hash_str h) (B "NAK") = false) as -> by reflexivity.
  now rewrite has_prefix_app, Ho, Hr.
Qed.

Lemma git_srv_go hexsz : forall acks multi acc, acks <> [] -> sr_ok acks = true -> forallb (fun a => sized hexsz (fst a)) acks = true ->
  git_srvresp hexsz (sr_encode_go acks multi) acc = Some (acc ++ acks).
Proof.
  induction acks as [|[h st] acks IH]; intros multi acc Hne Hok Hs; [contradiction|].
  cbn [forallb fst] in Hs. apply andb_prop in Hs. destruct Hs as [Hs1 Hs2].
  destruct acks as [|a2 acks].
  - cbn [sr_ok] in Hok. apply andb_prop in Hok. destruct Hok as [Hh Hst]. apply N.leb_le in Hst.
    cbn [sr_encode_go]. destruct (N.ltb_spec 0 st).
    + rewrite git_srv_multi by (auto; lia). reflexivity.
    + assert (st = 0%N) as -> by lia. destruct multi; cbn [sr_encode_go]; now rewrite git_srv_plain.
  - change (sr_ok ((h, st) :: a2 :: acks)) with (hash_ok h && N.leb 1 st && N.leb st 3 && sr_ok (a2 :: acks)) in Hok.
    apply andb_prop in Hok. destruct Hok as [Hok H4]. apply andb_prop in Hok. destruct Hok as [Hok H3].
    apply andb_prop in Hok. destruct Hok as [Hh H1]. apply N.leb_le in H1, H3.
    remember (a2 :: acks) as rest eqn:Er.
    cbn [sr_encode_go]. destruct (N.ltb_spec 0 st); [|lia].
    rewrite git_srv_multi by (auto; lia). rewrite IH; [|subst rest; discriminate|assumption|assumption].
    now rewrite <- app_assoc.
Qed.

Theorem git_srvresp_enc hexsz acks : sr_ok acks = true -> forallb (fun a => sized hexsz (fst a)) acks = true ->
  git_srvresp hexsz (sr_encode acks) [] = Some acks.
Proof.
  intros H Hs. unfold sr_encode. destruct acks as [|a acks]; [reflexivity|].
  now rewrite git_srv_go.
Qed.
