(* Proofs/C02Extra.v — extra headers: for every stored commit that satisfies
   the boolean clause Spec/GitExtra.extras_guard, go-git's Commit.ExtraHeaders
   are the extra headers git itself extracts (commit.c
   read_commit_extra_header_lines, gpgsig headers excluded), each value
   without its trailing LFs. *)
From Coq Require Import List NArith Bool.
From GoGit Require Import Base.Out Model.ObjLines Model.Commit Spec.ObjWf Spec.GitExtra
     Proofs.ObjLinesFacts Proofs.C03CommitSig Proofs.C02Scan Proofs.C02Ident Proofs.C02Lines.
Import ListNotations.
Local Open Scope N_scope.

Lemma index_of_snoc_ne c d p : (d =? c) = false -> forall i, index_of c (p ++ [d]) = Some i -> index_of c p = Some i.
Proof.
  intros Hd. induction p as [|x p IH]; intros i H.
  - cbn in H. rewrite Hd in H. discriminate.
  - cbn [app index_of] in *. destruct (x =? c); [exact H|].
    destruct (index_of c (p ++ [d])) as [j|] eqn:Ej; [|discriminate]. now rewrite (IH _ eq_refl).
Qed.

(* what both sides see of a LF-terminated line whose first space is at index i *)
Lemma spaced_line l i : line_ok l -> ends_nl l = true -> index_of SPC l = Some i ->
  no_lf (firstn i l) = true /\ fst (split_header l) = firstn i l /\ cut_at SPC l = (firstn i l, skipn (S i) l, true).
Proof.
  intros Hl He Hi. destruct (line_lf_form _ Hl He) as [p [Hp ->]].
  apply (index_of_snoc_ne SPC LF p eq_refl) in Hi.
  destruct (index_of_split _ _ _ Hi) as [k [v' [-> [Hk ->]]]].
  rewrite no_lf_app in Hp. apply andb_true_iff in Hp as [Hpk Hpv].
  rewrite <- app_assoc. cbn [app]. rewrite firstn_app_exact, skipn_cons_exact. repeat split.
  - exact Hpk.
  - replace (k ++ SPC :: v' ++ [LF]) with ((k ++ SPC :: v') ++ [LF]) by (now rewrite <- app_assoc).
    rewrite split_header_line; [now rewrite (cut_at_first _ _ _ Hk)|]. rewrite no_lf_app, Hpk. exact Hpv.
  - apply (cut_at_first _ _ (v' ++ [LF]) Hk).
Qed.

(* the scanner states as git's loop state *)
Definition st_it (st : cstate) : option (bytes * bytes) := match st with SExtra k v => Some (k, v) | _ => None end.

Lemma cfinish_extra st c acc : c_extra c = map extra_norm acc ->
  c_extra (cfinish st c) = map extra_norm (flush_extra acc (st_it st)).
Proof.
  intros H. destruct st; cbn [cfinish st_it flush_extra]; try exact H.
  unfold finalise_extra. destruct c as [t0 ps0 a0 cm0 e0 x0 s0 s1 m0]. cbn [c_extra set_extra] in *. rewrite map_app, H. reflexivity.
Qed.

(* go-git's standard headers are git's standard and excluded fields *)
Lemma std_header_git k : is_standard_header k = git_std_field k || git_excl_field k.
Proof. unfold is_standard_header, git_std_field, git_excl_field. now rewrite orb_assoc. Qed.

Lemma cstep_keyed st c se l k v c' se' st' :
  st <> SMessage -> is_blank l = false -> first_is SPC l = false ->
  fst (split_header l) = k -> cut_at SPC l = (k, v, true) -> no_lf k = true ->
  cstep st c se false l = Ok (c', se', st') ->
  c_extra c' = c_extra (cfinish st c) /\ takes_cont st' = negb (git_std_field k) /\
  st_it st' = if git_std_field k || git_excl_field k then None else Some (k, v).
Proof.
  intros Hst Hb Hsp Hk Hc Hn H.
  assert (Hp : parse_extra_header l = (k, v, true)) by (unfold parse_extra_header; now rewrite Hc, (trim_right_nolf _ Hn)).
  destruct (cstep_header _ _ _ _ _ _ Hst H) as [[Hsp' _]|[[Hb' _]|[_ [_ Hs]]]]; [congruence|congruence|].
  rewrite Hk in Hs. clear H Hk.
  (* a concrete key decides both tests by computation; an extra header is one that fails both *)
  inversion Hs as [h| | |[E|[E|[E|E]]]| | | |k' v' Hn' Hp'|k' v' Hn' Hp']; subst.
  1-10: split; [first [reflexivity|now destruct se]|vm_compute; now split].
  - rewrite std_header_git in Hn'. apply orb_false_iff in Hn' as [-> ->]. repeat split. cbn. congruence.
  - congruence.
Qed.

Lemma cstep_cont_extra st c se l c' se' st' :
  takes_cont st = true -> first_is SPC l = true ->
  cstep st c se false l = Ok (c', se', st') ->
  c_extra c' = c_extra c /\ takes_cont st' = true /\
  st_it st' = match st_it st with Some (k, b) => Some (k, b ++ tl l) | None => None end.
Proof.
  intros Hok Hsp. destruct st; try discriminate; cbn [cstep]; rewrite Hsp;
    intros H; inversion H; subst; repeat split.
Qed.

Lemma crun_extras : forall ls st c se acc c',
  st <> SMessage -> Forall line_ok ls -> forallb ends_nl (header_of ls) = true ->
  extras_guard_run (takes_cont st) ls = true -> c_extra c = map extra_norm acc ->
  crun st c se ls = Ok c' ->
  c_extra c' = map extra_norm (git_extras_run ls acc (st_it st)).
Proof.
  induction ls as [|l r IH]; intros st c se acc c' Hst Hok He Hg Hacc Hrun.
  - cbn [crun] in Hrun. inversion Hrun; subst. cbn [git_extras_run]. now apply cfinish_extra.
  - apply Forall_cons_iff in Hok as [Hl Hr]. cbn [git_extras_run extras_guard_run header_of] in *.
    rewrite (first_is_lf_blank _ Hl) in *.
    destruct (crun_header_cons _ _ _ _ _ _ Hst Hrun) as [[Hb Hm]|[Hb (c1 & se1 & st1 & Es & Hst1 & Hrun')]]; rewrite Hb in *.
    + destruct (crun_message_fields _ _ _ _ Hm) as [m ->]. now apply cfinish_extra.
    + cbn [forallb] in He. apply andb_true_iff in He as [Een Her]. rewrite Een in *. cbn [negb] in Es.
      destruct (first_is SPC l) eqn:Esp.
      * apply andb_true_iff in Hg as [Hok1 Hg].
        destruct (cstep_cont_extra _ _ _ _ _ _ _ Hok1 Esp Es) as [Hc1 [Hok' Hit]].
        rewrite <- Hit. apply (IH st1 c1 se1 acc c' Hst1 Hr Her); [rewrite Hok'; rewrite Hok1 in Hg; exact Hg|now rewrite Hc1|exact Hrun'].
      * destruct (index_of SPC l) as [i|] eqn:Ei; [|discriminate].
        destruct (spaced_line _ _ Hl Een Ei) as (Hn & Hkey & Hcut).
        destruct (cstep_keyed _ _ _ _ _ _ _ _ _ Hst Hb Esp Hkey Hcut Hn Es) as (Hc1 & Htc & Hit).
        pose proof (cfinish_extra st c acc Hacc) as Hfin. rewrite <- Hc1 in Hfin.
        transitivity (map extra_norm (git_extras_run r (flush_extra acc (st_it st)) (st_it st1)));
          [|rewrite Hit; now destruct (git_std_field (firstn i l) || git_excl_field (firstn i l))].
        apply (IH st1 c1 se1 _ c' Hst1 Hr Her); [now rewrite Htc|exact Hfin|exact Hrun'].
Qed.

Theorem extras_match_git : forall raw c,
  decode_commit raw = Ok c -> extras_guard raw = true ->
  c_extra c = map extra_norm (git_extras raw).
Proof.
  intros raw c Hd Hg. unfold extras_guard in Hg. unfold git_extras.
  destruct (decode_commit_inv _ _ Hd) as (l & r & data & h & E & Hl & Hr & _ & Hb & Es & Ep & Hrun). rewrite E in *.
  apply andb_true_iff in Hg as [He Hg].
  assert (Elf : first_is LF l = false) by now rewrite (first_is_lf_blank _ Hl).
  cbn [header_of] in He. rewrite Elf in He. cbn [forallb] in He. apply andb_true_iff in He as [Een Her].
  destruct (line_lf_form _ Hl Een) as [p [Hp ->]].
  rewrite (split_header_line _ Hp) in Es. destruct (cut_at SPC p) as [[k0 v0] f0] eqn:Ec. inversion Es; subst k0 v0.
  destruct (cut_at_spec _ _ _ _ _ Ec) as [-> _].
  destruct f0; [|rewrite (cut_at_false _ _ _ _ Ec) in Ep; discriminate Ep].
  (* the first line is "tree " ++ data ++ [LF]: git's loop finds its first space at index 4 and drops the
     standard field "tree" (by computation), so it goes on with nothing pending, like scanParents *)
  cbn [git_extras_run]. rewrite Elf.
  exact (crun_extras r SParents (commit_init h) false [] c ltac:(discriminate) Hr Her Hg eq_refl Hrun).
Qed.
