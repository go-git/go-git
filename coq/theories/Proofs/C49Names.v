(* Proofs/C49Names.v — the fragment of plain name patterns (names_case),
   wildmatch on the two shapes match_basename short-cuts (a literal, a star
   before a literal), what the two line readers do on clean lines, and go-git's
   Scope walk rearranged (gw) so that it proceeds directory by directory like
   git's prep_exclude.  The theorem about names_case is in C49Frag.v. *)
From Coq Require Import List NArith Bool Lia PeanoNat.
From GoGit Require Import Base.Out Model.Gitignore Spec.Glob Spec.GitIgnore
     Proofs.C49Total Proofs.C49Wild Proofs.C49Git Proofs.C49Trim Proofs.C49Scope.
Import ListNotations.
Local Open Scope N_scope.

(* the line without its optional trailing slash *)
Definition body_of_line (l : bytes) : bytes :=
  match rev l with c :: r => if c =? cSLASH then rev r else l | [] => l end.

(* empty line, comment, or a slash-free (but for a trailing slash), non-negated
   pattern whose glob is in the fragment of Spec/Glob *)
Definition name_line (l : bytes) : bool :=
  match l with
  | [] => true
  | c :: _ =>
    (c =? cHASH) ||
    (negb (c =? cBANG) && negb (has_slash (body_of_line l)) &&
     match glob_of (body_of_line l) with Some _ => true | None => false end)
  end.

(* no blank other than LF (so nothing to trim and no CR), no byte order mark *)
Definition content_ok (c : bytes) : bool :=
  forallb (fun b => (b =? cLF) || negb (is_space b)) c &&
  negb (match c with b :: _ => b =? 239 | [] => false end) &&
  forallb name_line (split_lf c []).

Definition names_case (excl : option bytes) (fs : files) : bool :=
  match excl with Some c => content_ok c | None => true end &&
  forallb (fun f => content_ok (snd f)) fs.

Lemma beq_refl a : beq a a = true.
Proof. induction a as [|x a IH]; cbn; [reflexivity|]. now rewrite N.eqb_refl. Qed.

Lemma beq_eq a b : beq a b = true <-> a = b.
Proof.
  revert b. induction a as [|x a IH]; intros [|y b]; cbn; split; intros H; try reflexivity; try discriminate.
  - apply andb_true_iff in H. destruct H as [H1 H2]. apply N.eqb_eq in H1. apply IH in H2. now subst.
  - inversion H; subst. now rewrite N.eqb_refl, beq_refl.
Qed.

Lemma simple_all_parse : forall s f, simple_length s = List.length s -> (List.length s < f)%nat ->
  parse_glob f s = Some (map ILit s).
Proof.
  induction s as [|c r IH]; intros f Hs Hf.
  - destruct f; [cbn in Hf; lia|]. reflexivity.
  - destruct f as [|f0]; [cbn in Hf; lia|]. cbn [simple_length] in Hs.
    destruct (is_glob_special c) eqn:Sp; [cbn in Hs; lia|].
    unfold is_glob_special, cSTAR, cQM, cLB, cBSL in Sp. rewrite !orb_false_iff in Sp.
    destruct Sp as [[[S1 S2] S3] S4].
    cbn [parse_glob]. rewrite S4, S2, S1, S3.
    rewrite IH; [reflexivity|cbn in Hs; lia|cbn in Hf; lia].
Qed.

Lemma gmatch_lits s : forall t, gmatch (map ILit s) t = beq s t.
Proof.
  induction s as [|c r IH]; intros t; cbn; [destruct t; reflexivity|].
  destruct t as [|d t']; [reflexivity|]. rewrite IH. cbn. now rewrite N.eqb_sym.
Qed.

Lemma wildmatch_literal s t : simple_length s = List.length s -> wildmatch s t = beq s t.
Proof.
  intros Hs. rewrite (wildmatch_eq_gmatch s (map ILit s)).
  - apply gmatch_lits.
  - apply simple_all_parse; [assumption|lia].
Qed.

Lemma is_suffix_at_spec suf : forall s, is_suffix_at suf s = true <-> suffix suf s.
Proof.
  induction s as [|c r IH]; cbn [is_suffix_at].
  - rewrite orb_false_r, beq_eq. split.
    + intros ->. apply suffix_refl.
    + intros H. now apply suffix_nil in H.
  - rewrite orb_true_iff, beq_eq, IH. split.
    + intros [->|H]; [apply suffix_refl|now apply suffix_cons].
    + intros H. apply suffix_cons_inv in H. tauto.
Qed.

Lemma is_suffix_len r t : is_suffix_at r t = true -> (List.length r <= List.length t)%nat.
Proof. intros H. apply is_suffix_at_spec in H. destruct H as [s ->]. rewrite app_length. lia. Qed.

Lemma wildmatch_star_literal r t : simple_length r = List.length r ->
  wildmatch (cSTAR :: r) t = is_suffix_at r t.
Proof.
  intros Hs.
  assert (Hg : glob_of (cSTAR :: r) = Some (IStar :: map ILit r)).
  { unfold glob_of. cbn [List.length]. rewrite parse_glob_star.
    rewrite simple_all_parse; [reflexivity|assumption|lia]. }
  pose proof (wildmatch_sound_complete _ _ t Hg) as H.
  pose proof (is_suffix_at_spec r t) as H2.
  assert (H3 : Gmatch (IStar :: map ILit r) t <-> suffix r t).
  { rewrite Gmatch_star_iff. split.
    - intros [t' [Hsuf Hm]]. apply gmatch_spec in Hm. rewrite gmatch_lits in Hm. apply beq_eq in Hm. now subst.
    - intros Hsuf. exists r. split; [assumption|]. apply gmatch_spec. rewrite gmatch_lits. apply beq_refl. }
  destruct (wildmatch (cSTAR :: r) t), (is_suffix_at r t); try reflexivity; intuition congruence.
Qed.

Definition ends_slash (l : bytes) : bool :=
  match rev l with c :: _ => c =? cSLASH | [] => false end.

Lemma body_app l : exists tail, l = body_of_line l ++ tail /\ (tail = [] \/ tail = [cSLASH]) /\
                                (ends_slash l = match tail with [] => false | _ => true end).
Proof.
  unfold body_of_line, ends_slash. destruct (rev l) as [|c r] eqn:E.
  - exists []. rewrite app_nil_r. tauto.
  - assert (Hl : l = rev r ++ [c]).
    { rewrite <- (rev_involutive l), E. reflexivity. }
    destruct (c =? cSLASH) eqn:Ec.
    + apply N.eqb_eq in Ec. subst c. exists [cSLASH]. tauto.
    + exists []. rewrite app_nil_r. tauto.
Qed.

Lemma split_slash_noslash : forall s cur, has_slash s = false -> split_slash s cur = [rev cur ++ s].
Proof.
  induction s as [|c r IH]; intros cur H; cbn in *.
  - now rewrite app_nil_r.
  - apply orb_false_iff in H. destruct H as [H1 H2]. rewrite H1. rewrite IH by assumption.
    cbn. now rewrite <- app_assoc.
Qed.

Definition nospace (l : bytes) : Prop := forall c, In c l -> is_space c = false.

Lemma gtrim_id_n : forall n l, (List.length l <= n)%nat -> (forall x, In x l -> (x =? cSP) = false) -> gtrim l = l.
Proof.
  induction n as [|n IH]; intros l Hn Hl.
  - destruct l; [reflexivity|cbn in Hn; lia].
  - destruct l as [|c r]; [reflexivity|]. cbn [gtrim].
    rewrite (Hl c (or_introl eq_refl)).
    destruct (c =? cBSL).
    + destruct r as [|d r']; [reflexivity|]. rewrite IH; [reflexivity|cbn in Hn; lia|].
      intros x Hx. apply Hl. right. now right.
    + rewrite IH; [reflexivity|cbn in Hn; lia|]. intros x Hx. apply Hl. now right.
Qed.

Lemma nospace_sp l x : nospace l -> In x l -> (x =? cSP) = false /\ (x =? cCR) = false.
Proof.
  intros H Hx. specialize (H _ Hx). unfold is_space in H. rewrite !orb_false_iff in H.
  unfold cSP, cCR. tauto.
Qed.

Lemma gtrim_nospace l : nospace l -> gtrim l = l.
Proof.
  intros H. apply (gtrim_id_n (List.length l)); [lia|]. intros x Hx. exact (proj1 (nospace_sp _ _ H Hx)).
Qed.

Lemma simple_length_le s : (simple_length s <= List.length s)%nat.
Proof. induction s as [|c r IH]; cbn; [lia|]. destruct (is_glob_special c); cbn; lia. Qed.

Lemma simple_length_app a b :
  simple_length (a ++ b) =
  if Nat.eqb (simple_length a) (List.length a) then (List.length a + simple_length b)%nat else simple_length a.
Proof.
  induction a as [|c r IH]; cbn [app simple_length List.length]; [reflexivity|].
  destruct (is_glob_special c); [reflexivity|]. rewrite IH. cbn [Nat.eqb].
  destruct (Nat.eqb (simple_length r) (List.length r)); reflexivity.
Qed.

Lemma keep_line_name l : nospace l -> l <> [] ->
  keep_line l = negb (match l with c :: _ => c =? cHASH | [] => false end).
Proof.
  intros Hns Hne. unfold keep_line. destruct l as [|c r]; [congruence|].
  assert (forallb is_space (c :: r) = false).
  { cbn. now rewrite (Hns c (or_introl eq_refl)). }
  rewrite H. now rewrite andb_true_r.
Qed.

Lemma gline_name l : nospace l -> l <> [] ->
  gline l = if (match l with c :: _ => c =? cHASH | [] => false end) then None else Some l.
Proof.
  intros Hns Hne. unfold gline. destruct l as [|c r]; [congruence|].
  destruct (c =? cHASH); [reflexivity|]. f_equal.
  pose proof (gtrim_nospace _ Hns) as Hid.
  destruct (rev (c :: r)) as [|d r0] eqn:Er; [exact Hid|].
  assert (In d (c :: r)) by (apply in_rev; rewrite Er; now left).
  rewrite (proj2 (nospace_sp _ _ Hns H)). exact Hid.
Qed.

Lemma scan_eq_split : forall s cur,
  (forall x, In x s -> (x =? cCR) = false) -> (forall x, In x cur -> (x =? cCR) = false) ->
  scan_lines s cur = split_lf s cur.
Proof.
  assert (Hd : forall cur, (forall x, In x cur -> (x =? cCR) = false) -> drop_cr_rev cur = cur).
  { intros [|c r] H; [reflexivity|]. cbn. now rewrite (H c (or_introl eq_refl)). }
  induction s as [|c r IH]; intros cur Hs Hc; cbn [scan_lines split_lf].
  - destruct cur; [reflexivity|]. now rewrite Hd.
  - destruct (c =? cLF).
    + rewrite Hd by assumption. rewrite IH; [reflexivity| |intros x []].
      intros x Hx. apply Hs. now right.
    + apply IH.
      * intros x Hx. apply Hs. now right.
      * intros x [<-|Hx]; [apply Hs; now left|now apply Hc].
Qed.

Lemma split_lf_chars : forall s cur l, In l (split_lf s cur) -> forall x, In x l ->
  In x cur \/ (In x s /\ (x =? cLF) = false).
Proof.
  induction s as [|c r IH]; intros cur l Hl x Hx; cbn [split_lf] in Hl.
  - destruct cur as [|c0 cur0]; [destruct Hl|]. destruct Hl as [<-|[]].
    left. now apply in_rev.
  - destruct (c =? cLF) eqn:Ec.
    + destruct Hl as [<-|Hl].
      * left. now apply in_rev.
      * destruct (IH _ _ Hl _ Hx) as [[]|[A B]]. right. split; [now right|assumption].
    + destruct (IH _ _ Hl _ Hx) as [[<-|A]|[A B]].
      * right. split; [now left|assumption].
      * now left.
      * right. split; [now right|assumption].
Qed.

Lemma split_lf_first : forall s cur, cur <> [] ->
  exists tail rest, split_lf s cur = (rev cur ++ tail) :: rest.
Proof.
  induction s as [|c r IH]; intros cur Hc; cbn [split_lf].
  - destruct cur; [congruence|]. exists [], []. now rewrite app_nil_r.
  - destruct (c =? cLF).
    + exists [], (split_lf r []). now rewrite app_nil_r.
    + destruct (IH (c :: cur) ltac:(discriminate)) as (tail & rest & E).
      exists (c :: tail), rest. rewrite E. cbn [rev]. now rewrite <- app_assoc.
Qed.

Lemma strip_bom_first_id c : (match c with b :: _ => b =? 239 | [] => false end) = false ->
  strip_bom_first (split_lf c []) = split_lf c [].
Proof.
  intros Hb. destruct c as [|b r]; [reflexivity|]. cbn [split_lf].
  destruct (b =? cLF); [reflexivity|].
  destruct (split_lf_first r [b] ltac:(discriminate)) as (tail & rest & E). rewrite E.
  cbn [rev app strip_bom_first]. f_equal. unfold strip_bom.
  destruct tail as [|t1 [|t2 r2]]; try reflexivity. now rewrite Hb.
Qed.

Definition go_file (fs : files) (pre : list bytes) : list pat :=
  match file_at fs pre with Some c => read_ignore c pre | None => [] end.
Definition git_file (fs : files) (pre : list bytes) : list gpat :=
  match file_at fs pre with Some c => gread c pre | None => [] end.

Lemma forallb_file_at (f : bytes -> bool) fs :
  forallb (fun x => f (snd x)) fs = true -> forall dir c, file_at fs dir = Some c -> f c = true.
Proof.
  intros Hf dir c. induction fs as [|[d0 c0] r IH]; [discriminate|]. cbn in Hf |- *.
  apply andb_true_iff in Hf. destruct (path_eqb d0 dir); [|now apply IH].
  intros H. inversion H; subst. tauto.
Qed.

(* ps: the patterns in scope when directory pre was entered (its own file not
   yet read); pre is known not to be excluded *)
Fixpoint gw (fs : files) (ps : list pat) (pre rest : list bytes) (path : list bytes) (isdir : bool) : bool :=
  let ps' := ps ++ go_file fs pre in
  match rest with
  | [] => false
  | [e] => matcher_match ps' path isdir
  | e :: rest' =>
    if matcher_match ps' (pre ++ [e]) true then true else gw fs ps' (pre ++ [e]) rest' path isdir
  end.

Lemma gw_step fs ps pre e e2 r path isdir :
  gw fs ps pre (e :: e2 :: r) path isdir =
  if matcher_match (ps ++ go_file fs pre) (pre ++ [e]) true then true
  else gw fs (ps ++ go_file fs pre) (pre ++ [e]) (e2 :: r) path isdir.
Proof. reflexivity. Qed.

Lemma descend_eq fs s dir : sc_excluded s = false -> matcher_match (sc_pats s) dir true = false ->
  descend fs s dir = mkScope (sc_pats s ++ go_file fs dir) false.
Proof.
  intros He Hm. unfold descend, go_file. rewrite He, Hm. cbn [orb].
  destruct (file_at fs dir); [reflexivity|]. rewrite app_nil_r. destruct s; cbn in *. now subst.
Qed.

Lemma walk_excl_match fs rest s pre path isdir :
  sc_excluded s = true -> scope_match (walk fs s pre rest) path isdir = true.
Proof. intros H. unfold scope_match. now rewrite (walk_excluded fs rest s pre H). Qed.

Lemma go_phase fs path isdir : forall rest pre s, rest <> [] ->
  sc_excluded s = false -> matcher_match (sc_pats s) pre true = false ->
  scope_match (walk fs s pre rest) path isdir = gw fs (sc_pats s) pre rest path isdir.
Proof.
  induction rest as [|e rest IH]; intros pre s Hne He Hm; [congruence|].
  cbn [walk]. rewrite (descend_eq _ _ _ He Hm).
  destruct rest as [|e2 r].
  - cbn [walk gw]. unfold scope_match. reflexivity.
  - set (s' := mkScope (sc_pats s ++ go_file fs pre) false).
    rewrite gw_step. change (sc_pats s ++ go_file fs pre) with (sc_pats s').
    destruct (matcher_match (sc_pats s') (pre ++ [e]) true) eqn:Em.
    + cbn [walk]. apply walk_excl_match. unfold descend. rewrite Em. now rewrite orb_true_r.
    + apply IH; [discriminate|reflexivity|exact Em].
Qed.

Lemma pat_match_nil p d : pat_match p [] d = NoMatch.
Proof. reflexivity. Qed.

Lemma matcher_nil ps d : matcher_match ps [] d = false.
Proof.
  unfold matcher_match. induction (rev ps) as [|p r IH]; [reflexivity|]. cbn. exact IH.
Qed.

Lemma strip_domain_app a x : strip_domain a (a ++ x) = Some x.
Proof. induction a as [|c a IH]; cbn; [reflexivity|]. now rewrite beq_refl. Qed.

(* pattern.Match on a path strictly below the pattern's domain *)
Lemma pat_match_dom p rel d : rel <> [] ->
  (pat_match p (p_dom p ++ rel) d <> NoMatch <->
   (if p_isglob p then glob_match p rel d
    else simple_name_match (hd [] (p_segs p)) (p_dironly p) d rel) = true).
Proof.
  intros Hne. unfold pat_match.
  assert (Hl : Nat.leb (List.length (p_dom p ++ rel)) (List.length (p_dom p)) = false).
  { apply Nat.leb_gt. rewrite app_length. destruct rel; [congruence|cbn; lia]. }
  rewrite Hl, strip_domain_app.
  destruct (if p_isglob p then _ else _); [destruct (p_incl p)|]; split; congruence.
Qed.

Lemma simple_name_snoc g dironly d e : forall xs,
  simple_name_match g dironly d (xs ++ [e]) =
  existsb (wildmatch g) xs || (wildmatch g e && negb (dironly && negb d)).
Proof.
  induction xs as [|x xs IH]; cbn [app simple_name_match existsb].
  - destruct (wildmatch g e); [|reflexivity]. cbn. now rewrite andb_true_r.
  - destruct (wildmatch g x).
    + destruct (xs ++ [e]) eqn:E; [destruct xs; discriminate|]. cbn. now rewrite andb_false_r.
    + exact IH.
Qed.

(* the last matching pattern excludes *)
Definition gex (gs : list gpat) (c : list bytes) (d : bool) : bool :=
  match glast gs c d with Some false => true | _ => false end.

Lemma gwalk_unfold fs gs pre rest path isdir :
  gwalk fs gs pre rest path isdir =
  let gs' := gs ++ git_file fs pre in
  match rest with
  | [] => false
  | [e] => match glast gs' path isdir with Some neg => negb neg | None => false end
  | e :: rest' => if gex gs' (pre ++ [e]) true then true else gwalk fs gs' (pre ++ [e]) rest' path isdir
  end.
Proof.
  destruct rest as [|e [|e2 r]]; cbn [gwalk]; unfold git_file, gex;
    destruct (file_at fs pre); rewrite ?app_nil_r; try reflexivity.
  - destruct (glast _ _ true) as [[|]|]; reflexivity.
  - destruct (glast _ _ true) as [[|]|]; reflexivity.
Qed.
