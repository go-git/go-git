(* Proofs/C44_rename.v — rename detection conserves changes, for every score oracle:
   the From sides and the To sides of the result are permutations of those of the input, and every
   reported change is an input change or joins the From of an input deletion with the To of an
   input insertion. *)
From Coq Require Import List NArith Bool Arith Lia Permutation.
From GoGit Require Import Base.Out Model.DiffTree.
Import ListNotations.

Lemma froms_app a b : froms (a ++ b) = froms a ++ froms b.
Proof. apply flat_map_app. Qed.
Lemma tos_app a b : tos (a ++ b) = tos a ++ tos b.
Proof. apply flat_map_app. Qed.

Lemma perm_flat_map {A B} (f : A -> list B) l l' : Permutation l l' -> Permutation (flat_map f l) (flat_map f l').
Proof.
  induction 1; cbn; auto.
  - now apply Permutation_app_head.
  - rewrite !app_assoc. apply Permutation_app_tail. apply Permutation_app_comm.
  - etransitivity; eauto.
Qed.
Lemma froms_perm l l' : Permutation l l' -> Permutation (froms l) (froms l').
Proof. apply perm_flat_map. Qed.
Lemma tos_perm l l' : Permutation l l' -> Permutation (tos l) (tos l').
Proof. apply perm_flat_map. Qed.

Lemma froms_ins l : Forall (fun c => is_ins c = true) l -> froms l = [].
Proof. induction 1 as [|[[f|] [t|]] l Hc _ IH]; try discriminate; [reflexivity|exact IH]. Qed.
Lemma tos_del l : Forall (fun c => is_del c = true) l -> tos l = [].
Proof. induction 1 as [|[[f|] [t|]] l Hc _ IH]; try discriminate; [reflexivity|exact IH]. Qed.

Definition mk (p : chg * chg) : chg := (fst (fst p), snd (snd p)).   (* p = (deletion, insertion) *)

Lemma froms_mk ps : froms (map mk ps) = froms (map fst ps).
Proof. unfold froms. now rewrite !flat_map_concat_map, !map_map. Qed.
Lemma tos_mk ps : tos (map mk ps) = tos (map snd ps).
Proof. unfold tos. now rewrite !flat_map_concat_map, !map_map. Qed.

Lemma perm_rot {A} (x y z : list A) : Permutation (x ++ y ++ z) (y ++ z ++ x).
Proof. rewrite (app_assoc y z x). apply Permutation_app_comm. Qed.

Lemma remove_nth_perm {A} (l : list A) i x : nth_error l i = Some x -> Permutation l (x :: remove_nth i l).
Proof.
  revert i; induction l as [|y l IH]; intros [|i] H; cbn in *; try discriminate.
  - inversion H; subst. reflexivity.
  - etransitivity; [apply perm_skip, IH, H|]. apply perm_swap.
Qed.

Lemma compact_map_some {A} (l : list A) : compact (map Some l) = l.
Proof. induction l; cbn; congruence. Qed.

Lemma set_none_perm {A} (l : list (option A)) i x :
  nth_opt i l = Some x -> Permutation (compact l) (x :: compact (set_none i l)).
Proof.
  unfold nth_opt. revert i; induction l as [|y l IH]; intros [|i] H; cbn in *; try discriminate.
  - destruct y; inversion H; subst. reflexivity.
  - specialize (IH i H). destruct y; cbn; [|exact IH].
    etransitivity; [apply perm_skip, IH|]. apply perm_swap.
Qed.

(* the claim loop takes disjoint (deletion, insertion) pairs *)
Lemma claim_spec pairs : forall dels adds acc acc' dels' adds',
  claim pairs dels adds acc = (acc', dels', adds') ->
  exists ps, acc' = acc ++ map mk ps /\
             Permutation (compact dels) (map fst ps ++ compact dels') /\
             Permutation (compact adds) (map snd ps ++ compact adds').
Proof.
  induction pairs as [|[di ai] r IH]; intros dels adds acc acc' dels' adds' H; cbn in H.
  - inversion H; subst. exists []. cbn. rewrite app_nil_r. auto.
  - destruct (nth_opt di dels) as [d|] eqn:Hd; [destruct (nth_opt ai adds) as [a|] eqn:Ha|].
    + destruct (IH _ _ _ _ _ _ H) as (ps & -> & Hpd & Hpa).
      exists ((d, a) :: ps). split; [rewrite <- app_assoc; reflexivity|]. cbn. split.
      * etransitivity; [apply set_none_perm, Hd|]. now apply perm_skip.
      * etransitivity; [apply set_none_perm, Ha|]. now apply perm_skip.
    + eauto.
    + eauto.
Qed.

Lemma group_add_perm h c g : Permutation (flat_map snd (group_add h c g)) (c :: flat_map snd g).
Proof.
  induction g as [|[h' cs] r IH]; cbn; [reflexivity|].
  destruct (bytes_eqb h h'); cbn.
  - rewrite <- app_assoc. cbn. symmetry. apply Permutation_middle.
  - etransitivity; [apply Permutation_app_head, IH|]. symmetry. apply Permutation_middle.
Qed.

Lemma group_by_hash_perm cs : Permutation (flat_map snd (group_by_hash cs)) cs.
Proof.
  unfold group_by_hash.
  assert (H : forall g, Permutation (flat_map snd (fold_left (fun g c => group_add (ch_hash c) c g) cs g))
                                    (flat_map snd g ++ cs)).
  { induction cs as [|c cs IH]; intros g; cbn; [now rewrite app_nil_r|].
    etransitivity; [apply IH|]. etransitivity; [apply Permutation_app_tail, group_add_perm|].
    cbn. apply Permutation_middle. }
  specialize (H []). cbn in H. exact H.
Qed.

Lemma g_get_set h g : exists rest,
  Permutation (flat_map snd g) (g_get h g ++ rest) /\
  forall v, Permutation (flat_map snd (g_set h v g)) (v ++ rest).
Proof.
  induction g as [|[h' cs] r (rest & H1 & H2)]; cbn.
  - exists []. split; [reflexivity|]. intros v. cbn. now rewrite !app_nil_r.
  - destruct (bytes_eqb h h'); cbn.
    + exists (flat_map snd r). split; [reflexivity|]. intros v. reflexivity.
    + exists (cs ++ rest). split.
      * etransitivity; [apply Permutation_app_head, H1|]. rewrite !app_assoc. apply Permutation_app_tail, Permutation_app_comm.
      * intros v. etransitivity; [apply Permutation_app_head, H2|]. rewrite !app_assoc. apply Permutation_app_tail, Permutation_app_comm.
Qed.

Lemma partition_single (ga : groups) :
  Permutation (flat_map snd ga)
              (flat_map (fun g => if is_single (snd g) then snd g else []) ga
               ++ flat_map snd (filter (fun g => negb (is_single (snd g))) ga)).
Proof.
  induction ga as [|[h cs] r IH]; cbn; [reflexivity|].
  destruct (is_single cs) eqn:Hs; cbn.
  - rewrite <- app_assoc. now apply Permutation_app_head.
  - etransitivity; [apply Permutation_app_head, IH|]. apply Permutation_app_swap_app.
Qed.

Section conservation.
  Variables A0 D0 M0 : list chg.

  (* what is left to pair (L insertions, D deletions) and what is recorded (M), after taking the
     (deletion, insertion) pairs ps out of the input in this order *)
  Definition Inv (L D M : list chg) : Prop :=
    exists ps, Permutation A0 (map snd ps ++ L) /\ Permutation D0 (map fst ps ++ D) /\ M = M0 ++ map mk ps.

  Lemma Inv_init : Inv A0 D0 M0.
  Proof. exists []. now rewrite app_nil_r. Qed.

  Lemma Inv_perm L D M L' D' :
    Permutation L L' -> Permutation D D' -> Inv L D M -> Inv L' D' M.
  Proof.
    intros HL HD (ps & PA & PD & E). exists ps. split; [now rewrite PA, HL|]. split; [now rewrite PD, HD|exact E].
  Qed.

  Lemma Inv_pairs ps L D M L1 D1 :
    Permutation L (map snd ps ++ L1) -> Permutation D (map fst ps ++ D1) ->
    Inv L D M -> Inv L1 D1 (M ++ map mk ps).
  Proof.
    intros HL HD (qs & PA & PD & ->). exists (qs ++ ps). rewrite !map_app, <- !app_assoc.
    split; [now rewrite PA, HL|]. split; [now rewrite PD, HD|reflexivity].
  Qed.

  Lemma Inv_pair d a L D M L1 D1 :
    Permutation L (a :: L1) -> Permutation D (d :: D1) ->
    Inv L D M -> Inv L1 D1 (M ++ [(fst d, snd a)]).
  Proof. intros HL HD. apply (Inv_pairs [(d, a)]); assumption. Qed.

  Lemma exact_unique_inv c st P :
    Inv (c :: P ++ st.(x_left)) (flat_map snd st.(x_dels)) st.(x_mod) ->
    let st' := exact_unique c st in
    Inv (P ++ st'.(x_left)) (flat_map snd st'.(x_dels)) st'.(x_mod).
  Proof.
    intros HI.
    (* a branch that pairs nothing moves c to the leftovers; the others take one pair out *)
    assert (Hmove : Inv (P ++ (x_left st ++ [c])) (flat_map snd (x_dels st)) (x_mod st)).
    { eapply Inv_perm; [|reflexivity|exact HI]. apply (perm_rot [c]). }
    destruct (g_get_set (ch_hash c) st.(x_dels)) as (rest & Hg & Hset).
    unfold exact_unique. cbv zeta.
    destruct (g_get (ch_hash c) (x_dels st)) as [|d [|d2 ds]] eqn:Hds; cbn [x_left x_dels x_mod]; [exact Hmove| |].
    - destruct (same_mode c d); cbn [x_left x_dels x_mod]; [|exact Hmove].
      eapply Inv_pair; cycle 2; [exact HI|reflexivity|].
      etransitivity; [exact Hg|]. cbn. apply perm_skip. symmetry. apply (Hset []).
    - destruct (best_match c (d :: d2 :: ds)) as [i|]; [|exact Hmove].
      destruct (nth_error (d :: d2 :: ds) i) as [dm|] eqn:Hn; [|exact Hmove].
      destruct (same_mode c dm); cbn [x_left x_dels x_mod]; [|exact Hmove].
      eapply Inv_pair; cycle 2; [exact HI|reflexivity|].
      etransitivity; [exact Hg|]. etransitivity; [apply Permutation_app_tail, (remove_nth_perm _ _ _ Hn)|].
      cbn. apply perm_skip. symmetry. apply Hset.
  Qed.

  Lemma exact_multi_inv limit added st P :
    Inv (added ++ P ++ st.(x_left)) (flat_map snd st.(x_dels)) st.(x_mod) ->
    let st' := exact_multi limit added st in
    Inv (P ++ st'.(x_left)) (flat_map snd st'.(x_dels)) st'.(x_mod).
  Proof.
    intros HI.
    assert (Hmove : Inv (P ++ (x_left st ++ added)) (flat_map snd (x_dels st)) (x_mod st)).
    { eapply Inv_perm; [|reflexivity|exact HI]. apply perm_rot. }
    unfold exact_multi. destruct added as [|a0 ar] eqn:Hadd; [exact HI|]. rewrite <- Hadd in *. cbv zeta.
    destruct (g_get_set (ch_hash a0) st.(x_dels)) as (rest & Hg & Hset).
    destruct (g_get (ch_hash a0) (x_dels st)) as [|d [|d2 ds]] eqn:Hds; cbn [x_left x_dels x_mod]; [exact Hmove| |].
    - destruct (best_match d added) as [i|]; [|exact Hmove].
      destruct (nth_error added i) as [a|] eqn:Hn; [|exact Hmove].
      destruct (same_mode d a); cbn [x_left x_dels x_mod]; [|exact Hmove].
      eapply Inv_pair; cycle 2; [exact HI| |].
      + etransitivity; [apply Permutation_app_tail, (remove_nth_perm _ _ _ Hn)|]. cbn [app]. apply perm_skip, perm_rot.
      + etransitivity; [exact Hg|]. cbn. apply perm_skip. symmetry. apply (Hset []).
    - destruct (claim (exact_matrix limit added (d :: d2 :: ds)) (map Some (d :: d2 :: ds)) (map Some added) [])
        as [[ren ds'] as'] eqn:Hc.
      cbn [x_left x_dels x_mod].
      destruct (claim_spec _ _ _ _ _ _ _ Hc) as (ps & -> & Hpd & Hpa). cbn [app].
      rewrite !compact_map_some in Hpd, Hpa.
      eapply (Inv_pairs ps); cycle 2; [exact HI| |].
      + etransitivity; [apply Permutation_app_tail, Hpa|]. rewrite <- app_assoc. apply Permutation_app_head, perm_rot.
      + etransitivity; [exact Hg|]. etransitivity; [apply Permutation_app_tail, Hpd|].
        rewrite <- app_assoc. apply Permutation_app_head. symmetry. apply Hset.
  Qed.

  Lemma fold_unique_inv uniq : forall st P,
    Inv (uniq ++ P ++ st.(x_left)) (flat_map snd st.(x_dels)) st.(x_mod) ->
    let st' := fold_left (fun st c => exact_unique c st) uniq st in
    Inv (P ++ st'.(x_left)) (flat_map snd st'.(x_dels)) st'.(x_mod).
  Proof.
    induction uniq as [|c r IH]; intros st P HI; [exact HI|].
    cbn [fold_left]. apply IH. rewrite app_assoc. apply exact_unique_inv.
    rewrite <- app_assoc. exact HI.
  Qed.

  Lemma fold_multi_inv limit (multi : groups) : forall st,
    Inv (flat_map snd multi ++ st.(x_left)) (flat_map snd st.(x_dels)) st.(x_mod) ->
    let st' := fold_left (fun st g => exact_multi limit (snd g) st) multi st in
    Inv st'.(x_left) (flat_map snd st'.(x_dels)) st'.(x_mod).
  Proof.
    induction multi as [|[h cs] r IH]; intros st HI; [exact HI|].
    cbn [fold_left snd]. apply IH. apply exact_multi_inv. cbn [flat_map snd] in HI.
    rewrite <- app_assoc in HI. exact HI.
  Qed.

  Lemma detect_exact_inv limit a1 d1 m1 :
    detect_exact limit A0 D0 M0 = (a1, d1, m1) -> Inv a1 d1 m1.
  Proof.
    intros H. unfold detect_exact in H. cbv zeta in H. inversion H; subst; clear H.
    set (ga := group_by_hash A0).
    set (st0 := {| x_dels := group_by_hash D0; x_left := []; x_mod := M0 |}).
    apply (fold_multi_inv limit).
    pose proof (fold_unique_inv (flat_map (fun g => if is_single (snd g) then snd g else []) ga) st0
                  (flat_map snd (filter (fun g => negb (is_single (snd g))) ga))) as HU.
    cbv zeta in HU. apply HU. cbn [x_left x_dels x_mod st0]. rewrite app_nil_r.
    eapply Inv_perm; [| |exact Inv_init].
    - etransitivity; [symmetry; apply (group_by_hash_perm A0)|]. apply partition_single.
    - symmetry. apply group_by_hash_perm.
  Qed.

  Lemma detect_content_inv matrix a1 d1 m1 a2 d2 m2 :
    Inv a1 d1 m1 -> detect_content matrix a1 d1 m1 = (a2, d2, m2) -> Inv a2 d2 m2.
  Proof.
    intros HI H. unfold detect_content in H.
    destruct (claim matrix (map Some d1) (map Some a1) []) as [[ren ds'] as'] eqn:Hc.
    inversion H; subst; clear H.
    destruct (claim_spec _ _ _ _ _ _ _ Hc) as (ps & -> & Hpd & Hpa). cbn [app].
    rewrite !compact_map_some in Hpd, Hpa. eapply (Inv_pairs ps); eauto.
  Qed.
End conservation.

Lemma split_three (cs : list chg) :
  Permutation cs (filter is_ins cs ++ filter is_del cs ++ filter is_mod cs).
Proof.
  induction cs as [|c cs IH]; [reflexivity|]. cbn [filter]. unfold is_mod at 1.
  destruct c as [[f|] [t|]]; cbn.
  1, 4: etransitivity; [apply perm_skip, IH|]; rewrite app_assoc; etransitivity; [apply Permutation_middle|];
        now rewrite <- app_assoc.
  - etransitivity; [apply perm_skip, IH|]. apply Permutation_middle.
  - now apply perm_skip.
Qed.

Lemma filter_forall {A} (f : A -> bool) l : Forall (fun c => f c = true) (filter f l).
Proof. apply Forall_forall. intros x Hx. now apply filter_In in Hx. Qed.

Definition conserves (cs out : list chg) : Prop :=
  Permutation (froms out) (froms cs) /\
  Permutation (tos out) (tos cs) /\
  (forall c, In c out ->
     In c cs \/ exists d a, In d cs /\ is_del d = true /\ In a cs /\ is_ins a = true /\ c = (fst d, snd a)) /\
  (forall c, In c cs -> is_mod c = true -> In c out).

Lemma Inv_conserves cs a2 d2 m2 :
  Inv (filter is_ins cs) (filter is_del cs) (filter is_mod cs) a2 d2 m2 -> conserves cs (a2 ++ d2 ++ m2).
Proof.
  intros (ps & PA & PD & ->).
  assert (FA := filter_forall is_ins cs). assert (FD := filter_forall is_del cs).
  rewrite PA in FA. rewrite PD in FD. apply Forall_app in FA as [_ Fa]. apply Forall_app in FD as [_ Fd].
  assert (HA : forall a, In a (map snd ps ++ a2) -> In a cs /\ is_ins a = true).
  { intros a Ha. apply (Permutation_in _ (Permutation_sym PA)), filter_In in Ha. exact Ha. }
  assert (HD : forall d, In d (map fst ps ++ d2) -> In d cs /\ is_del d = true).
  { intros d Hd. apply (Permutation_in _ (Permutation_sym PD)), filter_In in Hd. exact Hd. }
  repeat split.
  - rewrite (froms_perm _ _ (split_three cs)), !froms_app, froms_mk, (froms_ins _ Fa),
      (froms_ins (filter is_ins cs) (filter_forall _ _)), (froms_perm _ _ PD), froms_app, <- app_assoc.
    cbn [app]. symmetry. apply perm_rot.
  - rewrite (tos_perm _ _ (split_three cs)), !tos_app, tos_mk, (tos_del _ Fd),
      (tos_del (filter is_del cs) (filter_forall _ _)), (tos_perm _ _ PA), tos_app, <- app_assoc.
    cbn [app]. symmetry. apply perm_rot.
  - intros c Hc. rewrite !in_app_iff in Hc. destruct Hc as [Hc|[Hc|[Hc|Hc]]].
    + left. apply HA, in_app_iff. now right.
    + left. apply HD, in_app_iff. now right.
    + left. now apply filter_In in Hc.
    + right. apply in_map_iff in Hc as ([d a] & <- & Hp). exists d, a.
      destruct (HD d) as [H1 H2]; [apply in_app_iff; left; apply (in_map fst _ _ Hp)|].
      destruct (HA a) as [H3 H4]; [apply in_app_iff; left; apply (in_map snd _ _ Hp)|]. auto.
  - intros c Hc Hm. rewrite !in_app_iff. right. right. left. apply filter_In. auto.
Qed.

Theorem renames_conserve limit only_exact oracle cs : conserves cs (detect_renames limit only_exact oracle cs).
Proof.
  pose proof (Inv_conserves cs) as Hfin.
  pose proof (Inv_init (filter is_ins cs) (filter is_del cs) (filter is_mod cs)) as H0.
  unfold detect_renames.
  set (A0 := filter is_ins cs) in *. set (D0 := filter is_del cs) in *. set (M0 := filter is_mod cs) in *.
  destruct A0 as [|a0 ar] eqn:HA; [now apply Hfin|].
  destruct D0 as [|d0 dr] eqn:HD; [now apply Hfin|].
  rewrite <- HA, <- HD in *.
  destruct (detect_exact limit A0 D0 M0) as [[a1 d1] m1] eqn:He.
  pose proof (detect_exact_inv A0 D0 M0 limit a1 d1 m1 He) as H1.
  destruct only_exact; [now apply Hfin|].
  destruct (Nat.ltb 0 limit && Nat.ltb limit (Nat.max (length a1) (length d1))); [now apply Hfin|].
  destruct (detect_content (oracle a1 d1) a1 d1 m1) as [[a2 d2] m2] eqn:Hc.
  eapply Hfin, detect_content_inv; eauto.
Qed.
