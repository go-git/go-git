(* Proofs/C45_apply.v — algebra of the strict hunk application (Spec/HunkApply.v). *)
From Coq Require Import List NArith ZArith Bool Arith Lia.
From GoGit Require Import Base.Out Model.Unified Spec.HunkApply.
Import ListNotations.

Lemma line_eqb_refl l : line_eqb l l = true.
Proof. induction l; cbn; [reflexivity|]. now rewrite N.eqb_refl. Qed.

Lemma line_eqb_eq a b : line_eqb a b = true -> a = b.
Proof.
  revert b; induction a as [|x a IH]; intros [|y b]; cbn; try discriminate; [reflexivity|].
  intros H. apply andb_true_iff in H as [H1 H2]. apply N.eqb_eq in H1. apply IH in H2. congruence.
Qed.

Definition oldside (ops : list (dop * line)) : list line :=
  flat_map (fun o => match fst o with Add => [] | _ => [snd o] end) ops.
Definition newside (ops : list (dop * line)) : list line :=
  flat_map (fun o => match fst o with Delete => [] | _ => [snd o] end) ops.

Lemma oldside_app a b : oldside (a ++ b) = oldside a ++ oldside b.
Proof. apply flat_map_app. Qed.
Lemma newside_app a b : newside (a ++ b) = newside a ++ newside b.
Proof. apply flat_map_app. Qed.

Lemma oldside_map t ls : oldside (map (fun l => (t, l)) ls) = match t with Add => [] | _ => ls end.
Proof. induction ls as [|l ls IH]; [now destruct t|]. cbn [map]. unfold oldside in *. cbn [flat_map fst snd]. rewrite IH. now destruct t. Qed.
Lemma newside_map t ls : newside (map (fun l => (t, l)) ls) = match t with Delete => [] | _ => ls end.
Proof. induction ls as [|l ls IH]; [now destruct t|]. cbn [map]. unfold newside in *. cbn [flat_map fst snd]. rewrite IH. now destruct t. Qed.

(* a hunk body replays on its own old side *)
Lemma run_ops_self ops X :
  run_ops ops (oldside ops ++ X) = Some (newside ops, X, length (oldside ops), length (newside ops)).
Proof.
  induction ops as [|[t l] r IH]; [reflexivity|].
  destruct t; cbn [run_ops oldside newside flat_map fst snd app]; fold (oldside r); fold (newside r); cbn [app];
    rewrite ?line_eqb_refl, IH; reflexivity.
Qed.

(* a body replays only on its own old side, and emits its new side *)
Lemma run_ops_counts ops : forall old em rest nf nt,
  run_ops ops old = Some (em, rest, nf, nt) ->
  nf = length (oldside ops) /\ nt = length (newside ops) /\ em = newside ops /\ old = oldside ops ++ rest.
Proof.
  induction ops as [|[t l] r IH]; intros old em rest nf nt H.
  - cbn in H. inversion H; subst. auto.
  - destruct t; cbn [run_ops] in H.
    2:{ destruct (run_ops r old) as [[[[em' rest'] nf'] nt']|] eqn:Hr; [|discriminate].
        destruct (IH _ _ _ _ _ Hr) as (-> & -> & -> & ->). inversion H; subst. cbn. auto. }
    (* Equal, Delete: the line has to be the next old line *)
    all: destruct old as [|o old']; [discriminate|]; destruct (line_eqb o l) eqn:He; [|discriminate].
    all: destruct (run_ops r old') as [[[[em' rest'] nf'] nt']|] eqn:Hr; [|discriminate].
    all: destruct (IH _ _ _ _ _ Hr) as (-> & -> & -> & ->); apply line_eqb_eq in He; inversion H; subst; cbn; auto.
Qed.

(* hunk h sits n lines after the cursor (kf old lines consumed, kt new lines produced) and its header
   counts are those of its body *)
Definition sits (h : hunk) (kf kt : Z) (n : nat) : Prop :=
  start_index (h_from h) (h_fromc h) = (kf + Z.of_nat n)%Z /\
  start_index (h_to h) (h_toc h) = (kt + Z.of_nat n)%Z /\
  h_fromc h = Z.of_nat (length (oldside (h_ops h))) /\
  h_toc h = Z.of_nat (length (newside (h_ops h))).

(* such a hunk applies to the gap followed by its own old side *)
Lemma apply_pref_cons h hs kf kt gapl X :
  sits h kf kt (length gapl) ->
  apply_pref (h :: hs) kf kt (gapl ++ oldside (h_ops h) ++ X) =
  match apply_pref hs (kf + Z.of_nat (length gapl) + h_fromc h) (kt + Z.of_nat (length gapl) + h_toc h) X with
  | Some (out, kf', kt', r) => Some (gapl ++ newside (h_ops h) ++ out, kf', kt', r)
  | None => None
  end.
Proof.
  intros (Hf & Ht & Hfc & Htc). cbn [apply_pref]. cbv zeta. rewrite Hf, Ht.
  replace (kf + Z.of_nat (length gapl) <? kf)%Z with false by (symmetry; apply Z.ltb_ge; lia).
  replace (kf + Z.of_nat (length gapl) - kf)%Z with (Z.of_nat (length gapl)) by lia.
  rewrite Nat2Z.id.
  replace (Nat.ltb (length (gapl ++ oldside (h_ops h) ++ X)) (length gapl)) with false
    by (symmetry; apply Nat.ltb_ge; rewrite app_length; lia).
  rewrite Z.eqb_refl. cbn [negb].
  rewrite skipn_app, Nat.sub_diag, skipn_all. cbn [skipn app].
  rewrite run_ops_self, <- Hfc, <- Htc, !Z.eqb_refl. cbn [andb].
  rewrite firstn_app, Nat.sub_diag, firstn_all. cbn [firstn]. now rewrite app_nil_r.
Qed.

(* ... and to nothing else *)
Lemma apply_pref_cons_inv h hs kf kt old res :
  apply_pref (h :: hs) kf kt old = Some res ->
  exists gapl X, old = gapl ++ oldside (h_ops h) ++ X /\ sits h kf kt (length gapl).
Proof.
  cbn [apply_pref]. cbv zeta.
  set (sf := start_index (h_from h) (h_fromc h)). set (st := start_index (h_to h) (h_toc h)).
  destruct (Z.ltb_spec sf kf) as [|Hk]; [discriminate|].
  destruct (Nat.ltb_spec (length old) (Z.to_nat (sf - kf))) as [|Hg]; [discriminate|].
  destruct (Z.eqb_spec st (kt + (sf - kf))) as [Hst|]; cbn [negb]; [|discriminate].
  destruct (run_ops _ _) as [[[[em rest] nf] nt]|] eqn:Hr; [|discriminate].
  destruct (_ && _) eqn:Hc; [|discriminate]. intros _.
  apply andb_true_iff in Hc as [Hc1 Hc2]. apply Z.eqb_eq in Hc1, Hc2.
  destruct (run_ops_counts _ _ _ _ _ _ Hr) as (-> & -> & _ & Hs).
  exists (firstn (Z.to_nat (sf - kf)) old), rest.
  unfold sits. rewrite <- Hs, firstn_skipn, firstn_length_le, Z2Nat.id by lia. repeat split; lia.
Qed.

Lemma apply_pref_ext hs : forall kf kt old o kf' kt' r X,
  apply_pref hs kf kt old = Some (o, kf', kt', r) ->
  apply_pref hs kf kt (old ++ X) = Some (o, kf', kt', r ++ X).
Proof.
  induction hs as [|h hs IH]; intros kf kt old o kf' kt' r X H.
  - cbn in *. inversion H; subst. reflexivity.
  - destruct (apply_pref_cons_inv _ _ _ _ _ _ H) as (gapl & Y & -> & Hs).
    rewrite apply_pref_cons in H by assumption. rewrite <- !app_assoc, apply_pref_cons by assumption.
    destruct (apply_pref hs _ _ Y) as [[[[out kf2] kt2] r2]|] eqn:Ha; [|discriminate].
    rewrite (IH _ _ _ _ _ _ _ X Ha). inversion H; subst. reflexivity.
Qed.

Lemma apply_pref_snoc h gapl hs : forall kf kt obase outp kf' kt',
  apply_pref hs kf kt obase = Some (outp, kf', kt', []) -> sits h kf' kt' (length gapl) ->
  apply_pref (hs ++ [h]) kf kt (obase ++ gapl ++ oldside (h_ops h)) =
  Some (outp ++ gapl ++ newside (h_ops h),
        (kf' + Z.of_nat (length gapl) + h_fromc h)%Z, (kt' + Z.of_nat (length gapl) + h_toc h)%Z, []).
Proof.
  induction hs as [|a hs IH]; intros kf kt obase outp kf' kt' H Hs.
  - cbn in H. inversion H; subst. cbn [app].
    rewrite <- (app_nil_r (oldside (h_ops h))), apply_pref_cons by assumption. cbn. now rewrite app_nil_r.
  - destruct (apply_pref_cons_inv _ _ _ _ _ _ H) as (g1 & Y & -> & Hs1).
    rewrite apply_pref_cons in H by assumption.
    destruct (apply_pref hs _ _ Y) as [[[[out kf2] kt2] r2]|] eqn:Ha; [|discriminate]. inversion H; subst.
    rewrite <- !app_assoc, <- app_comm_cons, apply_pref_cons by assumption.
    now rewrite (IH _ _ _ _ _ _ Ha Hs).
Qed.

Lemma split_lines_concat s : concat (split_lines s) = s.
Proof.
  induction s as [|c r IH]; [reflexivity|]. cbn [split_lines].
  destruct (N.eqb c LF); [cbn; now rewrite IH|].
  destruct (split_lines r) as [|l ls]; cbn in *; [now rewrite <- IH|]. now rewrite <- IH.
Qed.

Lemma split_lines_nonempty s : s <> [] -> split_lines s <> [].
Proof.
  destruct s as [|c r]; [congruence|]. intros _. cbn [split_lines].
  destruct (N.eqb c LF); [discriminate|]. destruct (split_lines r); discriminate.
Qed.
