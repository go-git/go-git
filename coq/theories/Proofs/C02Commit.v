(* Proofs/C02Commit.v — decode_commit (encode_commit c true) = Ok c for every
   well-formed commit struct (Spec/ObjWf.wf_commit): the encoder's output is
   cut into complete header lines and the scanner is run over them. *)
From Coq Require Import List NArith Bool.
From GoGit Require Import Base.Out Model.ObjLines Model.Ident Model.Commit Spec.GitSig Spec.ObjWf
     Proofs.ObjLinesFacts Proofs.C02Ident Proofs.C03CommitSig Proofs.C02Scan Proofs.C02Lines.
Import ListNotations.
Local Open Scope N_scope.

(* first segment and the remaining segments of w, cut at LF *)
Fixpoint segs (w : bytes) : bytes * list bytes :=
  match w with
  | [] => ([], [])
  | c :: r => let '(s, t) := segs r in if c =? LF then ([], s :: t) else (c :: s, t)
  end.

Lemma segs_no_lf w : no_lf (fst (segs w)) = true /\ Forall (fun s => no_lf s = true) (snd (segs w)).
Proof.
  induction w as [|c r [I1 I2]]; cbn [segs]; [split; [reflexivity|constructor]|].
  destruct (segs r) as [s t]. cbn [fst snd] in *. destruct (c =? LF) eqn:E; cbn [fst snd].
  - split; [reflexivity|]. now constructor.
  - split; [|exact I2]. rewrite no_lf_cons, E, I1. reflexivity.
Qed.

Lemma segs_indent w : indent_nl w = fst (segs w) ++ List.concat (map (fun s => LF :: SPC :: s) (snd (segs w))).
Proof.
  induction w as [|c r IH]; [reflexivity|]. cbn [segs]. destruct (segs r) as [s t]. cbn [fst snd] in *.
  change (indent_nl (c :: r)) with ((if c =? LF then [LF; SPC] else [c]) ++ indent_nl r). rewrite IH.
  destruct (c =? LF) eqn:E; cbn [fst snd map List.concat app].
  - apply N.eqb_eq in E. now subst c.
  - reflexivity.
Qed.

Lemma segs_join w : w = fst (segs w) ++ List.concat (map (fun s => LF :: s) (snd (segs w))).
Proof.
  induction w as [|c r IH]; [reflexivity|]. cbn [segs]. destruct (segs r) as [s t]. cbn [fst snd] in *.
  destruct (c =? LF) eqn:E; cbn [fst snd map List.concat app].
  - apply N.eqb_eq in E. subst c. now rewrite <- IH.
  - now rewrite <- IH.
Qed.

Lemma shift_lf (f : bytes -> bytes) (t : list bytes) :
  List.concat (map (fun s => LF :: f s) t) ++ [LF] = LF :: List.concat (map (fun s => f s ++ [LF]) t).
Proof. induction t as [|a t IH]; [reflexivity|]. cbn [map List.concat]. rewrite <- !app_assoc, IH. reflexivity. Qed.

Lemma kline_cline K v : no_lf K = true -> no_lf v = true -> cline (K ++ SPC :: v ++ [LF]).
Proof.
  intros HK Hv. replace (K ++ SPC :: v ++ [LF]) with ((K ++ SPC :: v) ++ [LF]) by (rewrite <- app_assoc; reflexivity).
  apply cline_mk. rewrite no_lf_app, HK, no_lf_cons, Hv. reflexivity.
Qed.

(* lines of "K SP indent(w)" once the LF that follows it is attached *)
Definition val_lines (K w : bytes) : list bytes :=
  (K ++ SPC :: fst (segs w) ++ [LF]) :: map (fun s => SPC :: s ++ [LF]) (snd (segs w)).

Lemma val_lines_concat K w : (K ++ SPC :: indent_nl w) ++ [LF] = List.concat (val_lines K w).
Proof.
  unfold val_lines. rewrite segs_indent. cbn [List.concat]. rewrite <- !app_assoc. cbn [app]. f_equal. f_equal.
  rewrite <- !app_assoc. f_equal. exact (shift_lf (fun s => SPC :: s) _).
Qed.

(* what the continuation states accumulate: w followed by LF *)
Lemma val_lines_acc w : fst (segs w) ++ [LF] ++ List.concat (map (fun s => s ++ [LF]) (snd (segs w))) = w ++ [LF].
Proof.
  rewrite (segs_join w) at 3. rewrite <- app_assoc. f_equal. symmetry. exact (shift_lf (fun s => s) _).
Qed.

Lemma val_lines_cline K w : no_lf K = true -> Forall cline (val_lines K w).
Proof.
  intros HK. destruct (segs_no_lf w) as [H1 H2]. unfold val_lines. constructor; [now apply kline_cline|].
  induction H2 as [|s t Hs _ IH]; cbn [map]; constructor; [exact (kline_cline [] s eq_refl Hs)|exact IH].
Qed.

Definition tree_line (t : bytes) : bytes := k_tree ++ SPC :: hex_encode t ++ [LF].
Definition parent_line (p : bytes) : bytes := k_parent ++ SPC :: hex_encode p ++ [LF].
Definition ident_line (K : bytes) (i : ident) : bytes := K ++ SPC :: encode_ident i ++ [LF].
Definition enc_lines (e : bytes) : list bytes := if beqb e utf8 then [] else [k_encoding ++ SPC :: e ++ [LF]].
Definition extra_lines (kv : bytes * bytes) : list bytes :=
  match snd kv with [] => [fst kv ++ [LF]] | v => val_lines (fst kv) (trim_suffix_lf v) end.
Definition sig_lines (K s : bytes) : list bytes :=
  match s with [] => [] | _ => val_lines K (trim_suffix_lf s) end.
Definition opt_lines (c : commit) : list bytes :=
  enc_lines (c_enc c) ++ flat_map extra_lines (c_extra c) ++
  sig_lines k_gpgsig (c_sig c) ++ sig_lines k_gpgsig256 (c_sig256 c).
Definition hdr_lines (c : commit) : list bytes :=
  tree_line (c_tree c) :: map parent_line (c_parents c) ++
  [ident_line k_author (c_author c); ident_line k_committer (c_committer c)] ++ opt_lines c ++ [[LF]].

Ltac norm_app := repeat (rewrite <- ?app_assoc; cbn [app]); rewrite <- ?app_assoc.

Lemma parents_piece ps :
  flat_map (fun p => k_parent ++ [SPC] ++ hex_encode p ++ [LF]) ps = List.concat (map parent_line ps).
Proof.
  induction ps as [|p ps IH]; [reflexivity|]. cbn [flat_map map List.concat]. rewrite IH. unfold parent_line.
  norm_app. reflexivity.
Qed.

Lemma wf_commit_parts c : wf_commit c = true ->
  oid_ok (c_tree c) = true /\ forallb oid_ok (c_parents c) = true /\
  wf_ident (c_author c) = true /\ wf_ident (c_committer c) = true /\
  c_enc c <> [] /\ no_lf (c_enc c) = true /\ forallb wf_extra (c_extra c) = true /\
  wf_sigval (c_sig c) = true /\ wf_sigval (c_sig256 c) = true.
Proof.
  unfold wf_commit. rewrite !andb_true_iff, negb_true_iff. intros [[[[[[[[Ht Hp] Ha] Hc] He1] He2] Hx] Hs1] Hs2].
  repeat split; try assumption; [now destruct (c_enc c)|now apply no_lf_of_has].
Qed.

Lemma wf_extra_parts k v : wf_extra (k, v) = true ->
  is_standard_header k = false /\ k <> [] /\ has_byte SPC k = false /\ no_lf k = true /\ last_is LF v = false.
Proof.
  unfold wf_extra. rewrite !andb_true_iff, !negb_true_iff, orb_false_iff. intros [[[H1 H2] [H31 H32]] H4].
  repeat split; try assumption; [now destruct k|now apply no_lf_of_has].
Qed.

(* The encoder writes each optional header as LF :: x, closing the line before; what closes x is the
   LF of the next header or of the blank line.  Read with that LF, x is the lines L. *)
Lemma sec_shift x L t : x ++ [LF] = List.concat L -> ([LF] ++ x) ++ LF :: t = LF :: List.concat L ++ t.
Proof. intros <-. cbn [app]. now rewrite <- app_assoc. Qed.

Lemma enc_shift e t : e <> [] ->
  match e with [] => [] | n :: l => if beqb (n :: l) utf8 then [] else [LF] ++ k_encoding ++ [SPC] ++ n :: l end ++ LF :: t
  = LF :: List.concat (enc_lines e) ++ t.
Proof.
  intros H. destruct e as [|x e]; [contradiction|]. unfold enc_lines. destruct (beqb (x :: e) utf8); [reflexivity|].
  apply sec_shift. cbn [List.concat]. rewrite app_nil_r. norm_app. reflexivity.
Qed.

Lemma extra_shift xs : forallb wf_extra xs = true -> forall t,
  flat_map (fun kv => if is_standard_header (fst kv) then [] else [LF] ++ fmt_extra kv) xs ++ LF :: t
  = LF :: List.concat (flat_map extra_lines xs) ++ t.
Proof.
  induction xs as [|[k v] xs IH]; [reflexivity|]. cbn [forallb]. intros H t. apply andb_true_iff in H as [H1 H2].
  destruct (wf_extra_parts _ _ H1) as [Hstd _]. cbn [flat_map fst]. rewrite Hstd, concat_app, <- !app_assoc, (IH H2).
  apply sec_shift. unfold fmt_extra, extra_lines. cbn [fst snd]. destruct v as [|y v].
  - cbn [List.concat]. now rewrite app_nil_r.
  - apply val_lines_concat.
Qed.

Lemma sig_shift K s t : enc_sig_header K s ++ LF :: t = LF :: List.concat (sig_lines K s) ++ t.
Proof. unfold enc_sig_header, sig_lines. destruct s as [|y s]; [reflexivity|]. apply sec_shift, val_lines_concat. Qed.

Lemma encode_commit_lines c : wf_commit c = true ->
  encode_commit c true = List.concat (hdr_lines c) ++ c_msg c.
Proof.
  intros Hwf. destruct (wf_commit_parts _ Hwf) as (_ & _ & _ & _ & Hene & _ & Hx & _).
  unfold encode_commit. rewrite parents_piece, <- !app_assoc. change ([LF; LF] ++ c_msg c) with (LF :: LF :: c_msg c).
  rewrite !sig_shift, (extra_shift _ Hx), (enc_shift _ _ Hene).
  unfold hdr_lines, opt_lines, tree_line, ident_line. cbn [List.concat]. rewrite !concat_app. cbn [List.concat].
  norm_app. reflexivity.
Qed.

Lemma extra_lines_cline kv : wf_extra kv = true -> Forall cline (extra_lines kv).
Proof.
  destruct kv as [k v]. intros H. destruct (wf_extra_parts _ _ H) as [_ [_ [_ [Hk _]]]].
  unfold extra_lines. cbn [fst snd]. destruct v; [|now apply val_lines_cline].
  constructor; [now apply cline_mk|constructor].
Qed.

Lemma sig_lines_cline K s : no_lf K = true -> Forall cline (sig_lines K s).
Proof. intros HK. unfold sig_lines. destruct s; [constructor|now apply val_lines_cline]. Qed.

Lemma hdr_lines_cline c : wf_commit c = true -> Forall cline (hdr_lines c).
Proof.
  intros Hwf. destruct (wf_commit_parts _ Hwf) as [Ht [Hp [Ha [Hc [_ [He [Hx [_ _]]]]]]]].
  unfold hdr_lines. constructor.
  - apply kline_cline; [reflexivity|]. now apply oid_plain.
  - rewrite !Forall_app. repeat split.
    + rewrite forallb_forall in Hp. apply Forall_map, Forall_forall. intros p Hin.
      apply kline_cline; [reflexivity|]. now apply oid_plain, Hp.
    + constructor; [|constructor; [|constructor]]; (apply kline_cline; [reflexivity|now apply encode_ident_no_lf]).
    + unfold opt_lines. rewrite !Forall_app. repeat split.
      * unfold enc_lines. destruct (beqb (c_enc c) utf8); constructor; [|constructor]. now apply kline_cline.
      * rewrite forallb_forall in Hx. apply Forall_flat_map, Forall_forall. intros kv Hin. now apply extra_lines_cline, Hx.
      * now apply sig_lines_cline.
      * now apply sig_lines_cline.
    + constructor; [|constructor]. exists []. now split.
Qed.

Definition hdrlike (st : cstate) : Prop :=
  match st with SHeaders | SPgp | SPgp256 | SExtra _ _ => True | _ => False end.

Lemma cstep_hdrlike st c se eof l : hdrlike st -> first_is SPC l = false ->
  cstep st c se eof l = Ok (on_headers (cfinish st c) se l).
Proof. intros Hh Hs. destruct st; try contradiction; cbn [cstep cfinish]; rewrite ?Hs; reflexivity. Qed.

Lemma first_is_app_ne c K r : K <> [] -> first_is c (K ++ r) = first_is c K.
Proof. destruct K; [contradiction|reflexivity]. Qed.

Lemma is_blank_kline K v : K <> [] -> is_blank (K ++ SPC :: v) = false.
Proof. destruct K as [|x [|y K]]; [contradiction|reflexivity|reflexivity]. Qed.

(* a block of header lines read from any header-like state: the commit, once a
   pending extra header is finalised, is changed by F *)
Definition runs (ls : list bytes) (F : commit -> commit) (se se' : bool) : Prop :=
  forall st c rest, hdrlike st ->
  exists st' c', crun st c se (ls ++ rest) = crun st' c' se' rest /\ hdrlike st' /\ cfinish st' c' = F (cfinish st c).

Lemma runs_app l1 l2 F1 F2 s0 s1 s2 :
  runs l1 F1 s0 s1 -> runs l2 F2 s1 s2 -> runs (l1 ++ l2) (fun c => F2 (F1 c)) s0 s2.
Proof.
  intros R1 R2 st c rest Hh. rewrite <- app_assoc.
  destruct (R1 st c (l2 ++ rest) Hh) as (st1 & c1 & E1 & H1 & G1).
  destruct (R2 st1 c1 rest H1) as (st2 & c2 & E2 & H2 & G2).
  exists st2, c2. split; [now rewrite E1|split; [exact H2|now rewrite G2, G1]].
Qed.

Lemma runs_ext ls F G s s' : (forall c, F c = G c) -> runs ls F s s' -> runs ls G s s'.
Proof. intros E R st c rest Hh. destruct (R st c rest Hh) as (st' & c' & H1 & H2 & H3). exists st', c'. now rewrite <- E. Qed.

Lemma crun_step st c se l rest c' se' st' :
  ends_nl l = true -> cstep st c se false l = Ok (c', se', st') ->
  crun st c se (l :: rest) = crun st' c' se' rest.
Proof. intros He Hs. cbn [crun]. rewrite He. cbn [negb]. now rewrite Hs. Qed.

Lemma run_tree t rest : oid_ok t = true ->
  decode_commit_lines (tree_line t :: rest) = crun SParents (commit_init t) false rest.
Proof.
  intros Ht. destruct (oid_plain _ Ht) as [H1 H2]. unfold decode_commit_lines, tree_line.
  rewrite (is_blank_kline k_tree); [|discriminate].
  rewrite (split_header_kv k_tree _ eq_refl eq_refl H1).
  rewrite beqb_refl. cbn [negb]. rewrite (parse_oid_hex _ Ht).
  now rewrite ends_nl_kv.
Qed.

Lemma run_parents ps : forallb oid_ok ps = true -> forall c se rest,
  crun SParents c se (map parent_line ps ++ rest) = crun SParents (set_parents c (c_parents c ++ ps)) se rest.
Proof.
  induction ps as [|p ps IH]; intros Hp c se rest.
  - cbn [map app]. rewrite app_nil_r. now destruct c.
  - cbn [forallb] in Hp. apply andb_true_iff in Hp as [Hp1 Hp2].
    destruct (oid_plain _ Hp1) as [H1 H2].
    cbn [map app].
    rewrite (crun_step SParents c se (parent_line p) _ (set_parents c (c_parents c ++ [p])) se SParents).
    + rewrite (IH Hp2). destruct c. cbn. now rewrite <- app_assoc.
    + apply ends_nl_kv.
    + cbn [cstep]. unfold parent_line. rewrite (is_blank_kline k_parent); [|discriminate].
      now rewrite (split_header_kv k_parent _ eq_refl eq_refl H1), beqb_refl, (parse_oid_hex _ Hp1).
Qed.

Lemma ident_line_facts K i : K <> [] -> no_lf K = true -> has_byte SPC K = false -> wf_ident i = true ->
  ends_nl (ident_line K i) = true /\ is_blank (ident_line K i) = false /\
  split_header (ident_line K i) = (K, encode_ident i).
Proof.
  intros HK1 HK2 HK3 Hi. pose proof (encode_ident_no_lf _ Hi) as Hn. unfold ident_line. repeat split.
  - apply ends_nl_kv.
  - now apply is_blank_kline.
  - now apply split_header_kv.
Qed.

Lemma run_author c se a : wf_ident a = true ->
  cstep SParents c se false (ident_line k_author a) = Ok (set_author c a, se, SCommitter).
Proof.
  intros Ha. destruct (ident_line_facts k_author a ltac:(discriminate) eq_refl eq_refl Ha) as [_ [Hb Hs]].
  cbn [cstep]. unfold on_author. rewrite Hb, Hs.
  replace (beqb k_author k_parent) with false by reflexivity.
  rewrite beqb_refl. now rewrite (ident_dec_enc _ Ha).
Qed.

Lemma run_committer c se a : wf_ident a = true ->
  cstep SCommitter c se false (ident_line k_committer a) = Ok (set_committer c a, se, SHeaders).
Proof.
  intros Ha. destruct (ident_line_facts k_committer a ltac:(discriminate) eq_refl eq_refl Ha) as [_ [Hb Hs]].
  cbn [cstep]. unfold on_committer. rewrite Hb, Hs.
  rewrite beqb_refl. now rewrite (ident_dec_enc _ Ha).
Qed.

Lemma run_enc e : no_lf e = true ->
  runs (enc_lines e) (fun C => if beqb e utf8 then C else set_enc C e) false (negb (beqb e utf8)).
Proof.
  intros He st c rest Hh. unfold enc_lines. destruct (beqb e utf8); cbn [negb].
  - exists st, c. split; [reflexivity|split; [exact Hh|reflexivity]].
  - exists SHeaders, (set_enc (cfinish st c) e). split; [|split; [exact I|reflexivity]].
    cbn [app]. apply crun_step; [apply ends_nl_kv|].
    rewrite (cstep_hdrlike st c false false (k_encoding ++ SPC :: e ++ [LF]) Hh eq_refl). unfold on_headers.
    rewrite (is_blank_kline k_encoding); [|discriminate].
    rewrite (split_header_kv k_encoding _ eq_refl eq_refl He). reflexivity.
Qed.

Lemma run_extra_conts ss : Forall (fun s => no_lf s = true) ss -> forall k acc c se rest,
  crun (SExtra k acc) c se (map (fun s => SPC :: s ++ [LF]) ss ++ rest) =
  crun (SExtra k (acc ++ List.concat (map (fun s => s ++ [LF]) ss))) c se rest.
Proof.
  induction 1 as [|s ss Hs _ IH]; intros k acc c se rest.
  - cbn [map List.concat app]. now rewrite app_nil_r.
  - cbn [map app List.concat].
    rewrite (crun_step (SExtra k acc) c se (SPC :: s ++ [LF]) _ c se (SExtra k (acc ++ s ++ [LF]))).
    + rewrite IH. now rewrite <- app_assoc.
    + apply (ends_nl_kv []).
    + reflexivity.
Qed.

(* TrimSuffix(v, "\n") takes off one final LF, if there is one *)
Lemma trim_suffix_lf_last v : trim_suffix_lf v ++ (if last_is LF v then [LF] else []) = v.
Proof.
  unfold last_is. induction v as [|x v IH]; [reflexivity|]. destruct v as [|y v].
  - cbn. destruct (x =? LF) eqn:E; [apply N.eqb_eq in E; now subst|reflexivity].
  - change (trim_suffix_lf (x :: y :: v)) with (x :: trim_suffix_lf (y :: v)). cbn [rev app] in *.
    destruct (rev v ++ [y]) eqn:E; [destruct (rev v); discriminate|]. cbn [app]. f_equal. exact IH.
Qed.

Lemma trim_suffix_lf_id v : last_is LF v = false -> trim_suffix_lf v = v.
Proof. intros H. pose proof (trim_suffix_lf_last v) as E. now rewrite H, app_nil_r in E. Qed.

Lemma trim_suffix_lf_snoc v : last_is LF v = true -> trim_suffix_lf v ++ [LF] = v.
Proof. intros H. pose proof (trim_suffix_lf_last v) as E. now rewrite H in E. Qed.

Lemma first_is_key k r : k <> [] -> has_byte SPC k = false -> first_is SPC (k ++ r) = false.
Proof.
  destruct k as [|x k]; [contradiction|]. intros _ H. rewrite has_byte_cons in H. apply orb_false_iff in H as [H _].
  cbn. now rewrite N.eqb_sym.
Qed.

Lemma run_extra1 k v se : wf_extra (k, v) = true ->
  runs (extra_lines (k, v)) (fun C => set_extra C (c_extra C ++ [(k, v)])) se se.
Proof.
  intros Hwf st c rest Hh. destruct (wf_extra_parts _ _ Hwf) as [Hstd [Hne [Hsp [Hlf Hlast]]]].
  set (C := cfinish st c). unfold extra_lines. cbn [fst snd]. destruct v as [|y v].
  - exists SHeaders, (set_extra C (c_extra C ++ [(k, [])])). split; [|split; [exact I|reflexivity]].
    cbn [app]. apply crun_step; [apply ends_nl_app_lf|].
    rewrite (cstep_hdrlike _ _ _ _ _ Hh (first_is_key _ _ Hne Hsp)). fold C.
    rewrite on_headers_extra, (parse_extra_header_k _ Hlf Hsp); [reflexivity| |now rewrite (split_header_k _ Hlf Hsp)].
    destruct k as [|a [|b k]]; [contradiction|reflexivity|reflexivity].
  - set (w := trim_suffix_lf (y :: v)). destruct (segs_no_lf w) as [N1 N2].
    exists (SExtra k (fst (segs w) ++ [LF] ++ List.concat (map (fun s => s ++ [LF]) (snd (segs w))))), C.
    split; [|split; [exact I|]].
    + unfold val_lines. cbn [app].
      rewrite (crun_step st c se _ _ C se (SExtra k (fst (segs w) ++ [LF]))).
      * rewrite (run_extra_conts _ N2). now rewrite <- app_assoc.
      * apply ends_nl_kv.
      * rewrite (cstep_hdrlike _ _ _ _ _ Hh (first_is_key _ _ Hne Hsp)). fold C.
        rewrite on_headers_extra, (parse_extra_header_kv k (fst (segs w) ++ [LF]) Hlf Hsp);
          [reflexivity|exact (is_blank_kline k _ Hne)|now rewrite (split_header_kv k _ Hlf Hsp N1)].
    + cbn [cfinish]. unfold finalise_extra. rewrite val_lines_acc, trim_right_snoc. unfold w.
      now rewrite (trim_suffix_lf_id _ Hlast), (trim_right_id _ _ Hlast).
Qed.

Lemma run_extras xs se : forallb wf_extra xs = true ->
  runs (flat_map extra_lines xs) (fun C => set_extra C (c_extra C ++ xs)) se se.
Proof.
  induction xs as [|[k v] xs IH]; cbn [forallb flat_map]; intros H.
  - intros st c rest Hh. exists st, c. split; [reflexivity|split; [exact Hh|]]. rewrite app_nil_r. now destruct (cfinish st c).
  - apply andb_true_iff in H as [H1 H2].
    eapply runs_ext; [|exact (runs_app _ _ _ _ _ _ _ (run_extra1 k v se H1) (IH H2))].
    intros C. destruct C. cbn. now rewrite <- app_assoc.
Qed.

(* the signature headers, one argument for "gpgsig" and "gpgsig-sha256" *)
Definition set_sig_of (f : repo_fmt) (c : commit) (v : bytes) : commit :=
  match f with SHA1 => set_sig c v | SHA256 => set_sig256 c v end.

Lemma set_sig_of_app f c a b :
  set_sig_of f (set_sig_of f c (sig_of f c ++ a)) (sig_of f (set_sig_of f c (sig_of f c ++ a)) ++ b) =
  set_sig_of f c (sig_of f c ++ a ++ b).
Proof. destruct f, c; cbn; now rewrite <- app_assoc. Qed.

Lemma sig_line_step f st c se v : hdrlike st -> no_lf v = true ->
  cstep st c se false (sig_header_of f ++ SPC :: v ++ [LF]) =
  Ok (set_sig_of f (cfinish st c) (sig_of f (cfinish st c) ++ v ++ [LF]), se, pgp_of f).
Proof.
  intros Hh Hv. rewrite (cstep_hdrlike st c se false _ Hh) by now destruct f.
  unfold on_headers. rewrite is_blank_kline by now destruct f.
  rewrite (split_header_kv (sig_header_of f) v) by first [exact Hv|now destruct f]. now destruct f.
Qed.

Lemma run_sig_conts f ss : Forall (fun s => no_lf s = true) ss -> forall c se rest,
  crun (pgp_of f) c se (map (fun s => SPC :: s ++ [LF]) ss ++ rest) =
  crun (pgp_of f) (set_sig_of f c (sig_of f c ++ List.concat (map (fun s => s ++ [LF]) ss))) se rest.
Proof.
  induction 1 as [|s ss Hs _ IH]; intros c se rest.
  - cbn [map List.concat app]. rewrite app_nil_r. now destruct c, f.
  - cbn [map app List.concat].
    rewrite (crun_step (pgp_of f) c se (SPC :: s ++ [LF]) _ (set_sig_of f c (sig_of f c ++ s ++ [LF])) se (pgp_of f)).
    + now rewrite IH, set_sig_of_app, <- app_assoc.
    + apply (ends_nl_kv []).
    + now destruct f.
Qed.

Lemma run_sig f s se : wf_sigval s = true ->
  runs (sig_lines (sig_header_of f) s) (fun C => set_sig_of f C (sig_of f C ++ s)) se se.
Proof.
  intros Hwf st c rest Hh. set (C := cfinish st c). unfold sig_lines. destruct s as [|y s].
  - exists st, c. split; [reflexivity|split; [exact Hh|]]. fold C. rewrite app_nil_r. now destruct C, f.
  - set (w := trim_suffix_lf (y :: s)). destruct (segs_no_lf w) as [N1 N2].
    exists (pgp_of f), (set_sig_of f C (sig_of f C ++ y :: s)). split; [|now destruct f].
    unfold val_lines. cbn [app].
    rewrite (crun_step st c se _ _ _ _ _ (ends_nl_kv _ _ _) (sig_line_step f st c se _ Hh N1)).
    rewrite (run_sig_conts f _ N2), set_sig_of_app. fold C. do 3 f_equal.
    rewrite <- app_assoc, val_lines_acc. exact (trim_suffix_lf_snoc _ Hwf).
Qed.

Lemma run_blank st c se rest : hdrlike st -> crun st c se ([LF] :: rest) = crun SMessage (cfinish st c) se rest.
Proof.
  intros Hh. apply crun_step; [reflexivity|]. now rewrite (cstep_hdrlike st c se false [LF] Hh eq_refl).
Qed.

Theorem commit_dec_enc : forall c, wf_commit c = true -> decode_commit (encode_commit c true) = Ok c.
Proof.
  intros c Hwf. destruct (wf_commit_parts _ Hwf) as [Ht [Hp [Ha [Hc [Hene [He [Hx [Hs1 Hs2]]]]]]]].
  unfold decode_commit. rewrite (encode_commit_lines _ Hwf), (split_lines_clines _ (hdr_lines_cline _ Hwf)).
  unfold hdr_lines. cbn [app]. rewrite (run_tree _ _ Ht). rewrite <- app_assoc, (run_parents _ Hp).
  cbn [app].
  rewrite (crun_step _ _ _ _ _ _ _ _ (ends_nl_kv _ _ _) (run_author _ _ _ Ha)).
  rewrite (crun_step _ _ _ _ _ _ _ _ (ends_nl_kv _ _ _) (run_committer _ _ _ Hc)).
  rewrite <- app_assoc. unfold opt_lines.
  set (C0 := set_committer _ _).
  destruct (runs_app _ _ _ _ _ _ _ (run_enc _ He) (runs_app _ _ _ _ _ _ _ (run_extras _ _ Hx)
             (runs_app _ _ _ _ _ _ _ (run_sig SHA1 _ _ Hs1) (run_sig SHA256 _ _ Hs2))) SHeaders C0 ([[LF]] ++ split_lines (c_msg c)) I)
    as (st4 & c4 & E4 & H4 & F4).
  refine (eq_trans E4 _). cbn [app]. rewrite (run_blank _ _ _ _ H4), (crun_message _ (split_lines_abl _)), concat_split_lines, F4.
  unfold C0. cbn [cfinish]. destruct c as [t0 ps0 a0 cm0 e0 x0 s0 s1 m0]. cbn [c_tree c_parents c_author c_committer c_enc c_extra c_sig c_sig256 c_msg] in *.
  destruct (beqb e0 utf8) eqn:Eu; [apply beqb_eq in Eu; subst e0|]; reflexivity.
Qed.
