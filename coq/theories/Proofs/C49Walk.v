(* Proofs/C49Walk.v — the two directory walks (go-git's Scope.Descend/Match and
   git's prep_exclude/last_matching_pattern) agree whenever every pattern pair
   is COHERENT: go-git's pattern.Match accepts a path exactly when git's
   pattern matches the path or one of its ancestor directories (below the
   pattern's base), and no ancestor directory of the queried path is
   re-included by a negated pattern.  Negation is allowed.  Coherence is
   relative to a set P of paths (those with clean components for patterns with
   a slash, all paths for name patterns). *)
From Coq Require Import List NArith Bool Lia PeanoNat.
From GoGit Require Import Base.Out Model.Gitignore Spec.Glob Spec.GitIgnore
     Proofs.C49Total Proofs.C49Wild Proofs.C49Git Proofs.C49Trim Proofs.C49Scope Proofs.C49Names.
Import ListNotations.
Local Open Scope N_scope.

Definition comp_ok (c : bytes) : bool :=
  negb (is_nil c) && negb (has_slash c) && forallb (fun b => negb (b =? 0)) c.
Definition path_ok (p : list bytes) : bool := forallb comp_ok p.
Definition ok_path (p : list bytes) : Prop := path_ok p = true.

Definition dirflag (k n : nat) (isdir : bool) : bool := if Nat.eqb k n then isdir else true.

Definition coh (P : list bytes -> Prop) (p : pat) (g : gpat) : Prop :=
  g_base g = p_dom p /\ g_neg g = p_incl p /\
  forall rel isdir, rel <> [] -> P rel ->
    (pat_match p (p_dom p ++ rel) isdir <> NoMatch <->
     exists k, (0 < k <= List.length rel)%nat /\
               gpat_match g (p_dom p ++ firstn k rel) (dirflag k (List.length rel) isdir) = true).

Lemma pat_match_res p path d :
  pat_match p path d = NoMatch \/ pat_match p path d = (if p_incl p then Include else Exclude).
Proof.
  unfold pat_match. destruct (Nat.leb _ _); [now left|].
  destruct (strip_domain _ _); [|now left].
  destruct (if p_isglob p then _ else _); [now right|now left].
Qed.

(* the decision of a list scanned from its end, as a match result *)
Fixpoint mres_rev (ps : list pat) (path : list bytes) (d : bool) : mres :=
  match ps with
  | [] => NoMatch
  | p :: r => match pat_match p path d with NoMatch => mres_rev r path d | x => x end
  end.
Definition decision (ps : list pat) (path : list bytes) (d : bool) : mres := mres_rev (rev ps) path d.

Lemma matcher_rev_mres ps path d :
  matcher_rev ps path d = match mres_rev ps path d with Exclude => true | _ => false end.
Proof. induction ps as [|p r IH]; cbn; [reflexivity|]. destruct (pat_match p path d); auto. Qed.

Lemma matcher_decision ps path d :
  matcher_match ps path d = match decision ps path d with Exclude => true | _ => false end.
Proof. apply matcher_rev_mres. Qed.

Lemma mres_rev_app u v path d :
  mres_rev (u ++ v) path d = match mres_rev u path d with NoMatch => mres_rev v path d | r => r end.
Proof.
  induction u as [|p u IH]; cbn [app mres_rev]; [reflexivity|].
  destruct (pat_match p path d); [exact IH|reflexivity|reflexivity].
Qed.

(* the relation of C49Scope is the function: the decision is unique *)
Lemma decides_decision ps path d r : decides ps path d r -> r = decision ps path d.
Proof.
  assert (Hnone : forall qs, Forall (fun q => pat_match q path d = NoMatch) qs -> mres_rev (rev qs) path d = NoMatch).
  { intros qs H. apply Forall_rev in H. induction H as [|q l E _ IH]; [reflexivity|]. cbn. now rewrite E. }
  intros H. destruct H as [ps path d A|pre p post path d r E N A]; unfold decision.
  - symmetry. now apply Hnone.
  - rewrite rev_app_distr. cbn [rev]. rewrite <- app_assoc, mres_rev_app, (Hnone _ A). cbn.
    rewrite E. now destruct r.
Qed.

Lemma decides_unique ps path d r1 r2 : decides ps path d r1 -> decides ps path d r2 -> r1 = r2.
Proof. intros H1 H2. now rewrite (decides_decision _ _ _ _ H1), (decides_decision _ _ _ _ H2). Qed.

Lemma Forall2_rev {A B} (R : A -> B -> Prop) l1 l2 : Forall2 R l1 l2 -> Forall2 R (rev l1) (rev l2).
Proof.
  induction 1; cbn; [constructor|]. apply Forall2_app; [assumption|]. constructor; [assumption|constructor].
Qed.

Lemma Forall2_imp {A B} (R S : A -> B -> Prop) l1 l2 :
  (forall a b, In a l1 -> R a b -> S a b) -> Forall2 R l1 l2 -> Forall2 S l1 l2.
Proof.
  intros H F. induction F as [|a b l1 l2 Hab _ IH]; constructor; [apply H; [now left|exact Hab]|].
  apply IH. intros a' b' Hin. apply H. now right.
Qed.

Lemma decision_none ps path d : decision ps path d = NoMatch ->
  forall p, In p ps -> pat_match p path d = NoMatch.
Proof.
  unfold decision. intros H p Hp. apply in_rev in Hp.
  induction (rev ps) as [|q r IH]; [destruct Hp|]. cbn [mres_rev] in H.
  destruct (pat_match q path d) eqn:E; try discriminate.
  destruct Hp as [<-|Hp]; [exact E|now apply IH].
Qed.

(* patterns that agree one by one on (path, d) decide alike; gm is git's test
   of one pattern, gl the scan of a list from its end that uses it *)
Section Last.
Variables (gm : gpat -> list bytes -> bool -> bool)
          (gl : list gpat -> list bytes -> bool -> option bool).
Hypothesis gl_nil : forall path d, gl [] path d = None.
Hypothesis gl_cons : forall g r path d,
  gl (g :: r) path d = if gm g path d then Some (g_neg g) else gl r path d.

Definition agree_at (path : list bytes) (d : bool) (p : pat) (g : gpat) : Prop :=
  g_neg g = p_incl p /\ (pat_match p path d <> NoMatch <-> gm g path d = true).

Definition same_verdict (r : mres) (o : option bool) : Prop :=
  o = match r with NoMatch => None | Exclude => Some false | Include => Some true end.

Lemma decide_agree path d : forall ps gs, Forall2 (agree_at path d) ps gs ->
  same_verdict (mres_rev ps path d) (gl gs path d).
Proof.
  induction 1 as [|p g ps gs [Hn [Hm1 Hm2]] _ IH]; cbn [mres_rev]; [apply gl_nil|].
  rewrite gl_cons. destruct (gm g path d).
  - destruct (pat_match_res p path d) as [E|E]; [now destruct (Hm2 eq_refl)|].
    rewrite E, Hn. now destruct (p_incl p).
  - destruct (pat_match p path d); [exact IH| |];
      (assert (false = true) by (apply Hm1; discriminate); discriminate).
Qed.

Lemma decision_agree path d ps gs : Forall2 (agree_at path d) ps gs ->
  same_verdict (decision ps path d) (gl (rev gs) path d).
Proof. intros H. apply decide_agree. now apply Forall2_rev. Qed.
End Last.

Fixpoint anc_ok (fs : files) (ps : list pat) (pre rest : list bytes) : bool :=
  let ps' := ps ++ go_file fs pre in
  match rest with
  | [] => true
  | e :: rest' =>
    match rest' with
    | [] => true
    | _ => match decision ps' (pre ++ [e]) true with
           | Include => false
           | Exclude => true
           | NoMatch => anc_ok fs ps' (pre ++ [e]) rest'
           end
    end
  end.

Definition excl_pats (excl : option bytes) : list pat :=
  match excl with Some c => read_ignore c [] | None => [] end.

(* go-git's own verdict on every proper ancestor directory of the path is
   "no pattern applies" up to the first excluded one: none is re-included by a
   negated pattern (below an excluded directory nothing matters) *)
Definition no_reincluded_ancestor (excl : option bytes) (fs : files) (path : list bytes) : bool :=
  anc_ok fs (excl_pats excl) [] path.

(* what is known of a pattern pair in scope when the walk stands in directory
   pre: its base is pre or an ancestor, and git's pattern matched none of the
   directories in between *)
Definition cohI (P : list bytes -> Prop) (pre : list bytes) (p : pat) (g : gpat) : Prop :=
  coh P p g /\ exists x, pre = p_dom p ++ x /\
  forall k, (0 < k <= List.length x)%nat -> gpat_match g (p_dom p ++ firstn k x) true = false.

(* a file read by both sides yields coherent pairs based at its directory *)
Definition files_coh (P : list bytes -> Prop) (fs : files) : Prop :=
  forall pre, Forall2 (fun p g => coh P p g /\ p_dom p = pre) (go_file fs pre) (git_file fs pre).

Lemma cohI_base P pre p g : coh P p g /\ p_dom p = pre -> cohI P pre p g.
Proof.
  intros [Hc Hd]. split; [exact Hc|]. exists []. split; [now rewrite Hd, app_nil_r|].
  intros k Hk. cbn in Hk. lia.
Qed.

Lemma path_ok_app a b : path_ok (a ++ b) = path_ok a && path_ok b.
Proof. apply forallb_app. Qed.

Lemma path_ok_firstn k p : path_ok p = true -> path_ok (firstn k p) = true.
Proof.
  intros H. rewrite <- (firstn_skipn k p), path_ok_app in H. now apply andb_true_iff in H.
Qed.

Lemma path_ok_skipn k p : path_ok p = true -> path_ok (skipn k p) = true.
Proof.
  intros H. rewrite <- (firstn_skipn k p), path_ok_app in H. now apply andb_true_iff in H.
Qed.

Lemma path_ok_seg a b c : ok_path (a ++ b ++ c) -> ok_path b.
Proof. unfold ok_path. rewrite !path_ok_app, !andb_true_iff. tauto. Qed.

Lemma firstn_snoc_le {A} k (x : list A) e : (k <= List.length x)%nat -> firstn k (x ++ [e]) = firstn k x.
Proof. intros H. rewrite firstn_app. replace (k - List.length x)%nat with O by lia. apply app_nil_r. Qed.

Lemma glast_rev_cons g r path d :
  glast_rev (g :: r) path d = if gpat_match g path d then Some (g_neg g) else glast_rev r path d.
Proof. reflexivity. Qed.

Section Walk.
Variable P : list bytes -> Prop.
Hypothesis P_seg : forall a b c, P (a ++ b ++ c) -> P b.

(* in the next directory pre ++ [e] the pair agrees *)
Lemma cohI_agree pre e rest d p g :
  P (pre ++ e :: rest) -> cohI P pre p g -> agree_at gpat_match (pre ++ [e]) d p g.
Proof.
  intros Hok ((Hb & Hn & Hc) & x & -> & Hinv). split; [exact Hn|].
  assert (HP : P (x ++ [e])).
  { apply (P_seg (p_dom p) _ rest). now rewrite <- !app_assoc in Hok |- *. }
  rewrite <- app_assoc, (Hc (x ++ [e]) d ltac:(now destruct x) HP).
  split.
  - intros (k & Hk & Hm). unfold dirflag in Hm.
    destruct (Nat.eq_dec k (List.length (x ++ [e]))) as [->|Hne].
    + now rewrite Nat.eqb_refl, firstn_all in Hm.
    + rewrite (proj2 (Nat.eqb_neq _ _) Hne) in Hm. rewrite app_length in Hk, Hne. cbn in Hk, Hne.
      rewrite firstn_snoc_le, Hinv in Hm by lia. discriminate.
  - intros Hm. exists (List.length (x ++ [e])). split; [rewrite app_length; cbn; lia|].
    unfold dirflag. now rewrite Nat.eqb_refl, firstn_all.
Qed.

Lemma wide_walk fs path isdir : files_coh P fs -> P path ->
  forall rest pre ps gs, path = pre ++ rest ->
    Forall2 (cohI P pre) ps gs ->
    anc_ok fs ps pre rest = true ->
    gw fs ps pre rest path isdir = gwalk fs gs pre rest path isdir.
Proof.
  intros Hfc Hok. induction rest as [|e rest IH]; intros pre ps gs Hpath HF Hanc.
  { rewrite gwalk_unfold. reflexivity. }
  rewrite gwalk_unfold. cbv zeta.
  set (ps' := ps ++ go_file fs pre). set (gs' := gs ++ git_file fs pre).
  assert (HF' : Forall2 (cohI P pre) ps' gs').
  { apply Forall2_app; [exact HF|]. exact (Forall2_imp _ _ _ _ (fun p g _ => cohI_base P pre p g) (Hfc pre)). }
  assert (Hag : forall d, Forall2 (agree_at gpat_match (pre ++ [e]) d) ps' gs').
  { intros d. refine (Forall2_imp _ _ _ _ _ HF'). intros p g _. apply (cohI_agree pre e rest). now rewrite <- Hpath. }
  assert (Hdec : forall d, same_verdict (decision ps' (pre ++ [e]) d) (glast gs' (pre ++ [e]) d)).
  { intros d. apply (decision_agree gpat_match glast_rev); [reflexivity|apply glast_rev_cons|apply Hag]. }
  destruct rest as [|e2 r].
  - cbn [gw]. fold ps'. rewrite matcher_decision.
    assert (Hp : path = pre ++ [e]) by exact Hpath.
    rewrite Hp, (Hdec isdir). now destruct (decision ps' (pre ++ [e]) isdir).
  - rewrite gw_step. fold ps'.
    cbn [anc_ok] in Hanc. fold ps' in Hanc.
    rewrite matcher_decision. unfold gex. rewrite (Hdec true).
    destruct (decision ps' (pre ++ [e]) true) eqn:Edec; try reflexivity; [|discriminate].
    apply IH; [rewrite Hpath, <- app_assoc; reflexivity| |exact Hanc].
    (* no pattern of go-git's matched this directory, so none of git's did *)
    refine (Forall2_imp _ _ _ _ _ HF'). intros p g Hin HI.
    assert (Hno : gpat_match g (pre ++ [e]) true = false).
    { destruct (cohI_agree pre e (e2 :: r) true p g ltac:(now rewrite <- Hpath) HI) as [_ [_ Hm]].
      destruct (gpat_match g (pre ++ [e]) true); [|reflexivity].
      destruct (Hm eq_refl). now apply (decision_none _ _ _ Edec). }
    destruct HI as (Hc & x & -> & Hinv).
    split; [exact Hc|]. exists (x ++ [e]). split; [now rewrite app_assoc|].
    intros k Hk. destruct (Nat.eq_dec k (List.length (x ++ [e]))) as [->|Hne].
    + now rewrite firstn_all, app_assoc.
    + rewrite app_length in Hk, Hne. cbn in Hk, Hne. rewrite firstn_snoc_le by lia. apply Hinv. lia.
Qed.
End Walk.
