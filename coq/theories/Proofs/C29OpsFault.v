(* Proofs/C29OpsFault.v — the effect-level view of Model/PorcelainOps.v: the
   store list of an operation replays to the state the operation returns
   (effects_sound); operations with a single observable store are all-or-nothing
   under a fault between stores; Restore / Commit{All} / Pull are not. *)
From Coq Require Import List NArith ZArith Bool Lia.
From GoGit Require Import Base.Out Model.Porcelain Model.PorcelainOps Proofs.PorcelainMaps Proofs.C29Ops.
Import ListNotations.
Local Open Scope N_scope.
Local Arguments is_branch : simpl never.

Lemma apply_effs_app : forall a b s, apply_effs (a ++ b) s = apply_effs b (apply_effs a s).
Proof. intros. unfold apply_effs. apply fold_left_app. Qed.

Lemma fold_checkout_err : forall t l e x, fold_left (checkout_change t) l (Some e, x) = (Some e, x).
Proof. intros t. induction l as [|q l IH]; intros e x; cbn [fold_left]; [reflexivity|]. apply IH. Qed.

Lemma remove_idem : forall (w : fmap) p, remove p (remove p w) = remove p w.
Proof.
  intros w p. unfold remove. induction w as [|[q v] r IH]; cbn; [reflexivity|].
  destruct (negb (beqb p q)) eqn:E; cbn; [rewrite E|]; now rewrite IH.
Qed.

(* checkoutChange removes an existing file before it writes it: the write alone says it all *)
Lemma write_after_remove : forall (b : bool) p e s,
  apply_effs ((if b then [FRemove p] else []) ++ [FWrite p e]) s = apply_eff s (FWrite p e).
Proof.
  intros [] p e s; [|reflexivity]. unfold apply_effs. cbn [app fold_left apply_eff w_wt r_wt].
  now rewrite remove_idem.
Qed.

Lemma eff_checkout_sound : forall t l ix w ix' w' s,
  fold_left (checkout_change t) l (None, (ix, w)) = (None, (ix', w')) ->
  r_wt s = w ->
  apply_effs (eff_checkout_fold t l ix w) s = w_wt s w'.
Proof.
  intros t. induction l as [|p l IH]; intros ix w ix' w' s Hf Hw; cbn [fold_left eff_checkout_fold] in *.
  - inversion Hf; subst. cbn. symmetry. apply rstate_eta.
  - unfold checkout_change at 2 in Hf. destruct (lookup p ix) eqn:Ei.
    + destruct (lookup p t) as [e|] eqn:Et.
      * change (FWrite p e :: ?r) with ([FWrite p e] ++ r).
        rewrite app_assoc, apply_effs_app, write_after_remove. cbn [apply_eff]. rewrite Hw.
        now rewrite (IH _ _ _ _ (w_wt s (insert p e (remove p w))) Hf eq_refl).
      * rewrite fold_checkout_err in Hf. discriminate.
    + change (apply_effs (FRemove p :: ?r) s) with (apply_effs r (apply_eff s (FRemove p))).
      cbn [apply_eff]. rewrite Hw.
      rewrite (IH _ _ _ _ (w_wt s (remove p w)) Hf eq_refl). reflexivity.
Qed.

Lemma eff_worktree_sound : forall t l ix w ix' w' s,
  fold_left (checkout_change t) l (None, (ix, w)) = (None, (ix', w')) ->
  r_wt s = w ->
  apply_effs (eff_worktree t l ix w) s = w_wt (w_idx s ix') w'.
Proof.
  intros t l ix w ix' w' s Hf Hw. unfold eff_worktree. rewrite apply_effs_app.
  rewrite (eff_checkout_sound _ _ _ _ _ _ _ Hf Hw).
  rewrite Hf. reflexivity.
Qed.

Lemma eff_update_head_sound : forall c s0 s, r_head s0 = r_head s ->
  apply_effs (eff_update_head c s0) s = rupdate_head c s.
Proof.
  intros c s0 s H. unfold eff_update_head, rupdate_head. rewrite H. now destruct (r_head s).
Qed.

Lemma eff_update_head_twice : forall c s,
  apply_effs (eff_update_head c s) (rupdate_head c s) = rupdate_head c (rupdate_head c s).
Proof. intros c s. unfold eff_update_head, rupdate_head. destruct (r_head s) eqn:E; cbn; now rewrite ?E. Qed.

Lemma eff_restore_sound : forall st wk files s s',
  restore st wk files s = (None, s') -> apply_effs (eff_restore wk files s) s = s'.
Proof.
  intros st wk files s s'. unfold restore, eff_restore.
  destruct files as [|f0 fs]; [discriminate|].
  destruct st; cbn [negb]; [|discriminate].
  destruct (rhead_commit s) as [c|]; [|discriminate].
  destruct (rtree_of s c) as [t|]; [|discriminate].
  destruct (rset_head_commit c s) as [[e1|] s1] eqn:Eh; [discriminate|].
  apply rset_head_commit_spec in Eh. subst s1.
  rewrite rupdate_head_idx, rupdate_head_wt. cbv zeta.
  set (ix := fold_left (reset_index_step t) (filter (in_files (f0 :: fs)) (changed_paths (r_idx s) t)) (r_idx s)).
  rewrite apply_effs_app, (eff_update_head_sound c s s eq_refl).
  change (apply_effs (FSetIndex ix :: ?r) ?x) with (apply_effs r (w_idx x ix)).
  destruct wk.
  - set (wch := filter (fun p => in_files (f0 :: fs) p && is_some (lookup p ix)) (changed_paths (r_wt s) ix)).
    destruct (fold_left (checkout_change t) wch (None, (ix, r_wt s))) as [[e2|] [ix' w']] eqn:Hf; cbn [fst snd option_map]; [discriminate|].
    intro H. inversion H; subst s'.
    rewrite (eff_worktree_sound t wch ix (r_wt s) ix' w' (w_idx (rupdate_head c s) ix) Hf).
    + reflexivity.
    + cbn. apply rupdate_head_wt.
  - intro H. inversion H. reflexivity.
Qed.

Lemma eff_commit_sound : forall o s r s',
  commit o s = (r, s') -> apply_effs (eff_commit o s s' (negb (is_some r))) s = s'.
Proof.
  intros o s r s' H. unfold eff_commit. rewrite apply_effs_app.
  set (s1 := if commit_stores_index o s then w_idx s (auto_add s) else s).
  assert (H1 : apply_effs (if commit_stores_index o s then [FSetIndex (auto_add s)] else []) s = s1).
  { unfold s1. destruct (commit_stores_index o s); reflexivity. }
  rewrite H1. apply commit_spec in H. fold s1 in H. destruct r as [e|]; cbn [is_some negb].
  - now subst s'.
  - destruct H as (parents & Hs).
    assert (Hl : last (r_commits s') (mkCmt [] []) = mkCmt (r_idx s1) parents).
    { rewrite Hs, rupdate_head_commits. cbn. apply last_last. }
    rewrite Hl.
    change (apply_effs (FAddCommit ?c :: ?r) ?x) with (apply_effs r (w_commits x (r_commits x ++ [c]))).
    assert (Hc1 : r_commits s1 = r_commits s) by (unfold s1; destruct (commit_stores_index o s); reflexivity).
    rewrite Hc1. rewrite Hs. apply eff_update_head_sound.
    unfold s1. destruct (commit_stores_index o s); reflexivity.
Qed.

Lemma eff_pull_sound : forall e s r s', pull e s = (r, s') -> apply_effs (eff_pull e s) s = s'.
Proof.
  intros e s r s'. unfold pull, eff_pull, eff_pull_tail. rewrite apply_effs_app.
  destruct (pull_pre e s) as [[x0|] [rc s1]] eqn:Hp; rewrite <- (proj1 (pull_pre_spec _ _ _ _ _ Hp)).
  - intro H. inversion H. reflexivity.
  - destruct (runstaged s1) eqn:Hu; [intro H; inversion H; reflexivity|].
    rewrite apply_effs_app, (eff_update_head_sound rc s1 s1 eq_refl).
    destruct (reset_merge rc (rupdate_head rc s1)) as [[e1|] s2] eqn:Hr.
    + intro H. inversion H; subst. apply reset_merge_err_unchanged in Hr. subst s'. reflexivity.
    + (* the stores of the successful Reset(Merge): HEAD again (the same write:
         eff_update_head_twice), the index, then the worktree files *)
      intro H. inversion H; subst s2 r. clear H. revert Hr.
      unfold reset_merge.
      rewrite rtree_of_update_head, runstaged_update_head, Hu.
      destruct (rtree_of s1 rc) as [t|]; [|discriminate].
      destruct (rset_head_commit rc (rupdate_head rc s1)) as [[e1|] s2] eqn:Eh; [discriminate|].
      apply rset_head_commit_spec in Eh. subst s2.
      rewrite !rupdate_head_idx, !rupdate_head_wt, apply_effs_app, eff_update_head_twice.
      change (apply_effs (FSetIndex ?i :: ?r) ?x) with (apply_effs r (w_idx x i)).
      destruct (snd (reset_index t (r_idx s1))) as [|q0 l0] eqn:Er.
      * intro H. inversion H. reflexivity.
      * unfold reset_worktree.
        set (wch := filter (fun p => existsb (beqb p) (q0 :: l0)) (changed_paths (r_wt s1) (fst (reset_index t (r_idx s1))))).
        destruct (fold_left (checkout_change t) wch (None, (fst (reset_index t (r_idx s1)), r_wt s1)))
          as [[e2|] [ix' w']] eqn:Hfold; cbn [fst snd option_map]; [discriminate|].
        intro H. inversion H; subst s'.
        rewrite (eff_worktree_sound t wch _ (r_wt s1) ix' w' _ Hfold).
        -- reflexivity.
        -- cbn. now rewrite !rupdate_head_wt.
Qed.

Lemma effects_sound : forall o s,
  is_porcelain o = true -> apply_effs (effects o s) s = snd (xstep o s).
Proof.
  intros o s Hp. unfold effects. cbv zeta.
  destruct (xstep o s) as [r s'] eqn:Hx. cbn [fst snd] in *.
  destruct o; cbn [xstep is_porcelain] in *; try discriminate.
  - destruct r as [x|]; [apply restore_err_unchanged in Hx; now subst | eapply eff_restore_sound; eauto].
  - apply add_path_spec in Hx. now destruct r.
  - apply add_path_spec in Hx. now destruct r.
  - unfold add_bad_options in Hx. inversion Hx. reflexivity.
  - eapply eff_commit_sound; eauto.
  - apply merge_spec in Hx. subst s'. destruct r; [reflexivity | now apply eff_update_head_sound].
  - eapply eff_pull_sound; eauto.
Qed.

(* a refused operation (under the guards of the atomicity theorems) has made no
   observable store: whatever prefix of its stores a fault lets through *)
Lemma fault_refused_atomic : forall o s x j,
  op_guard o s = true -> fst (xstep o s) = Some x -> observable (after_fault j o s) = observable s.
Proof.
  intros o s x j Hg Hn. unfold after_fault, effects. cbv zeta.
  destruct o; cbn [xstep op_guard] in *.
  - (* XRestore *) rewrite Hn. destruct j; reflexivity.
  - (* XAdd *) rewrite Hn. destruct j; reflexivity.
  - (* XAddAll *) rewrite Hn. destruct j; reflexivity.
  - (* XAddBad *) destruct j; reflexivity.
  - (* XCommit *) unfold eff_commit, commit_stores_index. rewrite Hn. cbn [is_some negb].
    apply negb_true_iff in Hg. rewrite Hg, andb_false_r. cbn [andb app]. destruct j; reflexivity.
  - (* XMerge *) rewrite Hn. destruct j; reflexivity.
  - (* XPull *) unfold eff_pull, eff_fetch.
    assert (Hrest : eff_pull_tail e s = []).
    { revert Hn. unfold pull, eff_pull_tail. destruct (pull_pre e s) as [[x0|] [rc s1]] eqn:Hp; [reflexivity|].
      destruct (runstaged s1) eqn:Hu; [reflexivity|].
      destruct (pull_no_late_refusal e s rc s1 Hg Hp Hu) as (s2 & H2). rewrite H2. discriminate. }
    rewrite Hrest, app_nil_r.
    destruct (negb (pe_conf e) || negb (pe_reach e) || is_nil (pe_refs e)); [now destruct j|].
    rewrite firstn_map. apply same_but_refs_obs, fetch_stores_frame.
  - (* XWrite *) discriminate.
  - (* XRm *) discriminate.
Qed.

(* operations with one observable store: Add, Merge, Commit without All *)
Definition single_store (o : xop) : bool :=
  match o with
  | XAdd _ | XAddAll | XAddBad | XMerge _ _ => true
  | XCommit c => negb (cm_all c)
  | _ => false
  end.

Lemma fault_single_store_atomic : forall o s j,
  single_store o = true ->
  observable (after_fault j o s) = observable s \/ after_fault j o s = snd (xstep o s).
Proof.
  intros o s j Hs. unfold after_fault.
  assert (Hp : is_porcelain o = true) by (destruct o; try discriminate; reflexivity).
  pose proof (effects_sound o s Hp) as Hsound.
  (* the fault lets every store through, or stops before the last one, and no
     earlier store of these operations is observable *)
  destruct (Nat.le_gt_cases (List.length (effects o s)) j) as [Hge|Hlt].
  - right. rewrite firstn_all2 by assumption. exact Hsound.
  - left. revert Hlt. unfold effects. cbv zeta.
    destruct o; cbn [single_store] in Hs; try discriminate.
    + (* XAdd *) destruct (fst (xstep _ s)); cbn [List.length]; intro Hlt; [lia|]. assert (j = 0)%nat as -> by lia. reflexivity.
    + (* XAddAll *) destruct (fst (xstep _ s)); cbn [List.length]; intro Hlt; [lia|]. assert (j = 0)%nat as -> by lia. reflexivity.
    + (* XAddBad *) cbn [List.length]. intro Hlt. lia.
    + (* XCommit *) unfold eff_commit, commit_stores_index. apply negb_true_iff in Hs. rewrite Hs, andb_false_r. cbn [andb app].
      destruct (negb (is_some (fst (xstep (XCommit o) s)))); [|cbn [List.length]; intro; lia].
      unfold eff_update_head. destruct (r_head s); cbn [List.length]; intro Hlt;
        (destruct j as [|[|j]]; [reflexivity | reflexivity | lia]).
    + (* XMerge *) destruct (fst (xstep _ s)); [cbn [List.length]; intro; lia|].
      unfold eff_update_head. destruct (r_head s); cbn [List.length]; intro Hlt;
        (assert (j = 0)%nat as -> by lia; reflexivity).
Qed.

From Coq Require Import String.
Local Open Scope string_scope.
(* Restore of two files: after the index store and the first file the
   repository is neither the old nor the new one *)
Definition fr_state : rstate :=
  mkR [mkCmt [(bs "a", (KReg, bs "A0")); (bs "b", (KReg, bs "B0"))] []] [(master, 0%Z)] (HSym master)
      [(bs "a", (KReg, bs "sa")); (bs "b", (KReg, bs "sb"))]
      [(bs "a", (KReg, bs "wa")); (bs "b", (KReg, bs "wb"))] true.
Definition fr_op : xop := XRestore true true [bs "a"; bs "b"].
Local Close Scope string_scope.

(* Commit{All}: the index is stored, the commit is not *)
Lemma fault_commit_all_refuted :
  exists o s j, fst (xstep o s) = None /\
    observable (after_fault j o s) <> observable s /\
    observable (after_fault j o s) <> observable (snd (xstep o s)).
Proof.
  exists (XCommit (mkCO true false true false)), (w_wt ca_state [(bs "a"%string, (KReg, bs "new"%string))]), 1%nat.
  split; [vm_compute; reflexivity|]. split; vm_compute; intro H; discriminate.
Qed.
