(* Proofs/C27Small.v — the two formulations of merkletrie.DiffTree agree on a small scope:
   the two-iterator loop of Model/StatusTrie.v (flat_difftree, no noder skipped, either
   skip rule) and the recursive merge of Model/DiffTree.v return the same change list for
   EVERY pair of trees over two names, two leaf values and depth <= 2 (144 x 144 pairs,
   empty directories, file/directory conflicts and unequal depths included).  By computation. *)
From Coq Require Import List NArith Bool.
From GoGit Require Import Base.Out Model.Status Model.StatusTrie.
From GoGit Require Model.DiffTree.
Import ListNotations.
Local Open Scope N_scope.

Definition leaves : list DiffTree.leaf := [(33188, [0; 1]); (33188, [0; 2])].
Definition names : list DiffTree.name := [[97]; [98]].

(* all ways to populate the names with an optional node each *)
Fixpoint populate (ns : list DiffTree.name) (opts : list (option DiffTree.node)) : list DiffTree.tree :=
  match ns with
  | [] => [[]]
  | n :: r =>
    flat_map (fun t => map (fun o => match o with Some x => (n, x) :: t | None => t end) opts) (populate r opts)
  end.

Definition files0 : list (option DiffTree.node) := None :: map (fun l => Some (DiffTree.File l)) leaves.
Definition level1 : list (option DiffTree.node) :=
  files0 ++ map (fun t => Some (DiffTree.Dir t)) (populate names files0).
Definition all_trees : list DiffTree.tree := populate names level1.

Definition leaf_b (a b : DiffTree.leaf) : bool := (fst a =? fst b) && DiffTree.bytes_eqb (snd a) (snd b).
Fixpoint path_b (a b : dpath) : bool :=
  match a, b with
  | [], [] => true
  | x :: a', y :: b' => DiffTree.bytes_eqb x y && path_b a' b'
  | _, _ => false
  end.
Definition mchange_b (a b : DiffTree.mchange) : bool :=
  match a, b with
  | DiffTree.MIns p l, DiffTree.MIns q m => path_b p q && leaf_b l m
  | DiffTree.MDel p l, DiffTree.MDel q m => path_b p q && leaf_b l m
  | DiffTree.MMod p l1 l2, DiffTree.MMod q m1 m2 => path_b p q && leaf_b l1 m1 && leaf_b l2 m2
  | _, _ => false
  end.
Fixpoint list_b (a b : list DiffTree.mchange) : bool :=
  match a, b with
  | [], [] => true
  | x :: a', y :: b' => mchange_b x y && list_b a' b'
  | _, _ => false
  end.
Definition res_b (a b : option (list DiffTree.mchange)) : bool :=
  match a, b with Some x, Some y => list_b x y | _, _ => false end.

Definition agree (x y : DiffTree.tree) : bool :=
  res_b (flat_difftree true no_skip no_skip x y) (DiffTree.difftree x y) &&
  res_b (flat_difftree false no_skip no_skip x y) (DiffTree.difftree x y).

(* without skipped noders neither skip rule is consulted, so the two walks of [agree] are one *)
Lemma fwalk_no_skip bypath fuel : forall F T acc,
  fwalk bypath fuel no_skip no_skip F T acc = fwalk true fuel no_skip no_skip F T acc.
Proof.
  induction fuel as [|k IH]; intros F T acc; [reflexivity|]. cbn [fwalk no_skip].
  destruct (cur F) as [[n1 x]|], (cur T) as [[n2 y]|]; rewrite ?IH; try reflexivity.
  destruct x as [a|[|c cs]], y as [b|[|d ds]]; now rewrite ?IH.
Qed.

(* a tree is sorted and measured once, not once per pair *)
Definition prep (t : DiffTree.tree) : DiffTree.tree * nat :=
  let s := DiffTree.sort_tree t in (s, DiffTree.tree_size s).
Definition agree_prep (a b : DiffTree.tree * nat) : bool :=
  res_b (fwalk true (S (S (snd a + snd b))) no_skip no_skip (start (fst a)) (start (fst b)) [])
        (DiffTree.diffl (S (snd a + snd b)) (fst a) (fst b)).

Lemma agree_prep_eq x y : agree x y = agree_prep (prep x) (prep y).
Proof.
  unfold agree, agree_prep, prep, flat_difftree, DiffTree.difftree. cbv zeta. cbn [fst snd].
  rewrite (fwalk_no_skip false). apply andb_diag.
Qed.

Lemma walks_agree_small :
  List.length all_trees = 144%nat /\
  forallb (fun x => forallb (fun y => agree x y) all_trees) all_trees = true.
Proof.
  split; [reflexivity|].
  assert (H : let L := map prep all_trees in forallb (fun a => forallb (agree_prep a) L) L = true)
    by (vm_compute; reflexivity).
  cbv zeta in H. rewrite forallb_forall in *. intros x Hx. apply forallb_forall. intros y Hy.
  rewrite agree_prep_eq. specialize (H (prep x) (in_map prep _ _ Hx)). rewrite forallb_forall in H.
  exact (H (prep y) (in_map prep _ _ Hy)).
Qed.
