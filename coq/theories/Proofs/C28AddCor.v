(* Proofs/C28AddCor.v — the add theorem instantiated: Add(file), Add(directory),
   AddWithOptions{All}, and any list of matched names (AddGlob). *)
From Coq Require Import List NArith Arith Bool.
From GoGit Require Import Base.Out Model.Status Model.IndexOps Spec.GitStatus Spec.GitIndexOps Proofs.C27 Proofs.C28 Proofs.C28Add.
Import ListNotations.
Local Open Scope N_scope.
Local Notation is_some := IndexOps.is_some (only parsing).

Lemma sget_keys m q : is_some (sget m q) = mem_path q (map fst m).
Proof.
  induction m as [|[r w] m IH]; [reflexivity|]. cbn [sget map fst mem_path].
  destruct (bytes_eqb r q); [reflexivity|exact IH].
Qed.

Lemma keys_sset m p v : forall q, mem_path q (map fst (sset m p v)) = bytes_eqb p q || mem_path q (map fst m).
Proof.
  intros q. rewrite <- !sget_keys, sget_sset. destruct (bytes_eqb p q); reflexivity.
Qed.

Lemma nodup_sset m p v : nodup_b (map fst m) = true -> nodup_b (map fst (sset m p v)) = true.
Proof.
  induction m as [|[r w] m IH]; intros H; [reflexivity|].
  cbn [sset]. cbn [map fst nodup_b] in H. apply andb_true_iff in H as [H1 H2].
  destruct (bytes_eqb r p) eqn:E.
  - cbn [map fst nodup_b]. now rewrite H1, H2.
  - cbn [map fst nodup_b]. rewrite (IH H2), andb_true_r. apply negb_true_iff in H1. apply negb_true_iff.
    rewrite keys_sset, H1, orb_false_r. rewrite bytes_eqb_sym. exact E.
Qed.

Lemma nodup_left m ch : nodup_b (map fst m) = true -> nodup_b (map fst (left_apply m ch)) = true.
Proof. destruct ch as [p a]. unfold left_apply. destruct (sfile m p). apply nodup_sset. Qed.
Lemma nodup_right m ch : nodup_b (map fst m) = true -> nodup_b (map fst (right_apply m ch)) = true.
Proof. destruct ch as [p a]. unfold right_apply. destruct (sfile m p). destruct a; apply nodup_sset. Qed.

Lemma nodup_fold (f : smap -> path * action -> smap) l :
  (forall m ch, nodup_b (map fst m) = true -> nodup_b (map fst (f m ch)) = true) ->
  forall m, nodup_b (map fst m) = true -> nodup_b (map fst (fold_left f l m)) = true.
Proof. intros Hf. induction l as [|x l IH]; intros m H; [exact H|]. cbn [fold_left]. apply IH. now apply Hf. Qed.

Lemma nodup_keys s : nodup_b (status_keys s) = true.
Proof.
  unfold status_keys, status_map. cbv zeta.
  apply nodup_fold; [exact nodup_right|]. apply nodup_fold; [exact nodup_left|]. reflexivity.
Qed.

Lemma nodup_filter (g : path -> bool) l : nodup_b l = true -> nodup_b (filter g l) = true.
Proof.
  induction l as [|x l IH]; intros H; [reflexivity|]. cbn [nodup_b] in H. apply andb_true_iff in H as [H1 H2].
  cbn [filter]. destruct (g x); [|now apply IH]. cbn [nodup_b]. rewrite (IH H2), andb_true_r.
  apply negb_true_iff in H1. apply negb_true_iff. rewrite mem_path_filter, H1. apply andb_false_r.
Qed.

(* the keys of the Status map are the paths with a change on either side *)
Lemma mem_keys s q : mem_path q (status_keys s) = is_some (left_change s q) || is_some (right_change s q).
Proof.
  unfold status_keys. rewrite <- sget_keys, status_map_get. now destruct (left_change s q), (right_change s q).
Qed.

Lemma change_key s q : is_some (right_change s q) = true -> mem_path q (status_keys s) = true.
Proof. rewrite mem_keys. intros ->. apply orb_true_r. Qed.

(* a key of the Status map is an acceptable name *)
Lemma key_name_ok s q : add_guard s = true -> mem_path q (status_keys s) = true -> name_ok s q = true.
Proof.
  intros G K. rewrite mem_keys, right_change_cases in K. unfold name_ok.
  destruct (find_i (st_index s) q) as [e|] eqn:Ei; [destruct (find_w (st_wt s) q); reflexivity|].
  destruct (find_w (st_wt s) q) as [f|] eqn:Ew; [|now rewrite orb_false_r in K].
  destruct (add_guard_parts s G) as (_ & _ & _ & G4).
  specialize (G4 f (find_w_in _ _ _ Ew)). rewrite (find_w_path _ _ _ Ew), Ei in G4.
  apply eqb_prop in G4. rewrite <- G4.
  destruct (wf_ignored f); cbn in *; [now rewrite orb_false_r in K|reflexivity].
Qed.

Lemma add_all_eq s : add_guard s = true -> res_equiv (g_add_all s) (s_add_all s).
Proof.
  intros G. unfold g_add_all, s_add_all. apply add_scope_eq; [exact G|apply nodup_keys| |].
  - intros q M. split; [reflexivity|now apply key_name_ok].
  - intros q _ R. now apply change_key.
Qed.

Lemma no_link_below s p :
  existsb (fun f => under (wf_path f) p) (st_wt s) = false ->
  existsb (fun f => is_link (wf_mode f) && under (wf_path f) p) (st_wt s) = false.
Proof.
  rewrite !existsb_false. intros H f Hf. rewrite (H f Hf). apply andb_false_r.
Qed.

(* p is a directory of the worktree: not a file, not below a file, not an index entry *)
Definition add_dir_guard (s : state) (p : path) : bool :=
  add_guard s && is_dir_wt s p && negb (has_file s p) &&
  negb (existsb (fun f => under (wf_path f) p) (st_wt s)) && negb (is_some (find_i (st_index s) p)).

Lemma add_dir_eq s p : add_dir_guard s p = true -> res_equiv (g_add s p) (s_add s p).
Proof.
  unfold add_dir_guard. rewrite !andb_true_iff. intros ((((G1 & G2) & G3) & G4) & G5).
  apply negb_true_iff in G4, G5.
  unfold g_add. rewrite G2, G3. cbn [andb].
  assert (Ew : find_w (st_wt s) p = None).
  { unfold has_file in G3. destruct (find_w (st_wt s) p); [discriminate|reflexivity]. }
  assert (Ei : find_i (st_index s) p = None) by (destruct (find_i (st_index s) p); [discriminate|reflexivity]).
  assert (ES : s_add s p = ROk (with_index s (git_add_scope s (fun q => under p q || bytes_eqb p q)))).
  { unfold s_add. rewrite Ew.
    rewrite (no_link_below s p G4), G2. reflexivity. }
  rewrite ES. apply add_scope_eq; [exact G1|apply nodup_filter, nodup_keys| |].
  - intros q M. rewrite mem_path_filter in M. apply andb_true_iff in M as [M1 M2].
    split; [now rewrite M1|now apply key_name_ok].
  - intros q Hs R. rewrite mem_path_filter. apply orb_true_iff in Hs as [Hs|Hs].
    + rewrite Hs. now apply change_key.
    + apply bytes_eqb_eq in Hs. subst q. rewrite right_change_cases, Ei, Ew in R. discriminate.
Qed.

Definition add_file_guard (s : state) (p : path) : bool :=
  add_guard s && name_ok s p &&
  match find_w (st_wt s) p with Some f => negb (git_skips s f) | None => false end.

Lemma known_idx s : known_paths s (st_index s).
Proof. intros e He. left. exists e. split; [exact He|reflexivity]. Qed.

Lemma add_file_eq s p : add_file_guard s p = true -> res_equiv (g_add s p) (s_add s p).
Proof.
  unfold add_file_guard. rewrite !andb_true_iff. intros ((G1 & G2) & G3).
  destruct (find_w (st_wt s) p) as [f|] eqn:Ew; [|discriminate]. apply negb_true_iff in G3.
  destruct (add_guard_parts s G1) as (_ & Gc & Gn & _).
  unfold g_add, has_file. rewrite Ew. rewrite andb_false_r.
  unfold s_add. rewrite Ew, G3.
  assert (Hg : res_equiv (add_names s [p]) (ROk (with_index s (git_add_scope s (bytes_eqb p))))).
  { apply add_scope_eq; [exact G1|reflexivity| |].
    - intros q M. cbn [mem_path] in M. rewrite orb_false_r in M. apply bytes_eqb_eq in M. subst q.
      split; [apply bytes_eqb_refl|exact G2].
    - intros q Hs _. cbn [mem_path]. now rewrite Hs. }
  destruct (add_names s [p]) as [s1|s1]; [|exact Hg].
  unfold res_equiv, with_index in *. cbn [st_index st_wt st_head st_fmt st_filemode st_idxtime] in *.
  destruct Hg as (Hi & Hr). split; [|exact Hr].
  intros q. rewrite (Hi q). f_equal.
  rewrite git_scope_find by assumption.
  rewrite find_i_set. cbn [git_entry ie_path].
  pose proof (find_w_path _ _ _ Ew) as Pf. rewrite Pf.
  pose proof (drop_conflicts_id s (st_index s) f Gc (find_w_in _ _ _ Ew) (known_idx s)) as Dc.
  rewrite Pf in Dc. rewrite Dc.
  destruct (bytes_eqb p q) eqn:E; [|reflexivity].
  apply bytes_eqb_eq in E. subst q. unfold git_at. now rewrite Ew, G3.
Qed.

(* a tracked path whose file is gone: the entry is removed, as git add does *)
Lemma add_deleted_eq s p e :
  noconf s = true -> find_i (st_index s) p = Some e -> find_w (st_wt s) p = None ->
  g_add s p = s_add s p.
Proof.
  intros N Ei Ew.
  destruct (noconf_entry s p e N Ei) as [B D].
  unfold g_add, s_add. rewrite D, Ew. cbn [andb].
  rewrite (no_link_below s p B), Ei. cbn [IndexOps.is_some].
  unfold add_names. cbv zeta. cbn [existsb fold_left].
  assert (A : add_file1 s (status_map s) p = ADel).
  { unfold add_file1. fold (wcode s p). rewrite wcode_unmod, right_change_cases, Ei, Ew, B, D.
    destruct (left_change s p); reflexivity. }
  rewrite A. reflexivity.
Qed.
