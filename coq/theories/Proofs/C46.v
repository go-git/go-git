(* Proofs/C46.v — the blame attribution function of Model/Blame.v, for every history (DAG,
   parents first) and every consistent line-diff oracle: one propagation step is sound, the
   function is total. *)
From Coq Require Import List NArith Bool Arith Lia.
From GoGit Require Import Base.Out Model.Blame.
Import ListNotations.

Lemma line_eqb_eq a b : line_eqb a b = true <-> a = b.
Proof.
  revert b; induction a as [|x a IH]; intros [|y b]; cbn; split; intros H; try congruence; try discriminate.
  - apply andb_true_iff in H as [H1 H2]. apply N.eqb_eq in H1. apply IH in H2. congruence.
  - inversion H; subst. apply andb_true_iff; split; [apply N.eqb_refl | now apply IH].
Qed.

Lemma lines_eqb_eq a b : lines_eqb a b = true <-> a = b.
Proof.
  revert b; induction a as [|x a IH]; intros [|y b]; cbn; split; intros H; try congruence; try discriminate.
  - apply andb_true_iff in H as [H1 H2]. apply line_eqb_eq in H1. apply IH in H2. congruence.
  - inversion H; subst. apply andb_true_iff; split; [now apply line_eqb_eq | now apply IH].
Qed.

Lemma nth_error_skipn {A} (l : list A) n k : nth_error (skipn n l) k = nth_error l (n + k).
Proof.
  revert l; induction n as [|n IH]; intros l; cbn; [reflexivity|].
  destruct l; cbn; [now destruct k | apply IH].
Qed.

Lemma nth_error_firstn {A} (l : list A) n k : k < n -> nth_error (firstn n l) k = nth_error l k.
Proof.
  revert l k; induction n as [|n IH]; intros l k Hk; [lia|].
  destruct l; cbn; [now destruct k|]. destruct k; cbn; [reflexivity|]. apply IH; lia.
Qed.

Lemma combine_seq_nth {A} (l : list A) s c x :
  nth_error l c = Some x -> In (s + c, x) (combine (seq s (length l)) l).
Proof.
  revert s c; induction l as [|y l IH]; intros s c H; [now destruct c|].
  destruct c; cbn in *.
  - inversion H; subst. left. f_equal. lia.
  - right. replace (s + S c) with (S s + c) by lia. now apply IH.
Qed.

(* fp and fc are what is left of the parent's and the child's version after
   prev and cur lines: the hunk walk answers only inside an Equal hunk, where
   both hold the same lines *)
Lemma map_line_sound s : forall fp fc prev cur i j,
  shape_ok s fp fc = true -> cur <= i -> map_line s prev cur i = Some j ->
  exists i' j', i = cur + i' /\ j = prev + j' /\ i' < length fc /\ nth_error fp j' = nth_error fc i'.
Proof.
  induction s as [|[o n] s IH]; intros fp fc prev cur i j Hok Hle Hm; cbn [map_line] in Hm; [discriminate|].
  destruct o; cbn [shape_ok] in Hok.
  - repeat (apply andb_true_iff in Hok as [Hok ?]).
    apply Nat.leb_le in Hok. apply Nat.leb_le in H1. apply lines_eqb_eq in H0.
    destruct (Nat.ltb i (cur + n)) eqn:Hlt.
    + apply Nat.ltb_lt in Hlt. injection Hm as <-.
      exists (i - cur), (i - cur). repeat split; try lia.
      rewrite <- (nth_error_firstn fp n) by lia. rewrite <- (nth_error_firstn fc n) by lia. now rewrite H0.
    + apply Nat.ltb_ge in Hlt.
      destruct (IH _ _ _ _ _ _ H Hlt Hm) as (i' & j' & Hi & Hj & Hlen & Hnth).
      exists (n + i'), (n + j'). rewrite skipn_length in Hlen.
      repeat split; try lia. rewrite !nth_error_skipn in Hnth. exact Hnth.
  - apply andb_true_iff in Hok as [Hn Hok]. apply Nat.leb_le in Hn.
    destruct (Nat.ltb i (cur + n)) eqn:Hlt; [discriminate|]. apply Nat.ltb_ge in Hlt.
    destruct (IH _ _ _ _ _ _ Hok Hlt Hm) as (i' & j' & Hi & Hj & Hlen & Hnth).
    exists (n + i'), j'. rewrite skipn_length in Hlen.
    repeat split; try lia. rewrite nth_error_skipn in Hnth. exact Hnth.
  - apply andb_true_iff in Hok as [Hn Hok]. apply Nat.leb_le in Hn.
    destruct (IH _ _ _ _ _ _ Hok Hle Hm) as (i' & j' & Hi & Hj & Hlen & Hnth).
    exists i', (n + j'). repeat split; try lia. rewrite nth_error_skipn in Hnth. exact Hnth.
Qed.

Lemma dag_ok_parent h c k p :
  dag_ok h = true -> get_commit h c = Some k -> In p k.(c_parents) -> p < c.
Proof.
  unfold dag_ok, get_commit. intros Hd Hc Hp.
  rewrite forallb_forall in Hd. specialize (Hd (0 + c, k) (combine_seq_nth h 0 c k Hc)). cbn in Hd.
  rewrite forallb_forall in Hd. apply Nat.ltb_lt. now apply Hd.
Qed.

Lemma oracle_ok_edge h dt c k fc p fp :
  oracle_ok h dt = true -> get_commit h c = Some k -> k.(c_file) = Some fc ->
  In p k.(c_parents) -> file_of h p = Some fp ->
  lines_eqb fp fc = true \/ shape_ok (get_shape dt p c) fp fc = true.
Proof.
  unfold oracle_ok, get_commit. intros Ho Hc Hf Hp Hfp.
  rewrite forallb_forall in Ho. specialize (Ho (0 + c, k) (combine_seq_nth h 0 c k Hc)). cbn in Ho.
  rewrite Hf in Ho. rewrite forallb_forall in Ho. specialize (Ho p Hp). rewrite Hfp in Ho.
  now apply orb_true_iff in Ho.
Qed.

(* a parent that takes the line holds the same line at the returned index *)
Lemma to_parent_sound h dt c k fc i p j :
  oracle_ok h dt = true -> get_commit h c = Some k -> k.(c_file) = Some fc -> In p k.(c_parents) ->
  i < length fc ->
  to_parent h dt c fc i p = Some j ->
  exists fp, file_of h p = Some fp /\ j < length fp /\ nth_error fp j = nth_error fc i.
Proof.
  intros Ho Hc Hf Hp Hi Ht. unfold to_parent in Ht.
  destruct (file_of h p) as [fp|] eqn:Hfp; [|discriminate].
  exists fp. split; [reflexivity|].
  destruct (lines_eqb fp fc) eqn:He.
  - apply lines_eqb_eq in He. inversion Ht; subst. auto.
  - destruct (oracle_ok_edge h dt c k fc p fp Ho Hc Hf Hp Hfp) as [H|H]; [congruence|].
    destruct (map_line_sound _ _ _ _ _ _ _ H (Nat.le_0_l i) Ht) as (i' & j' & Hi' & Hj' & Hl & Hn).
    cbn in Hi', Hj'. subst i' j'. split; [|exact Hn].
    apply nth_error_Some. rewrite Hn. apply nth_error_Some. exact Hi.
Qed.

Lemma first_taker_some h dt c fc i ps p j :
  first_taker h dt c fc i ps = Some (p, j) -> In p ps /\ to_parent h dt c fc i p = Some j.
Proof.
  induction ps as [|q ps IH]; cbn; [discriminate|].
  destruct (to_parent h dt c fc i q) eqn:Hq.
  - intros H; inversion H; subst. auto.
  - intros H. destruct (IH H). auto.
Qed.

Lemma first_taker_none h dt c fc i ps :
  first_taker h dt c fc i ps = None <-> forall p, In p ps -> to_parent h dt c fc i p = None.
Proof.
  induction ps as [|q ps IH]; cbn.
  - split; [intros _ p [] | reflexivity].
  - destruct (to_parent h dt c fc i q) eqn:Hq.
    + split; [discriminate|]. intros H. specialize (H q (or_introl eq_refl)). congruence.
    + rewrite IH. split.
      * intros H p [<-|Hp]; auto.
      * intros H p Hp. apply H. now right.
Qed.

Lemma identical_parent_some h fc ps p :
  identical_parent h fc ps = Some p -> In p ps /\ exists fp, file_of h p = Some fp /\ lines_eqb fp fc = true.
Proof.
  induction ps as [|q ps IH]; cbn; [discriminate|].
  destruct (file_of h q) as [fq|] eqn:Hq.
  - destruct (lines_eqb fq fc) eqn:He.
    + intros H; inversion H; subst. split; [now left|]. eauto.
    + intros H. destruct (IH H) as [Hi Hx]. auto.
  - intros H. destruct (IH H) as [Hi Hx]. auto.
Qed.

Lemma taker_some h dt c fc i ps p j :
  taker h dt c fc i ps = Some (p, j) -> In p ps /\ to_parent h dt c fc i p = Some j.
Proof.
  unfold taker. destruct (identical_parent h fc ps) as [q|] eqn:Hq.
  - intros H; inversion H; subst. destruct (identical_parent_some _ _ _ _ Hq) as (Hi & fp & Hf & He).
    split; [exact Hi|]. unfold to_parent. now rewrite Hf, He.
  - apply first_taker_some.
Qed.

Lemma taker_none h dt c fc i ps :
  taker h dt c fc i ps = None -> forall p, In p ps -> to_parent h dt c fc i p = None.
Proof.
  unfold taker. destruct (identical_parent h fc ps); [discriminate|]. apply first_taker_none.
Qed.

Lemma file_of_commit h c fc : file_of h c = Some fc -> exists k, get_commit h c = Some k /\ k.(c_file) = Some fc.
Proof. unfold file_of. destruct (get_commit h c) as [k|]; [|discriminate]. intros H. now exists k. Qed.

Lemma blame_pos_total h dt :
  dag_ok h = true -> oracle_ok h dt = true ->
  forall fuel c i fc, c < fuel -> file_of h c = Some fc -> i < length fc ->
  exists k j, blame_pos fuel h dt c i = Some (k, j).
Proof.
  intros Hd Ho. induction fuel as [|f IH]; intros c i fc Hc Hf Hi; [lia|].
  destruct (file_of_commit _ _ _ Hf) as (k & Hk & Hkf).
  cbn [blame_pos]. rewrite Hk, Hkf. apply Nat.ltb_lt in Hi as Hi'. rewrite Hi'.
  destruct (taker h dt c fc i (c_parents k)) as [[p j]|] eqn:Hft.
  - apply taker_some in Hft as [Hp Ht].
    destruct (to_parent_sound _ _ _ _ _ _ _ _ Ho Hk Hkf Hp Hi Ht) as (fp & Hfp & Hj & _).
    pose proof (dag_ok_parent _ _ _ _ Hd Hk Hp). apply (IH p j fp); auto; lia.
  - eauto.
Qed.

Lemma blame_length h dt head fc : file_of h head = Some fc -> length (blame h dt head) = length fc.
Proof. intros H. unfold blame. rewrite H. now rewrite map_length, seq_length. Qed.

Lemma blame_nth h dt head fc i :
  file_of h head = Some fc -> i < length fc ->
  nth_error (blame h dt head) i = Some (option_map fst (blame_pos (S head) h dt head i)).
Proof.
  intros H Hi. unfold blame. rewrite H.
  rewrite nth_error_map. rewrite (nth_error_nth' _ 0) by now rewrite seq_length.
  cbn [option_map]. now rewrite seq_nth.
Qed.
