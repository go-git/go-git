(* Proofs/C02TagGit.v — tags: the fields go-git's Tag.Decode yields are the
   ones `git for-each-ref` reports (Spec/GitFields.git_tag_fields): object,
   type, tag always; tagger name / e-mail / raw date under the boolean clauses
   of Spec/ObjWf.tag_agree_of; the contents (message ++ signature, leading
   LFs skipped) always. *)
From Coq Require Import String.
From Coq Require Import List NArith ZArith Bool Lia ZifyBool ZifyNat ZifyN.
From GoGit Require Import Base.Out Model.ObjLines Model.Ident Model.Commit Model.Tag Spec.GitFields Spec.ObjWf
     Proofs.ObjLinesFacts Proofs.C02Ident Proofs.C03CommitSig Proofs.C02Lines Proofs.C02IdentGit
     Proofs.C03TagSig Proofs.C02Commit Proofs.C02Tag.
Import ListNotations.
Local Open Scope N_scope.

(* what go-git's tagger fields print as, in git's raw date format; "" for the zero time *)
Definition go_date_t (i : ident) : bytes :=
  if ((id_ts i =? zero_ts) && (id_tz i =? 0))%Z then []
  else print_dec (Z.to_N (id_ts i)) ++ [SPC] ++ fmt_zone (id_tz i).

Lemma tg_count_zero c b : has_byte c b = false -> count_byte c b = 0%nat.
Proof. apply count_zero. Qed.

Lemma tg_nth_skipn (d c : N) : forall n l, nth n l d = c -> c <> d -> skipn n l = c :: skipn (S n) l.
Proof.
  induction n as [|n IH]; intros [|x l] H Hn; cbn [nth] in H; try congruence.
  - cbn [skipn]. now subst.
  - cbn [skipn]. now apply IH.
Qed.

(* a projection of the tag that the setters of the scanner leave alone is kept by the scan; the tagger is
   such a projection once the scan has left its first state, to which it never returns *)
Section Keeps.
  Context {A} (f : tag -> A).
  Hypothesis Hs : forall t v, f (set_tsig256 t v) = f t.
  Hypothesis Hm : forall t v, f (set_tmsg t v) = f t.

  Lemma on_theaders_keeps t l : f (fst (on_theaders t l)) = f t /\ snd (on_theaders t l) <> TTagger.
  Proof.
    unfold on_theaders. destruct (is_blank l); [now split|]. destruct (split_header l) as [key data].
    destruct (beqb key k_gpgsig256); (split; [|discriminate]); [apply Hs|reflexivity].
  Qed.

  Lemma tstep_keeps st t l : (st = TTagger -> forall t v, f (set_ttagger t v) = f t) ->
    f (fst (tstep st t l)) = f t /\ snd (tstep st t l) <> TTagger.
  Proof.
    intros Ht. pose proof (on_theaders_keeps t l) as O. destruct st; cbn [tstep]; [|exact O| |].
    - destruct (is_blank l); [now split|]. destruct (split_header l) as [key data].
      destruct (beqb key k_tagger); [|exact O]. split; [now apply Ht|discriminate].
    - destruct (first_is SPC l); [|exact O]. split; [apply Hs|discriminate].
    - split; [apply Hm|discriminate].
  Qed.

  Lemma trun_keeps : forall ls st t, (st = TTagger -> forall t v, f (set_ttagger t v) = f t) -> f (trun st t ls) = f t.
  Proof.
    induction ls as [|l r IH]; intros st t Ht; [reflexivity|]. cbn [trun].
    destruct (tstep_keeps st t l Ht) as [K1 K2]. destruct (tstep st t l) as [t' st']. cbn [fst snd] in K1, K2.
    destruct (ends_nl l); [|exact K1]. rewrite IH; [exact K1|]. intros E. contradiction.
  Qed.
End Keeps.

(* the tagger is read from the first line after the tag line, or not at all *)
Lemma trun_tagger t l r :
  t_tagger (trun TTagger t (l :: r)) =
  if is_blank l then t_tagger t else if key_is k_tagger l then decode_ident (value_of l) else t_tagger t.
Proof.
  cbn [trun tstep]. unfold key_is, value_of. destruct (is_blank l).
  - destruct (ends_nl l); [|reflexivity]. now rewrite (trun_keeps t_tagger).
  - destruct (split_header l) as [key data]. cbn [fst snd]. destruct (beqb key k_tagger).
    + destruct (ends_nl l); [|reflexivity]. now rewrite (trun_keeps t_tagger).
    + destruct (on_theaders_keeps t_tagger (fun _ _ => eq_refl) t l) as [K1 K2].
      destruct (on_theaders t l) as [t' st']. cbn [fst snd] in K1, K2.
      destruct (ends_nl l); [|exact K1]. now rewrite (trun_keeps t_tagger).
Qed.

Lemma tg_split_sig_keeps t :
  t_target (split_tag_sig t) = t_target t /\ t_type (split_tag_sig t) = t_type t /\
  t_name (split_tag_sig t) = t_name t /\ t_tagger (split_tag_sig t) = t_tagger t /\
  t_msg (split_tag_sig t) ++ t_sig (split_tag_sig t) = t_msg t ++ (match parse_signed_bytes (t_msg t) with Some _ => [] | None => t_sig t end).
Proof.
  unfold split_tag_sig. destruct (parse_signed_bytes (t_msg t)) as [sm|]; cbn [t_target t_type t_name t_tagger t_msg t_sig].
  - rewrite firstn_skipn, app_nil_r. repeat split.
  - repeat split.
Qed.

(* contents: after the first "\n\n" = after the first blank line *)
Lemma tg_contents_skip p b : no_lf p = true -> git_contents (p ++ b) = git_contents b.
Proof.
  induction p as [|c p IH]; intros H; [reflexivity|]. apply no_lf_uncons in H as [H1 H2].
  cbn [app git_contents]. rewrite H1. now apply IH.
Qed.

Lemma tg_blank_eq l : line_ok l -> first_is LF l = true -> l = [LF].
Proof.
  intros Hl H. rewrite (first_is_lf_blank _ Hl) in H. destruct l as [|x [|y l]]; try discriminate.
  cbn in H. apply N.eqb_eq in H. now subst.
Qed.

Definition tg_head_nonblank (ls : list bytes) : Prop :=
  match ls with l :: _ => first_is LF l = false | [] => True end.

Lemma tg_contents_lines : forall ls, Forall line_ok ls -> all_but_last_nl ls = true -> tg_head_nonblank ls ->
  git_contents (List.concat ls) = drop_while (N.eqb LF) (List.concat (body_lines ls)).
Proof.
  induction ls as [|l r IH]; intros Hok Ha Hh; [reflexivity|].
  inversion Hok as [|x0 y0 Hl Hr]. subst x0 y0. destruct (abl_tail _ _ Ha) as [Har Hen].
  cbn [tg_head_nonblank] in Hh. cbn [body_lines List.concat]. rewrite Hh.
  destruct Hl as [Hne [p [Hp [-> | ->]]]].
  - rewrite <- app_assoc. rewrite (tg_contents_skip _ _ Hp). cbn [app git_contents]. rewrite N.eqb_refl. cbn [andb].
    destruct r as [|l2 r'].
    + reflexivity.
    + inversion Hr as [|x0 y0 Hl2 Hr']. subst x0 y0.
      assert (F : first_is LF (List.concat (l2 :: r')) = first_is LF l2)
        by (cbn [List.concat]; apply first_is_app_ne, Hl2).
      rewrite F. destruct (first_is LF l2) eqn:E2.
      * pose proof (tg_blank_eq _ Hl2 E2). subst l2.
        change (body_lines ([LF] :: r')) with r'. change (List.concat ([LF] :: r')) with (LF :: List.concat r').
        cbn [drop_while]. now rewrite N.eqb_refl.
      * exact (IH Hr Har E2).
  - rewrite (abl_eof _ _ Ha (ends_nl_no_lf _ Hp)). cbn [List.concat body_lines].
    rewrite <- (app_nil_r p) at 1. now rewrite app_nil_r, (tg_contents_skip _ _ Hp).
Qed.

(* ref-filter.c find_wholine("tagger") *)
Definition tg_who (ls : list bytes) : bytes :=
  match ls with [] => [] | n :: _ => if first_is LF n then [] else git_find_wholine k_tagger ls end.

Lemma tg_wholine_none : forall ls, tg_head_nonblank ls -> existsb (starts_with (str "tagger ")) (header_of ls) = false ->
  git_find_wholine k_tagger ls = [].
Proof.
  induction ls as [|l r IH]; intros Hh He; [reflexivity|]. cbn [tg_head_nonblank] in Hh.
  cbn [header_of] in He. rewrite Hh in He. cbn [existsb] in He. apply orb_false_iff in He as [E1 E2].
  cbn [git_find_wholine]. change (k_tagger ++ [SPC]) with (str "tagger "). rewrite E1.
  destruct (negb (ends_nl l)); [reflexivity|]. destruct r as [|n r']; [reflexivity|].
  destruct (first_is LF n) eqn:En; [reflexivity|]. apply IH; [exact En|exact E2].
Qed.

Lemma tg_wholine_skip l r : starts_with (str "tagger ") l = false -> ends_nl l = true -> git_find_wholine k_tagger (l :: r) = tg_who r.
Proof.
  intros H1 H2. cbn [git_find_wholine]. change (k_tagger ++ [SPC]) with (str "tagger "). now rewrite H1, H2.
Qed.

Lemma tg_who_cons l r : first_is LF l = false -> tg_who (l :: r) = git_find_wholine k_tagger (l :: r).
Proof. intros H. cbn [tg_who]. now rewrite H. Qed.

(* the shape person_ok_tag describes: name SP '<' mail '>' tail *)
Lemma tg_person_shape v : person_ok_tag v = true ->
  exists x m a, v = x ++ SPC :: LT :: m ++ GT :: a /\
    has_byte LT x = false /\ has_byte GT x = false /\ has_byte LT m = false /\ has_byte GT m = false /\
    has_byte LT a = false /\ has_byte GT a = false /\
    first_is SPC x = false /\ last_is SPC x = false.
Proof.
  unfold person_ok_tag. intros H. apply andb_true_iff in H as [H Hsp]. apply andb_true_iff in H as [Hp Hc].
  destruct (person_shape _ Hp) as (x0 & m & a & -> & Hlx & Hlm & Hgm & Hla & Hga & Hn).
  rewrite (index_of_first _ _ _ Hlx) in Hsp.
  (* the name part ends with the blank before '<' *)
  destruct (exists_last (l := x0)) as [x [c ->]]; [now destruct x0|].
  rewrite app_length, Nat.add_1_r, <- app_assoc in Hsp. cbn [app] in Hsp. rewrite nth_app_exact, firstn_app_exact in Hsp.
  apply andb_true_iff in Hsp as [Hc0 Hlast]. apply N.eqb_eq in Hc0. subst c. apply negb_true_iff in Hlast.
  rewrite has_byte_app in Hlx. apply orb_false_iff in Hlx as [Hlx _].
  (* the single '>' of the line is the one after the mail *)
  apply Nat.eqb_eq in Hc. rewrite !count_app in Hc.
  change (count_byte GT (LT :: m ++ GT :: a)) with (count_byte GT (m ++ GT :: a)) in Hc.
  change (GT :: a) with ([GT] ++ a) in Hc. rewrite !count_app, (count_zero _ _ Hgm), (count_zero _ _ Hga) in Hc.
  assert (Hgx : has_byte GT x = false) by (apply has_of_count; clear - Hc; cbn in Hc; lia).
  exists x, m, a. rewrite <- app_assoc. repeat split; try assumption.
  unfold name_ok in Hn. rewrite trim_right_snoc, (trim_right_id _ _ Hlast) in Hn.
  destruct Hn as [->|[Hf _]]; [reflexivity|]. now destruct x.
Qed.

(* git (ref-filter.c copy_name / copy_email / grab_date) on that shape *)
Lemma tg_copy_name x y : no_lf x = true -> has_byte LT x = false -> copy_name_aux (x ++ SPC :: LT :: y) = Some x.
Proof.
  induction x as [|c x IH]; intros Hlf Hlt; [reflexivity|].
  apply no_lf_uncons in Hlf as [H1 H2].
  apply has_byte_cons_false in Hlt as [_ H4].
  cbn [app copy_name_aux]. rewrite H1.
  assert (F : first_is 60 (x ++ SPC :: LT :: y) = false).
  { destruct x as [|d x']; [reflexivity|]. now apply has_byte_cons_false in H4 as [H5 _]. }
  rewrite F, andb_false_r, (IH H2 H4). reflexivity.
Qed.

Lemma tg_copy_email x m y : has_byte LT x = false -> has_byte GT m = false ->
  git_copy_email (x ++ LT :: m ++ GT :: y) = LT :: m ++ [GT].
Proof.
  intros Hx Hm. unfold git_copy_email. change 60 with LT. change 62 with GT.
  rewrite (index_of_first _ _ _ Hx), skipn_app_exact.
  assert (Hm' : has_byte GT (LT :: m) = false) by (rewrite has_byte_cons, Hm; reflexivity).
  change (LT :: m ++ GT :: y) with ((LT :: m) ++ GT :: y). rewrite (index_of_first _ _ _ Hm').
  exact (firstn_cons_exact (LT :: m) GT y).
Qed.

Lemma tg_find_gt_sp y z : has_byte GT y = false -> find_gt_sp (y ++ GT :: SPC :: z) = Some z.
Proof.
  induction y as [|c y IH]; intros H; [reflexivity|]. apply has_byte_cons_false in H as [H1 H2].
  cbn [app find_gt_sp]. change 62 with GT. rewrite H1. now apply IH.
Qed.

(* grab_date: the date is looked for after the first "> " *)
Lemma tg_date_matches nm em y a rest : has_byte GT y = false -> date_canon a = true -> ends_digits rest ->
  exists t, a = SPC :: t /\ (1 < List.length a)%nat /\
    git_grab_date (y ++ GT :: a ++ rest) = Some (go_date_t (decode_time nm em t)).
Proof.
  intros Hy H Hrest0. destruct (date_canon_go nm em a H) as (ds & s & h1 & h2 & m1 & m2 & rest1 & Hi). cbv zeta in Hi.
  destruct Hi as (-> & Hne & Hds & Hs & Hzs & Hrest & Hv & Hz & Eg). cbn [tl] in Eg.
  eexists. split; [reflexivity|]. split; [destruct ds; [contradiction|cbn [List.length app]; lia]|].
  change (go_date_t ?i) with (go_date i). rewrite Eg.
  unfold git_grab_date, git_show_date. cbn [app]. rewrite (tg_find_gt_sp _ _ Hy). cbv zeta. rewrite <- app_assoc. cbn [app].
  rewrite (take_while_app is_digit ds (SPC :: s :: h1 :: h2 :: m1 :: m2 :: rest1 ++ rest) Hds eq_refl).
  destruct ds as [|d0 ds0] eqn:Eds; [contradiction|]. cbv beta iota. rewrite <- Eds in *. clear Eds d0 ds0.
  rewrite skipn_app_exact. cbv beta iota.
  change (h1 :: h2 :: m1 :: m2 :: rest1 ++ rest) with ([h1; h2; m1; m2] ++ rest1 ++ rest).
  rewrite (take_while_app is_digit [h1; h2; m1; m2] (rest1 ++ rest) Hzs) by (destruct rest1; [exact Hrest0|exact Hrest]).
  rewrite N.eqb_refl, Hs. cbn [andb]. cbv beta iota.
  replace (2 ^ 63 <=? dval ds) with false by (clear - Hv; lia).
  change (Nat.ltb 9 (List.length [h1; h2; m1; m2])) with false. cbn [orb]. cbv beta iota.
  do 4 f_equal. symmetry. apply tz_no_clamp. clear - Hz. destruct (s =? 45); lia.
Qed.

(* one tagger value: v is the text after "tagger " up to the LF, rest what follows in the buffer *)
Lemma tg_ident_tag v rest : no_lf v = true -> ends_digits rest ->
  person_ok_tag v = true ->
  v <> [] /\
  git_copy_name (v ++ rest) = id_name (decode_ident v) /\
  git_copy_email (v ++ rest) = LT :: id_email (decode_ident v) ++ [GT] /\
  (date_ok_tag v = true -> git_grab_date (v ++ rest) = Some (go_date_t (decode_ident v))).
Proof.
  intros Hlf Hrest Hp.
  destruct (tg_person_shape _ Hp) as [x [m [a [Ev [Hlx [Hgx [Hlm [Hgm [Hla [Hga [Hfx Hlastx]]]]]]]]]]].
  pose proof (decode_ident_trimmed x m a Hlm Hla Hga Hfx Hlastx) as D. rewrite <- Ev in D.
  assert (Hlfx : no_lf x = true) by (rewrite Ev, no_lf_app in Hlf; now apply andb_true_iff in Hlf).
  assert (EW : v ++ rest = x ++ SPC :: LT :: m ++ GT :: a ++ rest).
  { rewrite Ev. rewrite <- app_assoc. cbn [app]. rewrite <- app_assoc. reflexivity. }
  assert (Hne : id_name (decode_ident v) = x /\ id_email (decode_ident v) = m).
  { rewrite D. destruct (Nat.ltb 1 (List.length a)); [apply decode_time_ne|now split]. }
  destruct Hne as [Hn He].
  split; [rewrite Ev; now destruct x|].
  split; [|split].
  - rewrite EW, Hn. unfold git_copy_name. now rewrite (tg_copy_name _ _ Hlfx Hlx).
  - rewrite EW, He.
    replace (x ++ SPC :: LT :: m ++ GT :: a ++ rest) with ((x ++ [SPC]) ++ LT :: m ++ GT :: a ++ rest)
      by (now rewrite <- app_assoc).
    apply tg_copy_email; [|exact Hgm]. rewrite has_byte_app, Hlx. reflexivity.
  - intros Hd. unfold date_ok_tag in Hd.
    assert (Ev' : v = (x ++ SPC :: LT :: m) ++ GT :: a) by (rewrite Ev; now rewrite <- app_assoc).
    rewrite Ev', (last_index_of_unique _ _ _ Hga), skipn_cons_exact in Hd.
    assert (Hgy : has_byte GT (x ++ SPC :: LT :: m) = false) by (rewrite has_byte_app, !has_byte_cons, Hgx, Hgm; reflexivity).
    destruct (tg_date_matches x m _ a rest Hgy Hd Hrest) as [t [Ea [Hlen G]]].
    apply Nat.ltb_lt in Hlen. rewrite Hlen in D. rewrite D, EW. clear D. subst a. cbn [tl].
    now rewrite <- app_assoc in G.
Qed.

(* the tagger go-git decoded against git's tagger line [w]; the date under the clause [date] only *)
Definition tg_rel (i : ident) (w : bytes) (date : bool) : Prop :=
  (id_name i = git_copy_name w /\
   (git_copy_email w = LT :: id_email i ++ [GT] \/ (git_copy_email w = [] /\ id_email i = []))) /\
  (date = true -> match w with [] => Some [] | _ :: _ => git_grab_date w end = Some (go_date_t i)).

Lemma tg_rel_zero date : tg_rel ident_zero [] date.
Proof. split; [split; [reflexivity|right; split; reflexivity]|reflexivity]. Qed.

(* the lines after "tag ...": go-git's scanner and git's find_wholine *)
Lemma tg_tagger_lines raw l1 l2 l3 r3 t0 : split_lines raw = l1 :: l2 :: l3 :: r3 ->
  first_is LF l1 = false -> first_is LF l2 = false -> first_is LF l3 = false ->
  Forall line_ok r3 -> all_but_last_nl r3 = true -> t_tagger t0 = ident_zero ->
  let a := tag_agree_of raw in
  ta_position a = true -> ta_person a = true -> tg_rel (t_tagger (trun TTagger t0 r3)) (tg_who r3) (ta_date a).
Proof.
  intros Els F1 F2 F3 Hok Ha Hz. unfold tag_agree_of. cbv zeta. rewrite Els. cbn [header_of]. rewrite F1, F2, F3. cbn [skipn].
  destruct r3 as [|l r]; [intros _ _; cbn [trun]; rewrite Hz; apply tg_rel_zero|].
  inversion Hok as [|x0 y0 Hl Hr]. subst x0 y0. destruct (abl_tail _ _ Ha) as [Har Hen].
  rewrite trun_tagger, <- (first_is_lf_blank _ Hl). cbn [header_of tg_who].
  destruct (first_is LF l) eqn:Elf; [intros _ _; rewrite Hz; apply tg_rel_zero|].
  destruct (key_is k_tagger l) eqn:Ek; cbn [ta_position ta_person ta_date].
  - (* the tagger line *)
    intros Hpos Hper. apply andb_true_iff in Hpos as [_ Hst].
    assert (Hform : exists v tail, no_lf v = true /\ ends_digits tail /\
              split_header l = (k_tagger, v) /\ l ++ List.concat r = (str "tagger " ++ v) ++ tail).
    { destruct Hl as [Hne [p [Hp [El | El]]]]; subst l.
      - apply (prefix_nolf (str "tagger ") eq_refl _ []) in Hst. apply starts_with_spec in Hst as [v Ev]. subst p.
        exists v, (LF :: List.concat r). split; [exact Hp|]. split; [reflexivity|]. split.
        + rewrite (split_header_line _ Hp). reflexivity.
        + now rewrite <- app_assoc.
      - apply starts_with_spec in Hst as [v Ev]. subst p.
        exists v, []. split; [exact Hp|]. split; [exact I|]. split.
        + unfold split_header. rewrite (trim_right_nolf _ Hp). reflexivity.
        + now rewrite (abl_eof _ _ Ha (ends_nl_no_lf _ Hp)). }
    destruct Hform as [v [tail [Hv [Htail [Esh Ecat]]]]].
    assert (Eval : value_of l = v) by (unfold value_of; now rewrite Esh).
    rewrite Eval in *.
    assert (Ew : git_find_wholine k_tagger (l :: r) = v ++ tail).
    { cbn [git_find_wholine]. change (k_tagger ++ [SPC]) with (str "tagger "). rewrite Hst.
      cbn [List.concat]. now rewrite Ecat, <- app_assoc. }
    rewrite Ew.
    destruct (tg_ident_tag v tail Hv Htail Hper) as [Hne [Gn [Ge Gd]]].
    split; [split; [now rewrite Gn|left; exact Ge]|].
    intros Hdate. rewrite <- (Gd Hdate). destruct (v ++ tail) eqn:Evt; [|reflexivity].
    apply app_eq_nil in Evt as [Evt _]. contradiction.
  - (* some other header line: no tagger at all *)
    intros Hpos _. rewrite andb_true_r in Hpos. apply negb_true_iff in Hpos.
    rewrite tg_wholine_none, Hz; [apply tg_rel_zero|exact Elf|]. cbn [header_of]. now rewrite Elf.
Qed.

(* what git's parse_tag_buffer accepts *)
Lemma tg_git_shape raw g : git_tag_fields raw = GOk g ->
  exists oh ty nm rest,
    raw = (k_object ++ SPC :: oh) ++ LF :: (k_type ++ SPC :: ty) ++ LF :: (k_tag ++ SPC :: nm) ++ LF :: rest /\
    List.length oh = 40%nat /\ all_hex oh = true /\ no_lf ty = true /\ no_lf nm = true /\
    g = (let w := git_find_wholine k_tagger (split_lines raw) in
         mk_gtag (lower_hex oh) ty nm (git_copy_name w) (git_copy_email w)
                 (match w with [] => Some [] | _ :: _ => git_grab_date w end) (git_contents raw)).
Proof.
  unfold git_tag_fields. intros H. cbv zeta in H.
  destruct (has_nul raw); [discriminate|].
  destruct (Nat.ltb (List.length raw) 64) eqn:Elen; [discriminate|]. apply Nat.ltb_ge in Elen.
  destruct (negb (starts_with (str "object ") raw)) eqn:E1; [discriminate|]. apply negb_false_iff in E1.
  apply starts_with_spec in E1 as [r0 Er0].
  assert (S7 : skipn 7 raw = r0) by (rewrite Er0; reflexivity).
  assert (N47 : nth 47 raw 0 = nth 40 r0 0) by (rewrite Er0; reflexivity).
  assert (S48 : skipn 48 raw = skipn 41 r0) by (rewrite Er0; reflexivity).
  rewrite S7, N47, S48 in H.
  destruct (negb (all_hex (firstn 40 r0) && (nth 40 r0 0 =? LF))) eqn:E2; [discriminate|]. apply negb_false_iff in E2.
  apply andb_true_iff in E2 as [Ehex Elf]. apply N.eqb_eq in Elf.
  assert (Hr0 : r0 = firstn 40 r0 ++ LF :: skipn 41 r0).
  { rewrite <- (firstn_skipn 40 r0) at 1. f_equal. apply tg_nth_skipn with (d := 0); [exact Elf|unfold LF; lia]. }
  assert (Hlen : List.length (firstn 40 r0) = 40%nat).
  { rewrite Er0, app_length in Elen. change (List.length (str "object ")) with 7%nat in Elen.
    rewrite firstn_length. lia. }
  set (oh := firstn 40 r0) in *. set (b1 := skipn 41 r0) in *. clearbody oh b1.
  destruct (negb (starts_with (str "type ") b1)) eqn:E3; [discriminate|]. apply negb_false_iff in E3.
  apply starts_with_spec in E3 as [b2 Eb2]. rewrite Eb2 in H. change (skipn 5 (str "type " ++ b2)) with b2 in H.
  destruct (index_of LF b2) as [n|] eqn:En; [|discriminate].
  destruct (index_of_split _ _ _ En) as [ty [b3 [-> [Hty ->]]]]. rewrite firstn_app_exact, skipn_cons_exact in H.
  destruct (Nat.leb 20 _); [discriminate|].
  destruct (negb (existsb _ git_tag_types)); [discriminate|].
  destruct (negb (Nat.ltb 4 (List.length b3) && starts_with (str "tag ") b3)) eqn:E4; [discriminate|].
  apply negb_false_iff in E4. apply andb_true_iff in E4 as [_ E4].
  apply starts_with_spec in E4 as [b4 ->]. change (skipn 4 (str "tag " ++ b4)) with b4 in H.
  destruct (index_of LF b4) as [m|] eqn:Em; [|discriminate].
  destruct (index_of_split _ _ _ Em) as [nm [rest [-> [Hnm ->]]]]. rewrite firstn_app_exact in H.
  apply GOk_inj in H.
  exists oh, ty, nm, rest.
  split; [|split; [exact Hlen|split; [exact Ehex|split; [|split]]]].
  - rewrite Er0, Hr0, Eb2. reflexivity.
  - now rewrite no_lf_has, Hty.
  - now rewrite no_lf_has, Hnm.
  - symmetry. exact H.
Qed.

Theorem tag_fields_match_git : forall raw t g,
  decode_tag raw = Ok t -> git_tag_fields raw = GOk g ->
  let a := tag_agree_of raw in
  hex_encode (t_target t) = gt_object g /\ t_type t = gt_type g /\ t_name t = gt_tag g /\
  (ta_position a = true -> ta_person a = true ->
     id_name (t_tagger t) = gt_tn g /\
     (gt_te g = LT :: id_email (t_tagger t) ++ [GT] \/ (gt_te g = [] /\ id_email (t_tagger t) = []))) /\
  (ta_position a = true -> ta_person a = true -> ta_date a = true ->
     gt_td g = Some (go_date_t (t_tagger t))) /\
  drop_while (N.eqb LF) (t_msg t ++ t_sig t) = gt_contents g.
Proof.
  intros raw t g Hd Hg a.
  destruct (tg_git_shape _ _ Hg) as [oh [ty [nm [rest [Eraw [Hlen [Hhex [Hty [Hnm Eg]]]]]]]]].
  pose proof (all_hex_no_lf _ Hhex) as Hoh.
  pose proof (split_lines_ok raw) as Hok. pose proof (split_lines_abl raw) as Habl.
  pose proof (concat_split_lines raw) as Hcat.
  pose proof (split_lines_ok rest) as Hok3. pose proof (split_lines_abl rest) as Habl3.
  (* git's checks fix the first three lines; go-git's need_header reads the same three; both go on with [rest]:
     the tagger by tg_tagger_lines, the contents by trun_body and tg_contents_lines *)
  assert (Els : split_lines raw =
                ((k_object ++ SPC :: oh) ++ [LF]) :: ((k_type ++ SPC :: ty) ++ [LF]) :: ((k_tag ++ SPC :: nm) ++ [LF]) ::
                split_lines rest).
  { rewrite Eraw.
    rewrite (split_lines_line (k_object ++ SPC :: oh) _ Hoh).
    rewrite (split_lines_line (k_type ++ SPC :: ty) _ Hty).
    rewrite (split_lines_line (k_tag ++ SPC :: nm) _ Hnm). reflexivity. }
  set (r3 := split_lines rest) in *.
  unfold decode_tag in Hd. rewrite Els in Hd. unfold decode_tag_lines in Hd.
  rewrite (need_header_ok k_object oh _ _ _ ltac:(discriminate) eq_refl eq_refl Hoh) in Hd. cbv beta in Hd.
  destruct (parse_oid oh) as [h|] eqn:Eh; [|discriminate].
  rewrite (need_header_ok k_type ty _ _ _ ltac:(discriminate) eq_refl eq_refl Hty) in Hd. cbv beta in Hd.
  destruct (negb (valid_type ty)); [discriminate|].
  rewrite (need_header_ok k_tag nm _ _ _ ltac:(discriminate) eq_refl eq_refl Hnm) in Hd. cbv beta in Hd.
  assert (Et : t = split_tag_sig (trun TTagger (tag_init h ty nm) r3)) by congruence. clear Hd.
  unfold parse_oid in Eh. rewrite Hlen in Eh. cbn [Nat.eqb orb] in Eh.
  set (t0 := tag_init h ty nm) in *.
  destruct (tg_split_sig_keeps (trun TTagger t0 r3)) as [K1 [K2 [K3 [K4 K5]]]]. rewrite <- Et in K1, K2, K3, K4, K5.
  destruct (trun_body r3 TTagger t0 ltac:(discriminate) Hok3 Habl3) as [M1 M2].
  assert (Ew : git_find_wholine k_tagger (split_lines raw) = tg_who r3).
  { rewrite Els, tg_wholine_skip, tg_who_cons, tg_wholine_skip, tg_who_cons, tg_wholine_skip
      by first [reflexivity|apply ends_nl_app_lf]. reflexivity. }
  cbv zeta in Eg. rewrite Ew in Eg.
  assert (Ec : git_contents raw = drop_while (N.eqb LF) (List.concat (body_lines r3))).
  { rewrite <- Hcat at 1. rewrite (tg_contents_lines _ Hok Habl); [rewrite Els; reflexivity|rewrite Els; reflexivity]. }
  subst g. cbn [gt_object gt_type gt_tag gt_tn gt_te gt_td gt_contents].
  pose proof (tg_tagger_lines raw _ _ _ r3 t0 Els eq_refl eq_refl eq_refl Hok3 Habl3 eq_refl) as TL. cbv zeta in TL.
  assert (Etag : t_tagger t = t_tagger (trun TTagger t0 r3)) by exact K4. rewrite <- Etag in TL.
  split; [|split; [|split; [|split; [|split]]]].
  - rewrite K1, (trun_keeps t_target) by easy. exact (proj1 (hex_decode_lower _ _ Eh)).
  - now rewrite K2, (trun_keeps t_type).
  - now rewrite K3, (trun_keeps t_name).
  - intros P1 P2. destruct (TL P1 P2) as [[G1 G2] _]. split; [exact G1|exact G2].
  - intros P1 P2 P3. destruct (TL P1 P2) as [_ G3]. exact (G3 P3).
  - rewrite Ec, K5, M1, M2. unfold t0, tag_init. cbn [t_msg t_sig app].
    destruct (parse_signed_bytes (List.concat (body_lines r3))); rewrite app_nil_r; reflexivity.
Qed.
