(* Proofs/AStoreFacts.v — facts about the finite maps of Spec/AStore.v:
   lookup laws of set / del / union / diff, preservation of the canonical
   form, extensionality of canonical maps; before them a few list lemmas,
   after them the laws of the name lists (nmem / nadd / nrem). *)
From Coq Require Import List NArith Bool Lia Permutation Sorting.Sorted.
From GoGit Require Import Base.Out Spec.AStore.
Import ListNotations.
Local Open Scope N_scope.

Lemma NoDup_app_intro {A} (l1 l2 : list A) :
  NoDup l1 -> NoDup l2 -> (forall x, In x l1 -> In x l2 -> False) -> NoDup (l1 ++ l2).
Proof.
  induction l1 as [|a r IH]; intros H1 H2 Hd; [exact H2|].
  inversion H1 as [|? ? Hn H1']; subst. cbn [app]. constructor.
  - intro Hin. apply in_app_or in Hin as [Hin|Hin]; [exact (Hn Hin)|].
    apply (Hd a); [left; reflexivity|exact Hin].
  - apply IH; [exact H1'|exact H2|]. intros x Hx1 Hx2. apply (Hd x); [right; exact Hx1|exact Hx2].
Qed.

Lemma filter_all {A} (g : A -> bool) l : forallb g l = true -> filter g l = l.
Proof.
  induction l as [|a r IH]; cbn [forallb filter]; [reflexivity|].
  intros [-> Hr]%andb_true_iff. now rewrite IH.
Qed.

Lemma forallb_filter {A} (g : A -> bool) l : forallb g (filter g l) = true.
Proof. apply forallb_forall. intros p Hp. now apply filter_In in Hp. Qed.

Lemma NoDup_map_filter {A B} (f : A -> B) g l : NoDup (map f l) -> NoDup (map f (filter g l)).
Proof.
  induction l as [|a r IH]; cbn [map filter]; intro H; [constructor|].
  inversion H as [|? ? Hn Hr]; subst. destruct (g a); cbn [map]; [|now apply IH].
  constructor; [|now apply IH]. intro Hi. apply Hn.
  apply in_map_iff in Hi as (q & Hq & Hi). apply filter_In in Hi as [Hi _]. apply in_map_iff. eauto.
Qed.

Lemma forallb_negb {A} (f : A -> bool) l : forallb (fun x => negb (f x)) l = negb (existsb f l).
Proof. induction l as [|a l IH]; [reflexivity|]. cbn [forallb existsb]. now rewrite IH, negb_orb. Qed.

Lemma NoDup_app_disjoint {A} (l1 l2 : list A) x : NoDup (l1 ++ l2) -> In x l1 -> In x l2 -> False.
Proof.
  intros H H1 H2. apply in_split in H1 as (a & b & ->). rewrite <- app_assoc in H.
  apply NoDup_remove_2 in H. apply H, in_or_app. right. apply in_or_app. now right.
Qed.

Section Facts.
  Context {V : Type}.
  Implicit Types m : fmap V.

  Lemma fm_get_set k k' v m :
    fm_get k (fm_set k' v m) = if k =? k' then Some v else fm_get k m.
  Proof.
    induction m as [|[k1 v1] r IH]; cbn [fm_set fm_get].
    - destruct (k =? k'); reflexivity.
    - destruct (k' <? k1) eqn:Elt; [|destruct (k' =? k1) eqn:Eeq]; cbn [fm_get].
      + destruct (k =? k'); reflexivity.
      + apply N.eqb_eq in Eeq; subst k1. destruct (k =? k'); reflexivity.
      + rewrite IH. destruct (k =? k1) eqn:E1; [|reflexivity].
        apply N.eqb_eq in E1 as ->. now rewrite N.eqb_sym, Eeq.
  Qed.

  Lemma fm_get_del k k' m :
    fm_get k (fm_del k' m) = if k =? k' then None else fm_get k m.
  Proof.
    unfold fm_del. induction m as [|[k1 v1] r IH]; cbn [filter fm_get fst].
    - destruct (k =? k'); reflexivity.
    - destruct (k1 =? k') eqn:E1; cbn [negb].
      + rewrite IH. apply N.eqb_eq in E1; subst k1.
        destruct (k =? k'); reflexivity.
      + cbn [fm_get]. rewrite IH. destruct (k =? k1) eqn:E2; [|reflexivity].
        apply N.eqb_eq in E2; subst k1. rewrite E1. reflexivity.
  Qed.

  Lemma fm_get_union k (b t : fmap V) :
    fm_get k (fm_union b t) = match fm_get k t with Some v => Some v | None => fm_get k b end.
  Proof.
    unfold fm_union. induction t as [|[k1 v1] r IH]; cbn [fold_right fm_get fst snd]; [reflexivity|].
    rewrite fm_get_set. destruct (k =? k1); [reflexivity|exact IH].
  Qed.

  Lemma fm_get_diff k (b : fmap V) ds :
    fm_get k (fm_diff b ds) = if nmem k ds then None else fm_get k b.
  Proof.
    unfold fm_diff, nmem. induction ds as [|d r IH]; cbn [fold_right existsb]; [reflexivity|].
    rewrite fm_get_del. destruct (k =? d); [reflexivity|exact IH].
  Qed.

  Lemma fm_has_set k k' v m : fm_has k (fm_set k' v m) = (k =? k') || fm_has k m.
  Proof. unfold fm_has. rewrite fm_get_set. destruct (k =? k'); reflexivity. Qed.

  Definition fm_lt (p q : N * V) : Prop := fst p < fst q.
  Definition fm_ok m : Prop := StronglySorted fm_lt m.

  Lemma fm_ok_nil : fm_ok [].
  Proof. constructor. Qed.

  Lemma fm_ok_inv p m : fm_ok (p :: m) -> fm_ok m /\ Forall (fm_lt p) m.
  Proof. apply StronglySorted_inv. Qed.

  Lemma Forall_lt_trans p q m : fst p < fst q -> Forall (fm_lt q) m -> Forall (fm_lt p) m.
  Proof. intro H. apply Forall_impl. unfold fm_lt. lia. Qed.

  Lemma fm_get_lt k p m : Forall (fm_lt p) m -> k <= fst p -> fm_get k m = None.
  Proof.
    induction m as [|[k1 v1] r IH]; intros HF Hle; [reflexivity|].
    inversion HF as [|? ? H1 H2]; subst. unfold fm_lt in H1; cbn [fst] in H1.
    cbn [fm_get]. destruct (k =? k1) eqn:E.
    - apply N.eqb_eq in E. lia.
    - apply IH; assumption.
  Qed.

  Lemma fm_get_gt k p m v : Forall (fm_lt p) m -> fm_get k m = Some v -> fst p < k.
  Proof.
    intros HF Hg. destruct (N.lt_ge_cases (fst p) k) as [H|H]; [exact H|].
    rewrite (fm_get_lt k p m HF H) in Hg. discriminate.
  Qed.

  Lemma fm_ok_okb m : fm_okb m = true <-> fm_ok m.
  Proof.
    induction m as [|[k v] r IH]; [split; [constructor|reflexivity]|].
    destruct r as [|[k' v'] r'].
    - split; [intros _; repeat constructor|reflexivity].
    - change (fm_okb ((k, v) :: (k', v') :: r')) with ((k <? k') && fm_okb ((k', v') :: r')).
      rewrite andb_true_iff, IH, N.ltb_lt. split.
      + intros [Hlt Hok]. constructor; [exact Hok|].
        constructor; [exact Hlt|].
        apply fm_ok_inv in Hok as [_ HF]. now apply (Forall_lt_trans _ (k', v')).
      + intro H. apply fm_ok_inv in H as [Hok HF]. split; [|exact Hok].
        inversion HF; subst. assumption.
  Qed.

  Lemma Forall_lt_set p k v m :
    fst p < k -> Forall (fm_lt p) m -> Forall (fm_lt p) (fm_set k v m).
  Proof.
    intros Hk. induction m as [|[k1 v1] r IH]; intro HF; cbn [fm_set].
    - constructor; [exact Hk|constructor].
    - inversion HF as [|? ? H1 H2]; subst.
      destruct (k <? k1); [|destruct (k =? k1)].
      + constructor; [exact Hk|exact HF].
      + constructor; [exact Hk|exact H2].
      + constructor; [exact H1|apply IH; exact H2].
  Qed.

  Lemma fm_ok_set k v m : fm_ok m -> fm_ok (fm_set k v m).
  Proof.
    induction m as [|[k1 v1] r IH]; intro H; cbn [fm_set].
    - repeat constructor.
    - apply fm_ok_inv in H as [Hok HF].
      destruct (k <? k1) eqn:Elt; [|destruct (k =? k1) eqn:Eeq].
      + apply N.ltb_lt in Elt. constructor; [constructor; assumption|].
        constructor; [exact Elt|]. now apply (Forall_lt_trans _ (k1, v1)).
      + apply N.eqb_eq in Eeq; subst k1. constructor; assumption.
      + apply N.ltb_ge in Elt. apply N.eqb_neq in Eeq.
        constructor; [apply IH; exact Hok|].
        apply Forall_lt_set; [cbn [fst]; lia|exact HF].
  Qed.

  Lemma fm_ok_filter (g : N * V -> bool) m : fm_ok m -> fm_ok (filter g m).
  Proof.
    induction m as [|p r IH]; intro H; cbn [filter]; [constructor|].
    apply fm_ok_inv in H as [Hok HF]. destruct (g p); [|apply IH; exact Hok].
    constructor; [apply IH; exact Hok|].
    apply Forall_forall. intros q Hq. apply filter_In in Hq as [Hq _].
    rewrite Forall_forall in HF. apply HF; exact Hq.
  Qed.

  Lemma fm_get_filter (g : N * V -> bool) m k : fm_ok m ->
    fm_get k (filter g m) = match fm_get k m with Some v => if g (k, v) then Some v else None | None => None end.
  Proof.
    induction m as [|[k1 v1] r IH]; intro H; [reflexivity|].
    apply fm_ok_inv in H as [Hok HF]. cbn [filter fm_get]. destruct (k =? k1) eqn:E.
    - apply N.eqb_eq in E; subst k1. destruct (g (k, v1)); cbn [fm_get]; [now rewrite N.eqb_refl|].
      now rewrite (IH Hok), (fm_get_lt k (k, v1) r HF).
    - destruct (g (k1, v1)); cbn [fm_get]; rewrite ?E; exact (IH Hok).
  Qed.

  Lemma fm_ok_del k m : fm_ok m -> fm_ok (fm_del k m).
  Proof. apply fm_ok_filter. Qed.

  Lemma fm_ok_union (b t : fmap V) : fm_ok b -> fm_ok (fm_union b t).
  Proof.
    intro H. unfold fm_union. induction t as [|p r IH]; cbn [fold_right]; [exact H|].
    apply fm_ok_set; exact IH.
  Qed.

  Lemma fm_ok_diff (b : fmap V) ds : fm_ok b -> fm_ok (fm_diff b ds).
  Proof.
    intro H. unfold fm_diff. induction ds as [|d r IH]; cbn [fold_right]; [exact H|].
    apply fm_ok_del; exact IH.
  Qed.

  Lemma fm_ext m1 m2 :
    fm_ok m1 -> fm_ok m2 -> (forall k, fm_get k m1 = fm_get k m2) -> m1 = m2.
  Proof.
    revert m2. induction m1 as [|[k1 v1] r1 IH]; intros m2 H1 H2 Hext.
    - destruct m2 as [|[k2 v2] r2]; [reflexivity|].
      specialize (Hext k2). cbn [fm_get] in Hext. rewrite N.eqb_refl in Hext. discriminate.
    - destruct m2 as [|[k2 v2] r2].
      + specialize (Hext k1). cbn [fm_get] in Hext. rewrite N.eqb_refl in Hext. discriminate.
      + apply fm_ok_inv in H1 as [Hok1 HF1]. apply fm_ok_inv in H2 as [Hok2 HF2].
        assert (Hk : k1 = k2).
        { (* each head key is present in the other map, hence not below its head *)
          pose proof (Hext k1) as E1. pose proof (Hext k2) as E2. cbn [fm_get] in E1, E2.
          rewrite N.eqb_refl in E1, E2. destruct (k1 =? k2) eqn:E; [now apply N.eqb_eq|].
          rewrite N.eqb_sym, E in E2. symmetry in E1.
          apply (fm_get_gt _ _ _ _ HF2) in E1. apply (fm_get_gt _ _ _ _ HF1) in E2. cbn [fst] in *. lia. }
        subst k2. pose proof (Hext k1) as E. cbn [fm_get] in E. rewrite N.eqb_refl in E. injection E as <-.
        f_equal. apply IH; try assumption.
        intro k. pose proof (Hext k) as E. cbn [fm_get] in E.
        destruct (k =? k1) eqn:Ek; [|exact E].
        apply N.eqb_eq in Ek; subst k.
        now rewrite (fm_get_lt k1 (k1, v1) r1), (fm_get_lt k1 (k1, v1) r2) by (assumption || (cbn [fst]; lia)).
  Qed.

  Lemma fm_ok_keys_NoDup m : fm_ok m -> NoDup (map fst m).
  Proof.
    induction m as [|p r IH]; intro H; cbn [map]; [constructor|].
    apply fm_ok_inv in H as [Hok HF]. constructor; [|apply IH; exact Hok].
    intro Hin. apply in_map_iff in Hin as [q [Hq Hin]].
    rewrite Forall_forall in HF. apply HF in Hin. unfold fm_lt in Hin. lia.
  Qed.

  Lemma fm_get_In_NoDup k v m : NoDup (map fst m) -> (fm_get k m = Some v <-> In (k, v) m).
  Proof.
    induction m as [|[k1 v1] r IH]; cbn [map fst fm_get In]; intro H; [split; [discriminate|tauto]|].
    inversion H as [|? ? Hn Hr]; subst. destruct (k =? k1) eqn:E.
    - apply N.eqb_eq in E; subst k1. split; [intros [= ->]; now left|].
      intros [[= ->]|Hin]; [reflexivity|]. destruct Hn. apply in_map_iff. now exists (k, v).
    - rewrite (IH Hr). apply N.eqb_neq in E. split; [tauto|]. intros [[= -> _]|Hin]; [congruence|exact Hin].
  Qed.

  Lemma fm_get_In k v m : fm_ok m -> (fm_get k m = Some v <-> In (k, v) m).
  Proof. intro H. apply fm_get_In_NoDup, fm_ok_keys_NoDup, H. Qed.

  Lemma fm_ok_NoDup m : fm_ok m -> NoDup m.
  Proof. intro H. eapply NoDup_map_inv, fm_ok_keys_NoDup, H. Qed.

  Lemma perm_of_lookup (l : list (N * V)) m :
    fm_ok m -> NoDup l -> (forall k v, In (k, v) l <-> fm_get k m = Some v) -> Permutation l m.
  Proof.
    intros Hm Hl H. apply NoDup_Permutation; [exact Hl|now apply fm_ok_NoDup|].
    intros [k v]. now rewrite H, (fm_get_In k v m Hm).
  Qed.

  Lemma fm_set_fresh_perm k v m :
    fm_get k m = None -> Permutation (fm_set k v m) ((k, v) :: m).
  Proof.
    induction m as [|[k1 v1] r IH]; intro Hn; cbn [fm_set]; [reflexivity|].
    cbn [fm_get] in Hn. destruct (k =? k1) eqn:E; [discriminate|].
    destruct (k <? k1); [reflexivity|].
    rewrite (IH Hn). apply perm_swap.
  Qed.

  Lemma fm_del_absent k m : fm_get k m = None -> fm_del k m = m.
  Proof.
    unfold fm_del. induction m as [|[k1 v1] r IH]; intro Hn; cbn [filter fst]; [reflexivity|].
    cbn [fm_get] in Hn. destruct (k =? k1) eqn:E; [discriminate|].
    rewrite N.eqb_sym, E. cbn [negb]. f_equal. apply IH; exact Hn.
  Qed.
End Facts.

(* AnyObject matches every object *)
Lemma filter_typ_any U l : filter (typ_match U 0) l = l.
Proof.
  induction l as [|a l IH]; [reflexivity|]. cbn [filter]. unfold typ_match at 1. cbn [N.eqb orb]. now rewrite IH.
Qed.

Lemma nmem_keys {V} k (m : fmap V) : nmem k (map fst m) = fm_has k m.
Proof.
  unfold nmem, fm_has. induction m as [|[k1 v1] r IH]; [reflexivity|].
  cbn [map fst existsb fm_get]. rewrite IH. now destruct (k =? k1).
Qed.

Lemma nmem_nadd k n l : nmem k (nadd n l) = (k =? n) || nmem k l.
Proof.
  unfold nadd. destruct (nmem n l) eqn:E.
  - destruct (k =? n) eqn:E1; [|reflexivity]. apply N.eqb_eq in E1; subst. rewrite E. reflexivity.
  - reflexivity.
Qed.

Lemma nmem_nrem k n l : nmem k (nrem n l) = negb (k =? n) && nmem k l.
Proof.
  unfold nrem, nmem. induction l as [|x r IH]; cbn [filter existsb].
  - rewrite andb_false_r. reflexivity.
  - destruct (x =? n) eqn:E; cbn [negb existsb].
    + rewrite IH. apply N.eqb_eq in E; subst x.
      destruct (k =? n); reflexivity.
    + rewrite IH. destruct (k =? x) eqn:E1; [|reflexivity].
      apply N.eqb_eq in E1; subst x. rewrite E. reflexivity.
Qed.

Lemma nmem_In k l : nmem k l = true <-> In k l.
Proof.
  unfold nmem. rewrite existsb_exists. split.
  - intros [x [Hx E]]. apply N.eqb_eq in E; subst. exact Hx.
  - intro H. exists k. split; [exact H|apply N.eqb_refl].
Qed.

Lemma fm_get_None {V} k (m : fmap V) : fm_get k m = None <-> ~ In k (map fst m).
Proof.
  rewrite <- nmem_In, nmem_keys. unfold fm_has. destruct (fm_get k m); split; congruence.
Qed.

Lemma NoDup_nadd n l : NoDup l -> NoDup (nadd n l).
Proof.
  intro H. unfold nadd. destruct (nmem n l) eqn:E; [exact H|].
  constructor; [|exact H]. intro Hin. apply nmem_In in Hin. congruence.
Qed.

Lemma NoDup_nrem n l : NoDup l -> NoDup (nrem n l).
Proof. intro H. unfold nrem. apply NoDup_filter. exact H. Qed.
