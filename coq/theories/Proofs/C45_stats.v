(* Proofs/C45_stats.v — every Add/Delete line of the chunk list appears exactly once, in order, as a
   '+' / '-' line of the generated hunks (for ALL chunk lists and context sizes); hence the line
   statistics of getFileStatsFromFilePatches count the '+' and '-' lines of the patch.
   Also: a successful strict application certifies the header counts of every hunk. *)
From Coq Require Import List NArith ZArith Bool Arith Lia.
From GoGit Require Import Base.Out Model.Unified Spec.HunkApply Proofs.C45_apply Proofs.C45_gen.
Import ListNotations.

Definition is_change (o : dop * line) : bool := negb (dop_eqb (fst o) Equal).
Definition changes (ops : list (dop * line)) : list (dop * line) := filter is_change ops.
Definition all_ops (st : gstate) : list (dop * line) :=
  flat_map h_ops (g_hunks st) ++ match g_cur st with Some h => h_ops h | None => [] end.
Definition chunk_changes (c : chunk) : list (dop * line) :=
  match fst c with Equal => [] | t => map (fun l => (t, l)) (split_lines (snd c)) end.

Lemma changes_app a b : changes (a ++ b) = changes a ++ changes b.
Proof. apply filter_app. Qed.
Lemma filter_map_pair {A B} (f : A -> bool) (t : A) (ls : list B) :
  filter (fun o => f (fst o)) (map (fun l => (t, l)) ls) = if f t then map (fun l => (t, l)) ls else [].
Proof. induction ls as [|l ls IH]; cbn [map filter fst]; [now destruct (f t)|]. rewrite IH. now destruct (f t). Qed.

Lemma changes_equal ls : changes (map (fun l : line => (Equal, l)) ls) = [].
Proof. exact (filter_map_pair (fun t => negb (dop_eqb t Equal)) Equal ls). Qed.
Lemma changes_map t ls : t <> Equal -> changes (map (fun l : line => (t, l)) ls) = map (fun l => (t, l)) ls.
Proof.
  intros Ht. etransitivity; [exact (filter_map_pair (fun t => negb (dop_eqb t Equal)) t ls)|].
  destruct t; congruence || reflexivity.
Qed.

Lemma flat_map_snoc {A B} (f : A -> list B) l x : flat_map f (l ++ [x]) = flat_map f l ++ f x.
Proof. rewrite flat_map_app. cbn. now rewrite app_nil_r. Qed.

Lemma process_hunk_ops ctx st next op : op <> Equal ->
  changes (all_ops (process_hunk ctx st next op)) = changes (all_ops st) /\
  (exists h, g_cur (process_hunk ctx st next op) = Some h) /\
  g_hunks (process_hunk ctx st next op) = g_hunks st.
Proof.
  intros Hop. destruct (g_cur st) as [h|] eqn:Hc.
  - unfold process_hunk. rewrite Hc. rewrite Hc. eauto.
  - destruct (process_hunk_none ctx st next op Hop Hc) as (dropped & b2 & pfx & _ & _ & ->).
    unfold all_ops. cbn [g_hunks g_cur h_ops]. rewrite Hc, app_nil_r. split; [|split; [eauto|reflexivity]].
    rewrite changes_app, changes_equal. now rewrite app_nil_r.
Qed.

Lemma step_changes ctx st c next :
  changes (all_ops (core_step ctx st c next)) = changes (all_ops st) ++ chunk_changes c.
Proof.
  destruct (dop_equal_dec (fst c)) as [Hf|Hf].
  - unfold core_step, chunk_changes. rewrite Hf, app_nil_r. cbv zeta.
    unfold process_equals. cbn [set_lines g_cur g_from g_to g_hunks g_before].
    destruct (g_cur st) as [h|] eqn:Hc; [|unfold all_ops; cbn [g_hunks g_cur]; now rewrite Hc].
    destruct (_ && _); unfold all_ops; cbn [g_hunks g_cur];
      rewrite Hc, ?flat_map_snoc, add_op_ops, !changes_app, changes_equal; now rewrite !app_nil_r.
  - (* Add, Delete: the lines go to the hunk that is open or has just been opened *)
    rewrite core_step_change by exact Hf. cbv zeta.
    match goal with |- context [process_hunk ctx ?s next (fst c)] =>
      destruct (process_hunk_ops ctx s next (fst c) Hf) as (Hch & (h & Hcur) & Hh); set (s2 := process_hunk ctx s next (fst c)) in * end.
    unfold cur_add. cbn [set_lines g_cur g_hunks]. rewrite Hcur.
    unfold all_ops at 1. cbn [g_hunks g_cur]. rewrite add_op_ops, app_assoc, changes_app.
    unfold all_ops in Hch. rewrite Hcur in Hch. cbn [set_lines g_cur g_hunks] in Hch. rewrite Hch.
    rewrite changes_map by exact Hf. unfold chunk_changes. destruct (fst c); [congruence|reflexivity..].
Qed.

Lemma finish_ops st : flat_map h_ops (finish st) = all_ops st.
Proof. unfold finish, all_ops. destruct (g_cur st); [apply flat_map_snoc | now rewrite app_nil_r]. Qed.

Lemma loop_changes ctx : forall cs c st,
  changes (flat_map h_ops (g_hunks (gen_loop ctx st (c :: cs)))) =
  changes (all_ops st) ++ flat_map chunk_changes (c :: cs).
Proof.
  induction cs as [|d r IH]; intros c st.
  - cbn [gen_loop]. rewrite gen_step_core, finish_ops, step_changes. cbn. now rewrite app_nil_r.
  - change (gen_loop ctx st (c :: d :: r)) with (gen_loop ctx (gen_step ctx st c (Some (fst d))) (d :: r)).
    rewrite gen_step_core_some, IH, step_changes. cbn [flat_map]. now rewrite <- app_assoc.
Qed.

Theorem generate_changes ctx cs :
  changes (flat_map h_ops (generate ctx cs)) = flat_map chunk_changes cs.
Proof. unfold generate. destruct cs as [|c r]; [reflexivity|]. now rewrite loop_changes. Qed.

Definition count_op (t : dop) (ops : list (dop * line)) : nat :=
  length (filter (fun o => dop_eqb (fst o) t) ops).

Lemma stat_of_fold t cs a :
  fold_left (fun a c => if dop_eqb (fst c) t then (a + count_lines (snd c))%nat else a) cs a =
  (a + length (flat_map (fun c : chunk => if dop_eqb (fst c) t then split_lines (snd c) else []) cs))%nat.
Proof.
  revert a; induction cs as [|c r IH]; intros a; cbn [fold_left flat_map]; [cbn; lia|].
  rewrite IH, app_length. unfold count_lines. destruct (dop_eqb (fst c) t); cbn [length]; lia.
Qed.

Lemma count_op_changes t ops : t <> Equal -> count_op t (changes ops) = count_op t ops.
Proof.
  intros Ht. unfold count_op, changes. induction ops as [|[o l] r IH]; [reflexivity|].
  cbn [filter]. unfold is_change at 1. cbn [fst].
  destruct o; cbn [dop_eqb negb filter fst]; destruct t; cbn [dop_eqb length]; try congruence; auto.
Qed.

Lemma count_op_map t t' ls : count_op t (map (fun l : line => (t', l)) ls) = if dop_eqb t' t then length ls else 0%nat.
Proof.
  unfold count_op. rewrite (filter_map_pair (fun x => dop_eqb x t)).
  destruct (dop_eqb t' t); [apply map_length|reflexivity].
Qed.

Lemma count_op_chunks t cs : t <> Equal ->
  count_op t (flat_map chunk_changes cs) =
  length (flat_map (fun c : chunk => if dop_eqb (fst c) t then split_lines (snd c) else []) cs).
Proof.
  intros Ht. induction cs as [|c r IH]; [reflexivity|].
  cbn [flat_map]. unfold count_op in *. rewrite filter_app, !app_length, IH. f_equal.
  fold (count_op t (chunk_changes c)). unfold chunk_changes.
  destruct (fst c); rewrite ?count_op_map; [destruct t; [congruence|reflexivity..]|..]; now destruct (dop_eqb _ t).
Qed.

Theorem stats_count_patch_lines ctx cs t : t <> Equal ->
  stat_of t cs = count_op t (flat_map h_ops (generate ctx cs)).
Proof.
  intros Ht. unfold stat_of. rewrite stat_of_fold. cbn [Nat.add].
  rewrite <- (count_op_changes t) by exact Ht. rewrite generate_changes. symmetry. now apply count_op_chunks.
Qed.

Lemma apply_pref_counts hs : forall kf kt old r,
  apply_pref hs kf kt old = Some r ->
  Forall (fun h => h_fromc h = Z.of_nat (length (oldside (h_ops h))) /\
                   h_toc h = Z.of_nat (length (newside (h_ops h)))) hs.
Proof.
  induction hs as [|h hs IH]; intros kf kt old r H; [constructor|].
  destruct (apply_pref_cons_inv _ _ _ _ _ _ H) as (gapl & X & -> & Hs).
  rewrite apply_pref_cons in H by assumption.
  destruct (apply_pref hs _ _ X) as [r'|] eqn:Ha; [|discriminate]. constructor; [apply Hs|eauto].
Qed.

Theorem strict_apply_counts hs old new :
  strict_apply hs old = Some new ->
  Forall (fun h => h_fromc h = Z.of_nat (length (oldside (h_ops h))) /\
                   h_toc h = Z.of_nat (length (newside (h_ops h)))) hs.
Proof.
  unfold strict_apply. destruct (apply_pref hs 0 0 old) as [r|] eqn:H; [|discriminate]. intros _.
  eapply apply_pref_counts; eauto.
Qed.
