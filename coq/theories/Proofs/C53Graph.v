(* Proofs/C53Graph.v — C53 for the commit-graph file reader (Model/CommitGraph.v:
   open_file, get_commit_data, read_edges, hashes_of, bsearch / index_by_hash).
   Every read of the model goes through [slice] (ReaderAt / SectionReader +
   ReadFull: all the bytes or an error), so an out-of-range offset is EIO by
   construction; what is proved, for EVERY file and query:
     total   the octopus walk over the EDGE chunk and the binary search of the
             OID lookup end within the model's fuel (the fuel value is merged
             with a genuine error, so: more fuel never changes the answer);
     no_oob  an index equal to the table length is rejected and not read:
             commit index == number of commits, parent index == number of
             commits, EDGE position == number of edge words (gen2_of guards the
             GDO2 position the same way; no lemma about it here); a successful
             lookup only used indices below the count and returned 20-byte ids;
     alloc   the parents of one commit are at most 1 + |file|/4 (the EDGE walk
             reads 4 fresh bytes per parent), and an opened file has 256 fanout
             entries <= 2^31-1. *)
From Coq Require Import List NArith ZArith Bool Lia.
From GoGit Require Import Model.CommitGraph.
Import ListNotations.
Local Open Scope N_scope.

Ltac Zify.zify_post_hook ::= Z.div_mod_to_equations.

Lemma slice_some file off len b : slice file off len = Some b ->
  (0 <= off)%Z /\ (off + Z.of_nat len <= Z.of_nat (List.length file))%Z /\ List.length b = len.
Proof.
  unfold slice. destruct (Z.ltb_spec off 0); [discriminate|]. cbn [orb].
  destruct (Z.ltb_spec (Z.of_nat (List.length file)) (off + Z.of_nat len)); [discriminate|].
  intros [= <-]. repeat split; try lia. rewrite firstn_length, skipn_length. lia.
Qed.

Lemma rd_ok file off len v : rd file off len = Ok v -> (0 <= off)%Z /\ (off + Z.of_nat len <= Z.of_nat (List.length file))%Z.
Proof. unfold rd. destruct (slice file off len) eqn:E; [|discriminate]. intros _. apply slice_some in E. lia. Qed.

Lemma read_edges_stable file : forall f off pos cnt g,
  (1 <= f)%nat -> ((0 <= off)%Z -> (Z.of_nat (List.length file) - off < Z.of_nat f)%Z) -> (f <= g)%nat ->
  read_edges file g off pos cnt = read_edges file f off pos cnt.
Proof.
  induction f as [|f IH]; intros off pos cnt g H1 Hm Hg; [lia|].
  destruct g as [|g]; [lia|]. cbn [read_edges]. destruct (cnt <=? pos)%Z; [reflexivity|].
  destruct (rd file off 4) as [p|e] eqn:R; [|reflexivity]. apply rd_ok in R.
  destruct (N.land p parentLast =? parentLast); [reflexivity|].
  rewrite (IH (off + 4)%Z (pos + 1)%Z cnt g); [reflexivity| | |]; lia.
Qed.

(* parent_indexes calls the walk with fuel |file|+1 *)
Lemma commit_edges_stable file off pos cnt g : (S (List.length file) <= g)%nat ->
  read_edges file g off pos cnt = read_edges file (S (List.length file)) off pos cnt.
Proof. intros Hg. apply read_edges_stable; [lia| |exact Hg]. intros. lia. Qed.

Lemma read_edges_bound file : forall f off pos cnt l,
  read_edges file f off pos cnt = Ok l -> (0 <= off)%Z /\ (off + 4 * Z.of_nat (List.length l) <= Z.of_nat (List.length file))%Z /\ (pos + Z.of_nat (List.length l) <= cnt)%Z.
Proof.
  induction f as [|f IH]; intros off pos cnt l E; cbn [read_edges] in E; [discriminate|].
  destruct (Z.leb_spec cnt pos); [discriminate|].
  destruct (rd file off 4) as [p|e] eqn:R; [|discriminate]. apply rd_ok in R.
  destruct (N.land p parentLast =? parentLast).
  - injection E as <-. cbn [List.length]. lia.
  - destruct (read_edges file f (off + 4)%Z (pos + 1)%Z cnt) as [l'|] eqn:E'; [|discriminate].
    injection E as <-. apply IH in E'. cbn [List.length]. lia.
Qed.

(* the position must be below the number of edge words: pos == count is rejected, not read *)
Lemma read_edges_pos_rejected file f off pos cnt : (cnt <= pos)%Z -> read_edges file (S f) off pos cnt = Er EMalformed.
Proof. intros H. cbn [read_edges]. destruct (Z.leb_spec cnt pos); [reflexivity|lia]. Qed.

Lemma hash_local_ok file fi i h : hash_local file fi i = Ok h -> i < ncommits fi /\ List.length h = 20%nat.
Proof.
  unfold hash_local. destruct (N.leb_spec (ncommits fi) i); [discriminate|].
  destruct (slice file _ 20) as [b|] eqn:S1; [|discriminate]. intros [= <-]. apply slice_some in S1. split; [assumption|lia].
Qed.

(* split graphs: positions below [min] are delegated to [below] (the parent layers), the others are
   local positions i - min, which must be below the number of commits of this file *)
Lemma hashes_of_ok below min file fi : forall idxs l, hashes_of below min file fi idxs = Ok l ->
  Forall (fun i => i < min + ncommits fi) idxs /\ List.length l = List.length idxs /\
  ((forall i h, below i = Ok h -> List.length h = 20%nat) -> Forall (fun h => List.length h = 20%nat) l).
Proof.
  induction idxs as [|i r IH]; intros l E; cbn [hashes_of] in E.
  - injection E as <-. repeat split; constructor.
  - destruct (if i <? min then below i else hash_local file fi (i - min)) as [h|] eqn:Hi; [|discriminate].
    destruct (hashes_of below min file fi r) as [l'|] eqn:E'; [|discriminate]. injection E as <-.
    destruct (IH _ eq_refl) as (A & B & C). cbn [List.length].
    assert (i < min + ncommits fi /\ ((forall i h, below i = Ok h -> List.length h = 20%nat) -> List.length h = 20%nat))
      as [Hlt Hlen].
    { destruct (N.ltb_spec i min); [split; [lia|eauto]|]. apply hash_local_ok in Hi. split; [lia|intros _; apply Hi]. }
    repeat split; [constructor; assumption|lia|]. intros Hb. constructor; [apply Hlen, Hb|apply C, Hb].
Qed.

(* a parent index equal to (or above) min + the number of commits is an error, whatever else the list holds *)
Lemma hashes_of_index_rejected below min file fi idxs i : In i idxs -> min + ncommits fi <= i ->
  exists e, hashes_of below min file fi idxs = Er e.
Proof.
  intros Hin Hge. destruct (hashes_of below min file fi idxs) as [l|e] eqn:E; [|eauto].
  apply hashes_of_ok in E. destruct E as [F _]. rewrite Forall_forall in F. specialize (F i Hin). lia.
Qed.

(* a parent index below [min] is answered by the parent layers, never read from this file *)
Lemma hashes_of_delegated below min file fi i r : i < min ->
  hashes_of below min file fi (i :: r) =
  match below i with
  | Er e => Er e
  | Ok h => match hashes_of below min file fi r with Ok l => Ok (h :: l) | Er e => Er e end
  end.
Proof. intros L. cbn [hashes_of]. destruct (N.ltb_spec i min); [reflexivity|lia]. Qed.

Lemma commit_index_rejected_in below min file fi idx : ncommits fi <= idx -> get_commit_data_in below min file fi idx = Er ENotFound.
Proof. intros H. unfold get_commit_data_in. destruct (N.leb_spec (ncommits fi) idx); [reflexivity|lia]. Qed.

Lemma commit_index_rejected file fi idx : ncommits fi <= idx -> get_commit_data file fi idx = Er ENotFound.
Proof. apply commit_index_rejected_in. Qed.

Lemma parent_indexes_bound file fi p1 p2 l : (8 <= Z.of_nat (List.length file))%Z ->
  parent_indexes file fi p1 p2 = Ok l -> (4 * Z.of_nat (List.length l) <= Z.of_nat (List.length file) + 4)%Z.
Proof.
  intros H8. unfold parent_indexes.
  destruct (N.land p2 parentOctopusUsed =? parentOctopusUsed).
  - cbv zeta. destruct (Z.leb_spec (Z.quot (off_of (f_size fi) 5) 4) (Z.of_N (N.land p2 parentOctopusMask))); [discriminate|].
    destruct (read_edges file _ _ _ _) as [l'|] eqn:E; [|discriminate]. intros [= <-].
    apply read_edges_bound in E. cbn [List.length]. clear - E. lia.
  - destruct (negb (p2 =? parentNone)); [intros [= <-]; cbn [List.length]; lia|].
    destruct (negb (p1 =? parentNone)); intros [= <-]; cbn [List.length]; lia.
Qed.

Lemma commit_data_in_ok below min file fi idx d : get_commit_data_in below min file fi idx = Ok d ->
  idx < ncommits fi /\ List.length (d_tree d) = 20%nat /\
  Forall (fun i => i < min + ncommits fi) (d_pidx d) /\ List.length (d_phash d) = List.length (d_pidx d) /\
  ((forall i h, below i = Ok h -> List.length h = 20%nat) -> Forall (fun h => List.length h = 20%nat) (d_phash d)) /\
  (4 * Z.of_nat (List.length (d_pidx d)) <= Z.of_nat (List.length file) + 4)%Z.
Proof.
  unfold get_commit_data_in. destruct (N.leb_spec (ncommits fi) idx); [discriminate|]. cbv zeta.
  destruct (slice file _ 20) as [tree|] eqn:S1; [|discriminate]. apply slice_some in S1.
  destruct (rd file _ 4) as [p1|] eqn:R1; [|discriminate].
  destruct (rd file (_ + 24)%Z 4) as [p2|] eqn:R2; [|discriminate].
  destruct (rd file (_ + 28)%Z 8) as [gt|] eqn:R3; [|discriminate].
  destruct (parent_indexes file fi p1 p2) as [pidx|] eqn:P; [|discriminate].
  destruct (hashes_of below min file fi pidx) as [ph|] eqn:Hh; [|discriminate]. apply hashes_of_ok in Hh.
  generalize (N.shiftr gt 34) (N.land gt 17179869183). intros gg tt.
  destruct (gen2_of file fi idx tt) as [g2|]; [|discriminate].
  intros E. injection E as E. subst d. cbn [d_tree d_pidx d_phash]. destruct Hh as (A & B & C).
  destruct S1 as (S0 & S2 & S1). repeat split; try assumption.
  apply parent_indexes_bound in P; [exact P|lia].
Qed.

Lemma commit_data_ok file fi idx d : get_commit_data file fi idx = Ok d ->
  idx < ncommits fi /\ Forall (fun i => i < ncommits fi) (d_pidx d) /\ Forall (fun h => List.length h = 20%nat) (d_phash d).
Proof.
  intros E. apply commit_data_in_ok in E. destruct E as (A & _ & C & _ & F & _).
  repeat split; try assumption. apply F. intros i h; discriminate.
Qed.

Lemma bsearch_stable file fi h : forall f low high g,
  high <= 2147483647 -> high - low < 2 ^ N.of_nat f -> (f <= g)%nat ->
  bsearch file fi h g low high = bsearch file fi h f low high.
Proof.
  induction f as [|f IH]; intros low high g Hh Hm Hg.
  - destruct g as [|g]; [reflexivity|]. cbn [bsearch]. destruct (N.ltb_spec low high); [lia|reflexivity].
  - destruct g as [|g]; [lia|]. cbn [bsearch]. destruct (N.ltb_spec low high); [|reflexivity]. cbv zeta.
    rewrite Nat2N.inj_succ, N.pow_succ_r' in Hm.
    rewrite N.mod_small, N.shiftr_div_pow2 by (unfold two32; lia). change (2 ^ 1) with 2.
    destruct (slice file _ 20); [|reflexivity]. destruct (bytes_cmp h b); [reflexivity| |]; apply IH; lia.
Qed.

Definition fanout_ok (fi : findex) : Prop := Forall (fun v => v <= 2147483647) (f_fanout fi).

Lemma nth_fanout_ok fi k : fanout_ok fi -> nth k (f_fanout fi) 0 <= 2147483647.
Proof.
  intros F. destruct (Nat.lt_ge_cases k (List.length (f_fanout fi))) as [L|L].
  - unfold fanout_ok in F. rewrite Forall_forall in F. apply F, nth_In, L.
  - rewrite nth_overflow by exact L. lia.
Qed.

Theorem index_by_hash_stable file fi h g : fanout_ok fi -> (40 <= g)%nat ->
  match h with
  | [] => Er ENotFound
  | b0 :: _ => bsearch file fi h g (if b0 =? 0 then 0 else nth (N.to_nat b0 - 1) (f_fanout fi) 0) (nth (N.to_nat b0) (f_fanout fi) 0)
  end = index_by_hash file fi h.
Proof.
  intros F Hg. unfold index_by_hash. destruct h as [|b0 t]; [reflexivity|]. cbv zeta.
  apply bsearch_stable; [apply nth_fanout_ok, F| |exact Hg].
  pose proof (nth_fanout_ok fi (N.to_nat b0) F) as A.
  apply N.le_lt_trans with 2147483647; [lia|]. vm_compute. reflexivity.
Qed.

Lemma read_fanout_ok file : forall n off l, read_fanout file off n = Ok l -> List.length l = n /\ Forall (fun v => v <= 2147483647) l.
Proof.
  induction n as [|n IH]; intros off l E; cbn [read_fanout] in E.
  - injection E as <-. split; constructor.
  - destruct (rd file off 4) as [v|]; [|discriminate]. destruct (N.ltb_spec 2147483647 v); [discriminate|].
    destruct (read_fanout file (off + 4)%Z n) as [l'|] eqn:E'; [|discriminate]. injection E as <-.
    destruct (IH _ _ E') as [A B]. split; [cbn [List.length]; lia|constructor; assumption].
Qed.

(* an opened file has 256 fanout entries, none above 2^31-1 (so the count is < 2^31) *)
Theorem open_file_fanout file fi : open_file file = Ok fi -> List.length (f_fanout fi) = 256%nat /\ fanout_ok fi.
Proof.
  unfold open_file. destruct (slice file 0 4); [|discriminate]. destruct (negb _); [discriminate|].
  destruct (slice file 4 4) as [[|v [|hv [|nc [|x [|y t]]]]]|]; try discriminate.
  destruct (negb (v =? 1)); [discriminate|]. destruct (negb (hv =? 1)); [discriminate|]. cbv zeta.
  destruct (_ <? _)%Z; [discriminate|].
  destruct (read_toc _ _ _ _ _ _ _ _) as [[offs assigned]|]; [|discriminate].
  destruct (slice file _ 4); [|discriminate]. destruct (rd file _ 8); [|discriminate].
  destruct (negb _); [discriminate|]. destruct (_ || _); [discriminate|]. destruct (negb _); [discriminate|].
  destruct (rd file _ 4); [|discriminate]. destruct (_ <? _)%Z; [discriminate|].
  destruct (negb _); [discriminate|]. destruct (negb _); [discriminate|]. destruct (_ && _); [discriminate|].
  destruct (read_fanout file _ 256) as [fo|] eqn:E; [|discriminate]. intros [= <-]. cbn [f_fanout].
  apply read_fanout_ok in E. exact E.
Qed.
