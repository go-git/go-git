(* Proofs/C44_paths.v — the object layer prints a path as its components joined with '/'
   (noder.Path.String); for components that are non-empty and free of '/', distinct component
   lists give distinct strings, so the change sets of the merkletrie layer and of the object layer
   correspond one to one. *)
From Coq Require Import List NArith Bool Arith Lia.
From GoGit Require Import Base.Out Model.DiffTree Spec.MapDiff
  Proofs.C44_order Proofs.C44_diff Proofs.C44_sort Proofs.C44_spec.
Import ListNotations.
Local Open Scope N_scope.

Definition name_ok (n : name) : bool := negb (match n with [] => true | _ => false end) && forallb (fun b => negb (b =? SLASH)) n.
Definition path_ok (p : path) : bool := forallb name_ok p.

Lemma name_ok_nonempty n : name_ok n = true -> n <> [].
Proof. destruct n; cbn; [discriminate|discriminate]. Qed.

Lemma name_ok_noslash n : name_ok n = true -> ~ In SLASH n.
Proof.
  unfold name_ok. intros H Hi. apply andb_true_iff in H as [_ H]. rewrite forallb_forall in H.
  specialize (H _ Hi). rewrite N.eqb_refl in H. discriminate.
Qed.

Lemma app_slash_inj (a b : bytes) r s :
  ~ In SLASH a -> ~ In SLASH b -> a ++ SLASH :: r = b ++ SLASH :: s -> a = b /\ r = s.
Proof.
  revert b; induction a as [|x a IH]; intros [|y b] Ha Hb H; cbn in H.
  - inversion H; auto.
  - inversion H; subst. exfalso. apply Hb. now left.
  - inversion H; subst. exfalso. apply Ha. now left.
  - inversion H; subst. destruct (IH b) as [-> ->]; auto.
    + intros Hi. apply Ha. now right.
    + intros Hi. apply Hb. now right.
Qed.

Lemma join_path_cons n p : p <> [] -> join_path (n :: p) = n ++ SLASH :: join_path p.
Proof. destruct p; [congruence|reflexivity]. Qed.

Lemma join_path_inj p : forall q,
  path_ok p = true -> path_ok q = true -> join_path p = join_path q -> p = q.
Proof.
  induction p as [|n p IH]; intros [|m q] Hp Hq H.
  - reflexivity.
  - exfalso. cbn in Hq. apply andb_true_iff in Hq as [Hm _]. apply name_ok_nonempty in Hm.
    destruct q; cbn in H; [congruence|]. destruct m; [congruence|discriminate].
  - exfalso. cbn in Hp. apply andb_true_iff in Hp as [Hn _]. apply name_ok_nonempty in Hn.
    destruct p; cbn in H; [congruence|]. destruct n; [congruence|discriminate].
  - cbn [path_ok forallb] in Hp, Hq. apply andb_true_iff in Hp as [Hn Hp]. apply andb_true_iff in Hq as [Hm Hq].
    pose proof (name_ok_noslash _ Hn) as Sn. pose proof (name_ok_noslash _ Hm) as Sm.
    destruct p as [|n2 p]; destruct q as [|m2 q].
    + cbn in H. congruence.
    + exfalso. rewrite (join_path_cons m (m2 :: q)) in H by discriminate. cbn [join_path] in H.
      apply Sn. rewrite H. apply in_or_app. right. now left.
    + exfalso. rewrite (join_path_cons n (n2 :: p)) in H by discriminate. cbn [join_path] in H.
      apply Sm. rewrite <- H. apply in_or_app. right. now left.
    + rewrite (join_path_cons n (n2 :: p)), (join_path_cons m (m2 :: q)) in H by discriminate.
      destruct (app_slash_inj _ _ _ _ Sn Sm H) as [-> Hr]. f_equal. apply IH; auto.
Qed.

Definition mchange_ok (c : mchange) : bool := match c with MIns p _ | MDel p _ | MMod p _ _ => path_ok p end.

Lemma to_chg_inj a b : mchange_ok a = true -> mchange_ok b = true -> to_chg a = to_chg b -> a = b.
Proof.
  destruct a as [p l|p l|p x y], b as [q m|q m|q u v]; cbn; intros Ha Hb H; inversion H; subst;
    try (f_equal; now apply join_path_inj).
Qed.

Fixpoint names_ok_node (x : node) : bool :=
  match x with
  | File _ => true
  | Dir cs => (fix go (cs : list (name * node)) : bool :=
                 match cs with [] => true | c :: r => name_ok (fst c) && names_ok_node (snd c) && go r end) cs
  end.
Definition names_ok (t : tree) : bool := names_ok_node (Dir t).

Lemma names_ok_dir cs :
  names_ok_node (Dir cs) = true <-> Forall (fun c => name_ok (fst c) = true /\ names_ok_node (snd c) = true) cs.
Proof.
  induction cs as [|c r IH]; [split; constructor|].
  change (names_ok_node (Dir (c :: r))) with (name_ok (fst c) && names_ok_node (snd c) && names_ok_node (Dir r)).
  rewrite !andb_true_iff, IH. split.
  - intros [[H1 H2] H3]. constructor; auto.
  - intros H. inversion H; subst. tauto.
Qed.

Lemma files_paths_ok x : names_ok_node x = true -> forall p l, In (p, l) (files x) -> path_ok p = true.
Proof.
  induction x as [l0|cs IH] using node_ind'; intros Hok p l Hi.
  - cbn in Hi. destruct Hi as [He|[]]. injection He as <- <-. reflexivity.
  - apply names_ok_dir in Hok. rewrite files_dir in Hi. apply in_files_l in Hi as (n & x & q & Hin & -> & Hq).
    rewrite Forall_forall in IH, Hok. destruct (Hok _ Hin) as [Hn Hx]. cbn [fst snd] in *.
    cbn [path_ok forallb]. rewrite Hn. cbn. apply (IH _ Hin Hx q l Hq).
Qed.

Lemma flatten_paths_ok t p l : names_ok t = true -> In (p, l) (flatten t) -> path_ok p = true.
Proof. intros Hok Hi. apply (files_paths_ok (Dir t) Hok p l). now rewrite files_dir. Qed.

Theorem difftree_object_layer a b cs :
  tree_ok a = true -> tree_ok b = true -> names_ok a = true -> names_ok b = true ->
  difftree a b = Some cs ->
  NoDup (map to_chg cs) /\ forall c c', In c cs -> In c' cs -> to_chg c = to_chg c' -> c = c'.
Proof.
  intros Ha Hb Na Nb Hd.
  assert (Hok : forall c, In c cs -> mchange_ok c = true).
  { intros c Hc. destruct (difftree_spec a b Ha Hb) as (cs' & Hd' & Hs). rewrite Hd in Hd'. inversion Hd'; subst cs'.
    apply Hs, SpecF_key in Hc. replace (mchange_ok c) with (path_ok (path_of c)) by now destruct c.
    destruct Hc as [(l & Hc)|(l & Hc)]; [exact (flatten_paths_ok a _ l Na Hc)|exact (flatten_paths_ok b _ l Nb Hc)]. }
  assert (Hinj : forall c c', In c cs -> In c' cs -> to_chg c = to_chg c' -> c = c').
  { intros c c' Hc Hc' He. apply to_chg_inj; auto. }
  split; [|exact Hinj].
  apply NoDup_map_in; [exact (difftree_nodup a b cs Ha Hb Hd)|exact Hinj].
Qed.
