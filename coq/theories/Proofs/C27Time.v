(* Proofs/C27Time.v — two-part time stamps: the comparisons of metadataMatches are
   the comparisons of the nanosecond counts Model/Status.v uses; the shortcut over
   a timeline of two-part stamps. *)
From Coq Require Import List NArith Arith Lia Bool ZifyBool ZifyN.
From GoGit Require Import Model.StatTime.
Import ListNotations.
Local Open Scope N_scope.

Lemma ts_ltb_spec a b :
  ts_ltb a b = true <-> (t_sec a < t_sec b \/ (t_sec a = t_sec b /\ t_nsec a < t_nsec b)).
Proof.
  unfold ts_ltb. rewrite orb_true_iff, andb_true_iff, !N.ltb_lt, N.eqb_eq. reflexivity.
Qed.

Lemma ts_eqb_ns a b : ts_wf a = true -> ts_wf b = true -> ts_eqb a b = (ts_ns a =? ts_ns b).
Proof.
  unfold ts_wf, ts_eqb, ts_ns, NANO. rewrite !N.ltb_lt. intros Ha Hb.
  apply eq_true_iff_eq. rewrite andb_true_iff, !N.eqb_eq. lia.
Qed.

Lemma ts_ltb_ns a b : ts_wf a = true -> ts_wf b = true -> ts_ltb a b = (ts_ns a <? ts_ns b).
Proof.
  unfold ts_wf, ts_ns, NANO. rewrite !N.ltb_lt. intros Ha Hb.
  apply eq_true_iff_eq. rewrite ts_ltb_spec, N.ltb_lt. lia.
Qed.

Definition tle (a b : ts) : Prop := ts_ltb b a = false.

Lemma tle_spec a b :
  tle a b <-> (t_sec a < t_sec b \/ (t_sec a = t_sec b /\ t_nsec a <= t_nsec b)).
Proof.
  unfold tle. split.
  - intros H. destruct (ts_ltb b a) eqn:E; [discriminate|]. clear H.
    assert (N : ~ (t_sec b < t_sec a \/ (t_sec b = t_sec a /\ t_nsec b < t_nsec a))).
    { intros C. apply ts_ltb_spec in C. congruence. }
    lia.
  - intros H. destruct (ts_ltb b a) eqn:E; [|reflexivity]. apply ts_ltb_spec in E. lia.
Qed.

Lemma tle_refl a : tle a a.
Proof. apply tle_spec. lia. Qed.

Lemma tle_lt_trans a b c : tle a b -> ts_ltb b c = true -> tle a c.
Proof. rewrite !tle_spec, ts_ltb_spec. lia. Qed.

Lemma lt_tle_false a b : ts_ltb a b = true -> tle b a -> False.
Proof. rewrite tle_spec, ts_ltb_spec. lia. Qed.

Definition mt_of (f : N * N * ts) : ts := snd f.

Definition inv (s : tls) : Prop :=
  tle (c_idx s) (c_clock s) /\ tle (mt_of (c_file s)) (c_clock s) /\
  match c_entry s with
  | None => True
  | Some e => c_file s = e \/ tle (c_idx s) (mt_of (c_file s))
  end.

Lemma inv_step s e : inv s -> (match e with ETouchIdx => False | _ => True end) -> inv (tls_step s e).
Proof.
  intros (H1 & H2 & H3) He. destruct e as [t|c sz| |]; cbn [tls_step].
  - destruct (ts_ltb (c_clock s) t && ts_wf t) eqn:E; [|repeat split; assumption].
    apply andb_true_iff in E as [E _].
    unfold inv; cbn [c_clock c_file c_entry c_idx]. repeat split.
    + eapply tle_lt_trans; eassumption.
    + eapply tle_lt_trans; eassumption.
    + exact H3.
  - unfold inv; cbn [c_clock c_file c_entry c_idx mt_of snd]. repeat split.
    + exact H1.
    + apply tle_refl.
    + destruct (c_entry s); [right; exact H1|exact I].
  - unfold inv; cbn [c_clock c_file c_entry c_idx]. repeat split.
    + apply tle_refl.
    + exact H2.
    + now left.
  - contradiction.
Qed.

Lemma inv_run h : forall s, inv s -> no_touch h = true -> inv (tls_run s h).
Proof.
  induction h as [|e h IH]; intros s Hi Hn; [exact Hi|].
  cbn [no_touch forallb] in Hn. apply andb_true_iff in Hn as [He Hn].
  cbn [tls_run fold_left]. apply IH; [|exact Hn]. apply inv_step; [exact Hi|].
  destruct e; try exact I. discriminate.
Qed.

Lemma tls_shortcut_sound c sz h :
  no_touch h = true ->
  tls_matches (tls_run (tls_init c sz) h) = true -> tls_same (tls_run (tls_init c sz) h) = true.
Proof.
  intros Hn Hm.
  assert (Hi : inv (tls_run (tls_init c sz) h)).
  { apply inv_run; [|exact Hn]. unfold inv, tls_init; cbn [c_clock c_file c_entry c_idx mt_of snd].
    repeat split; try apply tle_refl. }
  destruct Hi as (_ & _ & H3). unfold tls_matches in Hm. unfold tls_same.
  destruct (c_entry _) as [[[ec esz] emt]|]; [|discriminate].
  destruct (c_file _) as [[fc fsz] fmt] eqn:EF. cbn [mt_of snd] in H3.
  apply andb_true_iff in Hm as [Hm Hlt].
  destruct H3 as [H3|H3].
  - inversion H3; subst. apply N.eqb_refl.
  - exfalso. eapply lt_tle_false; eassumption.
Qed.
