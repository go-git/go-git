(* Proofs/C35Base.v — byte-string, list (sort_by, dedup_from), hexadecimal, object-id
   and scanner lemmas shared by the C35 message round trips. *)
From Coq Require Import List NArith ZArith Bool Lia Arith.
From GoGit Require Import Base.Out Base.GoInt Gen.C34 Model.PktLine Model.Packp
  Proofs.C34Stream Proofs.C34Hex Proofs.C34Pkt.
Import ListNotations.

Arguments MaxSizeN : simpl never.
Opaque MaxSizeN.

Lemma beq_refl a : beq a a = true.
Proof. induction a as [|x a IH]; [reflexivity|]. cbn. now rewrite N.eqb_refl, IH. Qed.

Lemma beq_eq a b : beq a b = true -> a = b.
Proof.
  revert b. induction a as [|x a IH]; intros [|y b] H; try discriminate; [reflexivity|].
  cbn in H. apply andb_prop in H. destruct H as [H1 H2]. apply N.eqb_eq in H1. f_equal; auto.
Qed.

Lemma beq_sym a b : beq a b = beq b a.
Proof.
  revert b. induction a as [|x a IH]; intros [|y b]; try reflexivity. cbn. now rewrite N.eqb_sym, IH.
Qed.

Lemma has_prefix_app p s : has_prefix p (p ++ s) = true.
Proof. induction p as [|x p IH]; [reflexivity|]. cbn. now rewrite N.eqb_refl, IH. Qed.

(* true when the two keywords differ at a position both have *)
Fixpoint clash (p q : bytes) : bool :=
  match p, q with a :: p', b :: q' => negb (N.eqb a b) || clash p' q' | _, _ => false end.

Lemma has_prefix_clash p q x : clash p q = true -> has_prefix p (q ++ x) = false.
Proof.
  revert q. induction p as [|a p IH]; intros [|b q] H; try discriminate. cbn in *.
  destruct (N.eqb a b); [now rewrite IH|reflexivity].
Qed.

Lemma has_prefix_word : forall p k x r, p <> [] ->
  forallb (fun c => negb (N.eqb c (last p 0%N))) k = true -> forallb (fun a => negb (N.eqb a x)) p = true ->
  has_prefix p (k ++ x :: r) = false.
Proof.
  induction p as [|a p IH]; intros k x r Hne Hk Hx; [contradiction|].
  cbn [forallb] in Hx. apply andb_prop in Hx. destruct Hx as [Hax Hx]. apply negb_true_iff in Hax.
  destruct k as [|c k]; cbn [app has_prefix]; [now rewrite Hax|].
  cbn [forallb] in Hk. apply andb_prop in Hk. destruct Hk as [Hc Hk]. destruct p as [|b p].
  - cbn [last] in Hc. apply negb_true_iff in Hc. now rewrite N.eqb_sym, Hc.
  - rewrite (IH k x r); [apply andb_false_r|discriminate|exact Hk|exact Hx].
Qed.

Lemma skipn_app_len {A} (p s : list A) : skipn (List.length p) (p ++ s) = s.
Proof. apply skipn_app_exact. reflexivity. Qed.

Lemma has_suffix_go_app suf : forall s, has_suffix_go suf (s ++ suf) (List.length s) = true.
Proof. induction s as [|x s IH]; cbn; [destruct suf; cbn; [reflexivity|apply (beq_refl (_ :: _))]|exact IH]. Qed.

Lemma has_suffix_app s suf : has_suffix suf (s ++ suf) = true.
Proof.
  unfold has_suffix. rewrite app_length. destruct (Nat.ltb_spec (List.length s + List.length suf) (List.length suf)); [lia|].
  replace (List.length s + List.length suf - List.length suf)%nat with (List.length s) by lia.
  apply has_suffix_go_app.
Qed.

Lemma trim_eol_app s : trim_eol (s ++ [NL]) = s.
Proof.
  unfold trim_eol, trim_suffix. rewrite has_suffix_app, app_length. cbn [List.length].
  replace (List.length s + 1 - 1)%nat with (List.length s) by lia. apply firstn_app_exact. reflexivity.
Qed.

Lemma has_suffix_go_true suf : forall s n, has_suffix_go suf s n = true -> s = firstn n s ++ suf.
Proof.
  induction s as [|x r IH]; intros n H.
  - destruct n; cbn in H; [|discriminate]. apply beq_eq in H. now subst.
  - destruct n; cbn in H.
    + apply beq_eq in H. now subst.
    + cbn [firstn app]. f_equal. now apply IH.
Qed.

Lemma trim_eol_id s : N.eqb NL (last s 0%N) = false -> trim_eol s = s.
Proof.
  intros H. unfold trim_eol, trim_suffix. destruct (has_suffix [NL] s) eqn:E; [|reflexivity].
  exfalso. unfold has_suffix in E. destruct (Nat.ltb (List.length s) (List.length [NL])); [discriminate|].
  apply has_suffix_go_true in E. rewrite E, last_last, N.eqb_refl in H. discriminate.
Qed.

Lemma index_byte_app c a b : forallb (fun x => negb (N.eqb x c)) a = true ->
  index_byte c (a ++ c :: b) = Some (List.length a).
Proof.
  induction a as [|x a IH]; intros H.
  - cbn. now rewrite N.eqb_refl.
  - cbn in H. apply andb_prop in H. destruct H as [H1 H2]. apply negb_true_iff in H1.
    cbn. rewrite H1, (IH H2). reflexivity.
Qed.

Lemma index_byte_none c a : forallb (fun x => negb (N.eqb x c)) a = true -> index_byte c a = None.
Proof.
  induction a as [|x a IH]; intros H; [reflexivity|].
  cbn in H. apply andb_prop in H. destruct H as [H1 H2]. apply negb_true_iff in H1.
  cbn. now rewrite H1, (IH H2).
Qed.

Lemma cut_app c a b : forallb (fun x => negb (N.eqb x c)) a = true -> cut c (a ++ c :: b) = Some (a, b).
Proof.
  intros H. unfold cut. rewrite (index_byte_app c a b H). f_equal. f_equal.
  - apply firstn_app_exact. reflexivity.
  - replace (S (List.length a)) with (List.length a + 1)%nat by lia.
    rewrite <- (skipn_skipn' 1 (List.length a)), skipn_app_len. reflexivity.
Qed.

Lemma cut_none c a : forallb (fun x => negb (N.eqb x c)) a = true -> cut c a = None.
Proof. intros H. unfold cut. now rewrite (index_byte_none c a H). Qed.

Definition no_byte (c : N) (s : bytes) : bool := forallb (fun x => negb (N.eqb x c)) s.

Lemma no_byte_app c a b : no_byte c (a ++ b) = no_byte c a && no_byte c b.
Proof. apply forallb_app. Qed.

Lemma split_on_nobyte c s : no_byte c s = true -> split_on c s = [s].
Proof.
  induction s as [|x s IH]; intros H; [reflexivity|].
  cbn in H. apply andb_prop in H. destruct H as [H1 H2]. apply negb_true_iff in H1.
  cbn. rewrite H1, (IH H2). reflexivity.
Qed.

Lemma split_on_app c a b : no_byte c a = true ->
  split_on c (a ++ c :: b) = a :: split_on c b.
Proof.
  induction a as [|x a IH]; intros H.
  - cbn. now rewrite N.eqb_refl.
  - cbn in H. apply andb_prop in H. destruct H as [H1 H2]. apply negb_true_iff in H1.
    cbn [app split_on]. rewrite H1, (IH H2). reflexivity.
Qed.

Lemma split_join c toks : toks <> [] -> forallb (no_byte c) toks = true ->
  split_on c (join [c] toks) = toks.
Proof.
  induction toks as [|t toks IH]; intros Hne H; [contradiction|].
  cbn in H. apply andb_prop in H. destruct H as [H1 H2].
  destruct toks as [|t2 toks]; [cbn; now apply split_on_nobyte|].
  cbn [join]. cbn [app]. rewrite (split_on_app c t _ H1). f_equal. apply IH; [discriminate|assumption].
Qed.

Lemma trim_space_id s : match s with [] => true | c :: _ => negb (is_space c) && negb (is_space (last s 0%N)) end = true ->
  trim_space s = s.
Proof.
  destruct s as [|c t]; [reflexivity|]. intros H. apply andb_prop in H. destruct H as [H1 H2].
  apply negb_true_iff in H1, H2. unfold trim_space. rewrite (trim_left_nonspace c t H1).
  destruct (rev (c :: t)) as [|x l] eqn:E.
  { apply (f_equal (@List.length N)) in E. rewrite rev_length in E. discriminate. }
  assert (last (c :: t) 0%N = x) as Hx.
  { rewrite <- (rev_involutive (c :: t)), E. cbn [rev]. apply last_last. }
  rewrite Hx in H2. rewrite (trim_left_nonspace x l H2), <- E. apply rev_involutive.
Qed.

(* injection would also evaluate closed packet lists *)
Lemma Some_inj {A} (x y : A) : Some x = Some y -> x = y.
Proof. now intros [= ->]. Qed.

Lemma forallb_Forall {A} (f : A -> bool) l : forallb f l = true <-> Forall (fun x => f x = true) l.
Proof. rewrite forallb_forall, Forall_forall. reflexivity. Qed.

Lemma forallb_map_all {A B} (f : B -> bool) (g : A -> B) l : (forall x, f (g x) = true) -> forallb f (map g l) = true.
Proof. intros H. induction l as [|x l IH]; [reflexivity|]. cbn [map forallb]. now rewrite H, IH. Qed.

Lemma forallb_map_impl {A B} (P : A -> bool) (f : B -> bool) (g : A -> B) l :
  (forall x, P x = true -> f (g x) = true) -> forallb P l = true -> forallb f (map g l) = true.
Proof.
  intros H. induction l as [|x l IH]; [reflexivity|]. cbn [map forallb]. intros Hl. apply andb_prop in Hl. now rewrite (H x), IH.
Qed.

Lemma forallb_impl {A} (f g : A -> bool) l : (forall x, f x = true -> g x = true) -> forallb f l = true -> forallb g l = true.
Proof. rewrite !forallb_forall. auto. Qed.

Lemma last_In {A} (l : list A) d : l <> [] -> In (last l d) l.
Proof.
  destruct l as [|x l]; [contradiction|]. intros _. revert x. induction l as [|y l IH]; intros x; [now left|right; apply IH].
Qed.

Lemma forallb_last (f : N -> bool) l : l <> [] -> forallb f l = true -> f (last l 0%N) = true.
Proof. intros Hne H. rewrite forallb_forall in H. now apply H, last_In. Qed.

Lemma last_app_ne {A} (a b : list A) d : b <> [] -> last (a ++ b) d = last b d.
Proof.
  intros H. induction a as [|x a IH]; [reflexivity|].
  cbn [app]. destruct (a ++ b) as [|y l] eqn:E; [destruct a; [contradiction|discriminate]|exact IH].
Qed.

(* a decoder loop that appends one value per line consumes a run of such lines at once *)
Lemma lines_acc {X I S R} (go : list I -> S -> R) (line : X -> I) (st : list X -> S) (P : X -> Prop) :
  (forall x r acc, P x -> go (line x :: r) (st acc) = go r (st (acc ++ [x]))) ->
  forall xs r acc, Forall P xs -> go (map line xs ++ r) (st acc) = go r (st (acc ++ xs)).
Proof.
  intros step. induction xs as [|x xs IH]; intros r acc H; [now rewrite app_nil_r|].
  inversion_clear H. cbn [map app]. rewrite step, IH, <- app_assoc by assumption. reflexivity.
Qed.

Lemma insert_by_Forall {A} (P : A -> Prop) lt x l : P x -> Forall P l -> Forall P (insert_by lt x l).
Proof.
  intros Hx Hl. induction Hl as [|y l Hy Hl IH]; cbn; [now repeat constructor|].
  destruct (lt x y); repeat constructor; auto.
Qed.

Lemma sort_by_Forall {A} (P : A -> Prop) lt l : Forall P l -> Forall P (sort_by lt l).
Proof.
  unfold sort_by. assert (forall acc, Forall P acc -> Forall P l -> Forall P (fold_left (fun a x => insert_by lt x a) l acc)) as K.
  { induction l as [|x l IH]; intros acc Ha Hl; [assumption|]. cbn. apply IH; [|now inversion Hl].
    apply insert_by_Forall; [now inversion Hl|assumption]. }
  intros H. apply K; [constructor|assumption].
Qed.

Lemma dedup_from_Forall (P : hash -> Prop) : forall l last, Forall P l -> Forall P (dedup_from last l).
Proof.
  induction l as [|h l IH]; intros last H; [constructor|]. inversion H; subst. cbn.
  destruct (hash_same last h); [now apply IH|constructor; auto].
Qed.

Lemma sort_by_In {A} (lt : A -> A -> bool) l x : In x (sort_by lt l) -> In x l.
Proof.
  intros H. assert (Forall (fun y => In y l) (sort_by lt l)) as F.
  { apply sort_by_Forall. apply Forall_forall. auto. }
  rewrite Forall_forall in F. auto.
Qed.

Lemma insert_by_length {A} lt (x : A) l : List.length (insert_by lt x l) = S (List.length l).
Proof. induction l as [|y l IH]; [reflexivity|]. cbn. destruct (lt x y); cbn; [reflexivity|now rewrite IH]. Qed.

Lemma sort_by_length {A} lt (l : list A) : List.length (sort_by lt l) = List.length l.
Proof.
  unfold sort_by. assert (forall acc, List.length (fold_left (fun a x => insert_by lt x a) l acc) = (List.length acc + List.length l)%nat) as K.
  { induction l as [|x l IH]; intros acc; [cbn; lia|]. cbn [fold_left List.length]. rewrite IH, insert_by_length. lia. }
  now rewrite K.
Qed.

Definition hexdigits : bytes := map hexdig [0; 1; 2; 3; 4; 5; 6; 7; 8; 9; 10; 11; 12; 13; 14; 15]%N.

Lemma hexdig_in n : (n < 16)%N -> In (hexdig n) hexdigits.
Proof.
  intros H. apply in_map. rewrite <- (N2Nat.id n). assert (N.to_nat n < 16)%nat as Hk by lia. revert Hk. generalize (N.to_nat n). clear.
  intros k Hk. do 16 (destruct k as [|k]; [cbn; auto 20|]). lia.
Qed.

Lemma hexdig_all (P : N -> bool) : forallb P hexdigits = true -> forall n, (n < 16)%N -> P (hexdig n) = true.
Proof. intros H n Hn. rewrite forallb_forall in H. now apply H, hexdig_in. Qed.

Lemma hexv_hexdig n : (n < 16)%N -> hexv (hexdig n) = Some n.
Proof.
  intros H. unfold hexv, hexdig. destruct (N.ltb_spec n 10).
  - rewrite (proj2 (N.leb_le 48 (48 + n))), (proj2 (N.leb_le (48 + n) 57)) by lia. cbn [andb]. f_equal. lia.
  - rewrite (proj2 (N.leb_gt (87 + n) 57)), andb_false_r by lia.
    rewrite (proj2 (N.leb_le 97 (87 + n))), (proj2 (N.leb_le (87 + n) 102)) by lia. cbn [andb]. f_equal. lia.
Qed.

Definition byte_ok (c : N) : bool := N.ltb c 256.

Lemma nib_hi c : (c < 256)%N -> (N.shiftr c 4 mod 16 < 16)%N /\ (c mod 16 < 16)%N /\
  (16 * (N.shiftr c 4 mod 16) + c mod 16 = c)%N.
Proof.
  intros H. rewrite N.shiftr_div_pow2. change (2 ^ 4)%N with 16%N.
  assert (c / 16 < 16)%N as Hd by (apply N.div_lt_upper_bound; lia).
  rewrite (N.mod_small (c / 16) 16 Hd). repeat split; [assumption|apply N.mod_lt; lia|].
  symmetry. apply N.div_mod. lia.
Qed.

Lemma of_to_hex b : forallb byte_ok b = true -> of_hex (to_hex b) = Some b.
Proof.
  induction b as [|c b IH]; intros H; [reflexivity|].
  cbn in H. apply andb_prop in H. destruct H as [H1 H2]. apply N.ltb_lt in H1.
  destruct (nib_hi c H1) as (Ha & Hb & Hc).
  cbn [to_hex of_hex]. rewrite (hexv_hexdig _ Ha), (hexv_hexdig _ Hb), (IH H2), Hc. reflexivity.
Qed.

Lemma to_hex_length b : List.length (to_hex b) = (2 * List.length b)%nat.
Proof. induction b as [|c b IH]; [reflexivity|]. cbn [to_hex List.length]. lia. Qed.

Lemma to_hex_all (P : N -> bool) b : forallb P hexdigits = true -> forallb byte_ok b = true -> forallb P (to_hex b) = true.
Proof.
  intros HP. induction b as [|c b IH]; intros H; [reflexivity|].
  cbn in H. apply andb_prop in H. destruct H as [H1 H2]. apply N.ltb_lt in H1.
  destruct (nib_hi c H1) as (Ha & Hb & _).
  cbn [to_hex forallb]. now rewrite (hexdig_all P HP _ Ha), (hexdig_all P HP _ Hb), (IH H2).
Qed.

(* what the decoders need of a hex digit: no white space, no SP, no NL, no NUL *)
Definition hexchar (c : N) : bool := negb (is_space c) && negb (N.eqb c SP) && negb (N.eqb NL c) && negb (N.eqb c NUL).

Lemma hexchar_nonspace c : hexchar c = true -> is_space c = false /\ N.eqb NL c = false /\ N.eqb c SP = false /\ N.eqb c NUL = false.
Proof.
  unfold hexchar. intros H. repeat (apply andb_prop in H; destruct H as [H ?]).
  repeat split; now apply negb_true_iff.
Qed.

Lemma hexdig_nonspace n : (n < 16)%N -> is_space (hexdig n) = false /\ N.eqb NL (hexdig n) = false /\ N.eqb (hexdig n) SP = false.
Proof. intros H. pose proof (hexchar_nonspace _ (hexdig_all hexchar eq_refl n H)). tauto. Qed.

Lemma In_firstn' {A} (x : A) : forall n l, In x (firstn n l) -> In x l.
Proof.
  induction n as [|n IH]; intros l H; [contradiction|].
  destruct l as [|y l]; [contradiction|]. cbn in H. destruct H as [H|H]; [now left|right; now apply IH].
Qed.

Lemma forallb_firstn {A} (f : A -> bool) n l : forallb f l = true -> forallb f (firstn n l) = true.
Proof. rewrite !forallb_forall. intros H x Hx. apply H. eapply In_firstn'; eauto. Qed.

(* the array has 32 bytes, and a SHA-1 id has zeros beyond its 20 bytes
   (what FromHex / the hashers produce) *)
Definition hash_ok (h : hash) : bool :=
  Nat.eqb (List.length (hb h)) 32 && forallb byte_ok (hb h) &&
  (h256 h || beq (skipn 20 (hb h)) (repeat 0%N 12)).

Lemma hash_bytes_ok h : hash_ok h = true -> forallb byte_ok (hash_bytes h) = true /\ List.length (hash_bytes h) = hash_size h.
Proof.
  unfold hash_ok. intros H. apply andb_prop in H. destruct H as [H H3]. apply andb_prop in H. destruct H as [H1 H2].
  apply Nat.eqb_eq in H1. unfold hash_bytes. split.
  - now apply forallb_firstn.
  - rewrite firstn_length, H1. unfold hash_size. destruct (h256 h); reflexivity.
Qed.

Lemma hash_str_length h : hash_ok h = true -> List.length (hash_str h) = hash_hexsize h.
Proof.
  intros H. destruct (hash_bytes_ok h H) as [_ L]. unfold hash_str, hash_hexsize. now rewrite to_hex_length, L.
Qed.

Lemma hash_str_all (P : N -> bool) h : forallb P hexdigits = true -> hash_ok h = true -> forallb P (hash_str h) = true.
Proof. intros HP H. apply to_hex_all; [assumption|]. now destruct (hash_bytes_ok h H). Qed.

Lemma hexsize_ok h : Nat.eqb (hash_hexsize h) 40 || Nat.eqb (hash_hexsize h) 64 = true.
Proof. unfold hash_hexsize, hash_size. destruct (h256 h); reflexivity. Qed.

Lemma hash_str_min h : hash_ok h = true -> (40 <= List.length (hash_str h))%nat.
Proof.
  intros H. rewrite (hash_str_length h H). unfold hash_hexsize, hash_size. apply Nat.leb_le. destruct (h256 h); reflexivity.
Qed.

Lemma hash_str_ne h : hash_ok h = true -> hash_str h <> [].
Proof. intros H E. pose proof (hash_str_min h H) as L. rewrite E in L. inversion L. Qed.

Lemma hash_str_nospace h : hash_ok h = true -> no_byte SP (hash_str h) = true /\ N.eqb NL (last (hash_str h) 0%N) = false.
Proof.
  intros Hok. split.
  - now apply (hash_str_all (fun x => negb (N.eqb x SP))).
  - apply negb_true_iff, (forallb_last (fun x => negb (N.eqb NL x))); [now apply hash_str_ne|now apply hash_str_all].
Qed.

Lemma hash_str_head (P : N -> bool) h : forallb P hexdigits = true -> hash_ok h = true ->
  exists c t, hash_str h = c :: t /\ P c = true.
Proof.
  intros HP Hok. pose proof (hash_str_all P h HP Hok) as A. destruct (hash_str h) as [|c t] eqn:E; [now apply hash_str_ne in E|].
  cbn [forallb] in A. apply andb_prop in A. exists c, t. tauto.
Qed.

(* so a line that begins with an id does not begin with a keyword whose first letter is no hex digit *)
Lemma hash_str_no_prefix c p h x : forallb (fun d => negb (N.eqb c d)) hexdigits = true -> hash_ok h = true ->
  has_prefix (c :: p) (hash_str h ++ x) = false.
Proof.
  intros Hc Hok. destruct (hash_str_head _ h Hc Hok) as (d & t & -> & Hd). apply negb_true_iff in Hd.
  cbn [app has_prefix]. now rewrite Hd.
Qed.

Lemma hash_str_not_kw c kw h x : forallb (fun d => negb (N.eqb c d)) hexdigits = true -> hash_ok h = true ->
  beq (hash_str h ++ x) (c :: kw) = false.
Proof.
  intros Hc Hok. destruct (hash_str_head _ h Hc Hok) as (d & t & -> & Hd). apply negb_true_iff in Hd.
  cbn [app beq]. now rewrite N.eqb_sym, Hd.
Qed.

Lemma hash_str_no_errline h x : hash_ok h = true -> no_errline (PData (hash_str h ++ x)) = true.
Proof. intros H. apply negb_true_iff, (hash_str_no_prefix 69 (skipn 1 errPrefix) h x eq_refl H). Qed.

(* FromHex (h.String()) = h *)
Lemma from_hex_str h : hash_ok h = true -> from_hex (hash_str h) = (h, true).
Proof.
  intros H. pose proof (hash_bytes_ok h H) as [Hb Hl]. pose proof (hash_str_length h H) as Hs.
  unfold hash_ok in H. apply andb_prop in H. destruct H as [H H3]. apply andb_prop in H. destruct H as [H1 H2].
  apply Nat.eqb_eq in H1. unfold from_hex, hash_str. rewrite (of_to_hex _ Hb).
  fold (hash_str h). rewrite Hs. unfold hash_hexsize, hash_size.
  destruct h as [b f]. cbn [hb h256] in *. unfold hash_bytes, hash_size, pad32. cbn [hb h256].
  destruct f.
  - change (2 * 32 =? 64)%nat with true. f_equal. f_equal.
    rewrite (firstn_all2 b) by lia. rewrite firstn_app, H1, Nat.sub_diag.
    change (firstn 0 zero32) with (@nil N). rewrite app_nil_r. apply firstn_all2. lia.
  - change (2 * 20 =? 64)%nat with false. f_equal. f_equal. cbn [orb] in H3. apply beq_eq in H3.
    rewrite <- (firstn_skipn 20 b) at 2. rewrite H3.
    rewrite firstn_app, firstn_length, H1. change (Nat.min 20 32) with 20%nat. change (32 - 20)%nat with 12%nat.
    rewrite (firstn_all2 (firstn 20 b)) by (rewrite firstn_length; lia). reflexivity.
Qed.

(* hashFrom: the id at the head of a line, up to the first space or the end *)
Lemma hash_from_sp h x : hash_ok h = true -> hash_from (hash_str h ++ SP :: x) = Some h.
Proof.
  intros Hok. destruct (hash_str_nospace h Hok) as [Hns _]. pose proof (hash_str_length h Hok) as HL.
  unfold hash_from. rewrite (index_byte_app SP _ x Hns), HL, hexsize_ok, (firstn_app_exact _ _ _ HL). now rewrite (from_hex_str h Hok).
Qed.

Lemma hash_from_only h : hash_ok h = true -> hash_from (hash_str h) = Some h.
Proof.
  intros Hok. destruct (hash_str_nospace h Hok) as [Hns _]. pose proof (hash_str_length h Hok) as HL.
  unfold hash_from. rewrite (index_byte_none SP _ Hns), HL, hexsize_ok, <- HL, firstn_all. now rewrite (from_hex_str h Hok).
Qed.

Lemma new_hash_str h : hash_ok h = true -> new_hash (hash_str h) = h.
Proof. intros H. unfold new_hash. now rewrite (from_hex_str h H). Qed.

Definition item_of (p : pkt) : item :=
  match p with
  | PData [] => (4%Z, [])
  | PData b => ((zlen b + 4)%Z, b)
  | PFlush => (0%Z, [])
  | PDelim => (1%Z, [])
  | PResponseEnd => (2%Z, [])
  end.

Lemma item_of_ne b : (0 < List.length b)%nat -> item_of (PData b) = ((zlen b + 4)%Z, b).
Proof. destruct b; [cbn; lia|reflexivity]. Qed.

Lemma item_nz b : ((zlen b + 4 =? 0)%Z) = false.
Proof. unfold zlen. destruct (Z.eqb_spec (Z.of_nat (List.length b) + 4) 0); [lia|reflexivity]. Qed.

Lemma src_of_items_app l d :
  src_of_items (l ++ [d]) = mksrc (map (fun x => (rd_len x, rd_payload x)) l) (rd_err d).
Proof.
  induction l as [|x l IH]; [reflexivity|].
  cbn [app]. destruct (l ++ [d]) as [|y r] eqn:E; [destruct l; discriminate|].
  change (src_of_items (x :: y :: r)) with
    (mksrc ((rd_len x, rd_payload x) :: s_items (src_of_items (y :: r))) (s_fin (src_of_items (y :: r)))).
  rewrite IH. reflexivity.
Qed.

Lemma rd_of_pkt_item p : pkt_ok p = true -> no_errline p = true ->
  (rd_len (rd_of_pkt MaxSizeN p), rd_payload (rd_of_pkt MaxSizeN p)) = item_of p.
Proof.
  intros Hok Hne. destruct (rd_of_pkt_max p Hok Hne) as [_ ->].
  destruct p as [b| | |]; try reflexivity. destruct b; reflexivity.
Qed.

(* any chunking of the encoded packets is seen by a decoder as the packets themselves *)
Theorem src_enc ps s r :
  enc_pkts ps = Some s -> forallb no_errline ps = true -> concat r = s ->
  src_of (scan_all r) = mksrc (map item_of ps) None.
Proof.
  intros He Hne Hr. rewrite (scan_all_enc ps s r He Hr Hne). cbn [src_of].
  rewrite src_of_items_app. cbn [rd_err]. f_equal. rewrite map_map.
  pose proof (enc_pkts_ok _ _ He) as Hok. clear He Hr.
  induction ps as [|p ps IH]; [reflexivity|].
  cbn [forallb] in Hok, Hne. apply andb_prop in Hok, Hne. destruct Hok as [O1 O2], Hne as [N1 N2].
  cbn [map]. rewrite (rd_of_pkt_item p O1 N1), (IH N2 O2). reflexivity.
Qed.
