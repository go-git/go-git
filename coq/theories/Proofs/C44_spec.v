(* Proofs/C44_spec.v — DiffTree = map_diff of the flattened trees (as sets), no change reported twice,
   and applying the reported changes to the first tree's map gives the second one. *)
From Coq Require Import List NArith Bool Arith Lia.
From GoGit Require Import Base.Out Model.DiffTree Spec.MapDiff Proofs.C44_order Proofs.C44_diff Proofs.C44_sort.
Import ListNotations.

Definition keys_unique (A : fmap) : Prop := forall p a b, In (p, a) A -> In (p, b) A -> a = b.

Lemma SpecF_ext A A' B B' c :
  (forall e, In e A <-> In e A') -> (forall e, In e B <-> In e B') -> SpecF A B c <-> SpecF A' B' c.
Proof.
  intros HA HB. destruct c; cbn [SpecF]; setoid_rewrite HA; setoid_rewrite HB; reflexivity.
Qed.

Lemma flatten_keys_unique t : tree_ok t = true -> keys_unique (flatten t).
Proof.
  intros Hok p a b Ha Hb. destruct (sort_tree_ok t Hok) as [Hw Hf].
  apply (proj2 files_keys_unique (sort_tree t) Hw p a b); now apply Hf.
Qed.

Lemma difftree_diff_of a b :
  tree_ok a = true -> tree_ok b = true ->
  exists cs, difftree a b = Some cs /\ diff_of cs (flatten a) (flatten b).
Proof.
  intros Ha Hb. destruct (sort_tree_ok a Ha) as [Hwa Hfa]. destruct (sort_tree_ok b Hb) as [Hwb Hfb].
  unfold difftree.
  destruct (diffl_spec (S (tree_size (sort_tree a) + tree_size (sort_tree b))) _ _ Hwa Hwb) as (cs & Hd & Hn & Hs); [lia|].
  exists cs. split; [exact Hd|]. split; [exact Hn|]. intros c. rewrite Hs. unfold flatten.
  apply SpecF_ext; intros [p l]; auto.
Qed.

Lemma difftree_spec a b :
  tree_ok a = true -> tree_ok b = true ->
  exists cs, difftree a b = Some cs /\ forall c, In c cs <-> SpecF (flatten a) (flatten b) c.
Proof. intros Ha Hb. destruct (difftree_diff_of a b Ha Hb) as (cs & Hd & _ & Hs). eauto. Qed.

Theorem difftree_nodup a b cs :
  tree_ok a = true -> tree_ok b = true -> difftree a b = Some cs -> NoDup cs.
Proof. intros Ha Hb Hd. destruct (difftree_diff_of a b Ha Hb) as (cs' & Hd' & Hn & _). congruence. Qed.

Lemma path_eqb_eq p q : path_eqb p q = true <-> p = q.
Proof.
  revert q; induction p as [|a p IH]; intros [|b q]; cbn; split; intros H; try congruence; try discriminate.
  - apply andb_true_iff in H as [H1 H2]. apply bytes_eqb_eq in H1. apply IH in H2. congruence.
  - inversion H; subst. apply andb_true_iff. split; [apply bytes_eqb_refl | now apply IH].
Qed.

Lemma path_eqb_refl p : path_eqb p p = true.
Proof. now apply path_eqb_eq. Qed.

Lemma lookup_some p m l : lookup p m = Some l -> In (p, l) m.
Proof.
  induction m as [|[q l'] r IH]; cbn; [discriminate|].
  destruct (path_eqb p q) eqn:He.
  - apply path_eqb_eq in He. intros H; inversion H; subst. now left.
  - intros H. right. auto.
Qed.

Lemma lookup_none p m : lookup p m = None <-> ~ exists l, In (p, l) m.
Proof.
  induction m as [|[q l'] r IH]; cbn.
  - split; [intros _ (l & []) | reflexivity].
  - destruct (path_eqb p q) eqn:He.
    + apply path_eqb_eq in He. subst. split; [discriminate|]. intros H. exfalso. apply H. exists l'. now left.
    + rewrite IH. split.
      * intros H (l & [Hl|Hl]); [inversion Hl; subst; rewrite path_eqb_refl in He; discriminate|]. apply H. eauto.
      * intros H (l & Hl). apply H. eauto.
Qed.

Lemma lookup_in p m l : keys_unique m -> In (p, l) m -> lookup p m = Some l.
Proof.
  intros U Hi. destruct (lookup p m) as [l'|] eqn:Hl.
  - apply lookup_some in Hl. f_equal. eapply U; eauto.
  - exfalso. apply (proj1 (lookup_none p m) Hl). eauto.
Qed.

Lemma map_diff_spec A B c : keys_unique B -> In c (map_diff A B) <-> SpecF A B c.
Proof.
  intros UB. unfold map_diff. rewrite in_app_iff, !in_flat_map. split.
  - intros [([p l] & Hi & Hc)|([p l] & Hi & Hc)]; cbn [fst snd] in Hc.
    + destruct (lookup p B) as [l'|] eqn:Hl.
      * destruct (leaf_eqb l l') eqn:He; [destruct Hc|]. destruct Hc as [<-|[]]. cbn.
        repeat split; auto. now apply lookup_some.
      * destruct Hc as [<-|[]]. cbn. split; [exact Hi|]. now apply lookup_none.
    + destruct (lookup p A) as [l'|] eqn:Hl; [destruct Hc|]. destruct Hc as [<-|[]]. cbn.
      split; [exact Hi|]. now apply lookup_none.
  - destruct c as [p l|p l|p a b]; cbn.
    + intros [Hi Hk]. right. exists (p, l). split; [exact Hi|]. cbn.
      apply lookup_none in Hk. rewrite Hk. now left.
    + intros [Hi Hk]. left. exists (p, l). split; [exact Hi|]. cbn.
      apply lookup_none in Hk. rewrite Hk. now left.
    + intros (Ha & Hb & Hne). left. exists (p, a). split; [exact Ha|]. cbn.
      rewrite (lookup_in p B b UB Hb), Hne. now left.
Qed.

Lemma difftree_eq_map_diff a b :
  tree_ok a = true -> tree_ok b = true ->
  exists cs, difftree a b = Some cs /\
             forall c, In c cs <-> In c (map_diff (flatten a) (flatten b)).
Proof.
  intros Ha Hb. destruct (difftree_spec a b Ha Hb) as (cs & Hd & Hs).
  exists cs. split; [exact Hd|]. intros c. rewrite Hs. symmetry. apply map_diff_spec.
  now apply flatten_keys_unique.
Qed.

Lemma leaf_eqb_refl' l : leaf_eqb l l = true.
Proof. apply leaf_eqb_refl. Qed.

Lemma untouched p cs : existsb (touches p) cs = false <-> forall c, In c cs -> path_of c <> p.
Proof.
  assert (T : forall c, touches p c = path_eqb p (path_of c)) by now intros [].
  rewrite <- not_true_iff_false, existsb_exists. split.
  - intros H c Hc <-. apply H. exists c. split; [exact Hc|]. rewrite T. apply path_eqb_refl.
  - intros H (c & Hc & E). rewrite T in E. apply path_eqb_eq in E. exact (H c Hc (eq_sym E)).
Qed.

Lemma in_apply_changes cs A p l :
  In (p, l) (apply_changes cs A) <->
  (In (p, l) A /\ forall c, In c cs -> path_of c <> p) \/ exists c, In c cs /\ In (p, l) (result_of c).
Proof.
  unfold apply_changes. rewrite in_app_iff, filter_In, in_flat_map. cbn [fst]. now rewrite negb_true_iff, untouched.
Qed.

Lemma changes_complete A B cs :
  keys_unique A -> keys_unique B ->
  (forall c, In c cs <-> SpecF A B c) ->
  fmap_equiv (apply_changes cs A) B.
Proof.
  (* both inclusions by cases on what the other map holds at the path:
     nothing, an equivalent leaf, another leaf *)
  intros UA UB Hs. split.
  - intros p l Hi. apply in_apply_changes in Hi as [[Hi Hno]|(c & Hc & Hr)].
    + destruct (lookup p B) as [l'|] eqn:Hl.
      * apply lookup_some in Hl. exists l'. split; [exact Hl|]. destruct (leaf_eqb l l') eqn:He; [reflexivity|].
        elim (Hno (MMod p l l')); [apply Hs; cbn; auto|reflexivity].
      * elim (Hno (MDel p l)); [apply Hs; split; [exact Hi|now apply lookup_none]|reflexivity].
    + apply Hs in Hc. destruct c as [q l0|q l0|q a b]; cbn in Hr; [|destruct Hr|]; destruct Hr as [[= -> ->]|[]];
        exists l; (split; [apply Hc|apply leaf_eqb_refl]).
  - intros p l' Hb. setoid_rewrite in_apply_changes. destruct (lookup p A) as [l|] eqn:Hl.
    + apply lookup_some in Hl. destruct (leaf_eqb l l') eqn:He.
      * exists l. split; [|exact He]. left. split; [exact Hl|].
        intros c Hc <-. apply Hs in Hc. destruct c as [q l0|q l0|q a b]; cbn in Hc, Hl, Hb.
        -- destruct Hc as [_ Hk]. apply Hk. eauto.
        -- destruct Hc as [_ Hk]. apply Hk. eauto.
        -- destruct Hc as (Ha & Hb' & Hne). rewrite (UA _ _ _ Ha Hl), (UB _ _ _ Hb' Hb) in Hne. congruence.
      * exists l'. split; [|apply leaf_eqb_refl]. right. exists (MMod p l l'). split; [apply Hs; cbn; auto|now left].
    + exists l'. split; [|apply leaf_eqb_refl]. right. exists (MIns p l'). split; [|now left].
      apply Hs. split; [exact Hb|now apply lookup_none].
Qed.

Lemma difftree_complete a b :
  tree_ok a = true -> tree_ok b = true ->
  exists cs, difftree a b = Some cs /\ fmap_equiv (apply_changes cs (flatten a)) (flatten b).
Proof.
  intros Ha Hb. destruct (difftree_spec a b Ha Hb) as (cs & Hd & Hs).
  exists cs. split; [exact Hd|]. apply changes_complete; auto using flatten_keys_unique.
Qed.
