(* Proofs/C10Prefix.v — EntriesWithPrefix: the lower-bound search for the prefix padded
   with zeros followed by the stop-at-first-mismatch walk enumerates exactly the entries
   whose id starts with the prefix, in id order (LazyIndex and MemoryIndex). *)
From Coq Require Import List NArith ZArith Bool Lia ZifyBool ZifyNat ZifyN Sorting.Sorted.
From GoGit Require Import Base.Out Model.PackBytes Model.Idx Spec.IdxFormat Proofs.C10Order Proofs.C10Bytes Proofs.C10Table Proofs.C10Layout Proofs.C10Lookup Proofs.C10Lazy Proofs.C10Splits Proofs.C10Decode Proofs.C10Memory.
Import ListNotations.
Local Open Scope N_scope.

Lemma pad_to_cons k y p : pad_to (S k) (y :: p) = y :: pad_to k p.
Proof. unfold pad_to. cbn [firstn List.length Nat.sub app]. reflexivity. Qed.

Lemma cmp_zeros h : bytes_cmp h (repeat 0 (List.length h)) <> Lt.
Proof.
  induction h as [|x h IH]; cbn; [discriminate|].
  destruct (x ?= 0) eqn:E; try discriminate; [exact IH|].
  rewrite N.compare_lt_iff in E. lia.
Qed.

Lemma prefix_ge_target : forall p h,
  has_prefix h p = true -> bytes_cmp h (pad_to (List.length h) p) <> Lt.
Proof.
  induction p as [|y p IH]; intros h Hp.
  - unfold pad_to. rewrite firstn_nil. cbn [app List.length]. rewrite Nat.sub_0_r. apply cmp_zeros.
  - destruct h as [|x h]; [discriminate|]. cbn [has_prefix] in Hp. apply andb_true_iff in Hp. destruct Hp as [Exy Hp].
    apply N.eqb_eq in Exy. subst y. cbn [List.length]. rewrite pad_to_cons. cbn [bytes_cmp].
    rewrite N.compare_refl. now apply IH.
Qed.

(* past the first id at or above the target that does not start with p, no id starts with p *)
Lemma no_prefix_after : forall p h h',
  List.length h = List.length h' ->
  bytes_cmp h (pad_to (List.length h) p) <> Lt -> has_prefix h p = false -> bytes_cmp h h' = Lt ->
  has_prefix h' p = false.
Proof.
  induction p as [|y p IH]; intros h h' Hl Hge Hnp Hlt.
  - destruct h; discriminate.
  - destruct h as [|x h]; destruct h' as [|x' h']; try (cbn in *; discriminate).
    cbn [List.length] in *. rewrite pad_to_cons in Hge. cbn [bytes_cmp has_prefix] in *.
    destruct (N.eqb_spec x' y) as [->|_]; [cbn [andb]|reflexivity].
    (* h' starts with y: x <= y as h < h', y <= x as h is not below the target *)
    destruct (N.compare_spec x y) as [->|_|_]; [|congruence|discriminate].
    rewrite N.eqb_refl in Hnp. apply (IH h h'); auto.
Qed.

Lemma prefix_first_byte h y p : has_prefix h (y :: p) = true -> hd 0 h = y.
Proof. destruct h as [|x h]; [discriminate|]. cbn. intros E. apply andb_true_iff in E. destruct E as [E _]. now apply N.eqb_eq. Qed.

Fixpoint take_while (f : entry -> bool) (l : list entry) : list entry :=
  match l with [] => [] | e :: r => if f e then e :: take_while f r else [] end.

Lemma filter_none {A} (f : A -> bool) l : (forall x, In x l -> f x = false) -> filter f l = [].
Proof.
  induction l as [|x l IH]; intros G; cbn; [reflexivity|]. rewrite G by now left. apply IH. intros; apply G; now right.
Qed.

(* a walk over positions [k,hi) that stops at the first element failing f collects all of [filter f l]
   when no element outside [k,hi) passes f and, inside, none passes after one that fails *)
Lemma take_while_seg (f : entry -> bool) : forall (l : list entry) k hi d,
  (k <= hi)%nat -> (hi <= List.length l)%nat ->
  (forall i, (i < List.length l)%nat -> (i < k \/ hi <= i)%nat -> f (nth i l d) = false) ->
  (forall i j, (k <= i)%nat -> (i < j)%nat -> (j < hi)%nat -> f (nth i l d) = false -> f (nth j l d) = false) ->
  take_while f (firstn (hi - k) (skipn k l)) = filter f l.
Proof.
  induction l as [|x l IH]; intros k hi d Hk Hh Hout Hmono; [now destruct k, hi|].
  cbn [List.length] in *. destruct k as [|k].
  - cbn [skipn]. rewrite Nat.sub_0_r.
    assert (Hrest : f x = false \/ hi = 0%nat -> filter f (x :: l) = []).
    { intros Hx. apply filter_none. intros y Hy. destruct (In_nth _ _ d Hy) as (i & Hi & <-). cbn [List.length] in Hi.
      destruct (Nat.lt_ge_cases i hi); [|apply Hout; lia]. destruct Hx as [Hx|]; [|lia].
      destruct i; [exact Hx|]. apply (Hmono 0%nat); auto; lia. }
    destruct hi as [|hi]; [now rewrite Hrest by auto|].
    destruct (f x) eqn:Ex; [|now cbn [firstn take_while]; rewrite Ex, Hrest by auto].
    cbn [firstn take_while filter]. rewrite Ex. f_equal. rewrite <- (IH 0%nat hi d), Nat.sub_0_r; try lia; [reflexivity| |].
    + intros i Hi Hor. apply (Hout (S i)); lia.
    + intros i j Hi Hij Hj. apply (Hmono (S i) (S j)); lia.
  - destruct hi as [|hi]; [lia|]. assert (Hx : f x = false) by (apply (Hout 0%nat); lia).
    cbn [skipn filter]. rewrite Hx, Nat.sub_succ.
    apply (IH k hi d); try lia; intros; [apply (Hout (S i))|apply (Hmono (S i) (S j))]; auto; lia.
Qed.

Lemma with_prefix_nil (l : list entry) : with_prefix l [] = l.
Proof.
  induction l as [|e l IH]; cbn [with_prefix filter]; [reflexivity|].
  replace (has_prefix (e_hash e) []) with true by (destruct (e_hash e); reflexivity). f_equal. exact IH.
Qed.

Definition wf_prefix (p : bytes) : Prop := forall b, In b p -> b < 256.

Section PrefixTbl.
Variable hs : nat.
Variable tbl : list entry.
Hypothesis WF : wf_tbl hs tbl.
Let n : N := N.of_nat (List.length tbl).
Set Default Proof Using "hs tbl WF".

Lemma hash_len i : i < n -> List.length (e_hash (nth (N.to_nat i) tbl d0)) = hs.
Proof. intros Hi. apply (wf_size _ _ WF). apply nth_In. unfold n in Hi. lia. Qed.

(* ids below position k are below the target, ids in [k,hi) are not, ids with the prefix lie in [lo,hi):
   the stop-at-first-mismatch walk from k collects exactly the entries with the prefix *)
Lemma prefix_run p lo k hi :
  k <= hi -> hi <= n ->
  (forall i, i < n -> has_prefix (e_hash (nth (N.to_nat i) tbl d0)) p = true -> lo <= i < hi) ->
  (forall i, lo <= i -> i < k -> bytes_cmp (e_hash (nth (N.to_nat i) tbl d0)) (pad_to hs p) = Lt) ->
  (forall i, k <= i -> i < hi -> bytes_cmp (e_hash (nth (N.to_nat i) tbl d0)) (pad_to hs p) <> Lt) ->
  take_while (fun e => has_prefix (e_hash e) p) (firstn (N.to_nat (hi - k)) (skipn (N.to_nat k) tbl))
  = with_prefix tbl p.
Proof.
  intros Hkh Hhn Hout Hbelow Habove. unfold with_prefix.
  replace (N.to_nat (hi - k)) with (N.to_nat hi - N.to_nat k)%nat by lia.
  apply (take_while_seg _ tbl (N.to_nat k) (N.to_nat hi) d0); try (unfold n in *; lia).
  - intros i Hi Hor. rewrite <- (Nat2N.id i).
    destruct (has_prefix (e_hash (nth (N.to_nat (N.of_nat i)) tbl d0)) p) eqn:Epre; [|reflexivity]. exfalso.
    assert (Hin : N.of_nat i < n) by (unfold n; lia).
    pose proof (Hout _ Hin Epre). destruct Hor; [|lia].
    pose proof (prefix_ge_target p _ Epre) as Hge. rewrite hash_len in Hge by exact Hin.
    apply Hge, Hbelow; lia.
  - intros i j Hi Hij Hj Hf. rewrite <- (Nat2N.id i) in Hf. rewrite <- (Nat2N.id j).
    assert (Hjn : N.of_nat j < n) by lia. assert (Hin : N.of_nat i < n) by lia.
    apply (no_prefix_after p _ _ (eq_trans (hash_len _ Hin) (eq_sym (hash_len _ Hjn)))); [|exact Hf|apply (hash_at_sorted WF); lia].
    rewrite hash_len by exact Hin. apply Habove; lia.
Qed.

Lemma prefix_empty p : (forall i, i < n -> has_prefix (e_hash (nth (N.to_nat i) tbl d0)) p = false) -> with_prefix tbl p = [].
Proof.
  intros Hno. unfold with_prefix. apply filter_none. intros e He.
  destruct (In_nth tbl e d0 He) as (j & Hj & Ej). rewrite <- Ej, <- (Nat2N.id j). apply Hno. unfold n. lia.
Qed.

Lemma prefix_in_bucket p0 p' i :
  i < n -> has_prefix (e_hash (nth (N.to_nat i) tbl d0)) (p0 :: p') = true ->
  Fp tbl (N.to_nat p0) <= i < F tbl (N.to_nat p0).
Proof.
  intros Hi Hpre. apply (bucket_range WF i (N.to_nat p0) Hi).
  unfold first_of. rewrite (prefix_first_byte _ _ _ Hpre). lia.
Qed.

Lemma prefix_bucket_empty p0 p' :
  F tbl (N.to_nat p0) <= Fp tbl (N.to_nat p0) -> with_prefix tbl (p0 :: p') = [].
Proof.
  intros He. apply prefix_empty. intros i Hi.
  destruct (has_prefix _ (p0 :: p')) eqn:E; [|reflexivity]. pose proof (prefix_in_bucket p0 p' i Hi E). lia.
Qed.

(* EntriesWithPrefix inside the bucket of the prefix's first byte: sort.Search for the prefix padded
   with zeros, then the walk; the readers look at position [a + i] *)
Lemma prefix_search p0 p' a lo hi B :
  a + lo = Fp tbl (N.to_nat p0) -> a + hi = F tbl (N.to_nat p0) ->
  (forall i, lo <= i -> i < hi ->
     B i = Some (is_lt (bytes_cmp (e_hash (nth (N.to_nat (a + i)) tbl d0)) (pad_to hs (p0 :: p'))))) ->
  exists j, lower_bound (bs_fuel lo hi) B lo hi = Found j /\ lo <= j <= hi /\
    take_while (fun e => has_prefix (e_hash e) (p0 :: p'))
      (firstn (N.to_nat (hi - j)) (skipn (N.to_nat (a + j)) tbl)) = with_prefix tbl (p0 :: p').
Proof.
  intros Elo Ehi Bv. set (k := N.to_nat p0) in *.
  pose proof (F_mono tbl k). pose proof (F_le tbl k) as Hfl. fold n in Hfl.
  destruct (lower_bound_cut WF (pad_to hs (p0 :: p')) a lo hi B) as (j & Ej & Hj & Hbelow & Habove); [lia|lia|exact Bv|].
  exists j. split; [exact Ej|]. split; [exact Hj|].
  replace (hi - j) with (F tbl k - (a + j)) by lia.
  apply (prefix_run (p0 :: p') (Fp tbl k) (a + j) (F tbl k)); try lia.
  - intros i Hi. now apply prefix_in_bucket.
  - intros i H1 H2. replace i with (a + (i - a)) by lia. apply Hbelow; lia.
  - intros i H1 H2. replace i with (a + (i - a)) by lia. apply Habove; lia.
Qed.

End PrefixTbl.

Section PrefixLazy.
Variable hs : nat.
Variable H : bytes -> bytes.
Variable tbl : list entry.
Variable pack rev : bytes.
Hypothesis WF : wf_tbl hs tbl.
Hypothesis Hpack : List.length pack = hs.
Hypothesis Hrev : exists hf t, rev = ([82; 73; 68; 88] ++ be32 1 ++ hf) ++ t /\ List.length hf = 4%nat.

Let n : N := N.of_nat (List.length tbl).
Let L := the_lazy hs H tbl pack rev.
Set Default Proof Using "hs H tbl pack rev WF Hpack Hrev".

Lemma lazy_prefix_walk_ok p : forall c pos,
  pos + N.of_nat c <= n ->
  lazy_prefix_walk hs L p pos c
  = (take_while (fun e => has_prefix (e_hash e) p) (firstn c (skipn (N.to_nat pos) tbl)), None).
Proof.
  induction c as [|c IH]; intros pos Hp; cbn [lazy_prefix_walk]; [now rewrite firstn_O|].
  rewrite (lazy_entry_ok hs H tbl pack rev WF Hpack), (firstn_skipn_S tbl pos c d0) by (unfold n in *; lia).
  cbn [take_while].
  destruct (has_prefix (e_hash (nth (N.to_nat pos) tbl d0)) p); cbn [negb]; [|reflexivity].
  now rewrite IH by lia.
Qed.

Theorem lazy_prefix_map p : wf_prefix p -> lazy_prefix hs L p = (with_prefix tbl p, None).
Proof.
  intros Hwp. unfold lazy_prefix. destruct p as [|p0 p'].
  - unfold L. now rewrite (lazy_entries_map hs H tbl pack rev WF Hpack), with_prefix_nil.
  - assert (Hp0 : p0 < 256) by (apply Hwp; now left).
    rewrite (lazy_bounds_ok hs H tbl pack rev WF Hpack) by lia.
    set (k := N.to_nat p0). pose proof (F_le tbl k) as Hhn. fold n in Hhn.
    destruct (F tbl k <=? Fp tbl k) eqn:Ehl; [now rewrite (prefix_bucket_empty hs tbl WF) by (fold k; lia)|].
    destruct (prefix_search hs tbl WF p0 p' 0 (Fp tbl k) (F tbl k)
                (fun mid => match lazy_name hs L mid with
                            | None => None
                            | Some nm => Some (is_lt (bytes_cmp nm (pad_to hs (p0 :: p'))))
                            end)) as (j & -> & Hj & Run); auto.
    { intros i _ Hi. now rewrite (lazy_name_ok hs H tbl pack rev WF Hpack) by lia. }
    destruct (F tbl k <=? j) eqn:Ehk.
    + rewrite <- Run. now replace (N.to_nat (F tbl k - j)) with 0%nat by lia.
    + rewrite lazy_prefix_walk_ok by lia. f_equal. exact Run.
Qed.

End PrefixLazy.

Section PrefixMemory.
Variable hs : nat.
Variable Hsz : nat -> bytes -> bytes.
Variable tbl : list entry.
Variable pack sum : bytes.
Hypothesis WF : wf_tbl hs tbl.
Hypothesis Hpack : List.length pack = hs.

Let n : N := N.of_nat (List.length tbl).
Let HS : N := N.of_nat hs.
Let m := spec_index tbl pack sum.
Set Default Proof Using "hs Hsz tbl pack sum WF Hpack".

Let NameAt := name_at_ok hs Hsz tbl pack sum WF Hpack.

Lemma names_len k : blen (b_names (bucket_of tbl k)) = cnt tbl k * HS.
Proof.
  unfold bucket_of. cbn [b_names]. rewrite (blen_flat_map e_hash HS), (G_len hs Hsz tbl pack sum WF Hpack); [reflexivity|].
  intros e He. apply (blen_hash WF), (seg_in tbl _ _ e He).
Qed.

Lemma HS_pos : 0 < HS.
Proof. pose proof (wf_hs _ _ WF). unfold HS. lia. Qed.

Lemma mem_prefix_walk_ok p k : forall c pos,
  pos <= cnt tbl k -> (N.to_nat (cnt tbl k - pos) < c)%nat ->
  mem_prefix_walk hs m (bucket_of tbl k) p pos c
  = (take_while (fun e => has_prefix (e_hash e) p)
       (firstn (N.to_nat (cnt tbl k - pos)) (skipn (N.to_nat (Fp tbl k + pos)) tbl)), None).
Proof.
  pose proof HS_pos as Hpos.
  induction c as [|c IH]; intros pos Hp Hc; [lia|]. cbn [mem_prefix_walk]. fold HS.
  rewrite names_len.
  destruct (N.eq_dec pos (cnt tbl k)) as [->|Hne].
  - replace (cnt tbl k * HS <? cnt tbl k * HS + HS) with true by lia.
    rewrite N.sub_diag. reflexivity.
  - assert (Hlt : pos < cnt tbl k) by lia.
    assert (Hmul : (pos + 1) * HS <= cnt tbl k * HS) by (apply N.mul_le_mono_r; lia).
    replace (cnt tbl k * HS <? pos * HS + HS) with false by lia.
    rewrite NameAt, (entry_at_ok hs Hsz tbl pack sum WF Hpack) by exact Hlt.
    pose proof (pos_lt hs Hsz tbl pack sum WF Hpack k pos Hlt) as Hg.
    replace (N.to_nat (cnt tbl k - pos)) with (S (N.to_nat (cnt tbl k - (pos + 1)))) by lia.
    rewrite (firstn_skipn_S tbl (Fp tbl k + pos) _ d0) by exact Hg. cbn [take_while].
    destruct (has_prefix (e_hash (nth (N.to_nat (Fp tbl k + pos)) tbl d0)) p); cbn [negb]; [|reflexivity].
    now rewrite IH, N.add_assoc by lia.
Qed.

Theorem mem_prefix_map p : wf_prefix p -> mem_prefix hs m p = (with_prefix tbl p, None).
Proof.
  intros Hwp. pose proof HS_pos as Hpos. unfold mem_prefix. destruct p as [|p0 p'].
  - unfold m. now rewrite (mem_entries_map hs Hsz tbl pack sum WF Hpack), with_prefix_nil.
  - assert (Hp0 : p0 < 256) by (apply Hwp; now left).
    set (k := N.to_nat p0) in *. assert (Hk : (k < 256)%nat) by (unfold k; lia).
    pose proof (F_mono tbl k) as Hfm.
    destruct (N.eq_dec (cnt tbl k) 0) as [Hc|Hc].
    + unfold m. rewrite (bucket_none hs Hsz tbl pack sum WF Hpack k Hk Hc).
      now rewrite (prefix_bucket_empty hs tbl WF) by (fold k; unfold cnt in Hc; lia).
    + destruct (bucket_some hs Hsz tbl pack sum WF Hpack k Hk Hc) as (r & R1 & R2 & R3).
      unfold m. rewrite R1. cbv zeta. rewrite R3. fold m.
      fold HS. rewrite names_len. rewrite N.div_mul by lia.
      destruct (prefix_search hs tbl WF p0 p' (Fp tbl k) 0 (cnt tbl k)
                  (fun mid => Some (is_lt (bytes_cmp (name_at hs (bucket_of tbl k) mid) (pad_to hs (p0 :: p'))))))
        as (lo & -> & Hlo & Run); [apply N.add_0_r|fold k; unfold cnt; lia| |].
      { intros i _ Hi. now rewrite NameAt. }
      now rewrite mem_prefix_walk_ok, Run by lia.
Qed.

End PrefixMemory.
