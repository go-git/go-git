(* Proofs/C52.v — reflog line codec: round trip, git reads go-git's lines,
   go-git reads git's lines, message normalisation = copy_reflog_msg. *)
From Coq Require Import List NArith ZArith Bool Lia ZifyBool ZifyNat ZifyN.
From GoGit Require Import Base.Out Model.Reflog Spec.ReflogGit Proofs.C52Lists.
Import ListNotations.
Local Open Scope N_scope.

Ltac norm := repeat (rewrite <- app_assoc || (progress (cbn [app]))).
(* linear arithmetic with / and mod by constants: lia over the quotient-remainder equations *)
Ltac divlia := zify; Z.to_euclidean_division_equations; lia.

(* a lazy single-pass machine both sides are compared with: a separating SP is
   emitted only when the next word starts *)
Fixpoint lazy_go (s : bytes) (inword emitted : bool) : bytes :=
  match s with
  | [] => []
  | c :: r =>
    if is_gitspace c then lazy_go r false emitted
    else (if inword then [c] else if emitted then [SP; c] else [c]) ++ lazy_go r true true
  end.

Lemma fields_lazy_flat s :
  (forall cur, cur <> [] ->
     flat_map (fun y => SP :: y) (fields_go gitspace_len s O cur) = SP :: rev cur ++ lazy_go s true true) /\
  flat_map (fun y => SP :: y) (fields_go gitspace_len s O []) = lazy_go s false true.
Proof.
  induction s as [|c r [IH1 IH2]].
  - split; [|reflexivity]. intros cur Hc. cbn [fields_go lazy_go]. destruct cur; [easy|].
    cbn [flush flat_map]. now rewrite !app_nil_r.
  - split.
    + intros cur Hc. cbn [fields_go lazy_go gitspace_len]. destruct (is_gitspace c) eqn:E.
      * destruct cur as [|x cur']; [easy|]. cbn [flush flat_map]. rewrite IH2. now norm.
      * rewrite IH1 by easy. cbn [rev]. now norm.
    + cbn [fields_go lazy_go gitspace_len]. destruct (is_gitspace c) eqn:E.
      * cbn [flush]. apply IH2.
      * rewrite IH1 by easy. reflexivity.
Qed.

(* strings.Join drops the separator in front of the first word *)
Lemma join_sp_tl l : join_sp l = tl (flat_map (fun y => SP :: y) l).
Proof. now destruct l. Qed.

Lemma lazy_go_tl s : tl (lazy_go s false true) = lazy_go s false false.
Proof. induction s as [|c r IH]; [reflexivity|]. cbn [lazy_go]. destruct (is_gitspace c); [exact IH|reflexivity]. Qed.

Lemma normalize_lazy m : normalize m = lazy_go m false false.
Proof. unfold normalize, fields. now rewrite join_sp_tl, (proj2 (fields_lazy_flat m)), lazy_go_tl. Qed.

Lemma git_isspace_eq c : git_isspace c = is_gitspace c.
Proof. reflexivity. Qed.

Lemma rev_eq_nil {A} (l : list A) : rev l = [] -> l = [].
Proof. intros E. apply (f_equal (@rev A)) in E. now rewrite rev_involutive in E. Qed.

Definition ends_ns (x : bytes) : bool :=
  match rev x with d :: _ => negb (is_gitspace d) | [] => false end.

Lemma ends_ns_snoc x c : ends_ns (x ++ [c]) = negb (is_gitspace c).
Proof. unfold ends_ns. now rewrite rev_app_distr. Qed.

Lemma rtrim_ends x : ends_ns x = true -> rtrim x = x.
Proof.
  unfold ends_ns, rtrim. destruct (rev x) as [|d t] eqn:E; [easy|]. intros H.
  cbn [drop_spaces]. rewrite git_isspace_eq. destruct (is_gitspace d); [easy|].
  now rewrite <- E, rev_involutive.
Qed.

Lemma rtrim_snoc_sp x c : is_gitspace c = true -> rtrim (x ++ [c]) = rtrim x.
Proof.
  intros H. unfold rtrim. rewrite rev_app_distr. cbn [rev app drop_spaces].
  now rewrite git_isspace_eq, H.
Qed.

Lemma copy_lazy s :
  rtrim (copy_msg_go s true) = lazy_go s false false /\
  (forall x, ends_ns x = true -> rtrim (x ++ copy_msg_go s false) = x ++ lazy_go s true true) /\
  (forall x, ends_ns x = true -> rtrim (x ++ SP :: copy_msg_go s true) = x ++ lazy_go s false true).
Proof.
  induction s as [|c r (IH0 & IH1 & IH2)].
  - repeat split.
    + intros x Hx. cbn [copy_msg_go lazy_go]. rewrite !app_nil_r. now apply rtrim_ends.
    + intros x Hx. cbn [copy_msg_go lazy_go]. rewrite app_nil_r.
      rewrite rtrim_snoc_sp by reflexivity. now apply rtrim_ends.
  - cbn [copy_msg_go lazy_go]. rewrite git_isspace_eq. destruct (is_gitspace c) eqn:E.
    + repeat split.
      * apply IH0.
      * intros x Hx. now apply IH2.
      * intros x Hx. now apply IH2.
    + repeat split.
      * specialize (IH1 [c]). cbn [app] in IH1. apply IH1. unfold ends_ns. cbn. now rewrite E.
      * intros x Hx. specialize (IH1 (x ++ [c])). rewrite ends_ns_snoc, E in IH1.
        specialize (IH1 eq_refl). revert IH1. now norm.
      * intros x Hx. specialize (IH1 (x ++ [SP; c])).
        replace (x ++ [SP; c]) with ((x ++ [SP]) ++ [c]) in IH1 by now norm.
        rewrite ends_ns_snoc, E in IH1. specialize (IH1 eq_refl). revert IH1. now norm.
Qed.

Lemma normalize_is_copy_reflog_msg m : normalize m = git_copy_reflog_msg m.
Proof. rewrite normalize_lazy. unfold git_copy_reflog_msg. symmetry. apply copy_lazy. Qed.

(* normalised messages contain no LF (nor any other git space but SP) *)
Lemma lazy_lacks c s iw em : is_gitspace c = true -> (c =? SP) = false -> lacks c (lazy_go s iw em) = true.
Proof.
  intros Hc Hsp. revert iw em. induction s as [|x r IH]; intros iw em; cbn [lazy_go]; [reflexivity|].
  destruct (is_gitspace x) eqn:E; [apply IH|].
  rewrite lacks_app, IH, andb_true_r.
  assert (Hx : (x =? c) = false).
  { destruct (x =? c) eqn:F; [|easy]. apply N.eqb_eq in F. subst. congruence. }
  assert (Hs : (SP =? c) = false) by (rewrite N.eqb_sym; exact Hsp).
  destruct iw; [|destruct em]; cbn [lacks forallb]; rewrite ?Hx, ?Hs; reflexivity.
Qed.

Lemma normalize_lacks_LF m : lacks LF (normalize m) = true.
Proof. rewrite normalize_lazy. now apply lazy_lacks. Qed.

Definition hash_ok (h : bytes) : bool :=
  bytes_ok h && (Nat.eqb (List.length h) 20 || Nat.eqb (List.length h) 32).
Definition hash20 (h : bytes) : bool := bytes_ok h && Nat.eqb (List.length h) 20.
Definition ident_clean (s : bytes) : bool := lacks LT s && lacks GT s && lacks LF s.
Definition name_trim (n : bytes) : bool :=
  match n with [] => true | c :: _ => negb (is_gitspace c) end &&
  match rev n with [] => true | d :: _ => negb (is_gitspace d) end.
Definition zone_ok (off : Z) : bool := (Z.abs off <? 360000)%Z && (off mod 60 =? 0)%Z.

(* entries go-git can write and read back *)
Definition wf (e : entry) : bool :=
  hash_ok (e_old e) && hash_ok (e_new e) &&
  ident_clean (e_name e) && name_trim (e_name e) && ident_clean (e_email e) &&
  (- 2 ^ 63 <=? e_secs e)%Z && (e_secs e <? 2 ^ 63)%Z && zone_ok (e_off e).
(* ... that git can also list: SHA-1 ids, a positive time *)
Definition wf_git (e : entry) : bool :=
  wf e && hash20 (e_old e) && hash20 (e_new e) && (0 <? e_secs e)%Z.
(* entries as git writes them (fmt_ident output, "%+05d" zone) *)
Definition wf_gitent (g : gitent) : bool :=
  hash20 (g_old g) && hash20 (g_new g) &&
  ident_clean (g_name g) && name_trim (g_name g) && ident_clean (g_email g) &&
  (0 <? g_time g) && (g_time g <? 2 ^ 63) && (Z.abs (g_tz g) <? 10000)%Z && lacks LF (g_msg g).

Definition normalise (e : entry) : entry :=
  mkEntry (e_old e) (e_new e) (e_name e) (e_email e) (e_secs e) (e_off e) (normalize (e_msg e)).

Definition tabmsg (m : bytes) : bytes := match m with [] => [] | _ => TAB :: m end.
Definition sigtxt (name email ts tz : bytes) : bytes :=
  name ++ SP :: LT :: email ++ GT :: SP :: ts ++ SP :: tz.
Definition linetxt (old new name email ts tz msg : bytes) : bytes :=
  hex_enc old ++ SP :: hex_enc new ++ SP :: sigtxt name email ts tz ++ tabmsg msg.

(* an entry's line, without its LF, as go-git and as git write it *)
Definition entry_line (e : entry) : bytes :=
  linetxt (e_old e) (e_new e) (e_name e) (e_email e) (dec_Z (e_secs e)) (zone_text (e_off e)) (normalize (e_msg e)).
Definition gitent_line (g : gitent) : bytes :=
  linetxt (g_old g) (g_new g) (g_name g) (g_email g) (dec_N (g_time g)) (tz_text (g_tz g)) (g_msg g).

Lemma encode_shape e : encode e = entry_line e ++ [LF].
Proof.
  unfold encode, entry_line, linetxt, sigtxt, tabmsg.
  destruct (normalize (e_msg e)); rewrite ?app_nil_r; norm; rewrite ?app_nil_r; norm; reflexivity.
Qed.

Lemma git_write_shape g : git_write g = gitent_line g ++ [LF].
Proof.
  unfold git_write, gitent_line, linetxt, sigtxt, tabmsg.
  destruct (g_msg g); rewrite ?app_nil_r; norm; rewrite ?app_nil_r; norm; reflexivity.
Qed.

(* bytes of the time / zone texts *)
Definition plain (c : N) : bool := is_digit c || (c =? PLUS) || (c =? MINUS).

Lemma plain_no_space c r : plain c = true -> uspace_len (c :: r) = O.
Proof.
  unfold plain, is_digit, PLUS, MINUS, uspace_len, is_ascii_space. intros H.
  assert (E1 : ((c =? 9) || (c =? 10) || (c =? 11) || (c =? 12) || (c =? 13) || (c =? 32)) = false) by lia.
  assert (E2 : (c =? 194) = false) by lia. assert (E3 : (c =? 225) = false) by lia.
  assert (E4 : (c =? 226) = false) by lia. assert (E5 : (c =? 227) = false) by lia.
  now rewrite E1, E2, E3, E4, E5.
Qed.

Lemma digits_plain s : all_digits s = true -> forallb plain s = true.
Proof. apply forallb_impl. intros x Hx. unfold plain. now rewrite Hx. Qed.

Lemma fields_plain w r cur :
  forallb plain w = true ->
  fields_go uspace_len (w ++ r) O cur = fields_go uspace_len r O (rev w ++ cur).
Proof.
  revert cur; induction w as [|c w IH]; intros cur H; [reflexivity|].
  cbn [forallb] in H. apply andb_true_iff in H as [Hc Hw].
  cbn [app fields_go]. rewrite (plain_no_space c _ Hc). rewrite IH by easy.
  cbn [rev]. now norm.
Qed.

Lemma flush_rev a k : a <> [] -> flush (rev a) k = a :: k.
Proof.
  intros H. unfold flush. destruct (rev a) eqn:E; [now apply rev_eq_nil in E|now rewrite <- E, rev_involutive].
Qed.

Lemma fields_two a b :
  forallb plain a = true -> forallb plain b = true -> a <> [] -> b <> [] ->
  fields uspace_len (a ++ SP :: b) = [a; b].
Proof.
  intros Ha Hb Na Nb. unfold fields. rewrite fields_plain by easy. rewrite app_nil_r.
  cbn [fields_go]. change (uspace_len (SP :: b)) with 1%nat. cbv iota. rewrite flush_rev by easy. f_equal.
  rewrite <- (app_nil_r b) at 1. rewrite fields_plain by easy. rewrite app_nil_r.
  cbn [fields_go]. now rewrite flush_rev.
Qed.

(* bytes.Trim is git's rtrim after the leading spaces are dropped *)
Lemma trim_rtrim s : trim s = rtrim (trim_left s).
Proof. reflexivity. Qed.

Lemma name_trim_spec n : name_trim n = true -> trim (n ++ [SP]) = n /\ rtrim (n ++ [SP]) = n.
Proof.
  unfold name_trim. intros [H1 H2]%andb_true_iff.
  assert (R : rtrim (n ++ [SP]) = n).
  { rewrite rtrim_snoc_sp by reflexivity. destruct n as [|c n']; [reflexivity|]. apply rtrim_ends. unfold ends_ns.
    destruct (rev (c :: n')) eqn:E; [now apply rev_eq_nil in E|exact H2]. }
  split; [|exact R]. rewrite trim_rtrim. destruct n as [|c n']; [reflexivity|].
  cbn [app trim_left]. now destruct (is_gitspace c).
Qed.

Lemma hash_ok_bytes h : hash_ok h = true -> bytes_ok h = true.
Proof. unfold hash_ok. now intros [? _]%andb_true_iff. Qed.

Lemma ident_clean_parts s : ident_clean s = true -> lacks LT s = true /\ lacks GT s = true /\ lacks LF s = true.
Proof. unfold ident_clean. rewrite !andb_true_iff. tauto. Qed.

Lemma ident_lacks_GT name email :
  lacks GT name = true -> lacks GT email = true -> lacks GT (name ++ SP :: LT :: email) = true.
Proof. intros Hn He. now rewrite lacks_app, !lacks_cons, Hn, He. Qed.

Lemma hash_parse h : hash_ok h = true -> parse_hash (hex_enc h) = Some h.
Proof.
  unfold hash_ok, parse_hash. intros H. apply andb_true_iff in H as [Hb Hl].
  rewrite hex_enc_length.
  assert (E : (Nat.eqb (2 * List.length h) 40 || Nat.eqb (2 * List.length h) 64) = true) by lia.
  rewrite E. now apply hex_enc_spec.
Qed.

Lemma hex_lacks c h : is_lowhex c = false -> bytes_ok h = true -> lacks c (hex_enc h) = true.
Proof. intros Hc Hh. apply (forallb_lacks is_lowhex); [easy|]. now apply hex_enc_spec. Qed.

(* the message starts after the first TAB behind the first '>' *)
Lemma split_msg_shape a T msg : lacks GT a = true -> lacks TAB T = true ->
  split_msg (a ++ GT :: T ++ tabmsg msg) = (a ++ GT :: T, msg).
Proof.
  intros Ha HT. unfold split_msg. rewrite (cut_app GT) by exact Ha. destruct msg as [|m0 msg']; cbn [tabmsg].
  - now rewrite !app_nil_r, cut_none by exact HT.
  - now rewrite (cut_app TAB) by exact HT.
Qed.

(* decodeLine's second half on "a1<email>T": the e-mail is what lies between the last '<' and the last '>' *)
Lemma decode_sig_shape old new a1 email T msg secs off :
  lacks LT email = true -> lacks LT T = true -> lacks GT T = true ->
  Nat.leb (List.length T) 1 = false -> decode_timestamp (skipn 1 T) = Some (secs, off) ->
  decode_sig old new (a1 ++ LT :: email ++ GT :: T) msg = Some (mkEntry old new (trim a1) email secs off msg).
Proof.
  intros HeLT TLT TGT HT Hts. unfold decode_sig.
  rewrite cut_last_app by (rewrite lacks_app, lacks_cons, HeLT, TLT; reflexivity).
  replace (a1 ++ LT :: email ++ GT :: T) with ((a1 ++ LT :: email) ++ GT :: T) by now norm.
  rewrite cut_last_app by exact TGT. cbv beta iota zeta.
  rewrite HT, Hts, app_length. cbn [List.length].
  replace (Nat.ltb _ _) with false by (symmetry; apply Nat.ltb_ge; lia).
  replace (_ - _ - 1)%nat with (List.length email + 0)%nat by lia.
  rewrite firstn_app_2. cbn [firstn]. now rewrite app_nil_r.
Qed.

(* go-git reads a line of this shape *)
Lemma decode_shape old new name email ts tz msg secs off :
  hash_ok old = true -> hash_ok new = true ->
  ident_clean name = true -> name_trim name = true -> ident_clean email = true ->
  forallb plain ts = true -> forallb plain tz = true -> ts <> [] -> tz <> [] ->
  parse_int64 ts = Some secs -> decode_tz tz = Some off ->
  decode_line (linetxt old new name email ts tz msg) = Some (mkEntry old new name email secs off msg).
Proof.
  intros Ho Hn Hname Htrim Hemail Pts Ptz Nts Ntz Hsecs Hoff.
  pose proof (hash_ok_bytes _ Ho) as Hob. pose proof (hash_ok_bytes _ Hn) as Hnb.
  destruct (ident_clean_parts _ Hname) as (HnLT & HnGT & _). destruct (ident_clean_parts _ Hemail) as (HeLT & HeGT & _).
  (* the two ids up to their SPs (hex has no SP), the message by split_msg, the rest by decode_sig *)
  unfold decode_line, linetxt.
  rewrite (cut_app SP) by (apply hex_lacks; easy). rewrite hash_parse by easy.
  rewrite (cut_app SP) by (apply hex_lacks; easy). rewrite hash_parse by easy.
  assert (LTts : forall c, plain c = false -> lacks c (SP :: ts ++ SP :: tz) = (negb (SP =? c))).
  { intros c Hc. rewrite lacks_cons, lacks_app, lacks_cons.
    rewrite (forallb_lacks plain c ts), (forallb_lacks plain c tz) by easy. now destruct (SP =? c). }
  replace (sigtxt name email ts tz ++ tabmsg msg)
    with ((name ++ SP :: LT :: email) ++ GT :: (SP :: ts ++ SP :: tz) ++ tabmsg msg) by (unfold sigtxt; now norm).
  rewrite split_msg_shape by (now apply ident_lacks_GT || now apply LTts). cbn [fst snd].
  replace ((name ++ SP :: LT :: email) ++ GT :: SP :: ts ++ SP :: tz)
    with ((name ++ [SP]) ++ LT :: email ++ GT :: SP :: ts ++ SP :: tz) by now norm.
  rewrite (decode_sig_shape _ _ _ _ _ _ secs off), (proj1 (name_trim_spec name Htrim));
    [reflexivity|exact HeLT|now apply LTts..| |].
  - destruct ts; [easy|reflexivity].
  - cbn [skipn]. unfold decode_timestamp. now rewrite fields_two, Hsecs, Hoff by easy.
Qed.

Definition dig2 (n : N) : bytes := [48 + n / 10; 48 + n mod 10].
Definition dig4 (v : N) : bytes := dig2 (v / 100) ++ dig2 (v mod 100).

(* zero-padded decimal ("%02d", "%+05d"): the w low digits, most significant first *)
Fixpoint digs (w : nat) (n : N) : bytes :=
  match w with O => [] | S w' => digs w' (n / 10) ++ [48 + n mod 10] end.
Definition padw (w : nat) (d : bytes) : bytes := repeat 48 (w - List.length d) ++ d.

Lemma digs_0 w : digs w 0 = repeat 48 w.
Proof.
  induction w as [|w IH]; [reflexivity|].
  change (digs (S w) 0) with (digs w 0 ++ [48]). rewrite IH. symmetry. apply repeat_cons.
Qed.

Lemma padw_digs w : forall n, n < 10 ^ N.of_nat (S w) -> padw (S w) (dec_N n) = digs (S w) n.
Proof.
  induction w as [|w IH]; intros n H; destruct (N.lt_ge_cases n 10) as [Hs|Hl].
  - rewrite dec_N_small by easy. cbn [digs app]. now rewrite N.mod_small.
  - cbn in H. lia.
  - change (digs (S (S w)) n) with (digs (S w) (n / 10) ++ [48 + n mod 10]).
    rewrite dec_N_small, N.div_small, N.mod_small, digs_0 by easy. reflexivity.
  - change (digs (S (S w)) n) with (digs (S w) (n / 10) ++ [48 + n mod 10]).
    rewrite Nat2N.inj_succ, N.pow_succ_r' in H.
    rewrite <- IH by (apply N.div_lt_upper_bound; lia). rewrite dec_N_step by easy.
    unfold padw. rewrite app_length, app_assoc. cbn [List.length]. do 3 f_equal. lia.
Qed.

Lemma pad2_dig2 n : n < 100 -> pad2 n = dig2 n.
Proof.
  intros H. unfold pad2, dig2. destruct (N.lt_ge_cases n 10) as [Hs|Hl].
  - rewrite dec_N_small, N.div_small, N.mod_small by easy. reflexivity.
  - rewrite dec_N_step, dec_N_small by (easy || apply N.div_lt_upper_bound; lia). reflexivity.
Qed.

Lemma dig2_is_digit n : n < 100 -> is_digit (48 + n / 10) = true /\ is_digit (48 + n mod 10) = true.
Proof.
  intros H. assert (n / 10 < 10) by (apply N.div_lt_upper_bound; lia).
  assert (n mod 10 < 10) by (apply N.mod_lt; lia). unfold is_digit. lia.
Qed.

Lemma atoi2_dig2 n : n < 100 -> atoi2 (48 + n / 10) (48 + n mod 10) = Some (Z.of_N n).
Proof.
  intros H. unfold atoi2. destruct (dig2_is_digit n H) as [-> ->].
  f_equal. pose proof (N.div_mod n 10). lia.
Qed.

Lemma dig2_digits n acc : n < 100 ->
  all_digits (dig2 n) = true /\ digits_val (dig2 n) acc = Some (100 * acc + n).
Proof.
  intros H. unfold dig2. cbn [all_digits forallb digits_val]. destruct (dig2_is_digit n H) as [-> ->].
  split; [reflexivity|]. f_equal. pose proof (N.div_mod n 10). lia.
Qed.

Lemma pad4_dig4 v : v < 10000 -> padw 4 (dec_N v) = dig4 v.
Proof.
  intros H. rewrite (padw_digs 3) by exact H. unfold dig4, dig2. cbn [digs app].
  assert (E : v / 10 / 10 / 10 mod 10 = v / 100 / 10 /\ v / 10 / 10 mod 10 = v / 100 mod 10 /\
              v / 10 mod 10 = v mod 100 / 10 /\ v mod 10 = v mod 100 mod 10)
    by (repeat split; divlia).
  now destruct E as (-> & -> & -> & ->).
Qed.

Lemma dig4_split v : v < 10000 -> v / 100 < 100 /\ v mod 100 < 100 /\ v = v / 100 * 100 + v mod 100.
Proof.
  intros H. repeat split.
  - apply N.div_lt_upper_bound; lia.
  - apply N.mod_lt; lia.
  - pose proof (N.div_mod v 100). lia.
Qed.

Lemma dig4_digits v : v < 10000 -> all_digits (dig4 v) = true /\ digits_val (dig4 v) 0 = Some v.
Proof.
  intros H. destruct (dig4_split v H) as (A & B & C).
  destruct (dig2_digits _ 0 A) as [A1 A2]. destruct (dig2_digits _ (v / 100) B) as [B1 B2].
  unfold dig4. split.
  - unfold all_digits in *. now rewrite forallb_app, A1, B1.
  - rewrite digits_val_app, A2. change (100 * 0 + v / 100) with (v / 100). rewrite B2. f_equal. lia.
Qed.

Lemma decode_tz_dig4 sg v :
  (sg =? PLUS) || (sg =? MINUS) = true -> v < 10000 ->
  decode_tz (sg :: dig4 v) =
  Some (let o := (Z.of_N (v / 100) * 3600 + Z.of_N (v mod 100) * 60)%Z in if sg =? MINUS then (- o)%Z else o).
Proof.
  intros Hs Hv. destruct (dig4_split v Hv) as (A & B & _).
  unfold dig4, dig2. cbn [app decode_tz]. rewrite Hs.
  now rewrite (atoi2_dig2 _ A), (atoi2_dig2 _ B).
Qed.

Lemma dig4_plain sg v :
  (sg =? PLUS) || (sg =? MINUS) = true -> v < 10000 -> forallb plain (sg :: dig4 v) = true.
Proof.
  intros Hs Hv. cbn [forallb]. rewrite (digits_plain _ (proj1 (dig4_digits v Hv))).
  unfold plain. rewrite <- orb_assoc, Hs. now rewrite orb_true_r.
Qed.

Lemma hm_divmod h m : m < 100 -> (h * 100 + m) / 100 = h /\ (h * 100 + m) mod 100 = m.
Proof.
  intros H. split; symmetry.
  - apply (N.div_unique _ 100 h m); lia.
  - apply (N.mod_unique _ 100 h m); lia.
Qed.

(* go-git's zone text is sign + dig4 of the +hhmm number *)
Lemma zone_text_dig4 off : zone_ok off = true ->
  let a := Z.to_N (Z.abs off) in
  zone_text off = (if (off <? 0)%Z then MINUS else PLUS) :: dig4 (a / 3600 * 100 + a mod 3600 / 60).
Proof.
  unfold zone_ok. intros [H1 _]%andb_true_iff. cbv zeta. set (a := Z.to_N (Z.abs off)).
  assert (A : a / 3600 < 100) by (subst a; divlia).
  assert (B : a mod 3600 / 60 < 100) by (clear; divlia).
  unfold zone_text. fold a. rewrite !pad2_dig2 by easy. unfold dig4.
  now destruct (hm_divmod (a / 3600) (a mod 3600 / 60) B) as [-> ->].
Qed.

Lemma tz_text_dig4 tz : (Z.abs tz <? 10000)%Z = true ->
  tz_text tz = (if (tz <? 0)%Z then MINUS else PLUS) :: dig4 (Z.to_N (Z.abs tz)).
Proof. intros H. unfold tz_text. f_equal. apply pad4_dig4. lia. Qed.

Lemma sign_pick (b : bool) : ((if b then MINUS else PLUS) =? MINUS) = b.
Proof. now destruct b. Qed.
Lemma sign_ok (b : bool) : ((if b then MINUS else PLUS) =? PLUS) || ((if b then MINUS else PLUS) =? MINUS) = true.
Proof. now destruct b. Qed.

Lemma tz_text_facts tz : (Z.abs tz < 10000)%Z ->
  forallb plain (tz_text tz) = true /\ tz_text tz <> [] /\ decode_tz (tz_text tz) = Some (off_of_tz tz).
Proof.
  intros H. rewrite tz_text_dig4 by lia.
  set (v := Z.to_N (Z.abs tz)). assert (Hv : v < 10000) by lia.
  split; [apply dig4_plain; [apply sign_ok|easy]|split; [easy|]].
  rewrite decode_tz_dig4, sign_pick by (easy || apply sign_ok). f_equal. unfold off_of_tz.
  rewrite N2Z.inj_div, N2Z.inj_mod. replace (Z.of_N v) with (Z.abs tz) by lia. reflexivity.
Qed.

(* the +hhmm number git keeps for go-git's offset: off_of_tz undoes it, and a negative
   offset is at least a minute, so the number is not -0000 and keeps the sign *)
Lemma tz_of_off_facts off : zone_ok off = true ->
  (Z.abs (tz_of_off off) < 10000)%Z /\ off_of_tz (tz_of_off off) = off /\
  (tz_of_off off <? 0)%Z = (off <? 0)%Z.
Proof.
  unfold zone_ok. intros [H1 H2]%andb_true_iff.
  assert (SG : (tz_of_off off <? 0)%Z = (off <? 0)%Z)
    by (unfold tz_of_off; cbv zeta; destruct (off <? 0)%Z eqn:S; divlia).
  split; [|split; [|exact SG]].
  - unfold tz_of_off. cbv zeta. destruct (off <? 0)%Z; divlia.
  - unfold off_of_tz. cbv zeta. rewrite SG. unfold tz_of_off. cbv zeta. destruct (off <? 0)%Z eqn:S; divlia.
Qed.

(* git prints that number as go-git prints the offset *)
Lemma tz_text_of_off off : zone_ok off = true -> tz_text (tz_of_off off) = zone_text off.
Proof.
  intros H. destruct (tz_of_off_facts off H) as (B & _ & SG).
  rewrite tz_text_dig4, (zone_text_dig4 off H), SG by lia. do 2 f_equal.
  clear. unfold tz_of_off. cbv zeta. destruct (off <? 0)%Z eqn:S; divlia.
Qed.

Lemma zone_text_facts off : zone_ok off = true ->
  forallb plain (zone_text off) = true /\ zone_text off <> [] /\ decode_tz (zone_text off) = Some off.
Proof.
  intros H. destruct (tz_of_off_facts off H) as (B & I & _).
  pose proof (tz_text_facts _ B) as F. now rewrite I, (tz_text_of_off off H) in F.
Qed.

Lemma wf_parts e : wf e = true ->
  hash_ok (e_old e) = true /\ hash_ok (e_new e) = true /\ ident_clean (e_name e) = true /\
  name_trim (e_name e) = true /\ ident_clean (e_email e) = true /\
  (- 2 ^ 63 <= e_secs e < 2 ^ 63)%Z /\ zone_ok (e_off e) = true.
Proof.
  unfold wf. rewrite !andb_true_iff, Z.leb_le, Z.ltb_lt. tauto.
Qed.

Lemma secs_text z : (- 2 ^ 63 <= z < 2 ^ 63)%Z ->
  forallb plain (dec_Z z) = true /\ dec_Z z <> [] /\ parse_int64 (dec_Z z) = Some z.
Proof.
  intros Hz. split; [|split; [|now apply parse_int64_dec]].
  - destruct z as [|p|p]; cbn [dec_Z]; [apply digits_plain, dec_N_spec..|].
    cbn [forallb]. change (plain MINUS) with true. apply digits_plain, dec_N_spec.
  - destruct z as [|p|p]; cbn [dec_Z]; [apply dec_N_spec..|discriminate].
Qed.

(* file level: Decode splits at LF *)
Lemma decode_go_line l r e : forall cur,
  lacks LF l = true -> rev l ++ cur <> [] -> decode_line (rev (rev l ++ cur)) = Some e ->
  decode_go (l ++ LF :: r) cur = match decode_go r [] with Some k => Some (e :: k) | None => None end.
Proof.
  induction l as [|x l IH]; intros cur H Hne Hd.
  - cbn [app decode_go]. change (LF =? LF) with true. cbv iota. cbn [rev app] in Hne, Hd.
    destruct cur; [easy|]. now rewrite Hd.
  - rewrite lacks_cons in H. apply andb_true_iff in H as [Hx Hl].
    cbn [app decode_go]. destruct (x =? LF); [discriminate|].
    cbn [rev] in Hne, Hd. rewrite <- app_assoc in Hne, Hd. now apply IH.
Qed.

Lemma linetxt_lacks_LF old new name email ts tz msg :
  bytes_ok old = true -> bytes_ok new = true -> lacks LF name = true -> lacks LF email = true ->
  forallb plain ts = true -> forallb plain tz = true -> lacks LF msg = true ->
  lacks LF (linetxt old new name email ts tz msg) = true /\ linetxt old new name email ts tz msg <> [].
Proof.
  intros. split.
  - unfold linetxt, sigtxt, tabmsg.
    repeat (rewrite ?lacks_app, ?lacks_cons).
    rewrite (hex_lacks LF old), (hex_lacks LF new), (forallb_lacks plain LF ts), (forallb_lacks plain LF tz) by easy.
    rewrite H1, H2. change (SP =? LF) with false. change (LT =? LF) with false. change (GT =? LF) with false.
    cbn [negb andb]. destruct msg; [reflexivity|]. rewrite lacks_cons. change (TAB =? LF) with false. exact H5.
  - unfold linetxt. destruct (hex_enc old); [|easy]. cbn [app]. easy.
Qed.

Lemma decode_file_step l r e :
  lacks LF l = true -> l <> [] -> decode_line l = Some e ->
  decode ((l ++ [LF]) ++ r) = match decode r with Some k => Some (e :: k) | None => None end.
Proof.
  intros Hl Nl Hd. unfold decode. norm. apply decode_go_line; rewrite ?app_nil_r, ?rev_involutive; [easy| |easy].
  intros E. now apply rev_eq_nil in E.
Qed.

Lemma ident_clean_LF s : ident_clean s = true -> lacks LF s = true.
Proof. apply ident_clean_parts. Qed.

(* a line of the shape of decode_shape is one step of Decode: no LF inside, not empty,
   read back to its fields *)
Lemma line_reads old new name email ts tz msg secs off :
  hash_ok old = true -> hash_ok new = true ->
  ident_clean name = true -> name_trim name = true -> ident_clean email = true ->
  forallb plain ts = true -> forallb plain tz = true -> ts <> [] -> tz <> [] ->
  parse_int64 ts = Some secs -> decode_tz tz = Some off -> lacks LF msg = true ->
  let l := linetxt old new name email ts tz msg in
  lacks LF l = true /\ l <> [] /\ decode_line l = Some (mkEntry old new name email secs off msg).
Proof.
  intros. cbv zeta. apply and_assoc. split; [|now apply decode_shape].
  apply linetxt_lacks_LF; auto using hash_ok_bytes, ident_clean_LF.
Qed.

Lemma wf_line e : wf e = true ->
  lacks LF (entry_line e) = true /\ entry_line e <> [] /\ decode_line (entry_line e) = Some (normalise e).
Proof.
  intros H. destruct (wf_parts e H) as (P1 & P2 & P3 & P4 & P5 & P6 & P7).
  destruct (secs_text _ P6) as (S1 & S2 & S3). destruct (zone_text_facts _ P7) as (Z1 & Z2 & Z3).
  unfold normalise, entry_line. apply line_reads; auto using normalize_lacks_LF.
Qed.

Lemma roundtrip_file es :
  forallb wf es = true -> decode (concat (map encode es)) = Some (map normalise es).
Proof.
  induction es as [|e es IH]; intros H; [reflexivity|].
  cbn [forallb] in H. apply andb_true_iff in H as [He Hes].
  cbn [map concat]. rewrite encode_shape.
  destruct (wf_line e He) as (L1 & L2 & L3). now rewrite (decode_file_step _ _ _ L1 L2 L3), IH.
Qed.

Lemma roundtrip_one e : wf e = true -> decode (encode e) = Some [normalise e].
Proof.
  intros H. pose proof (roundtrip_file [e]) as R. cbn [forallb map concat] in R.
  rewrite app_nil_r, H in R. now apply R.
Qed.

Lemma firstn_skipn_hex h x : List.length h = 20%nat ->
  firstn 40 (hex_enc h ++ x) = hex_enc h /\ skipn 40 (hex_enc h ++ x) = x.
Proof.
  intros H. assert (L : List.length (hex_enc h) = 40%nat) by (rewrite hex_enc_length; lia). split.
  - rewrite firstn_app, firstn_all2, L by lia. apply app_nil_r.
  - rewrite skipn_app, skipn_all2, L by lia. reflexivity.
Qed.

Lemma parse_oid_hex_enc h x : hash20 h = true -> parse_oid_hex 40 (hex_enc h ++ x) = Some (h, x).
Proof.
  unfold hash20, parse_oid_hex. intros H. apply andb_true_iff in H as [Hb Hl].
  apply Nat.eqb_eq in Hl. destruct (firstn_skipn_hex h x Hl) as [-> ->].
  rewrite app_length, hex_enc_length, Hl.
  assert (E : Nat.ltb (2 * 20 + List.length x) 40 = false) by lia. rewrite E.
  now rewrite (proj1 (hex_enc_spec h Hb)).
Qed.

(* strtoumax / strtol / split_ident_line on the pieces of a line *)
Definition stops (r : bytes) : Prop := match r with c :: _ => is_digit c = false | [] => True end.

Lemma take_digits_app d r acc v : digits_val d acc = Some v -> stops r -> take_digits (d ++ r) acc = (v, r).
Proof.
  revert acc; induction d as [|c d IH]; intros acc Hd Hr.
  - cbn in Hd. injection Hd as <-. cbn [app]. destruct r as [|c r]; [reflexivity|].
    cbn [take_digits]. now rewrite Hr.
  - cbn [digits_val] in Hd. cbn [app take_digits]. destruct (is_digit c); [|discriminate]. now apply IH.
Qed.

Lemma strtoumax10_dec n r : n < 2 ^ 64 -> stops r -> strtoumax10 (dec_N n ++ r) = (n, r).
Proof.
  intros Hn Hr. destruct (dec_N_spec n) as (D1 & D2 & D3).
  unfold strtoumax10. destruct (dec_N n) as [|c d]; [easy|].
  apply andb_true_iff in D1 as [Dc _].
  destruct (digit_not_sign c Dc) as [P M].
  assert (CS : c_isspace c = false) by (clear - Dc; unfold c_isspace, is_digit in *; lia).
  cbn [app skip_c_spaces]. rewrite CS, M, P, Dc.
  change (c :: d ++ r) with ((c :: d) ++ r). rewrite (take_digits_app _ _ 0 n D2 Hr).
  apply N.leb_gt in Hn. now rewrite Hn.
Qed.

Lemma strtol_int_dig4 sg v r : v < 10000 -> stops r ->
  strtol_int (sg :: dig4 v ++ r) = if sg =? MINUS then (- Z.of_N v)%Z else Z.of_N v.
Proof.
  intros Hv Hr. unfold strtol_int. rewrite (take_digits_app _ _ 0 v (proj2 (dig4_digits v Hv)) Hr).
  destruct (sg =? MINUS).
  - rewrite Z.max_l, Z.mod_small by lia. lia.
  - rewrite Z.min_l, Z.mod_small by lia. lia.
Qed.

Lemma git_ident_shape name email :
  lacks LT name = true -> lacks GT email = true -> name_trim name = true ->
  git_ident ((name ++ SP :: LT :: email) ++ [GT]) = (name, email).
Proof.
  intros Hn He Htrim. unfold git_ident.
  replace ((name ++ SP :: LT :: email) ++ [GT]) with ((name ++ [SP]) ++ LT :: email ++ [GT]) by now norm.
  rewrite (cut_app LT) by (rewrite lacks_app, Hn; reflexivity).
  rewrite (cut_app GT) by easy. now rewrite (proj2 (name_trim_spec name Htrim)).
Qed.

(* git reads a line of the shape of decode_shape, ts a positive decimal and tz sign + dig4 *)
Lemma git_parse_shape old new name email n sg v msg :
  hash20 old = true -> hash20 new = true ->
  ident_clean name = true -> name_trim name = true -> ident_clean email = true ->
  0 < n -> n < 2 ^ 64 -> (sg =? PLUS) || (sg =? MINUS) = true -> v < 10000 ->
  git_parse_line 40 (linetxt old new name email (dec_N n) (sg :: dig4 v) msg ++ [LF])
  = Some (mkGitent old new name email n (if sg =? MINUS then (- Z.of_N v)%Z else Z.of_N v) msg).
Proof.
  intros Ho Hn Hname Htrim Hemail Hn0 Hn64 Hsg Hv.
  destruct (ident_clean_parts _ Hname) as (HnLT & HnGT & _). destruct (ident_clean_parts _ Hemail) as (_ & HeGT & _).
  (* the final LF, then the fields in the order git_parse_line consumes them *)
  unfold git_parse_line. rewrite rev_app_distr. cbn [rev app]. change (LF =? LF) with true. cbn [negb].
  unfold linetxt, sigtxt. norm.
  rewrite parse_oid_hex_enc by easy. change (SP =? SP) with true. cbn [negb].
  rewrite parse_oid_hex_enc by easy. change (SP =? SP) with true. cbn [negb].
  replace (name ++ SP :: LT :: email ++ GT :: SP :: dec_N n ++ SP :: sg :: dig4 v ++ tabmsg msg ++ [LF])
    with ((name ++ SP :: LT :: email) ++ GT :: SP :: dec_N n ++ SP :: sg :: dig4 v ++ tabmsg msg ++ [LF]) by now norm.
  rewrite (cut_app GT) by now apply ident_lacks_GT.
  change (SP =? SP) with true. cbn [negb].
  rewrite strtoumax10_dec by easy. apply N.neq_0_lt_0, N.eqb_neq in Hn0 as ->.
  assert (Hr : stops (tabmsg msg ++ [LF])) by (destruct msg; reflexivity).
  rewrite <- (strtol_int_dig4 sg v _ Hv Hr), git_ident_shape by easy.
  pose proof (proj1 (dig4_digits v Hv)) as V. unfold dig4, dig2 in V |- *. cbn [app all_digits forallb] in V |- *.
  change (SP =? SP) with true. rewrite Hsg. cbn [andb].
  apply andb_true_iff in V as [-> V]. apply andb_true_iff in V as [-> V].
  apply andb_true_iff in V as [-> V]. apply andb_true_iff in V as [-> _]. cbn [andb].
  f_equal. f_equal.
  destruct msg as [|m0 msg']; cbn [tabmsg app].
  - reflexivity.
  - change (TAB =? TAB) with true. cbv iota.
    change (m0 :: msg' ++ [LF]) with ((m0 :: msg') ++ [LF]). apply removelast_last.
Qed.

(* file level for git: pieces ending in LF *)
Lemma git_read_go_line l r cur :
  lacks LF l = true ->
  git_read_go 40 (l ++ LF :: r) cur =
  match git_parse_line 40 (rev cur ++ l ++ [LF]) with
  | Some g => g :: git_read_go 40 r []
  | None => git_read_go 40 r []
  end.
Proof.
  revert cur; induction l as [|x l IH]; intros cur H.
  - cbn [app git_read_go]. change (LF =? LF) with true. cbv iota. cbn [rev]. reflexivity.
  - rewrite lacks_cons in H. apply andb_true_iff in H as [Hx Hl].
    cbn [app git_read_go]. destruct (x =? LF); [discriminate|].
    rewrite IH by easy. cbn [rev]. now norm.
Qed.

Lemma git_read_step l r g :
  lacks LF l = true -> git_parse_line 40 (l ++ [LF]) = Some g ->
  git_read 40 ((l ++ [LF]) ++ r) = g :: git_read 40 r.
Proof.
  intros Hl Hg. unfold git_read. norm. rewrite git_read_go_line by easy. cbn [rev app]. now rewrite Hg.
Qed.

Lemma wf_git_parts e : wf_git e = true ->
  wf e = true /\ hash20 (e_old e) = true /\ hash20 (e_new e) = true /\ (0 < e_secs e)%Z.
Proof.
  unfold wf_git. rewrite !andb_true_iff, Z.ltb_lt. tauto.
Qed.

Lemma dec_Z_nonneg z : (0 <= z)%Z -> dec_Z z = dec_N (Z.to_N z).
Proof. destruct z; [reflexivity..|lia]. Qed.

(* go-git's line is byte for byte the line git's writer produces for the same fields *)
Lemma encode_is_git_write e : wf_git e = true -> encode e = git_write (git_view (normalise e)).
Proof.
  intros W. destruct (wf_git_parts e W) as (W1 & _ & _ & G3).
  destruct (wf_parts e W1) as (_ & _ & _ & _ & _ & _ & P7).
  rewrite encode_shape, git_write_shape. unfold entry_line, gitent_line, git_view, normalise.
  cbn [g_old g_new g_name g_email g_time g_tz g_msg e_old e_new e_name e_email e_secs e_off e_msg].
  now rewrite (tz_text_of_off _ P7), dec_Z_nonneg by (clear - G3; lia).
Qed.

Lemma wf_gitent_parts g : wf_gitent g = true ->
  hash20 (g_old g) = true /\ hash20 (g_new g) = true /\ ident_clean (g_name g) = true /\
  name_trim (g_name g) = true /\ ident_clean (g_email g) = true /\
  0 < g_time g < 2 ^ 63 /\ (Z.abs (g_tz g) < 10000)%Z /\ lacks LF (g_msg g) = true.
Proof.
  unfold wf_gitent. rewrite !andb_true_iff, !N.ltb_lt, Z.ltb_lt. tauto.
Qed.

Lemma hash20_ok h : hash20 h = true -> hash_ok h = true.
Proof. unfold hash20, hash_ok. intros K. apply andb_true_iff in K as [-> ->]. reflexivity. Qed.

Lemma dec_Z_of_N t : dec_Z (Z.of_N t) = dec_N t.
Proof. now destruct t. Qed.

Lemma go_reads_git_line g : wf_gitent g = true ->
  lacks LF (gitent_line g) = true /\ gitent_line g <> [] /\ decode_line (gitent_line g) = Some (go_view g).
Proof.
  intros W. destruct (wf_gitent_parts g W) as (P1 & P2 & P3 & P4 & P5 & P6 & P7 & P8).
  destruct (tz_text_facts _ P7) as (T1 & T2 & T3).
  destruct (secs_text (Z.of_N (g_time g))) as (S1 & S2 & S3); [clear - P6; lia|].
  rewrite dec_Z_of_N in S1, S2, S3.
  unfold go_view, gitent_line. apply line_reads; auto using hash20_ok.
Qed.

Lemma git_reads_git_line g : wf_gitent g = true -> git_parse_line 40 (git_write g) = Some g.
Proof.
  intros W. destruct (wf_gitent_parts g W) as (P1 & P2 & P3 & P4 & P5 & P6 & P7 & _).
  rewrite git_write_shape. unfold gitent_line. rewrite tz_text_dig4 by (clear - P7; lia).
  rewrite git_parse_shape, sign_pick by (easy || apply sign_ok || (clear - P6 P7; lia)).
  destruct g as [o n nm em t tz m]. cbn [g_old g_new g_name g_email g_time g_tz g_msg] in *.
  f_equal. f_equal. clear - P7. destruct (tz <? 0)%Z eqn:S; lia.
Qed.

Lemma go_reads_git_file gs :
  forallb wf_gitent gs = true ->
  decode (concat (map git_write gs)) = Some (map go_view gs) /\
  git_read 40 (concat (map git_write gs)) = gs.
Proof.
  induction gs as [|g gs IH]; intros H; [split; reflexivity|].
  cbn [forallb] in H. apply andb_true_iff in H as [Hg Hgs]. destruct (IH Hgs) as [IH1 IH2].
  cbn [map concat]. destruct (go_reads_git_line g Hg) as (L1 & L2 & L3).
  pose proof (git_reads_git_line g Hg) as G.
  rewrite git_write_shape in G |- *. split.
  - now rewrite (decode_file_step _ _ _ L1 L2 L3), IH1.
  - rewrite (git_read_step _ _ _ L1 G). now rewrite IH2.
Qed.

(* what git lists of an entry go-git can write is an entry git can write *)
Lemma wf_git_view e : wf_git e = true -> wf_gitent (git_view (normalise e)) = true.
Proof.
  intros W. destruct (wf_git_parts e W) as (W1 & G1 & G2 & G3).
  destruct (wf_parts e W1) as (_ & _ & P3 & P4 & P5 & P6 & P7).
  destruct (tz_of_off_facts _ P7) as (B & _).
  unfold wf_gitent, git_view, normalise.
  cbn [g_old g_new g_name g_email g_time g_tz g_msg e_old e_new e_name e_email e_secs e_off e_msg].
  rewrite G1, G2, P3, P4, P5, normalize_lacks_LF. clear - G3 P6 B. lia.
Qed.

(* so git reads go-git's file as it reads its own *)
Lemma git_reads_file es :
  forallb wf_git es = true ->
  git_read 40 (concat (map encode es)) = map (fun e => git_view (normalise e)) es.
Proof.
  intros H. rewrite forallb_forall in H.
  rewrite (map_ext_in encode (fun e => git_write (git_view (normalise e))))
    by (intros e He; apply encode_is_git_write, H, He).
  rewrite <- (map_map (fun e => git_view (normalise e)) git_write).
  apply go_reads_git_file, forallb_forall. intros g [e [<- He]]%in_map_iff. apply wf_git_view, H, He.
Qed.
