(* Proofs/C53Visit.v — C53 for the depth-first delta resolution of the pack
   parser model (Model/PackParse.v visit / resolve).  [visit] answers None both
   for a rejection and for exhausted fuel; the resolver calls it with fuel
   |entries|+1.  FUEL STABILITY: every nested visit is entered right after a
   delta that was not yet done has been marked done, so the nesting depth is
   bounded by the number of undone deltas: with fuel > #undone(s), more fuel
   never changes the answer.  For every store, entry lists, inflate result. *)
From Coq Require Import List ZArith Bool Lia.
From GoGit Require Import Base.Out Model.PackBytes Model.PackParse Proofs.C08 Proofs.C09.
Import ListNotations.

Section FilterLen.
Context {A : Type} (p q : A -> bool) (H : forall x, p x = true -> q x = true).

Lemma filter_len_le l : (List.length (filter p l) <= List.length (filter q l))%nat.
Proof.
  induction l as [|x l IH]; cbn [filter]; [lia|].
  destruct (p x) eqn:Px; [rewrite (H x Px)|destruct (q x)]; cbn [List.length]; lia.
Qed.

Lemma filter_len_lt : forall l c, In c l -> p c = false -> q c = true ->
  (List.length (filter p l) < List.length (filter q l))%nat.
Proof.
  induction l as [|x l IH]; intros c Hin Pc Qc; [destruct Hin|]. cbn [filter]. destruct Hin as [->|Hin].
  - rewrite Pc, Qc. cbn [List.length]. pose proof (filter_len_le l). lia.
  - specialize (IH c Hin Pc Qc).
    destruct (p x) eqn:Px; [rewrite (H x Px)|destruct (q x)]; cbn [List.length]; lia.
Qed.

End FilterLen.

Section V.
Variable hs : nat.
Variable Hsz : nat -> bytes -> bytes.
Variable ext : store.
Variables refs ofss : list ohdr.

Definition undone (s : pstate) : nat :=
  List.length (filter (fun c => negb (is_done s (oh_off c))) (refs ++ ofss)).

Lemma not_done_mono s s' : psub s s' ->
  forall c, negb (is_done s' (oh_off c)) = true -> negb (is_done s (oh_off c)) = true.
Proof.
  intros [_ I] c N. destruct (is_done s (oh_off c)) eqn:D; [|reflexivity].
  apply is_done_in, I, is_done_in in D. rewrite D in N. exact N.
Qed.

Lemma undone_mono s s' : psub s s' -> (undone s' <= undone s)%nat.
Proof. intros P. apply filter_len_le, (not_done_mono s s' P). Qed.

Lemma undone_dec s s' c : psub s s' -> In c (refs ++ ofss) -> is_done s (oh_off c) = false ->
  In (oh_off c) (p_done s') -> (undone s' < undone s)%nat.
Proof.
  intros P Hin D Hd. apply (filter_len_lt _ _ (not_done_mono s s' P) _ c Hin).
  - apply negb_false_iff, is_done_in, Hd.
  - now rewrite D.
Qed.

(* one step of the fold over the children: [C09.child] once the children before it have succeeded *)
Definition vstep (rec : bytes -> N -> pstate -> option pstate) (acc : option pstate) (c : ohdr) : option pstate :=
  match acc with None => None | Some s => child hs Hsz ext rec s c end.

Lemma visit_S f pid poff s :
  visit hs Hsz (S f) ext refs ofss pid poff s =
  fold_left (vstep (visit hs Hsz f ext refs ofss)) (filter (fun c => oh_base_off c =? poff)%N ofss)
    (fold_left (vstep (visit hs Hsz f ext refs ofss)) (filter (fun c => bytes_eqb (oh_base_id c) pid) refs) (Some s)).
Proof. reflexivity. Qed.

Definition bounded (m : nat) (acc : option pstate) : Prop :=
  match acc with Some a => (undone a <= m)%nat | None => True end.

(* two recursive calls that agree below the bound, the second one monotone: the folds agree *)
Lemma fold_vstep_agree (recg recf : bytes -> N -> pstate -> option pstate) (m : nat) :
  (forall pid poff s, (undone s < m)%nat -> recg pid poff s = recf pid poff s) ->
  (forall pid poff s r, recf pid poff s = Some r -> psub s r) ->
  forall l, incl l (refs ++ ofss) -> forall acc, bounded m acc ->
  fold_left (vstep recg) l acc = fold_left (vstep recf) l acc /\ bounded m (fold_left (vstep recf) l acc).
Proof.
  intros Hag Hmono. induction l as [|c l IH]; intros Hl acc Hb; [split; [reflexivity|exact Hb]|].
  cbn [fold_left].
  apply incl_cons_inv in Hl. destruct Hl as [Hc Hl].
  assert (E : vstep recg acc c = vstep recf acc c /\ bounded m (vstep recf acc c)).
  { destruct acc as [a|]; cbn [vstep bounded] in *; [|now split]. unfold child.
    destruct (is_done a (oh_off c)) eqn:D; [now split|].
    destruct (process_delta hs Hsz ext a c) as [s1|] eqn:P; [|now split].
    destruct (by_offset s1 (oh_off c)) as [o|]; [|now split].
    apply (process_delta_mono hs Hsz) in P. destruct P as (P1 & P2 & _ & _).
    assert (U : (undone s1 < undone a)%nat) by (eapply undone_dec; [exact P1|exact Hc|exact D|exact P2]).
    rewrite Hag by lia. split; [reflexivity|].
    destruct (recf (r_id o) (r_off o) s1) as [r|] eqn:R; [|exact I]. apply Hmono in R. apply undone_mono in R. cbn. lia. }
  destruct E as [E1 E2]. rewrite E1. apply IH; assumption.
Qed.

Theorem visit_stable : forall f pid poff s g,
  (undone s < f)%nat -> (f <= g)%nat ->
  visit hs Hsz g ext refs ofss pid poff s = visit hs Hsz f ext refs ofss pid poff s.
Proof.
  induction f as [|f IH]; intros pid poff s g Hf Hg; [lia|]. destruct g as [|g]; [lia|].
  rewrite !visit_S, <- !fold_left_app. apply (fold_vstep_agree _ _ (undone s)); [..|exact (le_n _)].
  - intros pid' poff' s' H. apply IH; lia.
  - intros pid' poff' s' r E. apply (visit_mono hs Hsz) in E. apply E.
  - apply incl_app; [apply incl_appl|apply incl_appr]; apply incl_filter.
Qed.

End V.

Lemma undone_le refs ofss s : (undone refs ofss s <= List.length refs + List.length ofss)%nat.
Proof.
  unfold undone. rewrite <- app_length.
  induction (refs ++ ofss) as [|x l IH]; cbn [filter List.length]; [lia|]. destruct (negb _); cbn [List.length]; lia.
Qed.

(* the fuel of the resolver: refs and ofss are disjoint selections of the scanned entries *)
Lemma two_filters_le {A} (p q : A -> bool) : forall l, (forall x, p x = true -> q x = false) ->
  (List.length (filter p l) + List.length (filter q l) <= List.length l)%nat.
Proof.
  induction l as [|x l IH]; intros H; [cbn; lia|]. cbn [filter]. specialize (IH H).
  destruct (p x) eqn:Px; [rewrite (H x Px)|destruct (q x)]; cbn [List.length]; lia.
Qed.

Theorem resolve_visit_stable hs Hsz ext (es : list ohdr) pid poff s g :
  let refs := filter (fun e => match oh_type e with TRef => true | _ => false end) es in
  let ofss := filter (fun e => match oh_type e with TOfs => true | _ => false end) es in
  (S (List.length es) <= g)%nat ->
  visit hs Hsz g ext refs ofss pid poff s = visit hs Hsz (S (List.length es)) ext refs ofss pid poff s.
Proof.
  cbv zeta. intros Hg. apply visit_stable; [|exact Hg].
  apply Nat.lt_succ_r. etransitivity; [apply undone_le|]. apply two_filters_le.
  intros x. now destruct (oh_type x).
Qed.
