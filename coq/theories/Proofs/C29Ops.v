(* Proofs/C29Ops.v — a refused Restore / Add / Commit / Merge / Pull of
   Model/PorcelainOps.v leaves the state as it was; the exceptions (Commit{All},
   Pull on a HEAD that names no branch, the unrepaired Pull) are exhibited. *)
From Coq Require Import List NArith ZArith Bool.
From GoGit Require Import Base.Out Model.Porcelain Model.PorcelainOps Proofs.PorcelainMaps Proofs.Porcelain.
Import ListNotations.
Local Open Scope N_scope.
Local Arguments is_branch : simpl never.

From Coq Require Import String.
Local Open Scope string_scope.
Definition bs (s : string) : bytes := bytes_of_string s.

(* the state on which Commit{All} stores the index and then refuses: a staged
   change, the worktree back at HEAD's version *)
Definition ca_state : rstate :=
  mkR [mkCmt [(bs "a", (KReg, bs "A0"))] []] [(master, 0%Z)] (HSym master)
      [(bs "a", (KReg, bs "staged"))] [(bs "a", (KReg, bs "A0"))] true.

(* HEAD names a tag: updateHEAD moves the tag, then setHEADCommit refuses *)
Definition tag_t : bytes := bs "refs/tags/t".
Definition pt_state : rstate :=
  mkR [mkCmt [(bs "a", (KReg, bs "A0"))] []; mkCmt [(bs "a", (KReg, bs "A1"))] [0%Z]]
      [(tag_t, 0%Z)] (HSym tag_t) [(bs "a", (KReg, bs "A0"))] [(bs "a", (KReg, bs "A0"))] true.
Definition pt_env : penv := mkPE true true [(master, 1%Z)] (Some master) [].

(* the unrepaired order: the branch has moved when the unstaged changes are noticed *)
Definition pu_state : rstate :=
  mkR [mkCmt [(bs "a", (KReg, bs "A0"))] []; mkCmt [(bs "a", (KReg, bs "A1"))] [0%Z]]
      [(master, 0%Z)] (HSym master) [(bs "a", (KReg, bs "A0"))] [(bs "a", (KReg, bs "dirty"))] true.

Local Close Scope string_scope.

Lemma rstate_eta : forall s, mkR (r_commits s) (r_refs s) (r_head s) (r_idx s) (r_wt s) (r_user s) = s.
Proof. now destruct s. Qed.

(* setHEADCommit refuses without writing, and otherwise writes what updateHEAD writes *)
Lemma rset_head_commit_spec : forall c s r s1, rset_head_commit c s = (r, s1) ->
  s1 = match r with Some _ => s | None => rupdate_head c s end.
Proof.
  intros c s r s1. unfold rset_head_commit, rupdate_head.
  destruct (r_head s); [|intro H; now inversion H].
  destruct (lookup b (r_refs s)); [|intro H; now inversion H].
  destruct (is_branch b); intro H; now inversion H.
Qed.

Lemma restore_err_unchanged : forall st wk files s e s',
  restore st wk files s = (Some e, s') -> s' = s.
Proof.
  intros st wk files s e s'. unfold restore.
  destruct files as [|f0 fs]; [intro H; now inversion H|].
  destruct st; cbn [negb]; [|intro H; now inversion H].
  destruct (rhead_commit s) as [c|]; [|intro H; now inversion H].
  destruct (rtree_of s c) as [t|]; [|intro H; now inversion H].
  destruct (rset_head_commit c s) as [[e1|] s1] eqn:Eh.
  - intro H. inversion H; subst. exact (rset_head_commit_spec _ _ _ _ Eh).
  - destruct wk; [|discriminate]. cbv zeta.
    (* the checkoutChange fold cannot fail: the restricted resetIndex has put
       the tree's entry at every path the fold visits *)
    edestruct (checkout_fold_on t) as (ix' & w' & -> & _); [|cbn; discriminate].
    intros q Hq. apply filter_In in Hq. destruct Hq as [_ Hq].
    apply andb_true_iff in Hq. destruct Hq as [Hq _].
    rewrite reset_index_fold, mem_filter, mem_changed_paths, Hq, andb_true_r.
    destruct (differs (r_idx s1) t q) eqn:E; [reflexivity | now apply differs_false].
Qed.

(* Add, Merge, Commit: a refusal comes before any store (but for Commit{All},
   which has stored the index by then: s1 in commit_spec); a success has made
   one kind of store *)
Lemma add_names_spec : forall hd s names r s', add_names hd s names = (r, s') ->
  s' = match r with Some _ => s | None => w_idx s (r_idx s') end.
Proof.
  intros hd s names r s'. unfold add_names. destruct (existsb _ names); intro H; now inversion H.
Qed.

Lemma add_path_spec : forall p s r s', add_path p s = (r, s') ->
  s' = match r with Some _ => s | None => w_idx s (r_idx s') end.
Proof.
  intros p s r s'. unfold add_path.
  destruct (rhead_tree s); try (intro H; now inversion H);
    destruct (is_dir_wt s p && negb (is_some (lookup p (r_wt s)))); apply add_names_spec.
Qed.

Lemma merge_spec : forall t ff s r s', merge t ff s = (r, s') ->
  s' = match r with Some _ => s | None => rupdate_head t s end.
Proof.
  intros t ff s r s'. unfold merge.
  destruct ff; cbn [negb]; [|intro H; now inversion H].
  destruct (rhead_commit s); [|intro H; now inversion H].
  destruct (rcommit s t); [|intro H; now inversion H].
  destruct (is_anc (r_commits s) z t); cbn [negb]; intro H; now inversion H.
Qed.

Lemma commit_tail_spec : forall o parents0 s1 r s', commit_tail o parents0 s1 = (r, s') ->
  match r with
  | Some _ => s' = s1
  | None => exists parents, s' = rupdate_head (Z.of_nat (List.length (r_commits s1)))
                                              (w_commits s1 (r_commits s1 ++ [mkCmt (r_idx s1) parents]))
  end.
Proof.
  intros o parents0 s1 r s'. unfold commit_tail, commit_finish.
  destruct (if cm_amend o then _ else _) as [e0|parents]; [intro H; now inversion H|].
  destruct (is_nil parents && is_nil (r_idx s1) && negb (cm_allow_empty o)); [intro H; now inversion H|].
  destruct parents as [|p0 ps]; [intro H; inversion H; eauto|].
  destruct (rtree_of s1 p0); [|intro H; now inversion H].
  destruct (fmap_eqb (r_idx s1) f && negb (cm_allow_empty o)); intro H; inversion H; eauto.
Qed.

Lemma commit_spec : forall o s r s', commit o s = (r, s') ->
  let s1 := if commit_stores_index o s then w_idx s (auto_add s) else s in
  match r with
  | Some _ => s' = s1
  | None => exists parents, s' = rupdate_head (Z.of_nat (List.length (r_commits s)))
                                              (w_commits s1 (r_commits s ++ [mkCmt (r_idx s1) parents]))
  end.
Proof.
  intros o s r s'. unfold commit, commit_stores_index.
  destruct (cm_all o && cm_amend o); cbn [negb andb]; [intro H; now inversion H|].
  destruct (negb (cm_author o) && negb (r_user s)); cbn [negb andb]; [intro H; now inversion H|].
  destruct (cm_all o); cbn [andb].
  - destruct (rhead_tree s); cbn [negb andb]; intro H;
      [exact (commit_tail_spec _ _ _ _ _ H) | now inversion H | exact (commit_tail_spec _ _ _ _ _ H)].
  - apply commit_tail_spec.
Qed.

Lemma commit_err_unchanged_partial : forall o s e s',
  cm_all o = false -> commit o s = (Some e, s') -> s' = s.
Proof.
  intros o s e s' Ha H. apply commit_spec in H. unfold commit_stores_index in H.
  now rewrite Ha, andb_false_r in H.
Qed.

Lemma commit_err_keeps : forall o s e s',
  commit o s = (Some e, s') ->
  r_commits s' = r_commits s /\ r_refs s' = r_refs s /\ r_head s' = r_head s /\ r_wt s' = r_wt s.
Proof.
  intros o s e s' H. apply commit_spec in H. subst s'. now destruct (commit_stores_index o s).
Qed.

Lemma commit_all_refuted :
  exists o s e s', commit o s = (Some e, s') /\ observable s' <> observable s.
Proof.
  exists (mkCO true false true false), ca_state, XEmptyCommit,
         (w_idx ca_state [(bs "a", (KReg, bs "A0"))]).
  split; [vm_compute; reflexivity | vm_compute; intro H; discriminate].
Qed.

Lemma reset_merge_err_unchanged : forall c s e s', reset_merge c s = (Some e, s') -> s' = s.
Proof.
  intros c s e s'. unfold reset_merge.
  destruct (rtree_of s c) as [t|]; [|intro H; now inversion H].
  destruct (runstaged s); [intro H; now inversion H|].
  destruct (rset_head_commit c s) as [[e1|] s1] eqn:Eh.
  - intro H. inversion H; subst. exact (rset_head_commit_spec _ _ _ _ Eh).
  - pose proof (reset_index_lookup t (r_idx s1)) as Hag.
    destruct (snd (reset_index t (r_idx s1))) as [|q0 l0]; [intro H; inversion H|].
    destruct (reset_worktree_spec t (q0 :: l0) (fst (reset_index t (r_idx s1))) (r_wt s1) Hag)
      as (ix' & w' & H1 & _). rewrite H1. cbn. intro H; inversion H.
Qed.

Lemma is_prefix_app : forall a b, is_prefix a (a ++ b) = true.
Proof. induction a as [|x a IH]; intro b; cbn; [reflexivity|]. now rewrite N.eqb_refl, IH. Qed.

Lemma tracking_is_remote : forall n, is_remote_ref (tracking_name n) = true.
Proof. intro n. unfold is_remote_ref, tracking_name. apply is_prefix_app. Qed.

Local Arguments is_remote_ref : simpl never.

Lemma local_refs_insert_remote : forall (m : amap Z) p v,
  is_remote_ref p = true -> local_refs (insert p v m) = local_refs m.
Proof.
  unfold local_refs. induction m as [|[q w] r IH]; intros p v Hp; cbn.
  - now rewrite Hp.
  - destruct (bcmp p q) eqn:E; cbn.
    + apply bcmp_eq in E. subst q. now rewrite Hp.
    + now rewrite Hp.
    + rewrite IH by assumption. reflexivity.
Qed.

Definition same_but_refs (s1 s : rstate) : Prop :=
  r_commits s1 = r_commits s /\ r_head s1 = r_head s /\ r_idx s1 = r_idx s /\ r_wt s1 = r_wt s /\ r_user s1 = r_user s /\ local_refs (r_refs s1) = local_refs (r_refs s).

Lemma same_but_refs_obs : forall s1 s, same_but_refs s1 s -> observable s1 = observable s.
Proof. intros s1 s (_ & H2 & H3 & H4 & _ & H6). unfold observable. now rewrite H2, H3, H4, H6. Qed.

(* the stores of the fetch half touch remote-tracking references only *)
Lemma fetch_stores_frame : forall adv s,
  same_but_refs (apply_effs (map (fun nc : bytes * Z => FSetRef (tracking_name (fst nc)) (snd nc)) adv) s) s.
Proof.
  induction adv as [|[n c] adv IH]; intro s; [repeat split|].
  destruct (IH (apply_eff s (FSetRef (tracking_name n) c))) as (H1 & H2 & H3 & H4 & H5 & H6).
  cbn [apply_eff w_refs r_refs fst snd] in H6.
  rewrite (local_refs_insert_remote _ _ c (tracking_is_remote n)) in H6.
  repeat split; assumption.
Qed.

Lemma fetch_refs_effs : forall adv s b,
  apply_effs (map (fun nc : bytes * Z => FSetRef (tracking_name (fst nc)) (snd nc)) adv) s =
  w_refs s (fst (fold_left (fun (acc : amap Z * bool) (nc : bytes * Z) =>
               let ln := tracking_name (fst nc) in
               (insert ln (snd nc) (fst acc),
                snd acc || negb (match lookup ln (fst acc) with Some c => (c =? snd nc)%Z | None => false end)))
            adv (r_refs s, b))).
Proof.
  induction adv as [|[n c] adv IH]; intros s b; cbn [map fold_left].
  - cbn. symmetry. apply rstate_eta.
  - change (apply_effs (?f :: ?r) s) with (apply_effs r (apply_eff s f)). cbn [apply_eff fst snd].
    rewrite (IH _ (b || negb (match lookup (tracking_name n) (r_refs s) with Some c0 => (c0 =? c)%Z | None => false end))).
    reflexivity.
Qed.

Lemma pull_pre_spec : forall e s x rc s1, pull_pre e s = (x, (rc, s1)) ->
  s1 = apply_effs (eff_fetch e) s /\ (x = None -> resolve_remote e = Some rc).
Proof.
  intros e s x rc s1. unfold pull_pre, eff_fetch.
  destruct (negb (pe_conf e)); cbn [orb]; [intro H; now inversion H|].
  destruct (negb (pe_reach e)); cbn [orb]; [intro H; now inversion H|].
  destruct (is_nil (pe_refs e)); [intro H; now inversion H|].
  rewrite (fetch_refs_effs (pe_refs e) s false). fold (fetch_refs (pe_refs e) (r_refs s)).
  destruct (resolve_remote e) as [r|]; [|intro H; now inversion H].
  destruct (rhead_commit _) as [h|]; [|intro H; now inversion H].
  destruct (rcommit _ h); [|intro H; now inversion H].
  destruct (_ && _); [intro H; now inversion H|].
  destruct (negb _); intro H; now inversion H.
Qed.

Lemma pull_pre_frame : forall e s x rc s1, pull_pre e s = (x, (rc, s1)) -> same_but_refs s1 s.
Proof.
  intros e s x rc s1 H. destruct (pull_pre_spec _ _ _ _ _ H) as [-> _]. unfold eff_fetch.
  destruct (_ || _ || _); [repeat split | apply fetch_stores_frame].
Qed.

(* what the final Reset of Pull needs: HEAD names a branch (or is detached) and
   the commit pulled is in the object store (the fetch brought it) *)
Definition head_on_branch (s : rstate) : bool :=
  match r_head s with HSym b => is_branch b | HDet _ => true end.

Definition remote_refs_exist (e : penv) (s : rstate) : bool :=
  forallb (fun nc => is_some (rcommit s (snd nc))) (pe_refs e).

Definition pull_guard (e : penv) (s : rstate) : bool := head_on_branch s && remote_refs_exist e s.

Lemma resolve_remote_exists : forall e s rc,
  remote_refs_exist e s = true -> resolve_remote e = Some rc -> is_some (rcommit s rc) = true.
Proof.
  intros e s rc Hex. unfold remote_refs_exist in Hex. rewrite forallb_forall in Hex.
  unfold resolve_remote.
  destruct (is_nil (pe_refname e) || beqb (pe_refname e) HEADNAME).
  - destruct (pe_head e) as [b|]; [|discriminate]. intro H. apply lookup_in in H. apply (Hex _ H).
  - intro H. apply lookup_in in H. apply (Hex _ H).
Qed.

(* updateHEAD writes a reference or HEAD, nothing else *)
Lemma rupdate_head_idx : forall c s, r_idx (rupdate_head c s) = r_idx s.
Proof. intros c s. unfold rupdate_head. now destruct (r_head s). Qed.

Lemma rupdate_head_wt : forall c s, r_wt (rupdate_head c s) = r_wt s.
Proof. intros c s. unfold rupdate_head. now destruct (r_head s). Qed.

Lemma rupdate_head_commits : forall c s, r_commits (rupdate_head c s) = r_commits s.
Proof. intros c s. unfold rupdate_head. now destruct (r_head s). Qed.

Lemma rtree_of_update_head : forall c s c', rtree_of (rupdate_head c s) c' = rtree_of s c'.
Proof. intros c s c'. unfold rtree_of, rcommit. now rewrite rupdate_head_commits. Qed.

Lemma runstaged_update_head : forall c s, runstaged (rupdate_head c s) = runstaged s.
Proof. intros c s. unfold runstaged. now rewrite rupdate_head_idx, rupdate_head_wt. Qed.

Lemma reset_merge_after_update_ok : forall rc s,
  head_on_branch s = true -> is_some (rcommit s rc) = true -> runstaged s = false ->
  exists s', reset_merge rc (rupdate_head rc s) = (None, s').
Proof.
  intros rc s Hb Hc Hu. unfold reset_merge.
  rewrite rtree_of_update_head, runstaged_update_head, Hu.
  unfold rtree_of. destruct (rcommit s rc) as [k|]; [|discriminate]. cbn [option_map].
  assert (Hh : exists s1, rset_head_commit rc (rupdate_head rc s) = (None, s1)).
  { unfold rset_head_commit, rupdate_head, head_on_branch in *. destruct (r_head s) eqn:Eh; cbn.
    - rewrite Eh. rewrite lookup_insert_eq, Hb. eauto.
    - eauto. }
  destruct Hh as (s1 & Hh). rewrite Hh.
  pose proof (reset_index_lookup (c_tree k) (r_idx s1)) as Hag.
  destruct (snd (reset_index (c_tree k) (r_idx s1))) as [|q0 l0]; [eauto|].
  destruct (reset_worktree_spec (c_tree k) (q0 :: l0) (fst (reset_index (c_tree k) (r_idx s1))) (r_wt s1) Hag)
    as (ix' & w' & H1 & _). rewrite H1. cbn. eauto.
Qed.

Lemma pull_guard_frame : forall e s s1,
  same_but_refs s1 s -> pull_guard e s = true -> head_on_branch s1 = true /\ remote_refs_exist e s1 = true.
Proof.
  intros e s s1 (H1 & H2 & _) Hg. unfold pull_guard in Hg. apply andb_true_iff in Hg. destruct Hg as [Ha Hb].
  split.
  - unfold head_on_branch in *. now rewrite H2.
  - unfold remote_refs_exist, rcommit in *. now rewrite H1.
Qed.

Lemma pull_no_late_refusal : forall e s rc s1,
  pull_guard e s = true -> pull_pre e s = (None, (rc, s1)) -> runstaged s1 = false ->
  exists s', reset_merge rc (rupdate_head rc s1) = (None, s').
Proof.
  intros e s rc s1 Hg Hp Hu.
  pose proof (pull_pre_frame _ _ _ _ _ Hp) as Hf.
  destruct (pull_guard_frame e s s1 Hf Hg) as [Hb Hex].
  apply reset_merge_after_update_ok; [assumption| |assumption].
  apply (resolve_remote_exists e s1 rc Hex). now apply (pull_pre_spec _ _ _ _ _ Hp).
Qed.

Lemma pull_err_observable : forall e s x s',
  pull_guard e s = true -> pull e s = (Some x, s') -> observable s' = observable s.
Proof.
  intros e s x s' Hg. unfold pull.
  destruct (pull_pre e s) as [[x0|] [rc s1]] eqn:Hp.
  - intro H. inversion H; subst. apply same_but_refs_obs. eapply pull_pre_frame; eauto.
  - destruct (runstaged s1) eqn:Hu.
    + intro H. inversion H; subst. apply same_but_refs_obs. eapply pull_pre_frame; eauto.
    + destruct (pull_no_late_refusal e s rc s1 Hg Hp Hu) as (s2 & H2). rewrite H2. discriminate.
Qed.

Lemma pull_repaired_on_witness :
  pull pt_env pu_state = (Some XUnstaged, w_refs pu_state [(master, 0%Z); (tracking_name master, 1%Z)]).
Proof. vm_compute. reflexivity. Qed.

Definition op_guard (o : xop) (s : rstate) : bool :=
  match o with
  | XCommit c => negb (cm_all c)
  | XPull e => pull_guard e s
  | _ => true
  end.

Lemma xstep_err_observable : forall o s x s',
  op_guard o s = true -> xstep o s = (Some x, s') -> observable s' = observable s.
Proof.
  intros o s x s' Hg H. destruct o; cbn [xstep op_guard] in *.
  - apply restore_err_unchanged in H. now subst.
  - apply add_path_spec in H. now subst.
  - apply add_path_spec in H. now subst.
  - unfold add_bad_options in H. inversion H. now subst.
  - apply commit_err_unchanged_partial in H; [now subst|]. now destruct (cm_all o).
  - apply merge_spec in H. now subst.
  - eapply pull_err_observable; eauto.
  - discriminate.
  - discriminate.
Qed.
