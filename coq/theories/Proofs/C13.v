(* Proofs/C13.v — ReferenceName.Validate (Model/RefName.v) agrees with git's
   check_refname_format (Spec/CheckRefFormat.v) on every NUL-free name other
   than "HEAD", up to go-git's documented leading-dash rule and its refusal of a
   component "@" (validate_exact). *)
From Coq Require Import List Arith NArith Bool String Lia.
From GoGit Require Import Base.Out Model.RefStrings Model.RefName Spec.CheckRefFormat Gen.C13.
Import ListNotations.
Local Open Scope N_scope.

Lemma HEADname_val : HEADname = [72;69;65;68].
Proof. reflexivity. Qed.

Lemma beqb_eq a : forall b, beqb a b = true <-> a = b.
Proof.
  induction a as [|x a IH]; intros [|y b]; cbn; split; try congruence; try reflexivity.
  - intros H. apply andb_true_iff in H as [H1 H2]. apply N.eqb_eq in H1. apply IH in H2. congruence.
  - intros H. injection H as -> ->. rewrite N.eqb_refl. cbn. now apply IH.
Qed.

Lemma beqb_false a b : beqb a b = false <-> a <> b.
Proof. rewrite <- beqb_eq. symmetry. apply not_true_iff_false. Qed.

Lemma has_prefix_split p : forall s, has_prefix p s = true -> s = p ++ skipn (List.length p) s.
Proof.
  induction p as [|x p IH]; intros s H; [reflexivity|].
  destruct s as [|y s]; cbn in H; [discriminate|].
  apply andb_true_iff in H as [H1 H2]. apply N.eqb_eq in H1. subst y.
  cbn. f_equal. now apply IH.
Qed.

Lemma has_prefix_app p q : forall s,
  has_prefix (p ++ q) s = has_prefix p s && has_prefix q (skipn (List.length p) s).
Proof.
  induction p as [|x p IH]; intros s; [reflexivity|].
  destruct s as [|y s]; cbn; [reflexivity|]. rewrite IH. now rewrite andb_assoc.
Qed.

Lemma has_prefix_len p : forall s, has_prefix p s = true -> (List.length p <= List.length s)%nat.
Proof.
  induction p as [|x p IH]; intros [|y s] H; cbn in *; try lia; try discriminate.
  apply andb_true_iff in H as [_ H]. apply IH in H. lia.
Qed.

Lemma has_suffix_len p s : has_suffix p s = true -> (List.length p <= List.length s)%nat.
Proof. unfold has_suffix. intros H. apply has_prefix_len in H. now rewrite !rev_length in H. Qed.

Lemma last_app_ne (s t : bytes) d : t <> [] -> last (s ++ t) d = last t d.
Proof.
  intros H. induction s as [|c s IH]; [reflexivity|]. cbn [app].
  destruct (s ++ t) as [|n l] eqn:E.
  - destruct s; [cbn in E; contradiction|discriminate].
  - change (last (c :: n :: l) d) with (last (n :: l) d). exact IH.
Qed.

Lemma last_in {A} (l : list A) d : l <> [] -> In (last l d) l.
Proof.
  induction l as [|x l IH]; [contradiction|]. intros _. destruct l as [|y l]; [now left|].
  right. apply IH. discriminate.
Qed.

Lemma last_hd_rev (s : bytes) d : last s d = hd d (rev s).
Proof.
  induction s as [|c s IH] using rev_ind; [reflexivity|].
  rewrite rev_app_distr. cbn. destruct s; [reflexivity|]. now rewrite last_last.
Qed.

Lemma contains1 x s : contains [x] s = existsb (N.eqb x) s.
Proof.
  induction s as [|c s IH]; [reflexivity|]. cbn [contains existsb has_prefix]. rewrite IH.
  now rewrite andb_true_r.
Qed.

Lemma existsb_orb {A} (f g : A -> bool) l :
  existsb (fun x => f x || g x) l = existsb f l || existsb g l.
Proof.
  induction l as [|x l IH]; [reflexivity|]. cbn. rewrite IH.
  destruct (f x), (g x), (existsb f l), (existsb g l); reflexivity.
Qed.

Lemma forallb_In {A} (f : A -> bool) l x : forallb f l = true -> In x l -> f x = true.
Proof. intro H. now apply forallb_forall. Qed.

Lemma existsb_In {A} (f : A -> bool) l x : existsb f l = false -> In x l -> f x = false.
Proof. intros H Hx. apply not_true_iff_false. intro E. apply not_true_iff_false in H. apply H, existsb_exists. eauto. Qed.

Lemma forallb_false {A} (f : A -> bool) l x : In x l -> f x = false -> forallb f l = false.
Proof. intros Hin Hf. apply not_true_iff_false. intro H. now rewrite (forallb_In _ _ _ H Hin) in Hf. Qed.

Lemma forallb_impl {A} (f g : A -> bool) l :
  (forall x, f x = true -> g x = true) -> forallb f l = true -> forallb g l = true.
Proof. intros Hfg H. apply forallb_forall. intros x Hx. apply Hfg, (forallb_In _ _ _ H Hx). Qed.

(* a byte outside the class of all bytes of s does not occur in s *)
Lemma mem_forallb_false (f : N -> bool) c s : forallb f s = true -> f c = false -> mem c s = false.
Proof.
  intros H Hc. apply not_true_iff_false. intro E. apply existsb_exists in E as (x & Hx & Ex).
  apply N.eqb_eq in Ex. subst x. now rewrite (forallb_In _ _ _ H Hx) in Hc.
Qed.

Lemma forallb_ext' {A} (f g : A -> bool) l : (forall x, f x = g x) -> forallb f l = forallb g l.
Proof. intros H. induction l as [|x l IH]; [reflexivity|]. cbn. now rewrite H, IH. Qed.

Lemma forallb_andb {A} (f g : A -> bool) l :
  forallb (fun x => f x && g x) l = forallb f l && forallb g l.
Proof.
  induction l as [|x l IH]; [reflexivity|]. cbn. rewrite IH.
  destruct (f x), (g x), (forallb f l), (forallb g l); reflexivity.
Qed.

Fixpoint span_slash (s : bytes) : bytes * bytes :=
  match s with
  | [] => ([], [])
  | c :: r => if c =? 47 then ([], s) else let (a, b) := span_slash r in (c :: a, b)
  end.

Lemma split_nonempty sep s : split_on sep s <> [].
Proof.
  destruct s as [|c r]; cbn; [discriminate|].
  destruct (c =? sep); [discriminate|]. destruct (split_on sep r); discriminate.
Qed.

Lemma split_none sep a : mem sep a = false -> split_on sep a = [a].
Proof.
  induction a as [|c a IH]; intros H; [reflexivity|].
  cbn [mem existsb] in H. apply orb_false_iff in H as [Hc H]. rewrite N.eqb_sym in Hc.
  cbn [split_on]. now rewrite Hc, IH.
Qed.

Lemma split_app sep a : forall b, split_on sep (a ++ sep :: b) = split_on sep a ++ split_on sep b.
Proof.
  induction a as [|c a IH]; intros b; cbn [app split_on]; [now rewrite N.eqb_refl|].
  rewrite IH. destruct (c =? sep); [reflexivity|].
  pose proof (split_nonempty sep a). destruct (split_on sep a); [contradiction|reflexivity].
Qed.

Lemma in_split c s : In c s -> c <> 47 -> exists p, In p (split_on 47 s) /\ In c p.
Proof.
  induction s as [|x r IH]; intros Hin Hc; [contradiction|].
  cbn [split_on]. destruct (x =? 47) eqn:E.
  - destruct Hin as [->|Hin]; [apply N.eqb_eq in E; contradiction|].
    destruct (IH Hin Hc) as [p [Hp Hcp]]. exists p. split; [now right|assumption].
  - pose proof (split_nonempty 47 r) as Hne.
    destruct (split_on 47 r) as [|f fs] eqn:ES; [contradiction|].
    destruct Hin as [->|Hin].
    + exists (c :: f). split; [now left|now left].
    + destruct (IH Hin Hc) as [p [[<-|Hp] Hcp]].
      * exists (x :: f). split; [now left|now right].
      * exists p. split; [now right|assumption].
Qed.

Lemma split_span s :
  split_on 47 s = let (c, rest) := span_slash s in
                  match rest with [] => [c] | _ :: r => c :: split_on 47 r end.
Proof.
  induction s as [|a s IH]; [reflexivity|].
  cbn [split_on span_slash]. unfold SLASH. destruct (a =? 47) eqn:E; [reflexivity|].
  rewrite IH. destruct (span_slash s) as [c rest]. destruct rest; reflexivity.
Qed.

Definition no_nul (s : bytes) : bool := forallb (fun c => negb (c =? 0)) s.

Lemma span_rest s c rest : span_slash s = (c, rest) ->
  s = c ++ rest /\
  (rest = [] \/ exists r, rest = 47 :: r /\ (List.length r < List.length s)%nat
                          /\ (no_nul s = true -> no_nul r = true)).
Proof.
  revert c rest. induction s as [|a s IH]; intros c rest H; cbn in H.
  - injection H as <- <-. split; [reflexivity|now left].
  - destruct (N.eqb_spec a 47) as [->|_].
    + injection H as <- <-. split; [reflexivity|]. right. exists s. split; [reflexivity|].
      split; [cbn; lia|]. cbn. tauto.
    + destruct (span_slash s) as [c' rest'] eqn:E'. injection H as <- <-.
      destruct (IH _ _ eq_refl) as [-> [->|[r [-> [Hl Hn]]]]]; (split; [reflexivity|]); [now left|].
      right. exists r. split; [reflexivity|]. split; [cbn [List.length]; lia|].
      cbn. intros H. apply andb_true_iff in H as [_ H]. auto.
Qed.

Definition bad_char (c : N) : bool := is_ctrl c || mem c rule_chars || (92 =? c).

Ltac table_entry ch k := destruct (N.eqb_spec ch k) as [->|_]; [reflexivity|].

(* refname_disposition by classes.  One literal of the table at a time: with ch
   a literal both sides compute; what is left is the range test *)
Lemma disposition_eq ch : disposition ch =
  if (ch =? 0) || (ch =? 47) then 1 else if ch =? 46 then 2 else if ch =? 123 then 3
  else if bad_char ch then (if ch =? 42 then 5 else 4) else 0.
Proof.
  unfold disposition, bad_char, is_ctrl, mem, rule_chars. cbn [existsb]. rewrite (N.eqb_sym 92 ch).
  table_entry ch 0. table_entry ch 9. table_entry ch 10. table_entry ch 32. table_entry ch 42.
  table_entry ch 46. table_entry ch 47. table_entry ch 58. table_entry ch 63. table_entry ch 91.
  table_entry ch 92. table_entry ch 94. table_entry ch 123. table_entry ch 126. table_entry ch 127.
  destruct (N.ltb_spec ch 32);
    [rewrite (proj2 (N.leb_le ch 31)) by lia|rewrite (proj2 (N.leb_gt ch 31)) by lia]; reflexivity.
Qed.

(* some byte of c, seen together with the byte before it (last before the
   first), satisfies p: the shape of the scanning loop *)
Fixpoint exists_adj (p : N -> N -> bool) (last : N) (c : bytes) : bool :=
  match c with
  | [] => false
  | ch :: a => p last ch || exists_adj p ch a
  end.

Lemma exists_adj_orb p q c : forall last,
  exists_adj (fun x y => p x y || q x y) last c = exists_adj p last c || exists_adj q last c.
Proof.
  induction c as [|ch a IH]; intros last; [reflexivity|]. cbn. rewrite IH.
  destruct (p last ch), (q last ch), (exists_adj p ch a); reflexivity.
Qed.

Lemma exists_adj_cur f c : forall last, exists_adj (fun _ y => f y) last c = existsb f c.
Proof. induction c as [|ch a IH]; intros last; [reflexivity|]. cbn. now rewrite IH. Qed.

Lemma exists_adj_pair x y c : forall last,
  exists_adj (fun a b => (b =? y) && (a =? x)) last c = (last =? x) && has_prefix [y] c || contains [x; y] c.
Proof.
  induction c as [|ch a IH]; intros last; cbn [exists_adj has_prefix contains].
  - now rewrite andb_false_r.
  - now rewrite IH, andb_true_r, (N.eqb_sym y ch), (N.eqb_sym x ch), (andb_comm (ch =? y)).
Qed.

(* what makes comp_scan give up inside a component *)
Definition scan_bad : N -> bytes -> bool :=
  exists_adj (fun a b => (b =? 46) && (a =? 46) || (b =? 123) && (a =? 64) || bad_char b).

Lemma scan_bad_0 c : scan_bad 0 c = contains [46; 46] c || contains [64; 123] c || existsb bad_char c.
Proof.
  unfold scan_bad. rewrite exists_adj_orb, exists_adj_orb, !exists_adj_pair, exists_adj_cur. reflexivity.
Qed.

Lemma comp_scan_spec s : forall last acc, no_nul s = true ->
  comp_scan s last acc =
  let (c, rest) := span_slash s in
  if scan_bad last c then None else Some (rev acc ++ c, rest).
Proof.
  induction s as [|ch r IH]; intros last acc Hn.
  - cbn. now rewrite app_nil_r.
  - cbn in Hn. apply andb_true_iff in Hn as [Hch Hn]. apply negb_true_iff in Hch.
    cbn [comp_scan span_slash]. cbv zeta. rewrite disposition_eq, Hch. cbn [orb].
    destruct (N.eqb_spec ch 47) as [->|_]. { cbn. now rewrite app_nil_r. }
    specialize (IH ch (ch :: acc) Hn). destruct (span_slash r) as [a b].
    cbn [rev] in IH. rewrite <- app_assoc in IH. unfold scan_bad in *. cbn [exists_adj].
    destruct (N.eqb_spec ch 46) as [->|_]; [destruct (last =? 46); [reflexivity|exact IH]|].
    destruct (N.eqb_spec ch 123) as [->|_]; [destruct (last =? 64); [reflexivity|exact IH]|].
    destruct (bad_char ch); [destruct (ch =? 42); reflexivity|exact IH].
Qed.

(* what check_component (Spec/CheckRefFormat.v) refuses in a non-empty component *)
Definition gcomp_bad (c : bytes) : bool :=
  scan_bad 0 c || has_prefix [46] c || has_suffix LOCK_SUFFIX c.

Lemma check_component_spec s : no_nul s = true ->
  check_component s = let (c, rest) := span_slash s in
                      if gcomp_bad c then None else Some (c, rest).
Proof.
  intros Hn. unfold check_component. rewrite comp_scan_spec by assumption.
  destruct (span_slash s) as [c rest]. unfold gcomp_bad.
  destruct (scan_bad 0 c) eqn:ES; [reflexivity|]. cbn [rev app orb].
  destruct c as [|c0 c']; [reflexivity|].
  cbn [has_prefix]. rewrite (N.eqb_sym 46 c0), andb_true_r.
  destruct (c0 =? 46); [reflexivity|]. cbn [orb].
  destruct (has_suffix LOCK_SUFFIX (c0 :: c')) eqn:EL; [|now rewrite andb_false_r].
  apply has_suffix_len, Nat.leb_le in EL. change (List.length LOCK_SUFFIX) with 5%nat in EL. now rewrite EL.
Qed.

Definition gcomp_ok (c : bytes) : bool := negb (beqb c []) && negb (gcomp_bad c).

Lemma comp_loop_spec fuel : forall s count,
  (List.length s < fuel)%nat -> no_nul s = true ->
  comp_loop fuel s count =
  let parts := split_on 47 s in
  if forallb gcomp_ok parts then
    if last s 0 =? 46 then Invalid
    else if (count + List.length parts <? 2)%nat then Invalid else Valid
  else Invalid.
Proof.
  induction fuel as [|f IH]; intros s count Hl Hn; [lia|].
  cbn [comp_loop]. rewrite check_component_spec by assumption. cbv zeta. rewrite split_span.
  destruct (span_slash s) as [c rest] eqn:ES.
  destruct (gcomp_bad c) eqn:EB.
  { destruct rest; cbn [forallb]; unfold gcomp_ok; rewrite EB; cbn; now rewrite andb_false_r. }
  destruct c as [|c0 c'].
  { destruct rest; reflexivity. }
  assert (Hok : gcomp_ok (c0 :: c') = true) by (unfold gcomp_ok; rewrite EB; reflexivity).
  destruct (span_rest _ _ _ ES) as [Es [->|[r [-> [Hlr Hnr]]]]].
  - rewrite app_nil_r in Es. subst s. cbn [forallb]. rewrite Hok. cbn [andb List.length].
    now rewrite Nat.add_1_r.
  - rewrite N.eqb_refl. rewrite IH by (try lia; auto). cbn [forallb]. rewrite Hok. cbn [andb List.length].
    rewrite Nat.add_succ_comm. destruct r as [|x r']; [reflexivity|].
    (* the name ends as its last component does; an empty last component is refused anyway *)
    now rewrite Es, (last_app_ne _ (47 :: x :: r')).
Qed.

(* what parts_ok (Model/RefName.v) asks of every part, the dash test aside *)
Definition go_ok (p : bytes) : bool := negb (beqb p []) && negb (part_bad p).

Lemma parts_ok_spec isBT parts : forall i,
  parts_ok isBT i parts =
  forallb go_ok parts && negb (isBT && (i <=? 2)%nat && has_prefix [DASH] (nth (2 - i) parts [])).
Proof.
  induction parts as [|part r IH]; intros i.
  - cbn [parts_ok forallb andb].
    assert (H : nth (2 - i) (@nil bytes) [] = []) by (destruct (2 - i)%nat; reflexivity).
    rewrite H. cbn [has_prefix]. now rewrite andb_false_r.
  - cbn [parts_ok forallb]. unfold go_ok at 1. destruct part as [|p0 p'].
    + reflexivity.
    + cbn [beqb negb andb]. destruct (part_bad (p0 :: p')) eqn:EB; [reflexivity|]. cbn [negb andb].
      rewrite IH. destruct i as [|[|[|i]]]; cbn [Nat.eqb Nat.sub nth Nat.leb].
      * now rewrite !andb_false_r.
      * now rewrite !andb_false_r.
      * rewrite !andb_true_r, !andb_false_r. cbn [andb negb].
        destruct (isBT && has_prefix [DASH] (p0 :: p')); cbn [negb]; [now rewrite andb_false_r|now rewrite andb_true_r].
      * rewrite !andb_false_r. cbn [andb negb]. reflexivity.
Qed.

Lemma bad_char_exists c :
  existsb bad_char c = existsb is_ctrl c || contains_any rule_chars c || contains [92] c.
Proof. unfold bad_char, contains_any. now rewrite existsb_orb, existsb_orb, contains1. Qed.

(* the same conditions, listed in another order *)
Lemma part_bad_gcomp c : part_bad c = gcomp_bad c || beqb c [64].
Proof.
  unfold part_bad, gcomp_bad, DOTLOCK, LOCK_SUFFIX, DOT, AT, LBRACE, BSLASH.
  rewrite scan_bad_0, bad_char_exists. apply eq_iff_eq_true. rewrite !orb_true_iff. tauto.
Qed.

(* no component is the single character '@' *)
Definition no_at_component (s : bytes) : bool :=
  forallb (fun c => negb (beqb c [64])) (split_on 47 s).

Lemma go_ok_gcomp c : go_ok c = gcomp_ok c && negb (beqb c [64]).
Proof.
  unfold go_ok, gcomp_ok. rewrite part_bad_gcomp.
  destruct (beqb c []), (gcomp_bad c), (beqb c [64]); reflexivity.
Qed.

(* below a/b/ the third field starts like the rest of the name *)
Lemma dash_below a b s :
  mem 47 a = false -> mem 47 b = false -> has_prefix (a ++ 47 :: b ++ [47]) s = true ->
  has_prefix [45] (skipn (List.length (a ++ 47 :: b ++ [47])) s) = has_prefix [45] (nth 2 (split_on 47 s) []).
Proof.
  intros Ha Hb H. apply has_prefix_split in H. set (t := skipn _ s) in *. clearbody t. rewrite H.
  rewrite <- app_assoc. cbn [app]. rewrite <- app_assoc. cbn [app].
  rewrite !split_app, !split_none by assumption. cbn [app nth].
  destruct t as [|c t]; [reflexivity|]. cbn [split_on].
  destruct (N.eqb_spec c 47) as [->|_]; [reflexivity|]. destruct (split_on 47 t); reflexivity.
Qed.

Lemma dash_equiv s :
  (is_branch s || is_tag s) && has_prefix [DASH] (nth 2 (split_on 47 s) []) = negb (dash_rule s).
Proof.
  unfold dash_rule, is_branch, is_tag, DASH. rewrite negb_involutive.
  change (bytes_of_string "refs/heads/-") with (refHeadPrefix ++ [45]).
  change (bytes_of_string "refs/tags/-") with (refTagPrefix ++ [45]). rewrite !has_prefix_app.
  pose proof (dash_below (bytes_of_string "refs") (bytes_of_string "heads") s eq_refl eq_refl
              : has_prefix refHeadPrefix s = true -> has_prefix [45] (skipn (List.length refHeadPrefix) s) = _) as KH.
  pose proof (dash_below (bytes_of_string "refs") (bytes_of_string "tags") s eq_refl eq_refl
              : has_prefix refTagPrefix s = true -> has_prefix [45] (skipn (List.length refTagPrefix) s) = _) as KT.
  destruct (has_prefix refHeadPrefix s); [rewrite KH by reflexivity|];
    (destruct (has_prefix refTagPrefix s); [rewrite KT by reflexivity|]);
    destruct (has_prefix [45] (nth 2 (split_on 47 s) [])); reflexivity.
Qed.

Lemma has_suffix_dot s : has_suffix [DOT] s = (last s 0 =? 46).
Proof.
  unfold has_suffix, DOT. rewrite (last_hd_rev s 0). cbn [rev app].
  destruct (rev s) as [|c r]; [reflexivity|]. cbn. now rewrite andb_true_r, N.eqb_sym.
Qed.

Definition git_valid (s : bytes) : bool :=
  match git_check s with Valid => true | _ => false end.

(* how Validate as it is relates to git: besides the documented dash rule it
   refuses every component that is a lone '@' *)
Lemma validate_exact s :
  no_nul s = true -> s <> HEADname ->
  git_check s <> OutOfFuel /\ validate s = git_valid s && dash_rule s && no_at_component s.
Proof.
  intros Hn Hh. unfold git_valid, git_check.
  rewrite comp_loop_spec by (try lia; assumption). cbv zeta.
  destruct s as [|s0 s'] eqn:Es.
  { cbn. split; [discriminate|reflexivity]. }
  rewrite <- Es in *. assert (Hs : s <> []) by (rewrite Es; discriminate). clear Es.
  assert (EV : validate s =
    negb (last s 0 =? 46) && negb (List.length (split_on 47 s) <? 2)%nat
    && forallb gcomp_ok (split_on 47 s) && dash_rule s && no_at_component s).
  { unfold validate. destruct s as [|x y]; [contradiction|].
    apply beqb_false in Hh. rewrite Hh. rewrite has_suffix_dot.
    destruct (last (x :: y) 0 =? 46); [reflexivity|]. unfold SLASH. cbn [negb andb].
    destruct (List.length (split_on 47 (x :: y)) <? 2)%nat eqn:EL; [reflexivity|]. cbn [negb andb].
    rewrite parts_ok_spec. cbn [Nat.leb Nat.sub]. rewrite andb_true_r.
    rewrite dash_equiv, negb_involutive.
    rewrite (forallb_ext' go_ok (fun c => gcomp_ok c && negb (beqb c [64]))) by apply go_ok_gcomp.
    rewrite forallb_andb. unfold no_at_component.
    destruct (forallb gcomp_ok (split_on 47 (x :: y))), (dash_rule (x :: y)),
      (forallb (fun c => negb (beqb c [64])) (split_on 47 (x :: y))); reflexivity. }
  rewrite EV. cbn [Nat.add].
  destruct (beqb s [64]) eqn:EA.
  - apply beqb_eq in EA. subst s. split; [discriminate|reflexivity].
  - destruct (forallb gcomp_ok (split_on 47 s)); [|split; [discriminate|now rewrite !andb_false_r]].
    destruct (last s 0 =? 46); [split; [discriminate|reflexivity]|].
    destruct (List.length (split_on 47 s) <? 2)%nat; split; try discriminate; reflexivity.
Qed.

Definition at_witness : bytes := [114;101;102;115;47;104;101;97;100;115;47;64].   (* refs/heads/@ *)

(* names with a NUL byte are always refused by go-git (rule 4) *)
Lemma validate_nul s : In 0 s -> validate s = false.
Proof.
  intros Hin. unfold validate. destruct s as [|x y]; [reflexivity|].
  destruct (beqb (x :: y) HEADname) eqn:EH.
  { apply beqb_eq in EH. rewrite EH, HEADname_val in Hin. cbn in Hin.
    repeat (destruct Hin as [Hin|Hin]; [discriminate|]). contradiction. }
  destruct (has_suffix [DOT] (x :: y)); [reflexivity|].
  destruct (List.length (split_on SLASH (x :: y)) <? 2)%nat; [reflexivity|].
  destruct (in_split 0 (x :: y) Hin) as [p [Hp Hc]]; [discriminate|].
  unfold SLASH. rewrite parts_ok_spec, (forallb_false go_ok _ p Hp); [reflexivity|].
  unfold go_ok, part_bad. replace (existsb is_ctrl p) with true; [now rewrite !orb_true_r, andb_false_r|].
  symmetry. apply existsb_exists. now exists 0.
Qed.
