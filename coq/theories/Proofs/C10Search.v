(* Proofs/C10Search.v — the four binary searches of the index readers
   (Model/Idx.v: bs_while, bs_do, bs_closed, lower_bound) against a monotone
   probe: they never run out of the fuel the model gives them, they never
   probe outside [lo,hi), and they find the position iff one exists. *)
From Coq Require Import List NArith ZArith Bool Lia ZifyBool ZifyNat ZifyN.
From GoGit Require Import Base.Out Model.PackBytes Model.Idx.
Import ListNotations.
Local Open Scope N_scope.

Ltac Zify.zify_post_hook ::= Z.div_mod_to_equations.

(* the probe compares the target with element i of a sorted sequence:
   once the target is below an element it is below all later ones, and
   once above an element it is above all earlier ones *)
Definition mono (probe : N -> option comparison) (lo hi : N) : Prop :=
  forall i j, lo <= i -> i <= j -> j < hi ->
    (probe i = Some Lt -> probe j = Some Lt) /\ (probe j = Some Gt -> probe i = Some Gt).

Definition total (probe : N -> option comparison) (lo hi : N) : Prop :=
  forall i, lo <= i -> i < hi -> probe i <> None.

Lemma mono_sub probe lo hi lo' hi' :
  mono probe lo hi -> lo <= lo' -> hi' <= hi -> mono probe lo' hi'.
Proof. intros M H1 H2 i j Hi Hij Hj. apply M; lia. Qed.

Lemma total_sub probe lo hi lo' hi' :
  total probe lo hi -> lo <= lo' -> hi' <= hi -> total probe lo' hi'.
Proof. intros T H1 H2 i Hi Hj. apply T; lia. Qed.

(* [below] is monotone: true up to a cut, false from it on *)
Definition bmono (below : N -> option bool) (lo hi : N) : Prop :=
  forall i j, lo <= i -> i <= j -> j < hi -> below j = Some true -> below i = Some true.
Definition btotal (below : N -> option bool) (lo hi : N) : Prop :=
  forall i, lo <= i -> i < hi -> below i <> None.

Lemma bmono_sub below lo hi lo' hi' : bmono below lo hi -> lo <= lo' -> hi' <= hi -> bmono below lo' hi'.
Proof. intros M H1 H2 i j Hi Hij Hj. apply M; lia. Qed.

Lemma btotal_sub below lo hi lo' hi' : btotal below lo hi -> lo <= lo' -> hi' <= hi -> btotal below lo' hi'.
Proof. intros T H1 H2 i Hi Hj. apply T; lia. Qed.

Lemma pow2_succ f : 2 ^ N.of_nat (S f) = 2 * 2 ^ N.of_nat f.
Proof. rewrite Nat2N.inj_succ, N.pow_succ_r'. reflexivity. Qed.

Lemma size_bound n : n < 2 ^ N.of_nat (N.to_nat (N.size n)).
Proof. rewrite N2Nat.id. apply N.size_gt. Qed.

Definition search_spec (probe : N -> option comparison) (lo hi : N) (r : sres) : Prop :=
  match r with
  | Found i => lo <= i < hi /\ probe i = Some Eq
  | NotFound => forall i, lo <= i -> i < hi -> probe i <> Some Eq
  | SErr => False
  | OutOfFuel => False
  end.

Lemma spec_empty probe lo hi : hi <= lo -> search_spec probe lo hi NotFound.
Proof. intros H i Hi Hj. lia. Qed.

(* one step of a bisection: answers for the two halves make the answer for the whole, whichever
   half the probe at [mid] selects; [rN] is the answer to a failed read, which [total] excludes *)
Lemma bisect_step probe lo mid hi rL rR rN :
  mono probe lo hi -> total probe lo hi -> lo <= mid < hi ->
  search_spec probe lo mid rL -> search_spec probe (mid + 1) hi rR ->
  search_spec probe lo hi
    match probe mid with Some Eq => Found mid | Some Lt => rL | Some Gt => rR | None => rN end.
Proof.
  intros M T Hm SL SR. destruct (probe mid) as [[| |]|] eqn:P.
  - now split.
  - destruct rL as [i| | |]; cbn in *; trivial; [split; [lia|apply SL]|].
    intros i Hi Hj. destruct (N.lt_ge_cases i mid) as [L|G]; [now apply SL|].
    destruct (M mid i) as [ML _]; try lia. rewrite (ML P). discriminate.
  - destruct rR as [i| | |]; cbn in *; trivial; [split; [lia|apply SR]|].
    intros i Hi Hj. destruct (N.lt_ge_cases mid i) as [L|G]; [apply SR; lia|].
    destruct (M i mid) as [_ MG]; try lia. rewrite (MG P). discriminate.
  - destruct (T mid); [lia|lia|assumption].
Qed.

(* the half kept is searched with the same kind of probe *)
Ltac sub_range := first [eapply mono_sub | eapply total_sub | eapply bmono_sub | eapply btotal_sub]; [eassumption|lia|lia].

Lemma bs_while_spec probe : forall f lo hi,
  hi - lo < 2 ^ N.of_nat f -> mono probe lo hi -> total probe lo hi ->
  search_spec probe lo hi (bs_while (S f) probe lo hi).
Proof.
  induction f as [|f IH]; intros lo hi Hw M T.
  - change (2 ^ N.of_nat 0) with 1 in Hw. cbn [bs_while]. replace (lo <? hi) with false by lia. apply spec_empty. lia.
  - rewrite pow2_succ in Hw. set (g := S f). (* [g] keeps [cbn] from unfolding the recursive calls *)
    cbn [bs_while]. destruct (lo <? hi) eqn:E; [|apply spec_empty; lia].
    set (mid := (lo + hi) / 2). assert (Hm : lo <= mid < hi) by (unfold mid; lia).
    apply bisect_step; auto; (apply IH; [unfold mid; lia|sub_range|sub_range]).
Qed.

Lemma bs_while_fuel probe lo hi :
  mono probe lo hi -> total probe lo hi ->
  search_spec probe lo hi (bs_while (bs_fuel lo hi) probe lo hi).
Proof. intros. unfold bs_fuel. apply bs_while_spec; auto. apply size_bound. Qed.

Lemma bs_do_spec probe : forall f lo hi,
  lo < hi -> hi - lo < 2 ^ N.of_nat f -> mono probe lo hi -> total probe lo hi ->
  search_spec probe lo hi (bs_do f probe lo hi).
Proof.
  induction f as [|f IH]; intros lo hi Hlt Hw M T.
  - change (2 ^ N.of_nat 0) with 1 in Hw. lia.
  - rewrite pow2_succ in Hw. cbn [bs_do].
    set (mid := (lo + hi) / 2). assert (Hm : lo <= mid < hi) by (unfold mid; lia).
    apply bisect_step; auto.
    + destruct (lo <? mid) eqn:E; [|apply spec_empty; lia].
      apply IH; [lia|unfold mid; lia|sub_range|sub_range].
    + destruct (mid + 1 <? hi) eqn:E; [|apply spec_empty; lia].
      apply IH; [lia|unfold mid; lia|sub_range|sub_range].
Qed.

Lemma bs_do_fuel probe hi :
  0 < hi -> mono probe 0 hi -> total probe 0 hi ->
  search_spec probe 0 hi (bs_do (bs_fuel 0 hi) probe 0 hi).
Proof.
  intros Hp M T. apply bs_do_spec; auto. unfold bs_fuel.
  rewrite pow2_succ, !N.sub_0_r. pose proof (size_bound hi). lia.
Qed.

(* PackScanner.lookupOffset searches the closed interval [lo, hi-1] of int positions *)
Lemma bs_closed_spec (probe : Z -> option comparison) : forall f lo hi,
  hi - lo < 2 ^ N.of_nat f ->
  mono (fun i => probe (Z.of_N i)) lo hi -> total (fun i => probe (Z.of_N i)) lo hi ->
  search_spec (fun i => probe (Z.of_N i)) lo hi (bs_closed (S f) probe (Z.of_N lo) (Z.of_N hi - 1)).
Proof.
  induction f as [|f IH]; intros lo hi Hw M T.
  - change (2 ^ N.of_nat 0) with 1 in Hw. cbn [bs_closed].
    replace (Z.of_N lo <=? Z.of_N hi - 1)%Z with false by lia. apply spec_empty. lia.
  - rewrite pow2_succ in Hw. set (g := S f). cbn [bs_closed].
    destruct (Z.of_N lo <=? Z.of_N hi - 1)%Z eqn:E; [|apply spec_empty; lia].
    set (mid := (lo + hi - 1) / 2). assert (Hm : lo <= mid < hi) by (unfold mid; lia).
    replace ((Z.of_N lo + (Z.of_N hi - 1)) / 2)%Z with (Z.of_N mid) by (unfold mid; lia).
    rewrite N2Z.id. replace (Z.of_N mid + 1)%Z with (Z.of_N (mid + 1)) by lia.
    apply (bisect_step (fun i => probe (Z.of_N i))); auto; (apply IH; [unfold mid; lia|sub_range|sub_range]).
Qed.

Lemma bs_closed_fuel probe n :
  mono (fun i => probe (Z.of_N i)) 0 n -> total (fun i => probe (Z.of_N i)) 0 n ->
  search_spec (fun i => probe (Z.of_N i)) 0 n (bs_closed (bs_fuel 0 n + 1) probe 0%Z (Z.of_N n - 1)).
Proof.
  intros M T. unfold bs_fuel. rewrite Nat.add_1_r. apply (bs_closed_spec probe _ 0 n); auto.
  rewrite pow2_succ, !N.sub_0_r. pose proof (size_bound n). lia.
Qed.

Definition lb_spec (below : N -> option bool) (lo hi : N) (r : sres) : Prop :=
  match r with
  | Found k => lo <= k <= hi /\ (forall i, lo <= i -> i < k -> below i = Some true)
               /\ (forall i, k <= i -> i < hi -> below i = Some false)
  | _ => False
  end.

(* one step of sort.Search: the cuts of the two halves make the cut of the whole *)
Lemma lb_step below lo mid hi rT rF rN :
  bmono below lo hi -> btotal below lo hi -> lo <= mid < hi ->
  lb_spec below (mid + 1) hi rT -> lb_spec below lo mid rF ->
  lb_spec below lo hi match below mid with Some true => rT | Some false => rF | None => rN end.
Proof.
  intros M T Hm ST SF. destruct (below mid) as [[|]|] eqn:P.
  - destruct rT as [k| | |]; cbn in *; trivial. destruct ST as (R & A & B). repeat split; try lia; [|assumption].
    intros j Hj1 Hj2. destruct (N.le_gt_cases j mid) as [L|G]; [apply (M j mid); auto; lia|apply A; lia].
  - destruct rF as [k| | |]; cbn in *; trivial. destruct SF as (R & A & B). repeat split; try lia; [assumption|].
    intros j Hj1 Hj2. destruct (N.lt_ge_cases j mid) as [L|G]; [apply B; lia|].
    destruct (below j) as [[|]|] eqn:Pj; [|reflexivity|exfalso; apply (T j); auto; lia].
    assert (below mid = Some true) by (apply (M mid j); auto; lia). congruence.
  - destruct (T mid); [lia|lia|assumption].
Qed.

Lemma lower_bound_spec below : forall f lo hi,
  lo <= hi -> hi - lo < 2 ^ N.of_nat f -> bmono below lo hi -> btotal below lo hi ->
  lb_spec below lo hi (lower_bound (S f) below lo hi).
Proof.
  induction f as [|f IH]; intros lo hi Hle Hw M T.
  - change (2 ^ N.of_nat 0) with 1 in Hw. cbn [lower_bound]. replace (lo <? hi) with false by lia.
    cbn. repeat split; intros; lia.
  - rewrite pow2_succ in Hw. set (g := S f). cbn [lower_bound].
    destruct (lo <? hi) eqn:E; [|cbn; repeat split; intros; lia].
    set (mid := (lo + hi) / 2). assert (Hm : lo <= mid < hi) by (unfold mid; lia).
    apply lb_step; auto; (apply IH; [lia|unfold mid; lia|sub_range|sub_range]).
Qed.

Lemma lower_bound_fuel below lo hi :
  lo <= hi -> bmono below lo hi -> btotal below lo hi ->
  lb_spec below lo hi (lower_bound (bs_fuel lo hi) below lo hi).
Proof. intros. unfold bs_fuel. apply lower_bound_spec; auto. apply size_bound. Qed.
