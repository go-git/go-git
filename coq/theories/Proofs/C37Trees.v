(* Proofs/C37Trees.v — the tree-collecting functions of the revlist walk:
   markTreeSeen, collectAllTreeObjects, collectChangedTreeObjects.  Each gets a
   postcondition over the walker state (seen, result): mark_post; all_post
   (ch_post and the one-step closure I2); ch_post and, for every object below
   the new tree, covered (selected, held by the receiver, or below an old tree). *)
From Coq Require Import List NArith Bool.
From GoGit Require Import Model.RevList Spec.ObjReach.
Import ListNotations.
Local Open Scope N_scope.

Lemma mem_In : forall x l, mem x l = true <-> In x l.
Proof.
  induction l as [|y l IH]; cbn [mem In]; [split; [discriminate | tauto]|].
  rewrite orb_true_iff, IH, N.eqb_eq. tauto.
Qed.

Lemma mem_false : forall x l, mem x l = false <-> ~ In x l.
Proof. intros. rewrite <- mem_In. destruct (mem x l); split; congruence. Qed.

Lemma get_tree_get : forall st h es, get_tree st h = Some es <-> get st h = Some (Tree es).
Proof.
  intros. unfold get_tree. destruct (get st h) as [[]|]; split; intro H; inversion H; subst; reflexivity.
Qed.

Lemma get_commit_get : forall st h t ps tm,
  get_commit st h = Some (t, ps, tm) <-> get st h = Some (Commit t ps tm).
Proof.
  intros. unfold get_commit. destruct (get st h) as [[]|]; split; intro H; inversion H; subst; reflexivity.
Qed.

Section Trees.
  Variable st : store.
  Variable sh : list oid.
  Variable haves : list oid.
  Hypothesis Hwf : wf_store st = true.

  (* the receiver holds o *)
  Definition Had (o : oid) : Prop := reach_set st sh haves o.
  (* what is marked seen was selected or is held *)
  Definition I1 (s : wstate) : Prop := forall x, In x (fst s) -> In x (snd s) \/ Had x.
  Definition mono (s s' : wstate) : Prop := incl (fst s) (fst s') /\ incl (snd s) (snd s').
  (* new result elements come from below [root] *)
  Definition from (root : oid) (s s' : wstate) : Prop :=
    forall x, In x (snd s') -> In x (snd s) \/ reach st sh root x.
  (* the result never leaves the seen set and lists nothing twice *)
  Definition tidy (s : wstate) : Prop := incl (snd s) (fst s) /\ NoDup (snd s).

  Lemma mono_refl : forall s, mono s s.
  Proof. intros; split; apply incl_refl. Qed.
  Lemma mono_trans : forall a b c, mono a b -> mono b c -> mono a c.
  Proof. intros a b c [] []; split; eapply incl_tran; eauto. Qed.
  Lemma mono_emit : forall h s, mono s (emit h s).
  Proof. intros; split; cbn; apply incl_tl, incl_refl. Qed.

  Lemma I1_emit : forall h s, I1 s -> I1 (emit h s).
  Proof.
    intros h s H x [<-|Hx]; [left; cbn; now left|]. destruct (H x Hx); [left; cbn; now right | now right].
  Qed.

  Lemma tidy_emit : forall h s, mem h (fst s) = false -> tidy s -> tidy (emit h s).
  Proof.
    intros h s M [R N]. split; cbn.
    - intros x [<-|Hx]; [now left | right; now apply R].
    - constructor; [|exact N]. intro Hin. apply R in Hin. apply mem_false in M. contradiction.
  Qed.

  (* h is selected unless it was seen before *)
  Lemma emit_unseen : forall h s, let s1 := if mem h (fst s) then s else emit h s in
    mono s s1 /\ (I1 s -> I1 s1) /\ (tidy s -> tidy s1) /\ In h (fst s1) /\
    forall x, In x (snd s1) -> In x (snd s) \/ x = h.
  Proof.
    intros h s. cbv zeta. destruct (mem h (fst s)) eqn:M.
    - split; [apply mono_refl|]. split; [auto|]. split; [auto|]. split; [now apply mem_In | now left].
    - split; [apply mono_emit|]. split; [apply I1_emit|]. split; [now apply tidy_emit|]. split; [cbn; now left|].
      intros x [<-|Hx]; [now right | now left].
  Qed.

  Lemma Had_closed : forall a b, Had a -> reach st sh a b -> Had b.
  Proof. intros; eapply reach_set_closed; eauto. Qed.

  Lemma entry_child : forall t es e,
    get_tree st t = Some es -> In e es -> e_kind e <> KSub -> child st sh t (e_id e).
  Proof. intros t es e Ht Hi Hk. apply get_tree_get in Ht. eapply ch_entry; eauto. Qed.

  Lemma sub_ids_In : forall t es e,
    get_tree st t = Some es -> In e es -> e_kind e = KSub -> In (e_id e) (sub_ids st).
  Proof.
    intros t es e Ht Hi Hk. apply get_tree_get in Ht. apply get_In in Ht.
    unfold sub_ids. apply in_flat_map. exists (t, Tree es). split; [assumption|]. cbn.
    apply in_flat_map. exists e. split; [assumption|]. rewrite Hk. now left.
  Qed.

  (* what an entry's mode says about the object it names *)
  Lemma entry_kinds : forall t es e, get_tree st t = Some es -> In e es ->
    match e_kind e with
    | KSub => get_tree st (e_id e) = None
    | KDir => (get st (e_id e) = None \/ get_tree st (e_id e) <> None) /\ ~ In (e_id e) (sub_ids st)
    | KFile => (get st (e_id e) = None \/ get st (e_id e) = Some Blob) /\ ~ In (e_id e) (sub_ids st)
    end.
  Proof.
    intros t es e Ht Hi. apply get_tree_get in Ht. pose proof (wf_get _ _ _ Hwf Ht) as T. cbn in T.
    rewrite forallb_forall in T. specialize (T e Hi). unfold entry_typed in T. unfold get_tree.
    destruct (e_kind e); [apply andb_true_iff in T; destruct T as [T S]; apply negb_true_iff, mem_false in S; split; [|exact S]..|];
      destruct (get st (e_id e)) as [[]|]; try discriminate; auto. right; discriminate.
  Qed.

  (* an id that names nothing, or a blob, reaches only itself *)
  Lemma leaf_reach : forall a b, get st a = None \/ get st a = Some Blob -> reach st sh a b -> b = a.
  Proof.
    intros a b Ha Hr. inversion Hr as [|? c ? Hc]; subst; [reflexivity|].
    exfalso. inversion Hc; subst; destruct Ha; congruence.
  Qed.

  (* the children of a tree object are exactly its non-gitlink entries *)
  Lemma tree_children : forall t es x,
    get_tree st t = Some es -> child st sh t x -> exists e, In e es /\ e_kind e <> KSub /\ x = e_id e.
  Proof.
    intros t es x Ht Hc. apply get_tree_get in Ht.
    inversion Hc; subst; match goal with H : get st t = _ |- _ => rewrite Ht in H; inversion H; subst end.
    eauto.
  Qed.

  (* what lies below a tree is a tree, a blob, or not stored *)
  Lemma below_tree_kind : forall a b, reach st sh a b -> forall es, get_tree st a = Some es ->
    get_commit st b = None /\ (forall tg, get st b <> Some (Tag tg)).
  Proof.
    induction 1 as [a|a b c Hc Hr IH]; intros es Ha.
    - apply get_tree_get in Ha. unfold get_commit. rewrite Ha. split; [reflexivity | congruence].
    - destruct (tree_children _ _ _ Ha Hc) as (e & Hi & Hk & ->).
      pose proof (entry_kinds _ _ _ Ha Hi) as T.
      assert (Leaf : get st (e_id e) = None \/ get st (e_id e) = Some Blob ->
                get_commit st c = None /\ (forall tg, get st c <> Some (Tag tg))).
      { intros L. rewrite (leaf_reach _ _ L Hr). unfold get_commit. destruct L as [L|L]; rewrite L; split; congruence. }
      destruct (e_kind e); [|now apply Leaf|congruence].
      destruct T as [[T|T] _]; [apply Leaf; now left|].
      destruct (get_tree st (e_id e)) as [es1|] eqn:T1; [eapply IH; eauto | congruence].
  Qed.

  Definition mark_post (root : oid) (seen seen' : list oid) : Prop :=
    incl seen seen' /\ forall x, In x seen' -> In x seen \/ reach st sh root x.

  Lemma mark_entries_spec : forall rec root es seen seen',
    (forall h es0 sn sn', rec h es0 sn = Some sn' -> get_tree st h = Some es0 -> mark_post h sn sn') ->
    (forall e, In e es -> e_kind e <> KSub -> reach st sh root (e_id e)) ->
    mark_entries rec st es seen = Some seen' -> mark_post root seen seen'.
  Proof.
    intros rec root es. induction es as [|e es IH]; intros seen seen' Hrec Hes H; cbn [mark_entries] in H.
    - inversion H; subst. split; [apply incl_refl | auto].
    - assert (Hes' : forall e0, In e0 es -> e_kind e0 <> KSub -> reach st sh root (e_id e0))
        by (intros; apply Hes; [now right | assumption]).
      destruct (e_kind e) eqn:K.
      + destruct (mem (e_id e) seen) eqn:M; [now apply IH|].
        destruct (get_tree st (e_id e)) as [es'|] eqn:G; [|now apply IH].
        destruct (rec (e_id e) es' seen) as [sn|] eqn:R; [|discriminate].
        destruct (Hrec _ _ _ _ R G) as [A B].
        destruct (IH _ _ Hrec Hes' H) as [C D]. split; [eapply incl_tran; eauto|].
        intros x Hx. destruct (D x Hx) as [Hx'|Hx']; [|now right].
        destruct (B x Hx') as [|Hr]; [now left|]. right.
        eapply reach_trans; [apply Hes; [now left | rewrite K; discriminate] | exact Hr].
      + destruct (mem (e_id e) seen) eqn:M; [now apply IH|].
        destruct (IH _ _ Hrec Hes' H) as [C D]. split.
        * eapply incl_tran; [|exact C]. apply incl_tl, incl_refl.
        * intros x Hx. destruct (D x Hx) as [[<-|Hx']|Hx']; [|now left|now right].
          right. apply Hes; [now left | rewrite K; discriminate].
      + now apply IH.
  Qed.

  Lemma mark_tree_spec : forall fuel th es seen seen',
    mark_tree fuel st th es seen = Some seen' -> get_tree st th = Some es -> mark_post th seen seen'.
  Proof.
    induction fuel as [|f IH]; intros th es seen seen' H Ht; cbn [mark_tree] in H; [discriminate|].
    destruct (mem th seen) eqn:M.
    - inversion H; subst. split; [apply incl_refl | auto].
    - apply mark_entries_spec with (root := th) in H.
      + destruct H as [A B]. split.
        * eapply incl_tran; [|exact A]. apply incl_tl, incl_refl.
        * intros x Hx. destruct (B x Hx) as [[<-|Hx']|Hx']; [right; constructor | now left | now right].
      + intros h es0 sn sn' R G. eapply IH; eauto.
      + intros e Hi Hk. apply reach_child. eapply entry_child; eauto.
  Qed.

  Record ch_post (root : oid) (s s' : wstate) : Prop := {
    cp_mono : mono s s';
    cp_from : from root s s';
    cp_I1 : I1 s -> I1 s';
    cp_tidy : tidy s -> tidy s' }.

  Lemma ch_post_refl : forall root s, ch_post root s s.
  Proof. intros; constructor; auto using mono_refl. intros x Hx; now left. Qed.

  Lemma ch_post_trans : forall root a b c, ch_post root a b -> ch_post root b c -> ch_post root a c.
  Proof.
    intros root a b c [m1 f1 i1 t1] [m2 f2 i2 t2]. constructor; auto.
    - eapply mono_trans; eauto.
    - intros x Hx. destruct (f2 x Hx) as [Hx'|]; [|now right]. apply f1, Hx'.
  Qed.

  (* widening the root: anything below a child of root is below root *)
  Lemma ch_post_root : forall root h s s', reach st sh root h -> ch_post h s s' -> ch_post root s s'.
  Proof.
    intros root h s s' Hr [m f i t]. constructor; auto.
    intros x Hx. destruct (f x Hx); [now left | right; eapply reach_trans; eauto].
  Qed.

  Lemma ch_post_emit : forall root h s, mem h (fst s) = false -> reach st sh root h -> ch_post root s (emit h s).
  Proof.
    intros root h s M Hr. constructor; auto using mono_emit, I1_emit, tidy_emit.
    intros x [<-|Hx]; [now right | now left].
  Qed.

  Lemma from_tree_no_commit : forall root es s s', get_tree st root = Some es -> from root s s' ->
    forall x, In x (snd s') -> In x (snd s) \/ get_commit st x = None.
  Proof.
    intros root es s s' T F x Hx. destruct (F x Hx) as [|Hr]; [now left | right].
    exact (proj1 (below_tree_kind _ _ Hr _ T)).
  Qed.

  (* one-step closure of the trees in the result, except the ones in G (being expanded) *)
  Definition I2 (G : list oid) (s : wstate) : Prop :=
    forall t es e, In t (snd s) -> ~ In t G -> get_tree st t = Some es -> In e es -> e_kind e <> KSub ->
                   In (e_id e) (snd s) \/ Had (e_id e).

  Record all_post (root : oid) (s s' : wstate) : Prop := {
    ap_post : ch_post root s s';
    ap_I2 : forall G, I1 s -> I2 G s -> I2 G s' }.

  Lemma all_post_refl : forall root s, all_post root s s.
  Proof. intros; constructor; auto using ch_post_refl. Qed.

  Lemma all_post_trans : forall root a b c, all_post root a b -> all_post root b c -> all_post root a c.
  Proof.
    intros root a b c [p1 j1] [p2 j2]. constructor; [eapply ch_post_trans; eauto|].
    intros G HI1 HI2. apply j2; [apply (cp_I1 _ _ _ p1 HI1) | auto].
  Qed.

  Lemma all_post_root : forall root h s s', reach st sh root h -> all_post h s s' -> all_post root s s'.
  Proof. intros root h s s' Hr [p j]. constructor; [eapply ch_post_root; eauto | exact j]. Qed.

  Lemma I2_emit_leaf : forall G h s, get_tree st h = None -> I2 G s -> I2 G (emit h s).
  Proof.
    intros G h s Hn H t es e Ht HG Hg Hi Hk. cbn in Ht. destruct Ht as [<-|Ht]; [congruence|].
    destruct (H t es e Ht HG Hg Hi Hk); [left; cbn; now right | now right].
  Qed.

  Lemma emit_leaf_post : forall root h s,
    mem h (fst s) = false -> get_tree st h = None -> reach st sh root h -> all_post root s (emit h s).
  Proof.
    intros root h s M Hn Hr. constructor; [now apply ch_post_emit|]. intros G _ H. now apply I2_emit_leaf.
  Qed.

  Lemma all_entries_spec : forall rec root res es s s',
    get_tree st root = Some res -> incl es res ->
    (forall h es0 a b, rec h es0 a = Ok b -> get_tree st h = Some es0 -> all_post h a b /\ In h (fst b)) ->
    all_entries rec st es s = Ok s' ->
    all_post root s s' /\ (forall e, In e es -> e_kind e <> KSub -> In (e_id e) (fst s')).
  Proof.
    intros rec root res es. induction es as [|e es IH]; intros s s' Hroot Hincl Hrec H; cbn [all_entries] in H.
    - inversion H; subst. split; [apply all_post_refl | intros e []].
    - assert (Hin : In e res) by (apply Hincl; now left).
      assert (Hincl' : incl es res) by (intros x Hx; apply Hincl; now right).
      assert (Hre : e_kind e <> KSub -> reach st sh root (e_id e))
        by (intro; apply reach_child; eapply entry_child; eauto).
      (* once e is dealt with, in state s1, the other entries are walked from s1 *)
      assert (Step : forall s1, all_post root s s1 -> (e_kind e <> KSub -> In (e_id e) (fst s1)) ->
                all_entries rec st es s1 = Ok s' ->
                all_post root s s' /\ (forall e0, In e0 (e :: es) -> e_kind e0 <> KSub -> In (e_id e0) (fst s'))).
      { intros s1 P1 H1 H'. destruct (IH _ _ Hroot Hincl' Hrec H') as [P Q]. split; [eapply all_post_trans; eauto|].
        intros e0 [<-|Hi] Hk; [|now apply Q]. apply (proj1 (cp_mono _ _ _ (ap_post _ _ _ P))). now apply H1. }
      destruct (e_kind e) eqn:K.
      + destruct (mem (e_id e) (fst s)) eqn:M;
          [apply (Step s); [apply all_post_refl | intros _; now apply mem_In | exact H]|].
        destruct (get_tree st (e_id e)) as [es'|] eqn:G; [|discriminate].
        destruct (rec (e_id e) es' s) as [s1|] eqn:R; [|discriminate].
        destruct (Hrec _ _ _ _ R G) as [P1 S1]. apply (Step s1); auto.
        eapply all_post_root; [apply Hre; discriminate | exact P1].
      + destruct (mem (e_id e) (fst s)) eqn:M;
          [apply (Step s); [apply all_post_refl | intros _; now apply mem_In | exact H]|].
        apply (Step (emit (e_id e) s)); [|intros _; cbn; now left | exact H].
        pose proof (entry_kinds _ _ _ Hroot Hin) as T. rewrite K in T.
        apply emit_leaf_post; [exact M | destruct T as [[T|T] _]; unfold get_tree; now rewrite T | apply Hre; discriminate].
      + apply (Step s); [apply all_post_refl | congruence | exact H].
  Qed.

  Lemma collect_all_spec : forall fuel th es s s',
    collect_all fuel st th es s = Ok s' -> get_tree st th = Some es ->
    all_post th s s' /\ In th (fst s').
  Proof.
    induction fuel as [|f IH]; intros th es s s' H Ht; cbn [collect_all] in H; [discriminate|].
    destruct (mem th (fst s)) eqn:M.
    - inversion H; subst. split; [apply all_post_refl | now apply mem_In].
    - assert (Hrec : forall h es0 a b, collect_all f st h es0 a = Ok b -> get_tree st h = Some es0 ->
                                       all_post h a b /\ In h (fst b))
        by (intros h es0 a b R G; eapply IH; eauto).
      destruct (all_entries_spec (collect_all f st) th es es (emit th s) s' Ht (incl_refl _) Hrec H) as [[p i2] Q].
      assert (Hth : In th (fst s')) by (apply (proj1 (cp_mono _ _ _ p)); cbn; now left).
      split; [|exact Hth]. constructor.
      + eapply ch_post_trans; [apply ch_post_emit; [exact M | constructor] | exact p].
      + (* th itself is selected now: its entries were all seen by the walk *)
        intros G H1 H2. pose proof (I1_emit th s H1) as H1e.
        assert (H2e : I2 (th :: G) (emit th s)).
        { intros t es0 e Hti HG Hg Hi Hk. cbn in Hti. destruct Hti as [<-|Hti]; [exfalso; apply HG; now left|].
          destruct (H2 t es0 e Hti) as [|]; auto; [intro; apply HG; now right | left; cbn; now right]. }
        pose proof (i2 _ H1e H2e) as H2'. pose proof (cp_I1 _ _ _ p H1e) as H1'.
        intros t es0 e Hti HG Hg Hi Hk.
        destruct (N.eq_dec t th) as [->|Hne].
        * rewrite Ht in Hg. inversion Hg; subst es0. apply H1'. now apply Q.
        * apply (H2' t es0 e); auto. intros [E|E]; [congruence | contradiction].
  Qed.

  Definition olds_ok (olds : list (oid * list entry)) : Prop :=
    forall old, In old olds -> get_tree st (fst old) = Some (snd old).
  Definition below_old (olds : list (oid * list entry)) (o : oid) : Prop :=
    exists old, In old olds /\ reach st sh (fst old) o.

  Definition covered (olds : list (oid * list entry)) (s' : wstate) (o : oid) : Prop :=
    In o (snd s') \/ Had o \/ below_old olds o.

  Lemma covered_mono : forall olds s s' o, mono s s' -> covered olds s o -> covered olds s' o.
  Proof. intros olds s s' o [_ B] [H|H]; [left; now apply B | now right]. Qed.

  Lemma lookup_last_In : forall n es h,
    lookup_last n es = Some h -> exists e, In e es /\ e_id e = h.
  Proof.
    induction es as [|e es IH]; intros h H; cbn [lookup_last] in H; [discriminate|].
    destruct (lookup_last n es) as [h'|] eqn:L.
    - inversion H; subst. destruct (IH _ eq_refl) as (e' & A & B). exists e'. split; [now right | assumption].
    - destruct (e_name e =? n); [|discriminate]. inversion H; subst. exists e. split; [now left | reflexivity].
  Qed.

  (* an entry found in an old tree under the same name with the id of a
     non-gitlink entry is itself not a gitlink: its object is below the old tree *)
  Lemma old_entry_reach : forall old n h,
    get_tree st (fst old) = Some (snd old) -> lookup_last n (snd old) = Some h ->
    ~ In h (sub_ids st) -> reach st sh (fst old) h.
  Proof.
    intros old n h Ho L Hs. destruct (lookup_last_In _ _ _ L) as (e' & Hi & <-).
    apply reach_child. eapply entry_child; eauto.
    intro K. apply Hs. eapply sub_ids_In; eauto.
  Qed.

  Lemma unchanged_below : forall e olds,
    olds_ok olds -> unchanged_in e olds = true -> ~ In (e_id e) (sub_ids st) -> below_old olds (e_id e).
  Proof.
    intros e olds Hok H Hs. unfold unchanged_in in H. apply existsb_exists in H.
    destruct H as (old & Hin & H). destruct (lookup_last (e_name e) (snd old)) as [h|] eqn:L; [|discriminate].
    apply N.eqb_eq in H. subst h. exists old. split; [assumption|].
    eapply old_entry_reach; eauto.
  Qed.

  Lemma old_subs_ok : forall n olds, olds_ok olds -> olds_ok (old_subs st n olds).
  Proof.
    induction olds as [|o olds IH]; intros Hok; cbn [old_subs]; [intros x []|].
    assert (Hok' : olds_ok olds) by (intros x Hx; apply Hok; now right).
    destruct (lookup_last n (snd o)) as [h|]; [|now apply IH].
    destruct (get_tree st h) as [es|] eqn:G; [|now apply IH].
    intros x [<-|Hx]; [exact G | now apply IH].
  Qed.

  Lemma old_subs_below : forall n olds o,
    olds_ok olds -> below_old (old_subs st n olds) o -> below_old olds o.
  Proof.
    induction olds as [|old olds IH]; intros o Hok H; cbn [old_subs] in H; [destruct H as (x & [] & _)|].
    assert (Hok' : olds_ok olds) by (intros x Hx; apply Hok; now right).
    assert (Hrec : below_old (old_subs st n olds) o -> below_old (old :: olds) o).
    { intro B. destruct (IH _ Hok' B) as (x & Hx & Hr). exists x. split; [now right | assumption]. }
    destruct (lookup_last n (snd old)) as [h|] eqn:L; [|now apply Hrec].
    destruct (get_tree st h) as [es|] eqn:G; [|now apply Hrec].
    destruct H as (x & [<-|Hx] & Hr).
    - cbn in Hr. exists old. split; [now left|].
      eapply reach_trans; [|exact Hr].
      destruct (lookup_last_In _ _ _ L) as (e' & Hi & <-).
      apply reach_child. eapply entry_child; [apply Hok; now left | exact Hi |].
      intro K. pose proof (entry_kinds _ _ _ (Hok old (or_introl eq_refl)) Hi) as T. rewrite K in T. congruence.
    - apply Hrec. exists x. split; assumption.
  Qed.

  Lemma changed_entries_spec : forall rec root res olds es s s',
    get_tree st root = Some res -> incl es res -> olds_ok olds ->
    (forall h es0 olds0 a b, rec h es0 olds0 a = Ok b -> get_tree st h = Some es0 -> olds_ok olds0 ->
        ch_post h a b /\ (I1 a -> forall o, reach st sh h o -> covered olds0 b o)) ->
    changed_entries rec st olds es s = Ok s' ->
    ch_post root s s' /\
    (I1 s -> forall e, In e es -> e_kind e <> KSub -> forall o, reach st sh (e_id e) o -> covered olds s' o).
  Proof.
    intros rec root res olds es. induction es as [|e es IH]; intros s s' Hroot Hincl Hok Hrec H; cbn [changed_entries] in H.
    - inversion H; subst. split; [apply ch_post_refl | intros _ e []].
    - assert (Hin : In e res) by (apply Hincl; now left).
      assert (Hincl' : incl es res) by (intros x Hx; apply Hincl; now right).
      assert (Hre : e_kind e <> KSub -> reach st sh root (e_id e))
        by (intro; apply reach_child; eapply entry_child; eauto).
      (* once e is dealt with, in state s1, the other entries are walked from s1 *)
      assert (Step : forall s1, ch_post root s s1 ->
                (I1 s -> e_kind e <> KSub -> forall o, reach st sh (e_id e) o -> covered olds s1 o) ->
                changed_entries rec st olds es s1 = Ok s' ->
                ch_post root s s' /\
                (I1 s -> forall e0, In e0 (e :: es) -> e_kind e0 <> KSub ->
                         forall o, reach st sh (e_id e0) o -> covered olds s' o)).
      { intros s1 P1 C1 H'. destruct (IH _ _ Hroot Hincl' Hok Hrec H') as [P Q]. split; [eapply ch_post_trans; eauto|].
        intros HI e0 [<-|Hi] Hk o Ho; [|apply (Q (cp_I1 _ _ _ P1 HI) e0); auto].
        eapply covered_mono; [apply (cp_mono _ _ _ P) | now apply C1]. }
      pose proof (entry_kinds _ _ _ Hroot Hin) as T.
      destruct (e_kind e) eqn:K.
      + destruct (unchanged_in e olds) eqn:U.
        * apply (Step s); [apply ch_post_refl | | exact H]. intros _ _ o Ho. right; right.
          destruct (unchanged_below e olds Hok U) as (old & Hin' & Hr); [apply T|].
          exists old. split; [assumption | eapply reach_trans; eauto].
        * destruct (get_tree st (e_id e)) as [es'|] eqn:G; [|discriminate].
          destruct (rec (e_id e) es' (old_subs st (e_name e) olds) s) as [s1|] eqn:R; [|discriminate].
          destruct (Hrec _ _ _ _ _ R G (old_subs_ok _ _ Hok)) as [P1 C1].
          apply (Step s1); [eapply ch_post_root; [apply Hre; discriminate | exact P1] | | exact H].
          intros HI _ o Ho. destruct (C1 HI o Ho) as [A|[A|A]]; [now left | right; now left | right; right].
          eapply old_subs_below; eauto.
      + (* a file entry reaches only itself *)
        assert (Only : forall o, reach st sh (e_id e) o -> o = e_id e)
          by (intro o; apply leaf_reach, T).
        destruct (mem (e_id e) (fst s)) eqn:M; [|destruct (unchanged_in e olds) eqn:U].
        * apply (Step s); [apply ch_post_refl | | exact H]. intros HI _ o Ho. rewrite (Only o Ho).
          apply mem_In in M. destruct (HI _ M); [now left | right; now left].
        * apply (Step s); [apply ch_post_refl | | exact H]. intros _ _ o Ho. rewrite (Only o Ho).
          right; right. apply unchanged_below; auto. apply T.
        * apply (Step (emit (e_id e) s)); [apply ch_post_emit; [exact M | apply Hre; discriminate] | | exact H].
          intros _ _ o Ho. rewrite (Only o Ho). left. cbn. now left.
      + apply (Step s); [apply ch_post_refl | congruence | exact H].
  Qed.

  Lemma collect_changed_spec : forall fuel nh nes olds s s',
    collect_changed fuel st nh nes olds s = Ok s' -> get_tree st nh = Some nes -> olds_ok olds ->
    ch_post nh s s' /\ (I1 s -> forall o, reach st sh nh o -> covered olds s' o).
  Proof.
    induction fuel as [|f IH]; intros nh nes olds s s' H Ht Hok; cbn [collect_changed] in H; [discriminate|].
    destruct (existsb (fun o => fst o =? nh) olds) eqn:E.
    - inversion H; subst. split; [apply ch_post_refl|].
      intros _ o Ho. right; right. apply existsb_exists in E. destruct E as (old & Hin & E).
      apply N.eqb_eq in E. exists old. split; [assumption | subst nh; exact Ho].
    - destruct (emit_unseen nh s) as (M1 & J1 & T1 & In1 & New1). cbv zeta in H.
      set (s1 := if mem nh (fst s) then s else emit nh s) in *.
      assert (P1 : ch_post nh s s1).
      { constructor; auto. intros x Hx. destruct (New1 x Hx) as [Hx' | ->]; [now left | right; constructor]. }
      assert (Hrec : forall h es0 olds0 a b, collect_changed f st h es0 olds0 a = Ok b ->
                 get_tree st h = Some es0 -> olds_ok olds0 ->
                 ch_post h a b /\ (I1 a -> forall o, reach st sh h o -> covered olds0 b o))
        by (intros; eapply IH; eauto).
      destruct (changed_entries_spec _ nh nes olds nes s1 s' Ht (incl_refl _) Hok Hrec H) as [P Q].
      split; [eapply ch_post_trans; eauto|].
      intros HI o Ho. inversion Ho; subst.
      + eapply covered_mono; [apply (cp_mono _ _ _ P)|]. destruct (J1 HI o In1); [now left | right; now left].
      + destruct (tree_children _ _ _ Ht H0) as (e & Hi & Hk & ->).
        apply (Q (J1 HI) e Hi Hk o H1).
  Qed.
End Trees.
