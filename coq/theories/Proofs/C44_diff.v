(* Proofs/C44_diff.v — the merge walk of Model/DiffTree.v on name-sorted trees computes exactly the
   changes between the flattened trees, each once, for all trees. *)
From Coq Require Import List NArith Bool Arith Lia.
From GoGit Require Import Base.Out Model.DiffTree Spec.MapDiff Proofs.C44_order.
Import ListNotations.

Section node_induction.
  Variable P : node -> Prop.
  Hypothesis HF : forall l, P (File l).
  Hypothesis HD : forall cs, Forall (fun c => P (snd c)) cs -> P (Dir cs).
  Fixpoint node_ind' (x : node) : P x :=
    match x with
    | File l => HF l
    | Dir cs =>
      HD cs ((fix go (cs : list (name * node)) : Forall (fun c => P (snd c)) cs :=
                match cs with
                | [] => Forall_nil _
                | c :: r => Forall_cons c (node_ind' (snd c)) (go r)
                end) cs)
    end.
End node_induction.

Definition pren (n : name) (pl : path * leaf) : path * leaf := (n :: fst pl, snd pl).

Lemma files_dir cs : files (Dir cs) = files_l cs.
Proof.
  induction cs as [|[n c] r IH]; [reflexivity|].
  change (files (Dir ((n, c) :: r))) with (map (fun pl => (n :: fst pl, snd pl)) (files c) ++ files (Dir r)).
  rewrite IH. reflexivity.
Qed.

Lemma files_l_cons n x t : files_l ((n, x) :: t) = map (pren n) (files x) ++ files_l t.
Proof. reflexivity. Qed.

Lemma node_size_dir cs : node_size (Dir cs) = S (tree_size cs).
Proof.
  induction cs as [|[n c] r IH]; [reflexivity|].
  change (node_size (Dir ((n, c) :: r))) with (S (node_size c + pred (node_size (Dir r)))).
  rewrite IH. reflexivity.
Qed.

Lemma node_size_pos x : 0 < node_size x.
Proof. destruct x; [cbn; lia | rewrite node_size_dir; lia]. Qed.

Lemma tree_size_cons n x t : tree_size ((n, x) :: t) = node_size x + tree_size t.
Proof. reflexivity. Qed.

(* well-formed = children strictly sorted by name, recursively *)
Inductive wfn : node -> Prop :=
| wf_file l : wfn (File l)
| wf_dir cs : wft cs -> wfn (Dir cs)
with wft : tree -> Prop :=
| wft_nil : wft []
| wft_cons n x r : wfn x -> wft r -> (forall m, In m (map fst r) -> bytes_ltb n m = true) -> wft ((n, x) :: r).

Scheme wfn_mut := Induction for wfn Sort Prop
  with wft_mut := Induction for wft Sort Prop.

Notation haskey A p := (exists l, In (p, l) A).

Definition SpecF (A B : fmap) (c : mchange) : Prop :=
  match c with
  | MDel p l => In (p, l) A /\ ~ haskey B p
  | MIns p l => In (p, l) B /\ ~ haskey A p
  | MMod p a b => In (p, a) A /\ In (p, b) B /\ leaf_eqb a b = false
  end.

Definition path_of (c : mchange) : path := match c with MIns p _ | MDel p _ | MMod p _ _ => p end.

Lemma pre_head n c : path_of (pre n c) = n :: path_of c.
Proof. now destruct c. Qed.

Lemma pre_inj n a b : pre n a = pre n b -> a = b.
Proof. destruct a, b; cbn; intros H; inversion H; subst; reflexivity. Qed.

Lemma SpecF_key A B c : SpecF A B c -> haskey A (path_of c) \/ haskey B (path_of c).
Proof. destruct c; cbn; intros H; [right|left|left]; eexists; apply H. Qed.

Definition hd_ne (n : name) (A : fmap) : Prop := forall q l, ~ In (n :: q, l) A.

Lemma in_pren n X p l : In (p, l) (map (pren n) X) <-> exists q, p = n :: q /\ In (q, l) X.
Proof.
  rewrite in_map_iff. split.
  - intros ([q l'] & H & Hi). unfold pren in H; cbn in H. inversion H; subst. eauto.
  - intros (q & -> & Hi). exists (q, l). auto.
Qed.

(* a path either starts with the name n or it does not: below n only X, Y matter, beside n only A, B *)
Lemma head_cases (n : name) (p : path) : (exists q, p = n :: q) \/ (forall q, p <> n :: q).
Proof.
  destruct p as [|m q]; [now right|]. destruct (list_eq_dec N.eq_dec m n) as [->|H]; [left; eauto|].
  right. intros q' [= E _]. exact (H E).
Qed.

Lemma in_below n X A q l : hd_ne n A -> In (n :: q, l) (map (pren n) X ++ A) <-> In (q, l) X.
Proof.
  intros HA. rewrite in_app_iff, in_pren. split; [|eauto].
  intros [(q' & [= <-] & H)|H]; [exact H|now elim (HA q l)].
Qed.

Lemma in_beside n X A p l : (forall q, p <> n :: q) -> In (p, l) (map (pren n) X ++ A) <-> In (p, l) A.
Proof. intros Hp. rewrite in_app_iff, in_pren. split; [intros [(q & E & _)|H]|]; auto. now elim (Hp q). Qed.

Lemma SpecF_not_below n A B c : hd_ne n A -> hd_ne n B -> ~ SpecF A B (pre n c).
Proof.
  intros HA HB H. apply SpecF_key in H. rewrite pre_head in H.
  destruct H as [(l & H)|(l & H)]; [exact (HA _ _ H)|exact (HB _ _ H)].
Qed.

Lemma SpecF_below n X Y A B c : hd_ne n A -> hd_ne n B ->
  SpecF (map (pren n) X ++ A) (map (pren n) Y ++ B) (pre n c) <-> SpecF X Y c.
Proof.
  intros HA HB. destruct c; cbn [pre SpecF];
    setoid_rewrite (fun q l => in_below n X A q l HA); setoid_rewrite (fun q l => in_below n Y B q l HB); reflexivity.
Qed.

Lemma SpecF_beside n X Y A B c : (forall q, path_of c <> n :: q) ->
  SpecF (map (pren n) X ++ A) (map (pren n) Y ++ B) c <-> SpecF A B c.
Proof.
  intros Hp. destruct c; cbn [path_of SpecF] in *;
    setoid_rewrite (fun l => in_beside n X A _ l Hp); setoid_rewrite (fun l => in_beside n Y B _ l Hp); reflexivity.
Qed.

Lemma SpecF_split n X Y A B c :
  hd_ne n A -> hd_ne n B ->
  SpecF (map (pren n) X ++ A) (map (pren n) Y ++ B) c <->
  (exists c', c = pre n c' /\ SpecF X Y c') \/ SpecF A B c.
Proof.
  intros HA HB. destruct (head_cases n (path_of c)) as [(q & Hq)|Hp].
  - assert (exists c', c = pre n c') as (c' & ->)
      by (destruct c as [p l|p l|p a b]; cbn in Hq; subst p; [exists (MIns q l)|exists (MDel q l)|exists (MMod q a b)]; reflexivity).
    rewrite SpecF_below by assumption. split; [eauto|].
    intros [(c'' & E & H)|H]; [now apply pre_inj in E; subst|now apply SpecF_not_below in H].
  - rewrite SpecF_beside by assumption. split; [auto|]. intros [(c' & -> & _)|H]; [|exact H].
    rewrite pre_head in Hp. now elim (Hp (path_of c')).
Qed.

Lemma files_l_head t p l : In (p, l) (files_l t) -> exists n q, p = n :: q /\ In n (map fst t).
Proof.
  induction t as [|[n x] t IH]; [intros []|].
  rewrite files_l_cons, in_app_iff. intros [H|H].
  - apply in_pren in H as (q & -> & _). exists n, q. cbn. auto.
  - destruct (IH H) as (m & q & -> & Hm). exists m, q. cbn. auto.
Qed.

Lemma names_above n t : (forall m, In m (map fst t) -> bytes_ltb n m = true) -> hd_ne n (files_l t).
Proof.
  intros H q l Hi. destruct (files_l_head _ _ _ Hi) as (m & q' & [= <- _] & Hm).
  apply H in Hm. now rewrite bytes_ltb_irrefl in Hm.
Qed.

Lemma files_ind (P : fmap -> Prop) :
  (forall l, P [([], l)]) -> P [] ->
  (forall n x r, P (files x) -> P (files_l r) -> hd_ne n (files_l r) -> P (map (pren n) (files x) ++ files_l r)) ->
  (forall x, wfn x -> P (files x)) /\ (forall t, wft t -> P (files_l t)).
Proof.
  intros HF HN HC.
  assert (H : forall x, wfn x -> P (files x)).
  { apply (wfn_mut (fun x _ => P (files x)) (fun t _ => P (files_l t))); auto.
    - intros cs _ IH. now rewrite files_dir.
    - intros n x r _ IHx _ IHr Hlt. apply HC; auto using names_above. }
  split; [exact H|]. intros t w. rewrite <- files_dir. apply H. now constructor.
Qed.

Lemma files_keys_unique :
  (forall x, wfn x -> forall p a b, In (p, a) (files x) -> In (p, b) (files x) -> a = b) /\
  (forall t, wft t -> forall p a b, In (p, a) (files_l t) -> In (p, b) (files_l t) -> a = b).
Proof.
  apply (files_ind (fun F => forall p a b, In (p, a) F -> In (p, b) F -> a = b)).
  - intros l p a b [Ha|[]] [Hb|[]]. congruence.
  - intros p a b [].
  - intros n x r IHx IHr Hne p a b. destruct (head_cases n p) as [(q & ->)|Hp].
    + rewrite !in_below by exact Hne. apply IHx.
    + rewrite !in_beside by exact Hp. apply IHr.
Qed.

Lemma dir_paths_nonempty cs l : ~ In ([], l) (files (Dir cs)).
Proof. rewrite files_dir. intros H. destruct (files_l_head _ _ _ H) as (n & q & He & _). discriminate. Qed.

Lemma NoDup_map_in {A B} (g : A -> B) l :
  NoDup l -> (forall x y, In x l -> In y l -> g x = g y -> x = y) -> NoDup (map g l).
Proof.
  induction l as [|x l IH]; intros Hn Hi; [constructor|].
  inversion Hn as [|? ? Hx Hl]; subst. cbn [map]. constructor.
  - intros C. apply in_map_iff in C as (y & Hy & Hyl). apply Hx.
    rewrite (Hi x y (or_introl eq_refl) (or_intror Hyl) (eq_sym Hy)). exact Hyl.
  - apply IH; [exact Hl|]. intros a b Ha Hb. apply Hi; now right.
Qed.

Lemma NoDup_app_intro {A} (a b : list A) :
  NoDup a -> NoDup b -> (forall x, In x a -> In x b -> False) -> NoDup (a ++ b).
Proof.
  induction 1 as [|x a Hx _ IH]; intros Hb Hd; cbn; [exact Hb|]. constructor.
  - intros Hi. apply in_app_iff in Hi as [Hi|Hi]; [contradiction|]. eapply Hd; [now left|exact Hi].
  - apply IH; auto. intros y Hy. apply Hd. now right.
Qed.

Lemma pren_inj n a b : pren n a = pren n b -> a = b.
Proof. destruct a, b. unfold pren; cbn. intros H; inversion H; subst. reflexivity. Qed.

Lemma files_nodup :
  (forall x, wfn x -> NoDup (files x)) /\ (forall t, wft t -> NoDup (files_l t)).
Proof.
  apply (files_ind (@NoDup _)).
  - intros l. repeat constructor. intros [].
  - constructor.
  - intros n x r IHx IHr Hne. apply NoDup_app_intro; auto.
    + apply NoDup_map_in; [exact IHx|]. intros a b _ _. apply pren_inj.
    + intros [p l] Ha Hb. apply in_pren in Ha as (q & -> & _). exact (Hne _ _ Hb).
Qed.

Lemma leaf_raw_eqb_eq a b : leaf_raw_eqb a b = true -> a = b.
Proof.
  destruct a as [m1 h1], b as [m2 h2]. unfold leaf_raw_eqb; cbn. intros H.
  apply andb_true_iff in H as [H1 H2]. apply N.eqb_eq in H1. apply bytes_eqb_eq in H2. congruence.
Qed.

Lemma leaf_eqb_refl a : leaf_eqb a a = true.
Proof. unfold leaf_eqb. now rewrite N.eqb_refl, bytes_eqb_refl. Qed.

Lemma node_eqb_eq x : forall y, node_eqb x y = true -> x = y.
Proof.
  induction x as [l|cs IH] using node_ind'; intros [l2|cs2]; try (cbn; discriminate).
  - cbn. intros H. apply leaf_raw_eqb_eq in H. congruence.
  - revert cs2. induction IH as [|[n1 x1] r Hx _ IHr]; intros [|[n2 y1] r2]; try (cbn; discriminate); [reflexivity|].
    intros H.
    change (node_eqb (Dir ((n1, x1) :: r)) (Dir ((n2, y1) :: r2)))
      with (bytes_eqb n1 n2 && node_eqb x1 y1 && node_eqb (Dir r) (Dir r2)) in H.
    apply andb_true_iff in H as [H H3]. apply andb_true_iff in H as [H1 H2].
    apply bytes_eqb_eq in H1. cbn in Hx. apply Hx in H2. apply IHr in H3. congruence.
Qed.

Lemma SpecF_same F c : (forall p a b, In (p, a) F -> In (p, b) F -> a = b) -> ~ SpecF F F c.
Proof.
  intros U. destruct c as [p l|p l|p a b]; cbn.
  - intros [Hi Hk]. apply Hk. now exists l.
  - intros [Hi Hk]. apply Hk. now exists l.
  - intros (Ha & Hb & Hne). rewrite (U _ _ _ Ha Hb), leaf_eqb_refl in Hne. discriminate.
Qed.

Lemma SpecF_leaf a b c : SpecF [([], a)] [([], b)] c <-> c = MMod [] a b /\ leaf_eqb a b = false.
Proof.
  destruct c as [p l|p l|p a0 b0]; cbn [SpecF In]; split.
  - intros [[[= <- <-]|[]] Hk]. elim Hk. exists a. now left.
  - now intros [[=] _].
  - intros [[[= <- <-]|[]] Hk]. elim Hk. exists b. now left.
  - now intros [[=] _].
  - now intros ([[= <- <-]|[]] & [[= <-]|[]] & Hne).
  - intros [[= -> -> ->] Hne]. auto.
Qed.

Lemma same_hash_nodiff x y c : wfn x -> same_hash x y = true -> ~ SpecF (files x) (files y) c.
Proof.
  intros W Hsh. destruct x as [a|c1], y as [b|c2]; unfold same_hash in Hsh; try discriminate.
  - cbn [files]. rewrite SpecF_leaf. intros [_ Hne]. congruence.
  - apply node_eqb_eq in Hsh. inversion Hsh; subst. apply SpecF_same, (proj1 files_keys_unique), W.
Qed.

(* a change list that is exactly the difference of two maps, each change once *)
Definition diff_of (cs : list mchange) (A B : fmap) : Prop :=
  NoDup cs /\ forall c, In c cs <-> SpecF A B c.

Lemma pre_in_map n cs c : In c (map (pre n) cs) <-> exists c', c = pre n c' /\ In c' cs.
Proof. rewrite in_map_iff. split; intros (c' & H1 & H2); exists c'; auto. Qed.

(* the walk's step: the changes below the name n, then those of the remaining names *)
Lemma diff_of_cons n h cs X Y A B :
  diff_of h X Y -> diff_of cs A B -> hd_ne n A -> hd_ne n B ->
  diff_of (map (pre n) h ++ cs) (map (pren n) X ++ A) (map (pren n) Y ++ B).
Proof.
  intros [Nh Sh] [Nc Sc] HA HB. split.
  - apply NoDup_app_intro; [apply NoDup_map_in; [exact Nh|intros a b _ _; apply pre_inj]|exact Nc|].
    intros c Hh Hc. apply pre_in_map in Hh as (c' & -> & _). now apply Sc, SpecF_not_below in Hc.
  - intros c. rewrite in_app_iff, pre_in_map, Sc, SpecF_split by assumption.
    split; (intros [(c' & E & H)|H]; [left; exists c'; split; [exact E|now apply Sh]|now right]).
Qed.

Definition dels (X : fmap) : list mchange := map (fun pl => MDel (fst pl) (snd pl)) X.
Definition inss (Y : fmap) : list mchange := map (fun pl => MIns (fst pl) (snd pl)) Y.

Lemma del_all_pre n x : del_all n x = map (pre n) (dels (files x)).
Proof. unfold del_all, dels. now rewrite map_map. Qed.
Lemma ins_all_pre n x : ins_all n x = map (pre n) (inss (files x)).
Proof. unfold ins_all, inss. now rewrite map_map. Qed.

Lemma diff_of_disjoint X Y :
  NoDup X -> NoDup Y -> (forall p a b, In (p, a) X -> In (p, b) Y -> False) -> diff_of (dels X ++ inss Y) X Y.
Proof.
  intros NX NY D. split.
  - apply NoDup_app_intro.
    + apply NoDup_map_in; [exact NX|]. intros [p a] [q b] _ _ H. now inversion H.
    + apply NoDup_map_in; [exact NY|]. intros [p a] [q b] _ _ H. now inversion H.
    + intros c H1 H2. apply in_map_iff in H1 as (a & <- & _). apply in_map_iff in H2 as (b & Hb & _). discriminate.
  - intros c. unfold dels, inss. rewrite in_app_iff, !in_map_iff. destruct c as [p l|p l|p a b]; cbn [SpecF]; split.
    + intros [([q m] & H & _)|([q m] & H & Hi)]; [discriminate|]. inversion H; subst. split; [exact Hi|]. intros (l' & Hl). eauto.
    + intros [Hi _]. right. now exists (p, l).
    + intros [([q m] & H & Hi)|([q m] & H & _)]; [|discriminate]. inversion H; subst. split; [exact Hi|]. intros (l' & Hl). eauto.
    + intros [Hi _]. left. now exists (p, l).
    + intros [([q m] & H & _)|([q m] & H & _)]; discriminate.
    + intros (Ha & Hb & _). destruct (D _ _ _ Ha Hb).
Qed.

Lemma diff_of_ins Y : NoDup Y -> diff_of (inss Y) [] Y.
Proof. intros N. apply (diff_of_disjoint [] Y); [constructor|exact N|intros p a b []]. Qed.
Lemma diff_of_del X : NoDup X -> diff_of (dels X) X [].
Proof. intros N. rewrite <- (app_nil_r (dels X)). apply (diff_of_disjoint X []); [exact N|constructor|intros p a b _ []]. Qed.

Lemma diff_of_leaf a b : leaf_eqb a b = false -> diff_of [MMod [] a b] [([], a)] [([], b)].
Proof.
  intros Hne. split; [repeat constructor; intros []|]. intros c. rewrite SpecF_leaf. cbn [In].
  split; [intros [<-|[]]; auto|intros [-> _]; now left].
Qed.

Lemma diff_of_cons_del n x cs A B :
  wfn x -> diff_of cs A B -> hd_ne n A -> hd_ne n B -> diff_of (del_all n x ++ cs) (map (pren n) (files x) ++ A) B.
Proof. intros W. rewrite del_all_pre. apply (diff_of_cons n _ cs (files x) [] A B), diff_of_del, files_nodup, W. Qed.

Lemma diff_of_cons_ins n y cs A B :
  wfn y -> diff_of cs A B -> hd_ne n A -> hd_ne n B -> diff_of (ins_all n y ++ cs) A (map (pren n) (files y) ++ B).
Proof. intros W. rewrite ins_all_pre. apply (diff_of_cons n _ cs [] (files y) A B), diff_of_ins, files_nodup, W. Qed.

Lemma hd_ne_nil n : hd_ne n [].
Proof. intros q l []. Qed.

Lemma names_above_lt n m y t :
  bytes_ltb n m = true -> (forall k, In k (map fst t) -> bytes_ltb m k = true) -> hd_ne n (files_l ((m, y) :: t)).
Proof. intros H Ht. apply names_above. intros k [<-|Hk]; [exact H|]. eapply bytes_ltb_trans; [exact H|auto]. Qed.

Lemma diffl_spec : forall fuel xs ys,
  wft xs -> wft ys -> tree_size xs + tree_size ys < fuel ->
  exists cs, diffl fuel xs ys = Some cs /\ diff_of cs (files_l xs) (files_l ys).
Proof.
  induction fuel as [|f IH]; intros xs ys Wx Wy Hsz; [lia|].
  destruct xs as [|[n1 x] xs']; destruct ys as [|[n2 y] ys'].
  - exists []. split; [reflexivity|]. apply (diff_of_ins []). constructor.
  - inversion Wy as [|? ? ? Wyn Wyr Hlt]; subst.
    rewrite tree_size_cons in Hsz. pose proof (node_size_pos y).
    destruct (IH [] ys' Wx Wyr) as (cs & Hd & Hs); [cbn; lia|].
    exists (ins_all n2 y ++ cs). split; [cbn [diffl]; now rewrite Hd|].
    apply (diff_of_cons_ins n2 y cs [] (files_l ys')); auto using hd_ne_nil, names_above.
  - inversion Wx as [|? ? ? Wxn Wxr Hlt]; subst.
    rewrite tree_size_cons in Hsz. pose proof (node_size_pos x).
    destruct (IH xs' [] Wxr Wy) as (cs & Hd & Hs); [cbn in *; lia|].
    exists (del_all n1 x ++ cs). split; [cbn [diffl]; now rewrite Hd|].
    apply (diff_of_cons_del n1 x cs (files_l xs') []); auto using hd_ne_nil, names_above.
  - inversion Wx as [|? ? ? Wxn Wxr Hltx]; subst. inversion Wy as [|? ? ? Wyn Wyr Hlty]; subst.
    rewrite !tree_size_cons in Hsz. pose proof (node_size_pos x). pose proof (node_size_pos y).
    cbn [diffl]. destruct (bytes_cmp n1 n2) eqn:Hcmp.
    + (* same name: the changes below it, by the kind of the two nodes *)
      apply bytes_cmp_eq in Hcmp. subst n2.
      destruct (IH xs' ys' Wxr Wyr) as (cs & Hd & Hs); [lia|]. rewrite Hd.
      assert (Hhere : exists h,
        (if same_hash x y then Some []
         else match x, y with
              | File a, File b => Some [MMod [n1] a b]
              | Dir [], Dir _ => Some (ins_all n1 y)
              | Dir _, Dir [] => Some (del_all n1 x)
              | Dir c1, Dir c2 => option_map (map (pre n1)) (diffl f c1 c2)
              | _, _ => Some (del_all n1 x ++ ins_all n1 y)
              end) = Some (map (pre n1) h) /\ diff_of h (files x) (files y)).
      { destruct (same_hash x y) eqn:Hsh.
        { exists []. split; [reflexivity|]. split; [constructor|]. intros c. split; [intros []|].
          apply (same_hash_nodiff x y c Wxn Hsh). }
        pose proof (proj1 files_nodup x Wxn) as Nx. pose proof (proj1 files_nodup y Wyn) as Ny.
        rewrite !del_all_pre, !ins_all_pre, <- map_app.
        destruct x as [a|c1], y as [b|c2].
        - exists [MMod [] a b]. split; [reflexivity|]. now apply diff_of_leaf.
        - eexists. split; [reflexivity|]. apply diff_of_disjoint; auto.
          intros p l l' [[= <- <-]|[]] Hl. exact (dir_paths_nonempty _ _ Hl).
        - eexists. split; [destruct c1; reflexivity|]. apply diff_of_disjoint; auto.
          intros p l l' Hl [[= <- <-]|[]]. exact (dir_paths_nonempty _ _ Hl).
        - destruct c1 as [|k1 c1']; [eexists; split; [reflexivity|now apply diff_of_ins]|].
          destruct c2 as [|k2 c2']; [eexists; split; [reflexivity|now apply diff_of_del]|].
          inversion Wxn as [|? Wc1]; subst. inversion Wyn as [|? Wc2]; subst. rewrite !node_size_dir in Hsz.
          destruct (IH (k1 :: c1') (k2 :: c2') Wc1 Wc2) as (cs' & Hd' & Hs'); [lia|].
          exists cs'. split; [now rewrite Hd'|]. now rewrite !files_dir. }
      destruct Hhere as (h & Hh & Hhs). rewrite Hh. cbn [option_map].
      exists (map (pre n1) h ++ cs). split; [reflexivity|]. apply diff_of_cons; auto using names_above.
    + apply bytes_ltb_lt in Hcmp.
      destruct (IH xs' ((n2, y) :: ys') Wxr Wy) as (cs & Hd & Hs); [rewrite tree_size_cons; lia|]. rewrite Hd.
      exists (del_all n1 x ++ cs). split; [reflexivity|].
      apply (diff_of_cons_del n1 x cs (files_l xs')); auto using names_above, names_above_lt.
    + apply bytes_cmp_gt_lt, bytes_ltb_lt in Hcmp.
      destruct (IH ((n1, x) :: xs') ys' Wx Wyr) as (cs & Hd & Hs); [rewrite tree_size_cons; lia|]. rewrite Hd.
      exists (ins_all n2 y ++ cs). split; [reflexivity|].
      apply (diff_of_cons_ins n2 y cs _ (files_l ys')); auto using names_above, names_above_lt.
Qed.
