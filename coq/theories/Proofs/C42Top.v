(* Proofs/C42Top.v — Independents and MergeBase agree with the specification
   (maximal elements / maximal common ancestors) for all timestamps. *)
From Coq Require Import List Arith ZArith Bool Lia Permutation.
From GoGit Require Import Spec.Dag Model.CommitWalk Model.MergeBase
  Proofs.Worklist Proofs.C43 Proofs.C42Indep.
Import ListNotations.

Lemma insert_desc_perm : forall g x l, Permutation (insert_desc g x l) (x :: l).
Proof.
  intros g x. induction l as [|y r IH]; simpl; [reflexivity|].
  destruct (_ && _); [reflexivity|]. rewrite IH. apply perm_swap.
Qed.

Lemma sort_desc_in : forall g l y, In y (sort_desc g l) <-> In y l.
Proof.
  intros g l y. unfold sort_desc.
  rewrite (perm_app_in _ _ _ (fold_insert_perm _ (insert_desc_perm g) l []) y). simpl. tauto.
Qed.

Lemma dedup_spec : forall l seen,
  NoDup (dedup seen l) /\ forall y, In y (dedup seen l) <-> In y l /\ ~ In y seen.
Proof.
  induction l as [|c r IH]; intros seen; simpl; [split; [constructor | tauto]|].
  destruct (mem c seen) eqn:E; [apply mem_In in E | apply mem_false_In in E].
  - destruct (IH seen) as [H1 H2]. split; [exact H1|]. intros y. rewrite H2. intuition congruence.
  - destruct (IH (c :: seen)) as [H1 H2]. split.
    + constructor; [|exact H1]. rewrite H2. simpl. tauto.
    + intros y. simpl. rewrite H2. simpl. destruct (Nat.eq_dec c y); intuition congruence.
Qed.

Definition undominated (g : dag) (X : list node) (x : node) : Prop :=
  In x X /\ ~ exists y, In y X /\ y <> x /\ reach g y x.

(* being undominated depends on the set only, however it is presented *)
Lemma undominated_iff : forall g (P Q : node -> Prop) x, (forall y, P y <-> Q y) ->
  (P x /\ ~ (exists y, P y /\ y <> x /\ reach g y x) <-> Q x /\ ~ (exists y, Q y /\ y <> x /\ reach g y x)).
Proof.
  intros g P Q x E.
  split; intros [Hx Hn]; (split; [now apply E|]); intros [y [Hy R]]; apply Hn; exists y; split; auto; now apply E.
Qed.

Theorem independents_correct : forall g X,
  dag_ok g = true -> dag_closed g = true -> (forall x, In x X -> x < nnodes g) ->
  exists l, independents g X = MOk l /\ NoDup l /\ forall x, In x l <-> undominated g X x.
Proof.
  intros g X Hok Hc HX. unfold independents.
  destruct (dedup_spec (sort_desc g X) []) as [Knd Kin].
  set (K := dedup [] (sort_desc g X)) in *.
  assert (KX : forall y, In y K <-> In y X).
  { intros y. rewrite Kin, sort_desc_in. simpl. tauto. }
  assert (Klt : forall x, In x K -> x < nnodes g) by (intros x Hx; apply HX; now apply KX).
  assert (Fin : forall l, final g K l -> NoDup l /\ forall x, In x l <-> undominated g X x).
  { intros l [H1 H2]. split; [exact H1|]. intros x. rewrite H2. exact (undominated_iff g _ (fun y => In y X) x KX). }
  destruct (length K <? 2) eqn:El.
  - apply Nat.ltb_lt in El. exists K. split; [reflexivity|]. apply Fin. split; [exact Knd|].
    intros x. split.
    + intros Hx. split; [exact Hx|]. intros [y [Hy [Hne _]]].
      destruct K as [|a [|b r]]; simpl in *; try lia; try contradiction.
    + tauto.
  - apply Nat.ltb_ge in El.
    assert (HO : OI g K 0 K [] []).
    { constructor.
      - exists (fun _ => true). symmetry. apply filter_true.
      - intros x [].
      - intros x [].
      - intros x. split; [intros [] | intros [f [[] _]]].
      - intros f z [].
      - intros z Hz Hn. contradiction. }
    destruct (outer_post g Hok Hc K Knd Klt (S (length K)) 0 K [] [] HO) as [l [E F]]; [lia | lia |].
    exists l. split; [exact E|]. now apply Fin.
Qed.

Lemma independent_spec : forall g X x, dag_ok g = true -> (forall y, In y X -> y < nnodes g) ->
  (In x (independent g X) <-> undominated g X x).
Proof.
  intros g X x Hok HX.
  assert (E : forall y, In y (filter (fun y => mem y X) (nodes g)) <-> In y X).
  { intros y. unfold nodes. rewrite filter_In, in_seq, mem_In. split; [tauto|].
    intros Hy. pose proof (HX y Hy). split; [lia | exact Hy]. }
  unfold independent. rewrite (maximal_spec g _ x Hok). exact (undominated_iff g _ (fun y => In y X) x E).
Qed.

Lemma independent_NoDup : forall g X, NoDup (independent g X).
Proof. intros. unfold independent, maximal, nodes. apply NoDup_filter, NoDup_filter, seq_NoDup. Qed.

Theorem independents_perm : forall g X,
  dag_ok g = true -> dag_closed g = true -> (forall x, In x X -> x < nnodes g) ->
  exists l, independents g X = MOk l /\ Permutation l (independent g X).
Proof.
  intros g X Hok Hc HX. destruct (independents_correct g X Hok Hc HX) as [l [E [N H]]].
  exists l. split; [exact E|]. apply NoDup_Permutation; [exact N | apply independent_NoDup|].
  intros x. rewrite H. symmetry. now apply independent_spec.
Qed.

Lemma filter_rev : forall (f : node -> bool) l, filter f (rev l) = rev (filter f l).
Proof.
  intros f. induction l as [|x r IH]; [reflexivity|]. simpl. rewrite filter_app, IH. simpl.
  destruct (f x); [reflexivity | apply app_nil_r].
Qed.

Section FBfs.
  Variable g : dag.
  Hypothesis Hclosed : dag_closed g = true.
  Variable inset : node -> bool.

  Let n := nnodes g.

  Definition fbfs_push (c : node) (seen : list node) (q : list node) :=
    q ++ filter (fun p => negb (mem p seen)) (gated g inset c).

  (* the filtered walk is the plain BFS that does not go past the set, with the output filtered *)
  Lemma fbfs_gloop : forall fuel (q visited acc : list node), Forall (fun x => x < n) q ->
    fbfs_loop g inset fuel q visited (filter inset acc) =
    let (l, e) := gloop _ pop_list fbfs_push nostop fuel q visited acc in (filter inset l, e).
  Proof.
    induction fuel as [|f IH]; intros q visited acc Hq; [simpl; now rewrite filter_rev|].
    destruct q as [|c q']; [simpl; now rewrite filter_rev|].
    cbn [fbfs_loop gloop pop_list]. apply Forall_inv_tail in Hq.
    destruct (mem c visited); [now apply IH|].
    change (nostop c) with false. cbv iota. unfold fbfs_push, gated. rewrite <- IH.
    - cbn [filter]. destruct (inset c); [now rewrite app_nil_r|].
      fold (unseen_parents g (c :: visited) c).
      now rewrite (forallb_present g _ (unseen_stored g Hclosed (c :: visited) c)).
    - apply Forall_app. split; [exact Hq|]. apply (incl_Forall (incl_filter _ _)). now apply gated_stored.
  Qed.

  Lemma fbfs_post : forall o : node, o < n ->
    exists res, fbfs_loop g inset (walk_fuel g) [o] [] [] = (res, WEof) /\ NoDup res /\
                forall x, In x res <-> walked g inset o x /\ inset x = true.
  Proof.
    intros o Ho.
    assert (P : Post (gated g inset) nostop [] o (gloop _ pop_list fbfs_push nostop (walk_fuel g) [o] [] [])).
    { apply (gloop_walk_post g nostop _ _ (fun l => l) _ _ (fun c seen => filter (fun p => negb (mem p seen)) (gated g inset c)));
        [ | exact pops_list | | | exact Ho | reflexivity].
      - intros c p Hc Hp. apply (par_lt g Hclosed c p Hc). now apply (gated_incl g inset c).
      - intros c seen b. apply Permutation_app_comm.
      - apply selects_unseen, gated_length. }
    destruct (post_nostop _ _ _ _ P) as (l & E & N & H & _).
    assert (Hq : Forall (fun x => x < n) [o]) by (repeat constructor; exact Ho).
    exists (filter inset l).
    rewrite (fbfs_gloop (walk_fuel g) [o] [] [] Hq : fbfs_loop g inset (walk_fuel g) [o] [] [] = _), E.
    split; [reflexivity|]. split; [now apply NoDup_filter|]. intros x. now rewrite filter_In, H.
  Qed.
End FBfs.

Definition common_anc (g : dag) (a b x : node) : Prop := reach g a x /\ reach g b x.
Definition is_merge_base (g : dag) (a b x : node) : Prop :=
  common_anc g a b x /\ ~ exists y, common_anc g a b y /\ y <> x /\ reach g y x.

Lemma is_merge_base_sym : forall g a b x, is_merge_base g a b x <-> is_merge_base g b a x.
Proof.
  intros g a b x. unfold is_merge_base, common_anc. split; intros [[H1 H2] Hn]; (split; [tauto|]);
    intros [y [[Hy1 Hy2] R]]; apply Hn; exists y; tauto.
Qed.

(* when a is an ancestor of b, a is the only merge base *)
Lemma merge_base_of_ancestor : forall g a b x,
  dag_ok g = true -> dag_closed g = true -> reach g b a ->
  (is_merge_base g a b x <-> x = a).
Proof.
  intros g a b x Hok Hc Hba. unfold is_merge_base, common_anc. split.
  - intros [[Hax Hbx] Hn]. destruct (Nat.eq_dec x a) as [E|E]; [exact E|].
    exfalso. apply Hn. exists a. repeat split; auto; constructor.
  - intros ->. split; [split; [constructor | exact Hba]|].
    intros [y [[Hay _] [Hne Hya]]]. apply Hne. eapply reach_antisym; eauto.
Qed.

Lemma common_list_spec : forall g (a b x : node), dag_ok g = true -> dag_closed g = true ->
  a < nnodes g -> (In x (common g a b) <-> common_anc g a b x).
Proof.
  intros g a b x Hok Hc Ha. unfold common, common_anc, nodes. rewrite filter_In, in_seq, andb_true_iff.
  rewrite !(is_anc_spec g) by exact Hok. split; [tauto|].
  intros [H1 H2]. split; [|tauto]. pose proof (reach_present g a x Hc Ha H1). lia.
Qed.

(* MergeBase walks from the commit that sorts first *)
Lemma merge_base_ordered : forall g (a b newer older : node),
  dag_ok g = true -> dag_closed g = true -> newer < nnodes g -> older < nnodes g ->
  sort_desc g [a; b] = [newer; older] ->
  exists l, merge_base g a b = MOk l /\ NoDup l /\ forall x, In x l <-> is_merge_base g newer older x.
Proof.
  intros g a b newer older Hok Hc Hn Ho Hsort. unfold merge_base. rewrite Hsort.
  assert (Single : forall x, reach g newer older -> (In x [older] <-> is_merge_base g newer older x)).
  { intros x Hr. rewrite is_merge_base_sym, (merge_base_of_ancestor g older newer x Hok Hc Hr).
    simpl. intuition congruence. }
  assert (Nd1 : NoDup [older]) by (constructor; [intros [] | constructor]).
  destruct (older =? newer) eqn:E.
  - apply Nat.eqb_eq in E. subst older. exists [newer]. split; [reflexivity|]. split; [exact Nd1|].
    intros x. apply Single. constructor.
  - pose proof (bfs_walk_post g Hc (Nat.eqb older) [] newer Hn) as P.
    destruct (bfs_walk g (Nat.eqb older) (walk_fuel g) newer []) as [hist e].
    destruct (post_stop_at _ _ _ _ _ P) as [[He Hra] | [He [_ Hin]]]; cbn [fst snd] in *; subst e.
    + (* older is an ancestor of newer *)
      apply ra_reach in Hra.
      exists [older]. split; [reflexivity|]. split; [exact Nd1|]. intros x. now apply Single.
    + assert (Hhist : forall x, mem x hist = true <-> reach g newer x).
      { intros x. rewrite mem_In, Hin. apply ra_reach. }
      set (inset := fun c => mem c hist).
      destruct (fbfs_post g Hc inset older Ho) as [res [Er [Nr Hr]]].
      fold inset. rewrite Er.
      assert (Hres_lt : forall x, In x res -> x < nnodes g).
      { intros x Hx. apply Hr in Hx. destruct Hx as [Hx _]. apply walked_reach in Hx.
        eapply reach_present; eauto. }
      destruct (independents_correct g res Hok Hc Hres_lt) as [l [El [Nl Hl]]].
      exists l. split; [exact El|]. split; [exact Nl|].
      (* res lies between the merge bases and the common ancestors *)
      assert (ResCommon : forall x, In x res -> common_anc g newer older x).
      { intros x Hx. apply Hr in Hx. destruct Hx as [H1 H2]. split; [now apply Hhist | now apply walked_reach in H1]. }
      assert (MbRes : forall x, is_merge_base g newer older x -> In x res).
      { intros x [[H1 H2] Hno]. apply Hr. split; [|now apply Hhist].
        destruct (walked_or_blocked g inset older Hok Hc older x H2 (walked_start g inset older))
          as [Hw | [p [Hp [Hne [Hop Hpx]]]]]; [exact Hw|].
        (* a common ancestor strictly above x would stand in the way *)
        exfalso. apply Hno. exists p. split; [split; [now apply Hhist | exact Hop]|]. split; assumption. }
      intros x. rewrite Hl. unfold undominated. split.
      * intros [Hx Hnd]. split; [now apply ResCommon|].
        intros [y [Hy [Hne Hyx]]].
        (* climb to a dominator that is a merge base: it is in res *)
        set (K := common g newer older).
        assert (Klt : forall z, In z K -> z < nnodes g).
        { intros z Hz. unfold K, common, nodes in Hz. apply filter_In in Hz. destruct Hz as [Hz _]. apply in_seq in Hz. lia. }
        assert (HyK : In y K) by (apply common_list_spec; assumption).
        destruct (max_dom g Hok Hc K Klt y x HyK Hne Hyx) as [y' [Hy' [Hne' [Hr' Hnd']]]].
        apply Hnd. exists y'. split; [|split; assumption].
        apply MbRes. split; [now apply common_list_spec in Hy'|].
        intros [z [Hz [Hnz Hzy]]]. apply Hnd'. exists z. split; [now apply common_list_spec | split; assumption].
      * intros [Hx Hno]. split; [apply MbRes; now split|].
        intros [y [Hy [Hne Hyx]]]. apply Hno. exists y. split; [now apply ResCommon | split; assumption].
Qed.

Theorem merge_base_correct : forall g (a b : node),
  dag_ok g = true -> dag_closed g = true -> a < nnodes g -> b < nnodes g ->
  exists l, merge_base g a b = MOk l /\ NoDup l /\ forall x, In x l <-> is_merge_base g a b x.
Proof.
  intros g a b Hok Hc Ha Hb.
  assert (S2 : sort_desc g [a; b] = [a; b] \/ sort_desc g [a; b] = [b; a]).
  { unfold sort_desc. simpl. destruct ((ctime g a <? ctime g b)%Z && true); [now right | now left]. }
  destruct S2 as [E|E].
  - now apply (merge_base_ordered g a b a b).
  - destruct (merge_base_ordered g a b b a Hok Hc Hb Ha E) as [l [E1 [N H]]].
    exists l. split; [exact E1|]. split; [exact N|]. intros x. rewrite H. apply is_merge_base_sym.
Qed.

Lemma merge_bases_spec : forall g (a b x : node), dag_ok g = true -> dag_closed g = true -> a < nnodes g ->
  (In x (merge_bases g a b) <-> is_merge_base g a b x).
Proof.
  intros g a b x Hok Hc Ha. pose proof (fun y => common_list_spec g a b y Hok Hc Ha) as E.
  unfold merge_bases. rewrite (maximal_spec g _ x Hok). exact (undominated_iff g _ (common_anc g a b) x E).
Qed.

Theorem merge_base_perm : forall g (a b : node),
  dag_ok g = true -> dag_closed g = true -> a < nnodes g -> b < nnodes g ->
  exists l, merge_base g a b = MOk l /\ Permutation l (merge_bases g a b).
Proof.
  intros g a b Hok Hc Ha Hb. destruct (merge_base_correct g a b Hok Hc Ha Hb) as [l [E [N H]]].
  exists l. split; [exact E|]. apply NoDup_Permutation; [exact N | |].
  - unfold merge_bases, maximal, common, nodes. apply NoDup_filter, NoDup_filter, seq_NoDup.
  - intros x. rewrite H. symmetry. now apply merge_bases_spec.
Qed.
