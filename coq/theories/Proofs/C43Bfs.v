(* Proofs/C43Bfs.v — the BFS walker yields commits in level order: labelling the
   start 0 and every other commit 1 + the label of the (earlier yielded) commit
   through which it was discovered, labels never decrease along the output. *)
From Coq Require Import List Arith ZArith Bool Lia.
From GoGit Require Import Spec.Dag Model.CommitWalk Proofs.Worklist.
Import ListNotations.

Definition lnode := (node * nat)%type.

Fixpoint bfsL (g : dag) (fuel : nat) (q : list lnode) (seen : list node) (acc : list lnode) : list lnode * wend :=
  match fuel with
  | O => (rev acc, WFuel)
  | S f =>
    match q with
    | [] => (rev acc, WEof)
    | (c, d) :: q' =>
      if mem c seen then bfsL g f q' seen acc
      else
        let seen' := c :: seen in
        let add := unseen_parents g seen' c in
        if negb (forallb (present g) add) then (rev acc, WFail)
        else bfsL g f (q' ++ map (fun p => (p, S d)) add) seen' ((c, d) :: acc)
    end
  end.

(* the labelled run is the BFS walker with a ghost label *)
Lemma bfsL_proj : forall g fuel q seen acc,
  bfs_loop g nostop fuel (map fst q) seen (map fst acc)
  = (map fst (fst (bfsL g fuel q seen acc)), snd (bfsL g fuel q seen acc)).
Proof.
  intros g. induction fuel as [|f IH]; intros q seen acc.
  - simpl. now rewrite map_rev.
  - destruct q as [|[c d] q']; [simpl; now rewrite map_rev|].
    cbn [bfs_loop bfsL map fst]. destruct (mem c seen); [apply IH|].
    destruct (negb (forallb (present g) (unseen_parents g (c :: seen) c))); [simpl; now rewrite map_rev|].
    change (nostop c) with false. cbv iota.
    specialize (IH (q' ++ map (fun p => (p, S d)) (unseen_parents g (c :: seen) c)) (c :: seen) ((c, d) :: acc)).
    rewrite map_app, map_map in IH. simpl in IH. rewrite map_id in IH. exact IH.
Qed.

Fixpoint nondecr (l : list lnode) : Prop :=
  match l with [] => True | p :: r => (forall p', In p' r -> snd p <= snd p') /\ nondecr r end.

Lemma nondecr_app : forall l1 l2, nondecr l1 -> nondecr l2 ->
  (forall a b, In a l1 -> In b l2 -> snd a <= snd b) -> nondecr (l1 ++ l2).
Proof.
  induction l1 as [|p r IH]; intros l2 H1 H2 H; [exact H2|]. simpl in *. destruct H1 as [Ha Hb]. split.
  - intros p' Hp'. apply in_app_or in Hp'. destruct Hp' as [Hp'|Hp']; [now apply Ha | apply H; auto].
  - apply IH; auto.
Qed.

Lemma pushed_label : forall (d : nat) (add : list node) p,
  In p (map (fun x => (x, S d)) add) -> snd p = S d.
Proof. intros d add p Hp. apply in_map_iff in Hp. destruct Hp as [y [<- _]]. reflexivity. Qed.

Section Level.
  Variable g : dag.
  Variable s : node.

  (* (x, d): x is the start with label 0, or was pushed by an already emitted (y, d-1) with x among y's parents *)
  Definition justified (before : list lnode) (p : lnode) : Prop :=
    (p = (s, 0)) \/ exists y dy, In (y, dy) before /\ In (fst p) (parents g y) /\ snd p = S dy.

  Definition level_ordered (l : list lnode) : Prop :=
    nondecr l /\ forall l1 p l2, l = l1 ++ p :: l2 -> justified l1 p.

  (* the queue holds at most two consecutive levels, the lower one in front *)
  Record LI (q : list lnode) (acc : list lnode) : Prop := mkLI {
    l_qsorted : nondecr q;
    l_band : exists m, forall p, In p q -> m <= snd p <= S m;
    l_out : level_ordered (rev acc);
    l_cross : forall a p, In a acc -> In p q -> snd a <= snd p;
    l_qjust : forall p, In p q -> justified (rev acc) p
  }.

  Lemma justified_more : forall a b p, (forall x, In x a -> In x b) -> justified a p -> justified b p.
  Proof.
    intros a b' p H [J|[y [dy [J1 [J2 J3]]]]]; [now left|]. right. exists y, dy. auto.
  Qed.

  Lemma bfsL_level : forall fuel q seen acc, LI q acc ->
    level_ordered (fst (bfsL g fuel q seen acc)).
  Proof.
    induction fuel as [|f IH]; intros q seen acc H; [exact (l_out _ _ H)|].
    destruct q as [|[c d] q']; [exact (l_out _ _ H)|].
    cbn [bfsL]. destruct H as [[h1a h1b] [m h2] h3 h4 h5].
    destruct (mem c seen).
    - apply IH. split; auto.
      + exists m. intros p Hp. apply h2. now right.
      + intros a p Ha Hp. apply h4; [exact Ha | now right].
      + intros p Hp. apply h5. now right.
    - destruct (negb (forallb (present g) (unseen_parents g (c :: seen) c))); [exact h3|].
      set (add := unseen_parents g (c :: seen) c).
      assert (Hd : m <= d <= S m) by (apply (h2 (c, d)); now left).
      apply IH. split.
      + apply nondecr_app; [exact h1b | |].
        * clear. induction add as [|x r IHr]; simpl; [exact I|]. split; [|exact IHr].
          intros p' Hp'. rewrite (pushed_label _ _ _ Hp'). apply Nat.le_refl.
        * intros a b' Ha Hb. rewrite (pushed_label _ _ _ Hb). pose proof (h2 a (or_intror Ha)). lia.
      + exists d. intros p Hp. apply in_app_or in Hp. destruct Hp as [Hp|Hp].
        * pose proof (h1a p Hp). pose proof (h2 p (or_intror Hp)). simpl in *. lia.
        * rewrite (pushed_label _ _ _ Hp). lia.
      + destruct h3 as [h3 h6]. split.
        * apply nondecr_app; [exact h3 | split; [intros p' [] | exact I] |].
          intros a b' Ha [<-|[]]. apply (h4 a (c, d)); [now apply in_rev | now left].
        * apply prefixed_snoc; [exact h6|]. apply h5. now left.
      + intros a p [<-|Ha] Hp; apply in_app_or in Hp; destruct Hp as [Hp|Hp].
        * now apply h1a.
        * rewrite (pushed_label _ _ _ Hp). simpl. lia.
        * apply h4; [exact Ha | now right].
        * rewrite (pushed_label _ _ _ Hp). pose proof (h4 a (c, d) Ha (or_introl eq_refl)). simpl in *. lia.
      + intros p Hp. apply in_app_or in Hp. destruct Hp as [Hp|Hp].
        * apply (justified_more (rev acc)); [intros x Hx; apply in_or_app; now left | apply h5; now right].
        * apply in_map_iff in Hp. destruct Hp as [y [<- Hy]]. right. exists c, d.
          split; [apply in_or_app; right; now left|]. split; [|reflexivity].
          apply filter_In in Hy. apply Hy.
  Qed.

  Theorem bfs_level_order : forall fuel,
    exists ll, fst (bfs_walk g nostop fuel s []) = map fst ll /\ level_ordered ll.
  Proof.
    intros fuel. exists (fst (bfsL g fuel [(s, 0)] [] [])). split.
    - unfold bfs_walk. pose proof (bfsL_proj g fuel [(s, 0)] [] []) as P. simpl in P. now rewrite P.
    - apply bfsL_level. split.
      + split; [intros p' [] | exact I].
      + exists 0. intros p [<-|[]]. simpl. lia.
      + split; [exact I | apply prefixed_nil].
      + intros a p [].
      + intros p [<-|[]]. now left.
  Qed.
End Level.
