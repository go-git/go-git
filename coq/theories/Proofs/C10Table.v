(* Proofs/C10Table.v — facts about a table sorted by id: the fanout counts
   delimit the positions of each first byte, the 32/64-bit offset encoding
   recovers every offset, bit-mask arithmetic of the 64-bit flag. *)
From Coq Require Import List NArith ZArith Bool Lia ZifyBool ZifyNat ZifyN.
From GoGit Require Import Base.Out Model.PackBytes Model.Idx Spec.IdxFormat Proofs.C10Order Proofs.C10Bytes.
Import ListNotations.
Local Open Scope N_scope.

Definition P31 : N := 2147483648.
Lemma P31_eq : P31 = 2 ^ 31. Proof. reflexivity. Qed.

Lemma land_mask31 c : c < 4294967296 ->
  N.land c P31 = if c <? P31 then 0 else P31.
Proof.
  intros Hc. apply N.bits_inj. intros m. rewrite N.land_spec.
  rewrite P31_eq at 1. rewrite N.pow2_bits_eqb.
  destruct (N.eqb_spec 31 m) as [<-|Hm].
  - rewrite andb_true_r. destruct (c <? P31) eqn:E.
    + rewrite N.bits_0. apply N.testbit_false. apply N.ltb_lt in E. change (2^31) with P31. unfold P31 in *. lia.
    + rewrite P31_eq. rewrite N.pow2_bits_true. apply N.testbit_true.
      apply N.ltb_ge in E. change (2 ^ 31) with P31. unfold P31 in *. lia.
  - rewrite andb_false_r. destruct (c <? P31).
    + now rewrite N.bits_0.
    + rewrite P31_eq. rewrite N.pow2_bits_false by congruence. reflexivity.
Qed.

Lemma ldiff_mask31 c : c < 4294967296 -> N.ldiff c P31 = c mod P31.
Proof.
  intros Hc. apply N.bits_inj. intros m. rewrite N.ldiff_spec.
  rewrite P31_eq. rewrite N.pow2_bits_eqb.
  destruct (N.ltb_spec m 31) as [L|G].
  - rewrite N.mod_pow2_bits_low by assumption. replace (31 =? m) with false by lia. cbn. now rewrite andb_true_r.
  - rewrite N.mod_pow2_bits_high by assumption.
    destruct (N.eqb_spec 31 m) as [<-|Hm]; cbn; [now rewrite andb_false_r|].
    rewrite andb_true_r. apply N.testbit_false.
    assert (2 ^ 32 <= 2 ^ m) by (apply N.pow_le_mono_r; lia).
    change (2 ^ 32) with 4294967296 in *. rewrite N.div_small by lia. reflexivity.
Qed.

Lemma lor_mask31 n : n < P31 -> N.lor n P31 = n + P31.
Proof.
  intros Hn.
  assert (L : N.land n P31 = 0).
  { rewrite land_mask31 by (unfold P31 in *; lia). now replace (n <? P31) with true by lia. }
  rewrite <- N.lxor_lor by assumption. symmetry. now apply N.add_nocarry_lxor.
Qed.

Definition well_sized (hs : nat) (tbl : list entry) : Prop :=
  forall e, In e tbl -> List.length (e_hash e) = hs.

Lemma count_le_cons x l k : count_le (x :: l) k = (if first_of x <=? k then 1 else 0) + count_le l k.
Proof. unfold count_le. cbn [filter]. destruct (first_of x <=? k); cbn [List.length]; lia. Qed.

Lemma count_le_none l k : (forall y, In y l -> k < first_of y) -> count_le l k = 0.
Proof.
  induction l as [|y l IH]; intros H; [reflexivity|]. rewrite count_le_cons, IH by (intros; apply H; now right).
  specialize (H y (or_introl eq_refl)). now replace (first_of y <=? k) with false by lia.
Qed.

(* positions of the entries whose first byte is k: [count_le (k-1), count_le k) *)
Lemma count_le_pos (tbl : list entry) k i d :
  sorted_tbl tbl -> (i < List.length tbl)%nat ->
  (N.of_nat i < count_le tbl k <-> first_of (nth i tbl d) <= k).
Proof.
  intros S. revert i. induction S as [|x l S IH F]; intros i Hi; cbn [List.length] in Hi; [lia|].
  assert (Hx : forall y, In y l -> first_of x <= first_of y).
  { intros y Hy. rewrite Forall_forall in F. apply (bytes_cmp_hd _ _ (F y Hy)). }
  rewrite count_le_cons. destruct (first_of x <=? k) eqn:E.
  - destruct i as [|i]; cbn [nth]; [lia|]. rewrite <- (IH i) by lia. lia.
  - (* nothing later can be <= k either *)
    rewrite count_le_none by (intros y Hy; specialize (Hx y Hy); lia).
    destruct i as [|i]; cbn [nth]; [lia|]. specialize (Hx (nth i l d) ltac:(apply nth_In; lia)). lia.
Qed.

Lemma count_le_le tbl k : count_le tbl k <= N.of_nat (List.length tbl).
Proof.
  unfold count_le. induction tbl as [|e l IH]; cbn [filter List.length]; [lia|].
  destruct (first_of e <=? k); cbn [List.length]; lia.
Qed.

Lemma count_le_mono tbl j k : j <= k -> count_le tbl j <= count_le tbl k.
Proof.
  intros Hjk. unfold count_le. induction tbl as [|e l IH]; cbn [filter List.length]; [lia|].
  destruct (first_of e <=? j) eqn:E1, (first_of e <=? k) eqn:E2; cbn [List.length]; lia.
Qed.

Lemma count_le_all tbl k :
  (forall e, In e tbl -> first_of e <= k) -> count_le tbl k = N.of_nat (List.length tbl).
Proof.
  intros H. unfold count_le. f_equal. induction tbl as [|e l IH]; cbn [filter List.length]; [reflexivity|].
  replace (first_of e <=? k) with true by (specialize (H e (or_introl eq_refl)); lia).
  cbn [List.length]. f_equal. apply IH. intros; apply H; now right.
Qed.

(* fanout[k], fanout[k-1] (0 for k = 0) and the size of bucket k *)
Definition F (tbl : list entry) (k : nat) : N := count_le tbl (N.of_nat k).
Definition Fp (tbl : list entry) (k : nat) : N := if Nat.eqb k 0 then 0 else F tbl (k - 1).
Definition cnt (tbl : list entry) (k : nat) : N := F tbl k - Fp tbl k.

Lemma F_le tbl k : F tbl k <= N.of_nat (List.length tbl).
Proof. apply count_le_le. Qed.

Lemma F_mono tbl k : Fp tbl k <= F tbl k.
Proof. unfold Fp, F. destruct (Nat.eqb k 0) eqn:E; [lia|]. apply count_le_mono. lia. Qed.

Lemma Fp_S tbl k : Fp tbl (S k) = F tbl k.
Proof. unfold Fp. cbn [Nat.eqb]. now rewrite Nat.sub_succ, Nat.sub_0_r. Qed.

Fixpoint nondecN (prev : N) (l : list N) : Prop :=
  match l with [] => True | x :: r => prev <= x /\ nondecN x r end.

Lemma nondecN_nth : forall l x k, nondecN x l -> (k < List.length l)%nat -> x <= nth k l 0.
Proof.
  induction l as [|y l IH]; intros x k Hn Hk; cbn in Hk; [lia|]. destruct Hn as [H1 H2].
  destruct k as [|k]; cbn [nth]; [lia|]. specialize (IH y k H2 ltac:(lia)). lia.
Qed.

Lemma nondecN_adjacent : forall l prev, nondecN prev l ->
  forall a b pre post, prev :: l = pre ++ a :: b :: post -> a <= b.
Proof.
  induction l as [|x l IH]; intros prev Hn a b pre post E.
  - destruct pre as [|? [|? ?]]; discriminate.
  - destruct Hn as [H1 H2]. destruct pre as [|y pre]; cbn in E; inversion E; subst; [exact H1|].
    now apply (IH x H2 a b pre post).
Qed.

Lemma fanout_length tbl : List.length (fanout_of tbl) = 256%nat.
Proof. unfold fanout_of. now rewrite map_length, seq_length. Qed.

Lemma fanout_nth tbl k : (k < 256)%nat -> nth k (fanout_of tbl) 0 = F tbl k.
Proof.
  intros Hk. unfold fanout_of.
  rewrite (nth_map_N (fun k => count_le tbl (N.of_nat k)) (seq 0 256) k 0%nat 0) by (rewrite seq_length; lia).
  now rewrite seq_nth by lia.
Qed.

(* where bucket k starts, as the readers compute it from the fanout table *)
Lemma fanout_prev tbl k : (k < 256)%nat ->
  (if Nat.eqb k 0 then 0 else nth (k - 1) (fanout_of tbl) 0) = Fp tbl k.
Proof. intros Hk. unfold Fp. destruct k; [reflexivity|]. apply fanout_nth. lia. Qed.

Lemma fanout_last tbl : last (fanout_of tbl) 0 = F tbl 255.
Proof. unfold fanout_of. change 256%nat with (255 + 1)%nat. rewrite seq_app, map_app. apply last_last. Qed.

Lemma nondec_map_seq (f : nat -> N) : forall len s prev,
  prev <= f s -> (forall i, f i <= f (S i)) -> nondecN prev (map f (seq s len)).
Proof.
  induction len as [|len IH]; intros s prev Hp Hm; cbn; [exact I|].
  split; [assumption|]. apply IH; auto.
Qed.

Lemma fanout_nondec tbl : nondecN 0 (fanout_of tbl).
Proof. apply nondec_map_seq; [lia|]. intros i. apply count_le_mono. lia. Qed.

Lemma fanout_bound tbl x : In x (fanout_of tbl) -> x <= N.of_nat (List.length tbl).
Proof. unfold fanout_of. rewrite in_map_iff. intros (k & <- & _). apply count_le_le. Qed.

Definition n_big (l : list entry) : N := N.of_nat (List.length (filter is_big l)).

Lemma n_big_le l : n_big l <= N.of_nat (List.length l).
Proof. unfold n_big. induction l as [|e l IH]; cbn [filter List.length]; [lia|]. destruct (is_big e); cbn [List.length]; lia. Qed.

Lemma off32_codes_length tbl : forall n, List.length (off32_codes tbl n) = List.length tbl.
Proof. induction tbl as [|e l IH]; intros n; cbn; [reflexivity|]. destruct (is_big e); cbn; now rewrite IH. Qed.

Lemma off32_codes_nth tbl : forall n0 i d,
  (i < List.length tbl)%nat ->
  nth i (off32_codes tbl n0) 0 =
    if is_big (nth i tbl d) then n0 + n_big (firstn i tbl) + 2147483648 else e_off (nth i tbl d).
Proof.
  induction tbl as [|e l IH]; intros n0 i d Hi; cbn in Hi; [lia|].
  destruct i as [|i]; cbn [nth firstn off32_codes].
  - destruct (is_big e); cbn; [unfold n_big; cbn; lia|reflexivity].
  - destruct (is_big e) eqn:E; cbn [nth].
    + rewrite (IH (n0 + 1) i d) by lia. unfold n_big. cbn [filter]. rewrite E. cbn [List.length].
      destruct (is_big (nth i l d)); [lia|reflexivity].
    + rewrite (IH n0 i d) by lia. unfold n_big. cbn [filter]. rewrite E. reflexivity.
Qed.

Lemma big_offsets_nth tbl : forall i d,
  (i < List.length tbl)%nat -> is_big (nth i tbl d) = true ->
  nth (N.to_nat (n_big (firstn i tbl))) (big_offsets tbl) 0 = e_off (nth i tbl d) /\
  n_big (firstn i tbl) < n_big tbl.
Proof.
  unfold big_offsets, n_big.
  induction tbl as [|e l IH]; intros i d Hi Hb; cbn in Hi; [lia|].
  destruct i as [|i]; cbn [nth firstn filter] in *.
  - rewrite Hb. cbn. split; [reflexivity|lia].
  - destruct (IH i d) as [A B]; [lia|assumption|].
    destruct (is_big e) eqn:E; cbn [List.length map nth].
    + rewrite Nat2N.id in *. split; [exact A|lia].
    + split; [exact A|lia].
Qed.

Lemma big_offsets_length tbl : N.of_nat (List.length (big_offsets tbl)) = n_big tbl.
Proof. unfold big_offsets, n_big. now rewrite map_length. Qed.

Lemma off32_codes_bound tbl : forall n0,
  n0 + n_big tbl <= 2147483648 -> (forall e, In e tbl -> is_big e = false -> e_off e < 4294967296) ->
  forall c, In c (off32_codes tbl n0) -> c < 4294967296.
Proof.
  unfold n_big. induction tbl as [|e l IH]; intros n0 Hn Ho c Hc; cbn in *; [contradiction|].
  destruct (is_big e) eqn:E; cbn [List.length] in *; destruct Hc as [<-|Hc].
  - lia.
  - eapply (IH (n0 + 1)); eauto; lia.
  - apply Ho; auto.
  - eapply (IH n0); eauto.
Qed.

Lemma big_codes_count : forall tbl n0,
  n0 + n_big tbl <= 2147483648 ->
  List.length (filter (fun c => P31 <=? c) (off32_codes tbl n0)) = List.length (filter is_big tbl).
Proof.
  unfold n_big. induction tbl as [|e l IH]; intros n0 Hn; [reflexivity|].
  cbn [off32_codes filter] in *. destruct (is_big e) eqn:E; cbn [filter List.length] in *.
  - replace (P31 <=? n0 + 2147483648) with true by (unfold P31; lia). cbn [List.length]. f_equal.
    apply IH. lia.
  - unfold is_big in E. replace (P31 <=? e_off e) with false by (unfold P31; lia).
    apply IH. lia.
Qed.

Lemma is_big_code tbl n0 i d :
  (i < List.length tbl)%nat -> n0 + n_big tbl <= 2147483648 ->
  (forall e, In e tbl -> e_off e < 18446744073709551616) ->
  (nth i (off32_codes tbl n0) 0 <? 2147483648) = negb (is_big (nth i tbl d)).
Proof.
  intros Hi Hn Ho. rewrite (off32_codes_nth tbl n0 i d Hi).
  destruct (is_big (nth i tbl d)) eqn:E; cbn.
  - apply N.ltb_ge. lia.
  - unfold is_big in E. apply N.ltb_lt. lia.
Qed.
