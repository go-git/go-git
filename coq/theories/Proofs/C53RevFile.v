(* Proofs/C53RevFile.v — C53 for revfile.Decode (Model/Idx.v rev_decode): structural
   (read_u32s recurses on the object count handed in by the caller); whatever that
   count is, a successful decode delivered exactly [count] positions and the file
   holds 4 bytes for each of them plus header and trailers: 4*count + 52 <= |file|. *)
From Coq Require Import List ZArith Lia.
From GoGit Require Import Model.PackBytes Model.Idx Proofs.C10Bytes.
Import ListNotations.
Local Open Scope N_scope.

Lemma take_len n r a b : take n r = Some (a, b) -> blen a = n /\ blen r = n + blen b.
Proof. intros T. apply take_some in T. destruct T as [-> L]. rewrite blen_app. lia. Qed.

Lemma read_u32s_len : forall n r l r', read_u32s n r = Some (l, r') ->
  List.length l = n /\ blen r = 4 * N.of_nat n + blen r'.
Proof.
  induction n as [|n IH]; intros r l r' E; cbn [read_u32s] in E.
  - injection E as <- <-. cbn. split; [reflexivity|lia].
  - destruct (take 4 r) as [[w r1]|] eqn:T; [|discriminate].
    destruct (read_u32s n r1) as [[l1 r2]|] eqn:R; [|discriminate]. injection E as <- <-.
    apply take_len in T. apply IH in R. cbn [List.length]. lia.
Qed.

Theorem rev_decode_alloc Hsz file count pack es : rev_decode Hsz file count pack = Ok es ->
  N.of_nat (List.length es) = count /\ 4 * count + 52 <= blen file.
Proof.
  unfold rev_decode. destruct (take 4 file) as [[mg r1]|] eqn:T1; [|discriminate].
  destruct (negb _); [discriminate|]. destruct (take 4 r1) as [[vb r2]|] eqn:T2; [|discriminate].
  destruct (negb _); [discriminate|]. destruct (take 4 r2) as [[hb r3]|] eqn:T3; [|discriminate]. cbv zeta.
  destruct (negb _); [discriminate|]. destruct (count =? 0); [discriminate|].
  destruct (read_u32s (N.to_nat count) r3) as [[es' r4]|] eqn:R; [|discriminate].
  destruct (take _ r4) as [[pk r5]|] eqn:T4; [|discriminate]. destruct (negb _); [discriminate|].
  destruct (take _ r5) as [[sum r6]|] eqn:T5; [|discriminate]. destruct (negb _); [discriminate|].
  destruct r6; [|discriminate]. intros [= <-].
  apply take_len in T1, T2, T3, T4, T5. apply read_u32s_len in R.
  destruct (get32 hb =? REV_SHA256); lia.
Qed.
