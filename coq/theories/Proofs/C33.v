(* Proofs/C33.v — the dual filesystem induced by the routing function; git's
   common_list below a directory prefix (the .lock stripping); .git pointer files. *)
From Coq Require Import List NArith Arith Lia Bool String.
From GoGit Require Import Base.Out Model.WtRoute Spec.GitCommonDir.
Import ListNotations.
Local Open Scope N_scope.

Lemma beqb_eq a : forall b, beqb a b = true <-> a = b.
Proof.
  induction a as [|x a IH]; intros [|y b]; cbn [beqb]; split; intros H; try reflexivity; try discriminate.
  - apply andb_true_iff in H as [H1 H2]. apply N.eqb_eq in H1. apply IH in H2. now subst.
  - inversion H; subst. rewrite N.eqb_refl. cbn. now apply IH.
Qed.
Lemma beqb_refl a : beqb a a = true.
Proof. now apply beqb_eq. Qed.

Lemma fget_fput l p d q : fget (fput l p d) q = if beqb p q then Some d else fget l q.
Proof.
  induction l as [|[r x] l IH].
  - cbn [fput fget]. reflexivity.
  - cbn [fput]. destruct (beqb r p) eqn:E.
    + apply beqb_eq in E. subst r. cbn [fget]. destruct (beqb p q); reflexivity.
    + cbn [fget]. destruct (beqb r q) eqn:E2.
      * apply beqb_eq in E2. subst r. destruct (beqb p q) eqn:E3; [|reflexivity].
        apply beqb_eq in E3. subst. rewrite beqb_refl in E. discriminate.
      * exact IH.
Qed.

Lemma pget_pput l w m v : pget (pput l w m) v = if w =? v then m else pget l v.
Proof.
  induction l as [|[u x] l IH].
  - cbn [pput pget]. reflexivity.
  - cbn [pput]. destruct (u =? w) eqn:E.
    + apply N.eqb_eq in E. subst u. cbn [pget]. destruct (w =? v); reflexivity.
    + cbn [pget]. destruct (u =? v) eqn:E2.
      * apply N.eqb_eq in E2. subst u. rewrite N.eqb_sym, E. reflexivity.
      * exact IH.
Qed.

Lemma isolated f a b p d q :
  a <> b -> go_common p = false -> fs_read (fs_write f a p d) b q = fs_read f b q.
Proof.
  intros Hab Hp. unfold fs_write, fs_read. rewrite Hp. cbn [fs_common fs_priv].
  destruct (go_common q); [reflexivity|]. rewrite pget_pput.
  destruct (a =? b) eqn:E; [apply N.eqb_eq in E; contradiction|reflexivity].
Qed.

Lemma shared f a b p d : go_common p = true -> fs_read (fs_write f a p d) b p = Some d.
Proof.
  intros Hp. unfold fs_write, fs_read. rewrite Hp. cbn [fs_common]. rewrite fget_fput, beqb_refl. reflexivity.
Qed.

Lemma own_read f a p d : fs_read (fs_write f a p d) a p = Some d.
Proof.
  unfold fs_write, fs_read. destruct (go_common p) eqn:Hp; cbn [fs_common fs_priv]; rewrite ?Hp.
  - rewrite fget_fput, beqb_refl. reflexivity.
  - rewrite pget_pput, N.eqb_refl, fget_fput, beqb_refl. reflexivity.
Qed.

Lemma lock_noslash : forallb (fun c => negb (c =? SL)) (s ".lock"%string) = true.
Proof. reflexivity. Qed.

Lemma last_in_skipn : forall (l : list N) k, (k < List.length l)%nat -> In (last l 0) (skipn k l).
Proof.
  intros l k H. assert (Hne : l <> []) by (destruct l; [cbn in H; lia | discriminate]).
  pose proof (app_removelast_last 0 Hne) as E.
  assert (Hlen : List.length l = S (List.length (removelast l)))
    by (rewrite E at 1; rewrite app_length; cbn; lia).
  rewrite E at 2. rewrite skipn_app. apply in_or_app. right.
  replace (k - List.length (removelast l))%nat with 0%nat by lia. now left.
Qed.

(* stripping a .lock suffix never reaches into a prefix that ends with '/':
   otherwise that '/' would be one of the five bytes of ".lock" *)
Lemma strip_lock_prefix pre rest :
  last pre 0 = SL ->
  exists rest', strip_lock (pre ++ rest) = pre ++ rest'.
Proof.
  intros Hl. unfold strip_lock. rewrite app_length.
  set (n := (List.length pre + List.length rest)%nat).
  destruct (Nat.ltb 5 n && beqb (skipn (n - 5) (pre ++ rest)) (s ".lock"%string)) eqn:E; [|now exists rest].
  apply andb_true_iff in E as [_ E]. apply beqb_eq in E.
  destruct (le_lt_dec (List.length pre) (n - 5)) as [H|H].
  - exists (firstn (n - 5 - List.length pre) rest). now rewrite firstn_app, firstn_all2.
  - exfalso. rewrite skipn_app in E.
    pose proof (proj1 (forallb_forall _ _) lock_noslash SL) as Hno. rewrite <- E, N.eqb_refl in Hno.
    discriminate Hno. apply in_or_app. left. rewrite <- Hl. now apply last_in_skipn.
Qed.

(* below a directory prefix git's verdict is that of the path with the same
   prefix and the .lock ending removed; for the prefixes of common_list the
   table lookup then computes, whatever follows *)
Lemma git_common_below pre c :
  last pre 0 = SL ->
  (forall rest, match best (pre ++ rest) with Some (_, c', _) => c' | None => false end = c) ->
  forall rest, git_common (pre ++ rest) = c.
Proof.
  intros Hl Hc rest. destruct (strip_lock_prefix pre rest Hl) as [rest' E].
  unfold git_common. rewrite E. apply Hc.
Qed.

Lemma parse_gitdir_prefix rest :
  (1 <= List.length rest)%nat ->
  exists p, parse_dotgit (s "gitdir: "%string ++ rest) = Some p.
Proof.
  intros H. unfold parse_dotgit.
  set (data := firstn 1024 (s "gitdir: "%string ++ rest)).
  assert (L : (9 <= List.length data)%nat).
  { unfold data. rewrite firstn_length, app_length.
    assert (E8 : List.length (s "gitdir: "%string) = 8%nat) by reflexivity. rewrite E8.
    apply Nat.min_glb; lia. }
  destruct (Nat.ltb (List.length data) 9) eqn:E; [apply Nat.ltb_lt in E; lia|].
  assert (F : firstn 6 data = s "gitdir"%string).
  { unfold data. destruct rest as [|r0 rest]; [cbn in H; lia|]. reflexivity. }
  rewrite F. cbn [beqb]. eexists. reflexivity.
Qed.
