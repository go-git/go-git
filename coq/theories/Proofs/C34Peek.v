(* Proofs/C34Peek.v — PeekLine sees what ReadLine would read, for any chunking,
   when the bufio buffer can hold the packet. *)
From Coq Require Import List NArith ZArith Bool Lia Arith.
From GoGit Require Import Base.Out Base.GoInt Gen.C34 Model.PktLine Proofs.C34Stream Proofs.C34Hex Proofs.C34Pkt.
Import ListNotations.

Arguments MaxSizeN : simpl never.
Opaque MaxSizeN.

Lemma peek_ok bufsize r n : (n <= bufsize)%nat -> (n <= List.length (concat r))%nat ->
  peek bufsize r n = (Some (firstn n (concat r)), None).
Proof.
  intros Hb Hl. unfold peek. destruct (Nat.ltb_spec bufsize n); [lia|].
  pose proof (take_fst r n) as Hf. destruct (take r n) as [x r']. cbn [fst] in Hf. subst x.
  rewrite firstn_length, Nat.min_l by lia. now rewrite Nat.ltb_irrefl.
Qed.

Lemma peek_line_frame bufsize r h n pl rest :
  List.length h = 4%nat -> parse_length h = Some n -> List.length pl = Z.to_nat (n - 4) ->
  concat r = h ++ pl ++ rest -> (4 + List.length pl <= bufsize)%nat ->
  peek_line bufsize r = rd_frame MaxSizeN n pl.
Proof.
  intros Hh Hp Hl Hr Hb. pose proof (parse_length_range _ _ Hp) as [Hn H3].
  assert (List.length (concat r) = (4 + List.length pl + List.length rest)%nat) as Hlen.
  { rewrite Hr, !app_length. lia. }
  unfold peek_line, rd_frame. rewrite LenSizeN_eq, peek_ok by lia.
  rewrite Hr, firstn_app_exact, Hp by assumption.
  destruct (Z.leb_spec n 4).
  - destruct (Z.eqb_spec n pktline_LenSize); [now destruct (_ || _)|].
    replace (_ || _) with true; [reflexivity|].
    unfold pktline_Flush, pktline_Delim, pktline_ResponseEnd, pktline_LenSize in *. lia.
  - destruct (len_data n) as [-> ->]; [assumption|].
    rewrite peek_ok, Hr by lia. replace (Z.to_nat n) with (List.length (h ++ pl)) by (rewrite app_length; lia).
    rewrite app_assoc, firstn_app_exact, skipn_app_exact by (reflexivity || assumption).
    destruct (Z.gtb_spec n (Z.of_nat MaxSizeN)); [rewrite MaxSizeN_Z in *; unfold pktline_MaxSize in *; lia|reflexivity].
Qed.

Theorem peek_line_enc bufsize r p e rest :
  enc_pkt p = Some e -> concat r = e ++ rest -> (List.length e <= bufsize)%nat ->
  peek_line bufsize r = rd_of_pkt MaxSizeN p.
Proof.
  intros (h & n & pl & -> & Hh & Hp & Hl & ->)%enc_pkt_frame Hr Hb.
  rewrite <- app_assoc in Hr. rewrite app_length in Hb. apply peek_line_frame with h rest; auto. lia.
Qed.
