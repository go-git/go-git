(* Proofs/C51Bytes.v — reading fixed-width records out of a byte string laid out as
   prefix ++ payload ++ rest, and the position at which hash_to_index finds an id of a list
   (used by the commit-graph read-back theorems). *)
From Coq Require Import List NArith ZArith Bool Lia ZifyBool ZifyN ZifyNat.
From GoGit Require Import Base.Out Gen.C51 Model.CommitGraph Proofs.C51 Proofs.C51Reader.
Import ListNotations.
Local Open Scope N_scope.

Lemma concat_split : forall (recs : list bytes) i, (i < List.length recs)%nat ->
  List.concat recs = List.concat (firstn i recs) ++ nth i recs [] ++ List.concat (skipn (S i) recs).
Proof.
  induction recs as [|r rs IH]; intros i H; [simpl in H; lia|].
  destruct i as [|i]; [reflexivity|]. cbn [firstn skipn nth List.concat]. rewrite <- app_assoc. f_equal.
  apply IH. simpl in H. lia.
Qed.

Lemma concat_firstn_length : forall (recs : list bytes) w i,
  (forall r, In r recs -> List.length r = w) -> (i <= List.length recs)%nat ->
  List.length (List.concat (firstn i recs)) = (w * i)%nat.
Proof.
  induction recs as [|r rs IH]; intros w i Hw Hi.
  - simpl in Hi. assert (i = O) by lia. subst i. simpl. lia.
  - destruct i as [|i]; [simpl; lia|]. cbn [firstn List.concat]. rewrite app_length, (Hw r (or_introl eq_refl)).
    rewrite (IH w i); [lia | intros r0 Hr0; apply Hw; now right | simpl in Hi; lia].
Qed.

Lemma slice_record : forall (pre rest : bytes) (recs : list bytes) w i off,
  (forall r, In r recs -> List.length r = w) -> (i < List.length recs)%nat ->
  off = (Z.of_nat (List.length pre) + Z.of_nat (w * i))%Z ->
  slice (pre ++ List.concat recs ++ rest) off w = Some (nth i recs []).
Proof.
  intros pre rest recs w i off Hw Hi ->.
  apply (slice_at _ (pre ++ List.concat (firstn i recs)) (nth i recs []) (List.concat (skipn (S i) recs) ++ rest)).
  - rewrite (concat_split recs i Hi) at 1. now rewrite <- !app_assoc.
  - rewrite app_length, (concat_firstn_length recs w i Hw) by lia. lia.
  - symmetry. apply Hw. apply nth_In. exact Hi.
Qed.

Lemma flat_map_concat : forall (A : Type) (f : A -> bytes) l, flat_map f l = List.concat (map f l).
Proof. intros A f l. induction l as [|x r IH]; [reflexivity|]. simpl. now rewrite IH. Qed.

Lemma record_read : forall (file pre rest tree : bytes) p1 p2 t off,
  file = pre ++ (tree ++ be32 p1 ++ be32 p2 ++ be64 t) ++ rest ->
  off = Z.of_nat (List.length pre) -> List.length tree = 20%nat ->
  p1 < two32 -> p2 < two32 -> t < two64 ->
  slice file off 20 = Some tree /\ rd file (off + 20) 4 = Ok p1 /\
  rd file (off + 24) 4 = Ok p2 /\ rd file (off + 28) 8 = Ok t.
Proof.
  intros file pre rest tree p1 p2 t off Hf Ho Ht H1 H2 H3.
  repeat split.
  - eapply (slice_at _ pre tree); [rewrite Hf; now rewrite <- !app_assoc | exact Ho | now rewrite Ht].
  - eapply (rd32_at _ (pre ++ tree)); [rewrite Hf; now rewrite <- !app_assoc | | exact H1].
    rewrite app_length, Ht. lia.
  - eapply (rd32_at _ (pre ++ tree ++ be32 p1)); [rewrite Hf; now rewrite <- !app_assoc | | exact H2].
    rewrite !app_length, Ht, be32_length. lia.
  - eapply (rd64_at _ (pre ++ tree ++ be32 p1 ++ be32 p2)); [rewrite Hf; now rewrite <- !app_assoc | | exact H3].
    rewrite !app_length, Ht, !be32_length. lia.
Qed.

Lemma index_of_hash_in : forall h l i0, In h l ->
  exists k, index_of_hash h l i0 = Some (i0 + N.of_nat k) /\ (k < List.length l)%nat /\ nth k l [] = h.
Proof.
  intros h l. induction l as [|x r IH]; intros i0 Hin; [contradiction|].
  cbn [index_of_hash]. destruct (bytes_eqb h x) eqn:E.
  - apply bytes_eqb_eq in E. subst x. exists O. split; [f_equal; lia|]. split; [simpl; lia | reflexivity].
  - destruct Hin as [Hin|Hin]; [subst x; rewrite bytes_eqb_refl in E; discriminate|].
    destruct (IH (i0 + 1) Hin) as [k [A [B C]]]. exists (S k). split; [rewrite A; f_equal; lia|].
    split; [simpl; lia | exact C].
Qed.

Lemma hash_to_index_in : forall h l, In h l ->
  exists k, hash_to_index l h = N.of_nat k /\ (k < List.length l)%nat /\ nth k l [] = h.
Proof.
  intros h l Hin. destruct (index_of_hash_in h l 0 Hin) as [k [A [B C]]]. exists k.
  unfold hash_to_index. rewrite A. split; [lia|]. split; assumption.
Qed.

Lemma index_of_hash_nth : forall l i i0, NoDup l -> (i < List.length l)%nat ->
  index_of_hash (nth i l []) l i0 = Some (i0 + N.of_nat i).
Proof.
  induction l as [|x r IH]; intros i i0 Hnd Hi; [simpl in Hi; lia|].
  inversion Hnd as [|? ? Hn Hr]; subst. destruct i as [|i].
  - cbn [nth index_of_hash]. rewrite bytes_eqb_refl. f_equal. lia.
  - cbn [nth index_of_hash].
    rewrite bytes_eqb_neq by (intros E; apply Hn; rewrite <- E; apply nth_In; simpl in Hi; lia).
    rewrite IH by (auto; simpl in Hi; lia). f_equal. lia.
Qed.
