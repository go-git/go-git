(* Proofs/C49Frag.v — the fragment of pattern lines on which go-git and git
   agree pattern by pattern (coherence), and the resulting theorems: the
   fragment with its guard, without negation, and plain name patterns. *)
From Coq Require Import List NArith Bool Lia PeanoNat.
From GoGit Require Import Base.Out Model.Gitignore Spec.Glob Spec.PathGlob Spec.GitIgnore
     Proofs.C49Total Proofs.C49Wild Proofs.C49Path Proofs.C49Names Proofs.C49Walk Proofs.C49Segs
     Proofs.C49GoGlob Proofs.C49Lines Proofs.C49Trim Proofs.C49Slash Proofs.C49Wide.
Import ListNotations.
Local Open Scope N_scope.

Definition den_seg (s : bytes) : option pseg :=
  if beq s dstar then Some SDirs
  else if is_nil s then None
  else match glob_of s with Some g => Some (SReg g) | None => None end.

Fixpoint den_segs (l : list bytes) : option (list pseg) :=
  match l with
  | [] => Some []
  | s :: r => match den_seg s, den_segs r with
              | Some x, Some F => Some (x :: F)
              | _, _ => None
              end
  end.

Definition strip_lead (b : bytes) : bytes :=
  match b with c :: r => if c =? cSLASH then r else b | [] => [] end.

(* body of a pattern with a leading or inner slash: every segment
   a non-empty glob of Spec/Glob or "**"; no "**" inside a segment, no escaped
   slash, no "**" at the end (pglob_of); plain segments, then groups of "**"s
   followed by exactly one plain segment (shape) *)
Definition slash_body (b : bytes) : bool :=
  has_slash b &&
  match den_segs (split_slash (strip_lead b) []) with
  | Some F => shape GR F && is_some (pglob_of (strip_lead b))
  | None => false
  end.

Lemma den_segs_F2 : forall l F, den_segs l = Some F -> Forall2 seg_den l F.
Proof.
  induction l as [|s r IH]; intros F H; cbn in H.
  - inversion H. constructor.
  - destruct (den_seg s) as [x|] eqn:Es; [|discriminate].
    destruct (den_segs r) as [F'|]; [|discriminate]. inversion H; subst.
    constructor; [|now apply IH].
    unfold den_seg in Es. destruct (beq s dstar) eqn:Eb.
    + inversion Es; subst. left. split; [reflexivity|]. now apply beq_eq.
    + destruct (is_nil s) eqn:En; [discriminate|].
      destruct (glob_of s) as [g|] eqn:Eg; [|discriminate]. inversion Es; subst.
      right. exists g. repeat split; assumption.
Qed.

Lemma glob_loop_lead b do d rel :
  glob_loop (split_slash b []) do d rel false false =
  glob_loop (split_slash (strip_lead b) []) do d rel false false.
Proof.
  destruct b as [|c r]; [reflexivity|]. unfold strip_lead.
  destruct (c =? cSLASH) eqn:E; [|reflexivity].
  cbn [split_slash]. rewrite E. cbn [rev glob_loop is_nil]. reflexivity.
Qed.

Lemma slash_coh l dir :
  nospace l -> is_bang l = false -> slash_body (body_of_line l) = true ->
  coh ok_path (parse_pattern l dir) (gparse l dir) /\ p_dom (parse_pattern l dir) = dir.
Proof.
  intros Hns Hb Hsb. rewrite (parse_plain l dir Hns Hb), (gparse_plain l dir Hb).
  split; [|reflexivity]. set (g := mkG _ _ _ _ _ _ _).
  set (b := body_of_line l) in *. set (pattern := strip_lead b) in *.
  unfold slash_body in Hsb. fold pattern in Hsb.
  apply andb_true_iff in Hsb. destruct Hsb as [Hsl H3].
  destruct (den_segs (split_slash pattern [])) as [F|] eqn:EF; [|discriminate].
  apply andb_true_iff in H3. destruct H3 as [Hshape Hpg].
  destruct (pglob_of pattern) as [gp|] eqn:Egp; [|discriminate].
  pose proof (den_segs_F2 _ _ EF) as HF2.
  destruct (split_slash_join pattern []) as (Hjoin & Hsegs & Hsne). cbn [rev app] in Hjoin.
  assert (Hall : forall s, In s (split_slash pattern []) -> has_slash s = false)
    by (intros s Hs; now apply Hsegs).
  unfold pglob_of in Egp. rewrite <- Hjoin in Egp at 2.
  destruct (pparse_join _ _ HF2 Hsne Hall _ _ Egp) as [Hgp Hwf].
  assert (HFne : F <> []) by (destruct F; [discriminate|discriminate]).
  split; [reflexivity|]. split; [reflexivity|].
  intros rel d Hne Hok. cbn [p_dom].
  (* go-git: globMatch accepts rel exactly when F matches a leading part of it *)
  rewrite (pat_match_dom (mkPat dir (split_slash b []) false (ends_slash l) (has_slash b)) rel d Hne).
  cbn [p_isglob]. rewrite Hsl at 1. unfold glob_match. cbn [p_segs p_dironly].
  rewrite glob_loop_lead. fold pattern.
  rewrite (proj2 (proj2 (glob_loop_spec (ends_slash l) d F)) Hshape HFne _ rel false HF2).
  (* git: match_pathname on a prefix of rel decides the path glob, which is F
     matched component by component against that prefix *)
  assert (Hgit : forall k, (0 < k <= List.length rel)%nat -> forall flag,
            gpat_match g (dir ++ firstn k rel) flag = true <->
            negb (ends_slash l && negb flag) = true /\ SMatch F (firstn k rel)).
  { intros k Hk flag. unfold gpat_match, g. cbn [g_mustdir g_nodir]. rewrite Hsl. cbn [negb].
    assert (Hfk : firstn k rel <> []).
    { destruct rel; [congruence|]. destruct k; [lia|discriminate]. }
    rewrite match_pathname_core; [|reflexivity|exact Hfk|cbn [g_nowild g_pat]; apply nowild_body].
    cbn [g_pat]. change (match b with c :: r => if c =? cSLASH then r else b | [] => [] end) with pattern.
    assert (Hpg' : pglob_of pattern = Some gp) by (unfold pglob_of; rewrite <- Hjoin at 2; exact Egp).
    rewrite <- (flatten_match F (firstn k rel) Hwf (path_ok_firstn _ _ Hok) Hfk), <- Hgp.
    rewrite <- (mp_core_spec pattern _ gp Hpg').
    destruct (ends_slash l && negb flag); cbn [negb]; split; try tauto; try discriminate. }
  split.
  - intros (pr & suf & -> & Hm & Hfin).
    pose proof (SMatch_nonempty _ _ Hm) as Hprne.
    exists (List.length pr). rewrite app_length.
    assert (Hk : (0 < List.length pr <= List.length pr + List.length suf)%nat).
    { destruct pr; [congruence|cbn; lia]. }
    split; [exact Hk|]. rewrite <- app_length. apply Hgit; [rewrite app_length; exact Hk|].
    rewrite firstn_app, firstn_all, Nat.sub_diag. cbn [firstn]. rewrite app_nil_r.
    split; [|exact Hm]. unfold dirflag. rewrite app_length.
    destruct (Nat.eqb (List.length pr) (List.length pr + List.length suf)) eqn:E.
    + apply Nat.eqb_eq in E. apply Hfin. destruct suf; [reflexivity|cbn in E; lia].
    + cbn. now rewrite andb_false_r.
  - intros (k & Hk & Hm). apply (Hgit k Hk) in Hm. destruct Hm as [Hflag Hm].
    exists (firstn k rel), (skipn k rel). split; [symmetry; apply firstn_skipn|]. split; [exact Hm|].
    intros Hsuf. unfold dirflag in Hflag.
    assert (k = List.length rel).
    { assert (List.length (skipn k rel) = O) by now rewrite Hsuf. rewrite skipn_length in H. lia. }
    subst k. rewrite Nat.eqb_refl in Hflag. exact Hflag.
Qed.

(* an optional "!", then a body that is not empty and does not begin with "!":
   a slash-free glob of Spec/Glob (a name pattern), or a slash pattern as
   above; an optional trailing slash (directories only) *)
Definition wide_line (l : bytes) : bool :=
  let l0 := strip_bang l in
  let b := body_of_line l0 in
  negb (is_bang l0) && negb (is_nil b) &&
  ((negb (has_slash b) && is_some (glob_of b)) || slash_body b).

Lemma nobang_line_coh l dir : nospace l -> is_bang l = false ->
  ((negb (has_slash (body_of_line l)) && is_some (glob_of (body_of_line l))) || slash_body (body_of_line l)) = true ->
  coh ok_path (parse_pattern l dir) (gparse l dir) /\ p_dom (parse_pattern l dir) = dir.
Proof.
  intros Hns Hb H. apply orb_true_iff in H. destruct H as [H|H].
  - apply andb_true_iff in H. destruct H as [H1 H2]. apply negb_true_iff in H1.
    destruct (glob_of (body_of_line l)) as [g|] eqn:Eg; [|discriminate].
    eapply name_line_coh; eassumption.
  - now apply slash_coh.
Qed.

Lemma wide_line_coh l dir : nospace l -> wide_line l = true -> l <> [] -> is_comment l = false ->
  coh ok_path (parse_pattern l dir) (gparse l dir) /\ p_dom (parse_pattern l dir) = dir.
Proof.
  intros Hns Hw _ _. unfold wide_line in Hw. rewrite !andb_true_iff, !negb_true_iff in Hw.
  destruct Hw as [[Hb _] Hbody].
  destruct (nobang_line_coh (strip_bang l) dir) as [Hc Hd]; try assumption.
  { intros x Hx. apply Hns. now apply strip_bang_incl. }
  rewrite (parse_strip l dir Hb), (gparse_strip l dir Hb). split; [now apply coh_bang|exact Hd].
Qed.

Definition wide_case : option bytes -> files -> bool := wide_casew wide_line.

Theorem wide_eq_git excl fs path isdir :
  wide_case excl fs = true -> path_ok path = true ->
  no_reincluded_ancestor excl fs path = true ->
  ignored excl fs path isdir = git_ignored excl fs path isdir.
Proof. exact (wide_eq_gitw wide_line ok_path path_ok_seg wide_line_coh excl fs path isdir). Qed.

(* without negation the guard on the path's ancestors is void *)
Definition positive_content (c : bytes) : bool := forallb (fun l => negb (is_bang l)) (split_lf c []).
Definition positive_case (excl : option bytes) (fs : files) : bool :=
  match excl with Some c => positive_content c | None => true end &&
  forallb (fun f => positive_content (snd f)) fs.

Lemma read_ignore_positive okline c dir : content_okw okline c = true -> positive_content c = true ->
  forall p, In p (read_ignore c dir) -> p_incl p = false.
Proof.
  intros Hc Hpos p Hp. destruct (content_linesw okline _ Hc) as (E0 & E1 & _ & _).
  unfold read_ignore in Hp. rewrite E1, E0 in Hp.
  apply in_map_iff in Hp. destruct Hp as (l & <- & Hl). apply filter_In in Hl. destruct Hl as [Hl _].
  unfold positive_content in Hpos. rewrite forallb_forall in Hpos.
  rewrite parse_incl. apply negb_true_iff. now apply Hpos.
Qed.

Lemma decision_positive ps path d : (forall p, In p ps -> p_incl p = false) -> decision ps path d <> Include.
Proof.
  intros H. unfold decision.
  assert (H' : forall p, In p (rev ps) -> p_incl p = false) by (intros p Hp; apply H; now apply in_rev).
  induction (rev ps) as [|p r IH]; cbn [mres_rev]; [discriminate|].
  destruct (pat_match_res p path d) as [E|E]; rewrite E.
  - apply IH. intros q Hq. apply H'. now right.
  - rewrite (H' p (or_introl eq_refl)). discriminate.
Qed.

Lemma anc_ok_positive fs : (forall pre p, In p (go_file fs pre) -> p_incl p = false) ->
  forall rest pre ps, (forall p, In p ps -> p_incl p = false) -> anc_ok fs ps pre rest = true.
Proof.
  intros Hf. induction rest as [|e rest IH]; intros pre ps Hps; [reflexivity|].
  cbn [anc_ok]. destruct rest as [|e2 r]; [reflexivity|].
  assert (Hps' : forall p, In p (ps ++ go_file fs pre) -> p_incl p = false).
  { intros p Hp. apply in_app_or in Hp. destruct Hp; [now apply Hps|eapply Hf; eassumption]. }
  pose proof (decision_positive _ (pre ++ [e]) true Hps') as Hd.
  destruct (decision (ps ++ go_file fs pre) (pre ++ [e]) true); [|reflexivity|congruence].
  now apply IH.
Qed.

Lemma positive_no_reincluded okline excl fs path :
  wide_casew okline excl fs = true -> positive_case excl fs = true ->
  no_reincluded_ancestor excl fs path = true.
Proof.
  intros Hw Hp. destruct (wide_casew_ok okline _ _ Hw) as [Hfok Hex].
  unfold positive_case in Hp. apply andb_true_iff in Hp. destruct Hp as [Hpe Hpf].
  apply anc_ok_positive.
  - intros pre p Hin. unfold go_file in Hin. destruct (file_at fs pre) as [c|] eqn:E; [|destruct Hin].
    eapply read_ignore_positive; [eapply Hfok; eassumption| |exact Hin].
    exact (forallb_file_at _ _ Hpf _ _ E).
  - intros p Hin. unfold excl_pats in Hin. destruct excl as [c|]; [|destruct Hin].
    eapply read_ignore_positive; [now apply Hex|exact Hpe|exact Hin].
Qed.

Theorem positive_eq_git excl fs path isdir :
  wide_case excl fs = true -> positive_case excl fs = true -> path_ok path = true ->
  ignored excl fs path isdir = git_ignored excl fs path isdir.
Proof.
  intros Hw Hp Hok. apply wide_eq_git; try assumption. now apply positive_no_reincluded with wide_line.
Qed.

(* Ignore files of plain name patterns are inside the fragment and hold no
   negation; name patterns are coherent on every path, so no condition on the
   path remains. *)
Lemma content_ok_wide c : content_ok c = true ->
  content_okw name_line c = true /\ positive_content c = true.
Proof.
  unfold content_ok, content_okw, positive_content. rewrite !andb_true_iff, !forallb_forall.
  intros [[Hsp Hbom] Hnl].
  assert (Hline : forall l, In l (split_lf c []) -> forall x, In x l -> is_space x = false).
  { intros l Hl x Hx. destruct (split_lf_chars _ _ _ Hl _ Hx) as [[]|[A B]].
    specialize (Hsp _ A). rewrite B in Hsp. now apply negb_true_iff in Hsp. }
  repeat split.
  - intros x Hx. specialize (Hsp _ Hx). destruct (x =? cLF) eqn:E; [apply N.eqb_eq in E; now subst|].
    apply negb_true_iff in Hsp. unfold is_space in Hsp. rewrite !orb_false_iff in Hsp.
    apply negb_true_iff. unfold cCR. tauto.
  - exact Hbom.
  - intros l Hl. rewrite (Hnl l Hl), andb_true_r. destruct l as [|b r]; [reflexivity|].
    apply orb_true_iff. right. apply forallb_forall. intros x Hx. now rewrite (Hline _ Hl x Hx).
  - intros l Hl. specialize (Hnl l Hl). destruct l as [|b r]; [reflexivity|]. cbn in Hnl |- *.
    destruct (b =? cHASH) eqn:E; [apply N.eqb_eq in E; now subst|]. now destruct (b =? cBANG).
Qed.

Lemma names_case_wide excl fs : names_case excl fs = true ->
  wide_casew name_line excl fs = true /\ positive_case excl fs = true.
Proof.
  unfold names_case, wide_casew, positive_case. rewrite !andb_true_iff, !forallb_forall. intros [He Hf].
  split; (split; [destruct excl; [now apply content_ok_wide|reflexivity]|intros x Hx; now apply content_ok_wide, Hf]).
Qed.

Theorem names_eq_git excl fs path isdir :
  names_case excl fs = true -> ignored excl fs path isdir = git_ignored excl fs path isdir.
Proof.
  intros Hn. destruct (names_case_wide _ _ Hn) as [Hw Hp].
  apply (wide_eq_gitw name_line (fun _ => True)); auto; [|now apply positive_no_reincluded with name_line].
  intros l dir Hns Hnl Hne Hc. destruct l as [|b r]; [congruence|].
  unfold name_line in Hnl. cbn in Hc. rewrite Hc in Hnl. cbn [orb] in Hnl.
  rewrite !andb_true_iff, !negb_true_iff in Hnl. destruct Hnl as [[Hb Hs] Hg].
  destruct (glob_of (body_of_line (b :: r))) as [g|] eqn:Eg; [|discriminate].
  eapply name_line_coh; eassumption.
Qed.

(* correspondence entry point: the guards of the theorems on a case *)
From Coq Require Import String.
Definition c49_guard (excl : option String.string)
           (fs : list (list String.string * String.string))
           (qs : list (list String.string * bool)) : out :=
  let fs' := map (fun f => (map unhex (fst f), unhex (snd f))) fs in
  let ex := match excl with Some e => Some (unhex e) | None => None end in
  OList (OBool (wide_case ex fs') :: OBool (positive_case ex fs') ::
         map (fun q => let p := map unhex (fst q) in OBool (path_ok p && no_reincluded_ancestor ex fs' p)) qs).
