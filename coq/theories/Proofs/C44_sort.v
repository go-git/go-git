(* Proofs/C44_sort.v — frame.New's sorting: on trees whose directories have pairwise distinct
   names, sort_tree yields a strictly name-sorted tree with the same flattening (as a set). *)
From Coq Require Import List NArith Bool Arith Lia.
From GoGit Require Import Base.Out Model.DiffTree Spec.MapDiff Proofs.C44_order Proofs.C44_diff.
Import ListNotations.

Lemma in_insert_child c l e : In e (insert_child c l) <-> e = c \/ In e l.
Proof.
  induction l as [|d r IH]; cbn.
  - split; [intros [H|[]]; auto | intros [H|[]]; auto].
  - destruct (bytes_ltb (fst d) (fst c)); cbn; rewrite ?IH; split; intros H; intuition.
Qed.

Lemma in_sort_children l e : In e (sort_children l) <-> In e l.
Proof.
  induction l as [|c l IH]; cbn; [reflexivity|].
  rewrite in_insert_child, IH. split; intros [H|H]; auto.
Qed.

Lemma names_sort_children l n : In n (map fst (sort_children l)) <-> In n (map fst l).
Proof.
  rewrite !in_map_iff. split; intros (e & He & Hi); exists e; split; auto; now apply in_sort_children.
Qed.

Lemma insert_wft c l :
  wfn (snd c) -> wft l -> ~ In (fst c) (map fst l) -> wft (insert_child c l).
Proof.
  intros Hc Hl. induction Hl as [|n x r Hx Hr IH Hlt]; intros Hn.
  - cbn. destruct c as [cn cx]. constructor; [exact Hc | constructor | intros m []].
  - cbn [insert_child fst]. destruct (bytes_ltb n (fst c)) eqn:Hlt1.
    + constructor; auto.
      * apply IH. intros Hi. apply Hn. cbn. now right.
      * intros m Hm. apply in_map_iff in Hm as (e & <- & He). apply in_insert_child in He as [->|He]; [exact Hlt1|].
        apply Hlt. apply in_map_iff. eauto.
    + destruct c as [cn cx]. cbn [fst snd] in *.
      assert (Hcn : bytes_ltb cn n = true).
      { apply bytes_ltb_total; [exact Hlt1|]. intros ->. apply Hn. now left. }
      constructor; [exact Hc | constructor; auto |].
      intros m [<-|Hm]; [exact Hcn|]. eapply bytes_ltb_trans; [exact Hcn|]. now apply Hlt.
Qed.

Lemma nodupb_cons x r : nodupb (x :: r) = true -> ~ In x r /\ nodupb r = true.
Proof.
  cbn. intros H. apply andb_true_iff in H as [H1 H2]. split; [|exact H2].
  intros Hi. apply negb_true_iff in H1. assert (existsb (bytes_eqb x) r = true).
  { apply existsb_exists. exists x. split; [exact Hi|apply bytes_eqb_refl]. }
  congruence.
Qed.

Lemma sort_children_wft l :
  Forall (fun c => wfn (snd c)) l -> nodupb (map fst l) = true -> wft (sort_children l).
Proof.
  induction l as [|c l IH]; intros Hf Hn; [constructor|].
  inversion Hf; subst. cbn [map] in Hn. apply nodupb_cons in Hn as [Hni Hn].
  cbn [sort_children fold_right]. apply insert_wft; [exact H1 | now apply IH |].
  intros Hi. apply Hni. now apply (proj1 (names_sort_children l _)) in Hi.
Qed.

(* membership in a flattening only depends on the set of children *)
Lemma in_files_l t p l :
  In (p, l) (files_l t) <-> exists n x q, In (n, x) t /\ p = n :: q /\ In (q, l) (files x).
Proof.
  induction t as [|[n x] t IH].
  - cbn. split; [intros []|]. intros (n & x & q & [] & _).
  - rewrite files_l_cons, in_app_iff, in_pren, IH. split.
    + intros [(q & -> & Hi)|(m & y & q & Hi & -> & Hq)].
      * exists n, x, q. cbn. auto.
      * exists m, y, q. cbn. auto.
    + intros (m & y & q & [He|Hi] & -> & Hq).
      * inversion He; subst. left. eauto.
      * right. exists m, y, q. auto.
Qed.

Lemma node_ok_dir_eq cs :
  node_ok (Dir cs) = nodupb (map fst cs) && forallb (fun c => node_ok (snd c)) cs.
Proof. reflexivity. Qed.

Lemma node_ok_dir cs :
  node_ok (Dir cs) = true <-> nodupb (map fst cs) = true /\ Forall (fun c => node_ok (snd c) = true) cs.
Proof. now rewrite node_ok_dir_eq, andb_true_iff, forallb_forall, Forall_forall. Qed.

Lemma sort_node_dir cs :
  sort_node (Dir cs) = Dir (sort_children (map (fun c => (fst c, sort_node (snd c))) cs)).
Proof. reflexivity. Qed.

Lemma sort_node_ok x :
  node_ok x = true -> wfn (sort_node x) /\ forall p l, In (p, l) (files (sort_node x)) <-> In (p, l) (files x).
Proof.
  induction x as [l|cs IH] using node_ind'; intros Hok.
  - split; [constructor|reflexivity].
  - apply node_ok_dir in Hok as [Hnd Hall]. rewrite sort_node_dir.
    set (f := fun c : name * node => (fst c, sort_node (snd c))).
    assert (Hboth : Forall (fun c => wfn (sort_node (snd c)) /\
                                     forall p l, In (p, l) (files (sort_node (snd c))) <-> In (p, l) (files (snd c))) cs).
    { rewrite Forall_forall in *. intros c Hc. apply IH; auto. }
    split.
    + constructor. apply sort_children_wft.
      * rewrite Forall_forall in *. intros c Hc. apply in_map_iff in Hc as (c0 & <- & Hc0). cbn.
        now apply Hboth.
      * rewrite map_map. cbn. exact Hnd.
    + intros p l. rewrite !files_dir, !in_files_l. rewrite Forall_forall in Hboth. split.
      * intros (n & x & q & Hi & -> & Hq). apply (proj1 (in_sort_children _ _)) in Hi. apply in_map_iff in Hi as (c0 & He & Hc0).
        unfold f in He. inversion He; subst. exists (fst c0), (snd c0), q. repeat split; auto.
        -- now destruct c0.
        -- now apply (Hboth c0 Hc0).
      * intros (n & x & q & Hi & -> & Hq). exists n, (sort_node x), q. repeat split; auto.
        -- apply in_sort_children. apply in_map_iff. exists (n, x). auto.
        -- now apply (Hboth (n, x) Hi).
Qed.

Lemma sort_tree_ok t :
  tree_ok t = true -> wft (sort_tree t) /\ forall p l, In (p, l) (files_l (sort_tree t)) <-> In (p, l) (files_l t).
Proof.
  intros Hok. destruct (sort_node_ok (Dir t) Hok) as [Hw Hf].
  rewrite sort_node_dir in Hw, Hf. fold (sort_tree t) in Hw, Hf.
  split; [now inversion Hw|]. intros p l. specialize (Hf p l). now rewrite !files_dir in Hf.
Qed.
