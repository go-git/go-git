(* Proofs/C15a.v — values of the reference store: hex and text round trips
   (what is written to a loose file or a packed-refs line reads back as the
   same value). *)
From Coq Require Import List Arith NArith Bool String Lia ZifyBool.
From GoGit Require Import Base.Out Model.RefStrings Model.RefName Model.RefGuard Model.RefStore Gen.C14 Proofs.C13.
Import ListNotations.
Local Open Scope N_scope.

Lemma symrefPrefix_val : symrefPrefix = [114;101;102;58;32].
Proof. reflexivity. Qed.

Definition hexchar (c : N) : bool := ((48 <=? c) && (c <=? 57)) || ((97 <=? c) && (c <=? 102)).

Lemma hexv_hexc n : n < 16 -> hexv (hexc n) = Some n.
Proof.
  intros H. unfold hexv, hexc.
  destruct (n <? 10) eqn:E.
  - replace ((48 <=? 48 + n) && (48 + n <=? 57)) with true by lia. f_equal. lia.
  - replace ((48 <=? 87 + n) && (87 + n <=? 57)) with false by lia.
    replace ((97 <=? 87 + n) && (87 + n <=? 102)) with true by lia. f_equal. lia.
Qed.

Lemma hexchar_hexc n : n < 16 -> hexchar (hexc n) = true.
Proof. intros H. unfold hexchar, hexc. destruct (n <? 10) eqn:E; lia. Qed.

Definition bytes_ok (b : bytes) : bool := forallb (fun c => c <? 256) b.

Lemma decode_encode b : bytes_ok b = true -> decode_hex (encode_hex b) = Some b.
Proof.
  induction b as [|c b IH]; intros H; [reflexivity|].
  cbn [bytes_ok forallb] in H. apply andb_true_iff in H as [Hc H].
  cbn [encode_hex decode_hex].
  assert (H1 : c / 16 < 16) by (apply N.div_lt_upper_bound; lia).
  assert (H2 : c mod 16 < 16) by (apply N.mod_lt; lia).
  rewrite (hexv_hexc _ H1), (hexv_hexc _ H2), (IH H). f_equal. f_equal.
  rewrite (N.div_mod c 16) at 3 by lia. reflexivity.
Qed.

Lemma encode_len b : List.length (encode_hex b) = (2 * List.length b)%nat.
Proof. induction b as [|c b IH]; [reflexivity|]. cbn [encode_hex List.length]. lia. Qed.

Lemma encode_hexchars b : bytes_ok b = true -> forallb hexchar (encode_hex b) = true.
Proof.
  induction b as [|c b IH]; intros H; [reflexivity|].
  cbn [bytes_ok forallb] in H. apply andb_true_iff in H as [Hc H].
  cbn [encode_hex forallb].
  rewrite hexchar_hexc by (apply N.div_lt_upper_bound; lia).
  rewrite hexchar_hexc by (apply N.mod_lt; lia). cbn [andb]. auto.
Qed.

(* an ObjectID as NewHash produces it from 40 or 64 hex digits *)
Definition hash_okb (h : bytes) (f : bool) : bool :=
  Nat.eqb (List.length h) 32 && bytes_ok h && (f || beqb (skipn 20 h) (repeat 0 12)).

Definition val_okb (v : refval) : bool :=
  match v with
  | VHash h f => hash_okb h f
  | VSym t => negb (beqb t []) && negb (is_space (last t 0))
  end.

Lemma bytes_ok_firstn k b : bytes_ok b = true -> bytes_ok (firstn k b) = true.
Proof.
  intros H. rewrite <- (firstn_skipn k b) in H. unfold bytes_ok in *. rewrite forallb_app in H.
  now apply andb_true_iff in H.
Qed.

Lemma firstn_app_exact {A} (l r : list A) k : List.length l = k -> firstn k (l ++ r) = l.
Proof. intros <-. rewrite firstn_app, Nat.sub_diag, firstn_all. cbn. now rewrite app_nil_r. Qed.

Lemma hash_string_len h f : hash_okb h f = true ->
  List.length (hash_string h f) = if f then 64%nat else 40%nat.
Proof.
  unfold hash_okb, hash_string. intros H. apply andb_true_iff in H as [H _].
  apply andb_true_iff in H as [Hl _]. apply Nat.eqb_eq in Hl.
  rewrite encode_len, firstn_length, Hl. destruct f; reflexivity.
Qed.

Lemma new_hash_string h f : hash_okb h f = true -> new_hash (hash_string h f) = VHash h f.
Proof.
  intros H. pose proof (hash_string_len h f H) as HL.
  unfold hash_okb in H. apply andb_true_iff in H as [H Hz]. apply andb_true_iff in H as [Hl Hb].
  apply Nat.eqb_eq in Hl. unfold new_hash. rewrite HL. unfold hash_string.
  rewrite decode_encode by now apply bytes_ok_firstn.
  destruct f.
  - assert (E : firstn 32 h = h) by (rewrite <- Hl; apply firstn_all).
    rewrite E, firstn_app_exact by assumption. reflexivity.
  - cbn [orb] in Hz. apply beqb_eq in Hz.
    change (Nat.eqb 40 64) with false. f_equal.
    assert (E : firstn 20 h ++ zeros32 = h ++ repeat 0 20).
    { rewrite <- (firstn_skipn 20 h) at 2. rewrite Hz, <- app_assoc. reflexivity. }
    rewrite E. now apply firstn_app_exact.
Qed.

(* the hex text never looks like "ref: …", has no blanks and no '#' / '^' in front *)
Lemma hexchar_not c : hexchar c = true ->
  is_space c = false /\ (c =? 114) = false /\ (c =? 35) = false /\ (c =? 94) = false.
Proof. unfold hexchar, is_space. lia. Qed.

Lemma hash_string_hexchars h f : hash_okb h f = true -> forallb hexchar (hash_string h f) = true.
Proof.
  intros H. unfold hash_okb in H. apply andb_true_iff in H as [H _]. apply andb_true_iff in H as [_ H].
  apply encode_hexchars. now apply bytes_ok_firstn.
Qed.

Lemma hash_string_ne h f : hash_okb h f = true -> hash_string h f <> [].
Proof. intros H E. pose proof (hash_string_len h f H) as HL. rewrite E in HL. destruct f; discriminate. Qed.

Lemma ref_from_hash_string h f : hash_okb h f = true -> ref_from_strings (hash_string h f) = VHash h f.
Proof.
  intros H. unfold ref_from_strings. rewrite symrefPrefix_val.
  pose proof (hash_string_hexchars h f H) as Hx. pose proof (hash_string_ne h f H) as Hne.
  destruct (hash_string h f) as [|c r] eqn:EH; [contradiction|].
  cbn [has_prefix]. cbn [forallb] in Hx. apply andb_true_iff in Hx as [Hc _].
  destruct (hexchar_not c Hc) as [_ [Hr _]]. rewrite N.eqb_sym in Hr. rewrite Hr. cbn [andb].
  rewrite <- EH. now apply new_hash_string.
Qed.

Lemma trim_left_id s : is_space (hd 0 s) = false -> trim_left s = s.
Proof. destruct s as [|c r]; [reflexivity|]. cbn. now intros ->. Qed.

Lemma trim_space_lf s :
  s <> [] -> is_space (hd 0 s) = false -> is_space (last s 0) = false ->
  trim_space (s ++ [10]) = s.
Proof.
  intros Hne Hh Hl. unfold trim_space.
  assert (E1 : trim_left (s ++ [10]) = s ++ [10]).
  { apply trim_left_id. destruct s; [contradiction|exact Hh]. }
  rewrite E1, rev_app_distr. cbn [rev app trim_left]. change (is_space 10) with true. cbv iota.
  rewrite trim_left_id; [apply rev_involutive|].
  rewrite <- (last_hd_rev s 0). exact Hl.
Qed.

Lemma hd_app_ne (s t : bytes) d : s <> [] -> hd d (s ++ t) = hd d s.
Proof. destruct s; [contradiction|reflexivity]. Qed.

Lemma forallb_hd (f : N -> bool) s d : s <> [] -> forallb f s = true -> f (hd d s) = true.
Proof. destruct s; [contradiction|]. cbn. intros _ H. now apply andb_true_iff in H as [H _]. Qed.

Lemma forallb_last (f : N -> bool) s d : s <> [] -> forallb f s = true -> f (last s d) = true.
Proof. intros Hne H. apply (forallb_In _ _ _ H). now apply last_in. Qed.

(* what SetRef writes is what readReferenceFrom reads *)
Lemma read_written v : val_okb v = true -> read_ref_content (ref_content v) = Ok v.
Proof.
  destruct v as [h f|t]; cbn [val_okb ref_content]; intros H.
  - pose proof (hash_string_hexchars h f H) as Hx. pose proof (hash_string_ne h f H) as Hne.
    unfold read_ref_content. destruct (hash_string h f ++ [10]) eqn:E; [destruct (hash_string h f); discriminate|].
    rewrite <- E. f_equal. rewrite trim_space_lf; [now apply ref_from_hash_string|assumption| |].
    + pose proof (forallb_hd hexchar _ 0 Hne Hx) as Hc. now destruct (hexchar_not _ Hc) as [Hs _].
    + pose proof (forallb_last hexchar _ 0 Hne Hx) as Hc. now destruct (hexchar_not _ Hc) as [Hs _].
  - apply andb_true_iff in H as [Hne Hl]. apply negb_true_iff in Hne, Hl. apply beqb_false in Hne.
    unfold read_ref_content. rewrite symrefPrefix_val. cbn [app]. f_equal.
    change (114 :: 101 :: 102 :: 58 :: 32 :: t ++ [10]) with (([114;101;102;58;32] ++ t) ++ [10]).
    rewrite trim_space_lf; [|discriminate|reflexivity|now rewrite last_app_ne].
    unfold ref_from_strings. now rewrite symrefPrefix_val.
Qed.

Lemma split_nosep sep a b : mem sep a = false -> split_on sep (a ++ sep :: b) = a :: split_on sep b.
Proof. intros H. now rewrite split_app, split_none. Qed.

(* what PackRefs writes for a hash reference is what processLine reads *)
Lemma process_line_render h f name :
  hash_okb h f = true -> mem 32 name = false ->
  process_line (hash_string h f ++ [32] ++ name) = Some (Some (name, VHash h f)).
Proof.
  intros H Hn. pose proof (hash_string_hexchars h f H) as Hx. pose proof (hash_string_ne h f H) as Hne.
  assert (H32 : mem 32 (hash_string h f) = false).
  { apply (mem_forallb_false hexchar); [assumption|reflexivity]. }
  unfold process_line.
  change (hash_string h f ++ [32] ++ name) with (hash_string h f ++ 32 :: name).
  rewrite split_nosep, split_none by assumption.
  destruct (hash_string h f) as [|c r] eqn:EH; [contradiction|]. cbn [app].
  cbn [forallb] in Hx. apply andb_true_iff in Hx as [Hc _].
  destruct (hexchar_not c Hc) as [_ [_ [H35 H94]]]. rewrite H35, H94. cbn [orb].
  rewrite <- EH. now rewrite ref_from_hash_string.
Qed.

(* Fprintln + bufio.ScanLines round trip for lines without CR / LF *)
Definition line_clean (l : bytes) : bool := negb (mem 10 l) && negb (mem 13 l).

Lemma strip_cr_id l : mem 13 l = false -> strip_cr l = l.
Proof.
  intros H. unfold strip_cr. destruct (rev l) as [|c r] eqn:E; [reflexivity|].
  destruct (c =? 13) eqn:Ec; [|reflexivity]. apply N.eqb_eq in Ec. subst c.
  assert (Hin : In 13 l) by (apply in_rev; rewrite E; now left).
  now apply (existsb_In _ _ _ H) in Hin.
Qed.

Lemma split_unlines ls : forallb line_clean ls = true -> split_on 10 (unlines ls) = ls ++ [[]].
Proof.
  induction ls as [|l r IH]; intros H; [reflexivity|].
  cbn [forallb] in H. apply andb_true_iff in H as [Hl H]. unfold line_clean in Hl.
  apply andb_true_iff in Hl as [H10 _]. apply negb_true_iff in H10.
  unfold unlines. cbn [flat_map]. rewrite <- app_assoc. cbn [app].
  rewrite split_nosep by assumption. fold (unlines r). now rewrite IH.
Qed.

Lemma scan_unlines ls : forallb line_clean ls = true -> scan_lines (unlines ls) = ls.
Proof.
  intros H. unfold scan_lines. rewrite split_unlines by assumption.
  rewrite rev_app_distr. cbn [rev app]. rewrite rev_involutive.
  rewrite <- (map_id ls) at 2. apply map_ext_in. intros l Hl. apply strip_cr_id.
  assert (line_clean l = true) by apply (forallb_In _ _ _ H Hl).
  unfold line_clean in *. apply andb_true_iff in H0 as [_ H0]. now apply negb_true_iff in H0.
Qed.
