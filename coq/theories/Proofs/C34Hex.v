(* Proofs/C34Hex.v — the 4-digit hexadecimal length prefix: asciiHex16 and
   hexDecode/ParseLength are inverse on 0..65535.  The regenerated leaves
   asciiHexToByte / byteToASCIIHex are checked digit by digit; the rest is
   positional arithmetic. *)
From Coq Require Import List NArith ZArith Bool Lia.
From GoGit Require Import Base.Out Base.GoInt Gen.C34 Model.PktLine.
Import ListNotations.

Lemma LenSizeN_eq : LenSizeN = 4%nat.
Proof. reflexivity. Qed.

Lemma MaxSizeN_Z : Z.of_nat MaxSizeN = 65520%Z.
Proof. unfold MaxSizeN. rewrite Z2Nat.id; [reflexivity | unfold pktline_MaxSize; lia]. Qed.

Lemma MaxSizeN_ge4 : (4 <= MaxSizeN)%nat.
Proof. pose proof MaxSizeN_Z. lia. Qed.

Lemma hex16_length n : List.length (hex16 n) = 4%nat.
Proof. reflexivity. Qed.

Lemma hex_val_digit v : (0 <= v < 16)%Z ->
  hex_val (Z.to_N (pktline_byteToASCIIHex (wrapu 8 v))) = Some v.
Proof.
  intros H. rewrite <- (Z2Nat.id v) by lia.
  assert (Z.to_nat v < 16)%nat as Hk by lia. revert Hk. generalize (Z.to_nat v) as k.
  do 16 (destruct k as [|k]; [reflexivity|]). lia.
Qed.

(* (n & (0xf << s)) >> s is the hex digit of weight 16^(s/4) *)
Lemma nibble n m s : (0 <= s)%Z -> Z.shiftr m s = 15%Z ->
  Z.shiftr (Z.land n m) s = ((n / 2 ^ s) mod 16)%Z.
Proof.
  intros Hs Hm. rewrite Z.shiftr_land, Hm. change 15%Z with (Z.ones 4).
  rewrite Z.land_ones, Z.shiftr_div_pow2 by lia. reflexivity.
Qed.

Lemma hex16_roundtrip n : (0 <= n < 65536)%Z -> hex_decode (hex16 n) = Some n.
Proof.
  intros H. unfold hex16, hex_decode. rewrite LenSizeN_eq. cbn [List.length Nat.ltb Nat.leb hex_decode_go].
  rewrite !nibble by (reflexivity || lia).
  rewrite !hex_val_digit by (apply Z.mod_pos_bound; lia).
  f_equal. cbn [Z.pow Z.pow_pos Pos.iter Pos.mul]. Z.div_mod_to_equations. lia.
Qed.

Lemma parse_length_hex16 n :
  (0 <= n <= pktline_MaxSize)%Z -> n <> 3%Z -> parse_length (hex16 n) = Some n.
Proof.
  intros H H3. unfold parse_length. unfold pktline_MaxSize in *. rewrite hex16_roundtrip by lia.
  destruct (Z.eqb_spec n 3); [contradiction|].
  destruct (Z.gtb_spec n 65520); [lia|reflexivity].
Qed.

Lemma hex_val_range b v : hex_val b = Some v -> (0 <= v < 16)%Z.
Proof.
  unfold hex_val, pktline_asciiHexToByte, wrapu. change (2 ^ 8)%Z with 256%Z.
  destruct ((Z.of_N b >=? 48) && (Z.of_N b <=? 57))%Z eqn:E1;
    [|destruct ((Z.of_N b >=? 97) && (Z.of_N b <=? 102))%Z eqn:E2;
      [|destruct ((Z.of_N b >=? 65) && (Z.of_N b <=? 70))%Z eqn:E3]];
  intros [= <-]; Z.div_mod_to_equations; lia.
Qed.

Lemma hex_decode_go_range k : forall buf acc v,
  (0 <= acc)%Z -> hex_decode_go k buf acc = Some v ->
  (0 <= v < (acc + 1) * 16 ^ Z.of_nat k)%Z.
Proof.
  induction k as [|k IH]; intros buf acc v Ha H.
  - cbn in H. injection H as <-. cbn. lia.
  - cbn [hex_decode_go] in H. destruct buf as [|b buf]; [discriminate|].
    destruct (hex_val b) as [d|] eqn:Hd; [|discriminate].
    apply hex_val_range in Hd. apply IH in H; [|lia].
    rewrite Nat2Z.inj_succ, Z.pow_succ_r by lia. nia.
Qed.

Lemma parse_length_range b n : parse_length b = Some n -> (0 <= n <= pktline_MaxSize)%Z /\ n <> 3%Z.
Proof.
  unfold parse_length, hex_decode. destruct (Nat.ltb (List.length b) 4); [discriminate|].
  destruct (hex_decode_go LenSizeN b 0) as [v|] eqn:H; [|discriminate].
  apply hex_decode_go_range in H; [|lia].
  destruct (Z.eqb_spec v 3); [discriminate|].
  destruct (Z.gtb_spec v pktline_MaxSize); [discriminate|].
  intros [= <-]. lia.
Qed.

Lemma parse_flush : parse_length flushPkt = Some 0%Z. Proof. reflexivity. Qed.
Lemma parse_delim : parse_length delimPkt = Some 1%Z. Proof. reflexivity. Qed.
Lemma parse_rend : parse_length responseEndPkt = Some 2%Z. Proof. reflexivity. Qed.
Lemma parse_empty : parse_length emptyPkt = Some 4%Z. Proof. reflexivity. Qed.
