(* Proofs/C02Ident.v — Signature.Decode (Signature.Encode i) = i for every
   well-formed identity (Spec/ObjWf.wf_ident).  It starts with the facts about
   has_byte, index_of, last_index_of and the trims that the other C02 proofs
   use as well. *)
From Coq Require Import List NArith ZArith Bool Lia ZifyBool ZifyNat ZifyN.
From GoGit Require Import Base.Out Model.ObjLines Model.Ident Spec.ObjWf Proofs.ObjLinesFacts Proofs.C02Dec.
Import ListNotations.
Local Open Scope N_scope.

Lemma has_byte_app c x y : has_byte c (x ++ y) = has_byte c x || has_byte c y.
Proof. apply existsb_app. Qed.

Lemma has_byte_cons c x b : has_byte c (x :: b) = (c =? x) || has_byte c b.
Proof. reflexivity. Qed.

Lemma has_byte_cons_false c x b : has_byte c (x :: b) = false -> (x =? c) = false /\ has_byte c b = false.
Proof. rewrite has_byte_cons, N.eqb_sym. apply orb_false_iff. Qed.

Lemma has_byte_forall (f : N -> bool) c b :
  (forall x, f x = true -> (x =? c) = false) -> forallb f b = true -> has_byte c b = false.
Proof.
  intros Hf. induction b as [|x b IH]; cbn; [reflexivity|]. intros H. apply andb_true_iff in H as [H1 H2].
  rewrite N.eqb_sym, (Hf _ H1). cbn. now apply IH.
Qed.

Lemma no_lf_has b : no_lf b = negb (has_byte LF b).
Proof.
  induction b as [|x b IH]; [reflexivity|]. rewrite no_lf_cons, IH, has_byte_cons, (N.eqb_sym x LF).
  destruct (LF =? x), (has_byte LF b); reflexivity.
Qed.

Lemma no_lf_of_has b : has_byte LF b = false -> no_lf b = true.
Proof. intros H. now rewrite no_lf_has, H. Qed.

Lemma last_index_of_none c b : has_byte c b = false -> last_index_of c b = None.
Proof.
  induction b as [|x b IH]; [reflexivity|]. intros H. apply has_byte_cons_false in H as [H1 H2].
  cbn [last_index_of]. now rewrite (IH H2), H1.
Qed.

Lemma last_index_of_unique c x y : has_byte c y = false -> last_index_of c (x ++ c :: y) = Some (List.length x).
Proof.
  intros H. induction x as [|a x IH]; cbn [app last_index_of List.length].
  - now rewrite (last_index_of_none _ _ H), N.eqb_refl.
  - now rewrite IH.
Qed.

Lemma index_of_first c x y : has_byte c x = false -> index_of c (x ++ c :: y) = Some (List.length x).
Proof.
  induction x as [|a x IH]; cbn [app index_of List.length]; intros H.
  - now rewrite N.eqb_refl.
  - apply has_byte_cons_false in H as [H1 H2]. now rewrite H1, (IH H2).
Qed.

Lemma index_of_split c v : forall i, index_of c v = Some i ->
  exists x y, v = x ++ c :: y /\ has_byte c x = false /\ i = List.length x.
Proof.
  induction v as [|a v IH]; intros i H; [discriminate|]. cbn [index_of] in H.
  destruct (a =? c) eqn:E.
  - apply N.eqb_eq in E. subst a. exists [], v. repeat split. now inversion H.
  - destruct (index_of c v) as [j|] eqn:Ej; [|discriminate]. destruct (IH _ eq_refl) as [x [y [-> [Hx Hj]]]].
    exists (a :: x), y. repeat split.
    + rewrite has_byte_cons, N.eqb_sym, E, Hx. reflexivity.
    + inversion H. subst j. reflexivity.
Qed.

Lemma trim_left_id c b : first_is c b = false -> trim_left c b = b.
Proof. destruct b as [|x b]; cbn; [reflexivity|]. now intros ->. Qed.

Lemma trim_right_id c b : last_is c b = false -> trim_right c b = b.
Proof.
  unfold last_is. induction b as [|x b IH]; [reflexivity|]. cbn [rev]. intros H.
  cbn [trim_right]. destruct b as [|y b].
  - cbn in *. now rewrite H.
  - rewrite IH.
    + reflexivity.
    + cbn [rev] in *. destruct (rev b ++ [y]) eqn:E; [destruct (rev b); discriminate|]. exact H.
Qed.

Lemma trim_right_snoc c b : trim_right c (b ++ [c]) = trim_right c b.
Proof.
  induction b as [|x b IH]; cbn [app trim_right].
  - now rewrite N.eqb_refl.
  - now rewrite IH.
Qed.

(* hours and minutes of a well-formed zone *)
Lemma zone_form tz : wf_zone tz = true -> exists q r,
  q < 100 /\ r < 60 /\ Z.abs tz = Z.of_N (60 * q + r) /\ ((tz < 0)%Z -> 0 < q) /\
  fmt_zone tz = (if (tz <? 0)%Z then 45 else 43) :: pad2 q ++ pad2 r.
Proof.
  intros H. unfold fmt_zone. set (a := Z.to_N (Z.abs tz)). exists (a / 60), (a mod 60).
  assert (Ha : a <= 5999 /\ ((tz < 0)%Z -> 60 <= a) /\ Z.abs tz = Z.of_N a) by (unfold wf_zone in H; lia). clearbody a.
  pose proof (N.div_mod a 60 ltac:(lia)). pose proof (N.mod_lt a 60 ltac:(lia)).
  repeat split; [apply N.div_lt_upper_bound; lia|lia|lia|].
  intros Hn. apply N.div_str_pos. lia.
Qed.

(* the sign folded back into the minutes, as decodeTimeAndTimeZone does *)
Lemma neg_zone_minutes hh mm : (hh = 0 -> mm = 0) ->
  (- Z.of_N hh * 60 + (if - Z.of_N hh <? 0 then - Z.of_N mm else Z.of_N mm) = - Z.of_N (60 * hh + mm))%Z.
Proof. intros H. destruct (Z.ltb_spec (- Z.of_N hh) 0); lia. Qed.

Lemma digits_no_spc ds : forallb is_digit ds = true -> has_byte SPC ds = false.
Proof. apply has_byte_forall. intros x Hx. now apply digit_not_punct in Hx. Qed.

(* decodeTimeAndTimeZone on "<digits> <sign>hhmm<rest>" *)
Lemma decode_time_canon nm em ds sg h1 h2 m1 m2 rest ts :
  has_byte SPC ds = false -> parse_int64 ds = Some ts ->
  decode_time nm em (ds ++ SPC :: sg :: h1 :: h2 :: m1 :: m2 :: rest) =
  match parse_int64 [sg; h1; h2], parse_int64 [m1; m2] with
  | Some h, Some m => mk_ident nm em ts (h * 60 + (if (h <? 0)%Z then (- m)%Z else m))%Z
  | _, _ => mk_ident nm em ts 0
  end.
Proof.
  intros Hsp Hp. unfold decode_time, slice.
  rewrite (index_of_first _ _ _ Hsp), firstn_app_exact, Hp, skipn_cons_exact, app_length. cbn [List.length].
  replace (Nat.leb (List.length ds + S (S (S (S (S (S (List.length rest))))))) (S (List.length ds)) ||
           Nat.ltb (List.length ds + S (S (S (S (S (S (List.length rest))))))) (S (List.length ds) + 5))%bool
    with false by (clear; symmetry; apply orb_false_iff; split; [apply Nat.leb_gt|apply Nat.ltb_ge]; lia).
  replace (S (List.length ds) + 5 - S (List.length ds))%nat with 5%nat by (clear; lia). reflexivity.
Qed.

Lemma decode_time_enc nm em i : wf_ident i = true ->
  decode_time nm em (encode_time i) = mk_ident nm em (id_ts i) (id_tz i).
Proof.
  intros Hwf. unfold wf_ident in Hwf. apply andb_true_iff in Hwf as [Hwf Hz]. apply andb_true_iff in Hwf as [_ Hts].
  destruct i as [nm0 em0 ts tz]. cbn [id_ts id_tz] in *. unfold encode_time. cbn [id_ts id_tz].
  destruct (zone_form _ Hz) as (q & r & Hq & Hr & Ha & Hneg & ->). clear Hz.
  destruct (pad2_form q Hq) as (q1 & q2 & Hq1 & Hq2 & -> & ->).
  destruct (pad2_form r ltac:(lia)) as (r1 & r2 & Hr1 & Hr2 & -> & ->).
  rewrite Z.max_l by lia. cbn [app].
  rewrite (decode_time_canon nm em _ _ _ _ _ _ [] ts (digits_no_spc _ (print_dec_digits _))).
  2:{ rewrite parse_int64_print_dec by lia. f_equal. lia. }
  set (sg := if (tz <? 0)%Z then 45 else 43).
  assert (Hsg : (sg =? 43) || (sg =? 45) = true) by (unfold sg; now destruct (tz <? 0)%Z).
  assert (Hdr : forallb is_digit [48 + r1; 48 + r2] = true) by (cbn [forallb]; now rewrite !is_digit_48 by assumption).
  rewrite (parse_int64_signed sg _ _ Hsg (digits_val_two _ _ Hq1 Hq2)) by lia.
  rewrite (parse_int64_digits [48 + r1; 48 + r2] _ ltac:(discriminate) Hdr (digits_val_two _ _ Hr1 Hr2)) by lia.
  f_equal. unfold sg. destruct (Z.ltb_spec tz 0).
  - change (45 =? 45) with true. cbv iota. rewrite neg_zone_minutes by lia. lia.
  - change (43 =? 45) with false. cbv iota. replace (Z.of_N (10 * q1 + q2) <? 0)%Z with false by lia. lia.
Qed.

Lemma pad2_digits n : forallb is_digit (pad2 n) = true.
Proof. unfold pad2. destruct (n <? 10); [cbn [forallb]|]; now rewrite print_dec_digits. Qed.

(* the time part is digits, a blank and a sign *)
Lemma encode_time_plain i c : c = LF \/ c = LT \/ c = GT -> has_byte c (encode_time i) = false.
Proof.
  intros Hc.
  assert (D : forall b, forallb is_digit b = true -> has_byte c b = false).
  { intros b. apply has_byte_forall. intros x Hx. unfold is_digit, LF, LT, GT in *. lia. }
  unfold encode_time, fmt_zone.
  rewrite !has_byte_app, !has_byte_cons, has_byte_app, !D by first [reflexivity|apply print_dec_digits|apply pad2_digits].
  destruct (id_tz i <? 0)%Z; unfold LF, LT, GT, SPC in *; lia.
Qed.

Lemma wf_ident_parts i : wf_ident i = true ->
  (has_byte LF (id_name i) = false /\ has_byte LT (id_name i) = false /\ has_byte GT (id_name i) = false) /\
  (has_byte LF (id_email i) = false /\ has_byte LT (id_email i) = false /\ has_byte GT (id_email i) = false) /\
  first_is SPC (id_name i) = false /\ last_is SPC (id_name i) = false.
Proof. unfold wf_ident. rewrite !andb_true_iff, !negb_true_iff, !orb_false_iff. tauto. Qed.

(* Signature.Decode on name '<' mail '>' tail: the brackets found are these two *)
Lemma decode_ident_shape x m a : has_byte LT m = false -> has_byte LT a = false -> has_byte GT a = false ->
  decode_ident (x ++ LT :: m ++ GT :: a) =
  if Nat.ltb 1 (List.length a) then decode_time (trim_both SPC x) m (tl a) else mk_ident (trim_both SPC x) m zero_ts 0.
Proof.
  intros Hlm Hla Hga.
  assert (A1 : has_byte LT (m ++ GT :: a) = false) by (rewrite has_byte_app, has_byte_cons, Hlm, Hla; reflexivity).
  set (v := x ++ LT :: m ++ GT :: a).
  assert (V : v = (x ++ LT :: m) ++ GT :: a) by (unfold v; now rewrite <- app_assoc).
  assert (Alt : last_index_of LT v = Some (List.length x)) by now apply last_index_of_unique.
  assert (Agt : last_index_of GT v = Some (List.length (x ++ LT :: m))) by (rewrite V; now apply last_index_of_unique).
  assert (F1 : firstn (List.length x) v = x) by apply firstn_app_exact.
  assert (F2 : slice (S (List.length x)) (List.length (x ++ LT :: m)) v = m).
  { unfold slice, v. rewrite skipn_cons_exact.
    replace (List.length (x ++ LT :: m) - S (List.length x))%nat with (List.length m) by (rewrite app_length; cbn [List.length]; lia).
    apply firstn_app_exact. }
  assert (F3 : skipn (List.length (x ++ LT :: m) + 2) v = tl a).
  { rewrite Nat.add_comm. cbn [Nat.add]. now rewrite skipn_S_tl, V, skipn_cons_exact. }
  assert (F4 : Nat.ltb (List.length (x ++ LT :: m)) (List.length x) = false) by (apply Nat.ltb_ge; rewrite app_length; lia).
  assert (F5 : Nat.ltb (List.length (x ++ LT :: m) + 2) (List.length v) = Nat.ltb 1 (List.length a)).
  { rewrite V, !app_length. cbn [List.length]. destruct (Nat.ltb_spec 1 (List.length a)); [apply Nat.ltb_lt|apply Nat.ltb_ge]; lia. }
  clearbody v. unfold decode_ident. now rewrite Alt, Agt, F4, F1, F2, F3, F5.
Qed.

(* the same with the blank that Signature.Encode puts before '<', on a name that needs no trimming *)
Lemma decode_ident_trimmed x m a :
  has_byte LT m = false -> has_byte LT a = false -> has_byte GT a = false ->
  first_is SPC x = false -> last_is SPC x = false ->
  decode_ident (x ++ SPC :: LT :: m ++ GT :: a) =
    if Nat.ltb 1 (List.length a) then decode_time x m (tl a) else mk_ident x m zero_ts 0.
Proof.
  intros Hlm Hla Hga Hfx Hlx.
  replace (x ++ SPC :: LT :: m ++ GT :: a) with ((x ++ [SPC]) ++ LT :: m ++ GT :: a) by (now rewrite <- app_assoc).
  rewrite (decode_ident_shape _ _ _ Hlm Hla Hga). unfold trim_both.
  now rewrite trim_right_snoc, (trim_right_id _ _ Hlx), (trim_left_id _ _ Hfx).
Qed.

Lemma decode_time_ne nm em b : id_name (decode_time nm em b) = nm /\ id_email (decode_time nm em b) = em.
Proof.
  unfold decode_time. destruct (parse_int64 _); [|now split]. destruct (_ || _)%bool; [now split|].
  destruct (parse_int64 _); [|now split]. destruct (parse_int64 _); now split.
Qed.

Theorem ident_dec_enc : forall i, wf_ident i = true -> decode_ident (encode_ident i) = i.
Proof.
  intros i Hwf.
  destruct (wf_ident_parts _ Hwf) as [_ [[_ [He2 _]] [Hf Hl]]].
  assert (HTlt : has_byte LT (SPC :: encode_time i) = false) by (rewrite has_byte_cons, encode_time_plain; auto).
  assert (HTgt : has_byte GT (SPC :: encode_time i) = false) by (rewrite has_byte_cons, encode_time_plain; auto).
  assert (HTne : Nat.ltb 1 (List.length (SPC :: encode_time i)) = true).
  { unfold encode_time. pose proof (print_dec_nonempty (Z.to_N (Z.max (id_ts i) 0))) as Hne.
    destruct (print_dec _); [contradiction|reflexivity]. }
  change (encode_ident i) with (id_name i ++ SPC :: LT :: id_email i ++ GT :: SPC :: encode_time i).
  rewrite (decode_ident_trimmed _ _ _ He2 HTlt HTgt Hf Hl), HTne. cbn [tl].
  rewrite (decode_time_enc _ _ _ Hwf). now destruct i.
Qed.

Lemma encode_ident_no_lf i : wf_ident i = true -> no_lf (encode_ident i) = true.
Proof.
  intros Hwf. destruct (wf_ident_parts _ Hwf) as [[Hn1 _] [[He1 _] _]].
  rewrite no_lf_has. unfold encode_ident.
  rewrite !has_byte_app, !has_byte_cons, Hn1, He1, (encode_time_plain _ LF) by auto. reflexivity.
Qed.
