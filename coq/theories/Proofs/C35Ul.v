(* Proofs/C35Ul.v — UploadRequest: decode (encode m) = canon m
   (wants and shallows sorted and de-duplicated; every depth form; the filter line). *)
From Coq Require Import List NArith ZArith Bool Lia Arith String.
From GoGit Require Import Base.Out Model.PktLine Model.Packp Proofs.C34Pkt Proofs.C35Base Proofs.C35Msgs
  Proofs.C35Caps Proofs.C35Adv Proofs.C35Dec.
Import ListNotations.

Definition int64_ok (z : Z) : bool := ((- 2 ^ 63 <=? z) && (z <? 2 ^ 63))%Z.

(* a DeepenSince that Go can hold: time.Unix(t, 0) is the zero time ("unset") for exactly one t *)
Definition since_ok (t : Z) : bool := int64_ok t && negb (t =? -62135596800)%Z.

Lemma int64_ok_spec z : int64_ok z = true -> (- 2 ^ 63 <= z < 2 ^ 63)%Z.
Proof. unfold int64_ok. intros H. apply andb_prop in H. destruct H as [A B']. apply Z.leb_le in A. apply Z.ltb_lt in B'. auto. Qed.

Lemma since_ok_int64 t : since_ok t = true -> int64_ok t = true.
Proof. unfold since_ok. intros H. now apply andb_prop in H. Qed.

Lemma parse_int_dec64 z : int64_ok z = true -> parse_int (dec_bytes z) = Some z.
Proof. intros H. apply parse_int_dec, int64_ok_spec, H. Qed.

Lemma since_of_ok t : since_ok t = true -> since_of t = Some t.
Proof. unfold since_ok, since_of. intros H. apply andb_prop in H. destruct H as [_ H]. apply negb_true_iff in H. now rewrite H. Qed.

Definition ul_ok (u : ulreq) : bool :=
  caps_ok (ul_caps u) && negb (Nat.eqb (List.length (ul_wants u)) 0) &&
  forallb hash_ok (ul_wants u) && forallb hash_ok (ul_shallows u) &&
  (0 <=? ul_deepen u)%Z && int64_ok (ul_deepen u) &&
  match ul_since u with Some t => since_ok t | None => true end &&
  (negb (ul_deepen u >? 0)%Z || (match ul_since u with None => true | _ => false end && Nat.eqb (List.length (ul_not u)) 0)).

Definition ul_canon (u : ulreq) : ulreq :=
  mkulreq (ul_caps u)
          (match sort_hashes (ul_wants u) with [] => [] | w0 :: ws => w0 :: dedup_from w0 ws end)
          (dedup_from zero_hash (sort_hashes (ul_shallows u)))
          (ul_deepen u) (ul_since u) (ul_not u) (ul_filter u).

(* nextLine, then the loop body k on a non-empty line: the shape of every loop of the decoder *)
Definition next_line (k : bytes -> list item -> ulreq + derr) (items : list item) (u : ulreq) : ulreq + derr :=
  match items with
  | [] => inr (ul_eof None)
  | it :: r => match ul_line it with
               | None => inl u
               | Some [] => inl u
               | Some l => k l r
               end
  end.

Definition after_line (items : list item) (u : ulreq) : ulreq + derr :=
  next_line (fun l r => ul_shallow_go l r None u) items u.

Lemma ul_line_data b : ul_line (item_of (PData (b ++ [NL]))) = Some b.
Proof.
  rewrite item_of_ne by (rewrite app_length; cbn; lia). unfold ul_line. cbn [fst snd].
  now rewrite item_nz, trim_eol_app.
Qed.

Lemma next_line_data k p b r u : p <> [] ->
  next_line k (item_of (PData (p ++ b ++ [NL])) :: r) u = k (p ++ b) r.
Proof.
  intros Hp. assert (p ++ b <> []) as Hne by (destruct p; [contradiction|discriminate]).
  unfold next_line. rewrite app_assoc, ul_line_data. destruct (p ++ b); [contradiction|reflexivity].
Qed.

Lemma read_hash_only h : hash_ok h = true -> ul_read_hash (hash_str h) = Some (h, []).
Proof. intros Hok. unfold ul_read_hash. now rewrite (hash_from_only h Hok), <- (hash_str_length h Hok), skipn_all. Qed.

Lemma read_hash_sp h x : hash_ok h = true -> ul_read_hash (hash_str h ++ SP :: x) = Some (h, SP :: x).
Proof. intros Hok. unfold ul_read_hash. now rewrite (hash_from_sp h x Hok), (skipn_app_exact _ _ _ (hash_str_length h Hok)). Qed.

Definition add_want (u : ulreq) (h : hash) := mkulreq (ul_caps u) (ul_wants u ++ [h]) (ul_shallows u) (ul_deepen u) (ul_since u) (ul_not u) (ul_filter u).

Lemma ul_want_step h tail cp ws ss d si nt fl : hash_ok h = true ->
  ul_wants_go (item_of (PData (B "want " ++ hash_str h ++ [NL])) :: tail) None (mkulreq cp ws ss d si nt fl)
  = ul_wants_go tail None (mkulreq cp (ws ++ [h]) ss d si nt fl).
Proof.
  intros Hh. cbn [ul_wants_go]. change (B "want " ++ hash_str h ++ [NL]) with ((B "want " ++ hash_str h) ++ [NL]).
  rewrite ul_line_data.
  destruct (B "want " ++ hash_str h) as [|c0 l0] eqn:E; [discriminate|]. rewrite <- E.
  now rewrite has_prefix_app, (skipn_app_exact (B "want ") (hash_str h) 5 eq_refl), (read_hash_only h Hh).
Qed.

Lemma after_shallow h tail cp ws ss d si nt fl : hash_ok h = true ->
  after_line (item_of (PData (B "shallow " ++ hash_str h ++ [NL])) :: tail) (mkulreq cp ws ss d si nt fl)
  = after_line tail (mkulreq cp ws (ss ++ [h]) d si nt fl).
Proof.
  intros Hh. unfold after_line at 1. rewrite next_line_data by discriminate.
  destruct tail as [|it r]; cbn [ul_shallow_go];
    rewrite has_prefix_app, (skipn_app_exact (B "shallow ") (hash_str h) 8 eq_refl), (read_hash_only h Hh); reflexivity.
Qed.

Lemma shallow_go_other line items u : has_prefix (B "shallow ") line = false ->
  ul_shallow_go line items None u = ul_deepen_go line items None false u.
Proof. intros H. destruct items; cbn [ul_shallow_go]; rewrite H; reflexivity. Qed.

(* so a keyword line other than want / shallow enters the deepen loop *)
Lemma after_line_other p b r u : p <> [] -> has_prefix (B "shallow ") (p ++ b) = false ->
  after_line (item_of (PData (p ++ b ++ [NL])) :: r) u = ul_deepen_go (p ++ b) r None false u.
Proof. intros Hp Hs. unfold after_line. now rewrite next_line_data, shallow_go_other. Qed.

Definition set_filter (u : ulreq) (f : bytes) := mkulreq (ul_caps u) (ul_wants u) (ul_shallows u) (ul_deepen u) (ul_since u) (ul_not u) f.

(* what Encode writes after the depth lines *)
Definition ftail (f : bytes) : list pkt :=
  match f with [] => [] | _ => [PData (B "filter " ++ f ++ [NL])] end ++ [PFlush].

Lemma filter_go f u : ul_filter_go (B "filter " ++ f) (map item_of [PFlush]) None u = inl (set_filter u f).
Proof. unfold ul_filter_go. now rewrite (skipn_app_exact (B "filter ") f 7 eq_refl). Qed.

Lemma filter_line_go f rev u :
  ul_deepen_go (B "filter " ++ f) (map item_of [PFlush]) None rev u = inl (set_filter u f).
Proof.
  cbn [map item_of ul_deepen_go]. rewrite (has_prefix_clash _ (B "filter ")) by reflexivity. cbn [negb].
  destruct (B "filter " ++ f) as [|c0 l0] eqn:E; [discriminate|]. rewrite <- E.
  rewrite has_prefix_app. apply filter_go.
Qed.

(* the deepen loop is a step on the depth line it holds (deepen_go_depth, deepen_go_since, deepen_go_not below),
   then nextLine and this dispatch on the line that follows *)
Definition deepen_disp (l : bytes) (r : list item) (rev : bool) (u : ulreq) : ulreq + derr :=
  if (ul_deepen u >? 0)%Z then
    if has_prefix (B "filter ") l then ul_filter_go l r None u else
    (if has_prefix (B "deepen-since ") l || has_prefix (B "deepen-not ") l then inr EOther else inr EUnexpected)
  else if rev && has_prefix (B "deepen") l && negb (has_prefix (B "deepen-since ") l)
          && negb (has_prefix (B "deepen-not ") l) then inr EOther
  else ul_deepen_go l r None rev u.

Definition deepen_next (items : list item) (rev : bool) (u : ulreq) : ulreq + derr :=
  next_line (fun l r => deepen_disp l r rev u) items u.

Lemma deepen_go_depth n items cp ws ss d si nt fl : (0 <= n)%Z -> int64_ok n = true ->
  ul_deepen_go (B "deepen " ++ dec_bytes n) items None false (mkulreq cp ws ss d si nt fl)
  = deepen_next items false (mkulreq cp ws ss n None [] fl).
Proof.
  intros H0 Hi. apply Z.ltb_ge in H0.
  destruct items; cbn [ul_deepen_go];
    change (has_prefix (B "deepen") (B "deepen " ++ dec_bytes n)) with true; cbn [negb];
    rewrite has_prefix_app, (skipn_app_exact (B "deepen ") _ 7 eq_refl), (parse_int_dec64 n Hi), H0,
      (Hi : ((- 2 ^ 63 <=? n) && (n <? 2 ^ 63))%Z = true); reflexivity.
Qed.

Lemma deepen_go_since t items rev cp ws ss si nt fl : since_ok t = true ->
  ul_deepen_go (B "deepen-since " ++ dec_bytes t) items None rev (mkulreq cp ws ss 0 si nt fl)
  = deepen_next items true (mkulreq cp ws ss 0 (Some t) nt fl).
Proof.
  intros Ht.
  destruct items; cbn [ul_deepen_go];
    change (has_prefix (B "deepen") (B "deepen-since " ++ dec_bytes t)) with true; cbn [negb];
    rewrite (has_prefix_clash _ (B "deepen-since ")), has_prefix_app by reflexivity;
    rewrite (skipn_app_exact (B "deepen-since ") _ 13 eq_refl), (parse_int_dec64 t (since_ok_int64 t Ht)), (since_of_ok t Ht);
    reflexivity.
Qed.

Lemma deepen_go_not n items rev cp ws ss si nt fl :
  ul_deepen_go (B "deepen-not " ++ n) items None rev (mkulreq cp ws ss 0 si nt fl)
  = deepen_next items true (mkulreq cp ws ss 0 si (nt ++ [n]) fl).
Proof.
  destruct items; cbn [ul_deepen_go];
    change (has_prefix (B "deepen") (B "deepen-not " ++ n)) with true; cbn [negb];
    rewrite !(has_prefix_clash _ (B "deepen-not ")), has_prefix_app by reflexivity;
    rewrite (skipn_app_exact (B "deepen-not ") _ 11 eq_refl); reflexivity.
Qed.

Lemma deepen_disp_filter f rev u :
  deepen_disp (B "filter " ++ f) (map item_of [PFlush]) rev u = inl (set_filter u f).
Proof.
  unfold deepen_disp. rewrite has_prefix_app, !(has_prefix_clash _ (B "filter ")), andb_false_r by reflexivity.
  destruct (ul_deepen u >? 0)%Z; [apply filter_go|apply filter_line_go].
Qed.

Lemma deepen_disp_not n r rev u : ul_deepen u = 0%Z ->
  deepen_disp (B "deepen-not " ++ n) r rev u = ul_deepen_go (B "deepen-not " ++ n) r None rev u.
Proof. intros Hd. unfold deepen_disp. now rewrite Hd, has_prefix_app, andb_false_r. Qed.

Lemma next_ftail f rev cp ws ss d si nt :
  deepen_next (map item_of (ftail f)) rev (mkulreq cp ws ss d si nt []) = inl (mkulreq cp ws ss d si nt f).
Proof.
  destruct f as [|c f']; [reflexivity|]. change (ftail (c :: f')) with [PData (B "filter " ++ (c :: f') ++ [NL]); PFlush].
  unfold deepen_next. cbn [map]. rewrite next_line_data by discriminate. apply deepen_disp_filter.
Qed.

Lemma after_ftail f cp ws ss d si nt :
  after_line (map item_of (ftail f)) (mkulreq cp ws ss d si nt []) = inl (mkulreq cp ws ss d si nt f).
Proof.
  destruct f as [|c f']; [reflexivity|]. change (ftail (c :: f')) with [PData (B "filter " ++ (c :: f') ++ [NL]); PFlush].
  cbn [map]. rewrite after_line_other by (reflexivity || discriminate). apply filter_line_go.
Qed.

Lemma deepen_not_lines f cp ws ss si : forall ns rev nt,
  deepen_next (map item_of (map (fun r => PData (B "deepen-not " ++ r ++ [NL])) ns ++ ftail f)) rev (mkulreq cp ws ss 0 si nt [])
  = inl (mkulreq cp ws ss 0 si (nt ++ ns) f).
Proof.
  induction ns as [|n ns IH]; intros rev nt; cbn [map app].
  - rewrite app_nil_r. apply next_ftail.
  - unfold deepen_next. rewrite next_line_data, deepen_disp_not by (reflexivity || discriminate).
    now rewrite deepen_go_not, IH, <- app_assoc.
Qed.

Lemma dec_line_ne pre z : pre ++ dec_bytes z <> [].
Proof. destruct (dec_bytes_chars z) as [_ H]. destruct pre; [exact H|discriminate]. Qed.

(* the depth section and the filter line of a well-formed request, starting
   from a decoded request without depth and filter *)
Lemma after_depth cp ws ss deepen since nots f :
  (0 <= deepen)%Z -> int64_ok deepen = true -> match since with Some t => since_ok t | None => true end = true ->
  ((deepen >? 0)%Z = false \/ (since = None /\ nots = [])) ->
  after_line (map item_of ((if (deepen >? 0)%Z then [PData (B "deepen " ++ dec_bytes deepen ++ [NL])] else []) ++
                           match since with Some t => [PData (B "deepen-since " ++ dec_bytes t ++ [NL])] | None => [] end ++
                           map (fun r => PData (B "deepen-not " ++ r ++ [NL])) nots ++ ftail f)) (mkulreq cp ws ss 0 None [] [])
  = inl (mkulreq cp ws ss deepen since nots f).
Proof.
  intros H0 Hi Hsi Hex. destruct (Z.gtb_spec deepen 0) as [Hpos|Hz].
  - destruct Hex as [Hex|[-> ->]]; [discriminate|]. cbn [app map].
    rewrite after_line_other, deepen_go_depth by (assumption || reflexivity || discriminate). apply next_ftail.
  - assert (deepen = 0%Z) as -> by lia. destruct since as [t|]; [|destruct nots as [|n nots]]; cbn [app map].
    + rewrite after_line_other, deepen_go_since by (assumption || reflexivity || discriminate). apply deepen_not_lines.
    + apply after_ftail.
    + rewrite after_line_other, deepen_go_not by (reflexivity || discriminate).
      apply (deepen_not_lines f cp ws ss None nots true [n]).
Qed.

Definition starts_ok (p : pkt) : bool :=
  match p with PData (c :: _) => negb (N.eqb 119 c) | PData [] => false | _ => true end.

Lemma want_prefix_trim c b : N.eqb 119 c = false -> has_prefix (B "want ") (trim_eol (c :: b)) = false.
Proof.
  intros Hc. unfold trim_eol, trim_suffix. destruct (has_suffix [NL] (c :: b)).
  - cbn [List.length]. destruct (S (List.length b) - 1)%nat; [reflexivity|]. cbn [firstn].
    change (B "want ") with (119%N :: skipn 1 (B "want ")). cbn [has_prefix]. now rewrite Hc.
  - change (B "want ") with (119%N :: skipn 1 (B "want ")). cbn [has_prefix]. now rewrite Hc.
Qed.

(* packets whose first is no want line (no data line that begins with 'w') hand over to the shallow / deepen loops *)
Lemma ul_wants_handover ps u : forallb starts_ok ps = true ->
  ul_wants_go (map item_of ps) None u = after_line (map item_of ps) u.
Proof.
  intros H. destruct ps as [|[[|c b]| | |] ps]; try reflexivity. cbn [forallb starts_ok] in H.
  apply andb_prop in H. destruct H as [Hc _]. apply negb_true_iff in Hc.
  cbn [map ul_wants_go after_line next_line]. rewrite item_of_ne by (cbn; lia). unfold ul_line. cbn [fst snd]. rewrite item_nz.
  destruct (trim_eol (c :: b)) as [|c0 l0] eqn:E; [reflexivity|]. now rewrite <- E, want_prefix_trim.
Qed.

Lemma ul_ok_spec u : ul_ok u = true ->
  caps_ok (ul_caps u) = true /\ forallb hash_ok (ul_wants u) = true /\ forallb hash_ok (ul_shallows u) = true /\
  (0 <= ul_deepen u)%Z /\ int64_ok (ul_deepen u) = true /\ match ul_since u with Some t => since_ok t | None => true end = true /\
  ((ul_deepen u >? 0)%Z = false \/ (ul_since u = None /\ ul_not u = [])).
Proof.
  unfold ul_ok. intros H. do 7 (apply andb_prop in H; let X := fresh "G" in destruct H as [H X]).
  apply Z.leb_le in G2. repeat split; try assumption.
  apply orb_prop in G. destruct G as [E|E]; [left; now apply negb_true_iff|right].
  apply andb_prop in E. destruct E as [Ea Eb]. apply Nat.eqb_eq in Eb.
  split; [destruct (ul_since u); [discriminate|reflexivity]|destruct (ul_not u); [reflexivity|discriminate]].
Qed.

Definition ul_first (u : ulreq) (w0 : hash) : pkt :=
  match ul_caps u with
  | [] => PData (B "want " ++ hash_str w0 ++ [NL])
  | _ => PData (B "want " ++ hash_str w0 ++ [SP] ++ cap_encode (ul_caps u) ++ [NL])
  end.
Definition want_lines (hs : list hash) : list pkt := map (fun h => PData (B "want " ++ hash_str h ++ [NL])) hs.
Definition ulshallow_lines (hs : list hash) : list pkt := map (fun h => PData (B "shallow " ++ hash_str h ++ [NL])) hs.
Definition depth_lines (u : ulreq) : list pkt :=
  (if (ul_deepen u >? 0)%Z then [PData (B "deepen " ++ dec_bytes (ul_deepen u) ++ [NL])] else []) ++
  match ul_since u with Some t => [PData (B "deepen-since " ++ dec_bytes t ++ [NL])] | None => [] end ++
  map (fun r => PData (B "deepen-not " ++ r ++ [NL])) (ul_not u).

Lemma ul_encode_ok u : ul_ok u = true -> exists w0 ws, sort_hashes (ul_wants u) = w0 :: ws /\
  ul_encode u = ULok (ul_first u w0 :: want_lines (dedup_from w0 ws) ++
                      ulshallow_lines (dedup_from zero_hash (sort_hashes (ul_shallows u))) ++ depth_lines u ++ ftail (ul_filter u)).
Proof.
  intros H. destruct (ul_ok_spec u H) as (_ & _ & _ & _ & _ & _ & Hex).
  unfold ul_ok in H. do 6 (apply andb_prop in H; destruct H as [H _]). apply andb_prop in H. destruct H as [_ Hne].
  apply negb_true_iff, Nat.eqb_neq in Hne. unfold ul_encode.
  destruct (sort_hashes (ul_wants u)) as [|w0 ws] eqn:Es.
  { apply (f_equal (@List.length hash)) in Es. unfold sort_hashes in Es. rewrite sort_by_length in Es. cbn in Es. contradiction. }
  exists w0, ws. split; [reflexivity|].
  replace ((ul_deepen u >? 0)%Z && _) with false.
  - unfold ul_first, want_lines, ulshallow_lines, depth_lines, ftail. destruct (ul_filter u); now rewrite <- !app_assoc.
  - destruct Hex as [-> | [-> ->]]; [reflexivity|now rewrite andb_false_r].
Qed.

Lemma ul_sorted_ok (P : hash -> bool) u w0 ws : forallb P (ul_wants u) = true -> forallb P (ul_shallows u) = true ->
  sort_hashes (ul_wants u) = w0 :: ws ->
  P w0 = true /\ forallb P (dedup_from w0 ws) = true /\ forallb P (dedup_from zero_hash (sort_hashes (ul_shallows u))) = true.
Proof.
  intros Hw Hs Es. assert (Forall (fun h => P h = true) (w0 :: ws)) as F by (rewrite <- Es; now apply sort_by_Forall, forallb_Forall).
  repeat split; [exact (Forall_inv F)|apply forallb_Forall, dedup_from_Forall, (Forall_inv_tail F)|].
  now apply forallb_Forall, dedup_from_Forall, sort_by_Forall, forallb_Forall.
Qed.

Theorem ul_roundtrip u : ul_ok u = true ->
  exists ps, ul_encode u = ULok ps /\ forallb no_errline ps = true /\
             ul_decode (mksrc (map item_of ps) None) = inl (ul_canon u).
Proof.
  intros H. destruct (ul_encode_ok u H) as (w0 & ws & Es & He). destruct (ul_ok_spec u H) as (Hcaps & Hw & Hsh & H0 & Hi & Hsi & Hex).
  destruct (ul_sorted_ok hash_ok u w0 ws Hw Hsh Es) as (Hw0 & Hdw & Hds).
  eexists. split; [exact He|]. unfold ul_canon. rewrite Es. clear He. split.
  { (* no line starts with "ERR " *)
    cbn [forallb]. apply andb_true_intro. split; [unfold ul_first; destruct (ul_caps u); reflexivity|].
    unfold want_lines, ulshallow_lines, depth_lines, ftail. rewrite !forallb_app, !forallb_map_all by reflexivity.
    destruct (ul_deepen u >? 0)%Z, (ul_since u), (ul_filter u); reflexivity. }
  assert (forallb starts_ok (ulshallow_lines (dedup_from zero_hash (sort_hashes (ul_shallows u))) ++ depth_lines u ++ ftail (ul_filter u)) = true) as Hstart.
  { unfold ulshallow_lines, depth_lines, ftail. rewrite !forallb_app, !forallb_map_all by reflexivity.
    destruct (ul_deepen u >? 0)%Z, (ul_since u), (ul_filter u); reflexivity. }
  assert (forall cp, ul_wants_go (map item_of (want_lines (dedup_from w0 ws) ++ ulshallow_lines (dedup_from zero_hash (sort_hashes (ul_shallows u))) ++
                                               depth_lines u ++ ftail (ul_filter u))) None (mkulreq cp [w0] [] 0 None [] [])
            = inl (mkulreq cp (w0 :: dedup_from w0 ws) (dedup_from zero_hash (sort_hashes (ul_shallows u)))
                           (ul_deepen u) (ul_since u) (ul_not u) (ul_filter u))) as Hrest.
  { intros cp. apply forallb_Forall in Hdw, Hds. rewrite map_app. unfold want_lines. rewrite map_map.
    rewrite (lines_acc (fun l => ul_wants_go l None) _ (fun acc => mkulreq cp acc [] 0 None [] []) _
               (fun h r acc => ul_want_step h r cp acc [] 0 None [] [])) by assumption.
    rewrite (ul_wants_handover _ _ Hstart), map_app. unfold ulshallow_lines. rewrite map_map.
    rewrite (lines_acc after_line _ (fun acc => mkulreq cp ([w0] ++ dedup_from w0 ws) acc 0 None [] []) _
               (fun h r acc => after_shallow h r cp _ acc 0 None [] [])) by assumption.
    unfold depth_lines. rewrite <- !app_assoc. now rewrite after_depth. }
  unfold ul_decode, ul_first. cbn [s_items s_fin map].
  destruct (ul_caps u) as [|e caps'] eqn:Ec.
  - change (B "want " ++ hash_str w0 ++ [NL]) with ((B "want " ++ hash_str w0) ++ [NL]). rewrite ul_line_data.
    rewrite has_prefix_app. cbn [negb]. rewrite (skipn_app_exact (B "want ") (hash_str w0) 5 eq_refl), (read_hash_only w0 Hw0).
    apply Hrest.
  - rewrite <- Ec in *.
    replace (B "want " ++ hash_str w0 ++ [SP] ++ cap_encode (ul_caps u) ++ [NL])
      with ((B "want " ++ hash_str w0 ++ SP :: cap_encode (ul_caps u)) ++ [NL]) by (cbn [app]; now rewrite <- !app_assoc).
    rewrite ul_line_data. rewrite has_prefix_app. cbn [negb].
    rewrite (skipn_app_exact (B "want ") (hash_str w0 ++ SP :: cap_encode (ul_caps u)) 5 eq_refl), (read_hash_sp w0 _ Hw0).
    change (trim_prefix [SP] (SP :: cap_encode (ul_caps u))) with (cap_encode (ul_caps u)). rewrite (caps_roundtrip _ Hcaps).
    apply Hrest.
Qed.
