(* Proofs/C53.v — C53 for the variable-length integers of Model/C53Varint.v (no
   index out of range, no exhausted fuel, at most 9 bytes consumed) and for what
   a packp decoder is handed: at most |input|/4 lines, of which AdvRefs.Decode
   keeps at most one reference or shallow each.  Totality of pkt-line and
   sideband themselves is in Proofs/C34Pkt.v and Proofs/C34Sideband.v. *)
From Coq Require Import List ZArith Bool Lia.
From GoGit Require Import Gen.C53 Model.PktLine Model.Packp Model.C53Varint Proofs.C34Pkt.
Import ListNotations.

Definition leb_bad (v : vres) : bool := match v with VOob | VFuel => true | _ => false end.

Lemma leb_loop_props : forall fuel input num sz,
  (sz < List.length input)%nat -> (List.length input - sz <= fuel)%nat ->
  match leb_loop fuel input num sz with
  | VOk _ rest => exists k, rest = skipn k input /\ (sz < k <= List.length input)%nat /\ (Z.of_nat k <= 9)%Z
  | v => leb_bad v = false
  end.
Proof.
  induction fuel as [|f IH]; intros input num sz Hsz Hf; [lia|].
  cbn [leb_loop]. unfold pfutil_uintBits. destruct (Z.gtb_spec (Z.of_nat sz * 7) (64 - 7)); [reflexivity|].
  destruct (nth_error input sz) as [b|] eqn:E; [|apply nth_error_None in E; lia].
  destruct (_ || Nat.eqb (S sz) (List.length input)) eqn:C.
  - exists (S sz). repeat split; lia.
  - apply orb_false_elim in C. destruct C as [_ C]. apply Nat.eqb_neq in C.
    specialize (IH input (leb_step num b sz) (S sz) ltac:(lia) ltac:(lia)).
    destruct (leb_loop f input _ (S sz)); try exact IH.
    destruct IH as (k & Hr & Hk & H9). exists k. repeat split; try lia. assumption.
Qed.

(* DecodeLEB128: no index out of range, no exhausted fuel, at most 9 bytes taken *)
Theorem decode_leb128_props input :
  match decode_leb128 input with
  | VOk _ rest => exists k, rest = skipn k input /\ (k <= List.length input)%nat /\ (k <= 9)%nat
  | v => leb_bad v = false
  end.
Proof.
  unfold decode_leb128. destruct input as [|b r]; [exists 0%nat; cbn; repeat split; lia|].
  pose proof (leb_loop_props (S (List.length (b :: r))) (b :: r) 0 0) as A.
  destruct (leb_loop _ (b :: r) 0 0); try (apply A; cbn [List.length]; lia).
  destruct A as (k & Hr & Hk & H9); [cbn [List.length]; lia..|]. exists k. repeat split; try lia. assumption.
Qed.

(* the reader variants are structural: no fuel at all.  VariableLengthSize gives up once the shift passes 64 - 7 *)
Lemma vls_loop_consumed : forall input size shift n rest,
  vls_loop input size shift = VOk n rest ->
  exists k, rest = skipn k input /\ (1 <= k <= List.length input)%nat /\ (shift + 7 * Z.of_nat k <= 64)%Z.
Proof.
  induction input as [|b r IH]; intros size shift n rest H; cbn [vls_loop] in H;
    destruct (Z.gtb_spec shift (64 - 7)); try discriminate.
  destruct (Z.land (Z.of_N b) pfutil_maskContinue =? 0)%Z.
  - injection H as <- <-. exists 1%nat. cbn [skipn List.length]. repeat split; lia.
  - apply IH in H. destruct H as (k & Hr & Hk & H9). exists (S k). cbn [skipn List.length]. repeat split; try lia. assumption.
Qed.

(* DecodeLEB128FromReader is the same loop; it keeps the shift as a count of bytes *)
Lemma leb_reader_vls : forall input num sz, leb_reader input num sz = vls_loop input num (Z.of_nat sz * 7).
Proof.
  induction input as [|b r IH]; intros num sz; cbn [leb_reader vls_loop]; [reflexivity|].
  rewrite IH. replace (Z.of_nat (S sz) * 7)%Z with (Z.of_nat sz * 7 + 7)%Z by lia. reflexivity.
Qed.

Lemma scan_all_go_count : forall fuel r acc l,
  scan_all_go fuel r acc = RAll l -> (4 * List.length l <= 4 * List.length acc + 4 + rlen r)%nat.
Proof.
  induction fuel as [|f IH]; intros r acc l H; [discriminate|].
  cbn [scan_all_go] in H. pose proof (scan_ok_consumes r) as C.
  destruct (scan r) as [s r']. cbn [fst snd] in C. destruct (sc_ok s).
  - specialize (C eq_refl). apply IH in H. cbn [List.length] in H. lia.
  - injection H as <-. cbn [rev]. rewrite app_length, rev_length. cbn [List.length]. lia.
Qed.

Lemma src_of_items_count l : (List.length (s_items (src_of_items l)) = List.length l - 1)%nat.
Proof.
  induction l as [|d l IH]; [reflexivity|]. destruct l as [|e l]; [reflexivity|].
  change (src_of_items (d :: e :: l)) with
    (mksrc ((rd_len d, rd_payload d) :: s_items (src_of_items (e :: l))) (s_fin (src_of_items (e :: l)))).
  cbn [s_items List.length] in *. lia.
Qed.

Theorem scan_items_bound r : (4 * List.length (s_items (src_of (scan_all r))) <= rlen r)%nat.
Proof.
  pose proof (scan_all_total r) as T. unfold scan_all in *.
  destruct (scan_all_go (S (S (rlen r))) r []) as [l|] eqn:E; [|contradiction].
  apply scan_all_go_count in E. cbn [src_of List.length] in *. rewrite src_of_items_count. lia.
Qed.

(* AdvRefs.Decode appends at most one reference or shallow per line *)
Lemma adv_rest_count : forall items fin sh a a',
  adv_rest items fin sh a = inl a' ->
  (List.length (ar_refs a') + List.length (ar_shallows a') <=
   List.length (ar_refs a) + List.length (ar_shallows a) + List.length items)%nat.
Proof.
  induction items as [|it r IH]; intros fin sh a a' H; [discriminate|].
  cbn [adv_rest] in H. destruct (line_of it) as [|c line] eqn:L.
  { injection H as <-. cbn [List.length]. lia. }
  destruct (has_prefix _ (c :: line)).
  - destruct (Nat.eqb (List.length (skipn 8 (c :: line))) 40 || Nat.eqb (List.length (skipn 8 (c :: line))) 64); [|discriminate].
    destruct (from_hex (skipn 8 (c :: line))) as [h [|]]; [|discriminate].
    apply IH in H. cbn [ar_refs ar_shallows List.length] in *. rewrite app_length in H. cbn [List.length] in H. lia.
  - destruct sh; [discriminate|].
    destruct (cut SP (c :: line)) as [[before after]|]; [|discriminate].
    destruct (index_byte SP after); [discriminate|].
    apply IH in H. cbn [ar_refs ar_shallows List.length] in *. rewrite app_length in H. cbn [List.length] in H. lia.
Qed.

Lemma adv_first_count line r fin a a' :
  adv_first line r fin a = inl a' -> ar_refs a = [] -> ar_shallows a = [] ->
  (List.length (ar_refs a') + List.length (ar_shallows a') <= 1 + List.length r)%nat.
Proof.
  unfold adv_first. intros H Hr Hs.
  destruct (negb ((ar_version a =? 0)%Z || (ar_version a =? 1)%Z)); [discriminate|].
  destruct line as [|c line]; [discriminate|].
  destruct (Nat.ltb (List.length (c :: line)) 40); [discriminate|].
  destruct (hash_from (c :: line)) as [h|]; [|discriminate].
  destruct (hash_is_zero h).
  - destruct (Nat.ltb _ _); [discriminate|]. destruct (negb _); [discriminate|].
    apply adv_rest_count in H. cbn [ar_refs ar_shallows] in H. rewrite Hr, Hs in H. cbn [List.length] in H. lia.
  - destruct (Nat.ltb _ 3); [discriminate|].
    destruct (skipn (hash_hexsize h) (c :: line)) as [|c0 rem]; [discriminate|].
    destruct (negb (N.eqb c0 SP)); [discriminate|].
    destruct (cut NUL rem) as [[name capsb]|]; [|discriminate].
    apply adv_rest_count in H. cbn [ar_refs ar_shallows] in H. rewrite Hr, Hs, app_length in H. cbn [List.length] in H. lia.
Qed.

Theorem adv_decode_count s a : adv_decode s = inl a ->
  (List.length (ar_refs a) + List.length (ar_shallows a) <= List.length (s_items s))%nat.
Proof.
  unfold adv_decode. destruct (s_items s) as [|it r]; [discriminate|].
  destruct (line_of it) as [|c line]; [discriminate|].
  destruct (has_prefix _ (c :: line)).
  - destruct (parse_version _); [|discriminate]. destruct r as [|it2 r2]; [discriminate|].
    intros H. apply adv_first_count in H; [|reflexivity|reflexivity]. cbn [List.length]. lia.
  - intros H. apply adv_first_count in H; [|reflexivity|reflexivity]. cbn [List.length]. lia.
Qed.
