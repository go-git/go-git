(* Proofs/C02IdentGit.v — identity lines: for every value that passes the
   boolean clauses person_ok / date_ok of Spec/ObjWf, go-git's
   Signature.Decode yields the name, e-mail and raw date git reports
   (ident.c split_ident_line + pretty.c show_ident_date). *)
From Coq Require Import List NArith ZArith Bool Lia ZifyBool ZifyNat ZifyN.
From GoGit Require Import Base.Out Model.ObjLines Model.Ident Spec.GitFields Spec.ObjWf
     Proofs.ObjLinesFacts Proofs.C02Dec Proofs.C02Ident.
Import ListNotations.
Local Open Scope N_scope.

(* what go-git's fields print as, in git's raw date format; "" for the zero time *)
Definition go_date (i : ident) : bytes :=
  if ((id_ts i =? zero_ts) && (id_tz i =? 0))%Z then []
  else print_dec (Z.to_N (id_ts i)) ++ [SPC] ++ fmt_zone (id_tz i).

Lemma take_while_skipn (f : N -> bool) b : b = take_while f b ++ skipn (List.length (take_while f b)) b.
Proof. induction b as [|c r IH]; [reflexivity|]. cbn [take_while]. destruct (f c); [|reflexivity]. cbn [List.length skipn app]. now rewrite <- IH. Qed.

Lemma take_while_all (f : N -> bool) b : forallb f (take_while f b) = true.
Proof. induction b as [|c r IH]; [reflexivity|]. cbn [take_while]. destruct (f c) eqn:E; [|reflexivity]. cbn [forallb]. rewrite E. exact IH. Qed.

Lemma take_while_app (f : N -> bool) a b : forallb f a = true -> (match b with c :: _ => f c = false | [] => True end) ->
  take_while f (a ++ b) = a.
Proof.
  intros Ha Hb. induction a as [|x a IH]; cbn [app take_while].
  - destruct b as [|c b]; [reflexivity|]. cbn [take_while]. now rewrite Hb.
  - cbn [forallb] in Ha. apply andb_true_iff in Ha as [H1 H2]. now rewrite H1, (IH H2).
Qed.

Lemma drop_while_head (f : N -> bool) b : (match b with c :: _ => f c = false | [] => True end) -> drop_while f b = b.
Proof. destruct b as [|c b]; [reflexivity|]. cbn. now intros ->. Qed.

Lemma count_app c a b : count_byte c (a ++ b) = (count_byte c a + count_byte c b)%nat.
Proof. unfold count_byte. now rewrite filter_app, app_length. Qed.

Lemma count_zero c b : has_byte c b = false -> count_byte c b = 0%nat.
Proof.
  unfold count_byte, has_byte. induction b as [|x b IH]; [reflexivity|]. cbn [existsb filter]. intros H.
  apply orb_false_iff in H as [H1 H2]. rewrite H1. now apply IH.
Qed.

Lemma has_of_count c b : count_byte c b = 0%nat -> has_byte c b = false.
Proof.
  unfold count_byte, has_byte. induction b as [|x b IH]; [reflexivity|]. cbn [existsb filter].
  destruct (c =? x); cbn [List.length orb]; [discriminate|exact IH].
Qed.

Lemma count_unique c v : count_byte c v = 1%nat ->
  exists x y, v = x ++ c :: y /\ has_byte c x = false /\ has_byte c y = false.
Proof.
  induction v as [|a v IH]; [discriminate|].
  change (a :: v) with ([a] ++ v). rewrite count_app. unfold count_byte at 1. cbn [filter].
  destruct (c =? a) eqn:E; cbn [List.length Nat.add].
  - intros H. apply N.eqb_eq in E. subst a. exists [], v. repeat split. apply has_of_count. lia.
  - intros H. destruct (IH H) as [x [y [-> [Hx Hy]]]]. exists (a :: x), y. repeat split; [|exact Hy].
    rewrite has_byte_cons, E, Hx. reflexivity.
Qed.

Lemma index_of_none c b : has_byte c b = false -> index_of c b = None.
Proof.
  induction b as [|x b IH]; [reflexivity|]. intros H. apply has_byte_cons_false in H as [H1 H2].
  cbn [index_of]. now rewrite H1, (IH H2).
Qed.

Lemma index_of_lt c x y i : index_of c (x ++ y) = Some i -> has_byte c x = true -> (i < List.length x)%nat.
Proof.
  revert i. induction x as [|a x IH]; intros i H Hx; [discriminate|]. cbn [app index_of] in H. cbn [List.length].
  destruct (a =? c) eqn:E; [inversion H; lia|].
  rewrite has_byte_cons, N.eqb_sym, E in Hx. cbn [orb] in Hx.
  destruct (index_of c (x ++ y)) as [j|] eqn:Ej; [|discriminate]. inversion H; subst. specialize (IH _ eq_refl Hx). lia.
Qed.

(* a name part on which git's strip of blanks (SP TAB LF CR) is go-git's trim of spaces *)
Definition name_ok (x : bytes) : Prop :=
  trim_right SPC x = [] \/
  (first_is SPC x = false /\ last_is 9 (trim_right SPC x) || last_is 13 (trim_right SPC x) = false).

(* the shape person_ok describes: the name part [x] may hold '>' *)
Lemma person_shape v : person_ok v = true ->
  exists x m a, v = x ++ LT :: m ++ GT :: a /\
    has_byte LT x = false /\ has_byte LT m = false /\ has_byte GT m = false /\
    has_byte LT a = false /\ has_byte GT a = false /\ name_ok x.
Proof.
  unfold person_ok. intros H.
  destruct (index_of LT v) as [lt|] eqn:El; [|discriminate].
  destruct (index_of_split _ _ _ El) as [x [y [-> [Hx ->]]]].
  rewrite firstn_app_exact in H.
  rewrite skipn_cons_exact in H.
  apply andb_true_iff in H as [H Hm]. apply andb_true_iff in H as [H1 H2].
  apply negb_true_iff in H1. apply Nat.eqb_eq in H2.
  destruct (count_unique _ _ H2) as [m [a [-> [Hgm Hga]]]].
  rewrite has_byte_app, has_byte_cons in H1. apply orb_false_iff in H1 as [Hlm H1]. apply orb_false_iff in H1 as [_ Hla].
  exists x, m, a. repeat split; try assumption. unfold name_ok.
  destruct (trim_right SPC x) as [|t0 ts] eqn:Et; [now left|right].
  apply andb_true_iff in Hm as [Hf Hl]. now rewrite negb_true_iff in Hf, Hl.
Qed.

Lemma trim_right_spec c b : exists n, b = trim_right c b ++ repeat c n /\ last_is c (trim_right c b) = false.
Proof.
  induction b as [|x b [n [Hb Hl]]].
  - exists 0%nat. now split.
  - cbn [trim_right]. destruct (trim_right c b) as [|t ts] eqn:E.
    + destruct (x =? c) eqn:Ex.
      * apply N.eqb_eq in Ex. subst x. exists (S n). split; [|reflexivity]. cbn [app repeat]. f_equal. exact Hb.
      * exists n. split; [cbn [app]; f_equal; exact Hb|]. unfold last_is. cbn. exact Ex.
    + exists n. split; [cbn [app]; f_equal; exact Hb|].
      unfold last_is in *. cbn [rev] in *. destruct (rev ts ++ [t]) eqn:R; [destruct (rev ts); discriminate|]. exact Hl.
Qed.

Lemma rev_repeat' {A} (c : A) n : rev (repeat c n) = repeat c n.
Proof. induction n as [|n IH]; [reflexivity|]. cbn. now rewrite IH, <- repeat_cons. Qed.

Lemma drop_while_repeat (f : N -> bool) c n r : f c = true -> drop_while f (repeat c n ++ r) = drop_while f r.
Proof. intros H. induction n as [|n IH]; [reflexivity|]. cbn. now rewrite H. Qed.

(* stripping a class of bytes from the right of t ++ c..c: c is in the class, the last byte of t is not *)
Lemma rstrip_run f t c n : f c = true -> (match rev t with z :: _ => f z = false | [] => True end) ->
  rstrip f (t ++ repeat c n) = t.
Proof.
  intros Hc Ht. unfold rstrip.
  rewrite rev_app_distr, rev_repeat', (drop_while_repeat f c n _ Hc), (drop_while_head _ _ Ht). apply rev_involutive.
Qed.

Lemma name_agree x : no_lf x = true -> name_ok x -> rstrip git_isspace x = trim_both SPC x.
Proof.
  intros Hlf Hn. destruct (trim_right_spec SPC x) as [n [Hx Hl]]. unfold trim_both, name_ok in *.
  set (t := trim_right SPC x) in *.
  assert (Ht : trim_left SPC t = t).
  { destruct Hn as [->|[Hf _]]; [reflexivity|]. apply trim_left_id. destruct t; [reflexivity|]. now rewrite Hx in Hf. }
  rewrite Ht. rewrite Hx at 1. apply rstrip_run; [reflexivity|].
  assert (Hr : no_lf (rev t) = true) by (rewrite Hx, no_lf_app in Hlf; now apply andb_true_iff in Hlf as [Hlf%no_lf_rev _]).
  unfold last_is in Hl, Hn. destruct (rev t) as [|z zs] eqn:R; [exact I|].
  destruct Hn as [E|[_ Hc]]; [now rewrite E in R|].
  cbn in Hl, Hc. apply no_lf_uncons in Hr as [Hz _].
  unfold git_isspace, LF, SPC in *. lia.
Qed.

(* a text without digits holds no date, for git and for go-git *)
Lemma no_digit_take f a : existsb is_digit a = false -> take_while is_digit (drop_while f a) = [].
Proof.
  induction a as [|c r IH]; [reflexivity|]. cbn [existsb]. intros H. apply orb_false_iff in H as [H1 H2].
  cbn [drop_while]. destruct (f c); [now apply IH|]. cbn [take_while]. now rewrite H1.
Qed.

Lemma no_digit_firstn n : forall a, existsb is_digit a = false -> existsb is_digit (firstn n a) = false.
Proof.
  induction n as [|n IH]; intros [|c r] H; try reflexivity. cbn [existsb] in H. apply orb_false_iff in H as [H1 H2].
  cbn [firstn existsb]. now rewrite H1, (IH _ H2).
Qed.

Lemma no_digit_tl a : existsb is_digit a = false -> existsb is_digit (tl a) = false.
Proof. destruct a as [|c r]; [reflexivity|]. cbn [existsb tl]. intros H. now apply orb_false_iff in H as [_ H]. Qed.

Lemma no_digit_digits_val b : existsb is_digit b = false -> digits_val b = None.
Proof.
  destruct b as [|c r]; [reflexivity|]. cbn [existsb]. intros H. apply orb_false_iff in H as [H1 _].
  unfold digits_val. cbn [digits_acc]. now rewrite H1.
Qed.

Lemma no_digit_parse b : existsb is_digit b = false -> parse_int64 b = None.
Proof.
  destruct b as [|c r]; [reflexivity|]. intros H. pose proof (no_digit_digits_val _ H) as Hb.
  pose proof (no_digit_digits_val _ (no_digit_tl _ H)) as Hr. cbn [tl] in Hr.
  unfold parse_int64. destruct (c =? 43); [now rewrite Hr|]. destruct (c =? 45); [now rewrite Hr|]. now rewrite Hb.
Qed.

Lemma no_digit_time nm em b : existsb is_digit b = false -> decode_time nm em b = mk_ident nm em zero_ts 0.
Proof. intros H. unfold decode_time. now rewrite (no_digit_parse _ (no_digit_firstn _ _ H)). Qed.

(* print_dec by its recursion: the fuel only makes it terminate *)
Lemma dec_aux_print : forall n f acc, n <> 0 -> n < 10 ^ N.of_nat f -> dec_aux f n acc = print_dec n ++ acc.
Proof.
  induction n as [n IH] using (well_founded_induction N.lt_wf_0). intros [|f] acc N0 Hf; [cbn in Hf; lia|].
  pose proof (print_dec_fuel n) as Hs. rewrite Nat2N.inj_succ, N.pow_succ_r' in Hf, Hs.
  unfold print_dec. cbn [dec_aux]. destruct (n / 10 =? 0) eqn:E; [reflexivity|]. apply N.eqb_neq in E.
  assert (L : n / 10 < n) by (apply N.div_lt; lia).
  rewrite (IH _ L f), (IH _ L _ [_]) by first [exact E|apply N.div_lt_upper_bound; lia].
  now rewrite <- app_assoc.
Qed.

Lemma print_dec_small d : d < 10 -> print_dec d = [48 + d].
Proof. intros H. unfold print_dec. cbn [dec_aux]. now rewrite N.div_small, N.mod_small. Qed.

Lemma print_dec_snoc q d : 0 < q -> d < 10 -> print_dec (10 * q + d) = print_dec q ++ [48 + d].
Proof.
  intros Hq Hd. pose proof (print_dec_fuel (10 * q + d)) as Hs. rewrite Nat2N.inj_succ, N.pow_succ_r' in Hs.
  unfold print_dec at 1. cbn [dec_aux]. rewrite <- (N.div_unique _ 10 q d), <- (N.mod_unique _ 10 q d) by lia.
  replace (q =? 0) with false by lia. apply dec_aux_print; lia.
Qed.

(* git's "%+05d" of hhmm is the two digits of the hours, then those of the minutes: by which of the leading
   digits are zero *)
Lemma zone_digits hh mm : hh < 100 -> mm < 100 ->
  let p := print_dec (100 * hh + mm) in repeat 48 (4 - List.length p) ++ p = pad2 hh ++ pad2 mm.
Proof.
  intros Hh Hm.
  destruct (pad2_form hh Hh) as (a & b & Ha & Hb & -> & ->). destruct (pad2_form mm Hm) as (c & d & Hc & Hd & -> & ->).
  replace (100 * (10 * a + b) + (10 * c + d)) with (10 * (10 * (10 * a + b) + c) + d) by lia. cbv zeta.
  destruct (N.eq_dec a 0) as [->|A]; [destruct (N.eq_dec b 0) as [->|B]; [destruct (N.eq_dec c 0) as [->|C]|]|];
    rewrite ?N.mul_0_r, ?N.add_0_l, ?print_dec_snoc, print_dec_small by lia; reflexivity.
Qed.

(* Go's "-0700" of the decoded offset is git's "%+05d": the digits by zone_digits, the sign and the cut into
   hours and minutes by arithmetic *)
Lemma zone_agree (neg : bool) hh mm : hh < 100 -> mm < 60 ->
  let sgn (n : N) := if neg then (- Z.of_N n)%Z else Z.of_N n in
  fmt_zone (sgn (60 * hh + mm)) = fmt_plus05 (sgn (100 * hh + mm)).
Proof.
  intros Hh Hm sgn. unfold fmt_zone, fmt_plus05.
  replace (Z.to_N (Z.abs (sgn (60 * hh + mm)))) with (60 * hh + mm) by (unfold sgn; destruct neg; lia).
  replace (Z.to_N (Z.abs (sgn (100 * hh + mm)))) with (100 * hh + mm) by (unfold sgn; destruct neg; lia).
  replace ((60 * hh + mm) / 60) with hh by (apply (N.div_unique _ 60 hh mm); lia).
  replace ((60 * hh + mm) mod 60) with mm by (apply (N.mod_unique _ 60 hh mm); lia).
  replace (sgn (100 * hh + mm)%N <? 0)%Z with (sgn (60 * hh + mm)%N <? 0)%Z by (unfold sgn; destruct neg; lia).
  now rewrite zone_digits by lia.
Qed.

Lemma two_digits_facts a b n : two_digits a b = Some n ->
  is_digit a = true /\ is_digit b = true /\ n = 10 * (a - 48) + (b - 48) /\ n < 100 /\ digits_val [a; b] = Some n.
Proof.
  unfold two_digits. destruct (is_digit a) eqn:Ea, (is_digit b) eqn:Eb; try discriminate. cbn [andb]. intros H.
  assert (Hn : 10 * (a - 48) + (b - 48) = n) by (now injection H). clear H. subst n.
  repeat split; try (unfold is_digit in *; lia).
  unfold digits_val. cbn [digits_acc]. rewrite Ea, Eb. f_equal; lia.
Qed.

Lemma digits_acc_fold l : forall a, forallb is_digit l = true ->
  digits_acc a l = Some (fold_left (fun a c => 10 * a + (c - 48)) l a).
Proof.
  induction l as [|x l IH]; intros a Hd; [reflexivity|].
  cbn [forallb] in Hd. apply andb_true_iff in Hd as [H1 H2]. cbn [digits_acc fold_left]. rewrite H1. now apply IH.
Qed.

Lemma dval_digits ds : forallb is_digit ds = true -> ds <> [] -> digits_val ds = Some (dval ds).
Proof.
  intros Hd Hne. unfold digits_val, dval. destruct ds as [|c r]; [contradiction|]. now apply digits_acc_fold.
Qed.

(* show_date's guard against zones that do not fit an int never fires on four digits *)
Lemma tz_no_clamp (z : Z) : (-10000 < z < 10000)%Z ->
  (if ((2147483647 <=? z) || (z <=? -2147483648))%Z then 0%Z else z) = z.
Proof. intros H. replace ((2147483647 <=? z) || (z <=? -2147483648))%Z with false by lia. reflexivity. Qed.

Definition ends_digits (rest : bytes) : Prop := match rest with c :: _ => is_digit c = false | [] => True end.

(* the parts of a text date_canon accepts (" <digits> [+-]hhmm" and no further digit), and what go-git decodes
   from it, printed as git prints a date *)
Lemma date_canon_go nm em a : date_canon a = true ->
  exists ds s h1 h2 m1 m2 rest, let zs := [h1; h2; m1; m2] in
    a = SPC :: ds ++ SPC :: s :: zs ++ rest /\
    ds <> [] /\ forallb is_digit ds = true /\ (s =? 43) || (s =? 45) = true /\
    forallb is_digit zs = true /\ ends_digits rest /\ dval ds < 2 ^ 63 /\ dval zs < 10000 /\
    go_date (decode_time nm em (tl a)) = git_show_date (ds, s, zs).
Proof.
  unfold date_canon. destruct a as [|sp t]; [discriminate|]. intros H. apply andb_true_iff in H as [Hsp H].
  apply N.eqb_eq in Hsp. subst sp.
  pose proof (take_while_skipn is_digit t) as Ht. pose proof (take_while_all is_digit t) as Hds.
  set (ds := take_while is_digit t) in *.
  destruct ds as [|d0 ds0] eqn:Eds; [discriminate|]. rewrite <- Eds in *.
  assert (Hne : ds <> []) by (rewrite Eds; discriminate). clear Eds d0 ds0.
  destruct (skipn (List.length ds) t) as [|sp2 [|s [|h1 [|h2 [|m1 [|m2 rest]]]]]]; try discriminate.
  clearbody ds. subst t.
  apply andb_true_iff in H as [H Hz]. apply andb_true_iff in H as [H Hv]. apply andb_true_iff in H as [Hsp2 Hs].
  apply N.eqb_eq in Hsp2. subst sp2. apply N.ltb_lt in Hv.
  destruct (two_digits h1 h2) as [hh|] eqn:Ehh; [|discriminate]. destruct (two_digits m1 m2) as [mm|] eqn:Emm; [|discriminate].
  apply andb_true_iff in Hz as [Hz Hrest]. apply andb_true_iff in Hz as [Hmm Hneg0]. apply N.ltb_lt in Hmm.
  destruct (two_digits_facts _ _ _ Ehh) as [Dh1 [Dh2 [Vh [Bh Ph]]]].
  destruct (two_digits_facts _ _ _ Emm) as [Dm1 [Dm2 [Vm [Bm Pm]]]].
  assert (Hdz : dval [h1; h2; m1; m2] = 100 * hh + mm).
  { unfold dval. cbn [fold_left]. clear - Vh Vm Dh1 Dh2 Dm1 Dm2. unfold is_digit in *. lia. }
  assert (Hzs : forallb is_digit [h1; h2; m1; m2] = true) by (cbn [forallb]; now rewrite Dh1, Dh2, Dm1, Dm2).
  exists ds, s, h1, h2, m1, m2, rest. cbv zeta.
  repeat (split; [first [reflexivity|assumption]|]).
  split; [destruct rest; [exact I|now apply negb_true_iff in Hrest]|].
  split; [exact Hv|]. split; [rewrite Hdz; clear - Bh Hmm; lia|].
  (* go-git: seconds, then sign, hours and minutes through strconv.ParseInt *)
  cbn [tl app].
  rewrite (decode_time_canon nm em ds s h1 h2 m1 m2 rest (Z.of_N (dval ds)) (digits_no_spc _ Hds))
    by (apply parse_int64_digits; [exact Hne|exact Hds|now apply dval_digits|clear - Hv; lia]).
  rewrite (parse_int64_signed s _ _ Hs Ph) by (clear - Bh; lia).
  rewrite (parse_int64_digits [m1; m2] mm ltac:(discriminate)) by (first [now cbn [forallb]; rewrite Dm1, Dm2|exact Pm|clear - Bm; lia]).
  unfold go_date, git_show_date. cbn [id_ts id_tz]. rewrite Hdz, N2Z.id.
  replace (2 ^ 63 <=? dval ds) with false by (clear - Hv; lia).
  replace (Z.of_N (dval ds) =? zero_ts)%Z with false by (clear; unfold zero_ts; lia). cbn [andb].
  do 2 f_equal. rewrite tz_no_clamp by (clear - Bh Hmm; destruct (s =? 45); lia). destruct (s =? 45) eqn:E45.
  - assert (H0 : hh = 0 -> mm = 0) by (clear - Hneg0; lia).
    rewrite (neg_zone_minutes _ _ H0). exact (zone_agree true hh mm Bh Hmm).
  - replace (Z.of_N hh <? 0)%Z with false by (clear; lia).
    replace (Z.of_N hh * 60 + Z.of_N mm)%Z with (Z.of_N (60 * hh + mm)) by (clear; lia). exact (zone_agree false hh mm Bh Hmm).
Qed.

(* ident.c split_ident_line: the date it finds in the text after the last '>' *)
Definition git_date_of (tail : bytes) : option (bytes * N * bytes) :=
  let t1 := drop_while git_isspace tail in
  let ds := take_while is_digit t1 in
  let t2 := drop_while git_isspace (skipn (List.length ds) t1) in
  match ds, t2 with
  | _ :: _, s :: t3 =>
    if (s =? 43) || (s =? 45) then match take_while is_digit t3 with [] => None | zs => Some (ds, s, zs) end else None
  | _, _ => None
  end.

Lemma git_date_of_none a : existsb is_digit a = false -> git_date_of a = None.
Proof. intros H. unfold git_date_of. now rewrite (no_digit_take git_isspace _ H). Qed.

Lemma git_date_of_canon ds s zs rest :
  ds <> [] -> forallb is_digit ds = true -> (s =? 43) || (s =? 45) = true ->
  zs <> [] -> forallb is_digit zs = true -> ends_digits rest ->
  git_date_of (SPC :: ds ++ SPC :: s :: zs ++ rest) = Some (ds, s, zs).
Proof.
  intros Hne Hds Hs Hnz Hzs Hrest. unfold git_date_of. cbv zeta.
  assert (Ed : drop_while git_isspace (SPC :: ds ++ SPC :: s :: zs ++ rest) = ds ++ SPC :: s :: zs ++ rest).
  { cbn [drop_while]. change (git_isspace SPC) with true. cbv iota. apply drop_while_head.
    destruct ds as [|d0 ds0]; [contradiction|]. cbn [app forallb] in *. apply andb_true_iff in Hds as [Hd0 _].
    unfold git_isspace, is_digit in *. lia. }
  rewrite Ed, (take_while_app is_digit ds (SPC :: s :: zs ++ rest) Hds eq_refl), skipn_app_exact.
  assert (Hss : git_isspace s = false) by (apply orb_true_iff in Hs as [Hs|Hs]; apply N.eqb_eq in Hs; subst s; reflexivity).
  cbn [drop_while]. change (git_isspace SPC) with true. cbv iota. rewrite Hss, Hs, (take_while_app is_digit zs rest Hzs Hrest).
  destruct ds; [contradiction|]. destruct zs; [contradiction|]. reflexivity.
Qed.

Lemma git_split_ident_date line : git_split_ident line =
  match index_of 60 line with
  | None => None
  | Some lt =>
    match index_of 62 (skipn (S lt) line) with
    | None => None
    | Some gt => Some (mk_gident (rstrip git_isspace (firstn lt line)) (firstn gt (skipn (S lt) line))
                                 (git_date_of (match last_index_of 62 line with Some i => skipn (S i) line | None => [] end)))
    end
  end.
Proof. reflexivity. Qed.

Theorem ident_matches_git : forall v,
  no_lf v = true -> person_ok v = true -> date_ok v = true ->
  let i := decode_ident v in
  git_person (Some v) = (id_name i, id_email i, go_date i).
Proof.
  intros v Hlf Hp Hd.
  destruct (person_shape _ Hp) as [x [m [a [-> [Hlx [Hlm [Hgm [Hla [Hga Hnx]]]]]]]]].
  assert (Hlfx : no_lf x = true) by (rewrite no_lf_app in Hlf; now apply andb_true_iff in Hlf).
  set (v := x ++ LT :: m ++ GT :: a) in *.
  assert (V : v = (x ++ LT :: m) ++ GT :: a) by (unfold v; now rewrite <- app_assoc).
  assert (A2 : last_index_of GT v = Some (List.length (x ++ LT :: m))) by (rewrite V; now apply last_index_of_unique).
  assert (A3 : skipn (S (List.length (x ++ LT :: m))) v = a) by (rewrite V; apply skipn_cons_exact).
  assert (A4 : skipn (S (List.length x)) v = m ++ GT :: a) by apply skipn_cons_exact.
  unfold git_person. rewrite git_split_ident_date. change 60 with LT. change 62 with GT.
  rewrite (index_of_first _ _ _ Hlx : index_of LT v = _), (firstn_app_exact _ _ : firstn _ v = x), A4.
  rewrite (index_of_first _ _ _ Hgm), firstn_app_exact, A2, A3, (name_agree _ Hlfx Hnx). cbn [g_name g_mail g_date].
  cbv zeta. rewrite (decode_ident_shape _ _ _ Hlm Hla Hga : decode_ident v = _).
  unfold date_ok in Hd. rewrite A2, A3 in Hd. cbv zeta in Hd. apply orb_true_iff in Hd as [Hd|Hd].
  - (* no digit after the last '>': no date on either side *)
    apply negb_true_iff in Hd. rewrite (git_date_of_none _ Hd), (no_digit_time _ _ _ (no_digit_tl _ Hd)).
    now destruct (Nat.ltb 1 (List.length a)).
  - destruct (date_canon_go (trim_both SPC x) m a Hd) as (ds & s & h1 & h2 & m1 & m2 & rest & Hi). cbv zeta in Hi.
    destruct Hi as (Ea & Hne & Hds & Hs & Hzs & Hrest & _ & _ & Eg).
    rewrite Ea at 1. rewrite (git_date_of_canon ds s [h1; h2; m1; m2] rest Hne Hds Hs ltac:(discriminate) Hzs Hrest).
    replace (Nat.ltb 1 (List.length a)) with true by (rewrite Ea; destruct ds; [contradiction|reflexivity]).
    destruct (decode_time_ne (trim_both SPC x) m (tl a)) as [-> ->]. now rewrite Eg.
Qed.
