(* Proofs/C49Wide.v — ignore files whose lines are all in a fragment of
   coherent patterns give the same verdict in go-git and in git, for every
   path none of whose ancestor directories is re-included by a negation.
   Generic in the per-line fragment and in the set of paths on which its
   lines are coherent (Section Coherent), instantiated in C49Frag.v. *)
From Coq Require Import List NArith Bool Lia PeanoNat.
From GoGit Require Import Base.Out Model.Gitignore Spec.Glob Spec.GitIgnore
     Proofs.C49Total Proofs.C49Wild Proofs.C49Git Proofs.C49Trim Proofs.C49Names Proofs.C49Walk
     Proofs.C49Lines.
Import ListNotations.
Local Open Scope N_scope.

Definition is_comment (l : bytes) : bool := match l with c :: _ => c =? cHASH | [] => false end.

Lemma decision_dup a f b path d : decision (a ++ f ++ f ++ b) path d = decision (a ++ f ++ b) path d.
Proof.
  unfold decision. rewrite !rev_app_distr. rewrite <- !app_assoc.
  rewrite !(mres_rev_app (rev b)). destruct (mres_rev (rev b) path d); try reflexivity.
  rewrite !(mres_rev_app (rev f)). destruct (mres_rev (rev f) path d); reflexivity.
Qed.

(* the walk depends on the patterns in scope only through their decisions *)
Lemma gw_ext fs path isdir : forall rest pre ps qs,
  (forall v pa d, decision (ps ++ v) pa d = decision (qs ++ v) pa d) ->
  gw fs ps pre rest path isdir = gw fs qs pre rest path isdir.
Proof.
  induction rest as [|e rest IH]; intros pre ps qs H; [reflexivity|].
  destruct rest as [|e2 r].
  - cbn [gw]. now rewrite !matcher_decision, H.
  - rewrite !gw_step, !matcher_decision, H.
    destruct (decision _ _ _); try reflexivity; apply IH; intros v pa d; rewrite <- !app_assoc; apply H.
Qed.

(* the root ignore file is in go-git's scope twice (RootPatterns reads it, and
   so does Descend at the root): the second copy changes no decision *)
Lemma gw_root_dup fs a path isdir rest :
  gw fs (a ++ go_file fs []) [] rest path isdir = gw fs a [] rest path isdir.
Proof.
  set (F := go_file fs []).
  assert (Hd : forall v pa d, decision (((a ++ F) ++ F) ++ v) pa d = decision ((a ++ F) ++ v) pa d).
  { intros v pa d. rewrite <- !app_assoc. apply decision_dup. }
  assert (Hd0 : forall pa d, decision ((a ++ F) ++ F) pa d = decision (a ++ F) pa d).
  { intros pa d. specialize (Hd [] pa d). now rewrite !app_nil_r in Hd. }
  destruct rest as [|e [|e2 r]]; [reflexivity| |].
  - cbn [gw]. fold F. now rewrite !matcher_decision, Hd0.
  - rewrite !gw_step. fold F. rewrite !matcher_decision, Hd0.
    now rewrite (gw_ext fs path isdir (e2 :: r) _ _ _ Hd).
Qed.

(* go-git's verdict is the walk gw of C49Names from the root *)
Lemma ignored_gw excl fs path isdir :
  ignored excl fs path isdir = gw fs (excl_pats excl) [] path path isdir.
Proof.
  unfold ignored. destruct path as [|e rest] eqn:Ep; [apply matcher_nil|]. rewrite <- Ep.
  rewrite go_phase; [|rewrite Ep; discriminate|reflexivity|apply matcher_nil].
  apply gw_root_dup.
Qed.

Definition git_excl (excl : option bytes) : list gpat :=
  match excl with Some c => gread c [] | None => [] end.

Section Fragment.

Variable okline : bytes -> bool.

(* no CR, no byte order mark; every line is empty, a comment (anything but CR
   after the "#"), or a line of the fragment without any blank (nothing to trim) *)
Definition content_okw (c : bytes) : bool :=
  forallb (fun b => negb (b =? cCR)) c &&
  negb (match c with b :: _ => b =? 239 | [] => false end) &&
  forallb (fun l => is_nil l || is_comment l || (forallb (fun b => negb (is_space b)) l && okline l)) (split_lf c []).

Definition wide_casew (excl : option bytes) (fs : files) : bool :=
  match excl with Some c => content_okw c | None => true end &&
  forallb (fun f => content_okw (snd f)) fs.

(* on such content the two line readers see the same lines *)
Lemma content_linesw c : content_okw c = true ->
  strip_bom_first (split_lf c []) = split_lf c [] /\
  scan_lines c [] = split_lf c [] /\ skip_bom c = c /\
  forall l, In l (split_lf c []) -> is_nil l = true \/ is_comment l = true \/ (nospace l /\ okline l = true).
Proof.
  unfold content_okw. rewrite !andb_true_iff. intros [[Hsp Hbom] Hnl].
  rewrite forallb_forall in Hsp. rewrite forallb_forall in Hnl.
  assert (Hcr : forall x, In x c -> (x =? cCR) = false).
  { intros x Hx. specialize (Hsp _ Hx). now apply negb_true_iff in Hsp. }
  split; [apply strip_bom_first_id; now apply negb_true_iff in Hbom|].
  split; [apply scan_eq_split; [assumption|intros x []]|].
  split.
  { unfold skip_bom. destruct c as [|b [|b2 [|b3 r3]]]; try reflexivity.
    apply negb_true_iff in Hbom. now rewrite Hbom. }
  intros l Hl. specialize (Hnl _ Hl). rewrite !orb_true_iff in Hnl.
  destruct Hnl as [[H|H]|H]; [now left|right; now left|]. right. right.
  apply andb_true_iff in H. destruct H as [H1 H2]. split; [|exact H2].
  rewrite forallb_forall in H1. intros x Hx. specialize (H1 _ Hx). now apply negb_true_iff in H1.
Qed.

Lemma wide_casew_ok excl fs : wide_casew excl fs = true ->
  (forall dir c, file_at fs dir = Some c -> content_okw c = true) /\
  (forall c, excl = Some c -> content_okw c = true).
Proof.
  unfold wide_casew. rewrite andb_true_iff. intros [He Hf].
  split; [now apply forallb_file_at|]. now intros c ->.
Qed.

End Fragment.

(* The lines of the fragment being coherent on the paths satisfying P *)
Section Coherent.

Variables (okline : bytes -> bool) (P : list bytes -> Prop).
Hypothesis P_seg : forall a b c, P (a ++ b ++ c) -> P b.
Hypothesis okline_coh : forall l dir, nospace l -> okline l = true -> l <> [] -> is_comment l = false ->
  coh P (parse_pattern l dir) (gparse l dir) /\ p_dom (parse_pattern l dir) = dir.

Lemma file_cohw c dir : content_okw okline c = true ->
  Forall2 (fun p g => coh P p g /\ p_dom p = dir) (read_ignore c dir) (gread c dir).
Proof.
  intros Hc. destruct (content_linesw _ _ Hc) as (E0 & E1 & E2 & Hl).
  unfold read_ignore, gread. rewrite E1, E0, E2. clear E0 E1 E2.
  revert Hl. generalize (split_lf c []). intros L.
  induction L as [|l ls IH]; intros Hl; [constructor|].
  assert (Hl0 := Hl l (or_introl eq_refl)).
  assert (IH' := IH (fun l0 H => Hl l0 (or_intror H))).
  cbn [filter map flat_map].
  destruct l as [|c0 r0] eqn:El.
  - cbn. exact IH'.
  - destruct (c0 =? cHASH) eqn:Eh.
    + (* a comment: dropped by both readers whatever it holds *)
      unfold keep_line, gline. rewrite Eh. cbn [negb andb app]. exact IH'.
    + destruct Hl0 as [H|[H|[Hns Hok]]]; [discriminate|cbn in H; congruence|].
      rewrite keep_line_name by (assumption || discriminate).
      rewrite gline_name by (assumption || discriminate).
      rewrite Eh. cbn [negb map app].
      constructor; [|exact IH'].
      apply okline_coh; try assumption; try discriminate.
Qed.

Lemma wide_casew_coh excl fs : wide_casew okline excl fs = true ->
  files_coh P fs /\ Forall2 (fun p g => coh P p g /\ p_dom p = []) (excl_pats excl) (git_excl excl).
Proof.
  intros Hn. destruct (wide_casew_ok _ _ _ Hn) as [Hfok Hex]. split.
  - intros pre. unfold go_file, git_file. destruct (file_at fs pre) as [c|] eqn:E; [|constructor].
    apply file_cohw. eapply Hfok; eassumption.
  - unfold excl_pats, git_excl. destruct excl as [c|]; [|constructor]. now apply file_cohw, Hex.
Qed.

Theorem wide_eq_gitw excl fs path isdir :
  wide_casew okline excl fs = true -> P path ->
  no_reincluded_ancestor excl fs path = true ->
  ignored excl fs path isdir = git_ignored excl fs path isdir.
Proof.
  intros Hn Hok Hanc. destruct (wide_casew_coh _ _ Hn) as [Hfc Hex].
  rewrite ignored_gw. apply (wide_walk P); try assumption; [reflexivity|].
  exact (Forall2_imp _ _ _ _ (fun p g _ => cohI_base P [] p g) Hex).
Qed.

End Coherent.
