(* Proofs/C49GoGlob.v — go-git's globMatch on the patterns of the fragment:
   it accepts a path exactly when the segments match a non-empty leading part
   of it, component by component (the greedy scan after a "**" loses nothing
   when exactly one segment follows each run of "**"). *)
From Coq Require Import List NArith Bool Lia PeanoNat.
From GoGit Require Import Base.Out Model.Gitignore Spec.Glob Spec.PathGlob Spec.GitIgnore
     Proofs.C49Total Proofs.C49Wild Proofs.C49Path Proofs.C49Names Proofs.C49Walk Proofs.C49Segs.
Import ListNotations.
Local Open Scope N_scope.

(* a pattern segment (bytes) and what it denotes *)
Definition seg_den (s : bytes) (x : pseg) : Prop :=
  (x = SDirs /\ s = dstar) \/
  (exists g, x = SReg g /\ glob_of s = Some g /\ is_nil s = false /\ beq s dstar = false).

(* the shapes go-git's scan handles like git: plain segments, then groups of
   one or more "**" followed by exactly one plain segment.  State of the scan:
   GR among the leading plain segments, GD after a "**", GT after the plain
   segment that follows a "**" *)
Inductive gst := GR | GD | GT.
Fixpoint shape (st : gst) (F : list pseg) : bool :=
  match F with
  | [] => match st with GD => false | _ => true end
  | SReg _ :: r => match st with GR => shape GR r | GD => shape GT r | GT => false end
  | SDirs :: r => shape GD r
  end.

Lemma skipn_skipn' {A} a : forall b (l : list A), skipn a (skipn b l) = skipn (b + a) l.
Proof.
  induction b as [|b IH]; intros l; [reflexivity|].
  destruct l as [|x l]; [now rewrite !skipn_nil|]. cbn [skipn Nat.add]. apply IH.
Qed.

Section Go.
Variables (dironly isdir : bool).

Definition fin (path : list bytes) : Prop := path = [] -> negb (dironly && negb isdir) = true.

(* the segments match a non-empty leading part pr of the path; when that is
   the whole path, a directory-only pattern needs a directory *)
Definition GG (F : list pseg) (path : list bytes) : Prop :=
  exists pr suf, path = pr ++ suf /\ SMatch F pr /\ fin suf.

Lemma finish_true path :
  (if true && dironly && negb isdir && (is_nil path || false) then false else true) = true <-> fin path.
Proof.
  unfold fin. destruct path as [|e r]; destruct dironly, isdir; cbn; split; intros H;
    try discriminate; auto; try (now specialize (H eq_refl)).
Qed.

Lemma traverse_spec s : forall path,
  match traverse s path with
  | None => forall e, In e path -> wildmatch s e = false
  | Some rem => exists pre e, path = pre ++ e :: rem /\ wildmatch s e = true /\
                              forall x, In x pre -> wildmatch s x = false
  end.
Proof.
  induction path as [|e r IH]; cbn [traverse]; [intros ? []|].
  destruct (wildmatch s e) eqn:W.
  - exists [], e. repeat split; [assumption|intros ? []].
  - destruct (traverse s r) as [rem|].
    + destruct IH as (pre & e0 & -> & We & Hpre). exists (e :: pre), e0.
      repeat split; [assumption|]. intros x [<-|Hx]; [assumption|now apply Hpre].
    + intros x [<-|Hx]; [assumption|now apply IH].
Qed.

Lemma SMatch_dirs_prepend F mid cs : SMatch (SDirs :: F) cs -> SMatch (SDirs :: F) (mid ++ cs).
Proof. intros H. induction mid as [|c m IH]; [exact H|]. cbn [app]. now apply SM_dirsS. Qed.

Lemma SMatch_dirs_dirs F cs : SMatch (SDirs :: SDirs :: F) cs <-> SMatch (SDirs :: F) cs.
Proof.
  split.
  - intros H. apply SMatch_dirs_iff in H. destruct H as [k Hk].
    apply SMatch_dirs_iff in Hk. destruct Hk as [k' Hk'].
    apply SMatch_dirs_iff. exists (k + k')%nat. now rewrite <- skipn_skipn'.
  - intros H. now apply SM_dirs0.
Qed.

(* a "**" that is not last only sets the traverse flag *)
Lemma glob_loop_dstar s segs' F' path m ct :
  seg_den s SDirs -> Forall2 seg_den segs' F' -> shape GD F' = true ->
  glob_loop (s :: segs') dironly isdir path m ct = glob_loop segs' dironly isdir path m true.
Proof.
  intros [[_ ->]|(g0 & Hx & _)] HF Hsh; [|discriminate]. cbn [glob_loop].
  change (is_nil dstar) with false. change (beq dstar dstar) with true. cbn iota.
  destruct HF; [discriminate|reflexivity].
Qed.

Lemma seg_den_reg s g : seg_den s (SReg g) ->
  is_nil s = false /\ beq s dstar = false /\ forall e, wildmatch s e = true <-> Gmatch g e.
Proof.
  intros [[Hx _]|(g0 & Hx & Hg & Hnil & Hds)]; [discriminate|]. inversion Hx; subst g0.
  repeat split; try assumption; now apply wildmatch_sound_complete.
Qed.

Lemma GG_nil F : ~ GG F [].
Proof.
  intros (pr & suf & E & Hm & _). apply SMatch_nonempty in Hm. destruct pr; [congruence|discriminate].
Qed.

(* after "**" the segment g is matched by some component of the leading part *)
Lemma SMatch_dirs_reg g F' pr : SMatch (SDirs :: SReg g :: F') pr ->
  exists k c cs', skipn k pr = c :: cs' /\ Gmatch g c /\ match F' with [] => cs' = [] | _ => SMatch F' cs' end.
Proof.
  intros Hm. apply SMatch_dirs_iff in Hm. destruct Hm as [k Hk]. exists k.
  inversion Hk; subst; eauto. eexists _, _. split; [reflexivity|]. split; [assumption|].
  destruct F'; [congruence|assumption].
Qed.

(* The greedy scan after "**" loses nothing: when e is the first component that
   matches g, and g is the last segment or another "**" follows, any match of
   the pattern can be moved to use e for g. *)
Lemma GG_greedy g F' pre e rem :
  shape GT F' = true -> (forall z, In z pre -> ~ Gmatch g z) -> Gmatch g e ->
  (GG (SDirs :: SReg g :: F') (pre ++ e :: rem) <-> match F' with [] => fin rem | _ => GG F' rem end).
Proof.
  intros Hsh Hpre He. split.
  - intros (pr & suf & E & Hm & Hfin).
    destruct (SMatch_dirs_reg _ _ _ Hm) as (k & c & cs' & Esk & Hgc & Hrest).
    assert (Epr : pr = firstn k pr ++ c :: cs') by (rewrite <- Esk; symmetry; apply firstn_skipn).
    rewrite Epr, <- app_assoc in E. cbn [app] in E.
    destruct (first_split (Gmatch g) _ _ _ _ _ _ E Hpre Hgc) as [(_ & _ & ->)|(mid & _ & ->)].
    + destruct F' as [|y F'']; [now subst cs'|]. exists cs', suf. repeat split; assumption.
    + destruct F' as [|y F'']; [intros Habs; destruct mid; discriminate|].
      destruct y as [gy|]; [cbn in Hsh; discriminate|].
      exists (mid ++ c :: cs'), suf. split; [now rewrite <- app_assoc|]. split; [|exact Hfin].
      change (c :: cs') with ([c] ++ cs'). rewrite app_assoc. now apply SMatch_dirs_prepend.
  - intros H.
    assert (Hhere : forall cs, SMatch (SReg g :: F') (e :: cs) -> SMatch (SDirs :: SReg g :: F') (pre ++ e :: cs)).
    { intros cs Hcs. apply SMatch_dirs_iff. exists (List.length pre).
      now rewrite skipn_app, skipn_all, Nat.sub_diag. }
    destruct F' as [|y F''].
    + exists (pre ++ [e]), rem. split; [now rewrite <- app_assoc|]. split; [|exact H].
      apply Hhere. now constructor.
    + destruct H as (pr' & suf & -> & Hm & Hfin).
      exists (pre ++ e :: pr'), suf. split; [now rewrite <- app_assoc|]. split; [|exact Hfin].
      apply Hhere. now apply SM_reg.
Qed.

Lemma GG_dirs_none g F' path : (forall z, In z path -> ~ Gmatch g z) -> ~ GG (SDirs :: SReg g :: F') path.
Proof.
  intros Hno (pr & suf & E & Hm & _).
  destruct (SMatch_dirs_reg _ _ _ Hm) as (k & c & cs' & Esk & Hgc & _).
  apply (Hno c); [|exact Hgc]. rewrite E. apply in_or_app. left.
  rewrite <- (firstn_skipn k pr), Esk. apply in_or_app. right. now left.
Qed.

Lemma glob_loop_spec : forall F,
  (shape GD F = true -> forall segs path m, Forall2 seg_den segs F ->
     (glob_loop segs dironly isdir path m true = true <-> GG (SDirs :: F) path)) /\
  (shape GT F = true -> forall segs path, Forall2 seg_den segs F ->
     (glob_loop segs dironly isdir path true false = true <->
      match F with [] => fin path | _ => GG F path end)) /\
  (shape GR F = true -> F <> [] -> forall segs path m, Forall2 seg_den segs F ->
     (glob_loop segs dironly isdir path m false = true <-> GG F path)).
Proof.
  induction F as [|x F' (IHD & IHT & IHR)].
  { split; [discriminate|]. split; [|congruence].
    intros _ segs path HF. inversion HF; subst. cbn [glob_loop]. apply finish_true. }
  split; [|split].
  - (* after "**" *)
    intros Hsh segs path m HF. inversion HF as [|s x0 segs' F0 Hden HF']; subst.
    destruct x as [g|].
    + (* the one plain segment: the first component that matches *)
      destruct (seg_den_reg _ _ Hden) as (Hnil & Hds & HW).
      cbn [shape] in Hsh. cbn [glob_loop]. rewrite Hnil, Hds.
      destruct path as [|e0 path0].
      { split; [discriminate|]. intros H. now apply GG_nil in H. }
      pose proof (traverse_spec s (e0 :: path0)) as Htr.
      destruct (traverse s (e0 :: path0)) as [rem|].
      * destruct Htr as (pre & e & Epath & We & Hpre). rewrite Epath, (IHT Hsh segs' rem HF').
        symmetry. apply GG_greedy; [exact Hsh| |now apply HW].
        intros z Hz Hgz. apply HW in Hgz. now rewrite (Hpre z Hz) in Hgz.
      * split; [discriminate|]. intros H. exfalso. revert H. apply GG_dirs_none.
        intros z Hz Hgz. apply HW in Hgz. now rewrite (Htr z Hz) in Hgz.
    + (* another "**" *)
      cbn [shape] in Hsh. rewrite (glob_loop_dstar _ _ _ _ _ _ Hden HF' Hsh), (IHD Hsh segs' path m HF').
      unfold GG. split; intros (pr & suf & E & Hm & Hfin); exists pr, suf; (split; [exact E|]);
        (split; [|exact Hfin]); now apply SMatch_dirs_dirs.
  - (* after the segment that follows a "**" *)
    intros Hsh segs path HF. inversion HF as [|s x0 segs' F0 Hden HF']; subst.
    destruct x as [g|]; [discriminate|].
    cbn [shape] in Hsh. rewrite (glob_loop_dstar _ _ _ _ _ _ Hden HF' Hsh). apply (IHD Hsh segs' path true HF').
  - (* the leading plain segments *)
    intros Hsh _ segs path m HF. inversion HF as [|s x0 segs' F0 Hden HF']; subst.
    destruct x as [g|].
    + destruct (seg_den_reg _ _ Hden) as (Hnil & Hds & HW).
      cbn [shape] in Hsh. cbn [glob_loop]. rewrite Hnil, Hds.
      destruct path as [|e path'].
      { split; [discriminate|]. intros H. now apply GG_nil in H. }
      cbn [negb]. destruct (wildmatch s e) eqn:We; cbn [negb].
      * destruct F' as [|y F''].
        -- inversion HF'; subst. cbn [glob_loop is_nil negb andb].
           rewrite andb_false_r. cbn [negb]. rewrite finish_true. split.
           ++ intros H. exists [e], path'. repeat split; [|exact H]. constructor. now apply HW.
           ++ intros (pr & suf & E & Hm & Hfin). inversion Hm; subst; [|congruence].
              cbn in E. inversion E; subst. exact Hfin.
        -- rewrite (IHR Hsh ltac:(discriminate) segs' path' _ HF'). split.
           ++ intros (pr & suf & -> & Hm & Hfin). exists (e :: pr), suf.
              repeat split; [|exact Hfin]. apply SM_reg; [discriminate|now apply HW|assumption].
           ++ intros (pr & suf & E & Hm & Hfin). inversion Hm; subst.
              cbn in E. inversion E; subst. exists cs, suf. repeat split; assumption.
      * split; [discriminate|]. intros (pr & suf & E & Hm & _).
        assert (Gmatch g e).
        { inversion Hm; subst; cbn in E; inversion E; subst; assumption. }
        apply HW in H. congruence.
    + cbn [shape] in Hsh. rewrite (glob_loop_dstar _ _ _ _ _ _ Hden HF' Hsh). apply (IHD Hsh segs' path m HF').
Qed.

End Go.
