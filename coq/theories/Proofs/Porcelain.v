(* Proofs/Porcelain.v — what Reset and Checkout of Model/Porcelain.v do to a
   state; shared by C25, C29 and C30. *)
From Coq Require Import List NArith ZArith Bool.
From GoGit Require Import Base.Out Model.Porcelain Proofs.PorcelainMaps.
Import ListNotations.
Local Open Scope N_scope.

Lemma set_head_commit_err : forall c s e s1, set_head_commit c s = (Some e, s1) -> s1 = s.
Proof.
  intros c s e s1. unfold set_head_commit.
  destruct (head s); [|intro H; inversion H].
  destruct (lookup b (refs s)); [|intro H; now inversion H].
  destruct (is_branch b); intro H; now inversion H.
Qed.

Lemma set_head_commit_ok : forall c s s1, set_head_commit c s = (None, s1) ->
  objs s1 = objs s /\ idx s1 = idx s /\ wt s1 = wt s /\ head_commit s1 = Some c.
Proof.
  intros c s s1. unfold set_head_commit, head_commit.
  destruct (head s) eqn:Eh.
  - destruct (lookup b (refs s)); [|intro H; inversion H].
    destruct (is_branch b); intro H; inversion H; subst; cbn.
    rewrite Eh. repeat split. apply lookup_insert_eq.
  - intro H; inversion H; subst; cbn. repeat split.
Qed.

Lemma reset_worktree_to_tree_spec : forall prev t ix w,
  agree ix t ->
  exists ix' w',
    reset_worktree_to_tree prev t ix w = (None, (ix', w')) /\ agree ix' t /\
    forall p, lookup p w' =
      match lookup p t with
      | Some e => Some e
      | None => if mem p (keys prev) then None else lookup p w
      end.
Proof.
  intros prev t ix w Hag. unfold reset_worktree_to_tree. cbv zeta.
  edestruct (checkout_fold t) as (ix' & w' & H1 & H2 & H3); [exact Hag|].
  exists ix', w'. split; [exact H1|]. split; [exact H2|].
  intro p. rewrite H3, mem_filter, mem_changed_paths. unfold differs.
  rewrite remove_fold, mem_filter, (Hag p). destruct (lookup p t) eqn:Et.
  - rewrite !andb_true_r, andb_false_r.
    destruct (ofent_eqb (lookup p w) (Some f)) eqn:E; [now apply ofent_eqb_true in E | reflexivity].
  - now rewrite andb_false_r, andb_true_r.
Qed.

Lemma reset_worktree_spec : forall t files ix w,
  agree ix t ->
  exists ix' w',
    reset_worktree t files ix w = (None, (ix', w')) /\ agree ix' t /\
    forall p, lookup p w' = if mem p files && differs w ix p then lookup p t else lookup p w.
Proof.
  intros t files ix w Hag. unfold reset_worktree. cbv zeta.
  edestruct (checkout_fold t) as (ix' & w' & H1 & H2 & H3); [exact Hag|].
  exists ix', w'. split; [exact H1|]. split; [exact H2|].
  intro p. rewrite H3, mem_filter, mem_changed_paths. fold (mem p files). now rewrite andb_comm.
Qed.

(* what a successful apply_reset leaves, mode by mode *)
Definition wt_after (m : rmode) (t pv ix w : fmap) (p : bytes) : option fent :=
  match m with
  | Mixed | Soft => lookup p w
  | Merge => if differs ix t p && differs w t p then lookup p t else lookup p w
  | Hard | Keep =>
    match lookup p t with
    | Some e => Some e
    | None => if mem p (keys pv) then None else lookup p w
    end
  end.

(* once HEAD has moved, apply_reset cannot refuse: the index it hands to the
   worktree update is the tree *)
Lemma apply_reset_spec : forall c t pv m s s1, set_head_commit c s = (None, s1) ->
  exists s', apply_reset c t pv m s = (None, s') /\
    objs s' = objs s /\ refs s' = refs s1 /\ head s' = head s1 /\
    agree (idx s') t /\
    forall p, lookup p (wt s') = wt_after m t pv (idx s) (wt s) p.
Proof.
  intros c t pv m s s1 Eh. unfold apply_reset. rewrite Eh.
  destruct (set_head_commit_ok _ _ _ Eh) as (Hc & Hi & Hw & _).
  pose proof (reset_index_lookup t (idx s1)) as Hag.
  destruct m; cbn [wt_after].
  1, 4: (eexists; split; [reflexivity|]; cbn; repeat split; auto; intro p; now rewrite Hw).
  1, 3: (destruct (reset_worktree_to_tree_spec pv t _ (wt (set_idx s1 (fst (reset_index t (idx s1))))) Hag)
           as (ix' & w' & -> & H2 & H3);
         eexists; split; [reflexivity|]; cbn; repeat split; auto; intro p; rewrite H3; cbn; now rewrite Hw).
  destruct (snd (reset_index t (idx s1))) as [|q0 l0] eqn:Er.
  - eexists; split; [reflexivity|]. cbn. repeat split; auto. intro p. rewrite Hw.
    (* no changed path: the index already was the tree *)
    now rewrite <- mem_changed_paths, <- Hi, <- reset_index_removed, Er.
  - destruct (reset_worktree_spec t (q0 :: l0) _ (wt (set_idx s1 (fst (reset_index t (idx s1))))) Hag)
      as (ix' & w' & -> & H2 & H3).
    eexists; split; [reflexivity|]. cbn. repeat split; auto. intro p. rewrite H3. cbn [wt set_idx].
    rewrite <- Er, reset_index_removed, mem_changed_paths, Hw, Hi. unfold differs.
    now rewrite (reset_index_lookup t (idx s) p).
Qed.

Lemma apply_reset_succeeds : forall c t pv m s s1,
  set_head_commit c s = (None, s1) -> exists s', apply_reset c t pv m s = (None, s').
Proof. intros c t pv m s s1 Eh. destruct (apply_reset_spec c t pv m s s1 Eh) as (s' & E & _). eauto. Qed.

Lemma apply_reset_err : forall c t pv m s e s', apply_reset c t pv m s = (Some e, s') -> s' = s.
Proof.
  intros c t pv m s e s' H. destruct (set_head_commit c s) as [[e1|] s1] eqn:Eh.
  - unfold apply_reset in H. rewrite Eh in H. inversion H; subst. eapply set_head_commit_err; eauto.
  - destruct (apply_reset_succeeds c t pv m s s1 Eh) as (s2 & E). congruence.
Qed.

Lemma apply_reset_ok : forall c t pv m s s', apply_reset c t pv m s = (None, s') ->
  exists s1, set_head_commit c s = (None, s1) /\
    objs s' = objs s /\ refs s' = refs s1 /\ head s' = head s1 /\
    agree (idx s') t /\
    forall p, lookup p (wt s') = wt_after m t pv (idx s) (wt s) p.
Proof.
  intros c t pv m s s' H. destruct (set_head_commit c s) as [[e1|] s1] eqn:Eh.
  - unfold apply_reset in H. rewrite Eh in H. discriminate.
  - exists s1. split; [reflexivity|].
    destruct (apply_reset_spec c t pv m s s1 Eh) as (s2 & E & R). rewrite E in H. now inversion H; subst.
Qed.

(* cases on every test that stands at the head of the left side of equation H *)
Ltac dmatch H :=
  repeat match type of H with
  | (if ?b then _ else _) = _ => destruct b eqn:?
  | match ?x with _ => _ end = _ => destruct x eqn:?
  end.

Lemma reset_err_unchanged : forall commit m from s e s',
  reset commit m from s = (Some e, s') -> s' = s.
Proof.
  intros commit m from s e s' H. unfold reset in H.
  destruct (reset_commit commit s) as [[e1|] c]; [now inversion H|].
  destruct m; unfold prev_tree in H; cbv beta iota in H; dmatch H;
    try (now inversion H); try (eapply apply_reset_err; eassumption);
    try (eapply set_head_commit_err; eassumption).
Qed.

(* the commit a Reset lands on *)
Definition reset_target (commit : Z) (s : state) : option Z :=
  if (commit =? -1)%Z then head_commit s else Some commit.

Definition prev_of (m : rmode) (from : option fmap) (s : state) : fmap :=
  tree_or_empty (prev_tree m from s).

Lemma reset_commit_target : forall commit s c, reset_commit commit s = (None, c) ->
  reset_target commit s = Some c.
Proof.
  intros commit s c. unfold reset_commit, reset_target. destruct (commit =? -1)%Z.
  - destruct (head_commit s); intro H; now inversion H.
  - destruct (commit_exists s commit); intro H; now inversion H.
Qed.

Lemma reset_ok : forall commit m from s s',
  reset commit m from s = (None, s') -> m <> Soft ->
  exists c t s1,
    reset_target commit s = Some c /\ tree_of s c = Some t /\
    set_head_commit c s = (None, s1) /\
    objs s' = objs s /\ refs s' = refs s1 /\ head s' = head s1 /\
    agree (idx s') t /\
    (forall p, lookup p (wt s') = wt_after m t (prev_of m from s) (idx s) (wt s) p) /\
    (m = Merge -> unstaged s = false) /\
    (m = Keep -> keep_conflict (tree_or_empty (head_tree s)) (prev_of m from s) t (idx s) (wt s) = false).
Proof.
  intros commit m from s s' H Hm. unfold reset in H.
  destruct (reset_commit commit s) as [[e1|] c] eqn:Erc; [now inversion H|].
  apply reset_commit_target in Erc.
  destruct m; try contradiction; unfold prev_of, prev_tree in *; cbv beta iota in H; dmatch H;
    try (now inversion H);
    (destruct (apply_reset_ok _ _ _ _ _ _ H) as (s1 & A1 & A2 & A3 & A4 & A5 & A6));
    match goal with Ht : tree_of s c = Some ?t |- _ => exists c, t, s1 end;
    (repeat split; auto); try discriminate.
Qed.

Lemma reset_soft : forall commit from s r, reset commit Soft from s = r ->
  idx (snd r) = idx s /\ wt (snd r) = wt s.
Proof.
  intros commit from s r <-. unfold reset.
  destruct (reset_commit commit s) as [[e1|] c]; cbn; [auto|].
  destruct (set_head_commit c s) as [[e|] s1] eqn:E.
  - apply set_head_commit_err in E. now subst.
  - destruct (set_head_commit_ok _ _ _ E) as (_ & A & B & _). auto.
Qed.

Lemma tree_of_commits : forall s1 s c, objs s1 = objs s -> tree_of s1 c = tree_of s c.
Proof. intros s1 s c H. unfold objs in H. inversion H as [[H1 H2]]. unfold tree_of. now rewrite H1, H2. Qed.

Lemma commit_exists_objs : forall s1 s c, objs s1 = objs s -> commit_exists s1 c = commit_exists s c.
Proof. intros s1 s c H. unfold objs in H. inversion H as [[H1 H2]]. unfold commit_exists. now rewrite H1. Qed.

Lemma checkoutable_objs : forall s1 s c, objs s1 = objs s -> checkoutable s1 c = checkoutable s c.
Proof. intros s1 s c H. unfold checkoutable. now rewrite (tree_of_commits s1 s c H). Qed.

Lemma tree_of_exists : forall s c t, tree_of s c = Some t -> commit_exists s c = true.
Proof.
  intros s c t. unfold tree_of, commit_exists. destruct (c <? 0)%Z; [discriminate|].
  destruct (existsb (Z.eqb c) (notree s)); [discriminate|]. now intros ->.
Qed.

Lemma checkoutable_tree : forall s c, checkoutable s c = None -> exists t, tree_of s c = Some t.
Proof.
  intros s c. unfold checkoutable. destruct (is_noncommit c); [discriminate|].
  destruct (tree_of s c); [eauto|discriminate].
Qed.

Lemma unstaged_frame : forall s1 s, idx s1 = idx s -> wt s1 = wt s -> unstaged s1 = unstaged s.
Proof. intros s1 s H1 H2. unfold unstaged. now rewrite H1, H2. Qed.

Lemma create_branch_spec : forall o br s e h s1, create_branch o br s = (e, (h, s1)) ->
  objs s1 = objs s /\ head s1 = head s /\ idx s1 = idx s /\ wt s1 = wt s /\
  (forall n, n <> br -> lookup n (refs s1) = lookup n (refs s)) /\
  (co_create o = false -> s1 = s /\ h = co_hash o /\ e = None) /\
  (e <> None -> s1 = s) /\
  (e = None -> co_create o = true ->
     lookup br (refs s) = None /\ refs s1 = insert br h (refs s) /\
     checkoutable s h = None /\
     (co_hash o = (-1)%Z -> head_commit s = Some h) /\ (co_hash o <> (-1)%Z -> h = co_hash o)).
Proof.
  intros o br s e h s1. unfold create_branch.
  destruct (co_create o).
  - destruct (lookup br (refs s)) eqn:El.
    + intro H; inversion H; subst. repeat split; auto; try discriminate.
    + destruct (co_hash o =? -1)%Z eqn:Ez.
      * destruct (head_commit s) as [hc|] eqn:Eh.
        -- destruct (checkoutable s hc) eqn:Et; intro H; inversion H; subst; cbn;
             repeat split; auto; try discriminate; try congruence.
           ++ intros n Hn. now apply lookup_insert_neq.
           ++ intro X. apply Z.eqb_eq in Ez. congruence.
        -- intro H; inversion H; subst. repeat split; auto; try discriminate; congruence.
      * destruct (checkoutable s (co_hash o)) eqn:Et; intro H; inversion H; subst; cbn;
          repeat split; auto; try discriminate; try congruence.
        -- intros n Hn. now apply lookup_insert_neq.
        -- intro X. apply Z.eqb_neq in Ez. congruence.
  - intro H; inversion H; subst. repeat split; auto; try discriminate; congruence.
Qed.

Lemma move_head_spec : forall o br hash c s e s2, move_head o br hash c s = (e, s2) ->
  objs s2 = objs s /\ refs s2 = refs s /\ idx s2 = idx s /\ wt s2 = wt s /\
  (e <> None -> s2 = s).
Proof.
  intros o br hash c s e s2. unfold move_head.
  destruct (negb (hash =? -1)%Z && negb (co_create o)).
  - intro H; inversion H; subst; cbn. repeat split; auto. congruence.
  - destruct (lookup br (refs s)); intro H; inversion H; subst; cbn; repeat split; auto; congruence.
Qed.

(* createBranch has already checked what getCommitFromCheckoutOptions checks *)
Lemma resolve_after_create : forall o br s h sa,
  create_branch o br s = (None, (h, sa)) -> co_create o = true -> resolve_commit br h sa = (None, h).
Proof.
  intros o br s h sa Ec Ecr.
  destruct (create_branch_spec _ _ _ _ _ _ Ec) as (B1 & _ & _ & _ & _ & _ & _ & A8).
  destruct (A8 eq_refl Ecr) as (_ & B2 & Bt & _ & _). unfold resolve_commit.
  assert ((if (h =? -1)%Z then lookup br (refs sa) else Some h) = Some h) as ->
    by (rewrite B2, lookup_insert_eq; now destruct (h =? -1)%Z).
  now rewrite (checkoutable_objs sa s _ B1), Bt.
Qed.

Lemma checkout_pre_inv : forall o s e x s2, checkout_pre o s = (e, (x, s2)) ->
  (e <> None /\ s2 = s) \/
  (exists h sa c e3,
     co_validate o = None /\
     (co_mode o = Merge -> unstaged s = false) /\
     (co_mode o = Hard -> head_tree s <> HTErr) /\
     create_branch o (co_branch_name o) s = (None, (h, sa)) /\
     (if (h =? -1)%Z then lookup (co_branch_name o) (refs sa) else Some h) = Some c /\
     checkoutable sa c = None /\
     move_head o (co_branch_name o) h c sa = (e3, s2) /\ e = e3 /\
     (e3 = None ->
        x = (c, co_mode o, match (match co_mode o with Hard => head_tree s | _ => HTNone end) with HTTree f => Some f | _ => None end))).
Proof.
  intros o s e x s2 H. unfold checkout_pre in H.
  destruct (co_validate o) eqn:Ev; [left; inversion H; split; [discriminate|reflexivity]|].
  destruct (match co_mode o with Merge => unstaged s | _ => false end) eqn:Eu;
    [left; inversion H; split; [discriminate|reflexivity]|].
  destruct (match co_mode o with Hard => head_tree s | _ => HTNone end) as [| |f] eqn:Ef.
  2: { left. inversion H. split; [discriminate|reflexivity]. }
  (* the from-tree is nil or a tree: the same continuation *)
  all: destruct (create_branch o (co_branch_name o) s) as [[e1|] [h sa]] eqn:Ec;
       destruct (create_branch_spec _ _ _ _ _ _ Ec) as (_ & _ & _ & _ & _ & A6 & A7 & _);
       [left; inversion H; subst; split; [discriminate | apply A7; discriminate]|].
  all: destruct (resolve_commit (co_branch_name o) h sa) as [[er|] c] eqn:Er.
  1, 3: (* the commit lookup refuses: possible only without Create, and then sa = s *)
    (destruct (co_create o) eqn:Ecr; [rewrite (resolve_after_create _ _ _ _ _ Ec Ecr) in Er; discriminate|];
     destruct (A6 eq_refl) as (-> & _ & _); left; inversion H; split; [discriminate|reflexivity]).
  all: destruct (move_head o (co_branch_name o) h c sa) as [e3 sb] eqn:Em; right; exists h, sa, c, e3;
       unfold resolve_commit in Er;
       destruct (if (h =? -1)%Z then lookup (co_branch_name o) (refs sa) else Some h) as [c'|]; [|discriminate];
       destruct (checkoutable sa c') eqn:Et; inversion Er; subst c';
       assert (s2 = sb /\ e = e3) as [-> ->] by (destruct e3; inversion H; auto);
       repeat split; eauto;
       [ intro X; rewrite X in Eu; exact Eu
       | intro X; rewrite X in Ef; rewrite Ef; discriminate
       | intro X; subst e3; inversion H; reflexivity ].
Qed.

(* the commit a Checkout asks for *)
Definition checkout_target (o : copts) (s : state) : option Z :=
  if (co_hash o =? -1)%Z
  then (if co_create o then head_commit s else lookup (co_branch_name o) (refs s))
  else Some (co_hash o).

(* a refusal before Reset leaves the state untouched (repaired order) *)
Lemma checkout_pre_err_unchanged : forall o s e x s2,
  checkout_pre o s = (Some e, (x, s2)) -> s2 = s.
Proof.
  intros o s e x s2 H. destruct (checkout_pre_inv _ _ _ _ _ H) as [[_ ?]|(h & sa & c & e3 & _ & _ & _ & Ec & Er & _ & Em & He & _)]; [assumption|].
  subst e3. destruct (move_head_spec _ _ _ _ _ _ _ Em) as (_ & _ & _ & _ & B5).
  rewrite (B5 ltac:(discriminate)).
  destruct (create_branch_spec _ _ _ _ _ _ Ec) as (_ & _ & _ & _ & _ & A6 & _ & A8).
  destruct (co_create o) eqn:Ecr; [|now destruct (A6 eq_refl)].
  exfalso. destruct (A8 eq_refl eq_refl) as (_ & B2 & _).
  unfold move_head in Em. rewrite Ecr in Em. rewrite andb_false_r in Em.
  rewrite B2, lookup_insert_eq in Em. discriminate.
Qed.

Lemma checkout_pre_ok : forall o s c m from s2,
  checkout_pre o s = (None, ((c, m, from), s2)) ->
  m = co_mode o /\ (exists t, tree_of s c = Some t) /\ head_commit s2 = Some c /\
  objs s2 = objs s /\ idx s2 = idx s /\ wt s2 = wt s /\
  (m = Merge -> unstaged s = false) /\
  (m = Hard -> prev_of Hard from s2 = tree_or_empty (head_tree s) \/
               tree_of s c = Some (prev_of Hard from s2)) /\
  checkout_target o s = Some c /\
  match head s2 with
  | HDet _ => True
  | HSym b => is_branch b = true /\ exists x, lookup b (refs s2) = Some x
  end.
Proof.
  intros o s c m from s2 H.
  destruct (checkout_pre_inv _ _ _ _ _ H) as [[X _]|(h & sa & c1 & e3 & _ & Hu & Hh & Ec & Er & Hck & Em & He & Hx)];
    [now contradiction X|].
  destruct (checkoutable_tree _ _ Hck) as (t & Ht).
  subst e3. specialize (Hx eq_refl). inversion Hx; subst c1 m from. clear Hx.
  destruct (create_branch_spec _ _ _ _ _ _ Ec) as (A1 & A2 & A3 & A4 & A5 & A6 & _ & A8).
  destruct (move_head_spec _ _ _ _ _ _ _ Em) as (C1 & C2 & C3 & C4 & _).
  rewrite (tree_of_commits sa s _ A1) in Ht.
  (* HEAD after the move *)
  assert (Hhead : head_commit s2 = Some c /\
                  match head s2 with HDet _ => True | HSym b => is_branch b = true /\ exists x, lookup b (refs s2) = Some x end).
  { unfold move_head in Em. destruct (h =? -1)%Z eqn:Ez; cbn [negb andb] in Em.
    - rewrite Er in Em. destruct (is_branch (co_branch_name o)) eqn:Eb; inversion Em; subst; unfold head_commit; cbn; eauto.
    - inversion Er; subst c. destruct (co_create o) eqn:Ecr; cbn [negb] in Em.
      + destruct (A8 eq_refl eq_refl) as (_ & B2 & _).
        rewrite B2, lookup_insert_eq in Em.
        destruct (is_branch (co_branch_name o)) eqn:Eb; inversion Em; subst; unfold head_commit; cbn; auto.
        rewrite B2, lookup_insert_eq. eauto.
      + inversion Em; subst. unfold head_commit; cbn. auto. }
  destruct Hhead as [Hc Hshape].
  repeat split; eauto; try congruence.
  - (* the from-tree *)
    intros Hhard. unfold prev_of, prev_tree. rewrite Hhard.
    destruct (head_tree s) as [| |f] eqn:Eh.
    + right. unfold head_tree. rewrite Hc, (tree_of_commits s2 s c) by congruence. now rewrite Ht.
    + now contradiction (Hh Hhard).
    + left. reflexivity.
  - (* the target *)
    unfold checkout_target. destruct (co_create o) eqn:Ecr.
    + destruct (A8 eq_refl eq_refl) as (_ & B2 & _ & B3 & B4).
      destruct (co_hash o =? -1)%Z eqn:Ez.
      * apply Z.eqb_eq in Ez. rewrite (B3 Ez). destruct (h =? -1)%Z; [rewrite B2, lookup_insert_eq in Er|]; exact Er.
      * apply Z.eqb_neq in Ez. rewrite <- (B4 Ez).
        assert ((h =? -1)%Z = false) as X by (apply Z.eqb_neq; rewrite (B4 Ez); exact Ez).
        now rewrite X in Er.
    + destruct (A6 eq_refl) as (-> & -> & _). exact Er.
Qed.

(* once the pre-phase has passed, the final Reset cannot refuse *)
Lemma reset_after_pre_succeeds : forall o s c m from s2,
  checkout_pre o s = (None, ((c, m, from), s2)) -> exists s', reset c m from s2 = (None, s').
Proof.
  intros o s c m from s2 H.
  destruct (checkout_pre_ok _ _ _ _ _ _ H) as (Hm & (t & Ht) & Hc & F1 & F2 & F3 & Hu & _ & _ & Hshape).
  assert (Hset : exists s1, set_head_commit c s2 = (None, s1)).
  { unfold set_head_commit. destruct (head s2) as [b0|]; [|eauto].
    destruct Hshape as (Hb & x0 & Hl). rewrite Hl, Hb. eauto. }
  destruct Hset as (s1 & Hset).
  unfold reset.
  assert (Erc : reset_commit c s2 = (None, c)).
  { unfold reset_commit. destruct (c =? -1)%Z.
    - now rewrite Hc.
    - now rewrite (commit_exists_objs s2 s c F1), (tree_of_exists _ _ _ Ht). }
  rewrite Erc. rewrite (tree_of_commits s2 s c F1), Ht.
  unfold co_mode in Hm. destruct (co_force o).
  - subst m. cbv beta iota. unfold prev_tree.
    destruct from as [f|].
    + cbv beta iota. eapply apply_reset_succeeds; eauto.
    + unfold head_tree. rewrite Hc, (tree_of_commits s2 s c F1), Ht. cbv beta iota.
      eapply apply_reset_succeeds; eauto.
  - destruct (co_keep o); subst m; cbv beta iota.
    + eauto.
    + rewrite (unstaged_frame s2 s F2 F3), (Hu eq_refl). unfold prev_tree. cbv beta iota.
      eapply apply_reset_succeeds; eauto.
Qed.

Lemma checkout_err_unchanged : forall o s e s', checkout o s = (Some e, s') -> s' = s.
Proof.
  intros o s e s' H. unfold checkout in H.
  destruct (checkout_pre o s) as [[e1|] [[[c m] from] s2]] eqn:Ep.
  - inversion H; subst. eapply checkout_pre_err_unchanged; eauto.
  - destruct (reset_after_pre_succeeds _ _ _ _ _ _ Ep) as (s'' & X). rewrite X in H. discriminate.
Qed.

(* a successful Checkout that runs a real Reset (Force, or neither Force nor Keep) *)
Lemma checkout_ok : forall o s s', checkout o s = (None, s') -> co_mode o <> Soft ->
  exists c t pv,
    checkout_target o s = Some c /\ tree_of s c = Some t /\ objs s' = objs s /\
    head_commit s' = Some c /\ agree (idx s') t /\
    (forall p, lookup p (wt s') = wt_after (co_mode o) t pv (idx s) (wt s) p) /\
    (co_mode o = Hard -> pv = tree_or_empty (head_tree s) \/ pv = t) /\
    (co_mode o = Merge -> unstaged s = false).
Proof.
  intros o s s' H Hm. unfold checkout in H.
  destruct (checkout_pre o s) as [[e|] [[[c m] from] s2]] eqn:Ep; [now inversion H|].
  destruct (checkout_pre_ok _ _ _ _ _ _ Ep) as (-> & (t & Ht) & Hh & F1 & F2 & F3 & Hu & Hpv & Htg & _).
  destruct (reset_ok _ _ _ _ _ H Hm) as (c' & t' & s1 & R1 & R2 & R3 & R4 & R5 & R6 & R7 & R8 & R9 & _).
  assert (c' = c).
  { unfold reset_target in R1. destruct (c =? -1)%Z; congruence. }
  subst c'. rewrite (tree_of_commits s2 s _ F1), Ht in R2. inversion R2; subst t'.
  destruct (set_head_commit_ok _ _ _ R3) as (_ & _ & _ & S4).
  exists c, t, (prev_of (co_mode o) from s2). repeat split; auto.
  - congruence.
  - unfold head_commit in *. now rewrite R5, R6.
  - intro p. rewrite R8, F2, F3. reflexivity.
  - intro X. rewrite X in *. destruct (Hpv eq_refl) as [Y|Y]; [now left|right]. congruence.
Qed.
