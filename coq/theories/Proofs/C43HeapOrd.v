(* Proofs/C43HeapOrd.v — the gods binary heap with go-git's comparator is a
   max-heap on committer time: bubbleUp / bubbleDown restore the heap order,
   Pop returns a commit whose time is maximal among the contents; hence the
   committer-time walker always yields a commit that is at least as recent as
   every pending one (Proofs/WorklistOrd.v). *)
From Coq Require Import List Arith ZArith Bool Lia Permutation.
From GoGit Require Import Spec.Dag Model.CommitWalk Proofs.Worklist Proofs.C43 Proofs.C43Heap Proofs.WorklistOrd.
Import ListNotations.

Section HeapOrd.
  Variable g : dag.
  Let T := ctime g.
  Let par (i : nat) := (i - 1) / 2.

  Definition heap_ok (l : list node) : Prop :=
    forall i, 0 < i < length l -> (T (nth i l O) <= T (nth (par i) l O))%Z.

  Lemma heap_par_lt : forall i, 0 < i -> par i < i.
  Proof. intros i H. unfold par. apply Nat.div_lt_upper_bound; lia. Qed.

  Lemma par_child : forall i idx, 0 < i -> par i = idx -> i = 2 * idx + 1 \/ i = 2 * idx + 2.
  Proof.
    intros i idx H E. unfold par in E.
    pose proof (Nat.div_mod (i - 1) 2 (ltac:(lia))) as D. rewrite E in D.
    pose proof (Nat.mod_upper_bound (i - 1) 2 (ltac:(lia))). lia.
  Qed.

  Lemma par_l : forall idx, par (2 * idx + 1) = idx.
  Proof. intros. unfold par. replace (2 * idx + 1 - 1) with (idx * 2) by lia. apply Nat.div_mul. lia. Qed.
  Lemma par_r : forall idx, par (2 * idx + 2) = idx.
  Proof.
    intros. unfold par. replace (2 * idx + 2 - 1) with (1 + idx * 2) by lia.
    rewrite Nat.div_add by lia. reflexivity.
  Qed.

  (* go-git's comparator: positive exactly when the first commit is older *)
  Lemma hcmp_le : forall a b, (hcmp g a b <=? 0)%Z = (T b <=? T a)%Z.
  Proof. intros a b'. unfold hcmp, T. destruct (ctime g a <? ctime g b')%Z eqn:E; lia. Qed.
  Lemma hcmp_gt : forall a b, (0 <? hcmp g a b)%Z = (T a <? T b)%Z.
  Proof. intros a b'. unfold hcmp, T. destruct (ctime g a <? ctime g b')%Z eqn:E; lia. Qed.

  (* the heap order may fail only between [idx] and its parent; the children of [idx] already respect that parent *)
  Definition up_pre (idx : nat) (l : list node) : Prop :=
    (forall i, 0 < i < length l -> i <> idx -> (T (nth i l O) <= T (nth (par i) l O))%Z) /\
    (forall i, 0 < i < length l -> par i = idx -> 0 < idx -> (T (nth i l O) <= T (nth (par idx) l O))%Z).

  Lemma bubble_up_ok : forall fuel idx l, idx < length l -> idx < fuel -> up_pre idx l ->
    heap_ok (bubble_up g fuel idx l).
  Proof.
    induction fuel as [|f IH]; intros idx l Hidx Hf [U1 U2]; [lia|].
    cbn [bubble_up]. destruct (idx =? 0) eqn:E0.
    - apply Nat.eqb_eq in E0. subst idx. intros i Hi. apply U1; lia.
    - apply Nat.eqb_neq in E0. fold (par idx).
      assert (Hp : par idx < idx) by (apply heap_par_lt; lia).
      rewrite hcmp_le. destruct (Z.leb_spec (T (nth idx l O)) (T (nth (par idx) l O))) as [Ec|Hlt].
      + intros i Hi. destruct (Nat.eq_dec i idx) as [->|Hne]; [exact Ec | now apply U1].
      + set (p := par idx) in *.
        apply IH; [rewrite swap_length; lia | lia |].
        unfold up_pre. rewrite swap_length. split.
        * intros i Hi Hne.
          assert (Hpi : par i < i) by (apply heap_par_lt; lia).
          rewrite !swap_nth by lia.
          destruct (Nat.eqb_spec i idx) as [->|Ei].
          -- fold p. destruct (Nat.eqb_spec p idx); [lia|]. rewrite Nat.eqb_refl. lia.
          -- destruct (Nat.eqb_spec i p); [contradiction|].
             destruct (Nat.eqb_spec (par i) idx) as [Eq|Eq]; [apply (U2 i); auto; lia|].
             destruct (Nat.eqb_spec (par i) p) as [Eq2|Eq2]; [|now apply U1].
             pose proof (U1 i (ltac:(lia)) Ei) as H. rewrite Eq2 in H. lia.
        * intros i Hi Hpar Hp0.
          assert (Hpp : par p < p) by (apply heap_par_lt; lia).
          rewrite !swap_nth by lia.
          destruct (Nat.eqb_spec (par p) idx); [lia|]. destruct (Nat.eqb_spec (par p) p); [lia|].
          pose proof (U1 p (ltac:(lia)) (ltac:(lia))) as Hpge.
          destruct (Nat.eqb_spec i idx) as [Ei|Ei]; [exact Hpge|].
          destruct (Nat.eqb_spec i p) as [->|_]; [lia|].
          pose proof (U1 i (ltac:(lia)) Ei) as Hi2. rewrite Hpar in Hi2. lia.
  Qed.

  (* the heap order may fail only between [idx] and its children, which already respect the parent of [idx] *)
  Definition down_pre (idx : nat) (l : list node) : Prop :=
    (forall i, 0 < i < length l -> par i <> idx -> (T (nth i l O) <= T (nth (par i) l O))%Z) /\
    (forall i, 0 < i < length l -> par i = idx -> 0 < idx -> (T (nth i l O) <= T (nth (par idx) l O))%Z).

  Lemma bubble_down_ok : forall fuel idx l, length l - idx <= fuel -> down_pre idx l ->
    heap_ok (bubble_down g fuel idx l).
  Proof.
    induction fuel as [|f IH]; intros idx l Hf [D1 D2].
    - cbn [bubble_down]. intros i Hi. apply D1; [exact Hi|]. intros E.
      destruct (par_child i idx (ltac:(lia)) E); lia.
    - cbn [bubble_down]. destruct (2 * idx + 1 <? length l) eqn:El.
      + apply Nat.ltb_lt in El.
        set (li := 2 * idx + 1) in *. set (ri := 2 * idx + 2).
        set (si := if (ri <? length l) && (0 <? hcmp g (nth li l O) (nth ri l O))%Z then ri else li).
        (* si is a child of idx holding the larger time *)
        assert (Hsi : si < length l /\ par si = idx /\ idx < si /\
                      forall i, 0 < i < length l -> par i = idx -> (T (nth i l O) <= T (nth si l O))%Z).
        { unfold si. rewrite hcmp_gt.
          destruct ((ri <? length l) && (T (nth li l O) <? T (nth ri l O))%Z) eqn:Es.
          - apply andb_true_iff in Es. destruct Es as [Er Ec]. apply Nat.ltb_lt in Er. apply Z.ltb_lt in Ec.
            repeat split; try (unfold ri; lia); [apply par_r|].
            intros i Hi Hp. destruct (par_child i idx (ltac:(lia)) Hp) as [->| ->]; fold li; fold ri; lia.
          - repeat split; try (unfold li; lia); [apply par_l|].
            intros i Hi Hp. destruct (par_child i idx (ltac:(lia)) Hp) as [->| ->]; fold li; fold ri; [lia|].
            (* the right child exists, so it lost the comparison *)
            apply andb_false_iff in Es. destruct Es as [Er|Ec]; [apply Nat.ltb_ge in Er; unfold ri in *; lia|].
            apply Z.ltb_ge in Ec. lia. }
        destruct Hsi as [S1 [S2 [S3 S4]]].
        rewrite hcmp_gt. destruct (Z.ltb_spec (T (nth idx l O)) (T (nth si l O))) as [Ec|Hge].
        * apply IH; [rewrite swap_length; lia|].
          unfold down_pre. rewrite swap_length. split.
          -- intros i Hi Hne.
             assert (Hpi : par i < i) by (apply heap_par_lt; lia).
             rewrite !swap_nth by lia.
             destruct (Nat.eqb_spec i idx) as [->|Ei].
             ++ destruct (Nat.eqb_spec (par idx) idx); [lia|]. destruct (Nat.eqb_spec (par idx) si); [lia|].
                apply (D2 si); auto; lia.
             ++ destruct (Nat.eqb_spec i si) as [->|Eis]; [rewrite S2, Nat.eqb_refl; lia|].
                destruct (Nat.eqb_spec (par i) idx) as [Eq|Eq]; [apply S4; [lia | exact Eq]|].
                destruct (Nat.eqb_spec (par i) si); [contradiction|]. apply D1; [lia | exact Eq].
          -- intros i Hi Hpar Hs0.
             assert (Hgt : si < i) by (rewrite <- Hpar; apply heap_par_lt; lia).
             rewrite !swap_nth by lia.
             destruct (Nat.eqb_spec i idx); [lia|]. destruct (Nat.eqb_spec i si); [lia|].
             rewrite S2, Nat.eqb_refl. rewrite <- Hpar. apply D1; lia.
        * intros i Hi. destruct (Nat.eq_dec (par i) idx) as [E|E].
          -- rewrite E. pose proof (S4 i Hi E). lia.
          -- now apply D1.
      + apply Nat.ltb_ge in El. intros i Hi. apply D1; [exact Hi|]. intros E.
        destruct (par_child i idx (ltac:(lia)) E); lia.
  Qed.

  Lemma heap_push_ok : forall x l, heap_ok l -> heap_ok (heap_push g x l).
  Proof.
    intros x l H. unfold heap_push.
    assert (Hlen : length (l ++ [x]) = S (length l)) by (rewrite app_length; simpl; lia).
    apply bubble_up_ok; try lia. rewrite Hlen. replace (S (length l) - 1) with (length l) by lia.
    split.
    - intros i Hi Hne. assert (Hil : i < length l) by lia.
      assert (Hpi : par i < i) by (apply heap_par_lt; lia).
      rewrite !app_nth1 by lia. apply H. lia.
    - intros i Hi Hp. assert (par i < i) by (apply heap_par_lt; lia). lia.
  Qed.

  Lemma nth_removelast : forall (l : list node) k, S k < length l -> nth k (removelast l) O = nth k l O.
  Proof.
    induction l as [|a r IH]; intros k H; [simpl in H; lia|].
    destruct r as [|b r']; [simpl in H; lia|].
    change (removelast (a :: b :: r')) with (a :: removelast (b :: r')).
    destruct k; [reflexivity|]. simpl nth. apply IH. simpl in *. lia.
  Qed.

  (* after Pop moved the last element to the root, the other positions hold what they held *)
  Lemma pop_root_nth : forall (v : node) (t : list node) k, 0 < k < length t ->
    nth k (last t O :: removelast t) O = nth k (v :: t) O.
  Proof. intros v t [|k] Hk; [lia|]. simpl. apply nth_removelast. lia. Qed.

  Lemma heap_root_max : forall l, heap_ok l -> forall i, i < length l -> (T (nth i l O) <= T (nth 0 l O))%Z.
  Proof.
    intros l H i. induction i as [i IH] using lt_wf_ind. intros Hi.
    destruct i as [|i']; [lia|].
    assert (Hp : par (S i') < S i') by (apply heap_par_lt; lia).
    pose proof (H (S i') (ltac:(lia))). pose proof (IH (par (S i')) Hp (ltac:(lia))). lia.
  Qed.

  Lemma heap_pop_ok : forall l c l', heap_ok l -> heap_pop g l = Some (c, l') ->
    heap_ok l' /\ forall x, In x l -> (T x <= T c)%Z.
  Proof.
    intros l c l' H Hp. destruct l as [|v t]; [discriminate|]. simpl in Hp. injection Hp as Hc Hl. subst c.
    split.
    - rewrite <- Hl. destruct t as [|a r]; [intros i Hi; simpl in Hi; lia|].
      pose proof (Permutation_length (last_removelast_perm (a :: r) (ltac:(discriminate)))) as Lm.
      apply bubble_down_ok; [lia|]. split; [|intros; lia].
      intros i Hi Hne. rewrite Lm in Hi. assert (Hpi : par i < i) by (apply heap_par_lt; lia).
      rewrite !(pop_root_nth v) by lia. apply H. simpl length in *. lia.
    - intros x Hx. destruct (In_nth _ _ O Hx) as [k [Hk Ek]]. subst x.
      apply (heap_root_max (v :: t) H k Hk).
  Qed.

  Lemma heap_pushes_ok : forall add h, heap_ok h -> heap_ok (fold_left (fun hh p => heap_push g p hh) add h).
  Proof.
    induction add as [|p r IH]; intros h H; simpl; [exact H|]. apply IH. now apply heap_push_ok.
  Qed.
End HeapOrd.

Definition newest_first (g : dag) (I : list node) (l : list node) : Prop :=
  forall l1 c l2, l = l1 ++ c :: l2 ->
  forall y p, In y l1 -> In p (parents g y) -> ~ In p I -> ~ In p l1 -> (ctime g p <= ctime g c)%Z.

Theorem ctime_walk_newest_first : forall g stop (I : list node) (s : node) fuel,
  (forall x : node, In x [s] -> x < nnodes g) -> dag_closed g = true ->
  newest_first g I (fst (ctime_walk g stop fuel s I)).
Proof.
  intros g stop I s fuel Hs Hc. unfold ctime_walk. change (heap_push g s []) with [s].
  rewrite (ctime_loop_eq g Hc stop fuel [s] I []) by (apply Forall_forall; exact Hs).
  apply (gloop_frontier (parents g) (list node) (fun l => l) (heap_pop g) (ct_push g)
           (fun c seen => unseen_parents g seen c) (heap_ok g) (fun x c => (ctime g x <= ctime g c)%Z)).
  - exact (pop_some _ _ _ (pops_heap g)).
  - intros c sn b. apply heap_pushes_perm.
  - exact (pushed_all _ _ _ (selects_unseen (parents g) _ (fun c => le_n _))).
  - intros b c b' Hg Hp. now destruct (heap_pop_ok g b c b' Hg Hp).
  - intros c sn b Hg. now apply heap_pushes_ok.
  - intros b c b' Hg Hp. now destruct (heap_pop_ok g b c b' Hg Hp).
  - split.
    + intros y p [].
    + intros x. simpl. tauto.
    + intros i Hi. simpl in Hi. lia.
    + apply prefixed_nil.
Qed.
