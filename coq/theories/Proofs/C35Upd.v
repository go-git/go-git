(* Proofs/C35Upd.v — UpdateRequests: decode (encode m) = m. *)
From Coq Require Import List NArith ZArith Bool Lia Arith String.
From GoGit Require Import Base.Out Model.PktLine Model.Packp Proofs.C34Pkt Proofs.C35Base Proofs.C35Msgs Proofs.C35Caps Proofs.C35Adv.
Import ListNotations.

Definition cmd_name_ok (n : bytes) : bool := match n with [] => false | _ => forallb tokc n end.
Definition cmd_ok (c : bytes * hash * hash) : bool :=
  let '(n, o, nw) := c in cmd_name_ok n && hash_ok o && hash_ok nw && negb (cmd_invalid c).
Definition ur_ok (u : updreq) : bool :=
  caps_ok (ur_caps u) && forallb cmd_ok (ur_cmds u) && forallb hash_ok (ur_shallows u) &&
  negb (Nat.eqb (List.length (ur_cmds u)) 0).

Lemma tokc_graphic c : tokc c = true -> graphic_ascii c = true.
Proof.
  unfold tokc, graphic_ascii. intros H. apply andb_prop in H. destruct H as [H1 H2].
  apply N.leb_le in H1, H2. apply andb_true_intro. split; apply N.leb_le; lia.
Qed.

Lemma hash_str_graphic h : hash_ok h = true -> forallb graphic_ascii (hash_str h) = true.
Proof. now apply hash_str_all. Qed.

Lemma name_props n : cmd_name_ok n = true ->
  n <> [] /\ no_byte SP n = true /\ no_byte NUL n = true /\ forallb graphic_ascii n = true.
Proof.
  unfold cmd_name_ok. destruct n as [|c n]; [discriminate|]. intros H. split; [discriminate|].
  unfold no_byte. repeat split; rewrite forallb_forall in *; intros x Hx; specialize (H x Hx).
  - destruct (tokc_facts _ H) as [_ ->]. reflexivity.
  - apply tokc_range in H. apply negb_true_iff, N.eqb_neq. unfold NUL. lia.
  - now apply tokc_graphic.
Qed.

Lemma cmd_ok_spec n o nw : cmd_ok (n, o, nw) = true -> cmd_name_ok n = true /\ hash_ok o = true /\ hash_ok nw = true.
Proof. unfold cmd_ok. intros H. repeat (apply andb_prop in H; destruct H as [H ?]). auto. Qed.

Lemma fmt_cmd_length n o nw : cmd_ok (n, o, nw) = true -> (83 <= List.length (fmt_cmd (n, o, nw)))%nat.
Proof.
  intros H. destruct (cmd_ok_spec n o nw H) as (Hn & Ho & Hnw). destruct (name_props n Hn) as (Hne & _).
  pose proof (hash_str_min o Ho). pose proof (hash_str_min nw Hnw). unfold fmt_cmd. rewrite !app_length. cbn [List.length].
  destruct n; [contradiction|]. cbn [List.length]. clear - H0 H1. lia.
Qed.

Lemma parse_cmd_fmt c : cmd_ok c = true -> parse_cmd (fmt_cmd c) = inl (Some c).
Proof.
  destruct c as [[n o] nw]. intros H. destruct (cmd_ok_spec n o nw H) as (Hn & Ho & Hnw).
  destruct (name_props n Hn) as (Hne & Hsp & _ & Hg).
  destruct (hash_str_nospace o Ho) as [Hos _]. destruct (hash_str_nospace nw Hnw) as [Hns _].
  pose proof (fmt_cmd_length n o nw H) as Hlen. unfold parse_cmd. apply Nat.ltb_ge in Hlen. rewrite Hlen. unfold fmt_cmd.
  rewrite !forallb_app, (hash_str_graphic o Ho), (hash_str_graphic nw Hnw), Hg. cbn [forallb negb andb].
  change (hash_str o ++ [SP] ++ hash_str nw ++ [SP] ++ n) with (hash_str o ++ SP :: hash_str nw ++ SP :: n).
  rewrite (split_on_app SP _ _ Hos), (split_on_app SP _ _ Hns), (split_on_nobyte SP n Hsp).
  pose proof (hash_str_ne o Ho). pose proof (hash_str_ne nw Hnw).
  destruct (hash_str o) as [|o0 ot] eqn:Eo; [contradiction|]. destruct (hash_str nw) as [|n0 nt] eqn:En; [contradiction|].
  destruct n as [|m0 mt]; [contradiction|]. rewrite <- Eo, <- En, (from_hex_str o Ho), (from_hex_str nw Hnw). reflexivity.
Qed.

Lemma fmt_cmd_nonul c : cmd_ok c = true -> no_byte NUL (fmt_cmd c) = true.
Proof.
  destruct c as [[n o] nw]. intros H. destruct (cmd_ok_spec n o nw H) as (Hn & Ho & Hnw). destruct (name_props n Hn) as (_ & _ & Hnul & _).
  unfold fmt_cmd. rewrite !no_byte_app, Hnul. unfold no_byte. rewrite !(hash_str_all (fun x => negb (N.eqb x NUL))) by auto. reflexivity.
Qed.

(* a command line begins with an id *)
Lemma fmt_cmd_no_prefix c0 p c x : forallb (fun d => negb (N.eqb c0 d)) hexdigits = true -> cmd_ok c = true ->
  has_prefix (c0 :: p) (fmt_cmd c ++ x) = false.
Proof.
  destruct c as [[n o] nw]. intros Hc H. unfold fmt_cmd. rewrite <- app_assoc.
  apply hash_str_no_prefix; [assumption|]. now destruct (cmd_ok_spec n o nw H) as (_ & Ho & _).
Qed.

Lemma cmds_valid cs : forallb cmd_ok cs = true -> existsb cmd_invalid cs = false.
Proof.
  intros H. apply not_true_iff_false. intros E. apply existsb_exists in E. destruct E as (x & Hx & Hi).
  rewrite forallb_forall in H. specialize (H x Hx). destruct x as [[n o] nw]. unfold cmd_ok in H.
  apply andb_prop in H. destruct H as [_ H]. rewrite Hi in H. discriminate.
Qed.

(* what follows the NUL of the first command line *)
Definition cmd_caps (cp : caps) : bytes := match cap_encode cp with [] => [] | _ :: _ => SP :: cap_encode cp end.

Lemma cmd_caps_decode cp : caps_ok cp = true -> cap_decode (cmd_caps cp) [] = cp.
Proof. intros H. unfold cmd_caps. destruct (cap_encode cp) eqn:E; rewrite <- E; now apply caps_roundtrip. Qed.

Lemma cmd_line_nonl x cp : caps_ok cp = true -> N.eqb NL (last (x ++ NUL :: cmd_caps cp) 0%N) = false.
Proof.
  intros H. unfold cmd_caps. pose proof (cap_encode_nonl _ H) as T. destruct (cap_encode cp) as [|c cs]; [now rewrite last_app_ne|].
  change (x ++ NUL :: SP :: c :: cs) with (x ++ [NUL; SP] ++ c :: cs). now rewrite app_assoc, last_app_ne by discriminate.
Qed.

Lemma ur_cmd_step c r fin cp cs shs : cmd_ok c = true ->
  ur_cmds_go (item_of (PData (fmt_cmd c)) :: r) fin (mkupdreq cp cs shs) = ur_cmds_go r fin (mkupdreq cp (cs ++ [c]) shs).
Proof.
  intros Hc. destruct c as [[n o] nw]. pose proof (fmt_cmd_length n o nw Hc).
  rewrite item_of_ne by lia. cbn [ur_cmds_go fst snd]. now rewrite item_nz, (parse_cmd_fmt _ Hc).
Qed.

Lemma ur_shallow_step h r fin cp cs shs : hash_ok h = true ->
  ur_shallow_go (item_of (PData (B "shallow " ++ hash_str h)) :: r) fin (mkupdreq cp cs shs)
  = ur_shallow_go r fin (mkupdreq cp cs (shs ++ [h])).
Proof.
  intros Hh. destruct (hash_str_nospace h Hh) as [_ Hnl]. pose proof (hash_str_length h Hh) as HL. pose proof (hexsize_ok h) as Hx.
  rewrite item_of_ne by (rewrite app_length; cbn; lia). cbn [ur_shallow_go fst snd]. rewrite item_nz.
  rewrite trim_eol_id by (rewrite last_app_ne by (now apply hash_str_ne); exact Hnl).
  change (has_prefix (B "shallow") (B "shallow " ++ hash_str h)) with true. cbv iota.
  rewrite app_length, HL. change (List.length (B "shallow ") + hash_hexsize h - 8)%nat with (hash_hexsize h - 0)%nat.
  rewrite Nat.sub_0_r, Hx. change (Nat.ltb (List.length (B "shallow ") + hash_hexsize h) 8) with false. cbn [negb orb].
  now rewrite (skipn_app_exact (B "shallow ") (hash_str h) 8 eq_refl), (from_hex_str h Hh).
Qed.

Theorem ur_roundtrip u ps : ur_ok u = true -> ur_encode u = Some ps ->
  ur_decode (mksrc (map item_of ps) None) = URok u.
Proof.
  unfold ur_ok. destruct u as [cp cmds shs]. cbn [ur_caps ur_cmds ur_shallows]. intros H He.
  apply andb_prop in H. destruct H as [H _]. apply andb_prop in H. destruct H as [H Hsh]. apply andb_prop in H. destruct H as [Hcaps Hcmds].
  unfold ur_encode in He. cbn [ur_caps ur_cmds ur_shallows] in He. rewrite (cmds_valid _ Hcmds) in He.
  destruct cmds as [|c0 cs]; [discriminate|]. injection He as <-.
  pose proof Hcmds as Hall. cbn [forallb] in Hcmds. apply andb_prop in Hcmds. destruct Hcmds as [Hc0 Hcs]. apply forallb_Forall in Hsh, Hcs.
  unfold ur_decode. cbn [s_items s_fin]. rewrite map_app, map_map.
  rewrite (lines_acc (fun l => ur_shallow_go l None) _ (fun acc => mkupdreq [] [] acc) _ (fun h r acc => ur_shallow_step h r None [] [] acc)) by assumption.
  (* the shallow loop meets the first command line (it begins with an id, not with "shallow"), cuts it at the NUL
     into the command and the capabilities, and hands the remaining lines to the command loop *)
  cbv zeta. change (match cap_encode cp with [] => [] | _ :: _ => SP :: cap_encode cp end) with (cmd_caps cp). pose proof (cmd_line_nonl (fmt_cmd c0) cp Hcaps) as Hlast.
  destruct c0 as [[n o] nw]. pose proof (fmt_cmd_length n o nw Hc0) as Hlen.
  cbn [map app]. rewrite item_of_ne by (rewrite app_length; lia). cbn [ur_shallow_go fst snd]. rewrite item_nz. rewrite (trim_eol_id _ Hlast).
  rewrite (fmt_cmd_no_prefix 115 (skipn 1 (B "shallow")) _ _ eq_refl Hc0). cbn [andb].
  rewrite (cut_app NUL _ (cmd_caps cp) (fmt_cmd_nonul _ Hc0)).
  replace (Nat.ltb (List.length (fmt_cmd (n, o, nw) ++ NUL :: (cmd_caps cp))) 84) with false
    by (symmetry; apply Nat.ltb_ge; rewrite app_length; cbn [List.length]; lia).
  rewrite (parse_cmd_fmt _ Hc0). cbn [ur_caps ur_cmds ur_shallows app]. rewrite (cmd_caps_decode cp Hcaps), map_app, map_map.
  rewrite (lines_acc (fun l => ur_cmds_go l None) _ (fun acc => mkupdreq cp acc shs) _ (fun c r acc => ur_cmd_step c r None cp acc shs)) by assumption.
  cbn [map item_of ur_cmds_go fst Z.eqb app ur_cmds]. now rewrite (cmds_valid _ Hall).
Qed.

Lemma ur_no_errline u ps : ur_ok u = true -> ur_encode u = Some ps -> forallb no_errline ps = true.
Proof.
  unfold ur_ok. intros H He.
  apply andb_prop in H. destruct H as [H _]. apply andb_prop in H. destruct H as [H _]. apply andb_prop in H. destruct H as [_ Hcmds].
  assert (forall c x, cmd_ok c = true -> no_errline (PData (fmt_cmd c ++ x)) = true) as K
    by (intros c x Hc; apply negb_true_iff, (fmt_cmd_no_prefix 69 (skipn 1 errPrefix) c x eq_refl Hc)).
  unfold ur_encode in He. destruct (ur_cmds u) as [|c0 cs]; [discriminate|].
  destruct (existsb cmd_invalid (c0 :: cs)); [discriminate|]. injection He as <-.
  cbn [forallb] in Hcmds. apply andb_prop in Hcmds. destruct Hcmds as [Hc0 Hcs].
  rewrite forallb_app, forallb_map_all by reflexivity. cbn [forallb andb]. rewrite (K c0 _ Hc0), forallb_app. cbn [forallb andb]. rewrite andb_true_r.
  apply (forallb_map_impl cmd_ok); [|exact Hcs]. intros c Hc. rewrite <- (app_nil_r (fmt_cmd c)). now apply K.
Qed.
