(* Proofs/C25.v — forced checkout and hard reset materialise the target commit. *)
From Coq Require Import List NArith ZArith Bool String.
From GoGit Require Import Base.Out Model.Porcelain Proofs.PorcelainMaps Proofs.Porcelain.
Import ListNotations.
Local Open Scope N_scope.

(* state s' has exactly commit c (tree t) checked out: HEAD resolves to c, the
   index is t, every path of t is on disk with t's kind and content *)
Definition materialised (s' : state) (c : Z) (t : fmap) : Prop :=
  head_commit s' = Some c /\
  agree (idx s') t /\
  (forall p e, lookup p t = Some e -> lookup p (wt s') = Some e).

(* git status would list no tracked change: index = HEAD tree, worktree = index on index paths *)
Definition tracked_clean (s' : state) : Prop :=
  exists c t, head_commit s' = Some c /\ tree_of s' c = Some t /\ agree (idx s') t /\
    forall p e, lookup p (idx s') = Some e -> lookup p (wt s') = Some e.

(* Hard and Keep write the target's paths and delete the other paths of the previous tree *)
Lemma hard_writes : forall t pv ix w (w' : fmap),
  (forall p, lookup p w' = wt_after Hard t pv ix w p) ->
  (forall p e, lookup p t = Some e -> lookup p w' = Some e) /\
  (forall p, lookup p t = None -> lookup p pv = None -> lookup p w' = lookup p w).
Proof.
  intros t pv ix w w' H. split; intros p; rewrite H; cbn [wt_after].
  - intros e Hp. now rewrite Hp.
  - intros Hp Hh. apply lookup_none_not_in_keys, mem_false in Hh. now rewrite Hp, Hh.
Qed.

Lemma reset_hard_materialises : forall commit s s',
  reset commit Hard None s = (None, s') ->
  exists c t, reset_target commit s = Some c /\ tree_of s' c = Some t /\ materialised s' c t /\
    (forall p, lookup p t = None -> lookup p (tree_or_empty (head_tree s)) = None ->
               lookup p (wt s') = lookup p (wt s)).
Proof.
  intros commit s s' H.
  destruct (reset_ok _ _ _ _ _ H ltac:(discriminate)) as (c & t & s1 & R1 & R2 & R3 & R4 & R5 & R6 & R7 & R8 & _).
  destruct (hard_writes _ _ _ _ _ R8) as [W1 W2].
  destruct (set_head_commit_ok _ _ _ R3) as (_ & _ & _ & S4).
  exists c, t. repeat split; auto.
  - now rewrite (tree_of_commits s' s _ R4).
  - unfold head_commit in *. now rewrite R5, R6.
Qed.

Lemma checkout_force_materialises : forall o s s',
  co_force o = true -> checkout o s = (None, s') ->
  exists c t, checkout_target o s = Some c /\ tree_of s' c = Some t /\ materialised s' c t /\
    (forall p, lookup p t = None -> lookup p (tree_or_empty (head_tree s)) = None ->
               lookup p (wt s') = lookup p (wt s)).
Proof.
  intros o s s' Hf H.
  assert (Hm : co_mode o = Hard) by (unfold co_mode; now rewrite Hf).
  destruct (checkout_ok _ _ _ H ltac:(rewrite Hm; discriminate))
    as (c & t & pv & K1 & K2 & K3 & K4 & K5 & K6 & K7 & _).
  rewrite Hm in K6. destruct (hard_writes _ _ _ _ _ K6) as [W1 W2].
  exists c, t. repeat split; auto.
  - now rewrite (tree_of_commits s' s _ K3).
  - intros p Hp Hh. destruct (K7 Hm) as [-> | ->]; auto.
Qed.

(* the faithful model refutes "untracked files outside the target survive":
   HEAD = commit 0 = {a, n}, target = commit 1 = {a}; n was dropped from the
   index only (git rm --cached) and is still on disk: Reset(Hard) deletes it *)
Definition b (s : string) : bytes := bytes_of_string s.
Definition w_tree0 : fmap := [(b "a", (KReg, b "A")); (b "n", (KReg, b "N"))].
Definition w_tree1 : fmap := [(b "a", (KReg, b "A"))].
Definition w_state : state :=
  mkState [w_tree0; w_tree1] [(master, 0%Z)] (HSym master) w_tree1 w_tree0 [].

Lemma hard_deletes_untracked :
  exists s', reset 1 Hard None w_state = (None, s') /\
    lookup (b "n") (idx w_state) = None /\           (* untracked *)
    lookup (b "n") w_tree1 = None /\                 (* not in the target *)
    lookup (b "n") (wt w_state) = Some (KReg, b "N") /\
    lookup (b "n") (wt s') = None.                   (* ... and gone *)
Proof. eexists. vm_compute. repeat split. Qed.

(* a second departure from git, in the other direction: a staged NEW file (in
   the index, in neither HEAD's tree nor the target) survives Reset(Hard) as an
   untracked file; git reset --hard deletes it *)
Definition w_state2 : state :=
  mkState [w_tree1; [(b "a", (KReg, b "A2"))]] [(master, 0%Z)] (HSym master)
          [(b "a", (KReg, b "A")); (b "s", (KReg, b "S"))] [(b "a", (KReg, b "A")); (b "s", (KReg, b "S"))] [].

Lemma hard_keeps_staged_new :
  exists s', reset 1 Hard None w_state2 = (None, s') /\
    lookup (b "s") (idx w_state2) = Some (KReg, b "S") /\
    lookup (b "s") (idx s') = None /\ lookup (b "s") (wt s') = Some (KReg, b "S").
Proof. eexists. vm_compute. repeat split. Qed.
