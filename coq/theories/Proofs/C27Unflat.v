(* Proofs/C27Unflat.v — mindex.NewRootNode (Model/StatusTrie.v unflat): the tree inferred from
   the entry paths holds exactly the entries, names distinct per directory, when no entry path is
   a leading directory of (or equal to) another. *)
From Coq Require Import List NArith Bool Arith.
From GoGit Require Import Base.Out Model.Status Model.StatusTrie.
From GoGit Require Model.DiffTree Spec.MapDiff Proofs.C44_order Proofs.C44_diff Proofs.C44_sort.
Import ListNotations.
Local Open Scope N_scope.

Notation pren := C44_diff.pren.
Notation Dir := DiffTree.Dir.
Notation File := DiffTree.File.

Fixpoint child (n : DiffTree.name) (t : dtree) : option DiffTree.node :=
  match t with [] => None | c :: r => if DiffTree.bytes_eqb (fst c) n then Some (snd c) else child n r end.

Lemma has_child_child n t : has_child n t = match child n t with Some _ => true | None => false end.
Proof. induction t as [|c r IH]; [reflexivity|]. cbn [has_child child]. destruct (DiffTree.bytes_eqb (fst c) n); [reflexivity|exact IH]. Qed.

(* the path can be inserted: no file where a directory is needed, no node where the file goes *)
Fixpoint fits (p : dpath) (t : dtree) : bool :=
  match p with
  | [] => false
  | n :: p' =>
    match p' with
    | [] => negb (has_child n t)
    | _ => match child n t with None => true | Some (Dir cs) => fits p' cs | Some (File _) => false end
    end
  end.

Lemma fl_app a b : fl (a ++ b) = fl a ++ fl b.
Proof. unfold fl, DiffTree.files_l. apply flat_map_app. Qed.

Lemma fl_cons n x t : fl ((n, x) :: t) = map (pren n) (DiffTree.files x) ++ fl t.
Proof. reflexivity. Qed.

Lemma child_split n t x : child n t = Some x ->
  exists t1 m t2, t = t1 ++ (m, x) :: t2 /\ m = n /\ child n t1 = None.
Proof.
  induction t as [|c r IH]; [discriminate|]. cbn [child]. destruct (DiffTree.bytes_eqb (fst c) n) eqn:E.
  - intros H. inversion H; subst. apply C44_order.bytes_eqb_eq in E. exists [], (fst c), r. destruct c; cbn in *. subst. auto.
  - intros H. destruct (IH H) as (t1 & m & t2 & -> & -> & Hn). exists (c :: t1), n, t2. cbn [app child]. rewrite E. auto.
Qed.

Lemma child_none_app n t1 t2 : child n t1 = None -> child n (t1 ++ t2) = child n t2.
Proof. induction t1 as [|c r IH]; [reflexivity|]. cbn [child app]. destruct (DiffTree.bytes_eqb (fst c) n); [discriminate|exact IH]. Qed.

Lemma upd_child_none n f t : child n t = None -> upd_child n f t = t ++ [(n, Dir (f []))].
Proof.
  induction t as [|c r IH]; [reflexivity|]. cbn [child upd_child]. destruct (DiffTree.bytes_eqb (fst c) n); [discriminate|].
  intros H. cbn [app]. now rewrite IH.
Qed.

Lemma upd_child_split n f t1 cs t2 :
  child n t1 = None -> upd_child n f (t1 ++ (n, Dir cs) :: t2) = t1 ++ (n, Dir (f cs)) :: t2.
Proof.
  induction t1 as [|c r IH]; intros H.
  - cbn [app upd_child fst snd]. now rewrite C44_order.bytes_eqb_refl.
  - cbn [child] in H. cbn [app upd_child]. destruct (DiffTree.bytes_eqb (fst c) n); [discriminate|]. now rewrite IH.
Qed.

Lemma tins_fl p : forall l t, fits p t = true ->
  forall q l', In (q, l') (fl (tins p l t)) <-> In (q, l') (fl t) \/ (q = p /\ l' = l).
Proof.
  induction p as [|n p' IH]; intros l t F q l'; [discriminate|].
  destruct p' as [|n2 p''].
  - cbn [fits] in F. apply negb_true_iff in F. cbn [tins]. rewrite F.
    rewrite fl_app, in_app_iff. unfold fl at 2. cbn [DiffTree.files_l flat_map DiffTree.files map fst snd app].
    split; intros [H|H]; auto.
    + destruct H as [H|[]]. inversion H; subst. auto.
    + destruct H as [-> ->]. right. now left.
  - (* a directory step: the child named n is rewritten where it stands (child_split), or appended when absent *)
    change (tins (n :: n2 :: p'') l t) with (upd_child n (tins (n2 :: p'') l) t).
    change (fits (n :: n2 :: p'') t) with
      (match child n t with None => true | Some (Dir cs) => fits (n2 :: p'') cs | Some (File _) => false end) in F.
    destruct (child n t) as [[lf|cs]|] eqn:C; [discriminate| |].
    + destruct (child_split n t _ C) as (t1 & m & t2 & -> & -> & Hn).
      rewrite (upd_child_split n _ t1 cs t2 Hn), !fl_app, !fl_cons, !in_app_iff, !C44_diff.files_dir.
      fold (fl (tins (n2 :: p'') l cs)) (fl cs). rewrite !C44_diff.in_pren.
      split.
      * intros [H|[H|H]]; auto.
        destruct H as (q' & -> & H). apply (IH l cs F) in H as [H|[-> ->]]; [left; right; left; eauto|right; auto].
      * intros [[H|[H|H]]|[-> ->]]; auto.
        { destruct H as (q' & -> & H). right. left. exists q'. split; [reflexivity|]. apply (IH l cs F). now left. }
        { right. left. exists (n2 :: p''). split; [reflexivity|]. apply (IH l cs F). now right. }
    + rewrite (upd_child_none n _ t C), fl_app, in_app_iff, (fl_cons n _ []).
      change (fl []) with (@nil (dpath * dleaf)). rewrite app_nil_r, C44_diff.files_dir.
      fold (fl (tins (n2 :: p'') l [])). rewrite C44_diff.in_pren.
      assert (F0 : fits (n2 :: p'') [] = true) by (destruct p''; reflexivity).
      split.
      * intros [H|H]; auto. destruct H as (q' & -> & H). apply (IH l [] F0) in H as [[]|[-> ->]]. right. auto.
      * intros [H|[-> ->]]; auto. right. exists (n2 :: p''). split; [reflexivity|]. apply (IH l [] F0). now right.
Qed.

Lemma names_app_new t n x :
  MapDiff.nodupb (map fst t) = true -> has_child n t = false -> MapDiff.nodupb (map fst (t ++ [(n, x)])) = true.
Proof.
  induction t as [|c r IH]; intros H C; [reflexivity|].
  cbn [map fst MapDiff.nodupb app] in *. apply andb_true_iff in H as [H1 H2].
  cbn [has_child] in C. apply orb_false_iff in C as [C1 C2].
  rewrite (IH H2 C2), andb_true_r. apply negb_true_iff in H1. apply negb_true_iff.
  rewrite map_app, existsb_app, H1. cbn [map fst existsb orb]. rewrite orb_false_r. exact C1.
Qed.

Lemma tins_ok p : forall l t, fits p t = true -> MapDiff.node_ok (Dir t) = true -> MapDiff.node_ok (Dir (tins p l t)) = true.
Proof.
  induction p as [|n p' IH]; intros l t F Hok; [discriminate|].
  destruct p' as [|n2 p''].
  - cbn [fits] in F. apply negb_true_iff in F. cbn [tins]. rewrite F.
    rewrite C44_sort.node_ok_dir_eq in *. apply andb_true_iff in Hok as [H1 H2].
    rewrite (names_app_new t n _ H1 F), forallb_app, H2. reflexivity.
  - change (tins (n :: n2 :: p'') l t) with (upd_child n (tins (n2 :: p'') l) t).
    change (fits (n :: n2 :: p'') t) with
      (match child n t with None => true | Some (Dir cs) => fits (n2 :: p'') cs | Some (File _) => false end) in F.
    destruct (child n t) as [[lf|cs]|] eqn:C; [discriminate| |].
    + destruct (child_split n t _ C) as (t1 & m & t2 & -> & -> & Hn).
      rewrite (upd_child_split n _ t1 cs t2 Hn). rewrite C44_sort.node_ok_dir_eq in *.
      apply andb_true_iff in Hok as [H1 H2]. rewrite !map_app in *. cbn [map fst] in *. rewrite H1. cbn [andb].
      rewrite forallb_app in *. cbn [forallb snd] in *. apply andb_true_iff in H2 as [H2 H3]. apply andb_true_iff in H3 as [H3 H4].
      rewrite H2, H4, andb_true_r. cbn [andb]. now apply IH.
    + rewrite (upd_child_none n _ t C). rewrite C44_sort.node_ok_dir_eq in *. apply andb_true_iff in Hok as [H1 H2].
      assert (Hc : has_child n t = false) by (rewrite has_child_child, C; reflexivity).
      rewrite (names_app_new t n _ H1 Hc), forallb_app, H2. cbn [forallb snd andb]. rewrite andb_true_r.
      apply IH; [destruct p''; reflexivity|reflexivity].
Qed.

(* NewRootNode never meets a file where it needs a directory, nor an existing node where it puts a file *)
Fixpoint unflat_ok (m : list (dpath * dleaf)) (t : dtree) : bool :=
  match m with
  | [] => true
  | e :: r => fits (fst e) t && unflat_ok r (tins (fst e) (snd e) t)
  end.

Lemma unflat_fold m : forall t,
  unflat_ok m t = true ->
  (forall q l, In (q, l) (fl (fold_left (fun t e => tins (fst e) (snd e) t) m t)) <-> In (q, l) (fl t) \/ In (q, l) m) /\
  (MapDiff.node_ok (Dir t) = true -> MapDiff.node_ok (Dir (fold_left (fun t e => tins (fst e) (snd e) t) m t)) = true).
Proof.
  induction m as [|[p l0] m IH]; intros t H.
  - cbn [fold_left In]. split; [intros q l; tauto|auto].
  - cbn [unflat_ok fst snd] in H. apply andb_true_iff in H as [F H]. cbn [fold_left fst snd].
    destruct (IH _ H) as [I1 I2]. split.
    + intros q l. rewrite I1, (tins_fl p l0 t F). cbn [In]. split.
      * intros [[H1|[-> ->]]|H1]; auto.
      * intros [H1|[H1|H1]]; auto. inversion H1; subst. auto.
    + intros Hok. apply I2. now apply tins_ok.
Qed.

Lemma unflat_spec m :
  unflat_ok m [] = true ->
  (forall q l, In (q, l) (fl (unflat m)) <-> In (q, l) m) /\ MapDiff.tree_ok (unflat m) = true.
Proof.
  intros H. destruct (unflat_fold m [] H) as [I1 I2]. unfold unflat. split.
  - intros q l. rewrite I1. cbn. tauto.
  - apply I2. reflexivity.
Qed.
