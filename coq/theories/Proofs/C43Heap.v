(* Proofs/C43Heap.v — the gods binary heap of the committer-time walker only
   permutes its contents under Push and Pop, so the walker is a Worklist
   instance too. *)
From Coq Require Import List Arith ZArith Bool Lia Permutation.
From GoGit Require Import Spec.Dag Model.CommitWalk Proofs.Worklist Proofs.C43.
Import ListNotations.

Lemma swap_length : forall i j (l : list node), length (swap i j l) = length l.
Proof.
  intros. unfold swap. rewrite map_length, combine_length, seq_length. apply Nat.min_id.
Qed.

Lemma swap_nth : forall i j (l : list node) k, k < length l ->
  nth k (swap i j l) O =
  if k =? i then nth j l O else if k =? j then nth i l O else nth k l O.
Proof.
  intros i j l k Hk. unfold swap.
  set (f := fun kx : nat * node => if fst kx =? i then nth j l O else if fst kx =? j then nth i l O else snd kx).
  rewrite (nth_indep _ O (f (O, O))).
  - rewrite map_nth. rewrite combine_nth by (now rewrite seq_length).
    rewrite seq_nth by exact Hk. unfold f. simpl. reflexivity.
  - rewrite map_length, combine_length, seq_length, Nat.min_id. exact Hk.
Qed.

(* position k of the swapped list holds what the transposition of i and j points at *)
Lemma swap_perm : forall i j (l : list node), i < length l -> j < length l ->
  Permutation (swap i j l) l.
Proof.
  intros i j l Hi Hj. symmetry. apply (Permutation_nth _ _ (O : node)). split; [apply swap_length|].
  exists (fun k => if k =? i then j else if k =? j then i else k). repeat split.
  - intros k Hk. destruct (k =? i); [exact Hj|]. destruct (k =? j); assumption.
  - intros x y _ _.
    destruct (Nat.eqb_spec x i), (Nat.eqb_spec x j), (Nat.eqb_spec y i), (Nat.eqb_spec y j); lia.
  - intros k Hk. rewrite (swap_nth i j l k Hk). destruct (k =? i); [reflexivity|]. now destruct (k =? j).
Qed.

(* Pop moves the last element to the root *)
Lemma last_removelast_perm : forall (t : list node), t <> [] ->
  Permutation (last t O :: removelast t) t.
Proof.
  intros t Hne. rewrite (app_removelast_last O Hne) at 3. apply Permutation_cons_append.
Qed.

Section Heap.
  Variable g : dag.

  Lemma bubble_up_perm : forall fuel idx (l : list node), idx < length l ->
    Permutation (bubble_up g fuel idx l) l.
  Proof.
    induction fuel as [|f IH]; intros idx l Hi; cbn [bubble_up]; [reflexivity|].
    destruct (idx =? 0) eqn:E0; [reflexivity|].
    destruct (hcmp g (nth ((idx - 1) / 2) l O) (nth idx l O) <=? 0)%Z; [reflexivity|].
    apply Nat.eqb_neq in E0.
    assert (Hp : (idx - 1) / 2 < length l).
    { apply Nat.le_lt_trans with (idx - 1); [apply Nat.div_le_upper_bound; lia | lia]. }
    rewrite IH by now rewrite swap_length. now apply swap_perm.
  Qed.

  Lemma bubble_down_perm : forall fuel idx (l : list node), idx < length l ->
    Permutation (bubble_down g fuel idx l) l.
  Proof.
    induction fuel as [|f IH]; intros idx l Hi; cbn [bubble_down]; [reflexivity|].
    destruct (2 * idx + 1 <? length l) eqn:El; [|reflexivity].
    apply Nat.ltb_lt in El.
    set (si := if (2 * idx + 2 <? length l) && (0 <? hcmp g (nth (2 * idx + 1) l O) (nth (2 * idx + 2) l O))%Z
               then 2 * idx + 2 else 2 * idx + 1).
    assert (Hsi : si < length l).
    { unfold si. destruct (2 * idx + 2 <? length l) eqn:Er; simpl; [|exact El].
      apply Nat.ltb_lt in Er. now destruct (0 <? hcmp g _ _)%Z. }
    destruct (0 <? hcmp g (nth idx l O) (nth si l O))%Z; [|reflexivity].
    rewrite IH by now rewrite swap_length. now apply swap_perm.
  Qed.

  Lemma heap_push_perm : forall x (l : list node), Permutation (heap_push g x l) (x :: l).
  Proof.
    intros x l. unfold heap_push. rewrite bubble_up_perm by (rewrite app_length; simpl; lia).
    symmetry. apply Permutation_cons_append.
  Qed.

  Lemma heap_pushes_perm : forall (add h : list node),
    Permutation (fold_left (fun hh p => heap_push g p hh) add h) (add ++ h).
  Proof. exact (fold_insert_perm _ heap_push_perm). Qed.

  Lemma pops_heap : pops (list node) (fun l => l) (heap_pop g).
  Proof.
    split; intros [|v t]; try discriminate; [reflexivity|].
    intros c l' H. injection H as <- <-. constructor.
    destruct t as [|a r]; [reflexivity|].
    rewrite bubble_down_perm by (simpl; lia). symmetry. apply last_removelast_perm. discriminate.
  Qed.

  Hypothesis Hclosed : dag_closed g = true.
  Variable stop : node -> bool.
  Let n := nnodes g.

  Definition ct_push (c : node) (seen : list node) (h : list node) :=
    fold_left (fun hh p => heap_push g p hh) (unseen_parents g seen c) h.

  Lemma ctime_loop_eq : forall fuel (h seen acc : list node),
    Forall (fun x => x < n) h ->
    ctime_loop g stop fuel h seen acc = gloop _ (heap_pop g) ct_push stop fuel h seen acc.
  Proof.
    induction fuel as [|f IH]; intros h seen acc Hh; [reflexivity|].
    simpl. destruct (heap_pop g h) as [[c h']|] eqn:Ep; [|reflexivity].
    rewrite (pop_some _ _ _ pops_heap _ _ _ Ep) in Hh. apply Forall_inv_tail in Hh.
    destruct (mem c seen); [now apply IH|].
    rewrite (forallb_present g _ (unseen_stored g Hclosed (c :: seen) c)). simpl.
    destruct (stop c); [reflexivity|].
    apply IH. unfold ct_push. rewrite heap_pushes_perm.
    apply Forall_app. split; [now apply unseen_stored | exact Hh].
  Qed.

  Theorem ctime_walk_post : forall (I : list node) (s : node), s < n ->
    Post (parents g) stop I s (ctime_walk g stop (walk_fuel g) s I).
  Proof.
    intros I s Hs. unfold ctime_walk. change (heap_push g s []) with [s].
    rewrite ctime_loop_eq by (repeat constructor; exact Hs).
    apply (gloop_walk_post g stop (parents g) _ (fun l => l) _ _ (fun c seen => unseen_parents g seen c));
      [exact (par_lt g Hclosed) | exact pops_heap | | exact (selects_unseen _ _ (fun c => le_n _)) | exact Hs | reflexivity].
    intros c seen b. apply heap_pushes_perm.
  Qed.
End Heap.
