(* Proofs/C34Stream.v — chunking independence of the ReadFull-style primitive
   [take] (DESIGN Appendix C.3): whatever the chunking, [take] returns the
   first n bytes of the flat stream and leaves a reader whose flat content is
   the rest. *)
From Coq Require Import List NArith ZArith Bool Lia Arith.
From GoGit Require Import Base.Out Model.PktLine.
Import ListNotations.

Lemma take_concat : forall (r : reader) (n : nat),
  fst (take r n) = firstn n (concat r) /\ concat (snd (take r n)) = skipn n (concat r).
Proof.
  induction r as [|c r IH]; intros n.
  - cbn. now rewrite firstn_nil, skipn_nil.
  - cbn [take concat]. rewrite firstn_app, skipn_app. destruct (Nat.leb_spec n (List.length c)) as [E|E].
    + replace (n - List.length c)%nat with 0%nat by lia. cbn. now rewrite app_nil_r.
    + specialize (IH (n - List.length c)%nat). destruct (take r (n - List.length c)) as [x r''].
      cbn [fst snd] in *. destruct IH as [-> ->]. now rewrite (firstn_all2 c), (skipn_all2 c) by lia.
Qed.

Lemma take_fst r n : fst (take r n) = firstn n (concat r).
Proof. apply take_concat. Qed.
Lemma take_snd r n : concat (snd (take r n)) = skipn n (concat r).
Proof. apply take_concat. Qed.

Lemma take_flat : forall r1 r2 n, concat r1 = concat r2 ->
  fst (take r1 n) = fst (take r2 n) /\ concat (snd (take r1 n)) = concat (snd (take r2 n)).
Proof. intros r1 r2 n H. rewrite !take_fst, !take_snd, H. auto. Qed.

Lemma rlen_take r n : rlen (snd (take r n)) = (rlen r - n)%nat.
Proof. unfold rlen. rewrite take_snd, skipn_length. reflexivity. Qed.

Lemma take_length r n : List.length (fst (take r n)) = Nat.min n (rlen r).
Proof. unfold rlen. rewrite take_fst, firstn_length. reflexivity. Qed.

Lemma skipn_skipn' {A} : forall (x y : nat) (l : list A), skipn x (skipn y l) = skipn (y + x) l.
Proof.
  intros x y. induction y as [|y IH]; intros l; [reflexivity|].
  destruct l as [|a l]; [now rewrite !skipn_nil|]. cbn [skipn Nat.add]. apply IH.
Qed.

Lemma firstn_add {A} : forall (a b : nat) (l : list A), firstn (a + b) l = firstn a l ++ firstn b (skipn a l).
Proof.
  induction a as [|a IH]; intros b l; [reflexivity|].
  destruct l as [|x l]; [now rewrite !firstn_nil|]. cbn [Nat.add firstn skipn app]. now rewrite IH.
Qed.
