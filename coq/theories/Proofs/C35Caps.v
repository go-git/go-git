(* Proofs/C35Caps.v — capability.List: DecodeList (String l) = l. *)
From Coq Require Import List NArith ZArith Bool Lia Arith.
From GoGit Require Import Base.Out Model.PktLine Model.C35Utf8 Model.Packp Proofs.C34Pkt Proofs.C35Base Proofs.C35Utf8 Proofs.C35Msgs.
Import ListNotations.

Definition EQ : N := 61.
(* graphic, non-blank ASCII *)
Definition tokc (c : N) : bool := N.leb 33 c && N.leb c 126.
Definition key_ok (k : bytes) : bool :=
  match k with [] => false | _ => forallb (fun c => tokc c && negb (N.eqb c EQ)) k end.
Definition val_ok (v : bytes) : bool := forallb tokc v.

Fixpoint keys_distinct (l : caps) : bool :=
  match l with
  | [] => true
  | (k, _) :: r => negb (existsb (fun e => beq (fst e) k) r) && keys_distinct r
  end.

Definition caps_ok (l : caps) : bool :=
  forallb (fun e => key_ok (fst e) && forallb val_ok (snd e)) l && keys_distinct l.

Lemma tokc_range c : tokc c = true -> (33 <= c <= 126)%N.
Proof. unfold tokc. intros H. apply andb_prop in H. destruct H as [H1 H2]. apply N.leb_le in H1, H2. lia. Qed.

Lemma tokc_facts c : tokc c = true -> is_space c = false /\ N.eqb c SP = false.
Proof.
  unfold tokc. intros H. apply andb_prop in H. destruct H as [H1 H2]. apply N.leb_le in H1, H2.
  unfold is_space, SP.
  destruct (N.eqb_spec c 9); [lia|]. destruct (N.eqb_spec c 10); [lia|]. destruct (N.eqb_spec c 11); [lia|].
  destruct (N.eqb_spec c 12); [lia|]. destruct (N.eqb_spec c 13); [lia|]. destruct (N.eqb_spec c 32); [lia|].
  split; reflexivity.
Qed.

Lemma tokc_asciins c : tokc c = true -> asciins c = true.
Proof.
  intros H. destruct (tokc_facts c H) as [Hs _]. unfold asciins, ascii. rewrite Hs.
  unfold tokc in H. apply andb_prop in H. destruct H as [_ H2]. apply N.leb_le in H2.
  destruct (N.ltb_spec c 128); [reflexivity|lia].
Qed.

Lemma tokc_nosp w : forallb tokc w = true -> no_byte SP w = true.
Proof. apply forallb_impl. intros c H. destruct (tokc_facts c H) as [_ ->]. reflexivity. Qed.

Lemma key_tokc k : key_ok k = true -> k <> [] /\ forallb tokc k = true.
Proof.
  unfold key_ok. destruct k; [discriminate|]. intros H. split; [discriminate|].
  apply (forallb_impl _ _ _ (fun c Hc => proj1 (andb_prop _ _ Hc)) H).
Qed.

Definition absent (k : bytes) (l : caps) : bool := negb (existsb (fun e => beq (fst e) k) l).

Lemma cap_add_absent l k vals : absent k l = true -> cap_add l k vals = l ++ [(k, vals)].
Proof.
  unfold absent. induction l as [|[k0 vs] l IH]; intros H; [reflexivity|].
  cbn in H. apply negb_true_iff in H. apply orb_false_elim in H. destruct H as [H1 H2].
  cbn. rewrite H1. f_equal. apply IH. now rewrite H2.
Qed.

Lemma cap_add_last l k vs vals : absent k l = true -> cap_add (l ++ [(k, vs)]) k vals = l ++ [(k, vs ++ vals)].
Proof.
  unfold absent. induction l as [|[k0 vs0] l IH]; intros H.
  - cbn. now rewrite beq_refl.
  - cbn in H. apply negb_true_iff in H. apply orb_false_elim in H. destruct H as [H1 H2].
    cbn. rewrite H1. f_equal. apply IH. now rewrite H2.
Qed.

Definition cap_step (acc : caps) (chunk : bytes) : caps :=
  match chunk with
  | [] => acc
  | _ => match cut EQ chunk with
         | Some (k, v) => cap_add acc k [v]
         | None => cap_add acc chunk []
         end
  end.

Lemma cap_decode_fold raw l : cap_decode raw l =
  match trim_space_u raw with [] => l | r => fold_left cap_step (split_on SP r) l end.
Proof. unfold cap_decode. destruct (trim_space_u raw); reflexivity. Qed.

Lemma key_noeq k : key_ok k = true -> no_byte EQ k = true /\ k <> [].
Proof.
  unfold key_ok. destruct k as [|c k]; [discriminate|]. intros H. split; [|discriminate].
  unfold no_byte. rewrite forallb_forall in *. intros x Hx. specialize (H x Hx). apply andb_prop in H. apply H.
Qed.

Lemma cap_step_kv k v acc : key_ok k = true -> cap_step acc (k ++ [EQ] ++ v) = cap_add acc k [v].
Proof.
  intros Hk. destruct (key_noeq k Hk) as [Hne Hnn]. unfold cap_step.
  destruct (k ++ [EQ] ++ v) as [|c0 t0] eqn:E; [destruct k; discriminate|]. rewrite <- E.
  change (k ++ [EQ] ++ v) with (k ++ EQ :: v). now rewrite (cut_app EQ k v Hne).
Qed.

Lemma fold_values k : key_ok k = true -> forall vs acc v0s, absent k acc = true ->
  fold_left cap_step (map (fun v => k ++ [EQ] ++ v) vs) (acc ++ [(k, v0s)]) = acc ++ [(k, v0s ++ vs)].
Proof.
  intros Hk. induction vs as [|v vs IH]; intros acc v0s Ha; [cbn; now rewrite app_nil_r|].
  cbn [map fold_left]. rewrite (cap_step_kv k v _ Hk), (cap_add_last acc k v0s [v] Ha), (IH acc (v0s ++ [v]) Ha).
  now rewrite <- app_assoc.
Qed.

Lemma fold_entry k vs acc : key_ok k = true -> absent k acc = true ->
  fold_left cap_step (match vs with [] => [k] | _ => map (fun v => k ++ [EQ] ++ v) vs end) acc = acc ++ [(k, vs)].
Proof.
  intros Hk Ha. destruct vs as [|v vs].
  - destruct (key_noeq k Hk) as [Hne Hnn]. cbn [fold_left]. unfold cap_step. destruct k as [|c k]; [contradiction|].
    rewrite (cut_none EQ _ Hne). now apply cap_add_absent.
  - cbn [map fold_left]. rewrite (cap_step_kv k v _ Hk), (cap_add_absent acc k [v] Ha). apply (fold_values k Hk vs acc [v] Ha).
Qed.

Lemma absent_app k a b : absent k (a ++ b) = absent k a && absent k b.
Proof. unfold absent. rewrite existsb_app, negb_orb. reflexivity. Qed.

Lemma absent_snoc k vs (l acc : caps) : negb (existsb (fun e => beq (fst e) k) l) = true ->
  forallb (fun e => absent (fst e) acc) l = true -> forallb (fun e => absent (fst e) (acc ++ [(k, vs)])) l = true.
Proof.
  intros Hd Ha. apply negb_true_iff in Hd. apply forallb_forall. intros e Hin. rewrite forallb_forall in Ha.
  rewrite absent_app, (Ha e Hin). unfold absent. cbn [existsb fst andb]. rewrite orb_false_r, beq_sym.
  apply negb_true_iff, not_true_iff_false. intros E. apply not_true_iff_false in Hd. apply Hd, existsb_exists. eauto.
Qed.

Lemma fold_tokens : forall l acc,
  forallb (fun e => key_ok (fst e)) l = true -> keys_distinct l = true ->
  forallb (fun e => absent (fst e) acc) l = true ->
  fold_left cap_step (cap_tokens l) acc = acc ++ l.
Proof.
  induction l as [|[k vs] l IH]; intros acc Hk Hd Ha; [cbn; now rewrite app_nil_r|].
  cbn [forallb fst] in Hk, Ha. apply andb_prop in Hk, Ha. destruct Hk as [Hk1 Hk2], Ha as [Ha1 Ha2].
  cbn [keys_distinct] in Hd. apply andb_prop in Hd. destruct Hd as [Hd1 Hd2].
  assert (fold_left cap_step (cap_tokens ((k, vs) :: l)) acc = fold_left cap_step (cap_tokens l) (acc ++ [(k, vs)])) as ->.
  { unfold cap_tokens. cbn [flat_map fst snd]. fold (cap_tokens l). rewrite fold_left_app. f_equal.
    pose proof (fold_entry k vs acc Hk1 Ha1) as Fe. destruct vs; exact Fe. }
  rewrite IH; [now rewrite <- app_assoc|assumption|assumption|].
  now apply absent_snoc.
Qed.

Lemma token_props e : key_ok (fst e) = true -> forallb val_ok (snd e) = true ->
  Forall (fun t => t <> [] /\ forallb tokc t = true) (match snd e with [] => [fst e] | vs => map (fun v => fst e ++ [EQ] ++ v) vs end).
Proof.
  destruct e as [k vs]. cbn [fst snd]. intros Hk Hv.
  destruct (key_tokc k Hk) as [Hne Hkt].
  destruct vs as [|v vs]; [repeat constructor; assumption|].
  apply Forall_forall. intros t Ht. apply in_map_iff in Ht. destruct Ht as (v' & <- & Hin).
  split; [destruct k; [contradiction|discriminate]|].
  rewrite !forallb_app, Hkt. cbn [forallb andb]. change (tokc EQ) with true. cbn [andb].
  rewrite forallb_forall in Hv. apply (Hv v' Hin).
Qed.

Lemma tokens_props l : forallb (fun e => key_ok (fst e) && forallb val_ok (snd e)) l = true ->
  Forall (fun t => t <> [] /\ forallb tokc t = true) (cap_tokens l).
Proof.
  induction l as [|e l IH]; intros H; [constructor|].
  cbn [forallb] in H. apply andb_prop in H. destruct H as [H1 H2]. apply andb_prop in H1. destruct H1 as [Hk Hv].
  unfold cap_tokens. cbn [flat_map]. apply Forall_app. split; [now apply token_props|now apply IH].
Qed.

Lemma join_tokc toks : Forall (fun t => t <> [] /\ forallb tokc t = true) toks -> toks <> [] ->
  match join [SP] toks with [] => False | c :: _ => tokc c = true /\ tokc (last (join [SP] toks) 0%N) = true end.
Proof.
  induction 1 as [|t toks [Hne Ht] Hf IH]; intros Hnn; [contradiction|].
  destruct toks as [|t2 toks].
  - cbn [join]. destruct t as [|c t]; [contradiction|]. split.
    + cbn [forallb] in Ht. apply andb_prop in Ht. apply Ht.
    + now apply (forallb_last tokc (c :: t)).
  - change (join [SP] (t :: t2 :: toks)) with (t ++ [SP] ++ join [SP] (t2 :: toks)).
    specialize (IH ltac:(discriminate)). destruct (join [SP] (t2 :: toks)) as [|c2 j] eqn:E; [contradiction|].
    destruct t as [|c t]; [contradiction|]. cbn [app]. split.
    + cbn [forallb] in Ht. apply andb_prop in Ht. apply Ht.
    + assert (c :: t ++ SP :: c2 :: j = (c :: t ++ [SP]) ++ c2 :: j) as -> by (cbn [app]; now rewrite <- app_assoc).
      rewrite last_app_ne by discriminate. apply IH.
Qed.

Theorem caps_roundtrip l : caps_ok l = true -> cap_decode (cap_encode l) [] = l.
Proof.
  unfold caps_ok. intros H. apply andb_prop in H. destruct H as [H1 H2].
  pose proof (tokens_props l H1) as Ht. rewrite cap_decode_fold. unfold cap_encode.
  destruct (cap_tokens l) as [|t0 toks] eqn:E.
  { cbn. destruct l as [|[k vs] l]; [reflexivity|]. unfold cap_tokens in E. cbn [flat_map fst snd] in E.
    destruct vs; discriminate. }
  rewrite <- E in *.
  pose proof (join_tokc (cap_tokens l) Ht ltac:(rewrite E; discriminate)) as J.
  destruct (join [SP] (cap_tokens l)) as [|c j] eqn:EJ; [contradiction|]. destruct J as [J1 J2].
  rewrite trim_u_id.
  2:{ unfold clean_u. now rewrite (tokc_asciins _ J1), (tokc_asciins _ J2). }
  rewrite <- EJ. rewrite split_join.
  - rewrite fold_tokens; [reflexivity| |assumption|].
    + rewrite forallb_forall in *. intros e He. specialize (H1 e He). apply andb_prop in H1. apply H1.
    + apply forallb_forall. intros e _. reflexivity.
  - rewrite E. discriminate.
  - apply forallb_forall. intros t Hin. rewrite Forall_forall in Ht. destruct (Ht t Hin) as [_ Htt]. now apply tokc_nosp.
Qed.

(* the encoded list is made of tokc bytes and SP, so it does not end in NL:
   used by the first command line of UpdateRequests *)
Lemma cap_encode_tokc l : caps_ok l = true -> forallb (fun c => tokc c || N.eqb c SP) (cap_encode l) = true.
Proof.
  unfold caps_ok. intros H. apply andb_prop in H. destruct H as [H1 _].
  pose proof (tokens_props l H1) as Ht. unfold cap_encode. induction Ht as [|t toks [_ Htt] Hf IH]; [reflexivity|].
  destruct toks as [|t2 toks].
  - cbn [join]. rewrite forallb_forall in *. intros x Hx. now rewrite (Htt x Hx).
  - change (join [SP] (t :: t2 :: toks)) with (t ++ [SP] ++ join [SP] (t2 :: toks)).
    rewrite !forallb_app, IH. cbn [forallb]. change (tokc SP || (SP =? SP)%N) with true. rewrite !andb_true_r.
    rewrite forallb_forall in *. intros x Hx. now rewrite (Htt x Hx).
Qed.

Lemma cap_encode_all (P : N -> bool) l : (forall c, tokc c = true -> P c = true) -> P SP = true -> caps_ok l = true ->
  forallb P (cap_encode l) = true.
Proof.
  intros HP Hsp H. apply (forallb_impl (fun c => tokc c || N.eqb c SP)); [|now apply cap_encode_tokc].
  intros c Hc. apply orb_prop in Hc. destruct Hc as [Hc|Hc]; [auto|]. apply N.eqb_eq in Hc. now subst.
Qed.

Lemma cap_encode_nonl l : caps_ok l = true -> N.eqb NL (last (cap_encode l) 0%N) = false.
Proof.
  intros H. destruct (cap_encode l) as [|x xs] eqn:E; [reflexivity|]. rewrite <- E.
  apply negb_true_iff, (forallb_last (fun c => negb (N.eqb NL c))); [rewrite E; discriminate|].
  apply cap_encode_all; [|reflexivity|assumption]. intros c Hc. apply tokc_range in Hc. apply negb_true_iff, N.eqb_neq. unfold NL. lia.
Qed.
