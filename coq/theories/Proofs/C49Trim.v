(* Proofs/C49Trim.v — the repaired trailing-space rule of ParsePattern
   (trimTrailingSpaces, model: Gitignore.trim_trailing_spaces, the loop with
   lastSpace) computes git's trim_trailing_spaces (Spec: GitIgnore.gtrim). *)
From Coq Require Import List NArith Bool Lia PeanoNat.
From GoGit Require Import Base.Out Model.Gitignore Spec.GitIgnore.
Import ListNotations.
Local Open Scope N_scope.

Definition all_sp (s : bytes) : bool := forallb (N.eqb cSP) s.

(* inside a run of spaces that began at k: the run reaches the end of the
   line, or the first other byte forgets it *)
Lemma tts_some s : forall i k,
  tts_loop s i (Some k) = if all_sp s then Some k else tts_loop s i None.
Proof.
  induction s as [|c r IH]; intros i k; [reflexivity|]. cbn [tts_loop all_sp forallb].
  rewrite (N.eqb_sym cSP c). destruct (c =? cSP); [|reflexivity]. cbn [andb]. fold (all_sp r).
  rewrite !IH. now destruct (all_sp r).
Qed.

(* outside a run: the loop returns the cut position of gtrim, counted from j *)
Definition P_none (s : bytes) (j : nat) : Prop :=
  match tts_loop s j None with
  | Some k' => (j <= k')%nat /\ gtrim s = firstn (k' - j) s
  | None => gtrim s = s
  end.

Lemma firstn_shift (c : N) r j k' : (S j <= k')%nat -> firstn (k' - j) (c :: r) = c :: firstn (k' - S j) r.
Proof. intros H. now replace (k' - j)%nat with (S (k' - S j)) by lia. Qed.

(* by induction on a bound of the length: an escaped byte is skipped with its backslash *)
Lemma tts_none : forall n s j, (List.length s <= n)%nat -> P_none s j.
Proof.
  induction n as [|n IH]; intros s j Hn; (destruct s as [|c r]; [reflexivity|]); [cbn in Hn; lia|].
  assert (Hr : (List.length r <= n)%nat) by (cbn in Hn; lia).
  unfold P_none. cbn [tts_loop gtrim]. destruct (c =? cSP).
  - rewrite tts_some. fold (all_sp r). destruct (all_sp r).
    + split; [lia|]. now rewrite Nat.sub_diag.
    + pose proof (IH r (S j) Hr) as H. unfold P_none in H.
      destruct (tts_loop r (S j) None) as [k'|]; [|now rewrite H].
      destruct H as [Hle Hg]. split; [lia|]. now rewrite firstn_shift, Hg.
  - destruct (c =? cBSL).
    + destruct r as [|d r']; [reflexivity|].
      pose proof (IH r' (S (S j)) ltac:(cbn in Hr; lia)) as H. unfold P_none in H.
      destruct (tts_loop r' (S (S j)) None) as [k'|]; [|now rewrite H].
      destruct H as [Hle Hg]. split; [lia|]. now rewrite !firstn_shift, Hg by lia.
    + pose proof (IH r (S j) Hr) as H. unfold P_none in H.
      destruct (tts_loop r (S j) None) as [k'|]; [|now rewrite H].
      destruct H as [Hle Hg]. split; [lia|]. now rewrite firstn_shift, Hg.
Qed.

Theorem trim_eq_git p : trim_trailing_spaces p = gtrim p.
Proof.
  unfold trim_trailing_spaces. pose proof (tts_none (List.length p) p O (le_n _)) as H. unfold P_none in H.
  destruct (tts_loop p O None) as [k|].
  - destruct H as [_ H]. now rewrite H, Nat.sub_0_r.
  - now rewrite H.
Qed.
