(* Proofs/C53Lines.v — C53 for the line-oriented object scanners (Model/ObjLines.v)
   and Signature.Decode (Model/Ident.v).  These models are structural (no fuel):
   totality is by construction.  Proved for EVERY byte string:
     total   split_lines partitions its input (concat = input), every line is
             non-empty, so there are at most |input| lines;
     no_oob  bytes.IndexByte / LastIndexByte answer positions inside the buffer
             that hold the byte; in Signature.Decode the three slices
             b[:open], b[open+1:close], b[close+2:] and the time-zone window
             are in range on the paths that take them;
     alloc   name and e-mail of a decoded signature are no longer than the line. *)
From Coq Require Import List ZArith Bool Lia.
From GoGit Require Import Base.Out Model.ObjLines Model.Ident.
Import ListNotations.
Local Open Scope N_scope.

Lemma split_lines_concat : forall b, concat (split_lines b) = b.
Proof.
  induction b as [|c r IH]; [reflexivity|]. cbn [split_lines]. destruct (c =? LF).
  - cbn [concat app]. now rewrite IH.
  - destruct (split_lines r) as [|l ls]; cbn [concat app] in *; [now rewrite <- IH|]. now rewrite IH.
Qed.

Lemma split_lines_nonempty : forall b, Forall (fun l => l <> []) (split_lines b).
Proof.
  induction b as [|c r IH]; [constructor|]. cbn [split_lines]. destruct (c =? LF).
  - constructor; [discriminate|exact IH].
  - destruct (split_lines r) as [|l ls]; [repeat constructor; discriminate|].
    inversion IH; subst. constructor; [discriminate|assumption].
Qed.

Lemma concat_length_ge (ls : list bytes) : Forall (fun l => l <> []) ls -> (List.length ls <= List.length (concat ls))%nat.
Proof.
  induction 1 as [|l ls Hl _ IH]; [cbn; lia|]. cbn [concat List.length]. rewrite app_length.
  destruct l; [congruence|]. cbn [List.length]. lia.
Qed.

Theorem split_lines_count b : (List.length (split_lines b) <= List.length b)%nat.
Proof.
  pose proof (concat_length_ge _ (split_lines_nonempty b)) as H. now rewrite split_lines_concat in H.
Qed.

Lemma index_of_sound c : forall b i, index_of c b = Some i -> (i < List.length b)%nat /\ nth i b 0 = c.
Proof.
  induction b as [|x r IH]; intros i E; cbn [index_of] in E; [discriminate|].
  destruct (N.eqb_spec x c).
  - injection E as <-. cbn. split; [lia|assumption].
  - destruct (index_of c r) as [j|]; [|discriminate]. injection E as <-.
    destruct (IH _ eq_refl) as [A B]. cbn [List.length nth]. split; [lia|exact B].
Qed.

Lemma last_index_of_sound c : forall b i, last_index_of c b = Some i -> (i < List.length b)%nat /\ nth i b 0 = c.
Proof.
  induction b as [|x r IH]; intros i E; cbn [last_index_of] in E; [discriminate|].
  destruct (last_index_of c r) as [j|].
  - injection E as <-. destruct (IH _ eq_refl) as [A B]. cbn [List.length nth]. split; [lia|exact B].
  - destruct (N.eqb_spec x c); [|discriminate]. injection E as <-. cbn. split; [lia|assumption].
Qed.

(* when both brackets are found in order, open < close < |b|: b[:open] and b[open+1:close] are in range *)
Theorem decode_ident_brackets b op cl :
  last_index_of LT b = Some op -> last_index_of GT b = Some cl -> Nat.ltb cl op = false ->
  (S op <= cl)%nat /\ (cl < List.length b)%nat.
Proof.
  intros Ho Hc Hlt. apply last_index_of_sound in Ho, Hc. destruct Ho as [Ho1 Ho2], Hc as [Hc1 Hc2].
  apply Nat.ltb_ge in Hlt. split; [|exact Hc1].
  destruct (Nat.eq_dec op cl) as [->|]; [|lia]. rewrite Ho2 in Hc2. discriminate.
Qed.

(* the timestamp / zone tail b[close+2:] is only taken when close+2 < |b|, and the
   5-byte zone window only when it fits *)
Theorem decode_time_window (b : bytes) :
  let space := match index_of SPC b with Some i => i | None => List.length b end in
  (space <= List.length b)%nat /\
  (Nat.leb (List.length b) (S space) || Nat.ltb (List.length b) (S space + 5) = false ->
   List.length (slice (S space) (S space + 5) b) = 5%nat).
Proof.
  cbv zeta. split.
  - destruct (index_of SPC b) eqn:E; [apply index_of_sound in E; lia|lia].
  - intros G. apply orb_false_iff in G as [_ G]. apply Nat.ltb_ge in G.
    unfold slice. rewrite firstn_length, skipn_length. lia.
Qed.

Lemma trim_left_len c : forall b, (List.length (trim_left c b) <= List.length b)%nat.
Proof. induction b as [|x r IH]; cbn [trim_left]; [lia|]. destruct (x =? c); cbn [List.length] in *; lia. Qed.

Lemma trim_right_len c : forall b, (List.length (trim_right c b) <= List.length b)%nat.
Proof.
  induction b as [|x r IH]; cbn [trim_right]; [lia|].
  destruct (trim_right c r) as [|y t]; [destruct (x =? c); cbn [List.length]; lia|]. cbn [List.length] in *. lia.
Qed.

Lemma decode_time_fields nm em b : id_name (decode_time nm em b) = nm /\ id_email (decode_time nm em b) = em.
Proof.
  unfold decode_time. cbv zeta. destruct (parse_int64 _); [|split; reflexivity].
  destruct (_ || _)%bool; [split; reflexivity|].
  destruct (parse_int64 (firstn 3 _)); [|split; reflexivity]. destruct (parse_int64 (skipn 3 _)); split; reflexivity.
Qed.

Theorem decode_ident_alloc b :
  (List.length (id_name (decode_ident b)) <= List.length b)%nat /\
  (List.length (id_email (decode_ident b)) <= List.length b)%nat.
Proof.
  unfold decode_ident. destruct (last_index_of LT b) as [op|]; [|cbn; lia].
  destruct (last_index_of GT b) as [cl|]; [|cbn; lia]. destruct (Nat.ltb cl op); [cbn; lia|]. cbv zeta.
  assert (A : (List.length (trim_both SPC (firstn op b)) <= List.length b)%nat).
  { unfold trim_both. pose proof (trim_left_len SPC (trim_right SPC (firstn op b))).
    pose proof (trim_right_len SPC (firstn op b)). rewrite firstn_length in *. lia. }
  assert (B : (List.length (slice (S op) cl b) <= List.length b)%nat).
  { unfold slice. rewrite firstn_length, skipn_length. lia. }
  destruct (Nat.ltb (cl + 2) (List.length b)).
  - rewrite (proj1 (decode_time_fields _ _ _)), (proj2 (decode_time_fields _ _ _)). split; assumption.
  - split; assumption.
Qed.
