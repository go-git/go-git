(* Proofs/C49Sets.v — the parser of bracket expressions (Spec/Glob.parse_elems /
   parse_set) only looks at the bytes it consumes: what follows can be
   replaced, and more fuel changes nothing. *)
From Coq Require Import List NArith Bool Lia PeanoNat.
From GoGit Require Import Base.Out Spec.Glob.
Import ListNotations.
Local Open Scope N_scope.

(* the local function [cont] of parse_elems *)
Definition pe_cont (f : nat) (prev' : option N) (rs : list (N * N)) (rest : bytes) : option (list (N * N) * bytes) :=
  match rest with
  | [] => None
  | x :: after =>
    if x =? 93 then Some (rs, after)
    else match parse_elems f prev' rest with
         | Some (rs', rest') => Some (rs ++ rs', rest')
         | None => None
         end
  end.

Lemma cut_rb_app r0 : forall name after y, cut_rb r0 = Some (name, after) ->
  cut_rb (r0 ++ y) = Some (name, after ++ y).
Proof.
  induction r0 as [|c r IH]; intros name after y H; cbn in H; [discriminate|]. cbn [app cut_rb].
  destruct (c =? 93); [inversion H; reflexivity|].
  destruct (cut_rb r) as [[a b]|] eqn:E; [|discriminate]. inversion H; subst.
  now rewrite (IH _ _ y eq_refl).
Qed.

Lemma cut_rb_suffix r0 : forall name after, cut_rb r0 = Some (name, after) ->
  exists pre, r0 = pre ++ after /\ pre <> [].
Proof.
  induction r0 as [|c r IH]; intros name after H; cbn in H; [discriminate|].
  destruct (c =? 93); [inversion H; subst; exists [c]; split; [reflexivity|discriminate]|].
  destruct (cut_rb r) as [[a b]|] eqn:E; [|discriminate]. inversion H; subst.
  destruct (IH _ _ eq_refl) as (pre & -> & _). exists (c :: pre). split; [reflexivity|discriminate].
Qed.

(* a parse of s that left rest consumed a non-empty prefix of s, and [p] parses
   s alike whatever is appended *)
Definition local_to (p : bytes -> option (list (N * N) * bytes)) (s : bytes) (rs : list (N * N)) (rest : bytes) : Prop :=
  (exists pre, s = pre ++ rest /\ pre <> []) /\ forall y, p (s ++ y) = Some (rs, rest ++ y).

Lemma parse_elems_local : forall f prev s rs rest, parse_elems f prev s = Some (rs, rest) ->
  forall f', (f <= f')%nat -> local_to (parse_elems f' prev) s rs rest.
Proof.
  induction f as [|f IH]; intros prev s rs rest H f' Hf'; [discriminate|].
  destruct f' as [|f0]; [lia|]. assert (Hf0 : (f <= f0)%nat) by lia.
  (* from a continuation on rest0 to the whole input hd ++ rest0, which the parser hands to it *)
  assert (Hfrom : forall (hd : bytes) pv rs0 rest0, hd <> [] ->
            pe_cont f pv rs0 rest0 = Some (rs, rest) ->
            (forall y, parse_elems (S f0) prev ((hd ++ rest0) ++ y) = pe_cont f0 pv rs0 (rest0 ++ y)) ->
            local_to (parse_elems (S f0) prev) (hd ++ rest0) rs rest).
  { intros hd pv rs0 [|x after] Hhd Hc Heq; [discriminate|]. cbn [pe_cont] in Hc.
    destruct (x =? 93) eqn:E93.
    - inversion Hc; subst. split.
      + exists (hd ++ [x]). split; [now rewrite <- app_assoc|now destruct hd].
      + intros y. rewrite Heq. cbn [pe_cont app]. now rewrite E93.
    - destruct (parse_elems f pv (x :: after)) as [[rs' rest']|] eqn:E; [|discriminate].
      inversion Hc; subst. destruct (IH _ _ _ _ E f0 Hf0) as ((pre & Epre & Hne) & Happ). split.
      + exists (hd ++ pre). split; [now rewrite Epre, app_assoc|now destruct hd].
      + intros y. rewrite Heq. cbn [pe_cont app]. rewrite E93.
        change (x :: after ++ y) with ((x :: after) ++ y). now rewrite Happ. }
  cbn [parse_elems] in H. destruct s as [|c r]; [discriminate|].
  destruct (c =? 0) eqn:C0; [discriminate|].
  destruct (c =? 92) eqn:C92.
  { destruct r as [|e r']; [discriminate|]. destruct (e =? 0) eqn:E0; [discriminate|].
    apply (Hfrom [c; e] (Some e) [(e, e)] r'); [discriminate|exact H|].
    intros y. cbn [app parse_elems]. now rewrite C0, C92, E0. }
  destruct ((c =? 45) && is_some prev && match r with h :: _ => negb (h =? 93) | [] => false end) eqn:CD.
  { destruct prev as [lo|]; [|discriminate]. destruct r as [|h r1]; [discriminate|].
    destruct (h =? 92) eqn:H92.
    - destruct r1 as [|e2 r2]; [discriminate|].
      apply (Hfrom [c; h; e2] None [(lo, e2)] r2); [discriminate|exact H|].
      intros y. cbn [app parse_elems]. now rewrite C0, C92, CD, H92.
    - apply (Hfrom [c; h] None [(lo, h)] r1); [discriminate|exact H|].
      intros y. cbn [app parse_elems]. now rewrite C0, C92, CD, H92. }
  (* from here on a continuation has succeeded on r, so r is not empty *)
  destruct r as [|h r1]; [destruct (c =? 91); discriminate|].
  destruct ((c =? 91) && (h =? 58)) eqn:CP.
  { destruct (cut_rb r1) as [[name' after]|] eqn:Ecut; [|discriminate].
    destruct (rev name') as [|lastc rname] eqn:Erev.
    { apply (Hfrom [c] (Some c) [(c, c)] (h :: r1)); [discriminate|exact H|].
      intros y. cbn [app parse_elems]. now rewrite C0, C92, CD, CP, (cut_rb_app _ _ _ y Ecut), Erev. }
    destruct (negb (lastc =? 58)) eqn:EL.
    { apply (Hfrom [c] (Some c) [(c, c)] (h :: r1)); [discriminate|exact H|].
      intros y. cbn [app parse_elems]. now rewrite C0, C92, CD, CP, (cut_rb_app _ _ _ y Ecut), Erev, EL. }
    destruct (class_ranges (rev rname)) as [crs|] eqn:Ecls; [|discriminate].
    destruct (cut_rb_suffix _ _ _ Ecut) as (cpre & Ecpre & _). rewrite Ecpre.
    apply (Hfrom (c :: h :: cpre) None crs after); [discriminate|exact H|].
    intros y. cbn [app parse_elems]. rewrite <- Ecpre.
    now rewrite C0, C92, CD, CP, (cut_rb_app _ _ _ y Ecut), Erev, EL, Ecls. }
  apply (Hfrom [c] (Some c) [(c, c)] (h :: r1)); [discriminate|exact H|].
  intros y. cbn [app parse_elems]. now rewrite C0, C92, CD, CP.
Qed.

Lemma parse_set_local r it rest : parse_set r = Some (it, rest) ->
  (exists pre, r = pre ++ rest /\ pre <> []) /\ forall y, parse_set (r ++ y) = Some (it, rest ++ y).
Proof.
  unfold parse_set. destruct r as [|c r']; [discriminate|]. cbn [app].
  destruct ((c =? 33) || (c =? 94)).
  - destruct (parse_elems (S (List.length r')) None r') as [[rs rest']|] eqn:E; [|discriminate].
    intros H; inversion H; subst. split.
    + destruct (parse_elems_local _ _ _ _ _ E _ (le_n _)) as ((pre & -> & _) & _).
      exists (c :: pre). split; [reflexivity|discriminate].
    + intros y. destruct (parse_elems_local _ _ _ _ _ E (S (List.length (r' ++ y)))) as (_ & Happ);
        [rewrite app_length; lia|]. now rewrite Happ.
  - destruct (parse_elems (S (List.length (c :: r'))) None (c :: r')) as [[rs rest']|] eqn:E; [|discriminate].
    intros H; inversion H; subst. split.
    + now destruct (parse_elems_local _ _ _ _ _ E _ (le_n _)).
    + intros y. destruct (parse_elems_local _ _ _ _ _ E (S (List.length (c :: r' ++ y)))) as (_ & Happ);
        [cbn; rewrite app_length; lia|]. change (c :: r' ++ y) with ((c :: r') ++ y). now rewrite Happ.
Qed.

Lemma parse_set_app r it rest y : parse_set r = Some (it, rest) ->
  parse_set (r ++ y) = Some (it, rest ++ y).
Proof. intros H. apply (parse_set_local _ _ _ H). Qed.

Lemma parse_set_suffix r it rest : parse_set r = Some (it, rest) ->
  exists pre, r = pre ++ rest /\ pre <> [].
Proof. intros H. apply (parse_set_local _ _ _ H). Qed.
