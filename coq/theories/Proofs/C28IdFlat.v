(* Proofs/C28IdFlat.v — for an index of top-level entries the id of the tree BuildTree writes is
   the id git write-tree computes (the nested case is exercised, not proved). *)
From Coq Require Import List NArith ZArith Bool Arith Lia Permutation.
From GoGit Require Import Base.Out Model.Status Model.IndexOps Gen.C04.
From GoGit Require Import Proofs.C27 Proofs.C28.
From GoGit Require Model.TreeObj Model.WriteTree Spec.GitWriteTree Proofs.C28Order.
Import ListNotations.
Local Open Scope N_scope.

Notation lexcmp := C28Order.lexcmp.

Lemma bytes_ltb_lexcmp a : forall b, bytes_ltb a b = match lexcmp a b with Lt => true | _ => false end.
Proof.
  induction a as [|x a IH]; intros [|y b]; cbn [bytes_ltb C28Order.lexcmp]; try reflexivity.
  destruct (x =? y) eqn:E.
  - apply N.eqb_eq in E. subst y. rewrite N.ltb_irrefl. cbn [orb]. apply IH.
  - destruct (x <? y); reflexivity.
Qed.

Lemma lexcmp_eq a : forall b, lexcmp a b = Eq -> a = b.
Proof.
  induction a as [|x a IH]; intros [|y b] H; cbn [C28Order.lexcmp] in H; try discriminate; [reflexivity|].
  destruct (x =? y) eqn:E; [|destruct (x <? y); discriminate].
  apply N.eqb_eq in E. subst y. f_equal. now apply IH.
Qed.

Lemma ltb_negb_bgt a b : a <> b -> bytes_ltb a b = negb (TreeObj.bgt a b).
Proof.
  intros N. rewrite bytes_ltb_lexcmp, C28Order.bgt_lexcmp.
  destruct (lexcmp a b) eqn:E; try reflexivity. apply lexcmp_eq in E. contradiction.
Qed.

Definition rawi (tbl : list bytes) (e : ientry) : TreeObj.tentry :=
  TreeObj.mkT (WriteTree.tmode (ie_mode e)) (ie_path e) (WriteTree.blob_id tbl (ie_hash e)).

Lemma tmode_not_dir m : (WriteTree.tmode m =? fmode_Dir)%Z = false.
Proof. destruct m; reflexivity. Qed.

Lemma sn_rawi tbl e : TreeObj.sort_name (rawi tbl e) = ie_path e.
Proof. unfold TreeObj.sort_name, rawi. cbn [TreeObj.t_mode TreeObj.t_name]. now rewrite tmode_not_dir. Qed.

Lemma insert_agree tbl x l :
  mem_path (ie_path x) (map ie_path l) = false ->
  map (rawi tbl) (insert_by ie_path x l) = TreeObj.insert_entry (rawi tbl x) (map (rawi tbl) l).
Proof.
  induction l as [|y r IH]; intros H; [reflexivity|].
  cbn [map mem_path] in H. apply orb_false_iff in H as [H1 H2].
  cbn [insert_by map TreeObj.insert_entry]. rewrite !sn_rawi.
  assert (Ne : ie_path y <> ie_path x).
  { intros E. rewrite E, bytes_eqb_refl in H1. discriminate. }
  rewrite (ltb_negb_bgt _ _ Ne).
  destruct (TreeObj.bgt (ie_path y) (ie_path x)); cbn [negb map]; [reflexivity|]. now rewrite IH.
Qed.

Fixpoint nodup_e (l : list ientry) : bool :=
  match l with [] => true | e :: r => negb (mem_path (ie_path e) (map ie_path r)) && nodup_e r end.

Lemma insert_by_perm x l : Permutation (insert_by ie_path x l) (x :: l).
Proof.
  induction l as [|y r IH]; [reflexivity|]. cbn [insert_by].
  destruct (bytes_ltb (ie_path y) (ie_path x)); [|reflexivity]. rewrite IH. apply perm_swap.
Qed.

Lemma sort_by_perm l : Permutation (sort_by ie_path l) l.
Proof.
  induction l as [|x l IH]; [reflexivity|]. cbn [sort_by fold_right]. fold (sort_by ie_path l).
  now rewrite insert_by_perm, IH.
Qed.

Lemma sort_agree tbl l :
  nodup_e l = true -> map (rawi tbl) (sort_by ie_path l) = TreeObj.sort_entries (map (rawi tbl) l).
Proof.
  induction l as [|x l IH]; intros H; [reflexivity|].
  cbn [nodup_e] in H. apply andb_true_iff in H as [H1 H2]. apply negb_true_iff in H1.
  cbn [sort_by fold_right map TreeObj.sort_entries]. fold (sort_by ie_path l). fold (TreeObj.sort_entries (map (rawi tbl) l)).
  rewrite <- (IH H2). apply insert_agree. apply not_true_is_false. intros C.
  apply mem_path_in in C. rewrite sort_by_perm in C. apply mem_path_in in C. congruence.
Qed.

Definition flat_id_guard (i : list ientry) : bool :=
  forallb flat_entry i && forallb (fun e => nonzero e && negb (ie_ita e)) i && nodup_e i.

Lemma filter_all {A} (P : A -> bool) l : forallb P l = true -> filter P l = l.
Proof.
  induction l as [|x l IH]; [reflexivity|]. cbn [forallb filter]. intros H. apply andb_true_iff in H as [H1 H2].
  rewrite H1. f_equal. now apply IH.
Qed.

Lemma raw_entry_rawi tbl e : WriteTree.raw_entry tbl (ie_path e, Some (ie_mode e, ie_hash e)) = rawi tbl e.
Proof. reflexivity. Qed.

Lemma map_opt_files (l : list TreeObj.tentry) (f : TreeObj.tentry -> option TreeObj.tentry) :
  (forall te, In te l -> f te = Some te) -> WriteTree.map_opt f l = Some l.
Proof.
  induction l as [|x l IH]; intros H; [reflexivity|]. cbn [WriteTree.map_opt].
  rewrite (H x (or_introl eq_refl)), IH; [reflexivity|]. intros te Hte. apply H. now right.
Qed.

Lemma s_walk_flat tbl sub (l : list ientry) : forall k, (List.length l < k)%nat ->
  forallb flat_entry l = true ->
  GitWriteTree.walk_with sub k
    (map (fun e => (split_slash (ie_path e) [], WriteTree.tmode (ie_mode e), WriteTree.blob_id tbl (ie_hash e))) l)
  = Some (map (rawi tbl) l).
Proof.
  induction l as [|e l IH]; intros k Hk Hf.
  - destruct k; reflexivity.
  - destruct k as [|k]; [cbn in Hk; lia|]. cbn [forallb] in Hf. apply andb_true_iff in Hf as [He Hf].
    cbn [map]. unfold flat_entry in He. apply andb_true_iff in He as [He1 He2]. apply negb_true_iff in He1.
    cbn [GitWriteTree.walk_with]. rewrite (split_noslash _ [] He1). cbn [app].
    rewrite (IH k); [reflexivity|cbn in Hk; lia|exact Hf].
Qed.

Lemma write_tree_id_flat tbl i gid :
  flat_id_guard i = true -> WriteTree.g_write_tree tbl i = Some gid -> GitWriteTree.s_write_tree tbl i = Some gid.
Proof.
  (* both sides come down to the encoding of one root tree: go-git's holds the raw entries sorted by
     sort_name, git's the entries sorted by path, and the two orders agree on distinct file names (sort_agree) *)
  unfold flat_id_guard. intros G H. apply andb_true_iff in G as [G G3]. apply andb_true_iff in G as [G1 G2].
  assert (Gs : forallb nonzero i = true /\ forallb (fun e => negb (ie_ita e)) i = true).
  { rewrite !forallb_forall in *. split; intros e He; specialize (G2 e He); now apply andb_true_iff in G2. }
  destruct Gs as [Gnz Gita].
  unfold WriteTree.g_write_tree, build_trees in H. rewrite (build_flat i [] G1) in H. cbn [app] in H.
  rewrite (filter_all _ _ Gnz) in H. cbn [WriteTree.g_tree_id trees_get] in H. rewrite bytes_eqb_refl in H.
  rewrite map_map in H.
  rewrite (map_ext _ _ (raw_entry_rawi tbl)) in H.
  rewrite map_opt_files in H.
  2:{ intros te Hte. apply (Permutation_in _ (C28Order.sort_entries_perm _)) in Hte. apply in_map_iff in Hte as (e & <- & _).
      unfold rawi. cbn [TreeObj.t_mode]. now rewrite tmode_not_dir. }
  unfold TreeObj.encode in H. destruct (TreeObj.v_invalid _); [discriminate|]. cbn [option_map] in H.
  unfold GitWriteTree.s_write_tree, GitWriteTree.git_entries. rewrite (filter_all _ _ Gita).
  cbn [GitWriteTree.s_tree].
  rewrite (s_walk_flat tbl _ (sort_by ie_path i)); [|rewrite map_length, (Permutation_length (sort_by_perm i)); lia|].
  2:{ rewrite forallb_forall in *. intros e He. apply G1, (Permutation_in _ (sort_by_perm i)), He. }
  rewrite (sort_agree tbl i G3). exact H.
Qed.
