(* Proofs/C51Roundtrip.v — per-commit read-back: what the reader model returns for a file the
   encoder model wrote (parents incl. octopus edge lists, tree, time, generation v1, generation v2
   incl. the overflow chunk). *)
From Coq Require Import List NArith ZArith Bool Lia ZifyBool ZifyN ZifyNat Permutation.
From GoGit Require Import Base.Out Gen.C51 Model.CommitGraph Proofs.BitPack Proofs.C51 Proofs.C51Reader
  Proofs.C51Bytes Proofs.C51Records.
Import ListNotations.
Local Open Scope N_scope.

Definition entry_ok (hs : list bytes) (e : centry) : Prop :=
  (forall p, In p (e_parents e) -> In p hs) /\
  (0 <= e_when e < 17179869184)%Z /\ e_gen e < 1073741824 /\ e_gen2 e < two64.

Definition wf_graph (es : list centry) : Prop :=
  wf_file es /\ Forall (entry_ok (map e_hash es)) es /\
  N.of_nat (List.length (sorted_of es)) <= parentNone /\
  extra_edges_count es < 2147483648.

Lemma const_parentNone : parentNone = 1879048192. Proof. reflexivity. Qed.
Lemma const_octopus : parentOctopusUsed = 2 ^ 31. Proof. reflexivity. Qed.
Lemma const_mask : parentOctopusMask = N.ones 31. Proof. reflexivity. Qed.
Lemma const_last : parentLast = 2 ^ 31. Proof. reflexivity. Qed.
Lemma const_two31 : 2147483648 = 2 ^ 31. Proof. reflexivity. Qed.
Lemma const_ones31 : 2147483647 = N.ones 31. Proof. reflexivity. Qed.
Lemma const_ones34 : 17179869183 = N.ones 34. Proof. reflexivity. Qed.
Lemma const_two32 : two32 = 2 ^ 32. Proof. reflexivity. Qed.
Lemma const_two64 : two64 = 2 ^ 64. Proof. reflexivity. Qed.

(* the word of the EDGE chunk that follows the words E1, and the bounds check that precedes reading it *)
Lemma rd_edge : forall (pre rest : bytes) E1 x E2, x < two32 ->
  rd (pre ++ flat_map be32 (E1 ++ x :: E2) ++ rest) (Z.of_nat (List.length pre) + 4 * Z.of_nat (List.length E1)) 4 = Ok x /\
  (Z.of_nat (List.length (E1 ++ x :: E2)) <=? Z.of_nat (List.length E1))%Z = false.
Proof.
  intros pre rest E1 x E2 Hx. split; [|rewrite app_length; simpl; lia].
  pose proof (rd32_word pre rest (E1 ++ x :: E2) (List.length E1)) as R. rewrite nth_middle in R.
  apply R; [rewrite app_length; simpl; lia | exact Hx | lia].
Qed.

Lemma read_edges_spec : forall L E1 E2 pre rest fuel,
  L <> [] -> (forall x, In x L -> x < 2 ^ 31) -> (List.length L <= fuel)%nat ->
  read_edges (pre ++ flat_map be32 (E1 ++ set_last L ++ E2) ++ rest) fuel
    (Z.of_nat (List.length pre) + 4 * Z.of_nat (List.length E1)) (Z.of_nat (List.length E1))
    (Z.of_nat (List.length (E1 ++ set_last L ++ E2))) = Ok L.
Proof.
  induction L as [|x r IH]; intros E1 E2 pre rest fuel Hne Hlt Hfuel; [congruence|].
  destruct fuel as [|f]; [simpl in Hfuel; lia|].
  assert (Hx : x < 2 ^ 31) by (apply Hlt; now left).
  destruct r as [|y r'].
  - cbn [set_last read_edges app].
    destruct (rd_edge pre rest E1 (N.lor x parentLast) E2) as [-> ->].
    { rewrite const_last, const_two32. apply (flag_bound x 31 Hx). }
    rewrite const_last, (flag_present x 31 Hx), N.eqb_refl, const_mask, (flag_strip x 31 Hx). reflexivity.
  - change (set_last (x :: y :: r')) with (x :: set_last (y :: r')). cbn [read_edges app].
    destruct (rd_edge pre rest E1 x (set_last (y :: r') ++ E2)) as [-> ->].
    { rewrite const_two32. eapply N.lt_trans; [exact Hx|reflexivity]. }
    rewrite const_last, (flag_absent x 31 Hx). change (0 =? 2 ^ 31) with false.
    replace (E1 ++ x :: set_last (y :: r') ++ E2) with ((E1 ++ [x]) ++ set_last (y :: r') ++ E2)
      by (now rewrite <- app_assoc).
    replace (Z.of_nat (List.length pre) + 4 * Z.of_nat (List.length E1) + 4)%Z
      with (Z.of_nat (List.length pre) + 4 * Z.of_nat (List.length (E1 ++ [x])))%Z by (rewrite app_length; cbn [List.length]; lia).
    replace (Z.of_nat (List.length E1) + 1)%Z with (Z.of_nat (List.length (E1 ++ [x]))) by (rewrite app_length; cbn [List.length]; lia).
    rewrite (IH (E1 ++ [x]) E2 pre rest f).
    + rewrite const_mask, (mask_small x 31 Hx). reflexivity.
    + discriminate.
    + intros z Hz. apply Hlt. now right.
    + simpl in Hfuel. simpl. lia.
Qed.

(* a chunk size divided by the width of its entries *)
Lemma quot_mul_l : forall c x, c <> 0%Z -> Z.quot (c * x) c = x.
Proof. intros c x H. rewrite Z.mul_comm. now apply Z.quot_mul. Qed.

(* a parent word that holds a plain position: no flag, not the "none" marker, the mask keeps it *)
Lemma plain_word : forall p, p < parentNone ->
  p < 2 ^ 31 /\ N.land p parentOctopusUsed = 0 /\ (p =? parentNone) = false /\ N.land p parentOctopusMask = p.
Proof.
  intros p H. assert (H31 : p < 2 ^ 31) by (rewrite const_parentNone in H; eapply N.lt_trans; [exact H|reflexivity]).
  rewrite const_octopus, const_mask, (flag_absent _ 31 H31), (mask_small _ 31 H31). repeat split; [exact H31|lia].
Qed.

Section ParentWords.
Variable sorted : list bytes.
Variable e : centry.
Hypothesis Hidx : forall p, In p (e_parents e) -> hash_to_index sorted p < parentNone.

Lemma parent_indexes_small : forall file fi pos, (List.length (e_parents e) <= 2)%nat ->
  parent_indexes file fi (fst (parent_words sorted e pos)) (snd (parent_words sorted e pos)) = Ok (pidx_of sorted e).
Proof.
  intros file fi pos Hlen. unfold parent_words, pidx_of, parent_indexes.
  destruct (e_parents e) as [|a [|b [|c rest]]] eqn:Ep; cbn [fst snd map].
  - reflexivity.
  - destruct (plain_word _ (Hidx a (or_introl eq_refl))) as (_ & _ & Ea & Ma).
    change (N.land parentNone parentOctopusUsed =? parentOctopusUsed) with false. cbv iota.
    rewrite N.eqb_refl, Ea, Ma. reflexivity.
  - destruct (plain_word _ (Hidx a (or_introl eq_refl))) as (_ & _ & _ & Ma).
    destruct (plain_word _ (Hidx b (or_intror (or_introl eq_refl)))) as (_ & Fb & Eb & Mb).
    rewrite Fb. change (0 =? parentOctopusUsed) with false. cbv iota. rewrite Eb, Ma, Mb. reflexivity.
  - simpl in Hlen. lia.
Qed.

Lemma new_edges_octopus : forall a b c rest, e_parents e = a :: b :: c :: rest ->
  new_edges sorted e = set_last (map (hash_to_index sorted) (b :: c :: rest)).
Proof. intros a b c rest Ep. unfold new_edges. now rewrite Ep. Qed.

Lemma parent_indexes_octopus : forall (file pre rest : bytes) fi E1 E2,
  (2 < List.length (e_parents e))%nat ->
  file = pre ++ flat_map be32 (E1 ++ new_edges sorted e ++ E2) ++ rest ->
  off_of (f_off fi) 5 = Z.of_nat (List.length pre) ->
  off_of (f_size fi) 5 = (4 * Z.of_nat (List.length (E1 ++ new_edges sorted e ++ E2)))%Z ->
  N.of_nat (List.length E1) < 2 ^ 31 ->
  parent_indexes file fi (fst (parent_words sorted e (List.length E1))) (snd (parent_words sorted e (List.length E1)))
  = Ok (pidx_of sorted e).
Proof.
  intros file pre rest fi E1 E2 Hlen Hfile Hoff Hsz Hpos.
  unfold parent_words, pidx_of, parent_indexes.
  destruct (e_parents e) as [|a [|b [|c more]]] eqn:Ep; try (simpl in Hlen; lia).
  cbn [fst snd].
  destruct (plain_word _ (Hidx a (or_introl eq_refl))) as (_ & _ & _ & Ma).
  assert (Hm : N.of_nat (List.length E1) mod two32 = N.of_nat (List.length E1)).
  { apply N.mod_small. rewrite const_two32. eapply N.lt_trans; [exact Hpos|]. reflexivity. }
  rewrite Hm, const_octopus, (flag_present _ 31 Hpos), N.eqb_refl.
  rewrite Ma, const_mask, (flag_strip _ 31 Hpos).
  rewrite Hsz, Hoff.
  set (L := map (hash_to_index sorted) (b :: c :: more)).
  assert (EL : new_edges sorted e = set_last L) by (unfold L; exact (new_edges_octopus a b c more Ep)).
  rewrite EL in *.
  rewrite (quot_mul_l 4) by discriminate.
  rewrite nat_N_Z.
  assert (C : (Z.of_nat (List.length (E1 ++ set_last L ++ E2)) <=? Z.of_nat (List.length E1))%Z = false).
  { rewrite !app_length, set_last_length. unfold L. simpl. lia. }
  rewrite C. rewrite Hfile.
  rewrite (read_edges_spec L E1 E2 pre rest).
  - reflexivity.
  - unfold L. discriminate.
  - intros x Hx. unfold L in Hx. apply in_map_iff in Hx. destruct Hx as [p [<- Hp]]. apply plain_word, Hidx. now right.
  - rewrite !app_length, flat_map_be32_length, !app_length, set_last_length. lia.
Qed.
End ParentWords.

Lemma time_word_spec : forall e, (0 <= e_when e < 17179869184)%Z -> e_gen e < 1073741824 ->
  time_word e < two64 /\ N.land (time_word e) 17179869183 = Z.to_N (e_when e) /\ N.shiftr (time_word e) 34 = e_gen e.
Proof.
  intros e Hw Hg. unfold time_word.
  assert (Eu : u64_of_Z (e_when e) = Z.to_N (e_when e)) by (apply u64_small; unfold two64; lia).
  assert (Hlow : Z.to_N (e_when e) < 2 ^ 34) by (change (2 ^ 34) with 17179869184; lia).
  assert (Hhigh : e_gen e < 2 ^ 30) by (change (2 ^ 30) with 1073741824; exact Hg).
  assert (Es : N.shiftl (e_gen e) 34 mod two64 = N.shiftl (e_gen e) 34).
  { apply N.mod_small. rewrite const_two64. change 64 with (34 + 30). now apply shiftl_bound. }
  rewrite Eu, Es. split; [|split].
  - rewrite const_two64. change 64 with (34 + 30). now apply pack_bound.
  - rewrite const_ones34. now apply unpack_low.
  - now apply unpack_high.
Qed.

Lemma gen2_data_lt : forall e, gen2_data e < two64.
Proof.
  intros e. unfold gen2_data. destruct (norm_gen2 e =? 0); [unfold two64; lia | apply N.mod_lt; unfold two64; lia].
Qed.

Lemma gen2_value : forall e, norm_gen2 e <> 0 -> norm_gen2 e < two64 -> (0 <= e_when e < 17179869184)%Z ->
  let t := Z.to_N (e_when e) in
  (if is_ovf (gen2_data e) then (t + gen2_data e) mod two64 else t + gen2_data e) = norm_gen2 e.
Proof.
  intros e Hn Hlt Hw t. unfold gen2_data.
  assert (E0 : norm_gen2 e =? 0 = false) by lia. rewrite E0.
  assert (Eu : u64_of_Z (e_when e) = t) by (apply u64_small; unfold two64; lia).
  rewrite Eu.
  assert (Ht : t < two64) by (unfold t, two64; lia).
  destruct (is_ovf ((norm_gen2 e + two64 - t) mod two64)) eqn:Eo.
  - now apply wrap_sub_add.
  - apply (wrap_sub_small _ _ _ 2147483648); auto.
    + unfold t, two64. lia.
    + unfold is_ovf in Eo. lia.
Qed.

Lemma gen2_of_spec : forall (file pre rest : bytes) fi ds i tm,
  f_gen2 fi = true ->
  file = pre ++ flat_map be32 (gen2_words ds 0) ++ flat_map be64 (filter is_ovf ds) ++ rest ->
  off_of (f_off fi) 3 = Z.of_nat (List.length pre) ->
  (filter is_ovf ds <> [] ->
     off_of (f_off fi) 4 = Z.of_nat (List.length (pre ++ flat_map be32 (gen2_words ds 0))) /\
     off_of (f_size fi) 4 = (8 * Z.of_nat (List.length (filter is_ovf ds)))%Z) ->
  (i < List.length ds)%nat -> N.of_nat (List.length ds) < 2 ^ 31 -> (forall d, In d ds -> d < two64) ->
  gen2_of file fi (N.of_nat i) tm =
  Ok (if is_ovf (nth i ds 0) then (tm + nth i ds 0) mod two64 else tm + nth i ds 0).
Proof.
  intros file pre rest fi ds i tm Hg Hfile Ho3 Ho4 Hi Hn Hds.
  unfold gen2_of. rewrite Hg.
  pose proof (ovf_before_le ds i) as Hle.
  assert (Hb : (0 + N.of_nat (ovf_before ds i)) mod two32 = N.of_nat (ovf_before ds i)).
  { rewrite N.mod_small; [|unfold two32]; lia. }
  assert (Hb31 : N.of_nat (ovf_before ds i) < 2 ^ 31) by lia.
  assert (Hw : nth i (gen2_words ds 0) 0 < two32).
  { rewrite gen2_words_nth by exact Hi. destruct (is_ovf (nth i ds 0)) eqn:Eo.
    - rewrite Hb, const_two31, const_two32. apply (flag_bound _ 31 Hb31).
    - unfold is_ovf in Eo. unfold two32. lia. }
  assert (R : rd file (off_of (f_off fi) 3 + Z.of_N (N.of_nat i) * 4) 4 = Ok (nth i (gen2_words ds 0) 0)).
  { rewrite Ho3, Hfile. apply rd32_word; [now rewrite gen2_words_length | exact Hw | lia]. }
  rewrite R. rewrite gen2_words_nth by exact Hi.
  (* word i is the offset itself, or the flag and the number of overflowing offsets before i, which is the slot
     of the overflow chunk that holds offset i (filter_nth_ovf) *)
  destruct (is_ovf (nth i ds 0)) eqn:Eo.
  - rewrite Hb, const_two31, (flag_present _ 31 Hb31).
    change (0 <? 2 ^ 31) with true. cbv iota.
    rewrite const_ones31, (flag_strip _ 31 Hb31).
    destruct (filter_nth_ovf ds i Hi Eo) as [Hpos Hval].
    assert (Hne : filter is_ovf ds <> []) by (intros E; rewrite E in Hpos; simpl in Hpos; lia).
    destruct (Ho4 Hne) as [Ho4a Ho4b]. rewrite Ho4b, Ho4a.
    rewrite (quot_mul_l 8) by discriminate.
    rewrite nat_N_Z.
    assert (C : (Z.of_nat (List.length (filter is_ovf ds)) <=? Z.of_nat (ovf_before ds i))%Z = false) by lia.
    rewrite C.
    assert (R2 : rd file (Z.of_nat (List.length (pre ++ flat_map be32 (gen2_words ds 0))) + Z.of_nat (ovf_before ds i) * 8) 8
                 = Ok (nth i ds 0)).
    { rewrite <- Hval, Hfile, (app_assoc pre).
      apply rd64_word; [exact Hpos | | lia]. rewrite Hval. apply Hds. apply nth_In. exact Hi. }
    rewrite R2. reflexivity.
  - assert (Hd : nth i ds 0 < 2 ^ 31) by (unfold is_ovf in Eo; change (2 ^ 31) with 2147483648; lia).
    rewrite const_two31, (flag_absent _ 31 Hd). change (0 <? 0) with false. reflexivity.
Qed.

(* where the encoder's table puts each chunk *)
Lemma mkT_offsets : forall es n off0,
  let tbl := chunk_table es n in
  let o1 := off0 + 4 * lenFanout in
  let o2 := o1 + n * hashSize in
  let o3 := o2 + n * (hashSize + szCommitData) in
  In (sig_OIDL, ct_of sig_OIDL, o1) (mkT tbl off0) /\
  In (sig_CDAT, ct_of sig_CDAT, o2) (mkT tbl off0) /\
  (0 <? extra_edges_count es = true ->
     In (sig_EDGE, ct_of sig_EDGE, o3) (mkT tbl off0) /\ In (sig_EDGE, extra_edges_count es * 4) tbl) /\
  (has_gen2 es = true -> In (sig_GDA2, ct_of sig_GDA2, o3 + extra_edges_count es * 4) (mkT tbl off0)) /\
  (has_gen2 es = true -> 0 <? overflow_count es = true ->
     In (sig_GDO2, ct_of sig_GDO2, o3 + extra_edges_count es * 4 + n * 4) (mkT tbl off0) /\
     In (sig_GDO2, overflow_count es * 8) tbl).
Proof.
  intros es n off0. cbv zeta. unfold chunk_table.
  assert (Hx0 : 0 <? extra_edges_count es = false -> extra_edges_count es = 0) by lia.
  destruct (0 <? extra_edges_count es) eqn:Ex; destruct (has_gen2 es) eqn:Eh;
    try destruct (0 <? overflow_count es) eqn:Eo; cbn [mkT app];
    try rewrite (Hx0 eq_refl), N.mul_0_l, N.add_0_r;
    (split; [cbn [In]; auto 10|]); (split; [cbn [In]; auto 10|]);
    (split; [intros; try discriminate; split; cbn [In]; auto 10|]);
    (split; [intros; try discriminate; cbn [In]; auto 10|]);
    intros; try discriminate; split; cbn [In]; auto 10.
Qed.

Section RoundTrip.
Variable es : list centry.
Variable trailer : bytes.
Hypothesis Hwf : wf_graph es.
Hypothesis Htr : List.length trailer = 20%nat.

Let sorted := sorted_of es.
Let nn := List.length sorted.
Let ents := sorted_entries es.
Let tbl := chunk_table es (N.of_nat nn).
Let off0 := 8 + (N.of_nat (List.length tbl) + 1) * 12.
Let file := encode es ++ trailer.
Let edges := flat_map (new_edges sorted) ents.
Let ds := map gen2_data ents.
Let P0 := sig_CGPH ++ [1; 1; N.of_nat (List.length tbl) mod 256; 0] ++ chunk_headers tbl off0.
Let fan := flat_map be32 (fanout_of sorted).
Let recs := records sorted ents 0.
Let gens := if has_gen2 es then flat_map be32 (gen2_words ds 0) ++ flat_map be64 (filter is_ovf ds) else [].

Lemma rt_wfe : wf_entries es. Proof. destruct Hwf as [[A _] _]. exact A. Qed.
Lemma rt_wff : wf_file es. Proof. destruct Hwf as [A _]. exact A. Qed.

Lemma rt_ents_len : List.length ents = nn.
Proof. unfold ents, sorted_entries. apply map_length. Qed.

Lemma rt_ds_len : List.length ds = nn.
Proof. unfold ds. now rewrite map_length, rt_ents_len. Qed.

Lemma rt_ent : forall i, (i < nn)%nat ->
  In (nth i ents dummy_entry) es /\ e_hash (nth i ents dummy_entry) = nth i sorted [].
Proof.
  intros i Hi. unfold ents, sorted_entries.
  rewrite (nth_indep _ dummy_entry (entry_of es [])) by (rewrite map_length; exact Hi).
  rewrite map_nth. fold sorted.
  assert (Hin : In (nth i sorted []) sorted) by (apply nth_In; exact Hi).
  destruct (sorted_in es _ rt_wfe Hin) as [e [He [Eh Hf]]]. unfold entry_of. rewrite Hf. split; assumption.
Qed.

Lemma rt_nodup : NoDup sorted.
Proof.
  pose proof (sorted_perm es rt_wfe) as P. destruct rt_wfe as [Hnd _].
  eapply Permutation_NoDup; [apply Permutation_sym; exact P | exact Hnd].
Qed.

Lemma rt_len20 : forall h, In h sorted -> List.length h = 20%nat.
Proof. exact (sorted_len20 es rt_wfe). Qed.

Lemma rt_entry_ok : forall e, In e es -> entry_ok (map e_hash es) e.
Proof. intros e He. destruct Hwf as [_ [A _]]. rewrite Forall_forall in A. now apply A. Qed.

Lemma rt_parent_in : forall e p, In e es -> In p (e_parents e) -> In p sorted.
Proof.
  intros e p He Hp. destruct (rt_entry_ok e He) as [Hc _].
  eapply Permutation_in; [apply Permutation_sym; apply (sorted_perm es rt_wfe) | now apply Hc].
Qed.

Lemma rt_nn_bound : N.of_nat nn <= parentNone.
Proof. destruct Hwf as [_ [_ [A _]]]. exact A. Qed.

Lemma rt_idx : forall e p, In e es -> In p (e_parents e) -> hash_to_index sorted p < parentNone.
Proof.
  intros e p He Hp. destruct (hash_to_index_in p sorted (rt_parent_in e p He Hp)) as [k [A [B _]]].
  rewrite A. pose proof rt_nn_bound. unfold nn in *. lia.
Qed.

Lemma rt_edges_len : N.of_nat (List.length edges) = extra_edges_count es.
Proof. exact (edges_count es rt_wfe). Qed.

Lemma rt_shape : file = P0 ++ fan ++ List.concat sorted ++ List.concat recs ++ flat_map be32 edges ++ gens ++ trailer.
Proof.
  pose proof (encode_shape es rt_wfe) as S. cbv zeta in S.
  unfold file. rewrite S. unfold gens. now rewrite <- !app_assoc.
Qed.

Lemma rt_tbl_ok : Forall sig_ok tbl.
Proof. destruct (chunk_table_facts es (N.of_nat nn)) as [A _]. exact A. Qed.

Lemma rt_P0_len : Z.of_nat (List.length P0) = Z.of_N off0.
Proof.
  unfold P0. rewrite !app_length, (chunk_headers_length tbl off0 rt_tbl_ok).
  change (List.length sig_CGPH) with 4%nat. cbn [List.length]. unfold off0. lia.
Qed.

Lemma rt_fan_len : List.length fan = 1024%nat.
Proof. unfold fan. rewrite flat_map_be32_length. unfold fanout_of. now rewrite map_length, seq_length. Qed.

Lemma rt_oids_len : List.length (List.concat sorted) = (20 * nn)%nat.
Proof. apply concat_length_const. exact rt_len20. Qed.

Lemma rt_trees : Forall (fun e => List.length (e_tree e) = 20%nat) ents.
Proof. exact (sorted_trees es rt_wfe). Qed.

Lemma rt_recs_len : List.length (List.concat recs) = (36 * nn)%nat.
Proof.
  rewrite (concat_length_const recs 36 (records_width sorted ents 0 rt_trees)).
  unfold recs. now rewrite records_length, rt_ents_len.
Qed.

Section WithFi.
Variable fi : findex.
Hypothesis Hopen : open_file file = Ok fi.

Lemma rt_fi : ncommits fi = N.of_nat nn /\ f_gen2 fi = has_gen2 es /\ f_fanout fi = fanout_of sorted /\
  (forall s off, In (s, ct_of s, off) (mkT tbl off0) -> off_of (f_off fi) (ct_of s) = Z.of_N off) /\
  (forall s sz, In (s, sz) tbl -> off_of (f_size fi) (ct_of s) = Z.of_N sz).
Proof.
  destruct (reader_accepts_strong es trailer rt_wff Htr) as [fi' [A R]].
  fold file in A. rewrite Hopen in A. injection A as <-. exact R.
Qed.

(* the reader places every chunk right after the chunks written before it *)
Lemma rt_offs :
  off_of (f_off fi) 1 = Z.of_nat (List.length (P0 ++ fan)) /\
  off_of (f_off fi) 2 = Z.of_nat (List.length (P0 ++ fan ++ List.concat sorted)) /\
  (0 <? extra_edges_count es = true ->
     off_of (f_off fi) 5 = Z.of_nat (List.length (P0 ++ fan ++ List.concat sorted ++ List.concat recs)) /\
     off_of (f_size fi) 5 = (4 * Z.of_nat (List.length edges))%Z) /\
  (has_gen2 es = true ->
     off_of (f_off fi) 3 =
       Z.of_nat (List.length (P0 ++ fan ++ List.concat sorted ++ List.concat recs ++ flat_map be32 edges)) /\
     (0 <? overflow_count es = true ->
        off_of (f_off fi) 4 =
          Z.of_nat (List.length ((P0 ++ fan ++ List.concat sorted ++ List.concat recs ++ flat_map be32 edges)
                                 ++ flat_map be32 (gen2_words ds 0))) /\
        off_of (f_size fi) 4 = (8 * Z.of_nat (List.length (filter is_ovf ds)))%Z)).
Proof.
  destruct rt_fi as (_ & _ & _ & Hoffs & Hsizes).
  destruct (mkT_offsets es (N.of_nat nn) off0) as (O1 & O2 & O5 & O3 & O4). fold tbl in O1, O2, O3, O4, O5.
  pose proof rt_edges_len as Le. pose proof rt_P0_len as L0.
  rewrite !app_length, rt_fan_len, rt_oids_len, rt_recs_len, !flat_map_be32_length, gen2_words_length, rt_ds_len.
  change lenFanout with 256 in *. change hashSize with 20 in *. change szCommitData with 16 in *.
  split; [|split; [|split; [|intros Hg; split]]].
  - rewrite (Hoffs _ _ O1 : off_of (f_off fi) 1 = _). clear - L0. lia.
  - rewrite (Hoffs _ _ O2 : off_of (f_off fi) 2 = _). clear - L0. lia.
  - intros Hx. destruct (O5 Hx) as [O5a O5b].
    rewrite (Hoffs _ _ O5a : off_of (f_off fi) 5 = _), (Hsizes _ _ O5b : off_of (f_size fi) 5 = _). clear - L0 Le. lia.
  - rewrite (Hoffs _ _ (O3 Hg) : off_of (f_off fi) 3 = _). clear - L0 Le. lia.
  - intros Ho. destruct (O4 Hg Ho) as [O4a O4b].
    rewrite (Hoffs _ _ O4a : off_of (f_off fi) 4 = _), (Hsizes _ _ O4b : off_of (f_size fi) 4 = _).
    rewrite (overflow_count_filter es rt_wfe Hg). fold ents ds. clear - L0 Le. lia.
Qed.

Lemma rt_hash_local : forall i, (i < nn)%nat -> hash_local file fi (N.of_nat i) = Ok (nth i sorted []).
Proof.
  intros i Hi. destruct rt_fi as [Hnc _]. unfold hash_local. rewrite Hnc, (proj1 rt_offs).
  assert (C : (N.of_nat nn <=? N.of_nat i) = false) by lia. rewrite C.
  rewrite rt_shape, (app_assoc P0 fan), (slice_record _ _ sorted 20 i _ rt_len20 Hi) by lia. reflexivity.
Qed.

Lemma rt_hashes_of : forall ps, (forall p, In p ps -> In p sorted) ->
  hashes_of (fun _ => Er EMalformed) 0 file fi (map (hash_to_index sorted) ps) = Ok ps.
Proof.
  induction ps as [|p r IH]; intros H; [reflexivity|].
  cbn [map hashes_of].
  destruct (hash_to_index_in p sorted (H p (or_introl eq_refl))) as [k [A [B C]]].
  rewrite A. assert (E : N.of_nat k <? 0 = false) by lia. rewrite E, N.sub_0_r.
  rewrite (rt_hash_local k B), C. rewrite IH by (intros; apply H; now right). reflexivity.
Qed.

(* the number of EDGE words written before those of commit i *)
Let pos_of (i : nat) : nat := List.length (flat_map (new_edges sorted) (firstn i ents)).

Lemma rt_pos_bound : forall i, (i < nn)%nat ->
  N.of_nat (pos_of i + List.length (new_edges sorted (nth i ents dummy_entry))) <= extra_edges_count es.
Proof.
  intros i Hi. rewrite <- rt_edges_len. unfold edges, pos_of.
  rewrite (flat_map_split_nth sorted ents i) by (rewrite rt_ents_len; exact Hi).
  rewrite !app_length. lia.
Qed.

Lemma rt_words_bound : forall i, (i < nn)%nat ->
  let e := nth i ents dummy_entry in
  fst (parent_words sorted e (pos_of i)) < two32 /\ snd (parent_words sorted e (pos_of i)) < two32.
Proof.
  intros i Hi e. destruct (rt_ent i Hi) as [Hin _]. fold e in Hin.
  pose proof (rt_idx e) as Hidx. pose proof (rt_pos_bound i Hi) as Hpos. fold e in Hpos.
  destruct Hwf as [_ [_ [_ Hx]]].
  assert (HN : parentNone < two32) by reflexivity.
  unfold parent_words. unfold new_edges in Hpos.
  destruct (e_parents e) as [|a [|b [|c rest]]] eqn:Ep; cbn [fst snd].
  - split; exact HN.
  - split; [|exact HN]. specialize (Hidx a Hin (or_introl eq_refl)). lia.
  - split.
    + specialize (Hidx a Hin (or_introl eq_refl)). lia.
    + specialize (Hidx b Hin (or_intror (or_introl eq_refl))). lia.
  - split.
    + specialize (Hidx a Hin (or_introl eq_refl)). lia.
    + assert (Hp : N.of_nat (pos_of i) mod two32 < 2 ^ 31).
      { rewrite N.mod_small; [|unfold two32]; change (2 ^ 31) with 2147483648; lia. }
      rewrite const_octopus, const_two32. apply (flag_bound _ 31 Hp).
Qed.

Lemma rt_parents : forall i, (i < nn)%nat ->
  let e := nth i ents dummy_entry in
  parent_indexes file fi (fst (parent_words sorted e (pos_of i))) (snd (parent_words sorted e (pos_of i)))
  = Ok (pidx_of sorted e).
Proof.
  intros i Hi e. destruct (rt_ent i Hi) as [Hin _]. fold e in Hin.
  destruct (Nat.le_gt_cases (List.length (e_parents e)) 2) as [Hle|Hgt].
  - apply parent_indexes_small; [intros p Hp; now apply (rt_idx e)| exact Hle].
  - pose proof (rt_pos_bound i Hi) as Hpos. fold e in Hpos.
    assert (Hne : (0 < List.length (new_edges sorted e))%nat).
    { rewrite new_edges_length. unfold extra_nat. destruct (2 <? List.length (e_parents e))%nat eqn:E; clear - Hgt E; lia. }
    assert (Hx : 0 <? extra_edges_count es = true) by (clear - Hpos Hne; lia).
    destruct rt_offs as (_ & _ & F5 & _). destruct (F5 Hx) as [F5o F5s].
    destruct Hwf as [_ [_ [_ Hxb]]].
    set (E1 := flat_map (new_edges sorted) (firstn i ents)).
    set (E2 := flat_map (new_edges sorted) (skipn (S i) ents)).
    assert (Hedges : edges = E1 ++ new_edges sorted e ++ E2).
    { unfold edges, E1, E2, e. apply flat_map_split_nth. rewrite rt_ents_len. exact Hi. }
    apply (parent_indexes_octopus sorted e (fun p Hp => rt_idx e p Hin Hp) file
             (P0 ++ fan ++ List.concat sorted ++ List.concat recs) (gens ++ trailer) fi E1 E2).
    + exact Hgt.
    + rewrite <- Hedges, rt_shape. now rewrite <- !app_assoc.
    + exact F5o.
    + rewrite <- Hedges. exact F5s.
    + unfold pos_of in Hpos. fold E1 in Hpos. change (2 ^ 31) with 2147483648. clear - Hpos Hxb. lia.
Qed.

Lemma rt_gen2 : forall i, (i < nn)%nat ->
  let e := nth i ents dummy_entry in
  gen2_of file fi (N.of_nat i) (Z.to_N (e_when e)) = Ok (if has_gen2 es then norm_gen2 e else 0).
Proof.
  intros i Hi e. destruct rt_fi as [_ [Hg2 _]]. destruct rt_offs as (_ & _ & _ & F3).
  destruct (rt_ent i Hi) as [Hin _]. fold e in Hin.
  destruct (rt_entry_ok e Hin) as [_ [Hwhen [_ Hgen2]]].
  pose proof rt_shape as Hshape. unfold gens in Hshape. destruct (has_gen2 es) eqn:Eg.
  - assert (Hnn31 : N.of_nat nn < 2 ^ 31).
    { pose proof rt_nn_bound as B. rewrite const_parentNone in B. change (2 ^ 31) with 2147483648. clear - B. lia. }
    assert (Hnz : norm_gen2 e <> 0).
    { unfold has_gen2 in Eg. rewrite forallb_forall in Eg. specialize (Eg e Hin). clear - Eg. lia. }
    assert (Hnlt : norm_gen2 e < two64).
    { unfold norm_gen2. destruct (e_gen2 e =? two64 - 1); [unfold two64|]; clear - Hgen2; lia. }
    pose proof (gen2_value e Hnz Hnlt Hwhen) as V1. cbv zeta in V1.
    assert (Hnth : nth i ds 0 = gen2_data e).
    { unfold ds. rewrite (nth_indep _ 0 (gen2_data dummy_entry)) by (rewrite map_length, rt_ents_len; exact Hi).
      now rewrite map_nth. }
    rewrite (gen2_of_spec file (P0 ++ fan ++ List.concat sorted ++ List.concat recs ++ flat_map be32 edges)
               trailer fi ds i (Z.to_N (e_when e))).
    + rewrite Hnth. now rewrite V1.
    + now rewrite Hg2.
    + rewrite Hshape. rewrite <- !app_assoc. reflexivity.
    + apply (F3 eq_refl).
    + intros Hne. apply (F3 eq_refl).
      rewrite (overflow_count_filter es rt_wfe Eg). fold ents ds.
      destruct (filter is_ovf ds); [congruence | simpl; clear; lia].
    + rewrite rt_ds_len. exact Hi.
    + rewrite rt_ds_len. exact Hnn31.
    + intros d Hd. apply in_map_iff in Hd. destruct Hd as [x [<- _]]. apply gen2_data_lt.
  - unfold gen2_of. rewrite Hg2. reflexivity.
Qed.

Theorem commit_readback : forall i, (i < nn)%nat ->
  let e := nth i ents dummy_entry in
  get_commit_data file fi (N.of_nat i) =
    Ok (mkCD (e_tree e) (pidx_of sorted e) (e_parents e) (e_gen e)
             (if has_gen2 es then norm_gen2 e else 0) (Z.to_N (e_when e))).
Proof.
  intros i Hi e. destruct rt_fi as [Hnc _]. destruct rt_offs as (_ & F2 & _).
  destruct (rt_ent i Hi) as [Hin _]. fold e in Hin.
  destruct (rt_entry_ok e Hin) as [_ [Hwhen [Hgen _]]].
  destruct (time_word_spec e Hwhen Hgen) as [Tb [Tl Th]].
  destruct (rt_words_bound i Hi) as [W1 W2]. fold e in W1, W2.
  assert (Hi' : (i < List.length recs)%nat) by (unfold recs; rewrite records_length, rt_ents_len; exact Hi).
  (* the record of commit i follows the records of the commits before it *)
  set (PRE := (P0 ++ fan ++ List.concat sorted) ++ List.concat (firstn i recs)).
  assert (HPRE : (off_of (f_off fi) 2 + Z.of_N (N.of_nat i) * 36)%Z = Z.of_nat (List.length PRE)).
  { unfold PRE. rewrite F2, (app_length _ (List.concat (firstn i recs))).
    rewrite (concat_firstn_length recs 36 i (records_width sorted ents 0 rt_trees)) by lia. lia. }
  assert (Hfile : file = PRE ++ record sorted e (pos_of i)
                         ++ (List.concat (skipn (S i) recs) ++ flat_map be32 edges ++ gens ++ trailer)).
  { rewrite rt_shape, (concat_split recs i Hi'). unfold recs at 2.
    rewrite records_nth by (rewrite rt_ents_len; exact Hi). unfold PRE. now rewrite <- !app_assoc. }
  assert (Htree : List.length (e_tree e) = 20%nat).
  { pose proof rt_trees as T. rewrite Forall_forall in T. apply T, nth_In. rewrite rt_ents_len. exact Hi. }
  destruct (record_read file PRE _ (e_tree e) _ _ (time_word e) _ Hfile HPRE Htree W1 W2 Tb) as [R0 [R1 [R2 R3]]].
  assert (Hc : (ncommits fi <=? N.of_nat i) = false) by (rewrite Hnc; clear - Hi; lia).
  assert (Hph : hashes_of (fun _ => Er EMalformed) 0 file fi (pidx_of sorted e) = Ok (e_parents e)).
  { apply rt_hashes_of. intros p Hp. now apply (rt_parent_in e). }
  pose proof (rt_parents i Hi) as Hpi. pose proof (rt_gen2 i Hi) as Hg. cbv zeta in Hpi, Hg. fold e in Hpi, Hg.
  rewrite <- Tl in Hg.
  unfold get_commit_data, get_commit_data_in. rewrite Hc. cbv zeta.
  rewrite R0, R1, R2, R3, Hpi, Hph, Hg. now rewrite Th, Tl.
Qed.
End WithFi.
End RoundTrip.
