(* Proofs/C10MemHash.v — MemoryIndex.FindHash with its lazily built offset->id map and
   the cache FindOffset feeds: for every history of FindOffset / FindHash calls the
   answers are those of the map by offset (distinct offsets below 2^63). *)
From Coq Require Import List NArith ZArith Bool Lia ZifyBool ZifyNat ZifyN FinFun.
From GoGit Require Import Base.Out Model.PackBytes Model.Idx Spec.IdxFormat Proofs.C10Order Proofs.C10Layout Proofs.C10Lazy Proofs.C10Decode Proofs.C10Memory Proofs.C10Rev.
Import ListNotations.
Local Open Scope N_scope.

Lemma omap_get_in mp : forall k v, omap_get mp k = Some v -> In (k, v) mp.
Proof.
  induction mp as [|[k' v'] mp IH]; intros k v E; cbn in E; [discriminate|].
  destruct (k' =? k)%Z eqn:Ek.
  - apply Z.eqb_eq in Ek. inversion E; subst. now left.
  - right. now apply IH.
Qed.

Lemma omap_get_nodup mp : forall k v, NoDup (map fst mp) -> In (k, v) mp -> omap_get mp k = Some v.
Proof.
  induction mp as [|[k' v'] mp IH]; intros k v Hd Hi; [contradiction|].
  inversion Hd as [|? ? Hn Hd']; subst. cbn [omap_get]. destruct Hi as [E|Hi].
  - inversion E; subst. now rewrite Z.eqb_refl.
  - destruct (k' =? k)%Z eqn:Ek.
    + apply Z.eqb_eq in Ek. subst. exfalso. apply Hn. change k with (fst (k, v)). now apply in_map.
    + now apply IH.
Qed.

Lemma fold_cons_rev {A B} (kv : A -> B) : forall l acc,
  fold_left (fun mp e => kv e :: mp) l acc = rev (map kv l) ++ acc.
Proof.
  induction l as [|x l IH]; intros acc; cbn; [reflexivity|]. rewrite IH, <- app_assoc. reflexivity.
Qed.

(* what FindOffset does to the cache, for any index *)
Lemma find_offset_state hs m st h :
  snd (mem_find_offset hs m st h) = st \/
  exists o, fst (mem_find_offset hs m st h) = Ok (to_i64 o) /\
            snd (mem_find_offset hs m st h)
            = mkS (Some ((to_i64 o, h) :: match ms_map st with Some mp => mp | None => [] end)) (ms_once st).
Proof.
  unfold mem_find_offset. destruct (mem_find hs m h) as [[ib| | |] r]; cbn [fst snd]; auto.
  destruct (mem_get_offset m (nthN (m_bk m) r emptyB) ib) as [o|e]; cbn [fst snd]; auto.
  right. exists o. auto.
Qed.

Section MemHash.
Variable hs : nat.
Variable Hsz : nat -> bytes -> bytes.
Variable tbl : list entry.
Variable pack sum : bytes.
Hypothesis WF : wf_tbl hs tbl.
Hypothesis Hpack : List.length pack = hs.
Hypothesis Hdist : distinct_offsets tbl.
Hypothesis Hsmall : forall e, In e tbl -> e_off e < 9223372036854775808.

Let m := spec_index tbl pack sum.
Set Default Proof Using "hs Hsz tbl pack sum WF Hpack Hdist Hsmall".

Definition kv (e : entry) : Z * bytes := (to_i64 (e_off e), e_hash e).
Definition genmap : omap := fold_left (fun mp e => kv e :: mp) tbl [].

Lemma mem_gen_ok : mem_gen hs m = Ok genmap.
Proof. unfold mem_gen, m. now rewrite (mem_entries_map hs Hsz tbl pack sum WF Hpack). Qed.

(* the keys are the offsets, read as int64 *)
Lemma keys_nodup : NoDup (map fst (rev (map kv tbl))).
Proof.
  rewrite <- map_rev, map_map, (map_ext_in _ (fun e => Z.of_N (e_off e))), <- (map_map e_off Z.of_N).
  - apply Injective_map_NoDup; [exact N2Z.inj|]. rewrite map_rev. now apply NoDup_rev.
  - intros e He. apply i64_small, Hsmall. now apply in_rev.
Qed.

Lemma genmap_get_in e : In e tbl -> omap_get genmap (Z.of_N (e_off e)) = Some (e_hash e).
Proof.
  intros He. unfold genmap. rewrite fold_cons_rev, app_nil_r.
  apply omap_get_nodup; [exact keys_nodup|]. rewrite <- in_rev.
  replace (Z.of_N (e_off e), e_hash e) with (kv e) by (unfold kv; now rewrite i64_small by now apply Hsmall).
  now apply in_map.
Qed.

Lemma genmap_get_sound z h : omap_get genmap z = Some h ->
  exists e, In e tbl /\ Z.of_N (e_off e) = z /\ e_hash e = h.
Proof.
  intros E. unfold genmap in E. rewrite fold_cons_rev, app_nil_r in E.
  apply omap_get_in in E. rewrite <- in_rev in E. apply in_map_iff in E. destruct E as (e & Ek & He).
  exists e. unfold kv in Ek. inversion Ek; subst. rewrite i64_small by now apply Hsmall. auto.
Qed.

Lemma hit_lookup (g : Z -> option bytes) o h :
  (forall z h, g z = Some h -> exists e, In e tbl /\ Z.of_N (e_off e) = z /\ e_hash e = h) ->
  g (Z.of_N o) = Some h -> exists e, lookup_off tbl o = Some e /\ e_hash e = h.
Proof.
  intros Sound E. destruct (Sound _ _ E) as (e & He & Eo & Eh). apply N2Z.inj in Eo. subst o.
  exists e. split; [exact (lookup_off_in tbl e Hdist He)|exact Eh].
Qed.

Lemma miss_lookup (g : Z -> option bytes) o :
  (forall e, In e tbl -> g (Z.of_N (e_off e)) = Some (e_hash e)) ->
  g (Z.of_N o) = None -> lookup_off tbl o = None.
Proof.
  intros Complete E. apply lookup_off_none. intros e He Eo. subst o. rewrite (Complete e He) in E. discriminate.
Qed.

(* the invariant of the offset cache *)
Definition cache_get (st : mstate) (z : Z) : option bytes :=
  match ms_map st with Some mp => omap_get mp z | None => None end.
Definition st_ok (st : mstate) : Prop :=
  (forall z h, cache_get st z = Some h -> exists e, In e tbl /\ Z.of_N (e_off e) = z /\ e_hash e = h) /\
  (ms_once st = true -> forall e, In e tbl -> cache_get st (Z.of_N (e_off e)) = Some (e_hash e)).

Lemma st_ok_init : st_ok ms_init.
Proof. split; [intros z h E; discriminate|intros E; discriminate]. Qed.

Theorem mem_find_hash_map st o : st_ok st ->
  fst (mem_find_hash hs m st (Z.of_N o)) =
    match lookup_off tbl o with Some e => Ok (e_hash e) | None => Err ENotFound end /\
  st_ok (snd (mem_find_hash hs m st (Z.of_N o))).
Proof.
  intros Hst. pose proof Hst as [Sa Sb]. unfold mem_find_hash. fold (cache_get st (Z.of_N o)).
  destruct (cache_get st (Z.of_N o)) as [h|] eqn:Ec.
  - cbn [fst snd]. split; [|exact Hst]. now destruct (hit_lookup _ o h Sa Ec) as (e & -> & <-).
  - destruct (ms_once st) eqn:Eo.
    + cbn [fst snd]. split; [|exact Hst]. now rewrite (miss_lookup _ o (Sb eq_refl) Ec).
    + rewrite mem_gen_ok. cbn [fst snd]. split.
      * destruct (omap_get genmap (Z.of_N o)) as [h|] eqn:Eg.
        -- now destruct (hit_lookup _ o h genmap_get_sound Eg) as (e & -> & <-).
        -- now rewrite (miss_lookup _ o genmap_get_in Eg).
      * split; cbn [cache_get ms_map ms_once]; [exact genmap_get_sound|intros _; exact genmap_get_in].
Qed.

Lemma st_ok_add st e : st_ok st -> In e tbl ->
  st_ok (mkS (Some ((Z.of_N (e_off e), e_hash e) :: match ms_map st with Some mp => mp | None => [] end)) (ms_once st)).
Proof.
  intros [Sa Sb] He. set (st' := mkS _ _).
  assert (Hget : forall z, cache_get st' z = if (Z.of_N (e_off e) =? z)%Z then Some (e_hash e) else cache_get st z).
  { intros z. unfold cache_get. cbn [st' ms_map omap_get]. destruct (_ =? z)%Z; [reflexivity|]. now destruct (ms_map st). }
  split.
  - intros z h E. rewrite Hget in E. destruct (Z.eqb_spec (Z.of_N (e_off e)) z) as [Ez|_]; [|exact (Sa z h E)].
    injection E as <-. now exists e.
  - intros Eon e' He'. rewrite Hget.
    destruct (Z.eqb_spec (Z.of_N (e_off e)) (Z.of_N (e_off e'))) as [Ez|_]; [|exact (Sb Eon e' He')].
    apply N2Z.inj in Ez. pose proof (lookup_off_in tbl e Hdist He) as L.
    rewrite Ez, (lookup_off_in tbl e' Hdist He') in L. now injection L as <-.
Qed.

(* FindOffset records (offset -> the id asked for) *)
Theorem mem_find_offset_keeps st h : st_ok st -> wf_hash hs h ->
  st_ok (snd (mem_find_offset hs m st h)).
Proof.
  intros Hst Hh. pose proof (mem_find_offset_map hs Hsz tbl pack sum WF Hpack st h Hh) as Ef. fold m in Ef.
  destruct (find_offset_state hs m st h) as [->|(o & E1 & ->)]; [exact Hst|].
  rewrite E1 in Ef. destruct (lookup tbl h) as [e|] eqn:El; [|discriminate]. injection Ef as ->.
  unfold lookup in El. apply find_some in El. destruct El as [He Ehh]. apply bytes_eqb_eq in Ehh. subst h.
  rewrite i64_small by now apply Hsmall. now apply st_ok_add.
Qed.

End MemHash.
