(* Proofs/C48Opts.v — SetOption / AddOption / RemoveOption on format/config
   Options: keys are matched case-insensitively; setting a key leaves exactly
   the new value(s) under every spelling of the key and touches nothing else. *)
From Coq Require Import List NArith Bool Lia.
From GoGit Require Import Base.Out Model.ConfigOpts.
Import ListNotations.
Local Open Scope N_scope.

Lemma bytes_eqb_eq a b : bytes_eqb a b = true <-> a = b.
Proof.
  revert b. induction a as [|x a IH]; intros [|y b]; cbn; split; intros H; try reflexivity; try discriminate.
  - apply andb_true_iff in H. destruct H as [H1 H2]. apply N.eqb_eq in H1. apply IH in H2. now subst.
  - inversion H; subst. rewrite N.eqb_refl. cbn. now apply IH.
Qed.

Lemma key_eq_refl a : key_eq a a = true.
Proof. unfold key_eq. now apply bytes_eqb_eq. Qed.
Lemma key_eq_sym a b : key_eq a b = key_eq b a.
Proof. unfold key_eq. apply eq_true_iff_eq. rewrite !bytes_eqb_eq. split; intros H; now symmetry. Qed.
Lemma key_eq_trans_l a b c : key_eq a b = true -> key_eq c a = key_eq c b.
Proof. unfold key_eq. intros H. apply bytes_eqb_eq in H. now rewrite H. Qed.

Lemma mem_In v l : mem v l = true <-> In v l.
Proof.
  unfold mem. rewrite existsb_exists. split.
  - intros [x [Hx E]]. apply bytes_eqb_eq in E. now subst.
  - intros H. exists v. split; [assumption|now apply bytes_eqb_eq].
Qed.

Definition is_key (key : bytes) (o : opt) : bool := key_eq (fst o) key.

(* the first loop of withSettedOption is two filters *)
Definition kept (key : bytes) (values : list bytes) (o : opt) : bool :=
  negb (is_key key o) || mem (snd o) values.
Definition renewed (key : bytes) (values : list bytes) (o : opt) : bool :=
  is_key key o && mem (snd o) values.

Lemma ws_scan_filter os key values :
  ws_scan os key values = (filter (kept key values) os, map snd (filter (renewed key values) os)).
Proof.
  induction os as [|o r IH]; [reflexivity|].
  cbn [ws_scan filter]. rewrite IH. unfold kept, renewed, is_key.
  destruct (key_eq (fst o) key); [destruct (mem (snd o) values)|]; reflexivity.
Qed.

Lemma with_setted_filter os key values :
  with_setted os key values =
  filter (kept key values) os ++
  map (fun v => (key, v))
      (filter (fun v => negb (mem v (map snd (filter (renewed key values) os)))) values).
Proof. unfold with_setted. now rewrite ws_scan_filter. Qed.

Lemma filter_none {A} (P : A -> bool) l : (forall x, In x l -> P x = false) -> filter P l = [].
Proof.
  induction l as [|x l IH]; intros H; [reflexivity|].
  cbn [filter]. rewrite (H x (or_introl eq_refl)). apply IH. intros y Hy. apply H. now right.
Qed.

Lemma filter_filter_impl {A} (P Q : A -> bool) l :
  (forall x, P x = true -> Q x = true) -> filter P (filter Q l) = filter P l.
Proof.
  intros H. induction l as [|x l IH]; [reflexivity|]. cbn [filter].
  destruct (P x) eqn:E.
  - rewrite (H x E). cbn [filter]. now rewrite E, IH.
  - destruct (Q x); cbn [filter]; rewrite ?E; exact IH.
Qed.

(* nothing under another key is touched, order included *)
Theorem set_preserves_others os key values :
  filter (fun o => negb (is_key key o)) (with_setted os key values) =
  filter (fun o => negb (is_key key o)) os.
Proof.
  rewrite with_setted_filter, filter_app.
  set (new := filter _ values). replace (filter _ (map _ new)) with (@nil opt).
  - rewrite app_nil_r. apply filter_filter_impl. intros o Ho. unfold kept. now rewrite Ho.
  - symmetry. apply filter_none. intros o Ho. apply in_map_iff in Ho as (v & <- & _).
    unfold is_key. cbn [fst]. now rewrite key_eq_refl.
Qed.

(* every option left under any spelling of the key carries one of the new values *)
Theorem set_only_new os key values o :
  In o (with_setted os key values) -> is_key key o = true -> In (snd o) values.
Proof.
  rewrite with_setted_filter. intros Hin Hk. apply in_app_or in Hin as [Hin|Hin].
  - apply filter_In in Hin as [_ Hin]. unfold kept in Hin. rewrite Hk in Hin. now apply mem_In.
  - apply in_map_iff in Hin as [v [<- Hv]]. now apply filter_In in Hv.
Qed.

(* and every new value is there *)
Theorem set_all_new os key values v :
  In v values -> exists o, In o (with_setted os key values) /\ is_key key o = true /\ snd o = v.
Proof.
  rewrite with_setted_filter. intros Hv.
  destruct (mem v (map snd (filter (renewed key values) os))) eqn:Em.
  - apply mem_In, in_map_iff in Em as (o & Hs & Ho). apply filter_In in Ho as [Ho Hr].
    apply andb_true_iff in Hr as [Hk Hm].
    exists o. split; [|now split]. apply in_or_app. left. apply filter_In. split; [exact Ho|].
    unfold kept. now rewrite Hm, orb_true_r.
  - exists (key, v). split; [|split; [apply key_eq_refl|reflexivity]].
    apply in_or_app. right. apply in_map. apply filter_In. now rewrite Em.
Qed.

(* Get through any spelling *)
Lemma get_rev_all ro key v :
  (exists o, In o ro /\ key_eq (fst o) key = true) ->
  (forall o, In o ro -> key_eq (fst o) key = true -> snd o = v) ->
  opt_get_rev ro key = v.
Proof.
  induction ro as [|o r IH]; intros [q [Hq Hk]] Hall; [destruct Hq|].
  cbn. destruct (key_eq (fst o) key) eqn:E.
  - apply Hall; [now left|assumption].
  - apply IH.
    + destruct Hq as [<-|Hq]; [congruence|eauto].
    + intros p Hp. apply Hall. now right.
Qed.

(* several values (remote url, fetch, insteadOf): exactly the new set *)
Theorem set_get_all os key key' values x :
  key_eq key' key = true ->
  (In x (opt_get_all (with_setted os key values) key') <-> In x values).
Proof.
  intros Hk. unfold opt_get_all. rewrite in_map_iff. split.
  - intros [o [<- Ho]]. apply filter_In in Ho. destruct Ho as [Ho Hko].
    rewrite (key_eq_trans_l _ _ _ Hk) in Hko. eapply set_only_new; eassumption.
  - intros Hx. destruct (set_all_new os key values x Hx) as (o & Ho & Hko & Hs).
    exists o. split; [assumption|]. apply filter_In. split; [assumption|].
    unfold is_key in Hko. now rewrite (key_eq_trans_l _ _ _ Hk).
Qed.

(* set-then-get: after SetOption(key, v), reading the key under any spelling
   returns v, every option under any spelling of the key has value v (no stale
   case-variant survives), and GetAll returns only v *)
Theorem set_then_get os key key' v :
  key_eq key' key = true ->
  opt_get (with_setted os key [v]) key' = v /\
  (forall o, In o (with_setted os key [v]) -> key_eq (fst o) key' = true -> snd o = v) /\
  (forall x, In x (opt_get_all (with_setted os key [v]) key') -> x = v) /\
  opt_get_all (with_setted os key [v]) key' <> [].
Proof.
  intros Hk.
  assert (Hall : forall o, In o (with_setted os key [v]) -> key_eq (fst o) key' = true -> snd o = v).
  { intros o Ho Hko. rewrite (key_eq_trans_l _ _ _ Hk) in Hko.
    destruct (set_only_new _ _ _ _ Ho Hko) as [H|[]]. now symmetry. }
  pose proof (set_get_all os key key' [v]) as Hget.
  repeat split.
  - destruct (set_all_new os key [v] v (or_introl eq_refl)) as (o & Ho & Hko & Hs).
    unfold is_key in Hko. rewrite <- (key_eq_trans_l _ _ _ Hk) in Hko.
    unfold opt_get. apply get_rev_all.
    + exists o. split; [now apply -> in_rev|assumption].
    + intros p Hp. apply Hall. now apply in_rev.
  - exact Hall.
  - intros x Hx. apply Hget in Hx as [<-|[]]; [reflexivity|exact Hk].
  - intros Hnil. rewrite Hnil in Hget. apply (proj2 (Hget v Hk)). now left.
Qed.

Theorem remove_all_spellings os key key' :
  key_eq key' key = true ->
  opt_get_all (without_option os key) key' = [] /\ has (without_option os key) key' = false /\
  filter (fun o => negb (is_key key o)) (without_option os key) = filter (fun o => negb (is_key key o)) os.
Proof.
  intros Hk. unfold opt_get_all, has, without_option.
  assert (H : forall o, In o (filter (fun o => negb (key_eq (fst o) key)) os) -> key_eq (fst o) key' = false).
  { intros o Ho. apply filter_In in Ho. destruct Ho as [_ Ho]. rewrite (key_eq_trans_l _ _ _ Hk).
    now apply negb_true_iff in Ho. }
  repeat split.
  - now rewrite filter_none.
  - destruct (existsb _ _) eqn:E; [|reflexivity]. apply existsb_exists in E. destruct E as [o [Ho Hko]].
    rewrite (H _ Ho) in Hko. discriminate.
  - now apply filter_filter_impl.
Qed.

Theorem add_then_get os key key' v : key_eq key' key = true -> opt_get (with_added os key v) key' = v.
Proof.
  intros Hk. unfold opt_get, with_added. rewrite rev_app_distr. cbn [rev app opt_get_rev fst snd].
  now rewrite key_eq_sym, Hk.
Qed.
