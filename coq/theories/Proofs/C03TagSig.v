(* Proofs/C03TagSig.v — tags: the signature go-git's Tag.Decode leaves in
   Tag.Signature (parseSignedBytes over the MESSAGE buffer) is the signature
   git's parse_signature extracts (parse_signed_buffer over the WHOLE object)
   whenever no header line starts a signature block (Spec/SigGuards.
   tag_marker_guard); hence, a freshly decoded tag taking the raw-source path,
   go-git and git hand the same (payload, signature) pair to a verifier. *)
From Coq Require Import List NArith ZArith Bool Lia.
From GoGit Require Import Base.Out Model.ObjLines Model.Ident Model.Commit Model.Tag Model.SigPayload
     Spec.GitSig Spec.ObjWf Spec.SigGuards Proofs.ObjLinesFacts Proofs.C03Commit Proofs.C03Mutated Proofs.C03Tag.
Import ListNotations.
Local Open Scope N_scope.

(* a valid line list is the splitting of its own concatenation *)
Lemma split_lines_concat_valid ls : Forall line_ok ls -> all_but_last_nl ls = true -> split_lines (List.concat ls) = ls.
Proof.
  induction ls as [|l r IH]; intros Hok Ha; [reflexivity|].
  inversion Hok as [|x0 y0 Hl Hr]. subst x0 y0.
  destruct (abl_tail _ _ Ha) as [Har Hen].
  destruct Hl as [Hne [p [Hp [-> | ->]]]].
  - cbn [List.concat]. rewrite <- app_assoc. cbn [app]. rewrite (split_lines_line _ _ Hp), (IH Hr Har). reflexivity.
  - destruct r as [|l2 r'].
    + cbn [List.concat]. rewrite app_nil_r. now apply split_lines_last.
    + specialize (Hen ltac:(discriminate)). rewrite (ends_nl_no_lf _ Hp) in Hen. discriminate.
Qed.

Fixpoint body_lines (ls : list bytes) : list bytes :=
  match ls with
  | [] => []
  | l :: r => if first_is LF l then r else body_lines r
  end.

(* bytes up to and including the blank line *)
Fixpoint hdr_len (ls : list bytes) : nat :=
  match ls with
  | [] => 0
  | l :: r => if first_is LF l then List.length l else (List.length l + hdr_len r)%nat
  end.

Lemma body_lines_valid ls : Forall line_ok ls -> all_but_last_nl ls = true ->
  Forall line_ok (body_lines ls) /\ all_but_last_nl (body_lines ls) = true.
Proof.
  induction ls as [|l r IH]; intros Hok Ha; [split; [constructor|reflexivity]|].
  inversion Hok as [|x0 y0 Hl Hr]. subst x0 y0. destruct (abl_tail _ _ Ha) as [Har _].
  cbn [body_lines]. destruct (first_is LF l); [now split|now apply IH].
Qed.

Lemma skipn_hdr ls : skipn (hdr_len ls) (List.concat ls) = List.concat (body_lines ls).
Proof.
  induction ls as [|l r IH]; [reflexivity|]. cbn [hdr_len body_lines List.concat].
  destruct (first_is LF l); [apply skipn_app_exact|].
  now rewrite skipn_add, skipn_app_exact.
Qed.

Lemma lf_not_sig_start l : first_is LF l = true -> is_sig_start l = false.
Proof. intros H. apply first_is_true in H as [r ->]. reflexivity. Qed.

Lemma psb_shift p ls : forall q m,
  psb (p + q) (option_map (Nat.add p) m) ls = option_map (Nat.add p) (psb q m ls).
Proof.
  induction ls as [|l r IH]; intros q m; [reflexivity|]. cbn [psb].
  rewrite <- Nat.add_assoc, <- IH. f_equal. now destruct (is_sig_start l).
Qed.

Lemma psb_from p ls : psb p None ls = option_map (Nat.add p) (psb 0 None ls).
Proof. pose proof (psb_shift p ls 0 None) as H. cbn [option_map] in H. now rewrite Nat.add_0_r in H. Qed.

Lemma psb_header ls : forall pos,
  forallb (fun l => negb (is_sig_start l)) (header_of ls) = true ->
  psb pos None ls = psb (pos + hdr_len ls) None (body_lines ls).
Proof.
  induction ls as [|l r IH]; intros pos Hg.
  - cbn [psb hdr_len body_lines]. reflexivity.
  - cbn [psb hdr_len body_lines]. destruct (first_is LF l) eqn:Elf.
    + now rewrite (lf_not_sig_start _ Elf).
    + apply (forallb_header_cons _ _ _ Elf) in Hg as [H1 H2]. apply negb_true_iff in H1. rewrite H1.
      rewrite (IH _ H2). now rewrite Nat.add_assoc.
Qed.

Lemma tstep_blank' st t l : st <> TMessage -> is_blank l = true -> tstep st t l = (t, TMessage).
Proof.
  intros Hst Hb.
  assert (Hsp : first_is SPC l = false).
  { destruct l as [|x [|y l]]; try discriminate. cbn in Hb. apply N.eqb_eq in Hb. now subst. }
  destruct st; cbn [tstep]; try contradiction; unfold on_theaders; try rewrite Hsp; now rewrite Hb.
Qed.

Lemma on_theaders_hdr t l t' st' : is_blank l = false -> on_theaders t l = (t', st') ->
  st' <> TMessage /\ t_msg t' = t_msg t /\ t_sig t' = t_sig t.
Proof.
  intros Hb. unfold on_theaders. rewrite Hb. destruct (split_header l) as [key data].
  destruct (beqb key k_gpgsig256); intros H; inversion H; subst; repeat split; try reflexivity; discriminate.
Qed.

Lemma tstep_hdr st t l t' st' : st <> TMessage -> is_blank l = false -> tstep st t l = (t', st') ->
  st' <> TMessage /\ t_msg t' = t_msg t /\ t_sig t' = t_sig t.
Proof.
  intros Hst Hb. destruct st; cbn [tstep]; try contradiction.
  - rewrite Hb. destruct (split_header l) as [key data] eqn:Es. destruct (beqb key k_tagger).
    + intros H; inversion H; subst. repeat split; try reflexivity; discriminate.
    + now apply on_theaders_hdr.
  - now apply on_theaders_hdr.
  - destruct (first_is SPC l).
    + intros H; inversion H; subst. repeat split; try reflexivity; discriminate.
    + now apply on_theaders_hdr.
Qed.

Lemma trun_message ls : all_but_last_nl ls = true -> forall t,
  trun TMessage t ls = set_tmsg t (t_msg t ++ List.concat ls).
Proof.
  induction ls as [|l r IH]; intros Ha t.
  - cbn [trun List.concat]. rewrite app_nil_r. now destruct t.
  - cbn [trun tstep List.concat]. destruct r as [|l2 r].
    + cbn [List.concat trun]. rewrite app_nil_r. now destruct (ends_nl l).
    + destruct (abl_tail _ _ Ha) as [H2 H1]. rewrite (H1 ltac:(discriminate)), (IH H2).
      destruct t as [a b c d e f g]. unfold set_tmsg.
      cbn [t_target t_type t_name t_tagger t_sig256 t_msg t_sig]. now rewrite <- app_assoc.
Qed.

Lemma trun_body : forall ls st t0, st <> TMessage -> Forall line_ok ls -> all_but_last_nl ls = true ->
  t_msg (trun st t0 ls) = t_msg t0 ++ List.concat (body_lines ls) /\ t_sig (trun st t0 ls) = t_sig t0.
Proof.
  induction ls as [|l r IH]; intros st t0 Hst Hok Ha.
  - cbn [trun body_lines List.concat]. now rewrite app_nil_r.
  - inversion Hok as [|x0 y0 Hl Hr]. subst x0 y0. destruct (abl_tail _ _ Ha) as [Har Hen].
    cbn [trun body_lines]. rewrite (first_is_lf_blank _ Hl).
    destruct (is_blank l) eqn:Hb.
    + rewrite (tstep_blank' _ _ _ Hst Hb).
      assert (Een : ends_nl l = true) by (destruct l as [|x [|y l']]; try discriminate; exact Hb).
      rewrite Een, (trun_message _ Har). destruct t0; split; reflexivity.
    + destruct (tstep st t0 l) as [t' st'] eqn:Es.
      destruct (tstep_hdr _ _ _ _ _ Hst Hb Es) as [Hst' [Hm Hs]].
      destruct (ends_nl l) eqn:Een.
      * destruct (IH st' t' Hst' Hr Har) as [I1 I2]. now rewrite I1, I2, Hm, Hs.
      * destruct r as [|l2 r']; [|specialize (Hen ltac:(discriminate)); discriminate].
        cbn [body_lines List.concat]. now rewrite app_nil_r.
Qed.

(* the decoded tag is the scanner's result split at the last block start of its message buffer *)
Definition body_is (ls : list bytes) (t : tag) : Prop :=
  exists t0, t = split_tag_sig t0 /\ t_msg t0 = List.concat (body_lines ls) /\ t_sig t0 = [].

Lemma body_is_init h ty nm : body_is [] (tag_init h ty nm).
Proof. now exists (tag_init h ty nm). Qed.

(* a mandatory header line is not part of the body; the object may end in it *)
Lemma need_header_body key ls stop k t : Forall line_ok ls -> all_but_last_nl ls = true ->
  need_header key ls stop k = Ok t ->
  (forall d, stop d = Ok t -> body_is [] t) ->
  (forall d r, Forall line_ok r -> all_but_last_nl r = true -> k d r = Ok t -> body_is r t) ->
  body_is ls t.
Proof.
  intros Hok Ha H Hstop Hk. unfold need_header in H. destruct ls as [|l r]; [discriminate|].
  inversion Hok as [|x0 y0 Hl Hr]. subst x0 y0. destruct (abl_tail _ _ Ha) as [Har _].
  destruct (is_blank l) eqn:Hb; [discriminate|]. destruct (split_header l) as [kk d].
  destruct (negb (beqb kk key)); [discriminate|].
  unfold body_is. cbn [body_lines]. rewrite (first_is_lf_blank _ Hl), Hb.
  destruct (ends_nl l) eqn:E; [exact (Hk d r Hr Har H)|]. rewrite (abl_eof _ _ Ha E). exact (Hstop d H).
Qed.

Lemma decode_tag_body ls t : Forall line_ok ls -> all_but_last_nl ls = true -> decode_tag_lines ls = Ok t -> body_is ls t.
Proof.
  intros Hok Ha Hd.
  apply (need_header_body _ _ _ _ _ Hok Ha Hd); [intros d H|intros d r1 Hok1 Ha1 H];
    (destruct (parse_oid d) as [h|]; [|discriminate]); [inversion H; apply body_is_init|].
  apply (need_header_body _ _ _ _ _ Hok1 Ha1 H); [intros ty H'|intros ty r2 Hok2 Ha2 H'];
    (destruct (valid_type ty); [|discriminate]); [inversion H'; apply body_is_init|].
  apply (need_header_body _ _ _ _ _ Hok2 Ha2 H'); [intros nm H''|intros nm r3 Hok3 Ha3 H'']; inversion H''; [apply body_is_init|].
  eexists. split; [reflexivity|]. exact (trun_body r3 TTagger (tag_init h ty nm) ltac:(discriminate) Hok3 Ha3).
Qed.

Theorem tag_sig_eq : forall raw t,
  decode_tag raw = Ok t -> tag_marker_guard raw = true ->
  t_sig t = match parse_signed_bytes raw with Some m => skipn m raw | None => [] end.
Proof.
  intros raw t Hd Hg. unfold decode_tag in Hd. unfold tag_marker_guard in Hg.
  pose proof (split_lines_ok raw) as Hok. pose proof (split_lines_abl raw) as Ha.
  pose proof (concat_split_lines raw) as Hc.
  unfold parse_signed_bytes at 1.
  set (ls := split_lines raw) in *.
  destruct (decode_tag_body _ _ Hok Ha Hd) as [t0 [-> [Hm Hs]]].
  destruct (body_lines_valid _ Hok Ha) as [Bok Ba].
  rewrite (psb_header _ 0 Hg), psb_from. cbn [Nat.add].
  unfold split_tag_sig, parse_signed_bytes. rewrite Hm, (split_lines_concat_valid _ Bok Ba).
  destruct (psb 0 None (body_lines ls)) as [m'|]; cbn [option_map t_sig].
  - rewrite <- Hc, skipn_add, skipn_hdr. reflexivity.
  - exact Hs.
Qed.

Theorem tag_pair_eq : forall raw t m,
  decode_tag raw = Ok t -> parse_signed_bytes raw = Some m ->
  tag_sig_guard raw = true -> tag_marker_guard raw = true ->
  git_tag_payload raw = Some (Some (tag_payload raw true t, t_sig t)).
Proof.
  intros raw t m Hd Hm Hg Hk. rewrite (tag_payload_fresh _ _ Hd), (tag_sig_eq _ _ Hd Hk), Hm.
  exact (tag_payload_sig _ _ Hm Hg).
Qed.

Theorem tag_nosig : forall raw t,
  decode_tag raw = Ok t -> parse_signed_bytes raw = None -> tag_marker_guard raw = true ->
  git_tag_payload raw = None /\ t_sig t = [].
Proof.
  intros raw t Hd Hm Hk. split; [unfold git_tag_payload; now rewrite Hm|].
  now rewrite (tag_sig_eq _ _ Hd Hk), Hm.
Qed.
