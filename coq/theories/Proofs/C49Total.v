(* Proofs/C49Total.v — the fuel of the wildmatch model always suffices:
   every recursive call of dowild is on a strictly shorter pattern. *)
From Coq Require Import List NArith Bool Lia.
From GoGit Require Import Base.Out Model.Gitignore.
Import ListNotations.
Local Open Scope N_scope.

Lemma split_rb_len s a b : split_rb s = Some (a, b) -> (List.length b < List.length s)%nat.
Proof.
  revert a b. induction s as [|c r IH]; intros a b H; cbn in H; [discriminate|].
  destruct (c =? cRB).
  - inversion H; subst. cbn. lia.
  - destruct (split_rb r) as [[a' b']|] eqn:E; [|discriminate].
    inversion H; subst. specialize (IH _ _ eq_refl). cbn. lia.
Qed.

(* the result of a bracket loop is not out of fuel, and what it leaves of the
   pattern is shorter than n *)
Definition cls_within (n : nat) (res : cls_res) : Prop :=
  match res with CFuel => False | CAbort => True | CDone _ r => (List.length r < n)%nat end.

Lemma cls_within_le n m res : cls_within n res -> (n <= m)%nat -> cls_within m res.
Proof. destruct res; cbn; [tauto|tauto|lia]. Qed.

(* the local function [tail] of cls_loop *)
Definition cls_tail (f : nat) (cf : bool) (tch pch : N) (m : bool) (rest : bytes) : cls_res :=
  match rest with
  | [] => CAbort
  | c :: r => if c =? cRB then CDone m r else cls_loop f cf tch pch m c r
  end.

Lemma cls_loop_ok : forall fuel cf tch prev matched pch rest,
  (List.length rest < fuel)%nat ->
  cls_within (List.length rest) (cls_loop fuel cf tch prev matched pch rest).
Proof.
  induction fuel as [|f IH]; intros cf tch prev matched pch rest Hf; [lia|].
  assert (Htail : forall pch' m' rest', (List.length rest' <= List.length rest)%nat ->
            cls_within (List.length rest') (cls_tail f cf tch pch' m' rest')).
  { intros pch' m' [|c r] Hl; [exact I|]. cbn in Hl |- *. destruct (c =? cRB); [cbn; lia|].
    eapply cls_within_le; [apply IH|cbn]; lia. }
  cbn [cls_loop].
  destruct (pch =? cBSL).
  { destruct rest as [|e r]; [exact I|]. eapply cls_within_le; [apply Htail|]; cbn; lia. }
  destruct ((pch =? cDASH) && negb (prev =? 0) &&
            match rest with [] => false | c :: _ => negb (c =? cRB) end).
  { destruct rest as [|e r]; [exact I|]. destruct (e =? cBSL).
    - destruct r as [|e2 r2]; [exact I|]. eapply cls_within_le; [apply Htail|]; cbn; lia.
    - eapply cls_within_le; [apply Htail|]; cbn; lia. }
  destruct ((pch =? cLB) && match rest with c :: _ => c =? cCOLON | [] => false end).
  { destruct rest as [|c0 r]; [exact I|].
    destruct (split_rb r) as [[name' after]|] eqn:E; [|exact I].
    pose proof (split_rb_len _ _ _ E) as Hlen.
    destruct (rev name') as [|lastc rname]; [now apply (Htail cLB _ (c0 :: r))|].
    destruct (negb (lastc =? cCOLON)); [now apply (Htail cLB _ (c0 :: r))|].
    destruct (posix_class (rev rname) tch cf) as [m|]; [|exact I].
    eapply cls_within_le; [apply Htail|]; cbn; lia. }
  now apply Htail.
Qed.

Lemma bracket_within cf tch q : cls_within (List.length q) (fst (bracket cf tch q)).
Proof.
  unfold bracket. destruct q as [|c q1]; [exact I|].
  destruct ((if c =? cCARET then cBANG else c) =? cBANG).
  - destruct q1 as [|c2 q2]; [exact I|]. eapply cls_within_le; [apply cls_loop_ok|]; cbn; lia.
  - eapply cls_within_le; [apply cls_loop_ok|]; cbn; lia.
Qed.

Lemma bracket_ok cf tch q :
  fst (bracket cf tch q) <> CFuel /\
  (forall m r n, bracket cf tch q = (CDone m r, n) -> (List.length r < List.length q)%nat).
Proof.
  pose proof (bracket_within cf tch q) as H. split.
  - intros E. now rewrite E in H.
  - intros m r n E. now rewrite E in H.
Qed.

Lemma drop_stars_len p : (List.length (drop_stars p) <= List.length p)%nat.
Proof. induction p as [|c r IH]; cbn; [lia|]. destruct (c =? cSTAR); cbn; lia. Qed.

(* star_loop only returns what its recursive call or its parameters return *)
Lemma star_loop_nofuel rec ms lit cf pcf litfail :
  (forall t, rec t <> WFuel) -> litfail <> WFuel ->
  forall t skipped, star_loop rec ms lit cf pcf litfail skipped t <> WFuel.
Proof.
  intros Hrec Hlf. induction t as [|c t' IH]; intros skipped; cbn [star_loop].
  - destruct skipped; [exact Hlf|discriminate].
  - assert (Htry : forall tch,
      (let m := rec (c :: t') in
       if negb (wm_eqb m WNoMatch)
       then if negb ms || negb (wm_eqb m WAbortStarStar) then m
            else star_loop rec ms lit cf pcf litfail false t'
       else if negb ms && (tch =? cSLASH) then WAbortStarStar
            else star_loop rec ms lit cf pcf litfail false t') <> WFuel).
    { intros tch. cbv zeta. destruct (negb (wm_eqb (rec (c :: t')) WNoMatch)).
      - destruct (negb ms || negb (wm_eqb (rec (c :: t')) WAbortStarStar)); [apply Hrec|apply IH].
      - destruct (negb ms && (tch =? cSLASH)); [discriminate|apply IH]. }
    destruct lit.
    + destruct (negb ms && (c =? cSLASH)); [exact Hlf|].
      destruct (fold cf c =? pcf); [apply Htry|apply IH].
    + apply Htry.
Qed.

Lemma star_case_nofuel rec pn cf c1 c2 c3 prev p1 t :
  (forall pv p' t', (List.length p' <= List.length p1)%nat -> rec pv p' t' <> WFuel) ->
  c1 <> WFuel -> c2 <> WFuel -> (forall b, c3 b <> WFuel) ->
  star_case rec pn cf c1 c2 c3 prev p1 t <> WFuel.
Proof.
  intros Hrec H1 H2 H3. unfold star_case.
  pose proof (drop_stars_len p1) as Hd.
  set (ms := if match p1 with [] => false | c :: _ => c =? cSTAR end then _ else negb pn).
  set (bd := match prev with Some c => c =? cSLASH | None => true end && _).
  clearbody ms bd.
  destruct (drop_stars p1) as [|q0 q1] eqn:Ed.
  - destruct (_ && pn && bd); destruct (negb ms && has_slash t); congruence.
  - assert (Hbody :
      (if negb ms && (q0 =? cSLASH)
       then match after_slash t with Some t' => rec (Some cSLASH) q1 t' | None => c2 end
       else star_loop (rec None (q0 :: q1)) ms (negb (is_glob_special q0)) cf (fold cf q0) (c3 ms) false t)
      <> WFuel).
    { destruct (negb ms && (q0 =? cSLASH)).
      - destruct (after_slash t); [apply Hrec; cbn in Hd; lia|exact H2].
      - apply star_loop_nofuel; [intros t0; apply Hrec; exact Hd|apply H3]. }
    destruct (_ && pn && bd).
    + destruct (q0 =? cSLASH).
      * pose proof (Hrec None q1 t ltac:(cbn in Hd; lia)) as Hs.
        destruct (rec None q1 t); try exact Hbody; congruence.
      * exact Hbody.
    + exact Hbody.
Qed.

Theorem dowild_total : forall fuel flags prev p t,
  (List.length p < fuel)%nat -> dowild fuel flags prev p t <> WFuel.
Proof.
  induction fuel as [|f IH]; intros flags prev p t Hf; [lia|].
  cbn [dowild]. destruct p as [|pc0 p1]; [destruct t; discriminate|].
  cbn in Hf.
  destruct ((match t with [] => true | _ => false end) && negb (pc0 =? cSTAR)); [discriminate|].
  destruct (fold (fl_casefold flags) pc0 =? cBSL).
  { destruct p1 as [|e p2]; [discriminate|].
    destruct (negb (fold (fl_casefold flags) match t with [] => 0 | c :: _ => c end =? e)); [discriminate|].
    apply IH. cbn in Hf. lia. }
  destruct (fold (fl_casefold flags) pc0 =? cQM).
  { destruct (fl_pathname flags && _); [discriminate|]. apply IH. lia. }
  destruct (fold (fl_casefold flags) pc0 =? cSTAR).
  { apply star_case_nofuel; try discriminate.
    - intros pv p' t' Hl. apply IH. lia.
    - intros b; destruct b; discriminate. }
  destruct (fold (fl_casefold flags) pc0 =? cLB).
  { destruct (bracket_ok (fl_casefold flags)
               (fold (fl_casefold flags) match t with [] => 0 | c :: _ => c end) p1) as [A B].
    destruct (bracket _ _ p1) as [[| |m r] n] eqn:E; cbn in A; try discriminate; [congruence|].
    destruct (eqb m n || _); [discriminate|]. apply IH. specialize (B _ _ _ eq_refl). lia. }
  destruct (negb _); [discriminate|]. apply IH. lia.
Qed.

Corollary wildmatch_total p t flags : dowild (wm_fuel p) flags None p t <> WFuel.
Proof. apply dowild_total. unfold wm_fuel. lia. Qed.
