(* Properties/C32.v — Sparse checkout materialises exactly the selected directories.
   The statements; the lemmas they rest on are in Proofs/C32*.v. *)
From Coq Require Import List NArith Bool String.
From GoGit Require Import Base.Out Model.SparseCheckout Spec.SparseSpec Proofs.C32 Proofs.C32Porcelain.
Import ListNotations.
Local Open Scope N_scope.

(* Index.SkipUnless (after the repair "fix: match sparse-checkout directories by
   whole path components"): for ANY pattern list and entry list, an entry is
   left un-skipped exactly when its name is a selected directory itself or lies
   below one ("d/..."); names, order and data of the entries are untouched. *)
Theorem C32_exact : forall D es e,
  In e (skip_unless D es) -> (e_skip e = false <-> Selected D (e_name e)).
Proof. exact skip_unless_exact. Qed.
Print Assumptions C32_exact.

Theorem C32_names_kept : forall D es,
  map e_name (skip_unless D es) = map e_name es /\ map e_data (skip_unless D es) = map e_data es.
Proof. intros; split; [apply skip_unless_names|apply skip_unless_data]. Qed.
Print Assumptions C32_names_kept.

(* "inside" is by whole path components: the '/'-components of the directory
   (strings.Split) are a prefix of the components of the path *)
Theorem C32_components : forall d p, pat_match d p = true <-> ComponentPrefix d p.
Proof. exact pat_match_components. Qed.
Print Assumptions C32_components.

(* the full statement is FALSE for the condition the unchanged tree used
   (strings.HasPrefix(e.Name, pattern)): D = {a} also selected ab/y *)
Theorem C32_prefix_refuted :
  exists D es e, In e (skip_unless_old D es) /\ e_skip e = false /\ ~ Selected D (e_name e).
Proof. exact old_prefix_refuted. Qed.
Print Assumptions C32_prefix_refuted.

(* checkout / reset with sparse directories (flat model of worktree.go, see
   Model/SparseCheckout.v for what it covers) *)

(* after ANY successful Reset / Checkout with a non-empty directory list, in either mode,
   an index entry is un-skipped exactly when its path lies inside a selected directory *)
Theorem C32_flags : forall prev m t dirs sv s s',
  dirs <> [] -> reset_core prev m t dirs sv s = (SOk, s') ->
  forall e, In e (s_idx s') -> e_skip e = false <-> Selected dirs (e_name e).
Proof. exact reset_flags. Qed.
Print Assumptions C32_flags.

(* HardReset / forced checkout: every tracked entry is in the worktree iff it is not
   skip-worktree, present files hold the entry's blob, and files that are neither tracked
   nor deleted by the commit switch are left alone *)
Theorem C32_hard_worktree : forall prev t dirs sv s s',
  NoDup (map e_name (s_idx s)) -> NoDup (map fst t) ->
  reset_core prev Hard t dirs sv s = (SOk, s') ->
  NoDup (map e_name (s_idx s')) /\
  (forall e, In e (s_idx s') ->
     has (e_name e) (s_wt s') = negb (e_skip e) /\
     (e_skip e = false -> lookup (e_name e) (s_wt s') = Some (e_data e))) /\
  (forall n, ~ In n (map e_name (s_idx s')) -> (has n prev && negb (has n t))%bool = false ->
     lookup n (s_wt s') = lookup n (s_wt s)).
Proof. exact hard_materialises. Qed.
Print Assumptions C32_hard_worktree.

(* the full statement relative to the TARGET COMMIT — the worktree holds exactly the target's
   files inside the selected directories — holds when no entry is skip-worktree beforehand
   (first checkout after clone, or a fully populated worktree) ... *)
Theorem C32_target_exact_partial : forall s t dirs s',
  dirs <> [] -> NoDup (map e_name (s_idx s)) -> NoDup (map fst t) -> no_skip (s_idx s) = true ->
  step s (OCheckout true t dirs) = (SOk, s') ->
  forall n c, lookup n t = Some c ->
    (Selected dirs n -> lookup n (s_wt s') = Some c) /\ (~ Selected dirs n -> lookup n (s_wt s') = None).
Proof.
  intros s t dirs s' Hd Hi Ht Hns Hstep. cbn [step] in Hstep.
  exact (fresh_exact (s_head s) t dirs false (mkS t (s_idx s) (s_wt s)) s' Hd Hi Ht Hns Hstep).
Qed.
Print Assumptions C32_target_exact_partial.

(* ... and is FALSE of the non-forced path (MergeReset) once the index is populated: switching the
   selection from {a} to {b} on the same commit un-skips b/Z but never writes it *)
Theorem C32_merge_switch_refuted :
  let s := fold_left (fun s o => snd (step s o)) merge_switch_witness (mkS tA [] []) in
  exists e, In e (s_idx s) /\ e_skip e = false /\ Selected [[98]] (e_name e) /\ lookup (e_name e) (s_wt s) = None.
Proof. exact merge_switch_refuted. Qed.
Print Assumptions C32_merge_switch_refuted.

(* non-vacuity *)
Example C32_ex_select :
  map e_skip (skip_unless [[97]; [98;47;99]]
     [mkE [97;47;120] [] true; mkE [97;98;47;121] [] false; mkE [97] [] true;
      mkE [98;47;99;47;100] [] true; mkE [98;47;99;100] [] false])
  = [false; true; false; false; true].
Proof. vm_compute. reflexivity. Qed.

Example C32_ex_checkout :
  let t := [([97;47;88], [1]); ([97;98;47;89], [2]); ([98;47;90], [3])] in
  match step (mkS [] [] [([85], [9])]) (OCheckout true t [[97]]) with
  | (SOk, s') => map fst (sort_by fst (s_wt s')) = [[85]; [97;47;88]] /\ no_skip [] = true
  | _ => False
  end.
Proof. vm_compute. split; reflexivity. Qed.
