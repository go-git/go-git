(* Properties/C04.v — Trees are decoded like git and only fsck-clean trees are written.
   Each statement is proved from the lemmas of Proofs/C04*.v.
   G = Model/TreeObj.v (go-git, after the canonicalTreeMode fix recorded in
   findings/C04.json; leaves regenerated into Gen/C04.v);
   S = Spec/GitTree.v (git 2.39 ls-tree / fsck --strict, validated against the binary). *)
From Coq Require Import List NArith ZArith Bool String Lia ZifyBool ZifyNat ZifyN.
From GoGit Require Import Base.Out Gen.C04 Model.TreeObj Spec.GitTree Proofs.C04 Proofs.C04Utf8 Proofs.C04Hfs Proofs.C04Ntfs Proofs.C04Dot.
Import ListNotations.
Local Open Scope N_scope.

(* 1. Decoding.  For EVERY byte string: whenever go-git decodes it, git ls-tree
   lists exactly the same entries (names, canonical modes, ids, order). *)
Theorem C04_decode_git : forall b es, decode 20 b = inr es -> git_ls_tree 20 b = inr es.
Proof.
  intros b es H. apply decode_git_parse in H as (rs & P & _ & ->). now rewrite ls_tree_parse, P.
Qed.
Print Assumptions C04_decode_git.

(* ... and conversely: whenever git lists a tree whose mode fields have at most
   7 digits (boolean guard on git's own parse), go-git decodes it to the same
   entries.  Together: on such trees the two readers are the same partial function. *)
Theorem C04_git_decode : forall b es,
  match git_parse 20 b with inr rs => short_modes rs | inl _ => true end = true ->
  git_ls_tree 20 b = inr es -> decode 20 b = inr es.
Proof.
  intros b es. rewrite ls_tree_parse. destruct (git_parse 20 b) as [|rs] eqn:P; [discriminate|].
  intros S [= <-]. now apply git_parse_decode.
Qed.
Print Assumptions C04_git_decode.

(* ... and the 7-digit limit of filemode.FromBytes is the ONLY difference between
   the two readers: whenever git lists a tree, go-git decodes it if and only if
   no mode field has more than 7 digits (then to the same entries, by the two
   theorems above; otherwise Tree.Decode fails: known finding mode-over-7-digits) *)
Theorem C04_git_decode_exact : forall b rs, git_parse 20 b = inr rs ->
  ((exists es, decode 20 b = inr es) <-> short_modes rs = true).
Proof.
  intros b rs GP. split.
  - intros [es D]. apply decode_git_parse in D as (rs' & P & Hwf & _). rewrite GP in P. injection P as <-.
    now apply wfraw_short.
  - intros S. eexists. exact (git_parse_decode b rs GP S).
Qed.
Print Assumptions C04_git_decode_exact.

(* mode canonicalisation is git's canon_mode, for every 32-bit (indeed every) mode *)
Theorem C04_canon_is_git : forall m, treeobj_canonicalTreeMode m = canon_mode m.
Proof. exact canon_same. Qed.
Print Assumptions C04_canon_is_git.

(* the converse fails only through the 7-digit limit of filemode.FromBytes
   (known finding mode-over-7-digits): git lists this tree, go-git refuses it *)
Definition w_long_mode : bytes := [48; 48; 49; 48; 48; 54; 52; 52; 32; 97; 0] ++ repeat 7 20.
Theorem C04_decode_long_mode_refuted :
  git_ls_tree 20 w_long_mode = inr [mkT 33188 [97] (repeat 7 20)] /\ decode 20 w_long_mode = inl DMalformed.
Proof. vm_compute. split; reflexivity. Qed.
Print Assumptions C04_decode_long_mode_refuted.

(* 2. Encoding round trip: what Encode writes, Decode reads back (the
   deprecated mode 0100664 reads back as 0100644, as in git) *)
Theorem C04_enc_dec : forall es b,
  Forall (fun e => List.length (t_hash e) = 20%nat) es ->
  encode es = Some b -> decode 20 b = inr (map canon_entry es).
Proof.
  intros es b Hlen Henc. rewrite (git_parse_decode b (map raw_of es)).
  - now rewrite map_map.
  - unfold git_parse. now rewrite (encode_git_parse es b Hlen Henc).
  - apply wfraw_short, (encode_raw es b Hlen Henc).
Qed.
Print Assumptions C04_enc_dec.

(* 3. The name detectors.  go-git's pathutil.IsHFSDot is git's is_hfs_dot_generic
   (utf8.c: pick_one_utf8_char, next_hfs_char with its own list of 16 ignored
   code points — Spec/GitTree.v shares nothing with the model here) on every
   well-formed UTF-8 byte string without NUL and '/', for EVERY needle.
   wf_utf8 = git's own notion: pick_one_utf8_char never reports an invalid
   sequence (overlongs, surrogates, > U+10FFFF, U+FFFE/U+FFFF rejected). *)
Theorem C04_hfs_dot_eq_git : forall name needle,
  is_bytes name = true -> utf8_guard name = true -> tlacks 0 name = true -> tlacks 47 name = true ->
  is_hfs_dot name needle = git_is_hfs_dot name needle.
Proof. exact hfs_dot_eq_git. Qed.
Print Assumptions C04_hfs_dot_eq_git.

(* utf8_guard name = wf_utf8 name || "the first non-ignored character is not '.'":
   well-formedness is only asked of names that start like a dot-file *)
Theorem C04_wf_utf8_guard : forall name, wf_utf8 name = true -> utf8_guard name = true.
Proof. intros name. unfold utf8_guard. now intros ->. Qed.
Print Assumptions C04_wf_utf8_guard.

(* without well-formedness only one inclusion survives: what go-git calls
   .<needle> git does too *)
Theorem C04_hfs_dot_sound : forall name needle,
  is_bytes name = true -> is_hfs_dot name needle = true -> git_is_hfs_dot name needle = true.
Proof. intros name needle HB. exact (proj1 (hfs_dot_git_cmp name needle HB)). Qed.
Print Assumptions C04_hfs_dot_sound.

(* ... and the other inclusion fails exactly on a malformed tail, which git reads
   as the end of the string (known finding hfs-dotgit-malformed-tail):
   ".git\xff" and ".git" + EF BF BE (U+FFFE) *)
Theorem C04_hfs_dot_malformed_refuted :
  let ff := [46; 103; 105; 116; 255] in
  let fffe := [46; 103; 105; 116; 239; 191; 190] in
  (wf_utf8 ff = false /\ is_hfs_dot ff N_git = false /\ git_is_hfs_dot ff N_git = true) /\
  (wf_utf8 fffe = false /\ is_hfs_dot fffe N_git = false /\ git_is_hfs_dot fffe N_git = true).
Proof. vm_compute. repeat split. Qed.
Print Assumptions C04_hfs_dot_malformed_refuted.

(* IsNTFSDotGit is git's is_ntfs_dotgit on a single path component (git's loop
   also stops at the two separators, go-git splits the name there beforehand) *)
Theorem C04_ntfs_dotgit_eq_git : forall p,
  tlacks 47 p = true -> tlacks 92 p = true -> is_ntfs_dotgit p = git_is_ntfs_dotgit p.
Proof. exact ntfs_dotgit_eq_git. Qed.
Print Assumptions C04_ntfs_dotgit_eq_git.

(* IsNTFSDot is git's is_ntfs_dot_generic (path.c, transcribed index-wise over a
   NUL-terminated string: strncasecmp, the only_spaces_and_periods loop, the
   fall-back short-name loop with saw_tilde), for every NUL-free byte string and
   every needle pair of the shape of git's four (ASCII name of >= 6 bytes,
   prefix of >= 6 bytes, neither starting with a period) *)
Theorem C04_ntfs_dot_eq_git : forall name dotgit short,
  is_bytes name = true -> tlacks 0 name = true -> ntfs_needles_ok dotgit short = true ->
  is_ntfs_dot name dotgit short = git_is_ntfs_dot_generic name dotgit short.
Proof. exact ntfs_dot_eq. Qed.
Print Assumptions C04_ntfs_dot_eq_git.

Example C04_needles_ok :
  ntfs_needles_ok N_gitmodules S_gi7eba = true /\ ntfs_needles_ok N_gitattributes S_gi7d29 = true /\
  ntfs_needles_ok N_gitignore S_gi250a = true /\ ntfs_needles_ok N_mailmap S_maba30 = true.
Proof. exact needles_ok_all. Qed.

(* whole names.  ValidTreePath splits the name at '/' and '\' and tests every
   field; fsck_tree tests the whole name with is_hfs_dotgit and is_ntfs_dotgit,
   and is_ntfs_dotgit again on every suffix that follows a backslash.  Whatever
   ValidTreePath accepts, git does not report as hasDotgit. *)
Theorem C04_has_dotgit_refused : forall n,
  is_bytes n = true -> utf8_guard n = true -> tlacks 0 n = true -> tlacks 47 n = true ->
  valid_tree_path n = true -> git_has_dotgit n = false.
Proof.
  intros n HB HW H0 H47 V. pose proof (valid_parts n V) as VP.
  unfold git_has_dotgit. rewrite <- (hfs_dot_eq_git n N_git HB HW H0 H47).
  destruct (is_hfs_dot n N_git) eqn:HF.
  { exfalso. destruct (hfs_dot_nosep n N_git eq_refl HF) as [N NE].
    assert (SE : seg n <> []) by now rewrite seg_nosep.
    destruct (parts_seg n SE) as [tl P]. rewrite (seg_nosep n N) in P.
    assert (B : bad_part n = false) by (apply VP; rewrite P; now left).
    rewrite (bad_hfs n HF) in B. discriminate. }
  destruct (git_is_ntfs_dotgit n) eqn:NT.
  { exfalso. destruct (git_ntfs_bad_part n NT) as (p & Hp & B). rewrite (VP p Hp) in B. discriminate. }
  cbn [orb]. destruct (existsb git_is_ntfs_dotgit (after_backslashes n)) eqn:EX; [|reflexivity].
  exfalso. apply existsb_exists in EX as (r & Hr & G). destruct (after_bs_inv n r Hr) as [pre ->].
  destruct (git_ntfs_bad_part r G) as (p & Hp & B).
  rewrite (VP p) in B; [discriminate|]. apply parts_after_sep; [reflexivity|exact Hp].
Qed.
Print Assumptions C04_has_dotgit_refused.

(* git's .gitmodules verdict on a name, in go-git's terms: the two whole-name
   tests of Validate plus the one it does not make (NTFS variants after a backslash) *)
Theorem C04_dotgitmodules_eq : forall n,
  is_bytes n = true -> utf8_guard n = true -> tlacks 0 n = true -> tlacks 47 n = true ->
  git_is_dotgitmodules n =
  is_hfs_dot n N_gitmodules || is_ntfs_dot n N_gitmodules S_gi7eba || ntfs_gitmodules_after_backslash n.
Proof. exact dotgitmodules_eq. Qed.
Print Assumptions C04_dotgitmodules_eq.

Theorem C04_dotgitmodules_symlink : forall n,
  is_bytes n = true -> utf8_guard n = true -> tlacks 0 n = true -> tlacks 47 n = true -> tlacks 92 n = true ->
  git_is_dotgitmodules n = true -> dot_symlink_name n = true.
Proof.
  intros n HB HW H0 H47 H92. rewrite (dotgitmodules_eq n HB HW H0 H47).
  unfold ntfs_gitmodules_after_backslash. rewrite (no_backslash_after n H92). cbn [existsb]. rewrite orb_false_r.
  intros H. unfold dot_symlink_name. rewrite <- !orb_assoc in *. apply orb_true_iff in H as [->| ->]; [reflexivity|].
  now rewrite orb_true_r.
Qed.
Print Assumptions C04_dotgitmodules_symlink.

(* 4. Written trees and git fsck --strict.  Everything Encode accepts is free of
   the structural errors, with no condition on the names: nullSha1, fullPathname,
   hasDot, hasDotdot, zeroPaddedFilemode, duplicateEntries (incl. the d/f name
   stack), treeNotSorted, and git can parse it (no badTree) *)
Theorem C04_written_clean_structural : forall es b,
  Forall (fun e => List.length (t_hash e) = 20%nat) es ->
  encode es = Some b ->
  forallb (fun m => negb (structural m)) (git_fsck_tree 20 b) = true.
Proof.
  intros es b Hlen Henc. rewrite (written_fsck_shape es b Hlen Henc).
  now destruct (existsb _ _), (existsb _ _).
Qed.
Print Assumptions C04_written_clean_structural.

(* ... and fsck --strict reports NOTHING when every name that starts like a
   dot-file is well-formed UTF-8 (utf8_guard) and no symlink has an NTFS variant
   of .gitmodules after a backslash (name_guard, boolean).  Both conditions are
   needed: the witnesses below are written trees that fail exactly one of them. *)
Theorem C04_written_clean_partial : forall es b,
  Forall (fun e => List.length (t_hash e) = 20%nat) es ->
  encode es = Some b -> forallb name_guard es = true ->
  git_fsck_tree 20 b = [].
Proof.
  intros es b Hlen Henc G. rewrite (written_fsck_shape es b Hlen Henc).
  apply encode_inv in Henc as [V _].
  pose proof (validate_all_ok es V) as Hok. pose proof (validate_all_link es V) as Hlk.
  rewrite forallb_forall in G. rewrite Forall_forall in Hok, Hlk.
  assert (facts : forall e, In e es ->
            git_has_dotgit (t_name e) = false /\
            ((Z.land (t_mode e) 61440 =? 40960)%Z && git_is_dotgitmodules (t_name e)) = false).
  { intros e He. destruct (Hok e He) as (_ & N0 & N47 & M & _ & VP). specialize (Hlk e He). specialize (G e He).
    unfold name_guard in G. apply andb_true_iff in G as [G G3]. apply andb_true_iff in G as [G1 G2].
    split; [now apply C04_has_dotgit_refused|].
    rewrite (symlink_mode _ (valid_mode_in _ M)). unfold link_ok in Hlk.
    destruct (t_mode e =? fmode_Symlink)%Z; [|reflexivity]. cbn [andb negb orb] in *.
    rewrite (dotgitmodules_eq _ G1 G2 N0 N47). apply negb_true_iff in G3. rewrite G3, orb_false_r.
    unfold dot_symlink_name in Hlk. rewrite <- !orb_assoc in Hlk.
    apply orb_false_iff in Hlk as [L1 Hlk]. apply orb_false_iff in Hlk as [L2 _]. now rewrite L1, L2. }
  rewrite (existsb_map_false raw_of (fun e => git_has_dotgit (r_name e))) by (intros e He; apply (facts e He)).
  rewrite (existsb_map_false raw_of (fun e => (Z.land (r_mode e) 61440 =? 40960)%Z && git_is_dotgitmodules (r_name e)))
    by (intros e He; apply (facts e He)).
  reflexivity.
Qed.
Print Assumptions C04_written_clean_partial.

(* the full statement "fsck reports nothing" is false of the code as it is
   (known finding hfs-dotgit-malformed-tail): a malformed tail after .git *)
Definition w_dotgit_ff : list tentry := [mkT 33188 [46; 103; 105; 116; 255] (repeat 7 20)].
Theorem C04_written_clean_refuted :
  forallb name_guard w_dotgit_ff = false /\
  exists b, encode w_dotgit_ff = Some b /\ git_fsck_tree 20 b = [MHasDotgit].
Proof. split; [vm_compute; reflexivity|]. eexists. split; [vm_compute; reflexivity|]. vm_compute. reflexivity. Qed.
Print Assumptions C04_written_clean_refuted.

(* ... the same with .gitmodules for a symlink *)
Definition w_gitmodules_ff : list tentry :=
  [mkT 40960 [46; 103; 105; 116; 109; 111; 100; 117; 108; 101; 115; 255] (repeat 7 20)].
Theorem C04_written_gitmodules_malformed_refuted :
  forallb name_guard w_gitmodules_ff = false /\
  exists b, encode w_gitmodules_ff = Some b /\ git_fsck_tree 20 b = [MGitmodulesSymlink].
Proof. split; [vm_compute; reflexivity|]. eexists. split; [vm_compute; reflexivity|]. vm_compute. reflexivity. Qed.
Print Assumptions C04_written_gitmodules_malformed_refuted.

(* ... a well-formed name that fails the second half of name_guard (known finding
   gitmodules-symlink-after-backslash) *)
Definition w_gitmodules_bs : list tentry :=
  [mkT 40960 [120; 92; 46; 103; 105; 116; 109; 111; 100; 117; 108; 101; 115] (repeat 7 20)].
Theorem C04_written_gitmodules_refuted :
  forallb name_guard w_gitmodules_bs = false /\
  exists b, encode w_gitmodules_bs = Some b /\ git_fsck_tree 20 b = [MGitmodulesSymlink].
Proof. split; [vm_compute; reflexivity|]. eexists. split; [vm_compute; reflexivity|]. vm_compute. reflexivity. Qed.
Print Assumptions C04_written_gitmodules_refuted.

(* go-git's adjacent sort test implies git's verify_ordered is satisfied *)
Theorem C04_sort_is_git_order : forall a b st,
  entry_ok a -> entry_ok b -> bgt (sort_name a) (sort_name b) = false ->
  fst (verify_ordered (t_mode a) (t_name a) (t_mode b) (t_name b) st) <> Unordered.
Proof.
  intros a b st Ha Hb H. pose proof (verify_ordered_sorted a b st Ha Hb H) as V.
  destruct (verify_ordered (t_mode a) (t_name a) (t_mode b) (t_name b) st). apply V.
Qed.
Print Assumptions C04_sort_is_git_order.

(* 5. Never refuses: any duplicate-free set of entries that pass the per-entry
   rules is accepted once sorted with TreeEntrySorter — no order, no pair of
   names (file/directory prefixes included) makes Validate refuse *)
Theorem C04_never_refuses : forall es,
  Forall (fun e => entry_valid e = true) es -> NoDup (map t_name es) ->
  exists b, encode (sort_entries es) = Some b.
Proof.
  intros es Hv Hn. unfold encode. rewrite (never_refuses es Hv Hn). eexists. reflexivity.
Qed.
Print Assumptions C04_never_refuses.

(* ... where the per-entry rules are stricter than git's (known findings
   name-control-char, name-backslash, dotfile-symlink): fsck-clean single-entry
   trees whose entry go-git refuses *)
Theorem C04_never_refuses_refuted :
  let tab := mkT 33188 [97; 9; 98] (repeat 7 20) in
  let bs := mkT 33188 [97; 92; 46; 46; 92; 98] (repeat 7 20) in
  let ign := mkT 40960 [46; 103; 105; 116; 105; 103; 110; 111; 114; 101] (repeat 7 20) in
  forallb (fun e => negb (entry_valid e) &&
                    match fsck_entries [raw_of e] with [] => true | _ => false end) [tab; bs; ign] = true.
Proof. vm_compute. reflexivity. Qed.
Print Assumptions C04_never_refuses_refuted.

(* non-vacuity: a realistic set (file/dir prefix clash names) passes the guards,
   sorts into git order and encodes *)
Example C04_example :
  let es := [mkT 33188 [102; 111; 111; 46; 98] (repeat 1 20); mkT 16384 [102; 111; 111] (repeat 2 20);
             mkT 33261 [102; 111; 111; 45] (repeat 3 20); mkT 40960 [97] (repeat 4 20)] in
  forallb entry_valid es = true /\
  map t_name (sort_entries es) = [[97]; [102; 111; 111; 45]; [102; 111; 111; 46; 98]; [102; 111; 111]] /\
  match encode (sort_entries es) with Some b => git_fsck_tree 20 b = [] | None => False end.
Proof. vm_compute. repeat split. Qed.

(* non-vacuity of the guard: multi-byte UTF-8 of every length, HFS-ignorable code
   points inside ordinary names, a symlink with a backslash, a regular file named
   like an NTFS .gitmodules variant after a backslash *)
Example C04_guard_example :
  let es := sort_entries
            [mkT 33188 [195; 169] (repeat 1 20);                                   (* U+00E9 *)
             mkT 33188 [97; 226; 128; 140; 98] (repeat 2 20);                      (* a U+200C b *)
             mkT 33188 [240; 159; 152; 128; 46; 103; 105; 116] (repeat 3 20);      (* U+1F600 .git *)
             mkT 40960 [120; 92; 121] (repeat 4 20);                               (* symlink x\y *)
             mkT 33188 [99; 97; 102; 233; 46; 103; 105; 116; 255] (repeat 6 20);   (* Latin-1 "caf E9 .git FF": not UTF-8 *)
             mkT 33188 [120; 92; 103; 105; 55; 101; 98; 97; 126; 49] (repeat 5 20) (* file x\gi7eba~1 *)] in
  forallb name_guard es = true /\
  match encode es with Some b => git_fsck_tree 20 b = [] | None => False end.
Proof. vm_compute. split; reflexivity. Qed.
