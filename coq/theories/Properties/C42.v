(* Properties/C42.v — Ancestry and merge-base queries agree with git.
   The statements; the lemmas they rest on are in Proofs/C42.v (IsAncestor, isFastForward, via the
   walker theorem of Proofs/Worklist.v), Proofs/C42Shallow.v (isFastForward with
   shallow commits), Proofs/C42Indep.v (Independents: inner limited walk + outer
   candidate loop) and Proofs/C42Top.v (Independents, MergeBase).

   g ranges over ALL finite commit graphs (topologically numbered; parents
   present, except in C42_ff_shallow) and ALL committer timestamps — including
   children older than their parents: the theorems do not mention [ctime] at
   all.  The shared [seen] set and the date-ordered candidate scan do NOT break
   MergeBase / Independents under skewed clocks (every set in [seen] is the
   full history of a walked candidate, so a candidate hidden behind a seen
   commit was already removed), hence full theorems and no `_refuted`. *)
From Coq Require Import List Arith ZArith Bool Permutation.
From GoGit Require Import Base.Out Spec.Dag Model.CommitWalk Model.MergeBase
  Proofs.Worklist Proofs.C42 Proofs.C42Indep Proofs.C42Top Proofs.C42Shallow.
Import ListNotations.

(* the specification side: [is_anc] (fuel = node count) decides reachability *)
Theorem C42_spec_reach : forall g a c, dag_ok g = true -> (is_anc g a c = true <-> reach g c a).
Proof. exact is_anc_spec. Qed.
Print Assumptions C42_spec_reach.

(* Commit.IsAncestor = git merge-base --is-ancestor *)
Theorem C42_is_ancestor : forall g (a b : node),
  dag_ok g = true -> dag_closed g = true -> b < nnodes g ->
  is_ancestor g a b = BOk (is_anc g a b).
Proof. exact is_ancestor_spec. Qed.
Print Assumptions C42_is_ancestor.

(* Commit.MergeBase = git merge-base --all: exactly the common ancestors that are not a proper
   ancestor of another common ancestor, each once *)
Theorem C42_merge_base : forall g (a b : node),
  dag_ok g = true -> dag_closed g = true -> a < nnodes g -> b < nnodes g ->
  exists l, merge_base g a b = MOk l /\ NoDup l /\ forall x, In x l <-> is_merge_base g a b x.
Proof. exact merge_base_correct. Qed.
Print Assumptions C42_merge_base.

Theorem C42_merge_base_spec : forall g (a b : node),
  dag_ok g = true -> dag_closed g = true -> a < nnodes g -> b < nnodes g ->
  exists l, merge_base g a b = MOk l /\ Permutation l (merge_bases g a b).
Proof. exact merge_base_perm. Qed.
Print Assumptions C42_merge_base_spec.

(* Independents = git merge-base --independent: the commits of the input not reachable from another one *)
Theorem C42_independents : forall g X,
  dag_ok g = true -> dag_closed g = true -> (forall x, In x X -> x < nnodes g) ->
  exists l, independents g X = MOk l /\ NoDup l /\ forall x, In x l <-> undominated g X x.
Proof. exact independents_correct. Qed.
Print Assumptions C42_independents.

Theorem C42_independents_spec : forall g X,
  dag_ok g = true -> dag_closed g = true -> (forall x, In x X -> x < nnodes g) ->
  exists l, independents g X = MOk l /\ Permutation l (independent g X).
Proof. exact independents_perm. Qed.
Print Assumptions C42_independents_spec.

(* isFastForward on a complete (non-shallow) history = old is an ancestor of new *)
Theorem C42_ff : forall g (old new : node),
  dag_ok g = true -> dag_closed g = true -> new < nnodes g ->
  is_fast_forward g old new [] = BOk (is_anc g old new).
Proof. exact is_fast_forward_spec. Qed.
Print Assumptions C42_ff.

(* isFastForward on a shallow history (parents of shallow commits absent from the store, every
   absent parent belonging to a commit listed as shallow): the parents of the shallow commits are
   ignored; the answer is true exactly when old is reached from new through the remaining history,
   or some shallow commit is (the documented relaxation: ancestry cannot be disproved locally) *)
Theorem C42_ff_shallow : forall g (old new : node) (shallows : list node),
  new < nnodes g ->
  (forall c p : node, c < nnodes g -> In p (parents g c) -> nnodes g <= p -> In c shallows) ->
  let I := ff_ignore g shallows in
  exists b, is_fast_forward g old new shallows = BOk b /\
    (b = true <-> ra (succ_I g I) I new old \/ exists s, In s shallows /\ ra (succ_I g I) I new s).
Proof. exact is_fast_forward_shallow. Qed.
Print Assumptions C42_ff_shallow.

(* non-vacuity: a criss-cross history whose clocks run backwards (children older than parents) *)
Example C42_criss_cross_skewed :
  let g := mkDag [[]; [0]; [0]; [1; 2]; [2; 1]; [3]; [4]] [60; 50; 40; 30; 20; 10; 0]%Z in
  dag_ok g = true /\ dag_closed g = true /\ dag_monotone g = false /\
  merge_base g 5 6 = MOk [1; 2] /\ merge_bases g 5 6 = [1; 2] /\
  independents g [0; 1; 5; 3; 6] = MOk [5; 6] /\ independent g [0; 1; 5; 3; 6] = [5; 6] /\
  is_ancestor g 1 6 = BOk true /\ is_ancestor g 3 6 = BOk false /\
  is_fast_forward g 2 5 [] = BOk true.
Proof. vm_compute. repeat split. Qed.
