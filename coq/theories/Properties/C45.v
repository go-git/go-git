(* Properties/C45.v — Unified patches apply and reproduce the target: FULL on hunk generation for every
   context size >= 1; for context size 0 the faithful model REFUTES the statement (replacement hunks get
   a new-side start one too small — known finding ctx0-replace-newpos) and the strongest true statement
   is proved as _partial.  The statements; the lemmas they rest on are in Proofs/C45_{apply,gen,stats}.v.

   Model (Model/Unified.v): hunksGenerator + hunk.writeTo + file headers + getFileStatsFromFilePatches.
   The line-diff chunk list is universally quantified; its contract: the chunk list IS the pair of
   versions (old = concat of Equal+Delete chunks, new = concat of Equal+Add chunks — by definition of
   old_lines/new_lines in Spec/HunkApply.v) and it is normal: no empty chunk, adjacent chunks of different type
   (boolean guard [normal]; checked on every go-diff answer the check sees).
   Spec (Spec/HunkApply.v): strict-position application of hunks (positions on both sides, every
   context/deleted line compared, header counts checked). *)
From Coq Require Import List NArith ZArith Bool Arith.
From GoGit Require Import Base.Out Gen.C45 Model.Unified Spec.HunkApply Proofs.C45_apply Proofs.C45_gen Proofs.C45_stats.
Import ListNotations.

(* the hunks generated for ANY normal chunk list and ANY context size >= 1, applied strictly to the old
   lines, give exactly the new lines *)
Theorem C45_applies : forall ctx cs,
  (1 <= ctx)%nat -> normal cs = true ->
  strict_apply (generate ctx cs) (old_lines cs) = Some (new_lines cs).
Proof. intros ctx cs Hc Hn. apply generate_applies; [exact Hn|left; intros ->; inversion Hc]. Qed.
Print Assumptions C45_applies.

(* Patch.Encode uses DefaultContextLines (regenerated from the source): it is in the range of C45_applies *)
Theorem C45_default_context : forall cs,
  normal cs = true ->
  strict_apply (generate (Z.to_nat diff_DefaultContextLines) cs) (old_lines cs) = Some (new_lines cs).
Proof. intros cs Hn. apply C45_applies; [vm_compute; repeat constructor | exact Hn]. Qed.
Print Assumptions C45_default_context.

(* the line lists are the two versions: their concatenations are utils/diff Src and Dst of the chunks *)
Theorem C45_lines_are_the_versions : forall cs,
  concat (old_lines cs) = src_bytes cs /\ concat (new_lines cs) = dst_bytes cs.
Proof.
  intros cs. unfold old_lines, new_lines, src_bytes, dst_bytes.
  split; induction cs as [|[t s] r IH]; cbn [flat_map fst snd]; try reflexivity;
    rewrite concat_app, IH; destruct t; cbn [concat app]; rewrite ?split_lines_concat; reflexivity.
Qed.
Print Assumptions C45_lines_are_the_versions.

(* context size 0 (needs git apply --unidiff-zero): the full statement is FALSE of the code as it is *)
Definition ctx0_witness : list chunk := [(Equal, [97; 10]); (Delete, [98; 10]); (Add, [99; 10]); (Equal, [100; 10])]%N.
Theorem C45_applies_ctx0_refuted :
  normal ctx0_witness = true /\
  strict_apply (generate 0 ctx0_witness) (old_lines ctx0_witness) <> Some (new_lines ctx0_witness) /\
  map (fun h => (h_from h, h_fromc h, h_to h, h_toc h)) (generate 0 ctx0_witness) = [(2, 1, 1, 1)]%Z.
Proof. vm_compute. repeat split; discriminate. Qed.
Print Assumptions C45_applies_ctx0_refuted.

(* ... and holds whenever no hunk replaces lines (no Delete chunk next to an Add chunk) *)
Theorem C45_applies_ctx0_partial : forall cs,
  normal cs = true -> no_replace cs = true ->
  strict_apply (generate 0 cs) (old_lines cs) = Some (new_lines cs).
Proof. intros cs Hn Hr. apply generate_applies; auto. Qed.
Print Assumptions C45_applies_ctx0_partial.

(* the ranges printed in the hunk headers equal the number of old-side / new-side lines of the body *)
Theorem C45_counts : forall ctx cs,
  normal cs = true -> (ctx <> 0%nat \/ no_replace cs = true) ->
  Forall (fun h => h_fromc h = Z.of_nat (length (oldside (h_ops h))) /\
                   h_toc h = Z.of_nat (length (newside (h_ops h)))) (generate ctx cs).
Proof. intros ctx cs Hn Hc. eapply strict_apply_counts. apply generate_applies; eauto. Qed.
Print Assumptions C45_counts.

(* every added / deleted line of the chunk list is exactly one '+' / '-' line of the hunks, in order
   (ALL chunk lists, ALL context sizes) ... *)
Theorem C45_changes_preserved : forall ctx cs,
  changes (flat_map h_ops (generate ctx cs)) = flat_map chunk_changes cs.
Proof. exact generate_changes. Qed.
Print Assumptions C45_changes_preserved.

(* ... so the per-file statistics (additions, deletions) are the numbers of '+' and '-' lines of the patch *)
Theorem C45_numstat : forall ctx cs,
  stat_of Add cs = count_op Add (flat_map h_ops (generate ctx cs)) /\
  stat_of Delete cs = count_op Delete (flat_map h_ops (generate ctx cs)).
Proof. intros ctx cs. split; apply stats_count_patch_lines; discriminate. Qed.
Print Assumptions C45_numstat.

(* non-vacuity *)
Local Open Scope N_scope.
Definition L (n : N) : bytes := [64 + n; 10].
Definition ex_chunks : list chunk :=
  [(Equal, L 1 ++ L 2 ++ L 3 ++ L 4 ++ L 5); (Delete, L 6); (Add, L 7 ++ L 8);
   (Equal, L 9 ++ L 10 ++ L 11 ++ L 12 ++ L 13 ++ L 14 ++ L 15 ++ L 16); (Add, [81])].
Example C45_guard_holds : normal ex_chunks = true.
Proof. vm_compute. reflexivity. Qed.
Example C45_example_headers :
  map (fun h => (h_from h, h_fromc h, h_to h, h_toc h)) (generate 3 ex_chunks) = [(3, 7, 3, 8); (12, 3, 13, 4)]%Z.
Proof. vm_compute. reflexivity. Qed.
Example C45_example_applies :
  strict_apply (generate 3 ex_chunks) (old_lines ex_chunks) = Some (new_lines ex_chunks).
Proof. vm_compute. reflexivity. Qed.
(* the guard matters: an abnormal stream (two Delete chunks at the start) gets a wrong new-side start *)
Example C45_abnormal_fails :
  let cs := [(Delete, L 1); (Delete, L 2); (Equal, L 3)] in
  normal cs = false /\ strict_apply (generate 3 cs) (old_lines cs) = None.
Proof. vm_compute. split; reflexivity. Qed.
(* text of a hunk "@@ -2 +1,0 @@ a / -b / \ No newline at end of file" for old = "a\nb", new = "a\n" *)
Example C45_example_text :
  flat_map write_hunk (generate 0 [(Equal, [97; 10]); (Delete, [98])])
  = [64; 64; 32; 45; 50; 32; 43; 49; 44; 48; 32; 64; 64; 32; 97; 10; 45; 98; 10; 92; 32; 78; 111; 32; 110; 101; 119; 108; 105; 110; 101; 32; 97; 116; 32; 101; 110; 100; 32; 111; 102; 32; 102; 105; 108; 101; 10].
Proof. vm_compute. reflexivity. Qed.
