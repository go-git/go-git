(* Properties/C29Ops.v — A refused porcelain operation changes nothing:
   Restore, Add, Commit, Merge, Pull (the part of C29 that Properties/C29.v,
   Checkout and Reset, does not cover).  The lemmas are in Proofs/C29Ops.v and
   Proofs/C29OpsFault.v; refutations are by the witnesses given here.  Model: Model/PorcelainOps.v — worktree.go Restore,
   worktree_status.go Add / AddWithOptions, worktree_commit.go Commit,
   repository.go Merge, worktree.go PullContext, with every error exit the code
   has on flattened, directory/file-conflict-free states.

   The full statement, for every operation op of the model:
       xstep op s = (Some e, s') -> observable s' = observable s
   where observable = (HEAD, every reference outside refs/remotes/, index,
   worktree files).  It holds for Restore, Add and Merge with s' = s; it is
   REFUTED for Commit{All} (C29_commit_atomic_refuted) and for Pull on a HEAD that
   names something that is no branch (C29_pull_atomic_refuted), both replayed on
   the real code, and proved under the boolean guards that exclude exactly those
   shapes (C29_commit_atomic_partial, C29_pull_atomic_partial).  Pull is modelled
   in the order of the repaired code ("fix: decide the unstaged-changes refusal of
   Pull before the branch is moved"); the order before the repair refutes the
   statement on an ordinary dirty worktree (C29_pull_unrepaired_refuted). *)
From Coq Require Import List NArith ZArith Bool.
From GoGit Require Import Base.Out Model.Porcelain Model.PorcelainOps Proofs.PorcelainMaps Proofs.C29Ops Proofs.C29OpsFault.
Import ListNotations.

(* Restore (staged / staged+worktree, any path list): every error exit — no
   paths, worktree-only, unborn HEAD, dangling HEAD, HEAD naming no branch —
   leaves the WHOLE state as it was; in particular there is no error exit after
   the first store (the FindEntry failure of checkoutChange is unreachable). *)
Theorem C29_restore_atomic : forall staged worktree files s e s',
  restore staged worktree files s = (Some e, s') -> s' = s.
Proof. exact restore_err_unchanged. Qed.
Print Assumptions C29_restore_atomic.

(* Add(path) for a file, a directory or "." (= AddWithOptions{All}): a failing
   name (index.ErrEntryNotFound) or a dangling HEAD leaves the WHOLE state as it
   was — the in-memory index is stored only when every name succeeded *)
Theorem C29_add_atomic : forall p s e s', add_path p s = (Some e, s') -> s' = s.
Proof. intros p s e s' H. exact (add_path_spec _ _ _ _ H). Qed.
Print Assumptions C29_add_atomic.

(* Merge (fast-forward only): unsupported strategy, unborn HEAD, unknown
   target, not a fast-forward — nothing is written before the last test *)
Theorem C29_merge_atomic : forall target ff s e s', merge target ff s = (Some e, s') -> s' = s.
Proof. intros target ff s e s' H. exact (merge_spec _ _ _ _ _ H). Qed.
Print Assumptions C29_merge_atomic.

(* Commit without All: option validation, missing author, empty commit (both
   tests), Amend on an unborn or dangling HEAD, dangling parent — the WHOLE state
   is as before *)
Theorem C29_commit_atomic_partial : forall o s e s',
  cm_all o = false -> commit o s = (Some e, s') -> s' = s.
Proof. exact commit_err_unchanged_partial. Qed.
Print Assumptions C29_commit_atomic_partial.

(* Commit{All} stores the index (autoAddModifiedAndDeleted) BEFORE the empty-commit
   and parent tests: with a staged change and the worktree back at HEAD's version
   it returns ErrEmptyCommit and the staged change is gone from the index *)
Theorem C29_commit_atomic_refuted :
  exists o s e s', commit o s = (Some e, s') /\ observable s' <> observable s.
Proof. exact commit_all_refuted. Qed.
Print Assumptions C29_commit_atomic_refuted.

(* … but nothing else: HEAD, every reference, the commits and the worktree
   survive every refused Commit *)
Theorem C29_commit_keeps_refs_worktree : forall o s e s',
  commit o s = (Some e, s') ->
  r_commits s' = r_commits s /\ r_refs s' = r_refs s /\ r_head s' = r_head s /\ r_wt s' = r_wt s.
Proof. exact commit_err_keeps. Qed.
Print Assumptions C29_commit_keeps_refs_worktree.

(* Pull (repaired order), HEAD on a branch or detached, every advertised
   reference naming a commit: unknown remote, unreachable or empty remote,
   unknown reference, dangling HEAD, already up to date, non-fast-forward,
   unstaged changes — HEAD, every local reference, index and worktree are as
   before (the remote-tracking references keep what the fetch half stored) *)
Theorem C29_pull_atomic_partial : forall e s x s',
  pull_guard e s = true -> pull e s = (Some x, s') -> observable s' = observable s.
Proof. exact pull_err_observable. Qed.
Print Assumptions C29_pull_atomic_partial.

(* without the guard: HEAD names a tag; updateHEAD moves the tag, then
   setHEADCommit refuses ("invalid HEAD target should be a branch") *)
Theorem C29_pull_atomic_refuted :
  exists e s x s', pull e s = (Some x, s') /\ observable s' <> observable s.
Proof.
  exists pt_env, pt_state, XOther,
         (w_refs pt_state [(tracking_name master, 1%Z); (tag_t, 1%Z)]).
  split; [vm_compute; reflexivity | vm_compute; intro H; discriminate].
Qed.
Print Assumptions C29_pull_atomic_refuted.

(* the order of the code before the repair: ErrUnstagedChanges after the branch moved *)
Theorem C29_pull_unrepaired_refuted :
  exists e s s', pull_guard e s = true /\ pull_unrepaired e s = (Some XUnstaged, s') /\ observable s' <> observable s.
Proof.
  exists pt_env, pu_state, (w_refs pu_state [(master, 1%Z); (tracking_name master, 1%Z)]).
  split; [vm_compute; reflexivity|]. split; [vm_compute; reflexivity | vm_compute; intro H; discriminate].
Qed.
Print Assumptions C29_pull_unrepaired_refuted.

(* once the tests of Pull have passed, its final Reset cannot refuse *)
Theorem C29_pull_no_late_refusal : forall e s rc s1,
  pull_guard e s = true -> pull_pre e s = (None, (rc, s1)) -> runstaged s1 = false ->
  exists s', reset_merge rc (rupdate_head rc s1) = (None, s').
Proof. exact pull_no_late_refusal. Qed.
Print Assumptions C29_pull_no_late_refusal.

(* any op of a case *)
Theorem C29_xstep_atomic_partial : forall o s x s',
  op_guard o s = true -> xstep o s = (Some x, s') -> observable s' = observable s.
Proof. exact xstep_err_observable. Qed.
Print Assumptions C29_xstep_atomic_partial.

(* ---------- injected faults, at the granularity of the stores an operation
   performs (Storer.SetReference / SetIndex, worktree file written / removed;
   object-store writes are not observable).  [effects o s] lists them in program
   order; a filesystem fault between two stores leaves [after_fault j o s]. *)

(* the store list is the operation, refused or not: replayed on s it gives the
   state the operation returns (so its prefixes are the states a fault between
   stores can leave) *)
Theorem C29_effects_sound : forall o s,
  is_porcelain o = true -> apply_effs (effects o s) s = snd (xstep o s).
Proof. exact effects_sound. Qed.
Print Assumptions C29_effects_sound.

(* a refused operation (under the guards of the atomicity theorems) has made no
   observable store at all: a fault anywhere in it changes nothing either *)
Theorem C29_fault_refused_atomic : forall o s x j,
  op_guard o s = true -> fst (xstep o s) = Some x -> observable (after_fault j o s) = observable s.
Proof. exact fault_refused_atomic. Qed.
Print Assumptions C29_fault_refused_atomic.

(* Add, Merge and Commit without All perform ONE observable store: whatever
   number of stores a fault lets through, the repository is observably the old
   one or exactly the one the undisturbed operation returns *)
Theorem C29_fault_single_store_atomic : forall o s j,
  single_store o = true ->
  observable (after_fault j o s) = observable s \/ after_fault j o s = snd (xstep o s).
Proof. exact fault_single_store_atomic. Qed.
Print Assumptions C29_fault_single_store_atomic.

(* the same statement is false of Restore{Staged, Worktree} (index stored, first
   file rewritten, second not) … *)
Theorem C29_fault_prefix_refuted :
  exists o s j, fst (xstep o s) = None /\
    observable (after_fault j o s) <> observable s /\
    observable (after_fault j o s) <> observable (snd (xstep o s)).
Proof.
  exists fr_op, fr_state, 4%nat. split; [vm_compute; reflexivity|].
  split; vm_compute; intro H; discriminate.
Qed.
Print Assumptions C29_fault_prefix_refuted.

(* … and of Commit{All} (index stored, no commit) *)
Theorem C29_fault_commit_all_refuted :
  exists o s j, fst (xstep o s) = None /\
    observable (after_fault j o s) <> observable s /\
    observable (after_fault j o s) <> observable (snd (xstep o s)).
Proof. exact fault_commit_all_refuted. Qed.
Print Assumptions C29_fault_commit_all_refuted.

From Coq Require Import String.

(* non-vacuity: each class of refusal occurs *)
Example C29_ops_refusals :
  restore true true [] pu_state = (Some XNoRestorePaths, pu_state) /\
  restore false true [bs "a"%string] pu_state = (Some XWorktreeOnly, pu_state) /\
  add_path (bs "nosuch"%string) pu_state = (Some XEntryNotFound, pu_state) /\
  commit (mkCO false false true false) (w_wt pu_state (r_idx pu_state)) = (Some XEmptyCommit, w_wt pu_state (r_idx pu_state)) /\
  commit (mkCO false false false false) (mkR (r_commits pu_state) (r_refs pu_state) (r_head pu_state) (r_idx pu_state) (r_wt pu_state) false)
    = (Some XMissingAuthor, mkR (r_commits pu_state) (r_refs pu_state) (r_head pu_state) (r_idx pu_state) (r_wt pu_state) false) /\
  merge 0 true (w_refs pu_state [(master, 1%Z)]) = (Some XMergeNotPossible, w_refs pu_state [(master, 1%Z)]) /\
  merge 1 false pu_state = (Some XUnsupportedStrategy, pu_state) /\
  fst (pull (mkPE false true [] None []) pu_state) = Some XRemoteNotFound /\
  fst (pull pt_env pu_state) = Some XUnstaged /\
  fst (pull (mkPE true true [(master, 0%Z)] (Some master) []) (w_refs pu_state [(master, 1%Z)])) = Some XNonFastForward.
Proof. vm_compute. repeat split. Qed.

(* the guards are satisfiable and the guarded statements are not vacuous *)
Example C29_ops_guards :
  pull_guard pt_env pu_state = true /\ pull_guard pt_env pt_state = false /\
  op_guard (XCommit (mkCO false false true false)) pu_state = true.
Proof. vm_compute. repeat split. Qed.

(* a pull that goes through *)
Example C29_fault_states :
  List.length (effects fr_op fr_state) = 7%nat /\
  single_store fr_op = false /\ single_store (XMerge 1 true) = true.
Proof. vm_compute. repeat split. Qed.

Example C29_pull_ok :
  fst (pull pt_env (w_wt pu_state (r_idx pu_state))) = None /\
  lookup master (r_refs (snd (pull pt_env (w_wt pu_state (r_idx pu_state))))) = Some 1%Z.
Proof. vm_compute. split; reflexivity. Qed.
