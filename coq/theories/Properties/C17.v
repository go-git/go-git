(* Properties/C17.v — All storage backends behave like the same abstract
   repository.  The refinement proofs live in Proofs/C17.v and Proofs/C17Loose.v.

   G = Model/StorageAPI.v: mem_step (storage/memory) and fs_step
   (storage/filesystem + dotgit at API level; one model for every Options value
   and object format), S = spec_sstep (the abstract store of Spec/AStore.v).
   Answers are compared with [res_equiv]: listings up to order.

   Full statement (FALSE of the faithful models, see the _refuted theorems):
     forall U ops, the answers of run_ops (mem_step U), of run_ops (fs_step U)
     and of run_ops (spec_sstep U) from the empty repository are pairwise equal. *)
From Coq Require Import List NArith Bool Permutation.
From GoGit Require Import Base.Out Spec.AStore Model.StorageAPI Proofs.AStoreFacts Proofs.C17 Proofs.C17Loose.
Import ListNotations.
Local Open Scope N_scope.

(* memory: equal to the abstract store — state and answers — on every history
   whose CheckAndSetReference calls use one name for the new and the old
   reference (mem_ok) *)
Theorem C17_memory_refines_partial : forall U ops,
  mem_guards U st_empty ops = true ->
  run_ops (mem_step U) st_empty ops = run_ops (spec_sstep U) st_empty ops.
Proof. intros U ops. apply mem_run_spec. Qed.
Print Assumptions C17_memory_refines_partial.

(* the guard is exact in this sense: with two different names, memory decides
   on the value stored under the NEW name and the abstract store on the value
   stored under the old name, so the answers differ as soon as one matches and
   the other does not *)
Theorem C17_memory_guard_tight : forall U s n v on ov cn co,
  fm_get n (s_refs s) = Some cn -> fm_get on (s_refs s) = Some co ->
  rv_hash_eqb cn ov = false -> rv_hash_eqb co ov = true ->
  snd (mem_step U s (SBase (OCas n v on ov))) = RErr EChanged
  /\ snd (spec_sstep U s (SBase (OCas n v on ov))) = ROk.
Proof.
  intros U s n v on ov cn co H1 H2 H3 H4. cbn [mem_step spec_sstep st_step]. unfold mem_cas, st_cas.
  rewrite H1, H2, H3, H4. split; reflexivity.
Qed.
Print Assumptions C17_memory_guard_tight.

(* filesystem: every answer equals the abstract store's, and the final state
   represents the abstract final state (FsRel: every name resolves to the
   abstract value, objects/index/config/shallow/reflogs are equal, no empty
   reference file, packed-refs well formed), on every history that passes
   fs_ok call by call; the only guarded call is
     CheckAndSetReference  new and old have one name, and a reference file
                           exists or the packed value matches old
   (PackRefs is unguarded since it keeps symbolic references loose) *)
Theorem C17_filesystem_refines_partial : forall U ops,
  fs_guards U fs_empty ops = true ->
  FsRel (fst (run_ops (fs_step U) fs_empty ops)) (fst (run_ops (spec_sstep U) st_empty ops))
  /\ Forall2 res_equiv (snd (run_ops (fs_step U) fs_empty ops)) (snd (run_ops (spec_sstep U) st_empty ops)).
Proof. intros U ops. apply fs_run_spec. apply FsRel_empty. Qed.
Print Assumptions C17_filesystem_refines_partial.

(* hence the two backends agree with each other on those histories *)
Theorem C17_backends_agree_partial : forall U ops,
  mem_guards U st_empty ops = true -> fs_guards U fs_empty ops = true ->
  Forall2 res_equiv (snd (run_ops (mem_step U) st_empty ops)) (snd (run_ops (fs_step U) fs_empty ops)).
Proof.
  intros U ops Hm Hf. rewrite (mem_run_spec U ops st_empty Hm).
  apply Forall2_equiv_sym. apply (fs_run_spec U ops fs_empty st_empty FsRel_empty Hf).
Qed.
Print Assumptions C17_backends_agree_partial.

(* the full statement is false: witnesses (replayed on the real code by
   corpus/C17/witnesses.json) *)
Definition U1 : universe := fun _ => (3, 1).
Definition answers {St} (step : St -> sop -> St * res) (s : St) ops := snd (run_ops step s ops).

(* memory: CheckAndSetReference(new = a, old = (b, value of b)) is refused
   because a holds something else; the documented contract looks at old.Name() *)
Theorem C17_memory_refuted :
  exists ops, ~ Forall2 res_equiv (answers (mem_step U1) st_empty ops) (answers (spec_sstep U1) st_empty ops).
Proof.
  exists [SBase (OSetRef 0 (RHash 0)); SBase (OSetRef 1 (RHash 1)); SBase (OCas 0 (RHash 2) 1 (RHash 1))].
  vm_compute. intro H.
  inversion H as [|? ? ? ? _ H2]; subst. inversion H2 as [|? ? ? ? _ H3]; subst.
  inversion H3 as [|? ? ? ? HP _]; subst. discriminate.
Qed.
Print Assumptions C17_memory_refuted.

(* filesystem: the failed CheckAndSetReference leaves an empty reference file
   and the next listing fails *)
Theorem C17_filesystem_refuted_cas :
  exists ops, ~ Forall2 res_equiv (answers (fs_step U1) fs_empty ops) (answers (spec_sstep U1) st_empty ops).
Proof.
  exists [SBase (OCas 0 (RHash 1) 0 (RHash 0)); SBase OIterRefs]. vm_compute. intro H.
  inversion H as [|? ? ? ? _ H2]; subst. inversion H2 as [|? ? ? ? HP _]; subst. discriminate.
Qed.
Print Assumptions C17_filesystem_refuted_cas.

(* PackRefs with a loose symbolic reference (kept loose, not written into
   packed-refs as an unparsable line) behaves like the abstract store *)
Example C17_packrefs_witness_repaired :
  let ops := [SBase (OSetRef 0 (RHash 0)); SBase (OSetRef 1 (RSym 0)); SPackRefs;
              SBase (OGetRef 0); SBase (OGetRef 1); SBase OIterRefs; SBase (ODelRef 0); SBase OIterRefs] in
  fs_guards U1 fs_empty ops = true
  /\ map o_res (answers (fs_step U1) fs_empty ops) = map o_res (answers (spec_sstep U1) st_empty ops).
Proof. vm_compute. split; reflexivity. Qed.

(* the two backends answer the same calls differently: after a refused
   CheckAndSetReference on an absent name the filesystem storer cannot list *)
Theorem C17_backends_agree_refuted :
  exists ops, ~ Forall2 res_equiv (answers (mem_step U1) st_empty ops) (answers (fs_step U1) fs_empty ops).
Proof.
  exists [SBase (OCas 0 (RHash 1) 0 (RHash 0)); SBase OIterRefs]. vm_compute. intro H.
  inversion H as [|? ? ? ? _ H2]; subst. inversion H2 as [|? ? ? ? HP _]; subst. discriminate.
Qed.
Print Assumptions C17_backends_agree_refuted.

(* non-vacuity: a history with writes of every kind, packing, a CAS on a
   packed-only reference and a removal passes both guards *)
Example C17_guards_nonvacuous :
  let ops := [SBase (OSetRef 0 (RHash 0)); SBase (OSetRef 2 (RHash 1)); SPackRefs;
              SBase (OCas 0 (RHash 2) 0 (RHash 0)); SBase (OSetRef 1 (RSym 0)); SPackRefs; SBase OIterRefs;
              SBase (ODelRef 2); SBase (OGetRef 2); SBase (OSetObj 3); SAddPack [3; 4]; SBase (OIterObjs 0);
              SBase (OSetIdx 2); SBase (OSetCfg 1); SBase (OSetShallow [4]); SBase (OAppendLog 0 5);
              SReopen; SBase (OGetLog 0); SBase (OCas 1 (RHash 3) 1 (RSym 2));
              (* HEAD (name 4): set, CAS hash -> symbolic, PackRefs leaves it loose, listing *)
              SBase (OSetRef 4 (RHash 1)); SBase (OCas 4 (RSym 0) 4 (RHash 1)); SPackRefs; SBase (OGetRef 4);
              SBase OIterRefs; SBase (OCas 4 (RHash 2) 4 (RSym 5)); SBase (ODelRef 4)] in
  mem_guards U1 st_empty ops = true /\ fs_guards U1 fs_empty ops = true.
Proof. vm_compute. split; reflexivity. Qed.

(* loose objects (storer.LooseObjectStorer: DeleteLooseObject, ForEachObjectHash)
   over the extended alphabet xop = storer call | XDelLoose k | XEachHash.
   The abstract store keeps the sets of loose and of packed copies next to the
   set of objects present (lw_step over spec_sstep); the filesystem model is
   lw_step over fs_step: the same guards as above are enough, deletion and
   enumeration are unguarded. *)
Theorem C17_loose_filesystem_refines_partial : forall U ops,
  xfs_guards U (lw_init fs_empty) ops = true ->
  LwRel (fst (run_xops (fs_step U) fs_del_obj (lw_init fs_empty) ops))
        (fst (run_xops (spec_sstep U) st_del_obj (lw_init st_empty) ops))
  /\ Forall2 res_equiv (snd (run_xops (fs_step U) fs_del_obj (lw_init fs_empty) ops))
                       (snd (run_xops (spec_sstep U) st_del_obj (lw_init st_empty) ops)).
Proof. intros U ops. apply xfs_run_spec. apply LwRel_empty. Qed.
Print Assumptions C17_loose_filesystem_refines_partial.

(* in every instance of the layer (abstract store, filesystem model): after a
   successful DeleteLooseObject(k) the next ForEachObjectHash does not see k *)
Theorem C17_loose_delete_then_enumerate : forall St (step : St -> sop -> St * res) del w k w',
  lw_step step del w (XDelLoose k) = (w', ROk) ->
  exists l, snd (lw_step step del w' XEachHash) = RIds l /\ nmem k l = false.
Proof.
  intros St step del w k w'. cbn [lw_step]. destruct (nmem k (lw_loose w)); [|discriminate].
  intro H. injection H as <-. cbn [lw_step snd lw_loose]. eexists. split; [reflexivity|].
  now rewrite nmem_nrem, N.eqb_refl.
Qed.
Print Assumptions C17_loose_delete_then_enumerate.

(* memory has no loose objects: deletion is refused and changes nothing, the
   enumeration is the abstract store's listing of every object *)
Theorem C17_loose_memory : forall U s k,
  xmem_step U s (XDelLoose k) = (s, RErr ENotSupported)
  /\ xmem_step U s XEachHash = (s, snd (spec_sstep U s (SBase (OIterObjs 0)))).
Proof.
  intros U s k. split; [reflexivity|]. cbn [xmem_step spec_sstep st_step snd]. unfold st_iter_objs.
  now rewrite filter_typ_any.
Qed.
Print Assumptions C17_loose_memory.

(* non-vacuity: write, pack, delete the loose copies (object 1 stays present
   through its pack, object 0 disappears), enumerate, delete again (refused) *)
Example C17_loose_nonvacuous :
  let ops := [XOp (SBase (OSetObj 0)); XOp (SBase (OSetObj 1)); XOp (SAddPack [1; 2]); XOp (SBase (OHasObj 0));
              XDelLoose 0; XEachHash; XOp (SBase (OIterObjs 0)); XDelLoose 1; XEachHash; XOp (SBase (OHasObj 1));
              XDelLoose 2; XDelLoose 0] in
  xfs_guards U1 (lw_init fs_empty) ops = true
  /\ map o_res (snd (run_xops (fs_step U1) fs_del_obj (lw_init fs_empty) ops))
     = [o_res (RNum 0); o_res (RNum 1); o_res ROk; o_res ROk; o_res ROk; o_res (RIds [1]); o_res (RIds [1; 2]);
        o_res ROk; o_res (RIds []); o_res ROk; o_res (RErr ENotExist); o_res (RErr ENotExist)].
Proof. vm_compute. split; reflexivity. Qed.
