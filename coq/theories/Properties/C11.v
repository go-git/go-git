(* Properties/C11.v — Every stored object reads back identically on every read path.
   The statements, each a corollary of Proofs/C11.v.

   G = Model/ObjStore.v (pack-first routing, findObjectInPackfile with the MRU
   hint, object cache with ANY eviction policy [pol], delta resolution through
   the cache, loose objects, alternates).  S = Spec/ObjContent.v: [content r id],
   the object named id in the content-addressed store.  [store_ok r] is the
   boolean well-formedness of the repository as data: distinct offsets within a
   pack, every pack entry resolves, all copies of an id agree.  [cache_ok] says the
   cache holds only (id, content of id) pairs — true of the empty cache and kept
   by every read. *)
From Coq Require Import List NArith Bool String.
From GoGit Require Import Base.Out Model.ObjStore Spec.ObjContent Proofs.C11.
Import ListNotations.
Local Open Scope N_scope.

Definition evicts_only (pol : cache -> cache) : Prop := forall c x, In x (pol c) -> In x c.

(* EncodedObject(t, id) = the content of id (not found when absent or of another
   type) — for every cache content, every MRU hint, every eviction policy — and
   the cache stays truthful *)
Theorem C11_get_is_content : forall pol r st t id st' res,
  evicts_only pol -> store_ok r = true -> cache_ok (content r) (rs_cache st) ->
  get_object pol r st t id = (st', res) ->
  res = spec_get r t id /\ cache_ok (content r) (rs_cache st').
Proof. intros pol r st t id st' res P OK. exact (get_object_ok pol P r OK st t id st' res). Qed.
Print Assumptions C11_get_is_content.

Theorem C11_size_is_content : forall pol r st id st' res,
  evicts_only pol -> store_ok r = true -> cache_ok (content r) (rs_cache st) ->
  size_object pol r st id = (st', res) ->
  res = spec_get r None id /\ cache_ok (content r) (rs_cache st').
Proof. intros pol r st id st' res P OK. exact (size_object_ok pol P r OK st id st' res). Qed.
Print Assumptions C11_size_is_content.

Theorem C11_has_is_content : forall r st id st' b,
  store_ok r = true -> has_object r st id = (st', b) ->
  b = spec_has r id /\ rs_cache st' = rs_cache st.
Proof. intros r st id st' b OK. exact (has_object_ok r OK st id st' b). Qed.
Print Assumptions C11_has_is_content.

(* Packfile.GetByOffset on any pack of the repository, at any offset *)
Theorem C11_by_offset_is_content : forall pol r s p c off c' res,
  evicts_only pol -> store_ok r = true -> In s (stores r) -> In p (s_packs s) ->
  cache_ok (content r) c -> get_by_offset pol p c off = (c', res) ->
  cache_ok (content r) c' /\
  res = match find_entry p off with Some e => content r (e_id e) | None => None end.
Proof. intros pol r s p c off c' res P OK. exact (by_offset_ok pol P r OK s p c off c' res). Qed.
Print Assumptions C11_by_offset_is_content.

(* HashesWithPrefix = exactly the stored ids with that prefix, each once *)
Theorem C11_prefix_complete : forall r pre, store_ok r = true ->
  NoDup (prefix_ids r pre) /\
  forall id, In id (prefix_ids r pre) <-> is_prefix pre id = true /\ content r id <> None.
Proof.
  intros r pre OK. unfold prefix_ids. rewrite fold_add_new.
  assert (I0 : forall s id, In id (store_prefix s pre []) <-> is_prefix pre id = true /\ has_copy s id).
  { intros s id. rewrite (proj1 (store_prefix_spec s pre [])). cbn. tauto. }
  destruct (add_new_spec (flat_map (fun s => store_prefix s pre []) (r_alts r))
              (store_prefix (r_main r) pre [])) as [I N].
  split; [apply N, store_prefix_spec; constructor|].
  intros id. rewrite I, <- in_app_iff, (content_stored r OK).
  change (_ ++ _) with (flat_map (fun s => store_prefix s pre []) (stores r)).
  rewrite in_flat_map. setoid_rewrite I0. split.
  - intros (s & Is & P & H). eauto.
  - intros (P & s & Is & H). eauto.
Qed.
Print Assumptions C11_prefix_complete.

(* IterEncodedObjects(t) succeeds; everything it lists is the content of its id and
   of type t; the cache stays truthful *)
Theorem C11_iter_sound : forall pol r st t st' res,
  evicts_only pol -> store_ok r = true -> cache_ok (content r) (rs_cache st) ->
  iter_objects pol r st t = (st', res) ->
  cache_ok (content r) (rs_cache st') /\
  exists l, res = Some l /\ forall id o, In (id, o) l -> content r id = Some o /\ typed t o = RFound o.
Proof. intros pol r st t st' res P OK. exact (iter_objects_ok pol P r OK t st st' res). Qed.
Print Assumptions C11_iter_sound.

(* ... and the listing is exactly the ids stored in the repository's OWN loose
   directory and packs whose object has type t, each once (the loose directory
   listing has no duplicate names) *)
Theorem C11_iter_complete : forall pol r t st st' res,
  evicts_only pol -> store_ok r = true ->
  nodup_ids (map fst (s_loose (r_main r))) = true -> cache_ok (content r) (rs_cache st) ->
  iter_objects pol r st t = (st', res) ->
  exists l, res = Some l /\ NoDup (map fst l) /\
  forall id, In id (map fst l) <-> (has_copy (r_main r) id /\ wanted r t id).
Proof.
  intros pol r t st st' res P OK ND C H.
  destruct (iter_objects_spec pol P r OK t st st' res C H) as [_ (l & seen & E & [P0 P1 P2 P3 P4])].
  exists l. split; [assumption|]. split; [exact (P3 (nodup_ids_NoDup _ ND))|].
  intros id. unfold has_copy. rewrite <- in_flat_map, <- in_app_iff. split.
  - intros I. split; [auto|]. apply in_map_iff in I. destruct I as [[i o] [<- I]]. exists o. now apply P0.
  - intros [D W]. auto.
Qed.
Print Assumptions C11_iter_complete.

(* the FULL statement of the property also wants the objects of the alternates
   listed (git cat-file --batch-all-objects does): false of the code as it is —
   known finding iter-omits-alternates.  Witness: ex_repo below stores [9] in its
   alternate; every lookup finds it, the iteration does not list it. *)

(* any sequence of reads, from any truthful cache and any hints: every answer
   (except the listing of RdIter, see above) is the specification's *)
Theorem C11_any_order : forall pol r rds st,
  evicts_only pol -> store_ok r = true -> cache_ok (content r) (rs_cache st) ->
  Forall2 (fun rd o => forall x, spec_read r rd = Some x -> o = x) rds (snd (do_reads pol r st rds)).
Proof.
  intros pol r rds st P OK. revert st. induction rds as [|rd rds IH]; intros st C; cbn; [constructor|].
  destruct (do_read pol r st rd) as [st1 o] eqn:E.
  destruct (do_read_ok pol P r OK _ _ _ _ C E) as [C1 S].
  specialize (IH st1 C1). destruct (do_reads pol r st1 rds) as [st2 os]. cbn in *.
  constructor; assumption.
Qed.
Print Assumptions C11_any_order.

(* hence neither the MRU hints, nor what the cache holds, nor its eviction
   policy, nor what was read before can change an answer *)
Theorem C11_hint_irrelevant : forall pol1 pol2 r st1 st2 rds,
  evicts_only pol1 -> evicts_only pol2 -> store_ok r = true ->
  cache_ok (content r) (rs_cache st1) -> cache_ok (content r) (rs_cache st2) ->
  Forall (fun rd => spec_read r rd <> None) rds ->
  snd (do_reads pol1 r st1 rds) = snd (do_reads pol2 r st2 rds).
Proof.
  intros pol1 pol2 r st1 st2 rds P1 P2 OK C1 C2. apply Forall2_spec_eq; now apply C11_any_order.
Qed.
Print Assumptions C11_hint_irrelevant.

(* non-vacuity: a repository with a base blob, an OFS delta on it and a REF delta on
   that, a second pack duplicating the base, a loose copy and an alternate *)
Definition ex_base : bytes := [104; 101; 108; 108; 111; 32; 119; 111; 114; 108; 100; 44; 32; 104; 101; 108; 108; 111; 32; 103; 105; 116; 10].
Definition ex_pack : pack :=
  [ Entry [1] 12 (KBase TBlob ex_base);
    Entry [2] 40 (KOfs 12 [23; 17; 144; 13; 4; 99; 111; 113; 10]);
    Entry [3] 70 (KRef [2] [17; 12; 145; 6; 6; 1; 33; 144; 5]) ].
Definition ex_repo : repo :=
  Repo (Store [([1], Obj TBlob ex_base)] [ex_pack; [Entry [1] 12 (KBase TBlob ex_base)]])
       [Store [([9], Obj TTree [1; 2; 3])] []].

Example C11_example_ok : store_ok ex_repo = true.
Proof. vm_compute. reflexivity. Qed.

Example C11_example_reads :
  c11_run ex_repo [RdGet None [3]; RdGet (Some TTree) [3]; RdSize [2]; RdHas [9]; RdHas [7]; RdOff 0 70;
                   RdPrefix []; RdGet None [9]]
  = c11_run_nocache ex_repo [RdGet None [3]; RdGet (Some TTree) [3]; RdSize [2]; RdHas [9]; RdHas [7]; RdOff 0 70;
                             RdPrefix []; RdGet None [9]]
  /\ spec_get ex_repo None [3] = RFound (Obj TBlob [119; 111; 114; 108; 100; 44; 33; 104; 101; 108; 108; 111])
  /\ prefix_ids ex_repo [] = [[1]; [2]; [3]; [9]].
Proof. vm_compute. repeat split. Qed.

Example C11_iter_alternates_refuted :
  spec_has ex_repo [9] = true /\
  match snd (iter_objects keep_all ex_repo (init_rstate ex_repo) None) with
  | Some l => map fst l = [[1]; [2]; [3]]
  | None => False
  end.
Proof. vm_compute. split; reflexivity. Qed.

(* content addressing is needed: two copies of an id that disagree are rejected *)
Example C11_disagreeing_copies_rejected :
  store_ok (Repo (Store [([1], Obj TBlob [0])] [[Entry [1] 12 (KBase TBlob [1])]]) []) = false.
Proof. vm_compute. reflexivity. Qed.

(* the delta interpreter on a hand-made delta: copy 3 bytes from offset 1, insert "XY", copy 2 from 0 *)
Example C11_delta_example :
  apply_delta [97; 98; 99; 100; 101] [5; 7; 145; 1; 3; 2; 88; 89; 144; 2] = Some [98; 99; 100; 88; 89; 97; 98].
Proof. vm_compute. reflexivity. Qed.
