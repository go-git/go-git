(* Properties/C24.v — An acquired pack descriptor is never closed under its
   reader.  The invariants these statements are read off are proved in
   Proofs/C24.v.  [reachable c s] = some finite sequence of steps of
   Model/SharedFile.step leads from the initial state to s: any number of
   files and threads, any interleaving of the critical sections of Acquire /
   Release / ReleaseNow / Close / the grace timer / Pool.Touch / Pool.Forget,
   any eviction victim. *)
From Coq Require Import List Arith Bool.
From GoGit Require Import Base.Out Model.SharedFile Proofs.C24.
Import ListNotations.

(* A handle instance h handed to a reader that has not yet released it is
   still the open descriptor of its file, unless the owner was closed. *)
Theorem C24_pinned_open : forall c s t f h, reachable c s ->
  In (t, f, h) (holds s) -> fclosed (files s f) = false -> ffile (files s f) = Some h.
Proof. intros c s t f h R. apply (i_pin c s (inv_reachable c s R)). Qed.
Print Assumptions C24_pinned_open.

(* the reference count is exactly the number of outstanding holds *)
Theorem C24_refs_exact : forall c s f, reachable c s -> frefs (files s f) = hcount f (holds s).
Proof. intros c s f R. apply (i_refs c s (inv_reachable c s R)). Qed.
Print Assumptions C24_refs_exact.

(* the pool's list and the members' registration tokens agree, no member is
   linked twice, and the list never exceeds the capacity *)
Theorem C24_lru_wf : forall c s, reachable c s ->
  NoDup (lru s) /\ (forall f, finlru (files s f) = true <-> In f (lru s)) /\ List.length (lru s) <= cap c.
Proof.
  intros c s R. pose proof (inv_reachable c s R) as I.
  split; [apply (i_nodup c s I) | split; [apply (i_inlru c s I) | apply (i_len c s I)]].
Qed.
Print Assumptions C24_lru_wf.

(* FULL STATEMENT (false):  forall reachable s and duplicate-free fs of pooled files,
     count is_open s fs <= cap c + count is_pinned s fs.
   Refuted under the Go victim policy (choose_victim): capacity 1, three
   descriptors open, one pinned, two evictions in flight. *)
Theorem C24_bound_refuted : exists c s fs, reachable c s /\ NoDup fs /\
  (forall f, In f fs -> epooled c f = true) /\
  cap c + count is_pinned s fs < count is_open s fs.
Proof.
  exists overshoot_cfg, overshoot_state, [0; 1; 2].
  split; [exact overshoot_reachable|]. split; [repeat constructor; cbn; intuition discriminate|].
  split; [intros f [<-|[<-|[<-|[]]]]; reflexivity|].
  destruct overshoot_counts as (-> & -> & -> & _). repeat constructor.
Qed.
Print Assumptions C24_bound_refuted.

(* what does hold: the overshoot is bounded by the evictions in flight *)
Theorem C24_bound_partial : forall c s fs, reachable c s -> NoDup fs ->
  (forall f, In f fs -> epooled c f = true) ->
  count is_open s fs <= cap c + count is_pinned s fs + List.length (inflight s).
Proof. exact bound_partial. Qed.
Print Assumptions C24_bound_partial.

(* ... so the stated bound holds whenever no eviction is in flight (guard: inflight s = []) *)
Theorem C24_bound_quiescent : forall c s fs, reachable c s -> NoDup fs ->
  (forall f, In f fs -> epooled c f = true) ->
  (match inflight s with [] => true | _ => false end) = true ->
  count is_open s fs <= cap c + count is_pinned s fs.
Proof.
  intros c s fs R Hnd Hp Hq. apply bound_quiescent; auto. destruct (inflight s); [reflexivity|discriminate].
Qed.
Print Assumptions C24_bound_quiescent.

(* Close is final: the descriptor is gone, the flag never clears, Acquire
   changes nothing (it returns ErrClosed) *)
Theorem C24_close_final : forall c s f, reachable c s -> fclosed (files s f) = true ->
  ffile (files s f) = None
  /\ (forall ls s', run c s ls = Some s' -> fclosed (files s' f) = true /\ ffile (files s' f) = None)
  /\ (forall t ok s', step c s (LAcquire t f ok) = Some s' -> s' = s).
Proof.
  intros c s f R Hc. split; [apply (i_closed c s (inv_reachable c s R)); auto|]. split.
  - intros ls s' H. pose proof (closed_run c ls s s' f H Hc) as Hc'. split; auto.
    apply (i_closed c s' (inv_reachable c s' (reachable_run c ls s s' R H))); auto.
  - intros t ok s'. now apply acquire_closed.
Qed.
Print Assumptions C24_close_final.

(* idle handles are eventually closed, no pool: an idle open descriptor always
   has its grace timer armed with the CURRENT generation (or the callback
   already started) ... *)
Theorem C24_idle_armed : forall c s f, reachable c s -> epooled c f = false ->
  frefs (files s f) = 0 -> is_open (files s f) = true -> fclosed (files s f) = false ->
  ftimer (files s f) = Some (fgen (files s f), fidle (files s f) + grace c)
  \/ In (fgen (files s f)) (fcbs (files s f)).
Proof. exact idle_armed. Qed.
Print Assumptions C24_idle_armed.

(* ... and letting the clock and that timer run closes it *)
Theorem C24_idle_fire_closes : forall c s f, reachable c s -> epooled c f = false ->
  frefs (files s f) = 0 -> is_open (files s f) = true -> fclosed (files s f) = false ->
  exists ls s', run c s ls = Some s' /\ ffile (files s' f) = None.
Proof. exact idle_closes. Qed.
Print Assumptions C24_idle_fire_closes.

(* with a pool: an idle open descriptor is registered (an eviction can reach it)
   or its eviction is already in flight, and ReleaseNow — the pool's eviction
   call and CloseIdleDescriptors — closes it *)
Theorem C24_idle_pooled_reachable : forall c s t f, reachable c s -> epooled c f = true ->
  frefs (files s f) = 0 -> is_open (files s f) = true ->
  (In f (lru s) \/ In f (inflight s))
  /\ (pcs s t = PIdle -> exists s', step c s (LReleaseNow t f) = Some s' /\ is_open (files s' f) = false).
Proof.
  intros c s t f R Hp Hr Ho. split; [eapply idle_pooled_registered; eauto|].
  intros Hi. eapply release_now_closes; eauto.
Qed.
Print Assumptions C24_idle_pooled_reachable.

(* the grace period is respected: a timer callback closes a descriptor only
   if it has been idle for the whole grace period (generation check) *)
Theorem C24_grace_respected : forall c s f g s', reachable c s ->
  step c s (LTimerRun f g) = Some s' ->
  is_open (files s f) = true -> is_open (files s' f) = false ->
  fidle (files s f) + grace c <= now s.
Proof. exact grace_respected. Qed.
Print Assumptions C24_grace_respected.

(* the command interpreter used by the correspondence only takes steps of the
   model (with the Go victim policy): every state it visits is reachable *)
Theorem C24_exec_sound : forall c nf ks, reachable c (fst (exec c nf init ks)).
Proof. intros. apply exec_reachable. apply reachable_init. Qed.
Print Assumptions C24_exec_sound.

(* non-vacuity *)
Example C24_ex_hold : exists s, reachable (c24_cfg 1 10 [true]) s /\ holds s = [(0, 0, 0)]
  /\ ffile (files s 0) = Some 0 /\ lru s = [0].
Proof.
  exists (fst (exec (c24_cfg 1 10 [true]) 1 init [CAcquire 0 0 false; CStep 0])).
  split; [apply C24_exec_sound | vm_compute; auto].
Qed.

Example C24_ex_timer : exists s, reachable (c24_cfg 0 10 [false]) s
  /\ frefs (files s 0) = 0 /\ is_open (files s 0) = true /\ ftimer (files s 0) = Some (2, 10).
Proof.
  exists (fst (exec (c24_cfg 0 10 [false]) 1 init [CAcquire 0 0 false; CRelease 0 0])).
  split; [apply C24_exec_sound | vm_compute; auto].
Qed.

Example C24_ex_timer_closes :
  let s := fst (exec (c24_cfg 0 10 [false]) 1 init [CAcquire 0 0 false; CRelease 0 0; CSleep 10; CFire 0]) in
  is_open (files s 0) = false /\ now s = 10.
Proof. vm_compute. auto. Qed.
