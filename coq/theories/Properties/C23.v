(* Properties/C23.v — Concurrent reads on shared storage are correct and
   race-free: PARTIAL by design (DESIGN.md §4.C23).

   Proved here, for EVERY interleaving of the model (Model/IndexPublish.v:
   requireIndex with its singleflight, Reindex, the same-instance pack writer's
   Notify, lookups snapshotting s.packs, other instances adding packs and loose
   objects; every muI critical section is one atomic step): the publication
   protocol is safe.  NOT provable in this model and only exercised by the
   correspondence (stress scenarios, fd-pool capacities, `go build -race` in
   the thorough tier): freedom from data races in the Go memory model,
   spurious I/O errors under descriptor pressure, and what happens when another
   instance deletes packs (repack).  The statements; the lemmas they rest on are in Proofs/C23.v. *)
From Coq Require Import List NArith Bool.
From GoGit Require Import Model.IndexPublish Proofs.C23 Model.IdxRefs Proofs.C23refs.
Import ListNotations.
Local Open Scope N_scope.

(* a finished lookup of an object of the initial repository found it; a lookup
   that answered "found" is backed by the repository as it is now — so an object
   that is still absent at the end was reported not found.  Any threads, any
   schedule. *)
Theorem C23_lookup_stable : forall ipacks iloose ts sched k b,
  forallb starting ts = true ->
  let st := run (init_state ipacks iloose ts) sched in
  In (TLookupDone k b) (threads st) ->
  (init_has ipacks iloose k = true -> b = true) /\
  (now_has (sh st) k = false -> b = false).
Proof. exact lookup_stable. Qed.
Print Assumptions C23_lookup_stable.

(* whatever is published, and whatever snapshot a reader holds, contains every
   pack of the initial repository and only packs that exist; a goroutine past
   requireIndex never sees a nil index; Notify never writes into a nil map *)
Theorem C23_snapshot_consistent : forall ipacks iloose ts sched,
  forallb starting ts = true ->
  let st := run (init_state ipacks iloose ts) sched in
  (forall l, pub (sh st) = Some l -> incl ipacks l /\ incl l (disk (sh st))) /\
  (forall k snap, In (TLookupSearch k snap) (threads st) -> incl ipacks snap /\ incl snap (disk (sh st))) /\
  (forall k, In (TLookupSnap k) (threads st) -> pub (sh st) <> None) /\
  (forall p, In (TNotifyPublish p) (threads st) -> pub (sh st) <> None) /\
  panicked (sh st) = false.
Proof. exact snapshot_consistent. Qed.
Print Assumptions C23_snapshot_consistent.

(* once published, the index is never nil again *)
Theorem C23_published_forever : forall ipacks iloose ts sched1 sched2,
  forallb starting ts = true ->
  pub (sh (run (init_state ipacks iloose ts) sched1)) <> None ->
  pub (sh (run (init_state ipacks iloose ts) (sched1 ++ sched2))) <> None.
Proof. exact published_forever. Qed.
Print Assumptions C23_published_forever.

(* every index set built by populateIndex is installed, closed by the loser, or
   still held by the goroutine that built it: none is lost, none closed twice *)
Theorem C23_no_leak : forall ipacks iloose ts sched,
  forallb starting ts = true ->
  let st := run (init_state ipacks iloose ts) sched in
  (n_open (sh st) = n_pub (sh st) + n_closed (sh st) + holders (threads st))%nat.
Proof. exact no_leak. Qed.
Print Assumptions C23_no_leak.

(* non-vacuity: a schedule in which a cold-loading reader loses against a
   Reindex that publishes in between — the loser closes its index set, and all
   three lookups are answered from a consistent snapshot *)
Example C23_loser_closes :
  let st := run (init_state [5] 0 [lookup 0; TReFlight; lookup 1; lookup 2])
                [0;0;0;0; 1;1;1; 0;0;0;0;0; 1; 2;2;2;2; 3;3;3;3]%nat in
  n_open (sh st) = 2%nat /\ n_pub (sh st) = 1%nat /\ n_closed (sh st) = 1%nat /\
  threads st = [TLookupDone 0 true; TReDone; TLookupDone 1 false; TLookupDone 2 true].
Proof. vm_compute. repeat split. Qed.

(* Reference accounting of LazyIndex iterators (Model/IdxRefs.v).
   Readers, lazyPrefixIter iterators (as HashesWithPrefix drives them: eager
   release at the first entry without the prefix, exhaustion at the end of the
   bucket, release inside EntriesWithPrefix, early Close, repeated Close) and
   pool evictions on one .idx SharedFile, in EVERY interleaving: the reference
   count is exactly the number of goroutines holding a reference; every
   acquired reference is released exactly once (acquires = releases + live
   references, no Release ever finds the count at zero); a descriptor is open
   whenever somebody holds a reference, and no ReadAt ever hits a descriptor
   the pool has closed. *)
Theorem C23_refs_exact : forall ts sched, forallb istarting ts = true ->
  let st := irun true (iinit ts) sched in
  refs (ish st) = iholders (ithreads st) /\
  n_acq (ish st) = (n_rel (ish st) + refs (ish st))%nat /\
  n_ignored (ish st) = 0%nat /\
  bad (ish st) = false /\
  ((0 < refs (ish st))%nat -> fopen (ish st) = true).
Proof. exact refs_exact. Qed.
Print Assumptions C23_refs_exact.

(* what the invariant excludes: an iterator whose eager release does not clear
   it.idx releases the same reference again in Close(); the surplus Release
   takes the reference of a concurrent reader, the pool evicts the "unpinned"
   file and the reader's next ReadAt finds the descriptor closed *)
Theorem C23_refs_unclear_refuted :
  let st := irun false (iinit [RdStart 2; ItStart 0 TMismatch; Evictor 1])
                 [(0, Adv); (1, Adv); (1, Adv); (1, Adv); (1, Adv); (2, Adv); (0, Adv)]%nat in
  bad (ish st) = true /\ refs (ish st) = 0%nat /\ iholders (ithreads st) = 1%nat.
Proof. vm_compute. repeat split. Qed.
Print Assumptions C23_refs_unclear_refuted.

(* the same schedule with the code as it is *)
Example C23_refs_same_schedule_ok :
  let st := irun true (iinit [RdStart 2; ItStart 0 TMismatch; Evictor 1])
                 [(0, Adv); (1, Adv); (1, Adv); (1, Adv); (1, Adv); (2, Adv); (0, Adv)]%nat in
  bad (ish st) = false /\ refs (ish st) = 1%nat /\ latch (ish st) = true.
Proof. vm_compute. repeat split. Qed.
