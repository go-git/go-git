(* Properties/C50.v — Archives have git archive's content (entry lists).
   The statements; the lemmas they rest on are in Proofs/C50.v.
   G = Model/Archive.v (go-git, modes through the regenerated Gen/C50.v);
   S = Spec/GitArchive.v (git archive 2.39, validated against the binary).
   The full statement "for any tree, prefix and filter the entries are equal" is
   FALSE of the code as it is (five known findings, findings/C50.json): each
   refutation below has a witness; the _eq / _partial theorems state what holds
   under explicit boolean guards. *)
From Coq Require Import List NArith ZArith Bool String.
From GoGit Require Import Base.Out Gen.C50 Model.Archive Spec.GitArchive Proofs.C50.
Import ListNotations.
Local Open Scope N_scope.

(* tar, no path filter: for EVERY tree whose sub-trees all hold a file, link or
   gitlink (dirs_ok: what git can create from an index), every such prefix
   and commit id, go-git's entry list (names, kinds, modes, link targets,
   contents, order, pax comment) is git archive's *)
Theorem C50_tar_entries_eq : forall commit prefix f,
  dirs_ok f = true -> links_ok f = true -> prefix_ok prefix = true ->
  tar_entries commit prefix [] f = git_archive_entries false commit prefix [] f.
Proof. exact tar_nofilter_eq. Qed.
Print Assumptions C50_tar_entries_eq.

(* tar WITH literal path filters.  filters_ok: at least one filter, none empty or
   ending in '/', each the path of an existing entry, and (fits) every filter
   lying below a directory names something inside it while none lies below a
   file.  Then go-git's eager selection (MatchesPathFilter on every walked
   entry, parents included) equals git's lazy one (pathspec on files,
   directories only when something below them is written). *)
Theorem C50_tar_entries_eq_filtered : forall commit prefix fs f,
  names_ok f = true -> dirs_ok f = true -> links_ok f = true -> prefix_ok prefix = true -> filters_ok fs f = true ->
  tar_entries commit prefix fs f = git_archive_entries false commit prefix fs f.
Proof. exact tar_filtered_eq. Qed.
Print Assumptions C50_tar_entries_eq_filtered.

(* ... and so is the whole request: <commit>/<tag>/<ref>, <tree>, <rev>: *)
Theorem C50_archive_tar_eq : forall t commit prefix f,
  match t with TSub (_ :: _) => false | _ => true end = true ->
  dirs_ok f = true -> links_ok f = true -> prefix_ok prefix = true ->
  archive t FTar commit prefix [] f = git_archive t FTar commit prefix [] f.
Proof. exact archive_tar_eq. Qed.
Print Assumptions C50_archive_tar_eq.

(* ... and <rev>:<path> (after the fix: no commit id, current time) *)
Theorem C50_archive_tar_eq_sub : forall path commit prefix f sub,
  path <> [] -> no_empty_part path = true ->
  find_dir f (split_slash path []) = inr sub ->
  dirs_ok sub = true -> links_ok sub = true -> prefix_ok prefix = true ->
  archive (TSub path) FTar commit prefix [] f = git_archive (TSub path) FTar commit prefix [] f.
Proof. exact archive_tar_eq_sub. Qed.
Print Assumptions C50_archive_tar_eq_sub.

(* the mode arithmetic of the regenerated Go leaves gives git's numbers *)
Theorem C50_tar_modes :
  archive_ApplyUmaskDir (perm filemode_Dir) = 509%Z /\
  archive_ApplyUmaskDir (perm filemode_Submodule) = 509%Z /\
  archive_ApplyUmask (perm filemode_Executable) true = 509%Z /\
  archive_ApplyUmask (perm filemode_Regular) false = 436%Z /\
  archive_ApplyUmaskDir 0 = 509%Z.
Proof. exact tar_modes. Qed.
Print Assumptions C50_tar_modes.

(* literal path filters, file level: a filter list without trailing slashes,
   none lying strictly below the path p, selects a file / link / gitlink p for
   go-git exactly when git's pathspec matching selects it *)
Theorem C50_filter_file_agree : forall n p fs,
  match n with NDir _ => false | _ => true end = true ->
  forallb (fun f => negb (ends_with_slash f) && negb (has_prefix f (p ++ [SLASH]))) fs = true ->
  fs <> [] -> matches p fs = git_sel n fs p.
Proof.
  intros n p fs Hn H Hne. symmetry. rewrite forallb_forall in H.
  apply match_file_agree; [exact Hn|exact Hne| |]; apply forallb_forall; intros f Hf;
    destruct (proj1 (andb_true_iff _ _) (H f Hf)) as [H1 H2]; [exact H1|exact H2].
Qed.
Print Assumptions C50_filter_file_agree.

(* zip: for EVERY tree (no guard) the payload — commit-id comment, file names
   and contents in order, a link's target as its content — is git's ... *)
Theorem C50_zip_files_partial : forall commit prefix f,
  match zip_entries commit prefix [] f, git_archive_entries true commit prefix [] f with
  | inr a, inr b => flat_map payload a = flat_map payload b
  | _, _ => False
  end.
Proof. exact zip_nofilter_payload. Qed.
Print Assumptions C50_zip_files_partial.

(* ... but the entry lists differ (known finding zip-layout): directories and
   gitlinks are missing, modes differ, a link is a regular file *)
Definition w_tree : forest :=
  FCons [97] (NFile false [120])
 (FCons [100] (NDir (FCons [101] (NFile true [121]) FNil))
 (FCons [108] (NLink [97])
 (FCons [115] NSub FNil))).
Theorem C50_zip_refuted :
  dirs_ok w_tree = true /\
  zip_entries None [] [] w_tree <> git_archive_entries true None [] [] w_tree.
Proof. split; [reflexivity|]. vm_compute. discriminate. Qed.
Print Assumptions C50_zip_refuted.

(* tar with an empty sub-tree (known finding empty-subtree): the guard of
   C50_tar_entries_eq cannot be dropped *)
Theorem C50_empty_dir_refuted :
  exists f, dirs_ok f = false /\ links_ok f = true /\
            tar_entries None [] [] f <> git_archive_entries false None [] [] f.
Proof.
  exists (FCons [97] (NFile false [120]) (FCons [101] (NDir FNil) FNil)).
  vm_compute. repeat split; discriminate.
Qed.
Print Assumptions C50_empty_dir_refuted.

(* path filters (known findings filter-trailing-slash, filter-nomatch-accepted) *)
Theorem C50_filter_refuted :
  tar_entries None [] [[100; 47]] w_tree <> git_archive_entries false None [] [[100; 47]] w_tree /\
  (exists l, tar_entries None [] [[97]; [122]] w_tree = inr l) /\
  git_archive_entries false None [] [[97]; [122]] w_tree = inl ENoMatch.
Proof. vm_compute. split; [discriminate|split; [eexists; reflexivity|reflexivity]]. Qed.
Print Assumptions C50_filter_refuted.

(* non-vacuity: the witness tree and two prefixes satisfy the guards; a prefix with ".." does not *)
Example C50_guards_hold :
  dirs_ok w_tree = true /\ links_ok w_tree = true /\
  prefix_ok (bytes_of_string "proj-1.0/"%string) = true /\ prefix_ok [] = true /\
  prefix_ok (bytes_of_string "../x/"%string) = false.
Proof. vm_compute. repeat split. Qed.

Example C50_filter_guards_hold :
  names_ok w_tree = true /\
  filters_ok [[100; 47; 101]] w_tree = true /\ filters_ok [[100]; [97]] w_tree = true /\
  filters_ok [[100; 47]] w_tree = false /\ filters_ok [[97]; [122]] w_tree = false /\
  tar_entries None [] [[100; 47; 101]] w_tree = inr [ADir [100; 47] 509; AFile [100; 47; 101] 509 [121]].
Proof. vm_compute. repeat split. Qed.

Example C50_tar_example :
  tar_entries (Some [49]) (bytes_of_string "p/"%string) [] w_tree =
  inr [APax [49]; ADir [112; 47] 509; AFile [112; 47; 97] 436 [120]; ADir [112; 47; 100; 47] 509;
       AFile [112; 47; 100; 47; 101] 509 [121]; ALink [112; 47; 108] 511 [97]; ADir [112; 47; 115; 47] 509].
Proof. vm_compute. reflexivity. Qed.
