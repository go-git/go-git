(* Properties/C29.v — A refused porcelain operation changes nothing.
   The statements; the lemmas they rest on are in Proofs/Porcelain.v.
   Model: Model/Porcelain.v — Checkout and Reset of worktree.go with every
   error exit the code has on flattened, directory/file-conflict-free states;
   filesystem errors in the middle of a worktree update are OUTSIDE the model
   (they do break the property on the real code when a directory sits where
   the target has a file: known finding partial-failure-on-df-conflict). *)
From Coq Require Import List NArith ZArith Bool String.
From GoGit Require Import Base.Out Model.Porcelain Proofs.PorcelainMaps Proofs.Porcelain Proofs.C25 Proofs.C29.
Import ListNotations.

(* Reset, every mode, every error exit (unknown commit, unborn HEAD, unstaged
   changes in Merge mode, local changes in Keep mode, HEAD not on a branch):
   the WHOLE state — HEAD, every ref, index, worktree — is as before. *)
Theorem C29_reset_atomic : forall commit m from s e s',
  reset commit m from s = (Some e, s') -> s' = s.
Proof. exact reset_err_unchanged. Qed.
Print Assumptions C29_reset_atomic.

(* Checkout, every option combination, every error exit (option validation,
   unstaged changes, dangling HEAD, existing branch, unborn HEAD with Create,
   target that is no commit (missing object, a tree or blob hash, a commit
   whose tree is missing), unknown reference): the WHOLE state is as before.
   True of the code since the repair "fix: decide every refusal of Checkout
   before the branch is created and HEAD is moved"; before it the model refuted
   the statement (HEAD moved / branch created, then ErrUnstagedChanges). *)
Theorem C29_checkout_atomic : forall o s e s',
  checkout o s = (Some e, s') -> s' = s.
Proof. exact checkout_err_unchanged. Qed.
Print Assumptions C29_checkout_atomic.

(* once the checks of Checkout have passed, its final Reset cannot refuse: there
   is no error exit after the first write *)
Theorem C29_checkout_no_late_refusal : forall o s c m from s2,
  checkout_pre o s = (None, ((c, m, from), s2)) -> exists s', reset c m from s2 = (None, s').
Proof. exact reset_after_pre_succeeds. Qed.
Print Assumptions C29_checkout_no_late_refusal.

(* any op sequence: a refused step is a no-op *)
Theorem C29_step_atomic : forall o s e s', step o s = (Some e, s') -> s' = s.
Proof.
  intros o s e s' H. destruct o; cbn [step] in H.
  - eapply checkout_err_unchanged; eauto.
  - eapply reset_err_unchanged; eauto.
  - discriminate.
  - discriminate.
Qed.
Print Assumptions C29_step_atomic.

(* non-vacuity: every class of refusal occurs, on the very state that exposed the defect *)
Example C29_refusals :
  checkout (mkCopts o_other (-1) false false false) c29_state = (Some EUnstaged, c29_state) /\
  checkout (mkCopts o_new 1 true false false) c29_state = (Some EUnstaged, c29_state) /\
  checkout (mkCopts o_new 7 true true false) c29_state = (Some EObjectNotFound, c29_state) /\
  checkout (mkCopts o_other 1 false false false) c29_state = (Some EBranchHashExclusive, c29_state) /\
  checkout (mkCopts o_other (-1) true true false) c29_state = (Some EBranchExists, c29_state).
Proof. vm_compute. repeat split. Qed.

Example C29_missing_object_refusals :
  checkout (mkCopts o_new (-1) true false false) (with_head c29_clean (HDet 9)) = (Some EObjectNotFound, with_head c29_clean (HDet 9)) /\
  checkout (mkCopts [] 100 false false false) c29_clean = (Some EOther, c29_clean) /\
  checkout (mkCopts o_new 1 true true false) (without_tree c29_clean [1%Z]) = (Some EObjectNotFound, without_tree c29_clean [1%Z]) /\
  reset 1 Soft None (with_head c29_clean (HSym (b "refs/tags/t"))) = (Some EOther, with_head c29_clean (HSym (b "refs/tags/t"))).
Proof. vm_compute. repeat split. Qed.

Example C29_reset_refusals :
  reset 1 Merge None c29_state = (Some EUnstaged, c29_state) /\
  reset 1 Keep None c29_state = (Some ELocalChanges, c29_state) /\
  reset 9 Hard None c29_state = (Some EObjectNotFound, c29_state).
Proof. vm_compute. repeat split. Qed.

(* Restore, Add, Commit, Merge, Pull and the injected-fault statements live in Properties/C29Ops.v *)
From GoGit Require Export Properties.C29Ops.
