(* Properties/C05.v — SHA-1 digests detect known collision attacks.
   Each statement is proved from the lemmas of Proofs/C05.v and Proofs/SHA.v.

   What is proved: (1) the published colliding messages collide under the
   executable SHA-1 of Spec/SHA.v — not only the published pairs but every
   pair obtained by appending a common suffix — so an entry point that uses
   plain SHA-1 necessarily emits the attacker's digest; (2) over the call lists
   regenerated from the Go sources on every run, every SHA-1 entry point of
   go-git reaches only the collision-detecting constructor (plumbing/hash
   registry or sha1cd).  What is NOT modelled: sha1cd's detector itself (its
   behaviour on the attack files is exercised on every run, see TRUSTED in props/C05.py). *)
From Coq Require Import List String Bool NArith.
From GoGit Require Import Base.Out Spec.SHA Spec.ShaAttack Gen.C05 Model.HashWiring Proofs.SHA Proofs.C05.
Import ListNotations.

(* SHAttered (Stevens et al. 2017): the two PDF prefixes, and every extension *)
Theorem C05_shattered_collides :
  sha1 shattered_1 = sha1 shattered_2 /\ shattered_1 <> shattered_2 /\
  sha1 shattered_1 = unhex "f92d74e3874587aaf443d1db961d4e26dde13e9c"%string.
Proof. exact shattered_collides. Qed.
Print Assumptions C05_shattered_collides.

Theorem C05_shattered_family : forall s,
  sha1 (shattered_1 ++ s) = sha1 (shattered_2 ++ s) /\ shattered_1 ++ s <> shattered_2 ++ s.
Proof. exact shattered_family. Qed.
Print Assumptions C05_shattered_family.

(* SHA-1 is a Shambles (Leurent, Peyrin 2020): chosen-prefix collision *)
Theorem C05_shambles_collides :
  sha1 shambles_1 = sha1 shambles_2 /\ shambles_1 <> shambles_2 /\
  sha1 shambles_1 = unhex "8ac60ba76f1999a1ab70223f225aefdc78d4ddc0"%string.
Proof.
  destruct (shambles_family []) as [E N]. rewrite !app_nil_r in *.
  exact (conj E (conj N shambles_digest)).
Qed.
Print Assumptions C05_shambles_collides.

Theorem C05_shambles_family : forall s,
  sha1 (shambles_1 ++ s) = sha1 (shambles_2 ++ s) /\ shambles_1 ++ s <> shambles_2 ++ s.
Proof. exact shambles_family. Qed.
Print Assumptions C05_shambles_family.

(* consequently: whatever reaches plain SHA-1 answers "collides" on the whole family *)
Theorem C05_plain_emits_colliding_digest : forall ks s,
  has_plain ks = true ->
  pair_out ks true (shattered_1 ++ s) (shattered_2 ++ s) = OOk [OSym "collides"%string] /\
  pair_out ks true (shambles_1 ++ s) (shambles_2 ++ s) = OOk [OSym "collides"%string].
Proof.
  intros ks s Hp. split.
  - exact (pair_out_collides ks _ _ Hp (proj1 (shattered_family s))).
  - exact (pair_out_collides ks _ _ Hp (proj1 (shambles_family s))).
Qed.
Print Assumptions C05_plain_emits_colliding_digest.

(* the wiring: every entry point in the regenerated table reaches at least one
   SHA-1 constructor and only collision-detecting ones *)
Theorem C05_wiring : forall e, In e entry_points -> safe table e = true.
Proof. exact wiring. Qed.
Print Assumptions C05_wiring.

Theorem C05_wiring_no_plain : forall e, In e entry_points -> has_plain (sha1_ctors table e) = false.
Proof. intros e Hin. apply safe_no_plain. now apply wiring. Qed.
Print Assumptions C05_wiring_no_plain.

(* the same predicate on the call lists of the tree before the repair: the
   object hashers, the objfile writer, the pack scanner's object hasher, the
   idx/rev checksum of PackWriter.save and the rev-file decoder reach Go's
   crypto registry (stdlib SHA-1), while plumbing/hash.New does not *)
Theorem C05_wiring_unfixed_refuted :
  ~ (forall e, In e (map e_key table_unfixed) -> safe table_unfixed e = true).
Proof.
  intros Hall. destruct unfixed_refuted as [H _].
  rewrite (Hall "plumbing.NewHasher"%string) in H; [discriminate | now left].
Qed.
Print Assumptions C05_wiring_unfixed_refuted.

Example C05_ex_entry_points : List.length entry_points = 27%nat /\ In "plumbing.NewHasher"%string entry_points.
Proof. split; [reflexivity | now left]. Qed.

Example C05_ex_scanner : sha1_ctors table "packfile.NewScanner"%string <> [].
Proof. vm_compute. discriminate. Qed.

Example C05_ex_sha256_unaffected :
  sha256 shattered_1 <> sha256 shattered_2 /\ sha256 shambles_1 <> sha256 shambles_2.
Proof. split; [exact shattered_sha256_differ | vm_compute; discriminate]. Qed.

Example C05_ex_suffix :
  sha1 (shattered_1 ++ [1;2;3]%N) = sha1 (shattered_2 ++ [1;2;3]%N).
Proof. exact (proj1 (shattered_family [1;2;3]%N)). Qed.
