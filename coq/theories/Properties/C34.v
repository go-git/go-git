(* Properties/C34.v — Pkt-line and sideband framing round-trip under any chunking.
   The lemmas behind the theorems are in Proofs/C34{Stream,Hex,Pkt,Peek,Sideband}.v.
   A reader is the list of chunks successive io.Reader.Read calls deliver;
   [concat r] is the byte stream.  MaxSizeN = 65520, payload limit 65516. *)
From Coq Require Import List NArith ZArith Bool.
From GoGit Require Import Base.Out Gen.C34 Model.PktLine Model.Sideband
  Proofs.C34Stream Proofs.C34Hex Proofs.C34Pkt Proofs.C34Peek Proofs.C34Sideband.
Import ListNotations.

(* Chunking independence: however the byte stream is split into Read results,
   one Read, the ReadLine loop and the Scanner loop give the same answers. *)
Theorem C34_chunking : forall bufsz r1 r2, concat r1 = concat r2 ->
  fst (pkt_read bufsz r1) = fst (pkt_read bufsz r2) /\
  concat (snd (pkt_read bufsz r1)) = concat (snd (pkt_read bufsz r2)) /\
  read_all bufsz r1 = read_all bufsz r2 /\ scan_all r1 = scan_all r2.
Proof.
  intros bufsz r1 r2 H. destruct (pkt_read_flat bufsz r1 r2 H) as [A B].
  repeat split; auto using read_all_flat, scan_all_flat.
Qed.
Print Assumptions C34_chunking.

(* Round trip: any sequence of data / flush / delim / response-end packets that
   go-git can write (no payload above MaxPayloadSize), none of them starting
   with "ERR ", is read back as the same sequence, for EVERY chunking r of the
   written stream. *)
Theorem C34_roundtrip : forall ps s r,
  enc_pkts ps = Some s -> forallb no_errline ps = true -> concat r = s ->
  decode_pkts (read_all MaxSizeN r) = Some ps.
Proof.
  intros ps s r He Hne Hr.
  rewrite (read_all_enc MaxSizeN ps s r MaxSizeN_ge4 He Hr). cbn [decode_pkts].
  apply decode_items_enc; [eapply enc_pkts_ok; eauto|assumption].
Qed.
Print Assumptions C34_roundtrip.

(* ... and the Scanner loop sees the same packets, then stops cleanly *)
Theorem C34_roundtrip_scanner : forall ps s r,
  enc_pkts ps = Some s -> forallb no_errline ps = true -> concat r = s ->
  scan_all r = RAll (map (rd_of_pkt MaxSizeN) ps ++ [mkrd (-1) [] None]) /\
  forall p, In p ps -> rd_err (rd_of_pkt MaxSizeN p) = None /\ pkt_of_rd (rd_of_pkt MaxSizeN p) = Some p.
Proof.
  intros ps s r He Hne Hr. split; [eapply scan_all_enc; eauto|].
  intros p Hin. apply pkt_of_rd_max.
  - pose proof (enc_pkts_ok _ _ He) as H. rewrite forallb_forall in H. auto.
  - rewrite forallb_forall in Hne. auto.
Qed.
Print Assumptions C34_roundtrip_scanner.

(* PeekLine on a bufio.Reader whose buffer can hold the packet returns what
   ReadLine would read, for any chunking (and consumes nothing: it only returns a value) *)
Theorem C34_peek : forall bufsize r p e rest,
  enc_pkt p = Some e -> concat r = e ++ rest -> (List.length e <= bufsize)%nat ->
  peek_line bufsize r = rd_of_pkt MaxSizeN p.
Proof. exact peek_line_enc. Qed.
Print Assumptions C34_peek.

(* Error packets: WriteError(text) is read back as the payload plus an
   *ErrorLine whose text is the original one when it has no outer white space *)
Theorem C34_errline : forall text r rest e bufsz,
  enc_pkt (PData (err_payload text)) = Some e -> concat r = e ++ rest ->
  (zlen (err_payload text) + 4 <= Z.of_nat bufsz)%Z ->
  fst (pkt_read bufsz r) =
    mkrd (zlen (err_payload text) + 4) (err_payload text) (Some (PEerrline (trim_space (text ++ [NL])))) /\
  concat (snd (pkt_read bufsz r)) = rest /\
  (clean_text text = true -> trim_space (text ++ [NL]) = text).
Proof.
  intros text r rest e bufsz He Hr Hb.
  assert (0 <= zlen (err_payload text))%Z as Hnn by apply zlen_nonneg.
  assert (4 <= bufsz)%nat as Hb4 by Lia.lia.
  destruct (pkt_read_enc bufsz r _ e rest Hb4 He Hr) as [Hd Hrest].
  split; [|split; [assumption|apply trim_clean]].
  rewrite Hd. unfold rd_of_pkt. unfold err_payload at 1. cbn [errPrefix zb pktline_errPrefix map app List.length Nat.eqb].
  fold (err_payload text).
  destruct (Z.gtb_spec (zlen (err_payload text) + 4) (Z.of_nat bufsz)); [Lia.lia|].
  now rewrite errline_of_err.
Qed.
Print Assumptions C34_errline.

(* Payloads of 0..MaxPayloadSize bytes are encodable (header + payload, the
   empty one as "0004"); anything larger is rejected *)
Theorem C34_max : forall p,
  ((zlen p <= pktline_MaxPayloadSize)%Z ->
     exists e, pkt_write p = Some e /\ List.length e = (List.length p + 4)%nat) /\
  ((zlen p > pktline_MaxPayloadSize)%Z -> pkt_write p = None).
Proof.
  intros p. split; [|apply pkt_write_none].
  intros H. rewrite (pkt_write_some p H). eexists. split; [reflexivity|].
  destruct (Nat.eqb_spec (List.length p) 0) as [E|E]; [rewrite E; reflexivity|].
  rewrite app_length, hex16_length. Lia.lia.
Qed.
Print Assumptions C34_max.

(* Resynchronisation: with ANY caller buffer of at least 4 bytes, reading a
   written stream yields one item per packet; a packet that does not fit the
   buffer yields io.ErrUnexpectedEOF and exactly its bytes are skipped, so every
   other packet is still read correctly (rd_of_pkt), and the loop ends with io.EOF *)
Theorem C34_resync : forall bufsz ps s r,
  (4 <= bufsz)%nat -> enc_pkts ps = Some s -> concat r = s ->
  read_all bufsz r = RAll (map (rd_of_pkt bufsz) ps ++ [rd_fail PEeof]).
Proof. exact read_all_enc. Qed.
Print Assumptions C34_resync.

(* Malformed lengths: on ARBITRARY bytes a prefix that ParseLength refuses
   (non-hex, 0003, above 65520) gives ErrInvalidPktLen and consumes exactly the
   four prefix bytes; and whenever a Read succeeds (or returns an ErrorLine) its
   payload is exactly the bytes delimited by a valid length prefix *)
Theorem C34_malformed : forall bufsz r,
  ((4 <= bufsz)%nat -> (4 <= List.length (concat r))%nat -> parse_length (firstn 4 (concat r)) = None ->
     fst (pkt_read bufsz r) = rd_fail PEinvalid /\ concat (snd (pkt_read bufsz r)) = skipn 4 (concat r)) /\
  (forall d r', pkt_read bufsz r = (d, r') ->
     (rd_err d = None \/ exists t, rd_err d = Some (PEerrline t)) ->
     exists n, parse_length (firstn 4 (concat r)) = Some n /\ rd_len d = n /\ (4 <= List.length (concat r))%nat /\
       (if (n <=? 4)%Z then rd_payload d = [] /\ concat r' = skipn 4 (concat r)
        else rd_payload d = firstn (Z.to_nat n - 4) (skipn 4 (concat r)) /\
             List.length (rd_payload d) = (Z.to_nat n - 4)%nat /\ (n <= Z.of_nat bufsz)%Z /\
             concat r' = skipn (Z.to_nat n) (concat r))).
Proof.
  intros bufsz r. split; [apply pkt_read_malformed|]. intros d r'. apply pkt_read_sound.
Qed.
Print Assumptions C34_malformed.

(* Totality (also C53): on ANY chunked byte stream and any buffer size the
   Read loop and the Scanner loop terminate within their stated fuel *)
Theorem C34_read_all_total : forall bufsz r, read_all bufsz r <> RFuel /\ scan_all r <> RFuel.
Proof. intros. split; [apply read_all_total|apply scan_all_total]. Qed.
Print Assumptions C34_read_all_total.

(* Muxer: each WriteChannel is cut into packets of at most max = limit-5 payload
   bytes (all but the last full), whose payloads concatenate to the write *)
Theorem C34_mux : forall t ws,
  mux_session t ws = MOk (sb_stream (flat_map (sb_pkts_of t) ws)) /\
  forall ch p, let cs := chunks_of (List.length p) (mux_max_nat t) p in
    sb_pkts_of t (ch, p) = map (pair ch) cs /\ concat cs = p /\
    Forall (fun c => 1 <= List.length c <= mux_max_nat t)%nat cs /\
    Forall (fun c => List.length c = mux_max_nat t) (removelast cs) /\
    (mux_max t = 995 \/ mux_max t = 65515)%Z.
Proof.
  intros t ws. split; [apply mux_session_spec|]. intros ch p. cbn zeta.
  destruct (chunks_of_spec _ (mux_max_nat_pos t) _ p (le_n _)) as (Hc & Hb & Hf).
  repeat split; auto using mux_max_cases.
Qed.
Print Assumptions C34_mux.

(* Demuxer after Muxer: for both sideband types, every list of writes on the
   PackData / progress channels, every chunking r of the muxed stream followed
   by a flush packet (or just ending), and EVERY sequence of read sizes: the
   bytes returned are exactly the PackData bytes in order, each successful Read
   fills its buffer, the stream ends with io.EOF once exhausted, and the
   progress sink has received all progress bytes, in order, by then. *)
Theorem C34_demux : forall t hp ws,
  Forall (fun w => fst w = 1 \/ fst w = 2)%N ws ->
  exists s, mux_session t ws = MOk s /\
  forall (r : reader) (tail rest : bytes) (sizes : list nat),
    tail_ok tail rest -> concat r = s ++ tail ->
    exists reads d',
      demux_session t hp sizes (mkdmx r [] []) [] = DSess reads d' /\
      concat (map fst reads) = firstn (sum sizes) (pack_bytes ws) /\
      (sum sizes <= List.length (pack_bytes ws) ->
         map (fun x => List.length (fst x)) reads = sizes /\ Forall (fun x => snd x = None) reads /\
         exists later, d_prog d' ++ later = prog_bytes hp ws) /\
      (List.length (pack_bytes ws) < sum sizes ->
         (exists reads0 data, reads = reads0 ++ [(data, Some DEeof)] /\ Forall (fun x => snd x = None) reads0) /\
         d_prog d' = prog_bytes hp ws /\ concat (d_r d') = rest).
Proof.
  intros t hp ws Hws. exists (sb_stream (flat_map (sb_pkts_of t) ws)). split; [apply mux_session_spec|].
  intros r tail rest sizes Ht Hr.
  destruct (session_pkts t hp ws Hws) as (Hv & Hpack & Hprog).
  destruct (demux_session_spec t hp sizes (mkdmx r [] []) _ tail rest [] Hv Ht Hr) as (reads & d' & Hs & Hc & Hle & Hgt).
  cbn zeta in Hc, Hle, Hgt. cbn [d_pending d_prog app rev] in Hs, Hc, Hle, Hgt. rewrite Hpack, Hprog in *.
  exists reads, d'. split; [exact Hs|]. split; [exact Hc|]. split.
  - intros H. destruct (Hle H) as (H1 & H2 & qs' & _ & _ & _ & H3). repeat split; auto. eauto.
  - exact Hgt.
Qed.
Print Assumptions C34_demux.

(* ... in fact for ANY stream of well-formed sideband packets (not only the
   muxer's chunking), stated for one Read from any reachable state *)
Theorem C34_demux_read : forall t hp qs req d tail rest,
  Forall (sb_valid t) qs -> tail_ok tail rest -> concat (d_r d) = sb_stream qs ++ tail ->
  read_post t hp (demux_read t hp req d) req [] d qs tail rest.
Proof. exact demux_read_spec. Qed.
Print Assumptions C34_demux_read.

(* Totality (also C53): Demuxer.Read never runs out of fuel on ANY input
   stream, pending state or read size; nor does the muxer *)
Theorem C34_demux_total : forall t hp sizes d acc req ws,
  demux_session t hp sizes d acc <> DSFuel /\ demux_read t hp req d <> DFuel /\
  mux_session t ws <> MFuel /\ mux_session t ws <> MTooLong.
Proof.
  intros. pose proof (mux_session_total t ws) as [A B].
  repeat split; auto using demux_session_total, demux_read_total.
Qed.
Print Assumptions C34_demux_total.

(* non-vacuity *)
From Coq Require Import String.
Definition ex_pkts : list pkt :=
  [PData [104; 105]; PFlush; PData []; PData [1; 80; 65; 67; 75]; PDelim; PResponseEnd]%N.

Example C34_ex_stream :
  exists s, enc_pkts ex_pkts = Some s /\ forallb no_errline ex_pkts = true /\
    decode_pkts (read_all MaxSizeN (chunk_by [1; 2; 3; 5; 1; 1]%nat s)) = Some ex_pkts /\
    decode_pkts (read_all MaxSizeN [s]) = Some ex_pkts.
Proof. eexists. split; [reflexivity|]. vm_compute. repeat split. Qed.

(* a 7-byte buffer skips the 9-byte packet and stays in sync *)
Example C34_ex_resync :
  match enc_pkts ex_pkts with
  | Some s => read_all 7 (chunk_by [3; 3]%nat s) =
      RAll [mkrd 6 [104; 105]%N None; mkrd 0 [] None; mkrd 4 [] None; rd_fail PEunexpected;
            mkrd 1 [] None; mkrd 2 [] None; rd_fail PEeof]
  | None => False
  end.
Proof. vm_compute. reflexivity. Qed.

Example C34_ex_malformed :
  parse_length (unhex "30303033"%string) = None /\ parse_length (unhex "66666631"%string) = None /\
  parse_length (unhex "30306730"%string) = None /\ parse_length (unhex "66666630"%string) = Some 65520%Z /\
  parse_length (unhex "46464630"%string) = Some 65520%Z.
Proof. vm_compute. repeat split. Qed.

Example C34_ex_errline :
  clean_text (unhex "6f6f707320782079"%string) = true /\
  fst (pkt_read MaxSizeN [unhex "30303064455252206f6f70730a"%string])
  = mkrd 13 (unhex "455252206f6f70730a"%string) (Some (PEerrline (unhex "6f6f7073"%string))).
Proof. vm_compute. split; reflexivity. Qed.

Example C34_ex_demux :
  let ws := [(1, repeat 7 2000); (2, [104; 105]); (1, [9])]%N in
  Forall (fun w => fst w = 1 \/ fst w = 2)%N ws /\
  match mux_session 0 ws with
  | MOk s =>
    List.length s = 2028%nat /\
    match demux_session 0 true [1; 1500; 1000; 3]%nat (mkdmx (chunk_by [7; 100]%nat (s ++ flushPkt)) [] []) [] with
    | DSess reads d => map (fun x => List.length (fst x)) reads = [1; 1500; 500]%nat /\
                       snd (last reads ([], None)) = Some DEeof /\ d_prog d = [104; 105]%N
    | DSFuel => False
    end
  | _ => False
  end.
Proof.
  cbn zeta. split.
  { constructor; [left; reflexivity|]. constructor; [right; reflexivity|]. constructor; [left; reflexivity|constructor]. }
  vm_compute. repeat split.
Qed.
