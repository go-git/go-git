(* Properties/C14.v — Reference and reflog storage cannot escape the refs namespace.
   Statements and their last step; the proofs live in Proofs/C14.v.
   G = Model/RefGuard.valid_reference_name (dotgit.validReferenceName,
       ReferenceName.IsSafe, pathutil.IsHFSDot / IsNTFSDot with needle ".") and
       Model/RefPaths.footprint (the paths SetRef, Ref, RemoveRef, Refs, PackRefs,
       ReflogReader, ReflogWriter, DeleteReflog hand to the filesystem);
   S = Spec/PathRes (lexical resolution; how NTFS and HFS+ see a component). *)
From Coq Require Import List NArith Bool String.
From GoGit Require Import Base.Out Model.RefStrings Model.RefName Model.RefGuard Model.RefStore Model.RefPaths
  Spec.PathRes Proofs.C14.
Import ListNotations.
Local Open Scope N_scope.

(* Names that could resolve elsewhere are refused before any filesystem call:
   every entry point that takes a name touches nothing when the guard says no. *)
Theorem C14_refused : forall o pop n,
  guarded o = true -> valid_reference_name n = false -> footprint o pop n = None.
Proof. intros o pop n Hg Hv. unfold footprint. now rewrite Hg, Hv. Qed.
Print Assumptions C14_refused.

(* FULL lexical statement.  For any name (valid or not), any entry point and
   either repository state: every path handed to the filesystem is the
   packed-refs temp file, or a '/'-separated path without backslash whose
   components — even when each is read the way NTFS (trailing spaces / periods,
   alternate data streams) or HFS+ (ignorable code points) would read it —
   resolve lexically to the very same component list (nothing is skipped,
   nothing climbs), and that list lies in refs/**, logs/**, packed-refs or an
   all-caps pseudo-ref slot. *)
Theorem C14_confined : forall o pop n l p,
  footprint o pop n = Some l -> In p l ->
  p = TMP \/
  (mem 92 p = false /\
   resolve (map view (split_on 47 p)) [] = Some (split_on 47 p) /\
   slot (split_on 47 p) = true).
Proof.
  intros o pop n l p Hf Hin. destruct (footprint_confined o pop n l p Hf Hin) as [->|H]; [now left|].
  right. now apply path_ok_resolves.
Qed.
Print Assumptions C14_confined.

(* the guard alone: an accepted name is such a path *)
Theorem C14_guard_sound : forall n, valid_reference_name n = true ->
  mem 92 n = false /\
  resolve (map view (split_on 47 n)) [] = Some (split_on 47 n) /\
  slot (split_on 47 n) = true.
Proof. intros n H. apply path_ok_resolves. now apply valid_path_ok. Qed.
Print Assumptions C14_guard_sound.

(* what the two pathutil predicates mean: the component IS ".." for the filesystem *)
Theorem C14_hfs_fold_spec : forall c, is_hfs_dot c = beqb (hfs_fold c) [46; 46].
Proof. exact is_hfs_dot_fold. Qed.
Print Assumptions C14_hfs_fold_spec.
Theorem C14_ntfs_fold_spec : forall c,
  is_ntfs_dot c = has_prefix [46; 46] c && beqb (ntfs_stem c) [].
Proof. exact is_ntfs_dot_fold. Qed.
Print Assumptions C14_ntfs_fold_spec.

(* non-vacuity *)
Example C14_ok_names :
  valid_reference_name (bytes_of_string "refs/heads/feature/x"%string) = true /\
  valid_reference_name (bytes_of_string "FETCH_HEAD"%string) = true /\
  footprint RLogWrite true (bytes_of_string "refs/heads/a"%string)
  = Some [bytes_of_string "logs/refs/heads"%string; bytes_of_string "logs/refs/heads/a"%string].
Proof. vm_compute. repeat split. Qed.
Example C14_escapes_refused :
  map (fun s => valid_reference_name (bytes_of_string s))
    ["../config"; "refs/heads/../../config"; "config"; "refs/heads/.. "; "refs/heads/..:x"; "refs\..\config";
     "/etc/passwd"; "refs/heads/a/."; "refs//a"]%string
  = [false; false; false; false; false; false; false; false; false].
Proof. vm_compute. reflexivity. Qed.
(* ".." hidden behind a ZERO WIDTH NON-JOINER (E2 80 8C) *)
Example C14_hfs_disguise :
  let c := [46; 226; 128; 140; 46] in
  is_hfs_dot c = true /\ hfs_fold c = [46; 46] /\
  valid_reference_name (bytes_of_string "refs/heads/"%string ++ c) = false /\
  resolve [bytes_of_string "refs"%string; view c; view c; bytes_of_string "config"%string] [] = None.
Proof. vm_compute. repeat split. Qed.
