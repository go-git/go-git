(* Properties/C51.v — Commit-graph files interoperate with git.
   The theorems the property is claimed by and two worked examples; the proofs rest on Proofs/C51*.v. *)
From Coq Require Import List NArith ZArith Bool.
From Coq Require Import Permutation Lia.
From GoGit Require Import Base.Out Model.CommitGraph Spec.Dag Spec.DagGen2 Proofs.C51 Proofs.C51Reader Proofs.C51Records
  Proofs.C51Roundtrip Proofs.C51Decode Proofs.C51Derived Proofs.C51Lookup.
Import ListNotations.
Local Open Scope N_scope.

(* Every chunk the encoder declares in the table of contents is followed, at its declared
   position, by exactly the declared number of bytes, and nothing else is written before the
   trailer: the file is header ++ table ++ the chunk payloads in table order, payload i having
   the size the table states (so `git commit-graph verify` and go-git's own reader, which both
   derive chunk sizes from consecutive offsets, see every chunk whole).  For ALL inputs with
   distinct 20-byte ids and 20-byte tree ids — any parents, any times, any generation numbers,
   in particular generation-v2 offsets in [2^31, 2^32) (true since the repair of prepare()). *)
Theorem C51_table_consistent : forall es, wf_entries es ->
  let sorted := sorted_of es in
  let n := N.of_nat (List.length sorted) in
  let tbl := chunk_table es n in
  let k := N.of_nat (List.length tbl) in
  exists payloads,
    encode es = sig_CGPH ++ [1; 1; k mod 256; 0] ++ chunk_headers tbl (8 + (k + 1) * 12) ++ List.concat payloads
    /\ Forall2 payload_ok payloads tbl
    /\ nth 0 payloads [] = flat_map be32 (fanout_of sorted).
Proof. exact encode_layout. Qed.
Print Assumptions C51_table_consistent.

(* go-git's own reader (and, with it, any reader deriving chunk sizes from consecutive offsets as
   git does) accepts every file the encoder writes: header, size, table of contents (known, distinct
   chunk ids, monotone offsets), chunk sizes against the fanout total, fanout — and sees the right
   number of commits, the right fanout and the generation-v2 flag.  For ALL well-formed inputs
   (distinct 20-byte ids with byte values < 256, < 2^31 commits, file shorter than 2^62 bytes). *)
Theorem C51_reader_accepts : forall es trailer, wf_file es -> List.length trailer = 20%nat ->
  exists fi, open_file (encode es ++ trailer) = Ok fi /\
    ncommits fi = N.of_nat (List.length (sorted_of es)) /\
    f_gen2 fi = has_gen2 es /\
    f_fanout fi = fanout_of (sorted_of es).
Proof. exact reader_accepts. Qed.
Print Assumptions C51_reader_accepts.

(* the code as it was before the fix: the overflow chunk was sized with `> MaxUint32`, so an
   offset in [2^31, 2^32) wrote an overflow entry that no chunk declared *)
Theorem C51_overflow_count_before_fix_refuted :
  exists es, wf_entries es /\ has_gen2 es = true /\
    overflow_count_before_fix es = 0 /\ List.length (written_overflow_entries es) = 1%nat.
Proof. exists witness_entries. destruct overflow_before_fix_refuted as [A [B [C [D _]]]]. auto. Qed.
Print Assumptions C51_overflow_count_before_fix_refuted.

(* Per-commit read-back.  A graph is well formed (graph_ok) when: commit ids are distinct 20-byte strings
   (byte values < 256), tree ids have 20 bytes, every parent is a commit of the graph, 0 <= commit time < 2^34,
   generation (level) < 2^30, GenerationV2 < 2^64, at most 0x70000000 commits (parentNone) and fewer than 2^31
   octopus edges.  Nothing is assumed about the size of the output. *)

(* position i of the file holds the i-th commit in id order; GetCommitDataByIndex returns its tree, the positions
   and ids of ALL its parents in order (none / one / two in the two parent words, three or more through the
   EDGE chunk with the parentOctopusUsed and parentLast flags), its level and time (`time | generation << 34`)
   and its generation v2 (commit time + the 31-bit offset of the GDA2 chunk, or + the 64-bit GDO2 slot the
   word points to when the offset is >= 2^31; uint64 wrap-around of GenerationV2 - time included) *)
Theorem C51_commit_data : forall es trailer fi i, graph_ok es -> List.length trailer = 20%nat ->
  open_file (encode es ++ trailer) = Ok fi -> (i < List.length es)%nat ->
  let e := nth i (sorted_entries es) dummy_entry in
  hash_local (encode es ++ trailer) fi (N.of_nat i) = Ok (e_hash e) /\
  get_commit_data (encode es ++ trailer) fi (N.of_nat i) =
    Ok (mkCD (e_tree e) (map (hash_to_index (sorted_of es)) (e_parents e)) (e_parents e) (e_gen e)
             (if has_gen2 es then norm_gen2 e else 0) (Z.to_N (e_when e))).
Proof.
  intros es trailer fi i Hg Htr Hopen Hi e. pose proof (graph_ok_wf es Hg) as Hwf.
  assert (Hi' : (i < List.length (sorted_of es))%nat).
  { rewrite (sorted_of_length es (rt_wfe es Hwf)). exact Hi. }
  split.
  - rewrite (rt_hash_local es trailer Hwf Htr fi Hopen i Hi').
    destruct (rt_ent es Hwf i Hi') as [_ E]. unfold e. now rewrite E.
  - exact (commit_readback es trailer Hwf Htr fi Hopen i Hi').
Qed.
Print Assumptions C51_commit_data.

(* GetIndexByHash: the fanout bucket of the id's first byte and the binary search inside it (at most 40 halvings,
   uint32 midpoint) find every commit of the graph at its position *)
Theorem C51_lookup : forall es trailer fi i, graph_ok es -> List.length trailer = 20%nat ->
  open_file (encode es ++ trailer) = Ok fi -> (i < List.length es)%nat ->
  index_by_hash (encode es ++ trailer) fi (e_hash (nth i (sorted_entries es) dummy_entry)) = Ok (N.of_nat i).
Proof.
  intros es trailer fi i Hg Htr Hopen Hi. pose proof (graph_ok_wf es Hg) as Hwf.
  assert (Hi' : (i < List.length (sorted_of es))%nat).
  { rewrite (sorted_of_length es (rt_wfe es Hwf)). exact Hi. }
  destruct (rt_ent es Hwf i Hi') as [_ E]. rewrite E.
  exact (lookup_readback es trailer Hwf Htr fi Hopen i Hi').
Qed.
Print Assumptions C51_lookup.

(* decode (encode g) = Ok g: opening the file and reading every position yields the commits of g (ids, trees,
   parent ids, level, generation v2, time) in id order — a permutation of g.  GenerationV2 comes back as written
   by MemoryIndex.Add (MaxUint64 -> 0) and as 0 for every commit when some commit of g lacks it (the encoder then
   writes no generation data); [C51_roundtrip_exact]: when every commit has a proper GenerationV2 the list read
   back is g itself, sorted. *)
Theorem C51_roundtrip : forall es trailer, graph_ok es -> List.length trailer = 20%nat ->
  decode (encode es ++ trailer) = Ok (has_gen2 es, map (canon (has_gen2 es)) (sorted_entries es)) /\
  Permutation (sorted_entries es) es.
Proof.
  intros es trailer Hg Htr. pose proof (graph_ok_wf es Hg) as Hwf. split.
  - now apply decode_roundtrip.
  - apply sorted_entries_perm. apply (rt_wfe es Hwf).
Qed.
Print Assumptions C51_roundtrip.

Theorem C51_roundtrip_exact : forall es trailer, graph_ok es -> List.length trailer = 20%nat ->
  Forall (fun e => 0 < e_gen2 e < two64 - 1) es ->
  exists l, decode (encode es ++ trailer) = Ok (true, l) /\ Permutation l es.
Proof.
  intros es trailer Hg Htr H2. pose proof (graph_ok_wf es Hg) as Hwf. exists (sorted_entries es). split.
  - now apply decode_roundtrip_exact.
  - apply sorted_entries_perm. apply (rt_wfe es Hwf).
Qed.
Print Assumptions C51_roundtrip_exact.

(* the values read back are those derived from the commit objects: for a history g (Spec/Dag.v: topologically
   numbered parent lists and committer times) with injective 20-byte ids, 0 < time < 2^34, fewer than 2^30 commits
   and fewer than 2^31 parent edges, the graph whose entries carry git's generation numbers — level =
   Dag.generation, corrected commit date = DagGen2.corrected_date — is read back, for exactly the commits of g,
   as (id, tree, ids of the parents in order, Dag.generation, DagGen2.corrected_date, committer time) *)
Theorem C51_derived : forall (g : dag) (hash tree : node -> bytes) trailer,
  history_ok g hash tree -> List.length trailer = 20%nat ->
  exists l, decode (encode (entries_of_dag g hash tree) ++ trailer) = Ok (true, l) /\
    Permutation l (map (fun c => mkEntry (hash c) (tree c) (map hash (parents g c)) (N.of_nat (generation g c))
                                         (Z.to_N (corrected_date g c)) (ctime g c)) (nodes g)).
Proof. intros g hash tree trailer H Htr. exact (derived_readback g hash tree trailer H Htr). Qed.
Print Assumptions C51_derived.

(* the bit-level fact the time word rests on (Proofs/BitPack.v): a field below 2^k and a field shifted by k do not
   interfere.  The flag bits of the parent and generation-data words are read back by BitPack.flag_present and
   BitPack.flag_strip in Proofs/C51Roundtrip.v. *)
Theorem C51_time_generation_word : forall t g, t < 2 ^ 34 ->
  N.land (N.lor t (N.shiftl g 34)) (N.ones 34) = t /\ N.shiftr (N.lor t (N.shiftl g 34)) 34 = g.
Proof. intros t g H. split; [now apply BitPack.unpack_low | now apply BitPack.unpack_high]. Qed.
Print Assumptions C51_time_generation_word.

(* non-vacuity and read-back: an octopus merge (EDGE chunk) with an offset of 3000000001 (GDO2
   chunk): the reader model returns parents, times and generation numbers of the input *)
Example C51_readback :
  let es := [mkEntry (h20 1) (h20 9) [] 1 4500000000 4500000000%Z;
             mkEntry (h20 2) (h20 9) [h20 1] 2 4500000001 1500000000%Z;
             mkEntry (h20 3) (h20 9) [h20 1] 2 4500000001 1500000100%Z;
             mkEntry (h20 4) (h20 9) [h20 2; h20 3; h20 1] 3 4500000002 1500000200%Z] in
  let file := encode es ++ repeat 0 20 in
  match open_file file with
  | Ok fi =>
    f_gen2 fi = true /\ ncommits fi = 4 /\
    match get_commit_data file fi 3 with
    | Ok d => d_pidx d = [1; 2; 0] /\ d_gen d = 3 /\ d_gen2 d = 4500000002 /\ d_when d = 1500000200
    | Er _ => False
    end /\
    match get_commit_data file fi 1 with
    | Ok d => d_pidx d = [0] /\ d_gen2 d = 4500000001 /\ d_when d = 1500000000
    | Er _ => False
    end
  | Er _ => False
  end.
Proof.
  intros es file.
  assert (Hg : graph_ok es).
  { split; [split|split; [|split; [|split; [now vm_compute|reflexivity]]]].
    - vm_compute. repeat constructor; simpl; intuition discriminate.
    - repeat constructor.
    - repeat constructor.
    - apply Forall_forall. intros e He. cbn in He.
      repeat (destruct He as [<-|He]; [split; [cbn; intuition | cbn; unfold two64; lia]|]). contradiction. }
  pose proof (graph_ok_wf es Hg) as Hwf.
  destruct (reader_accepts es (repeat 0 20) (rt_wff es Hwf) eq_refl) as (fi & Hopen & Hn & Hg2 & _).
  fold file in Hopen. rewrite Hopen, Hg2, Hn.
  pose proof (fun i Hi => proj2 (C51_commit_data es (repeat 0 20) fi i Hg eq_refl Hopen Hi)) as R.
  cbv zeta in R. fold file in R.
  rewrite (R 3%nat ltac:(cbn; lia) : get_commit_data file fi 3 = _), (R 1%nat ltac:(cbn; lia) : get_commit_data file fi 1 = _).
  vm_compute. repeat split.
Qed.

(* non-vacuity of C51_derived: a history with an octopus merge whose root is dated 3*10^9 s after every other
   commit: corrected dates 4500000000.., offsets >= 2^31 in four overflow slots *)
Example C51_derived_example :
  let g := mkDag [[]; [0]; [0]; [1; 2; 0]; [3]]%nat [4500000000; 1500000000; 1500000100; 1500000200; 1500000300]%Z in
  map (generation g) (nodes g) = [1; 2; 2; 3; 4]%nat /\
  map (corrected_date g) (nodes g) = [4500000000; 4500000001; 4500000001; 4500000002; 4500000003]%Z /\
  match decode (encode (entries_of_dag g (fun c => h20 (N.of_nat c + 1)) (fun _ => h20 9)) ++ repeat 0 20) with
  | Ok (true, l) => map e_gen2 l = [4500000000; 4500000001; 4500000001; 4500000002; 4500000003] /\
                    map e_gen l = [1; 2; 2; 3; 4] /\
                    map (fun e => List.length (e_parents e)) l = [0; 1; 1; 3; 1]%nat
  | _ => False
  end.
Proof.
  intros g. split; [reflexivity|]. split; [reflexivity|].
  set (hash := fun c : node => h20 (N.of_nat c + 1)). set (tree := fun _ : node => h20 9).
  assert (H : history_ok g hash tree).
  { split; [reflexivity|]. split; [reflexivity|]. split; [|split; [|split; [|split; reflexivity]]].
    - vm_compute. repeat constructor; simpl; intuition discriminate.
    - intros c Hc. unfold hash, tree, h20. rewrite !repeat_length. repeat split.
      apply Forall_forall. intros b Hb. apply repeat_spec in Hb. cbn in Hc. lia.
    - intros c Hc. do 5 (destruct c as [|c]; [split; reflexivity|]). cbn in Hc. lia. }
  destruct (history_graph_ok g hash tree H) as [Hg Hg2].
  rewrite (decode_roundtrip_exact _ (repeat 0 20) (graph_ok_wf _ Hg) eq_refl Hg2).
  vm_compute. repeat split.
Qed.
