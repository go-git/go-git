(* Properties/C40.v — Repository loaders never serve a repository outside
   their root (lexical part: no symbolic links below the root).
   The lemmas on load and the two Chroots are in Proofs/C40.v, those on paths
   in Proofs/GoPathFacts.v.

   [under R p]  :=  p = R/c1/.../cn  with every ci a normal component
                    (non-empty, no '/', not "." and not "..").
   [good_root R] (boolean): R is absolute, filepath.Clean R = R and R <> "/". *)
From Coq Require Import List NArith Bool String.
From GoGit Require Import Base.Out Model.GoPath Model.Loader Proofs.GoPathFacts Proofs.C40.
Import ListNotations.
Local Open Scope N_scope.

(* For EVERY request path, every filesystem content (hence every gitfile
   content), both loader modes and both Chroot implementations: whatever
   FilesystemLoader.load serves is rooted lexically below R. *)
Theorem C40_confined : forall R, good_root R = true ->
  forall fuel k fs strict path tried root,
  fst (load fuel k fs R strict path tried) = Ok root -> under R root.
Proof.
  intros R HR fuel k fs strict path tried root H.
  apply (load_inv fuel k fs R strict path tried) in H as [[p Hp] _]. eapply chroot_under; eauto.
Qed.
Print Assumptions C40_confined.

(* ... and every path the loader hands to the filesystem (Lstat/Open of
   ".git" and "config") is below R as well, also when it ends in an error. *)
Theorem C40_footprint : forall R, good_root R = true ->
  forall fuel k fs strict path tried p,
  In p (snd (load fuel k fs R strict path tried)) -> under R p.
Proof.
  intros R HR fuel k fs strict path tried p H.
  destruct (load_inv fuel k fs R strict path tried) as [_ Ht]. rewrite Forall_forall in Ht.
  destruct (Ht p H) as (q & r0 & Hc & [-> | ->]); eauto using under_child, chroot_under, normal_DOTGIT, normal_CONFIG.
Qed.
Print Assumptions C40_footprint.

(* the recursion is bounded by the [tried] flag: two levels always suffice *)
Theorem C40_terminates : forall n k fs R strict path tried,
  fst (load (S (S n)) k fs R strict path tried) <> Err EFuel.
Proof.
  intros n k fs R strict path tried. destruct tried; [apply load_tried_no_fuel|].
  remember (S n) as m. cbn [load].
  destruct (chroot k fs R path) eqn:Ec; [|apply chroot_err in Ec; subst; cbn; discriminate].
  assert (Hag : forall p t, fst (let '(r, l) := load m k fs R strict p true in (r, t ++ l)) <> Err EFuel).
  { intros p t. pose proof (load_tried_no_fuel n k fs R strict p) as Hp. rewrite <- Heqm in Hp.
    destruct (load m k fs R strict p true). exact Hp. }
  (* every leaf is a second-level call or a literal answer *)
  destruct (negb false && negb strict), (negb strict && negb false),
    (lstat k fs a DOTGIT) as [[|c]|], (lstat k fs a CONFIG) as [[|c']|];
    try destruct (parse_gitfile c); try apply Hag; cbn; discriminate.
Qed.
Print Assumptions C40_terminates.

(* what is served is a directory holding a regular file "config" *)
Theorem C40_serves_repository : forall fuel k fs R strict path tried root,
  fst (load fuel k fs R strict path tried) = Ok root ->
  exists c, lstat k fs root CONFIG = Some (NFile c).
Proof. intros fuel k fs R strict path tried root H. now apply (load_inv fuel k fs R strict path tried) in H. Qed.
Print Assumptions C40_serves_repository.

(* the two billy Chroot implementations a loader base can have, on their own *)
Theorem C40_bound_chroot_confined : forall R, good_root R = true ->
  forall fs path root, chroot_bound fs R path = Ok root -> under R root.
Proof. exact chroot_bound_under. Qed.
Print Assumptions C40_bound_chroot_confined.

Theorem C40_helper_chroot_confined : forall R, good_root R = true ->
  forall path root, chroot_helper R path = Ok root -> under R root.
Proof. exact chroot_helper_under. Qed.
Print Assumptions C40_helper_chroot_confined.

Definition b (s : string) : bytes := bytes_of_string s.
Local Open Scope string_scope.

Example C40_good_root : good_root (b "/srv/git") = true.
Proof. vm_compute. reflexivity. Qed.

(* a gitfile pointing at an absolute path outside the root, reached through a
   dot-dot request: the loader ends below the root (here: not found), while a
   legitimate gitfile inside the root is followed *)
Definition ex_fs : fsmap :=
  [ (map b ["srv"; "git"], NDir);
    (map b ["srv"; "git"; "wt"], NDir);
    (map b ["srv"; "git"; "wt"; ".git"], NFile (b "gitdir: /srv/git/real.git
"));
    (map b ["srv"; "git"; "real.git"], NDir);
    (map b ["srv"; "git"; "real.git"; "config"], NFile (b "[core]"));
    (map b ["srv"; "git"; "evil"], NDir);
    (map b ["srv"; "git"; "evil"; ".git"], NFile (b "gitdir: /srv/secret.git
"));
    (map b ["srv"; "secret.git"], NDir);
    (map b ["srv"; "secret.git"; "config"], NFile (b "[core]")) ].

Example C40_follows_inside :
  fst (load 2 Bound ex_fs (b "/srv/git") false (b "../../wt") false) = Ok (b "/srv/git/real.git").
Proof. vm_compute. reflexivity. Qed.

Example C40_refuses_outside :
  fst (load 2 Bound ex_fs (b "/srv/git") false (b "evil") false) = Err ENotFound /\
  fst (load 2 Bound ex_fs (b "/srv/git") false (b "../secret.git") false) = Err ENotFound /\
  fst (load 2 Chroot ex_fs (b "/srv/git") false (b "../secret.git") false) = Err EChroot /\
  fst (load 2 Chroot ex_fs (b "/srv/git") false (b "wt/../real") false) = Ok (b "/srv/git/real.git").
Proof. vm_compute. repeat split. Qed.
