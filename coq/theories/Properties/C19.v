(* Properties/C19.v — Transactional storage shows base plus pending writes,
   then commits them.  The invariant and the simulation are in Proofs/C19.v.

   G = Model/Txn.v: storage/transactional with the three repairs committed in
   the repository worktree (IterReferences filters the base listing,
   CheckAndSetReference honours `deleted`, ShallowStorage has a `set` flag).
   S = the abstract transaction of Spec/AStore.v (a base and a view: every
   write goes to the view, every read is a query on the view, Commit makes the
   base equal to the view).  Answers are compared with [res_equiv]: listings
   up to order, but not up to multiplicity.

   Full statement of the property:
     forall U b ops, st_okb b = true ->
       Forall2 res_equiv (snd (g_run U (txn_begin b) ops)) (snd (spec_run U (spec_begin b) ops))
       /\ t_base (fst (g_run U (txn_begin b) ops)) = b
       /\ g_commit (fst (g_run U (txn_begin b) ops)) = spec_commit (fst (spec_run U (spec_begin b) ops)).
   Its second conjunct is proved for every history, and so is that Commit
   writes the transaction's own view (C19_commit_abs); the first and the third
   are proved for every history whose IterEncodedObjects calls are not made
   while an object written in the transaction is also in the base (such an
   object is listed twice: C19_view_refuted_iter_objects, a known finding).
   On the tree as found three more witnesses refuted it (corpus/C19): an
   overwritten or removed reference still listed, CAS succeeding after
   RemoveReference, SetShallow([]) ignored; they are now theorems
   (C19_repaired_witnesses). *)
From Coq Require Import List NArith Bool Permutation.
From GoGit Require Import Base.Out Spec.AStore Model.Txn Proofs.AStoreFacts Proofs.C19.
Import ListNotations.
Local Open Scope N_scope.

(* the base storage is not touched before Commit — for every history *)
Theorem C19_base_untouched : forall U b ops, t_base (fst (g_run U (txn_begin b) ops)) = b.
Proof. intros. apply g_run_base. Qed.
Print Assumptions C19_base_untouched.

(* Commit writes exactly the transaction's own view — for every history *)
Theorem C19_commit_abs : forall U b ops, st_okb b = true ->
  g_commit (fst (g_run U (txn_begin b) ops)) = absview (fst (g_run U (txn_begin b) ops)).
Proof. intros U b ops Hb. now apply g_commit_absview, Inv_run, Inv_begin, store_ok_okb. Qed.
Print Assumptions C19_commit_abs.

(* every answer equals the answer of the abstract transaction; the only
   guarded call is IterEncodedObjects (op_ok: no object written in the
   transaction is already in the base).  SetReference, CheckAndSetReference,
   Reference, IterReferences, RemoveReference, the object reads and writes,
   index, config, shallow and the three reflog calls are unguarded *)
Theorem C19_view_partial : forall U b ops,
  st_okb b = true -> guards U (txn_begin b) ops = true ->
  Forall2 res_equiv (snd (g_run U (txn_begin b) ops)) (snd (spec_run U (spec_begin b) ops)).
Proof. intros U b ops Hb Hg. now apply sim_begin. Qed.
Print Assumptions C19_view_partial.

(* ... and then Commit leaves the base equal to the abstract view *)
Theorem C19_commit_partial : forall U b ops,
  st_okb b = true -> guards U (txn_begin b) ops = true ->
  g_commit (fst (g_run U (txn_begin b) ops)) = spec_commit (fst (spec_run U (spec_begin b) ops)).
Proof.
  intros U b ops Hb Hg. rewrite (C19_commit_abs U b ops Hb).
  now destruct (sim_begin U b ops Hb Hg) as [-> _].
Qed.
Print Assumptions C19_commit_partial.

(* the full statement is still false for object listings *)
Definition U1 : universe := fun _ => (3, 1).
Definition full_view U b ops :=
  Forall2 res_equiv (snd (g_run U (txn_begin b) ops)) (snd (spec_run U (spec_begin b) ops)).

(* an object rewritten in the transaction is listed twice *)
Theorem C19_view_refuted_iter_objects :
  exists b ops, st_okb b = true /\ ~ full_view U1 b ops.
Proof.
  exists (mkStore [] [(0, tt)] 0 0 [] []), [OSetObj 0; OIterObjs 0].
  split; [reflexivity|]. unfold full_view. vm_compute. intro H.
  inversion H as [|? ? ? ? _ H2]; subst. inversion H2 as [|? ? ? ? HP _]; subst.
  apply Permutation_length in HP. discriminate.
Qed.
Print Assumptions C19_view_refuted_iter_objects.

(* ... and the guard is exact for the full listing: whenever it fails in a
   reachable state, IterEncodedObjects(AnyObject) shows an object twice and so
   differs from the view's *)
Theorem C19_guard_tight_iter_objects : forall U t,
  Inv t -> op_ok U t (OIterObjs 0) = false ->
  ~ Permutation (g_iter_objs U t 0) (st_iter_objs U 0 (absview t)).
Proof.
  intros U t HI Hg HP. cbn [op_ok] in Hg. rewrite forallb_negb in Hg.
  apply negb_false_iff, existsb_exists in Hg as ([k u] & Hin & Hhas). cbn [fst] in Hhas.
  unfold g_iter_objs, st_iter_objs in HP. rewrite !filter_typ_any in HP.
  assert (Hnd : NoDup (fm_keys (s_objs (t_base t)) ++ fm_keys (s_objs (t_tmp t)))).
  { apply (Permutation_NoDup (Permutation_sym HP)), fm_ok_keys_NoDup.
    unfold absview. cbn [s_objs]. apply fm_ok_union, HI. }
  apply (NoDup_app_disjoint _ _ k) in Hnd; [exact Hnd| |].
  - apply nmem_In. unfold fm_keys. now rewrite nmem_keys.
  - apply in_map_iff. now exists (k, u).
Qed.
Print Assumptions C19_guard_tight_iter_objects.

(* the three witnesses of the tree as found now satisfy the statement,
   answers and Commit *)
Example C19_repaired_witnesses :
  (* overwritten reference listed once, removed reference not listed *)
  snd (g_run U1 (txn_begin (mkStore [(0, RHash 0); (1, RHash 0)] [] 0 0 [] []))
             [OSetRef 0 (RHash 1); ODelRef 1; OIterRefs])
  = [ROk; ROk; RRefs [(0, RHash 1)]]
  (* CAS after RemoveReference: not found *)
  /\ snd (g_run U1 (txn_begin (mkStore [(0, RHash 0)] [] 0 0 [] []))
                [ODelRef 0; OCas 0 (RHash 1) 0 (RHash 0); OGetRef 0])
     = [ROk; RErr ENotFound; RErr ENotFound]
  (* SetShallow([]) is visible and committed *)
  /\ (let t := fst (g_run U1 (txn_begin (mkStore [] [] 0 0 [0] [])) [OSetShallow []]) in
      g_shallow t = [] /\ s_shallow (g_commit t) = []).
Proof. vm_compute. repeat split. Qed.

(* non-vacuity: a history with writes of every kind passes the guard, and
   the invariant used above holds of every state the model can reach *)
Example C19_guards_nonvacuous :
  guards U1 (txn_begin (mkStore [(0, RHash 0); (2, RSym 0)] [(1, tt)] 1 2 [1] [(0, [5])]))
    [OSetRef 0 (RHash 2); OCas 0 (RHash 3) 0 (RHash 2); OGetRef 0; OIterRefs; ODelRef 2;
     OCas 2 (RHash 1) 2 (RSym 0); OIterRefs;
     OSetObj 2; OHasObj 1; OGetObj 3 2; OIterObjs 0; OSetIdx 3; OGetIdx; OSetCfg 0; OGetCfg;
     OSetShallow []; OGetShallow; ODelLog 0; OAppendLog 0 7; OAppendLog 3 8; OGetLog 0] = true.
Proof. vm_compute. reflexivity. Qed.

Example C19_inv_reachable : forall U b ops, st_okb b = true -> Inv (fst (g_run U (txn_begin b) ops)).
Proof. intros U b ops Hb. apply Inv_run, Inv_begin, store_ok_okb. exact Hb. Qed.
