(* Properties/C09.v — Corrupt or malicious packs never yield wrong objects.
   The statements; the lemmas they rest on are in Proofs/C09.v.  The model is
   Model/PackParse.v (go-git's Scanner + Parser after the two `fix:` commits
   recorded in findings/C09.json).  [hs] is the object-id size, [Hsz] the digest,
   [inflate] zlib applied to the input at a content offset, [crc32] the CRC:
   the theorems hold for every instance of these four. *)
From Coq Require Import List NArith ZArith Bool String.
From GoGit Require Import Base.Out Model.PackBytes Model.Idx Model.PackParse Proofs.C09.
Import ListNotations.
Local Open Scope N_scope.

(* C09_sound: whatever Parser.Parse accepts, every object it announces
   - is named by the digest of "<type> <length>\0" ++ its own content (the length is
     the real one: equal to the size announced for it),
   - lies on a delta chain of exactly [r_depth o] links ([Resolves] counts them), at most maxDeltaChainDepth,
   - is what the declared delta structure says ([Resolves]: whole entries stand for their
     inflated bytes, an OFS/REF delta for apply_delta of what its base stands for, external
     bases come from the store). *)
Theorem C09_sound : forall hs Hsz inflate crc32 ext pack objs sum,
  parse hs Hsz inflate crc32 ext pack = Some (objs, sum) ->
  exists es, scan_pack hs Hsz inflate crc32 pack = Some (es, sum) /\
  forall o, In o objs ->
    r_id o = obj_id hs Hsz (r_type o) (blen (r_content o)) (r_content o) /\
    r_size o = blen (r_content o) /\ r_depth o <= MAX_DEPTH /\
    Resolves hs Hsz es ext (r_off o) (r_type o) (r_content o) (r_depth o).
Proof. exact parse_sound. Qed.
Print Assumptions C09_sound.

(* C09_rejects_what_git_rejects of DESIGN.md, structural part: an accepted pack has the signature, version 2,
   a trailer equal to the digest of everything before it, and every entry
   - inflates to exactly its declared size (neither longer nor shorter),
   - if OFS delta: names a base strictly between the pack start and itself (no cycles, no forward
     or out-of-pack references),
   - if REF delta: carries an id of the format's size,
   - if whole: got the id of its content.
   Contrapositive: a pack violating any of these is rejected. *)
Theorem C09_accepted_is_wellformed : forall hs Hsz inflate crc32 pack es sum,
  scan_pack hs Hsz inflate crc32 pack = Some (es, sum) ->
  firstn 4 pack = PACK_SIG /\ get32 (firstn 4 (skipn 4 pack)) = PACK_VERSION /\
  Forall (entry_ok hs Hsz) es /\
  exists pos, sum = Hsz hs (firstn (N.to_nat pos) pack) /\ firstn hs (skipn (N.to_nat pos) pack) = sum.
Proof. exact scan_pack_wellformed. Qed.
Print Assumptions C09_accepted_is_wellformed.

(* patchDeltaWriter (after the fix) writes exactly the number of bytes the delta announces *)
Theorem C09_delta_exact_length : forall src delta tsz out,
  apply_delta src delta = Some (tsz, out) -> blen out = tsz.
Proof. exact apply_delta_length. Qed.
Print Assumptions C09_delta_exact_length.

(* C09_depth of DESIGN.md: the limit is the regenerated constant; a chain one link longer is refused because
   [r_depth o <= MAX_DEPTH] holds for every announced object (C09_sound) *)
Example C09_depth_limit : MAX_DEPTH = 4095.
Proof. reflexivity. Qed.

(* non-vacuity: a three-entry pack (blob, OFS delta, REF delta on the OFS delta) is accepted
   by the model instantiated with SHA-1, CRC-32 and the zlib table of the case *)
Example C09_example_accepts :
  render (c08_parse 20
    "5041434b00000002000000033b789ccb48cdc9c95728484ccee60200192703de6a14789ce31698c0cd9a9b5f94ca05000bfa027976fce672dc7cc326631c266fd6d879e8ba786bbe80789c13109c20c0a80800034e00e47466a0871b57794ddf9ead793ed60ef4e7c149aa"
    [Z3 13 "68656c6c6f207061636b0a" 19; Z3 34 "0b10900b056d6f72650a" 18; Z3 73 "101190100121" 14] [])
  = "( ok x7466a0871b57794ddf9ead793ed60ef4e7c149aa ( ( 12 blob 11 xa100066be52779fa28f31d8ef9860baf1ae87acf 1925455504 ) ( 32 blob 16 xfce672dc7cc326631c266fd6d879e8ba786bbe80 205891337 ) ( 52 blob 17 x24ac75e23aee11060f476420464e1ba986fbc2a2 714845278 ) ) x91f659dddb627cc332439ab5086ca056ad4e130b x97e71925cbeefbb5db0facf556c20aae0f136842 )"%string.
Proof. vm_compute. reflexivity. Qed.

(* the witness of the repaired defect: an entry declaring 10 bytes that inflates to 5 is now rejected *)
Example C09_short_inflate_rejected :
  render (c08_parse 20
    "5041434b00000002000000013a789c3334323631050002f801008b4314809b556bf8d158e333f570e0e4732f4f42"
    [Z3 13 "3132333435" 13] [])
  = "( err reject )"%string.
Proof. vm_compute. reflexivity. Qed.
