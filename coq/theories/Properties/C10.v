(* Properties/C10.v — Pack index lookups agree across implementations and with a map.
   The statements; the lemmas they rest on are in Proofs/C10*.v.  Model: Model/Idx.v (after the
   three `fix:` commits of findings/C10.json).  [hs] is the object-id size, [H]/[Hsz]
   the digest: the theorems hold for every digest function.
   S: Spec/IdxFormat.v — git's idx v2 layout [idx_file] of the table sorted by id, and the
   plain map [lookup].  [table es] = what idxfile.Writer keeps of the objects [es] it is
   given (first occurrence of every non-zero id), sorted by id. *)
From Coq Require Import List NArith ZArith Bool String.
From GoGit Require Import Base.Out Base.GoInt Model.PackBytes Model.Idx Spec.IdxFormat
  Proofs.C10Basic Proofs.C10Order Proofs.C10Table Proofs.C10Layout Proofs.C10Lazy Proofs.C10Main
  Proofs.C10Decode Proofs.C10Memory Proofs.C10Mmap Proofs.C10Rev Proofs.C10MemHash
  Proofs.C10MmapHash Proofs.C10Prefix.
Import ListNotations.
Local Open Scope N_scope.

(* the written index is git's layout (C08_idx_is_git restated: C10_roundtrip, encode half) *)
Theorem C10_written_idx_is_git_layout : forall hs Hsz es pack,
  wf_entries hs es = true ->
  exists m, create_index hs (writer_add es [] []) pack = Ok m /\
            encode hs Hsz m = Ok (idx_file (Hsz hs) (table es) pack).
Proof. exact written_idx_is_git_layout. Qed.
Print Assumptions C10_written_idx_is_git_layout.

(* what the map answers for an id is one of the objects given to the writer, with that id *)
Theorem C10_table_is_map : forall es h e,
  lookup (table es) h = Some e -> In e es /\ e_hash e = h.
Proof. exact table_lookup_in. Qed.
Print Assumptions C10_table_is_map.

(* C10_lookup_is_map, LazyIndex: opened on the written idx (and a .rev with the v1 header),
   Contains / FindOffset / FindCRC32 / Entries / Count answer exactly like the map; offsets up to
   2^64-1 go through the 64-bit table; the binary search never runs out of the model's fuel *)
Theorem C10_lazy_lookup_is_map : forall hs H es pack rev,
  wf_entries hs es = true -> List.length pack = hs ->
  (exists hf t, rev = ([82; 73; 68; 88] ++ be32 1 ++ hf) ++ t /\ List.length hf = 4%nat) ->
  let tbl := table es in
  let L := the_lazy hs H tbl pack rev in
  lazy_init hs (idx_file H tbl pack) rev pack = Ok L /\
  (forall h, wf_hash hs h ->
     lazy_contains hs L h = Ok (match lookup tbl h with Some _ => true | None => false end) /\
     lazy_find_offset hs L h = match lookup tbl h with Some e => Ok (to_i64 (e_off e)) | None => Err ENotFound end /\
     lazy_find_crc hs L h = match lookup tbl h with Some e => Ok (e_crc e) | None => Err ENotFound end) /\
  lazy_entries hs L = (tbl, None) /\
  l_count L = N.of_nat (List.length tbl).
Proof.
  intros hs H es pack rev W Hp Hr tbl L. subst tbl L.
  pose proof (wf_entries_tbl hs es W) as WF.
  repeat split; intros;
    auto using lazy_init_ok, lazy_entries_map, lazy_contains_map, lazy_find_offset_map, lazy_find_crc_map.
Qed.
Print Assumptions C10_lazy_lookup_is_map.

(* C10_roundtrip: the index go-git writes decodes back.  Decoder.Decode accepts the written
   bytes and builds the bucketed MemoryIndex of the table ([spec_index]), provided the digest has
   the id size, hs <= 64 and — git's size bound, also enforced by go-git — not every offset needs
   the 64-bit table (a pack's first object is at offset 12) *)
Theorem C10_roundtrip : forall hs Hsz es pack,
  wf_entries hs es = true -> List.length pack = hs -> (hs <= 64)%nat ->
  (forall b, List.length (Hsz hs b) = hs) ->
  (N.of_nat (List.length (table es)) = 0 \/ n_big (table es) + 1 <= N.of_nat (List.length (table es))) ->
  exists m bytes_, create_index hs (writer_add es [] []) pack = Ok m /\ encode hs Hsz m = Ok bytes_ /\
    decode hs Hsz bytes_ = Ok (spec_index (table es) pack (S_SUM (Hsz hs) (table es) pack)).
Proof.
  intros hs Hsz es pack W Hp Hh Hd Hb.
  destruct (written_idx_is_git_layout hs Hsz es pack W) as (m & Ec & Ee).
  exists m, (idx_file (Hsz hs) (table es) pack). split; [exact Ec|]. split; [exact Ee|].
  exact (decode_layout hs Hsz (table es) pack (wf_entries_tbl hs es W) Hp Hh Hd Hb).
Qed.
Print Assumptions C10_roundtrip.

(* C10_lookup_is_map, MemoryIndex (as decoded): Contains / FindOffset (for every state of
   its offset cache) / FindCRC32 / Entries / EntriesByOffset / Count answer like the map *)
Theorem C10_memory_lookup_is_map : forall hs (Hsz : nat -> bytes -> bytes) es pack sum,
  wf_entries hs es = true -> List.length pack = hs ->
  let tbl := table es in
  let m := spec_index tbl pack sum in
  (forall h, wf_hash hs h ->
     mem_contains hs m h = Ok (match lookup tbl h with Some _ => true | None => false end) /\
     (forall st, fst (mem_find_offset hs m st h)
                 = match lookup tbl h with Some e => Ok (to_i64 (e_off e)) | None => Err ENotFound end) /\
     mem_find_crc hs m h = match lookup tbl h with Some e => Ok (e_crc e) | None => Err ENotFound end) /\
  mem_entries hs m = (tbl, None) /\
  mem_by_offset hs m = (sort_by_off tbl, None) /\
  mem_count m = N.of_nat (List.length tbl).
Proof.
  intros hs Hsz es pack sum W Hp tbl m. subst tbl m.
  pose proof (wf_entries_tbl hs es W) as WF.
  repeat split; intros;
    auto using (mem_entries_map hs Hsz), (mem_by_offset_map hs Hsz), (mem_count_map hs Hsz),
               (mem_contains_map hs Hsz), (mem_find_offset_map hs Hsz), (mem_find_crc_map hs Hsz).
Qed.
Print Assumptions C10_memory_lookup_is_map.

(* C10_lookup_is_map, mmap.PackScanner: loaded on the written idx, FindOffset answers like the map *)
Theorem C10_mmap_lookup_is_map : forall hs H es pack rev,
  wf_entries hs es = true -> List.length pack = hs -> (20 <= hs)%nat ->
  (forall b, List.length (H b) = hs) ->
  (exists hf t, rev = ([82; 73; 68; 88] ++ be32 1 ++ hf) ++ t /\ List.length hf = 4%nat) -> 16 <= blen rev ->
  let tbl := table es in
  let S := the_scanner hs H tbl pack rev in
  scan_load hs (idx_file H tbl pack) rev = Ok S /\
  forall h, wf_hash hs h ->
    scan_find_offset S h = match lookup tbl h with Some e => Ok (e_off e) | None => Err ENotFound end.
Proof.
  intros hs H es pack rev W Hp H20 Hd Hr H16 tbl S.
  pose proof (wf_entries_tbl hs es W) as WF.
  assert (Hsum : blen (S_SUM H tbl pack) = N.of_nat hs) by (unfold S_SUM, blen; now rewrite Hd).
  subst tbl S. split; intros; auto using scan_load_ok, scan_find_offset_map.
Qed.
Print Assumptions C10_mmap_lookup_is_map.

(* C10_impls_equal: on the index go-git writes, the three readers give the same FindOffset
   answer for every well-formed id (uint64 for the scanner, int64 for the other two) *)
Theorem C10_impls_equal : forall hs H (Hsz : nat -> bytes -> bytes) es pack rev sum st h,
  wf_entries hs es = true -> List.length pack = hs -> (20 <= hs)%nat ->
  (forall b, List.length (H b) = hs) ->
  (exists hf t, rev = ([82; 73; 68; 88] ++ be32 1 ++ hf) ++ t /\ List.length hf = 4%nat) -> 16 <= blen rev ->
  wf_hash hs h ->
  let tbl := table es in
  fst (mem_find_offset hs (spec_index tbl pack sum) st h) = lazy_find_offset hs (the_lazy hs H tbl pack rev) h /\
  match scan_find_offset (the_scanner hs H tbl pack rev) h with
  | Ok o => lazy_find_offset hs (the_lazy hs H tbl pack rev) h = Ok (to_i64 o)
  | Err e => lazy_find_offset hs (the_lazy hs H tbl pack rev) h = Err e
  end.
Proof.
  intros hs H Hsz es pack rev sum st h W Hp H20 Hd Hr H16 Hh tbl.
  pose proof (wf_entries_tbl hs es W) as WF.
  assert (Hsum : blen (S_SUM H tbl pack) = N.of_nat hs) by (unfold S_SUM, blen; now rewrite Hd).
  rewrite (mem_find_offset_map hs Hsz tbl pack sum WF Hp st h Hh).
  rewrite (lazy_find_offset_map hs H tbl pack rev WF Hp h Hh).
  rewrite (scan_find_offset_map hs H tbl pack rev WF Hp Hr H16 H20 Hsum h Hh).
  split; [reflexivity|]. destruct (lookup tbl h); reflexivity.
Qed.
Print Assumptions C10_impls_equal.

(* offset-to-id.  Domain: distinct offsets below 2^63 ([offsets_okb], decidable).
   S: git's rev v1 layout [rev_file] of the table (positions in offset order). *)

(* revfile.Encode of the decoded index writes git's rev layout *)
Theorem C10_rev_is_git_layout : forall hs Hsz es pack sum,
  wf_entries hs es = true -> List.length pack = hs ->
  rev_encode hs Hsz (spec_index (table es) pack sum)
  = Ok (rev_file (Hsz hs) (rev_hf hs) (table es) pack).
Proof.
  intros hs Hsz es pack sum W Hp.
  exact (rev_encode_layout hs Hsz (spec_index (table es) pack sum) (table es)
           (mem_entries_map hs Hsz (table es) pack sum (wf_entries_tbl hs es W) Hp)).
Qed.
Print Assumptions C10_rev_is_git_layout.

(* LazyIndex.FindHash (binary search through the .rev) and EntriesByOffset *)
Theorem C10_lazy_findhash_is_map : forall hs H es pack hf,
  wf_entries hs es = true -> List.length pack = hs -> offsets_okb (table es) = true ->
  let tbl := table es in
  let L := the_lazy hs H tbl pack (rev_file H hf tbl pack) in
  (forall o, o < 9223372036854775808 ->
     lazy_find_hash hs L (Z.of_N o) = match lookup_off tbl o with Some e => Ok (e_hash e) | None => Err ENotFound end) /\
  lazy_by_offset hs L = (sort_by_off tbl, None).
Proof.
  intros hs H es pack hf W Hp Ho tbl L.
  pose proof (wf_entries_tbl hs es W) as WF. destruct (offsets_okb_spec _ Ho) as [Hd Hs].
  subst tbl L. split; intros; auto using lazy_find_hash_map, lazy_by_offset_map.
Qed.
Print Assumptions C10_lazy_findhash_is_map.

(* MemoryIndex.FindHash, for every history: the cache invariant [st_ok] holds initially, is kept by
   FindOffset and FindHash, and under it FindHash answers like the map by offset *)
Theorem C10_memory_findhash_history : forall hs (Hsz : nat -> bytes -> bytes) es pack sum,
  wf_entries hs es = true -> List.length pack = hs -> offsets_okb (table es) = true ->
  let tbl := table es in
  let m := spec_index tbl pack sum in
  st_ok tbl ms_init /\
  (forall st h, st_ok tbl st -> wf_hash hs h -> st_ok tbl (snd (mem_find_offset hs m st h))) /\
  (forall st o, st_ok tbl st -> o < 9223372036854775808 ->
     fst (mem_find_hash hs m st (Z.of_N o))
     = match lookup_off tbl o with Some e => Ok (e_hash e) | None => Err ENotFound end /\
     st_ok tbl (snd (mem_find_hash hs m st (Z.of_N o)))).
Proof.
  intros hs Hsz es pack sum W Hp Ho tbl m.
  pose proof (wf_entries_tbl hs es W) as WF. destruct (offsets_okb_spec _ Ho) as [Hd Hs].
  split; [exact (st_ok_init hs Hsz tbl pack sum WF Hp Hd Hs)|]. split.
  - intros st h Hst Hh. exact (mem_find_offset_keeps hs Hsz tbl pack sum WF Hp Hd Hs st h Hst Hh).
  - intros st o Hst Hlt. exact (mem_find_hash_map hs Hsz tbl pack sum WF Hp Hd Hs st o Hst).
Qed.
Print Assumptions C10_memory_findhash_history.

(* mmap.PackScanner.FindHash (closed-interval binary search through the .rev, uint64 offsets):
   for every offset the id of the map by offset; needs distinct offsets only *)
Theorem C10_mmap_findhash_is_map : forall hs H es pack hf o,
  wf_entries hs es = true -> List.length pack = hs -> (20 <= hs)%nat ->
  (forall b, List.length (H b) = hs) -> distinct_offsets (table es) ->
  let tbl := table es in
  scan_find_hash hs (the_scanner hs H tbl pack (rev_file H hf tbl pack)) o
  = match lookup_off tbl o with Some e => Ok (e_hash e) | None => Err ENotFound end.
Proof.
  intros hs H es pack hf o W Hp H20 Hd Hdist tbl.
  exact (scan_find_hash_map hs H tbl pack hf (wf_entries_tbl hs es W) Hp H20 Hd Hdist o).
Qed.
Print Assumptions C10_mmap_findhash_is_map.

(* EntriesWithPrefix (abbreviated-id resolution): LazyIndex and MemoryIndex enumerate exactly
   the entries whose id starts with the prefix, in id order; S = [with_prefix] (a filter) *)
Theorem C10_prefix_is_filter : forall hs H (Hsz : nat -> bytes -> bytes) es pack rev sum p,
  wf_entries hs es = true -> List.length pack = hs ->
  (exists hf t, rev = ([82; 73; 68; 88] ++ be32 1 ++ hf) ++ t /\ List.length hf = 4%nat) ->
  wf_prefix p ->
  let tbl := table es in
  lazy_prefix hs (the_lazy hs H tbl pack rev) p = (with_prefix tbl p, None) /\
  mem_prefix hs (spec_index tbl pack sum) p = (with_prefix tbl p, None).
Proof.
  intros hs H Hsz es pack rev sum p W Hp Hr Hwp tbl. subst tbl.
  pose proof (wf_entries_tbl hs es W) as WF.
  split; auto using lazy_prefix_map, (mem_prefix_map hs Hsz).
Qed.
Print Assumptions C10_prefix_is_filter.

(* C10_reject: malformed files are rejected by Decoder.Decode *)
Theorem C10_reject_magic : forall hs Hsz file,
  bytes_eqb (firstn 4 file) IDX_MAGIC = false -> decode hs Hsz file = Err EReject.
Proof. exact decode_bad_magic. Qed.
Print Assumptions C10_reject_magic.

Theorem C10_reject_version : forall hs Hsz file,
  (get32 (firstn 4 (skipn 4 file)) =? IDX_VERSION) = false -> decode hs Hsz file = Err EReject.
Proof. exact decode_bad_version. Qed.
Print Assumptions C10_reject_version.

(* anything Decode accepts has a 256-entry non-decreasing fanout table ... *)
Theorem C10_reject_fanout : forall hs Hsz file m,
  decode hs Hsz file = Ok m ->
  List.length (m_fanout m) = NFANOUT /\
  forall a b pre post, m_fanout m = pre ++ a :: b :: post -> a <= b.
Proof. exact decode_fanout_monotone. Qed.
Print Assumptions C10_reject_fanout.

(* ... and a length inside git's [min,max] for its object count (overflow-checked leaves from Gen) *)
Theorem C10_reject_size : forall hs Hsz file m,
  decode hs Hsz file = Ok m -> size_ok hs (last (m_fanout m) 0) (blen file) = true.
Proof. exact decode_size_ok. Qed.
Print Assumptions C10_reject_size.

(* C10_o64_range: a 64-bit offset is answered from inside the table or not at all *)
Theorem C10_o64_range_memory : forall m b i o,
  mem_get_offset m b i = Ok o ->
  let ofs := get32 (slice (b_off32 b) (4 * i) 4) in
  (N.land ofs O64MASK = 0 /\ o = ofs) \/
  (N.land ofs O64MASK <> 0 /\ 8 * N.ldiff ofs O64MASK + 8 <= blen (m_off64 m) /\
   o = get64 (slice (m_off64 m) (8 * N.ldiff ofs O64MASK) 8)).
Proof. exact mem_get_offset_in_range. Qed.
Print Assumptions C10_o64_range_memory.

Theorem C10_o64_range_lazy : forall s pos o,
  lazy_offset s pos = Ok o ->
  exists b, read_at (l_file s) (l_off32 s + pos * L_OFF32) L_OFF32 = Some b /\
  ((N.land (get32 b) L_MASK = 0 /\ o = get32 b) \/
   (N.land (get32 b) L_MASK <> 0 /\ N.ldiff (get32 b) L_MASK < l_count64 s /\
    exists b64, read_at (l_file s) (l_off64 s + N.ldiff (get32 b) L_MASK * L_OFF64) L_OFF64 = Some b64 /\ o = get64 b64)).
Proof. exact lazy_offset_in_range. Qed.
Print Assumptions C10_o64_range_lazy.

Theorem C10_o64_range_mmap : forall s pos o,
  scan_offset s pos = Ok o ->
  let start := s_off32 s + pos * S_OFF32 in
  start + S_OFF32 <= blen (s_idx s) /\
  let off32 := get32 (slice (s_idx s) start S_OFF32) in
  ((N.land off32 S_MASK = 0 /\ o = off32) \/
   (N.land off32 S_MASK <> 0 /\ s_off64 s + N.ldiff off32 S_MASK * S_OFF64 + S_OFF64 <= s_trailer s)).
Proof. exact scan_offset_in_range. Qed.
Print Assumptions C10_o64_range_mmap.

(* PackScanner (after the fix): the tables announced by the object count fit before the trailer *)
Theorem C10_mmap_count_fits : forall hs idx rev s,
  scan_load hs idx rev = Ok s ->
  s_off64 s <= s_trailer s /\ s_trailer s + 2 * N.of_nat hs = blen idx /\ S_IDXMIN <= blen idx.
Proof. exact scan_load_fits. Qed.
Print Assumptions C10_mmap_count_fits.

(* non-vacuity: a set with a 31-bit, a 2^31 and a 2^32 offset is in the domain, and the
   model evaluates the whole build on it *)
Example C10_wf_example :
  wf_entries 20 [E "aa00000000000000000000000000000000000001" 12 7;
                 E "0100000000000000000000000000000000000000" 2147483648 9;
                 E "aa00000000000000000000000000000000000002" 4294967296 8] = true.
Proof. vm_compute. reflexivity. Qed.

Example C10_table_example :
  map e_off (table [E "aa00000000000000000000000000000000000001" 12 7;
                    E "0100000000000000000000000000000000000000" 2147483648 9;
                    E "aa00000000000000000000000000000000000001" 99 1;
                    E "0000000000000000000000000000000000000000" 5 5;
                    E "aa00000000000000000000000000000000000002" 4294967296 8])
  = [2147483648; 12; 4294967296].
Proof. vm_compute. reflexivity. Qed.
