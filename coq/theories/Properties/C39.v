(* Properties/C39.v — The receive-pack server applies only consistent ref
   updates.  The definitions the statements use and the lemmas on the update
   loop are in Proofs/C39.v.

   G = Model/ReceivePack.v: plumbing/transport/receive_pack.go with the three
   repairs committed in the repository worktree (old value compared, new
   object required, duplicate names refused).  On the tree as found the three
   statements below were false: the witnesses are corpus/C39/witnesses.json
   (stale old value applied; reference set to an object of no store or pack;
   two commands on one name reported as one). *)
From Coq Require Import List NArith Bool.
From GoGit Require Import Base.Out Spec.AStore Model.ReceivePack Proofs.AStoreFacts Proofs.C39.
Import ListNotations.
Local Open Scope N_scope.

(* the per-command decision of updateReferences is git's rule: a command is
   applied iff its old value is the current value and its new object exists *)
Theorem C39_refines_rule : forall s c, is_invalid c = false -> g_apply s c = spec_apply s c.
Proof. intros s c Hv. now rewrite g_apply_eq, Hv. Qed.
Print Assumptions C39_refines_rule.

(* a reference is updated only if its current value equals the old value sent *)
Theorem C39_old_checked : forall s c s',
  g_apply s c = Some s' -> old_matches (fm_get (c_name c) (s_refs s)) (c_old c) = true.
Proof. intros s c s' H. now apply g_apply_Some in H. Qed.
Print Assumptions C39_old_checked.

(* "current value" in git's sense — the value reached through symbolic
   references: an applied command named a reference that is its own referent
   and whose resolved value is exactly the old value sent (absent for a create) *)
Theorem C39_old_checked_resolved : forall s c s' f,
  g_apply s c = Some s' -> resolve (S f) s (c_name c) = Some (c_name c, c_old c).
Proof.
  intros s c s' f [Ho _]%g_apply_Some. unfold old_matches in Ho. cbn [resolve].
  destruct (fm_get (c_name c) (s_refs s)) as [[h|t]|]; destruct (c_old c) as [o|]; try discriminate.
  - cbn [rv_hash optN_eqb] in Ho. apply N.eqb_eq in Ho. subst. reflexivity.
  - reflexivity.
Qed.
Print Assumptions C39_old_checked_resolved.

(* a command naming a symbolic reference (HEAD, a branch alias, dangling or
   not; create, update or delete) is never applied: a symbolic reference is
   not equal to a zero or hash old value *)
Theorem C39_symbolic_refused : forall s c, is_symbolic s (c_name c) = true -> g_apply s c = None.
Proof.
  intros s c Hs. destruct (g_apply s c) as [s'|] eqn:E; [|reflexivity].
  apply g_apply_Some in E as [E _]. unfold is_symbolic, old_matches in *.
  destruct (fm_get (c_name c) (s_refs s)) as [[h|t]|]; try discriminate. destruct (c_old c); discriminate.
Qed.
Print Assumptions C39_symbolic_refused.

(* against git receive-pack's own rule (compare the old value with the
   resolved value, update the referent; git_apply is validated against the git
   binary on every run): equal on references that are not symbolic, and on
   every reference whatever go-git applies git would apply, with the same effect *)
Theorem C39_agrees_with_git : forall s c f,
  is_invalid c = false -> is_symbolic s (c_name c) = false -> g_apply s c = git_apply (S f) s c.
Proof.
  intros s c f Hi Hs. rewrite g_apply_eq, Hi. unfold spec_apply, git_apply, old_matches, is_symbolic in *.
  cbn [resolve]. unfold is_invalid, action_of in Hi.
  destruct (fm_get (c_name c) (s_refs s)) as [[h|t]|]; try discriminate;
    destruct c as [n [o|] [w|]]; cbn [c_name c_old c_new rv_hash optN_eqb andb] in *; try discriminate;
    reflexivity.
Qed.
Print Assumptions C39_agrees_with_git.

Theorem C39_applied_subset_of_git : forall s c s' f,
  is_invalid c = false -> g_apply s c = Some s' -> git_apply (S f) s c = Some s'.
Proof.
  intros s c s' f Hi H. destruct (is_symbolic s (c_name c)) eqn:Hs.
  - rewrite (C39_symbolic_refused s c Hs) in H. discriminate.
  - rewrite <- (C39_agrees_with_git s c f Hi Hs). exact H.
Qed.
Print Assumptions C39_applied_subset_of_git.

(* ... and only to an object the repository has (after unpacking) *)
Theorem C39_new_exists : forall s c s', g_apply s c = Some s' -> new_present s (c_new c) = true.
Proof. intros s c s' H. now apply g_apply_Some in H. Qed.
Print Assumptions C39_new_exists.

(* for every command list and every store: each applied command was consistent
   in the state it met and did exactly its own update; refused commands change nothing *)
Theorem C39_run_consistent : forall cmds s, consistent_run s cmds.
Proof.
  induction cmds as [|c r IH]; intro s; [exact I|]. cbn [consistent_run].
  destruct (g_apply s c) as [s'|] eqn:E; [|apply IH].
  destruct (g_apply_Some s c s' E) as (Ho & Hn & Hs). auto.
Qed.
Print Assumptions C39_run_consistent.

(* inductive invariant of the whole service: if no reference pointed outside
   the object set before the push, none does afterwards — whatever the request *)
Theorem C39_refs_closed : forall s r, closed s -> closed (o_store (g_receive s r)).
Proof.
  intros s r Hc. pose proof (receive_cases s r) as H. destruct (accepted r).
  - rewrite H. apply fold_update_closed, unpacked_closed, Hc.
  - destruct H as [-> | ->]; [exact Hc|apply unpacked_closed, Hc].
Qed.
Print Assumptions C39_refs_closed.

(* the report is exact: for every request that reaches the update loop, the
   final references are those of the sequential application, the status list
   holds exactly one entry per command with its real outcome, the unpack line
   and the return value say whether all commands went through, and
   PostReceive sees exactly the applied commands *)
Theorem C39_report_exact : forall s r,
  accepted r = true ->
  let o := g_receive s r in
  let outs := outcomes (unpacked s r) (r_cmds r) in
  o_store o = final_store (unpacked s r) (r_cmds r)
  /\ o_ok o = forallb snd outs
  /\ (exists l, o_report o = Some (forallb snd outs, l)
                /\ forall k b, fm_get k l = Some b <-> In (k, b) outs)
  /\ (exists p, o_post o = Some p
                /\ forall c, In c p <-> In c (r_cmds r) /\ In (c_name c, true) outs).
Proof.
  intros s r Ha. pose proof (receive_cases s r) as H. rewrite Ha in H. cbn zeta. rewrite H. cbn zeta. unfold g_update.
  destruct (accepted_inv r Ha) as [Hv Hnd]. rewrite <- (outcomes_names (unpacked s r)) in Hnd.
  destruct (fold_update_spec (r_cmds r) (mkU3 (unpacked s r) [] false) Hv) as (H1 & H2 & H3).
  cbn [u_store u_status u_failed orb] in H1, H2, H3.
  cbn [o_store o_ok o_report o_post]. rewrite H1, H2, H3, negb_involutive.
  split; [reflexivity|]. split; [reflexivity|]. split.
  - eexists. split; [reflexivity|]. intros k b. apply report_exact; exact Hnd.
  - eexists. split; [reflexivity|]. intro c.
    rewrite filter_In, <- (report_exact _ _ _ Hnd). unfold status_ok.
    now destruct (fm_get (c_name c) (status_of _ [])) as [[|]|].
Qed.
Print Assumptions C39_report_exact.

(* every other request (empty, malformed command, a name twice, no
   report-status capability, unparsable pack, PreReceive refusal) leaves all
   references as they were *)
Theorem C39_not_accepted_no_update : forall s r,
  accepted r = false -> s_refs (o_store (g_receive s r)) = s_refs s.
Proof.
  intros s r Ha. pose proof (receive_cases s r) as H. rewrite Ha in H. destruct H as [-> | ->]; [reflexivity|].
  unfold unpacked. destruct (need_pack r); [destruct (r_pack r)|]; reflexivity.
Qed.
Print Assumptions C39_not_accepted_no_update.

Definition U0 : universe := fun _ => (1, 10).
Definition s0 : store := mkStore [(0, RHash 0); (1, RHash 1)] [(0, tt); (1, tt)] 0 0 [] [].

(* a request with a current update, a stale update, a create of a missing
   object and a delete is accepted; exactly the consistent commands are applied *)
Example C39_mixed_request :
  let r := mkReq true [mkCmd 0 (Some 0) (Some 2); mkCmd 1 (Some 0) (Some 2);
                       mkCmd 2 None (Some 7); mkCmd 3 None (Some 2)] (Some [2]) false in
  accepted r = true
  /\ outcomes (unpacked s0 r) (r_cmds r) = [(0, true); (1, false); (2, false); (3, true)]
  /\ s_refs (o_store (g_receive s0 r)) = [(0, RHash 2); (1, RHash 1); (3, RHash 2)].
Proof. vm_compute. repeat split. Qed.

Example C39_closed_nonvacuous : closed s0.
Proof.
  intros n h. cbn [s0 s_refs s_objs fm_get].
  destruct (n =? 0); [intro E; injection E as <-; reflexivity|].
  destruct (n =? 1); [intro E; injection E as <-; reflexivity|discriminate].
Qed.

(* symbolic server references: HEAD -> branch 0, alias 3 -> branch 0, dangling
   alias 4 -> 5: every action naming them is refused; git itself would apply the
   update through the alias and the create on the dangling one (to the referent) *)
Definition s_sym : store :=
  mkStore [(0, RHash 0); (2, RSym 0); (3, RSym 0); (4, RSym 5)] [(0, tt); (1, tt)] 0 0 [] [].
Example C39_symbolic_cases :
  g_apply s_sym (mkCmd 2 None (Some 1)) = None            (* create over HEAD *)
  /\ g_apply s_sym (mkCmd 3 None (Some 1)) = None         (* create over an alias *)
  /\ g_apply s_sym (mkCmd 4 None (Some 1)) = None         (* create over a dangling alias *)
  /\ g_apply s_sym (mkCmd 3 (Some 0) (Some 1)) = None     (* update, old = resolved value *)
  /\ g_apply s_sym (mkCmd 3 (Some 0) None) = None         (* delete, old = resolved value *)
  /\ git_apply 8 s_sym (mkCmd 3 None (Some 1)) = None     (* git refuses the create too *)
  /\ git_apply 8 s_sym (mkCmd 3 (Some 0) (Some 1)) = Some (set_ref s_sym 0 1)
  /\ git_apply 8 s_sym (mkCmd 4 None (Some 1)) = Some (set_ref s_sym 5 1)
  /\ is_symbolic s_sym 3 = true.
Proof. vm_compute. repeat split. Qed.

(* the three witnesses of the tree as found are now refused *)
Example C39_witnesses_refused :
  g_apply (mkStore [(0, RHash 0)] [(0, tt); (2, tt)] 0 0 [] []) (mkCmd 0 (Some 1) (Some 2)) = None
  /\ g_apply (mkStore [(0, RHash 0)] [(0, tt)] 0 0 [] []) (mkCmd 0 (Some 0) (Some 5)) = None
  /\ accepted (mkReq true [mkCmd 0 None (Some 0); mkCmd 0 None (Some 1)] (Some []) false) = false.
Proof. vm_compute. repeat split. Qed.
