(* Properties/C52.v — Reflog entries interoperate with git.
   The statements; the lemmas they rest on are in Proofs/C52.v (and C52Lists.v).
   G = Model/Reflog.v (go-git's Encode / Decode, after the three `fix:` commits
   to the reflog codec: git's isspace in the message normalisation, the message
   split at the first TAB after the identity, non-ASCII spaces kept at the ends
   of the name); S = Spec/ReflogGit.v (git 2.39's writer, reader and message
   normalisation, validated against the binary each run). *)
From Coq Require Import List NArith ZArith Bool String.
From GoGit Require Import Base.Out Model.Reflog Spec.ReflogGit Proofs.C52Lists Proofs.C52.
Import ListNotations.
Local Open Scope N_scope.

(* go-git reads back what it appends: every entry, message normalised.
   wf: ids of 20 or 32 bytes; name/email free of '<' '>' LF, name without
   leading/trailing SP HT LF CR; int64 time; zone a whole number of minutes
   below 100 h.  The message is ARBITRARY bytes. *)
Theorem C52_roundtrip : forall e, wf e = true -> decode (encode e) = Some [normalise e].
Proof. exact roundtrip_one. Qed.
Print Assumptions C52_roundtrip.

(* ... for whole reflog files (any history of appends) *)
Theorem C52_roundtrip_file : forall es,
  forallb wf es = true -> decode (List.concat (map encode es)) = Some (map normalise es).
Proof. exact roundtrip_file. Qed.
Print Assumptions C52_roundtrip_file.

(* git lists exactly the appended entries: ids, identity, time, +hhmm zone and
   the normalised message (wf_git = wf + SHA-1 ids + time > 0; git itself
   treats time 0 as a corrupt line) *)
Theorem C52_git_reads_ours : forall e,
  wf_git e = true -> git_read 40 (encode e) = [git_view (normalise e)].
Proof.
  intros e H. pose proof (git_reads_file [e]) as R. cbn [forallb map List.concat] in R.
  rewrite app_nil_r, H in R. now apply R.
Qed.
Print Assumptions C52_git_reads_ours.

Theorem C52_git_reads_ours_file : forall es,
  forallb wf_git es = true ->
  git_read 40 (List.concat (map encode es)) = map (fun e => git_view (normalise e)) es.
Proof. exact git_reads_file. Qed.
Print Assumptions C52_git_reads_ours_file.

(* stronger: the bytes go-git appends are the bytes git's own writer emits for
   the same fields *)
Theorem C52_encode_is_git_write : forall e,
  wf_git e = true -> encode e = git_write (git_view (normalise e)).
Proof. exact encode_is_git_write. Qed.
Print Assumptions C52_encode_is_git_write.

(* every reflog git writes (fmt_ident-sanitised identity incl. TABs and
   non-ASCII spaces, any +hhmm zone incl. -0000 and minutes >= 60, message
   with or without TAB) is decoded by go-git into the entries git shows *)
Theorem C52_we_read_git_file : forall gs,
  forallb wf_gitent gs = true ->
  decode (List.concat (map git_write gs)) = Some (map go_view gs) /\
  git_read 40 (List.concat (map git_write gs)) = gs.
Proof. exact go_reads_git_file. Qed.
Print Assumptions C52_we_read_git_file.

Theorem C52_we_read_git : forall g,
  wf_gitent g = true -> decode (git_write g) = Some [go_view g].
Proof.
  intros g H. pose proof (go_reads_git_file [g]) as R. cbn [forallb map List.concat] in R.
  rewrite app_nil_r, H in R. now apply R.
Qed.
Print Assumptions C52_we_read_git.

(* normalizeMessage is git's copy_reflog_msg, for every message *)
Theorem C52_normalize_git : forall m, normalize m = git_copy_reflog_msg m.
Proof. exact normalize_is_copy_reflog_msg. Qed.
Print Assumptions C52_normalize_git.

(* Full statement without the identity guard is FALSE of the code as it is
   (known finding ident-unsanitised): Encode writes the name verbatim. *)
Definition witness_bad_ident : entry :=
  mkEntry (repeat 0 20) (repeat 170 20) [97; 10; 98] [101] 5%Z 0%Z [109].
Theorem C52_unsanitised_ident_refuted :
  exists e, hash20 (e_old e) = true /\ hash20 (e_new e) = true /\ zone_ok (e_off e) = true /\ (0 < e_secs e)%Z /\
            decode (encode e) <> Some [normalise e] /\ git_read 40 (encode e) <> [git_view (normalise e)].
Proof. exists witness_bad_ident. vm_compute. repeat split; discriminate. Qed.
Print Assumptions C52_unsanitised_ident_refuted.

(* non-vacuity *)
Example C52_wf_example :
  let e := mkEntry (repeat 0 20) (repeat 171 20)
                   (bytes_of_string "A U Thor"%string) (bytes_of_string "a@example.com"%string)
                   1700000000%Z (-34200)%Z [32; 9; 97; 11; 98; 32; 32; 99; 10; 13] in
  wf_git e = true /\
  encode e = bytes_of_string "0000000000000000000000000000000000000000 abababababababababababababababababababab A U Thor <a@example.com> 1700000000 -0930"%string
             ++ [9; 97; 11; 98; 32; 99; 10].
Proof. vm_compute. split; reflexivity. Qed.

Example C52_wf_gitent_example :
  wf_gitent (mkGitent (repeat 1 20) (repeat 2 20) [97; 9; 98; 194; 160] [101; 9; 102] 1 (-0)%Z []) = true /\
  wf_gitent (mkGitent (repeat 1 20) (repeat 2 20) [] [] (2 ^ 62) 9959%Z [120; 9; 121]) = true.
Proof. vm_compute. split; reflexivity. Qed.
