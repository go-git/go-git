(* Properties/C21.v — A crash at any point leaves a readable, connected
   repository.  Statements and their last step; the proofs live in Proofs/C21.v and
   Proofs/CrashFacts.v.

   [crash_states ops fs] (Model/Crash.v) are ALL states a process stop can
   leave behind while the mutation list [ops] runs from directory [fs]: the
   state after every completed mutation, the state with a torn (partly
   written) file inside every write, and every partly done run of removals.
   [crash_safe g fs ops] : every one of them satisfies [repo_ok g]
   (Spec/RepoOk.v): HEAD, every loose ref file, packed-refs, shallow, index and
   config completely written, every pack has its complete idx, and every object
   needed by an effective reference is available.

   Operations are modelled after the repairs
     "fix: close the new pack before deleting the loose objects it replaces"
     "fix: rewrite packed-refs before deleting the loose file in RemoveRef"
   (findings/C21.json); before them RepackObjects and RemoveRef had unsafe
   prefixes.  The in-place rewrites (SetRef, index, config, shallow) are NOT
   repaired: refuted below, with the strongest partial statement. *)
From Coq Require Import List NArith ZArith Bool String.
From GoGit Require Import Base.Out Gen.C22 Model.Gc Model.Crash Spec.RepoOk Proofs.C22 Proofs.CrashFacts Proofs.C21.
Import ListNotations.
Local Open Scope N_scope.

(* the executable checker used by the correspondence implies the specification *)
Theorem C21_checker_sound : forall g fs, repo_okb g fs = true -> repo_ok g fs.
Proof. exact repo_okb_sound. Qed.
Print Assumptions C21_checker_sound.

(* safe operations: every crash state is fine, for every repository *)

(* loose object write (temp file + rename) *)
Theorem C21_setobj_safe : forall g fs o, repo_ok g fs -> crash_safe g fs (op_setobj fs o).
Proof. intros g fs o. apply setobj_k_safe. Qed.
Print Assumptions C21_setobj_safe.

(* pack write: idx, rev, promisor marker, and only then the pack itself *)
Theorem C21_packwrite_safe : forall g fs os prom,
  pack_fresh fs (new_pack_name fs) = true -> repo_ok g fs -> crash_safe g fs (op_packwrite fs os prom).
Proof. exact packwrite_safe. Qed.
Print Assumptions C21_packwrite_safe.

(* reference removal (packed entry first, loose file last) *)
Theorem C21_rmref_safe : forall g fs n, repo_ok g fs -> crash_safe g fs (op_rmref fs n).
Proof. exact rmref_safe. Qed.
Print Assumptions C21_rmref_safe.

(* PackRefs: packed-refs written through a temp file, loose files removed afterwards *)
Theorem C21_packrefs_safe : forall g fs, repo_ok g fs -> crash_safe g fs (op_packrefs fs).
Proof. exact packrefs_safe. Qed.
Print Assumptions C21_packrefs_safe.

(* Prune: only objects outside the walker's seen set go — by C22 nothing needed.
   wf_modes / wf_index: the boolean content well-formedness conditions of C22. *)
Theorem C21_prune_safe : forall g fs ol lim,
  wf_modes (to_repo g fs ol []) = true -> wf_index (to_repo g fs ol []) = true ->
  repo_ok g fs -> crash_safe g fs (op_prune g fs ol lim).
Proof. exact prune_safe. Qed.
Print Assumptions C21_prune_safe.

(* RepackObjects (repaired order): new pack in place, then the loose copies, then the old packs
   (each pack before its idx) *)
Theorem C21_repack_safe : forall g fs op lim,
  wf_modes (to_repo g fs [] op) = true -> wf_index (to_repo g fs [] op) = true ->
  pack_fresh fs (new_pack_name fs) = true ->
  repo_ok g fs -> crash_safe g fs (op_repack g fs op lim).
Proof. exact repack_safe. Qed.
Print Assumptions C21_repack_safe.

(* a worktree commit (new trees bottom-up, commit object, then the branch): the
   object writes are safe whatever they are ... *)
Theorem C21_commit_objects_safe : forall g fs os, repo_ok g fs -> crash_safe g fs (op_setobjs 0 fs os).
Proof. intros g fs os R. apply (setobjs_safe g os 0%nat fs R). Qed.
Print Assumptions C21_commit_objects_safe.

(* ... and the only bad crash states of the whole commit are those inside the
   final in-place rewrite of the reference file (C21_setref_refuted) *)
Theorem C21_commit_partial : forall g fs os n v s,
  repo_ok g fs -> repo_ok g (run (op_commit fs os n v) fs) ->
  In s (crash_states (op_commit fs os n v) fs) -> whole_at s (refpath n) = true -> repo_ok g s.
Proof.
  intros g fs os n v s R Rf Hs Hw. unfold op_commit in *. rewrite crash_states_app in Hs.
  apply in_app_or in Hs as [Hs|Hs].
  - destruct (setobjs_safe g os 0%nat fs R) as [H _]. eapply Forall_forall; eassumption.
  - rewrite run_app in Rf. now apply (create_write_partial g _ _ _ s Rf).
Qed.
Print Assumptions C21_commit_partial.

(* operations compose: the crash states of a sequence are those of its parts *)
Theorem C21_sequence : forall g fs a b,
  crash_safe g fs a -> crash_safe g (run a fs) b -> crash_safe g fs (a ++ b).
Proof. exact crash_safe_app. Qed.
Print Assumptions C21_sequence.

(* in-place rewrites: refuted; the only bad states are those in which the
   rewritten file is incomplete *)

(* full statement:  forall g fs n v, repo_ok g fs -> repo_ok g (run (op_setref fs n v) fs)
                                      -> crash_safe g fs (op_setref fs n v)           — false: *)
Theorem C21_setref_refuted : exists g fs n v,
  repo_ok g fs /\ repo_ok g (run (op_setref fs n v) fs) /\ ~ crash_safe g fs (op_setref fs n v).
Proof.
  exists wg, wfs, "refs/heads/main"%string, (RHash 3).
  eapply write_refutes; [vm_compute; reflexivity|vm_compute; reflexivity|now right; left|reflexivity]. Qed.
Print Assumptions C21_setref_refuted.

Theorem C21_setref_partial : forall g fs n v s,
  repo_ok g (run (op_setref fs n v) fs) ->
  In s (crash_states (op_setref fs n v) fs) -> whole_at s (refpath n) = true -> repo_ok g s.
Proof. intros *. apply create_write_partial. Qed.
Print Assumptions C21_setref_partial.

Theorem C21_casref_refuted : exists g fs n v,
  repo_ok g fs /\ repo_ok g (run (op_casref fs n v) fs) /\ ~ crash_safe g fs (op_casref fs n v).
Proof.
  exists wg, wfs, "refs/heads/main"%string, (RHash 3).
  eapply write_refutes; [vm_compute; reflexivity|vm_compute; reflexivity|now right; left|reflexivity]. Qed.
Print Assumptions C21_casref_refuted.

Theorem C21_casref_partial : forall g fs n v s,
  repo_ok g (run (op_casref fs n v) fs) ->
  In s (crash_states (op_casref fs n v) fs) -> whole_at s (refpath n) = true -> repo_ok g s.
Proof.
  intros g fs n v s.
  unfold op_casref. destruct (fexists fs (refpath n)).
  - apply (rewrite_partial g fs _ _ [MTrunc _]). constructor; [now right|constructor].
  - apply (rewrite_partial g fs _ _ [MCreate _; MTrunc _]). constructor; [now left|constructor; [now right|constructor]].
Qed.
Print Assumptions C21_casref_partial.

Theorem C21_setindex_refuted : exists g fs es,
  repo_ok g fs /\ repo_ok g (run (op_setindex es) fs) /\ ~ crash_safe g fs (op_setindex es).
Proof.
  exists wg, wfs, [(false, 0); (false, 4)].
  eapply write_refutes; [vm_compute; reflexivity|vm_compute; reflexivity|now right; left|reflexivity]. Qed.
Print Assumptions C21_setindex_refuted.

Theorem C21_setindex_partial : forall g fs es s,
  repo_ok g (run (op_setindex es) fs) ->
  In s (crash_states (op_setindex es) fs) -> whole_at s PIndex = true -> repo_ok g s.
Proof. intros *. apply create_write_partial. Qed.
Print Assumptions C21_setindex_partial.

(* config: the truncated (empty) file is still readable, a torn write is not *)
Theorem C21_setconfig_refuted : exists g fs,
  repo_ok g fs /\ repo_ok g (run op_setconfig fs) /\ ~ crash_safe g fs op_setconfig.
Proof.
  exists wg, wfs.
  eapply write_refutes; [vm_compute; reflexivity|vm_compute; reflexivity|now right; left|reflexivity]. Qed.
Print Assumptions C21_setconfig_refuted.

Theorem C21_setconfig_partial : forall g fs s,
  repo_ok g (run op_setconfig fs) ->
  In s (crash_states op_setconfig fs) -> whole_at s PConfig = true -> repo_ok g s.
Proof. intros *. apply create_write_partial. Qed.
Print Assumptions C21_setconfig_partial.

(* shallow: while the file is empty the repository is not shallow any more,
   and the parents of the shallow roots are needed but were never there *)
Theorem C21_setshallow_refuted : exists g fs l,
  repo_ok g fs /\ repo_ok g (run (op_setshallow l) fs) /\ ~ crash_safe g fs (op_setshallow l).
Proof.
  exists wg, wfs_shallow, [3]. split; [|split]; try (apply repo_okb_sound; vm_compute; reflexivity).
  intro H. apply Forall_inv in H. destruct (proj2 H 2) as [A _]; [|vm_compute in A; discriminate].
  apply needed_step with (o := 3).
  - apply needed_root. vm_compute. now left.
  - unfold kid. cbn. right. split; [reflexivity|now left].
Qed.
Print Assumptions C21_setshallow_refuted.

Theorem C21_setshallow_partial : forall g fs l s,
  l <> [] -> repo_ok g (run (op_setshallow l) fs) ->
  In s (crash_states (op_setshallow l) fs) -> whole_at s PShallow = true -> repo_ok g s.
Proof.
  intros g fs l s Hl. unfold op_setshallow. destruct l; [congruence|]. apply create_write_partial.
Qed.
Print Assumptions C21_setshallow_partial.

Example C21_witness_ok : repo_okb wg wfs = true /\ repo_okb wg wfs_shallow = true.
Proof. vm_compute. split; reflexivity. Qed.

Example C21_packwrite_example :
  pack_fresh wfs (new_pack_name wfs) = true /\
  forallb (repo_okb wg) (crash_states (op_packwrite wfs [3; 4] false) wfs) = true /\
  List.length (crash_states (op_packwrite wfs [3; 4] false) wfs) = 13%nat.
Proof. vm_compute. repeat split. Qed.
