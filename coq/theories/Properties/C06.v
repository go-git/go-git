(* Properties/C06.v — Delta encoding round-trips and all delta appliers agree
   with git.  The statements, each a few lines from the lemmas of Proofs/C06{Leaf,Apply,Diff,DiffGit}.v.

   G1 = patch_delta (patchDelta), G1' = patch_delta_wrapper (PatchDelta),
   G2 = reader_from_delta (ReaderFromDelta), G3 = patch_delta_writer
   (patchDeltaWriter; the flag says whether the base is a *bytes.Reader),
   S = git_patch_delta (git 2.39 patch-delta.c).  to_g forgets the error class.

   FULL STATEMENT of the applier half (refuted on the unchanged tree, see the
   _refuted theorems):  forall src d, to_g (G src d) = git_patch_delta src d. *)
From Coq Require Import List NArith ZArith Bool String.
From GoGit Require Import Base.Out Gen.C06 Model.Delta Spec.GitDelta
  Proofs.C06Leaf Proofs.C06Apply Proofs.C06Diff Proofs.C06DiffGit.
Import ListNotations.
Local Open Scope N_scope.

(* the buffer applier is git's patch_delta on every delta of at least 4
   bytes whose two size headers decode (<= 9 bytes each) and whose first header
   does not run to the end of the delta (git_guard, boolean) *)
Theorem C06_apply_eq_git_partial : forall src d,
  bytes_ok d = true -> git_guard d = true ->
  to_g (patch_delta src d) = git_patch_delta src d.
Proof. exact apply_eq_git. Qed.
Print Assumptions C06_apply_eq_git_partial.

(* ... and the guard cannot be dropped: each conjunct has a witness on which
   go-git and git differ (below git's DELTA_SIZE_MIN; first header reaching the
   end of the delta; a 10-byte zero-padded size that git accepts) *)
Theorem C06_apply_eq_git_refuted :
  (exists src d, bytes_ok d = true /\ to_g (patch_delta src d) <> git_patch_delta src d /\ len d <? 4 = true) /\
  (exists src d, bytes_ok d = true /\ to_g (patch_delta src d) <> git_patch_delta src d /\ 4 <=? len d = true
                 /\ leb_buf d = Ok (len src, [])) /\
  (exists src d out, bytes_ok d = true /\ patch_delta src d = Err EOverflow /\ git_patch_delta src d = GOk out).
Proof.
  split; [|split].
  - exists [104; 101; 108; 108; 111], [5; 0]. vm_compute. repeat split; discriminate.
  - exists [97], [129; 128; 128; 128]. vm_compute. repeat split; discriminate.
  - exists [104; 101; 108; 108; 111], [133; 128; 128; 128; 128; 128; 128; 128; 128; 0; 4; 144; 4], [104; 101; 108; 108].
    vm_compute. repeat split.
Qed.
Print Assumptions C06_apply_eq_git_refuted.

(* the streaming applier: whenever its reader-side header decoding succeeds
   it IS the buffer applier (same bytes, same error class), otherwise it rejects;
   under the boolean guard it is git's patch_delta *)
Theorem C06_stream_eq_git_partial : forall src d,
  (bytes_ok d = true -> stream_guard d = true -> to_g (reader_from_delta src d) = git_patch_delta src d) /\
  (reader_from_delta src d = patch_delta src d \/ exists e, reader_from_delta src d = Err e).
Proof.
  intros src d. split; [|apply stream_buffer_or_err].
  intros Hok Hg. destruct (stream_guard_git d Hg) as [Hgg Hh].
  rewrite (stream_eq_buffer src d Hh). apply apply_eq_git; assumption.
Qed.
Print Assumptions C06_stream_eq_git_partial.

(* the guard is needed: git accepts a delta that ends inside the target-size
   varint (empty target), the streaming appliers reject it *)
Theorem C06_stream_eq_git_refuted :
  exists src d, bytes_ok d = true /\ git_patch_delta src d = GOk [] /\
    reader_from_delta src d = Err EInvalid /\ patch_delta_writer true src d = Err EInvalid.
Proof. exists [104; 101; 108; 108; 111], [5; 128; 128; 128]. vm_compute. repeat split. Qed.
Print Assumptions C06_stream_eq_git_refuted.

(* the pack parser's applier with a *bytes.Reader base (the only base the
   parser passes) *)
Theorem C06_writer_eq_git_partial : forall src d,
  bytes_ok d = true -> stream_guard d = true ->
  to_g (patch_delta_writer true src d) = git_patch_delta src d.
Proof.
  intros src d Hok Hg. destruct (stream_guard_git d Hg) as [Hgg Hh].
  rewrite (writer_eq_buffer src d Hh). apply apply_eq_git; assumption.
Qed.
Print Assumptions C06_writer_eq_git_partial.

(* any other io.ReaderAt base: the declared source size is not checked.
   Equal to the bytes.Reader case exactly when the declared size is right ... *)
Theorem C06_writer_srcsz_partial : forall src d s d1,
  leb_rd d = Ok (s, d1) -> s = len src ->
  patch_delta_writer false src d = patch_delta_writer true src d.
Proof.
  intros src d s d1 H1 E. unfold patch_delta_writer. rewrite H1. cbn [eof_invalid andb].
  subst s. rewrite N.eqb_refl. reflexivity.
Qed.
Print Assumptions C06_writer_srcsz_partial.

(* ... and otherwise it accepts what git (and the other appliers) reject, and can
   succeed with fewer bytes than the declared target size *)
Theorem C06_writer_srcsz_refuted :
  (exists src d out, patch_delta_writer false src d = Ok out /\ git_patch_delta src d = GReject
                     /\ patch_delta_writer true src d = Err EInvalid) /\
  (exists src d out, patch_delta_writer false src d = Ok out /\ target_size d = Some 7 /\ len out = 3).
Proof.
  split.
  - exists [104; 101; 108; 108; 111], [6; 5; 144; 5], [104; 101; 108; 108; 111]. vm_compute. repeat split.
  - exists [104; 101; 108; 108; 111], [9; 7; 145; 2; 7], [108; 108; 111]. vm_compute. repeat split.
Qed.
Print Assumptions C06_writer_srcsz_refuted.

(* the exported wrapper PatchDelta *)
Theorem C06_wrapper_partial : forall src d,
  src <> [] -> 2 <= len d -> patch_delta_wrapper src d = patch_delta src d.
Proof.
  intros src d Hs Hd. unfold patch_delta_wrapper. destruct src; [congruence|]. cbn [is_nil orb].
  rewrite (proj2 (N.ltb_ge _ _) Hd). reflexivity.
Qed.
Print Assumptions C06_wrapper_partial.

(* empty source: git applies an insert-only delta, PatchDelta refuses it *)
Theorem C06_wrapper_refuted :
  exists d out, bytes_ok d = true /\ git_patch_delta [] d = GOk out /\ patch_delta [] d = Ok out /\
    patch_delta_wrapper [] d = Err EInvalid.
Proof. exists [0; 3; 3; 97; 98; 99], [97; 98; 99]. vm_compute. repeat split. Qed.
Print Assumptions C06_wrapper_refuted.

(* patchDelta, ReaderFromDelta and patchDeltaWriter on a *bytes.Reader base never succeed with an output whose
   length is not the declared target size (on another base patchDeltaWriter can: C06_writer_srcsz_refuted) *)
Theorem C06_no_partial_success : forall src d out,
  bytes_ok d = true -> patch_delta src d = Ok out -> target_size d = Some (len out).
Proof. exact no_partial_success. Qed.
Print Assumptions C06_no_partial_success.

Theorem C06_no_partial_success_stream : forall src d out,
  bytes_ok d = true -> reader_from_delta src d = Ok out -> target_size d = Some (len out).
Proof.
  intros src d out Hok H. destruct (stream_buffer_or_err src d) as [E|[e E]]; [|congruence].
  rewrite E in H. exact (no_partial_success src d out Hok H).
Qed.
Print Assumptions C06_no_partial_success_stream.

Theorem C06_no_partial_success_writer : forall src d out,
  bytes_ok d = true -> patch_delta_writer true src d = Ok out -> target_size d = Some (len out).
Proof.
  intros src d out Hok H. destruct (writer_buffer_or_err src d) as [E|[e E]]; [|congruence].
  exact (no_partial_success src d out Hok (to_g_eq_ok _ _ out (eq_sym E) H)).
Qed.
Print Assumptions C06_no_partial_success_writer.

(* diff round trip, for EVERY candidate function standing for the hash index.
   len src <= 2^32 is forced by the four offset bytes of encodeCopyOperation;
   len tgt < 2^63 by the 9-byte LEB128 rule (both hold for Go slices on the
   largest sources the encoder can address). *)
Theorem C06_diff_roundtrip : forall (pick : nat -> option nat) src tgt,
  len src <= 2 ^ 32 -> len tgt < 2 ^ 63 ->
  exists d, diff_delta pick src tgt = Some d /\ patch_delta src d = Ok tgt.
Proof. exact diff_roundtrip. Qed.
Print Assumptions C06_diff_roundtrip.

Theorem C06_diff_roundtrip_stream : forall (pick : nat -> option nat) src tgt,
  len src <= 2 ^ 32 -> len tgt < 2 ^ 63 ->
  exists d, diff_delta pick src tgt = Some d /\ reader_from_delta src d = Ok tgt.
Proof.
  intros pick src tgt H32 H63.
  destruct (diff_roundtrip_hdrs pick src tgt H32 H63) as (d & Hd & Hp & Hh).
  exists d. split; [assumption|]. rewrite (stream_eq_buffer src d Hh). exact Hp.
Qed.
Print Assumptions C06_diff_roundtrip_stream.

Theorem C06_diff_roundtrip_writer : forall (pick : nat -> option nat) src tgt,
  len src <= 2 ^ 32 -> len tgt < 2 ^ 63 ->
  exists d, diff_delta pick src tgt = Some d /\ patch_delta_writer true src d = Ok tgt.
Proof.
  intros pick src tgt H32 H63.
  destruct (diff_roundtrip_hdrs pick src tgt H32 H63) as (d & Hd & Hp & Hh).
  exists d. split; [assumption|]. exact (to_g_eq_ok _ _ tgt (writer_eq_buffer src d Hh) Hp).
Qed.
Print Assumptions C06_diff_roundtrip_writer.

(* git's own patch_delta maps go-git's delta back to the target (non-empty targets: git refuses the
   2-byte delta of an empty target, known finding below-git-min-delta-size) *)
Theorem C06_diff_git : forall (pick : nat -> option nat) src tgt,
  bytes_ok tgt = true -> tgt <> [] -> len src <= 2 ^ 32 -> len tgt < 2 ^ 63 ->
  exists d, diff_delta pick src tgt = Some d /\ git_patch_delta src d = GOk tgt.
Proof. exact diff_git. Qed.
Print Assumptions C06_diff_git.

(* the fuel of the model loops is sufficient: the out-of-fuel value is never produced *)
Theorem C06_fuel_sufficient :
  (forall src d, bytes_ok d = true -> patch_delta src d <> Err EFuel) /\
  (forall pick src tgt, diff_delta pick src tgt <> None).
Proof.
  split.
  { intros src d _. unfold patch_delta, leb_buf.
    destruct (leb_buf_go d 0 0) as [[s d1]|e] eqn:H1; [|intros [= ->]; exact (leb_buf_go_fuel _ _ _ H1)].
    destruct (negb (s =? len src)); [discriminate|].
    destruct (leb_buf_go d1 0 0) as [[t d2]|e] eqn:H2; [|intros [= ->]; exact (leb_buf_go_fuel _ _ _ H2)].
    apply pd_loop_fuel, Nat.lt_succ_diag_r. }
  intros pick src tgt. destruct (diff_delta_ops pick src tgt) as (ops & E & _). rewrite E. discriminate.
Qed.
Print Assumptions C06_fuel_sufficient.

(* the model's leaf predicates are the ones gotrans regenerates from /repo *)
Theorem C06_leaves_tied :
  (forall c, packfile_isCopyFromSrc (Z.of_N c) = is_copy_src c) /\
  (forall c, packfile_isCopyFromDelta (Z.of_N c) = is_copy_delta c) /\
  (forall sz r, packfile_invalidSize (Z.of_N sz) (Z.of_N r) = invalid_size sz r) /\
  (forall a b, packfile_sumOverflows (Z.of_N a) (Z.of_N b) = sum_overflows a b) /\
  (forall o s n, packfile_invalidOffsetSize (Z.of_N o) (Z.of_N s) (Z.of_N n) = invalid_offset_size o s n) /\
  (forall k, (Z.of_nat k * 7 >? packutil_uintBits - 7)%Z = Nat.ltb 8 k) /\
  packfile_maskContinue = Z.of_N mask_continue /\
  packutil_maskContinue = 128%Z /\ packutil_maskPayload = 127%Z /\
  packfile_maxCopySize = Z.of_N max_copy_size /\
  packfile_minDeltaSize = 2%Z /\
  packfile_s = Z.of_nat blk /\ packfile_blksz = Z.of_nat blk.
Proof.
  repeat split; auto using isCopyFromSrc_gen_spec, isCopyFromDelta_gen_spec, invalidSize_gen_spec,
    sumOverflows_gen_spec, invalidOffsetSize_gen_spec, leb_rule_gen_spec.
Qed.
Print Assumptions C06_leaves_tied.

Example C06_guard_nonvacuous :
  let d := [11; 6; 145; 6; 3; 144; 3] in   (* copy(6,3) copy(0,3) on "hello world" *)
  bytes_ok d = true /\ git_guard d = true /\ stream_guard d = true /\
  patch_delta (bytes_of_string "hello world"%string) d = Ok (bytes_of_string "worhel"%string) /\
  git_patch_delta (bytes_of_string "hello world"%string) d = GOk (bytes_of_string "worhel"%string).
Proof. vm_compute. repeat split. Qed.

(* a candidate function that proposes offset 3 everywhere; the 20-byte match at
   target offset 2 becomes a copy, the rest inserts *)
Example C06_diff_nonvacuous :
  let src := bytes_of_string "___abcdefghijklmnopqrstuvwxyz"%string in
  let tgt := bytes_of_string "XYabcdefghijklmnopqrstQRSTUVWXYZ0123456789"%string in
  exists d, diff_delta (fun _ => Some 3%nat) src tgt = Some d /\
            d = ([29; 42; 2; 88; 89; 145; 3; 20] ++ [20] ++ bytes_of_string "QRSTUVWXYZ0123456789"%string)%list /\
            patch_delta src d = Ok tgt.
Proof. eexists. vm_compute. repeat split. Qed.

(* the (mask, shift) tables of decodeOffset / decodeSize are regenerated from the source too *)
Theorem C06_tables_tied :
  packfile_offsets = tbl_to_Z offsets_tbl /\ packfile_sizes = tbl_to_Z sizes_tbl.
Proof. split; reflexivity. Qed.
Print Assumptions C06_tables_tied.
