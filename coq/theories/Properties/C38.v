(* Properties/C38.v — Push transfers complete history and respects update
   rules: the decision logic (partial by design: transports and servers are
   exercised, not proved).  The lemmas behind the statements are in Proofs/C38.v.

   Model: Model/PushRules.push = PushOptions.Validate (refspecs) + Remote.sendPack
   up to the request handed to the transport (commands + objects packed). *)
From Coq Require Import List NArith ZArith Bool String.
From GoGit Require Import Base.Out Model.RefSpec Model.RevList Model.PushRules Spec.ObjReach Proofs.C37 Proofs.C38.
Import ListNotations.
Local Open Scope string_scope.
Local Open Scope N_scope.

(* Every command of a push that goes out
   - carries the value the remote advertised (or zero for a name it does not have);
   - if it deletes: an explicit delete refspec names it, or prune is on and the
     reversed refspec maps it to no local reference;
   - otherwise: it is what some refspec in effect asks for (a matching local
     reference, or an object named by hash), and that refspec is forced, or a
     force-with-lease covering this very name holds, or the tag rule and the
     fast-forward check both pass. *)
Theorem C38_rules : forall st sh hexes local remote o cmds hs,
  push st sh hexes local remote o = POk (cmds, hs) ->
  Forall (cmd_ok st sh hexes local remote (eff_specs o) (po_prune o) (po_lease o)) cmds.
Proof.
  intros st sh hexes local remote o cmds hs H.
  eapply add_refs_to_update_ok; [apply incl_refl | apply (push_inv _ _ _ _ _ _ _ _ H) | constructor].
Qed.
Print Assumptions C38_rules.

(* In a repository that is not shallow, a passed fast-forward check means what
   it says: the reference is new on the remote, or the advertised commit is an
   ancestor (through stored commits) of the commit being pushed. *)
Theorem C38_ff_partial : forall st remote c,
  check_ff st [] remote c = true ->
  (k_old c = 0 /\ ref_get remote (k_name c) = None) \/ anc st (k_new c) (k_old c).
Proof.
  intros st remote c H. unfold check_ff in H. destruct (k_old c =? 0) eqn:E.
  - left. apply N.eqb_eq in E. split; [exact E|]. destruct (ref_get remote (k_name c)); [discriminate | reflexivity].
  - right. destruct (is_ff st [] (k_old c) (k_new c)) as [b|] eqn:F; [|discriminate]. subst b. now apply is_ff_sound.
Qed.
Print Assumptions C38_ff_partial.

(* ... and the full statement (for every repository) is false of the code: in a
   shallow repository isFastForward answers yes when the walk meets a shallow
   commit without finding the advertised one.  Z(7) -> X(4, shallow) -> P(3,
   not stored); the remote is at 8, a commit this repository has never seen. *)
Definition shallow_store : store :=
  [(1, Blob); (2, Tree [mkE 97 KFile 1]); (4, Commit 2 [3] 1000%Z);
   (5, Blob); (6, Tree [mkE 97 KFile 5]); (7, Commit 6 [4] 1010%Z)].

Theorem C38_shallow_ff_refuted :
  check_ff shallow_store [4] [(s2b "refs/heads/main", RHash 8)] (mkCmd (s2b "refs/heads/main") 8 7) = true /\
  ~ anc shallow_store 7 8.
Proof.
  split; [vm_compute; reflexivity|].
  intro H. inversion H as [|a t ps tm p b G Hp Hr]; subst.
  vm_compute in G. inversion G; subst. destruct Hp as [<-|[]].
  inversion Hr as [|a t ps tm p b G' Hp' Hr']; subst.
  vm_compute in G'. inversion G'; subst. destruct Hp' as [<-|[]].
  inversion Hr' as [|a t ps tm p b G'' _ _]; subst. vm_compute in G''. discriminate.
Qed.
Print Assumptions C38_shallow_ff_refuted.

(* force-with-lease: an update let through by the lease has the advertised
   value the lease expects — the explicit hash, or the remote-tracking reference *)
Theorem C38_lease : forall local ln c l,
  check_lease local ln c l = true ->
  beq_bytes (l_ref l) [] = true \/ beq_bytes (l_ref l) (k_name c) = true ->
  exists tracked,
    resolve_ref (S (Datatypes.length local)) local (REMOTES_ORIGIN ++ remove_all HEADS O ln)%list = Some tracked /\
    k_old c = (if l_hash l =? 0 then tracked else l_hash l).
Proof.
  intros local ln c l H Hc. unfold check_lease in H.
  destruct (resolve_ref (S (Datatypes.length local)) local (REMOTES_ORIGIN ++ remove_all HEADS O ln)%list) as [tr|]; [|discriminate].
  exists tr. split; [reflexivity|].
  assert (E : beq_bytes (l_ref l) [] || beq_bytes (l_ref l) (k_name c) = true) by (apply orb_true_iff; exact Hc).
  rewrite E in H. now apply N.eqb_eq in H.
Qed.
Print Assumptions C38_lease.

(* the objects packed cover the pushed history (C37 on the push side): every
   object reachable from a pushed value and not from what the remote advertised
   (or, as the code has it, from a local shallow commit) is in the pack *)
Theorem C38_objects_complete : forall st sh hexes local remote o cmds hs,
  wf_store st = true ->
  push st sh hexes local remote o = POk (cmds, hs) ->
  forallb rs_delete (match po_specs o with [] => [DEFAULT_PUSH] | l => l end) = false ->
  forall x, reach_set st sh (cmd_news cmds) x -> ~ reach_set st sh (remote_hashes remote ++ sh)%list x -> In x hs.
Proof.
  intros st sh hexes local remote o cmds hs Hwf H ND x Hx Hn.
  eapply complete; eauto. now apply (push_inv _ _ _ _ _ _ _ _ H).
Qed.
Print Assumptions C38_objects_complete.

(* "exactly the requested updates, each once" is false of the code when two
   refspecs map to one destination: two commands for refs/heads/x *)
Theorem C38_duplicate_dst_refuted :
  exists cmds hs,
    push [(1, Blob); (2, Tree [mkE 97 KFile 1]); (3, Commit 2 [] 1%Z); (4, Commit 2 [3] 2%Z)] [] []
         [(s2b "refs/heads/a", RHash 3); (s2b "refs/heads/b", RHash 4)] []
         (mkPO [s2b "refs/heads/a:refs/heads/x"; s2b "refs/heads/b:refs/heads/x"] false false None true)
    = POk (cmds, hs) /\ ~ NoDup (map k_name cmds).
Proof.
  eexists. eexists. split; [vm_compute; reflexivity|].
  intro H. inversion H as [|x l Hn _]; subst. apply Hn. now left.
Qed.
Print Assumptions C38_duplicate_dst_refuted.

(* A(3) <- B(6), A <- C(9): the remote is at B, the local branch at C *)
Definition div_store : store :=
  [(1, Blob); (2, Tree [mkE 97 KFile 1]); (3, Commit 2 [] 1000%Z);
   (4, Blob); (5, Tree [mkE 97 KFile 4]); (6, Commit 5 [3] 1010%Z);
   (7, Blob); (8, Tree [mkE 97 KFile 7]); (9, Commit 8 [3] 1020%Z)].
Definition MAIN : bytes := s2b "refs/heads/main".

(* an unforced non-fast-forward is refused ... *)
Example C38_nonff_refused :
  push div_store [] [] [(MAIN, RHash 9)] [(MAIN, RHash 6)]
       (mkPO [s2b "refs/heads/main:refs/heads/main"] false false None true) = PErr PRejected.
Proof. vm_compute. reflexivity. Qed.

(* ... also when a force-with-lease names ANOTHER reference (repaired: it used to go through) ... *)
Example C38_lease_other_ref_refused :
  push div_store [] [] [(MAIN, RHash 9); (s2b "refs/remotes/origin/main", RHash 3)] [(MAIN, RHash 6)]
       (mkPO [s2b "refs/heads/main:refs/heads/main"] false false (Some (mkLease (s2b "refs/heads/other") 0)) true)
  = PErr PRejected.
Proof. vm_compute. reflexivity. Qed.

(* ... a fast-forward goes out with the objects the remote lacks ... *)
Example C38_ff_pushed :
  push div_store [] [] [(MAIN, RHash 9)] [(MAIN, RHash 3)]
       (mkPO [s2b "refs/heads/main:refs/heads/main"] false false None true)
  = POk ([mkCmd MAIN 3 9], [7; 8; 9]).
Proof. vm_compute. reflexivity. Qed.

(* ... and prune with a forced wildcard deletes only what is gone locally (repaired:
   RefSpec.Reverse used to move the '+' into the destination and every branch was deleted) *)
Example C38_prune_forced :
  push div_store [] [] [(MAIN, RHash 6); (s2b "refs/heads/dev", RHash 9)]
       [(MAIN, RHash 3); (s2b "refs/heads/dev", RHash 9); (s2b "refs/heads/old", RHash 3)]
       (mkPO [s2b "+refs/heads/*:refs/heads/*"] false true None true)
  = POk ([mkCmd MAIN 3 6; mkCmd (s2b "refs/heads/old") 3 0], [4; 5; 6]).
Proof. vm_compute. reflexivity. Qed.
