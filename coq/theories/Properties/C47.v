(* Properties/C47.v — Revision expressions resolve as git rev-parse resolves them.
   The statements; the lemmas they rest on are in Proofs/C47.v.

   G = Model/Revision.v (internal/revision parser + Repository.ResolveRevision as they are),
   S = Spec/GitRev.v (git's get_oid_with_context on the same items; compared with the git
   binary on every case of every run).  The full statement "whatever go-git resolves, git
   resolves to the same commit" is FALSE of the code as it is — six independent refutations
   below, each replayed on the real code as a known finding.  What does hold is
   C47_eq_git_partial, which starts from the parsed items: under the boolean guard [safe] —
   outside classes 1-3 and 6 (4 and 5 are the parser's), `^n` for n <= 2 only (the parser
   rejects the rest), and without `^{tree}` / `^{blob}`, which go-git ignores and git refuses
   on a commit — the two resolvers agree, for every repository that passes [repo_ok] and
   every item list. *)
From Coq Require Import List Arith NArith ZArith Bool String.
From GoGit Require Import Base.Out Spec.Dag Model.CommitWalk Model.Revision Spec.GitRev Proofs.C47.
Import ListNotations.

Theorem C47_eq_git_partial : forall matches rp items cur n,
  repo_ok rp = true ->
  (forall c, cur = Some c -> c < nnodes (r_dag rp)) ->
  safe matches rp items cur = true ->
  resolve_items matches rp items cur = ROk n ->
  git_items matches rp items cur = ROk n.
Proof. exact resolve_sound. Qed.
Print Assumptions C47_eq_git_partial.

(* git's ^{/regex} walk (most recent pending commit first) finds a match iff one is reachable *)
Theorem C47_git_regex_walk : forall g hit (c : node),
  dag_closed g = true -> c < nnodes g ->
  match git_oneline g hit (S (nnodes g + nedges g)) [c] [c] with
  | Some x => hit x = true /\ reach g c x
  | None => forall x, reach g c x -> hit x = false
  end.
Proof.
  intros g hit c Hc Hlt. exact (oneline_walk g Hc hit c Hlt).
Qed.
Print Assumptions C47_git_regex_walk.

Local Open Scope string_scope.

(* a small repository for the refutations: 0 <- 1 <- 2 (main), ids chosen so that two
   commits share the prefix "ab12", one branch is named like the prefix of another commit *)
Definition id (s : string) : string := (s ++ "000000000000000000000000000000000000")%string.
Definition rp0 : repo :=
  mk_repo [[]; [0]; [1]; [0]; [2; 3]] [10; 20; 30; 25; 40]%Z
          ["7720410a"; "62756720746167206d0a"; "6d61696e0a"; "772042320a"; "6d657267650a"]
          [("ab12000000000000000000000000000000000000", kc 0); ("ab12100000000000000000000000000000000000", kc 1);
           (id "cd34", kc 2); (id "ef56", kc 3); (id "f789", kc 4)]
          [("HEAD", rs "refs/heads/main"); ("refs/heads/main", rh (id "f789"));
           ("refs/heads/cd34", rh "ab12000000000000000000000000000000000000")].

Definition resolve_str (s : string) : rres :=
  match parse (bytes_of_string s) with POk items => resolve_items lit_match rp0 items None | _ => RErr end.
Definition git_str (items : list item) : rres := git_items lit_match rp0 items None.

Example C47_rp0_ok : repo_ok rp0 = true. Proof. vm_compute. reflexivity. Qed.

(* 1. a prefix shorter than 4 digits resolves (git: fails) *)
Theorem C47_short_prefix_refuted :
  resolve_str "cd" = ROk 2 /\ git_str [IRef (b "cd")] = RNotFound.
Proof. vm_compute. split; reflexivity. Qed.

(* 2. an ambiguous prefix (two commits start with ab12) resolves to the first candidate (git: fails) *)
Theorem C47_ambiguous_refuted :
  resolve_str "ab12" = ROk 0 /\ git_str [IRef (b "ab12")] = RNotFound /\
  resolve_str "ab121" = ROk 1 /\ git_str [IRef (b "ab121")] = ROk 1.
Proof. vm_compute. repeat split; reflexivity. Qed.

(* 3. an abbreviated id wins over a branch of that name (git: the branch) *)
Theorem C47_hexlike_refname_refuted :
  resolve_str "cd34" = ROk 2 /\ git_str [IRef (b "cd34")] = ROk 0.
Proof. vm_compute. split; reflexivity. Qed.

(* 4. ^{/text} whose last word is a type name is parsed as a type peel and the text is dropped *)
Theorem C47_regex_type_word_refuted :
  parse (bytes_of_string "main^{/bug tag}") = POk [IRef (b "main"); ICaretType (b "tag")] /\
  resolve_str "main^{/bug tag}" = ROk 4 /\
  git_str [IRef (b "main"); ICaretReg (b "bug tag") false] = ROk 1.
Proof. vm_compute. repeat split; reflexivity. Qed.

(* 5. the token after ^{} is lost *)
Theorem C47_token_after_empty_braces_refuted :
  parse (bytes_of_string "main^{}^") = POk [IRef (b "main"); ICaretType (b "tag")] /\
  resolve_str "main^{}^" = ROk 4 /\
  git_str [IRef (b "main"); ICaretType (b "tag"); ICaret 1] = ROk 2.
Proof. vm_compute. repeat split; reflexivity. Qed.

(* 6. ^{/w}: first match of the depth-first walk, not of git's date-ordered walk *)
Theorem C47_regex_walk_order_refuted :
  resolve_str "main^{/w}" = ROk 0 /\ git_str [IRef (b "main"); ICaretReg (b "w") false] = ROk 3.
Proof. vm_compute. split; reflexivity. Qed.

(* non-vacuity of the guard: expressions outside the six classes pass it and agree *)
Example C47_safe_examples :
  forallb (fun s => match parse (bytes_of_string s) with
                    | POk items => safe lit_match rp0 items None
                                   && match resolve_items lit_match rp0 items None, git_items lit_match rp0 items None with
                                      | ROk a, ROk b => Nat.eqb a b | _, _ => false end
                    | _ => false end)
          ["main"; "HEAD~2"; "@^2"; "main^{/merge}~1"; "ef56"; "ef5600^{commit}^"; "heads/main^1^{}"; "main^{/bug}^0"]%string
  = true.
Proof. vm_compute. reflexivity. Qed.
