(* Properties/C20.v — The cached index view always equals the on-disk index.
   The statements, each a corollary of Proofs/C20.v, C20Ext.v, C20Quiet.v.

   Model/IndexCache.v: entries are heap cells, an *index.Index is a list of
   addresses, the cache remembers such a list under the file's stat key, and
   every write of .git/index (SetIndex or another process) changes the key —
   the premise of the property.  A history is ANY list of operations of
   { Index(), write through a returned entry, replace / append / remove in a
   returned slice, SetIndex(h), external rewrite, external delete }, which
   covers worktree operations that fail part-way (they simply stop before
   their SetIndex). *)
From Coq Require Import List NArith Bool String.
From GoGit Require Import Base.Out Model.IndexCache Model.IndexCacheExt Proofs.C20 Proofs.C20Ext Proofs.C20Quiet.
Import ListNotations.

(* G as repaired ("fix: copy the entries in copyIndex", deep = true): after EVERY
   history, what Index() returns is the decode of the file, and a cache entry
   whose key matches the file holds the file's content. *)
Theorem C20_inv : forall ops,
  reads_disk true (run true ops) /\ cache_ok (run true ops).
Proof. intros ops. apply all_histories. now left. Qed.
Print Assumptions C20_inv.

(* the same statement is FALSE for the tree as found (shallow copyIndex, deep = false):
   Index(); write through the returned entry; no SetIndex (the operation failed);
   the next Index() returns the written value although the file still holds (1,10) *)
Theorem C20_alias_refuted :
  exists ops, fst (read_now false (run false ops)) <> disk_content (run false ops)
              /\ disk_content (run false ops) = [(1%N, 10%N)].
Proof. exists alias_witness. split; [vm_compute; discriminate|vm_compute; reflexivity]. Qed.
Print Assumptions C20_alias_refuted.

(* ... and TRUE of the shallow copy exactly under the assumption copyIndex's doc comment
   made: callers replace entries and never modify them in place *)
Theorem C20_inv_partial : forall ops,
  no_mutate ops = true -> reads_disk false (run false ops) /\ cache_ok (run false ops).
Proof. intros ops N. apply all_histories. now right. Qed.
Print Assumptions C20_inv_partial.

(* the refuting history is harmless once copyIndex copies the entries *)
Theorem C20_deepcopy_restores : fst (read_now true (run true alias_witness)) = [(1%N, 10%N)].
Proof. vm_compute. reflexivity. Qed.
Print Assumptions C20_deepcopy_restores.

(* non-vacuity: a history with every kind of operation, ending in a state with a live cache *)
Example C20_history :
  let s := run true [OExternal [(2%N,20%N); (1%N,10%N)]; OIndex; OMutate 0 1 7%N; OAppend 0 (3%N,30%N); OSetIndex 0;
                     OMutate 0 0 8%N; OIndex; OReplace 1 0 (4%N,40%N); ORemove 1 1; OExternal [(5%N,50%N)]; OIndex] in
  fst (read_now true s) = [(5%N,50%N)] /\ cache s <> None /\ List.length (handles s) = 3.
Proof. vm_compute. repeat split; discriminate. Qed.

(* The extension pointers (Cache, ResolveUndo, EndOfIndexEntry) of the cached Index.
   Model/IndexCacheExt.v: an Index is abstracted to "reports extension data"; the decoder sets it when
   the file carries TREE / REUC / EOIE, the encoder writes none (C12).
   G as repaired ("fix: SetIndex caches an index without the extensions it did not write", fixed = true):
   after EVERY history Index() reports extensions exactly when the file has them. *)
Theorem C20_ext_inv : forall ops, ereads_disk (erun true ops) /\ einv (erun true ops).
Proof. intros ops. pose proof (einv_run_from ops einit einv_init) as Hi. split; [now apply einv_reads|exact Hi]. Qed.
Print Assumptions C20_ext_inv.

(* FALSE for the tree as found (fixed = false): read an index that carries a TREE extension, write it back:
   the file SetIndex wrote has no extension, the cached copy still reports one *)
Theorem C20_ext_stale_refuted :
  fst (eread_now (erun false stale_witness)) = true /\ edisk_ext (erun false stale_witness) = false.
Proof. vm_compute. split; reflexivity. Qed.
Print Assumptions C20_ext_stale_refuted.

(* ... and TRUE of the tree as found as long as no other program writes an index with extensions *)
Theorem C20_ext_inv_partial : forall ops, no_ext ops = true -> ereads_disk (erun false ops).
Proof. intros ops Hn. apply all_false_reads, all_false_run; [|exact Hn]. repeat split. constructor. Qed.
Print Assumptions C20_ext_inv_partial.

Example C20_ext_history :
  let s := erun true [EExternal true; EIndex; ENop; ESetIndex 0; EIndex; EExternal true; EIndex; EDrop 2; EExtDelete; EIndex] in
  ehandles s = [true; false; false; false] /\ fst (eread_now s) = false /\
  fst (eread_now (erun true [EExternal true; EIndex; ESetIndex 0; EExternal true])) = true.
Proof. vm_compute. repeat split. Qed.

(* The correspondence with quiet steps (the harness does not read the index after a step flagged
   true, so that the history's own next Index() is e.g. the cache MISS after an external rewrite):
   with no quiet step it is the plain trace; C20_inv speaks about every history whatever is observed. *)
Theorem C20_trace_quiet_loud : forall deep ops s, trace_q deep s (map (pair false) ops) = trace deep s ops.
Proof. exact trace_q_all_loud. Qed.
Print Assumptions C20_trace_quiet_loud.

Theorem C20_ext_trace_quiet_loud : forall fixed ops s, etrace_q fixed s (map (pair false) ops) = etrace fixed s ops.
Proof. exact etrace_q_all_loud. Qed.
Print Assumptions C20_ext_trace_quiet_loud.

(* non-vacuity: [external rewrite; Index() (miss); write / append / remove through the returned value;
   no SetIndex] — the next Index() returns the file *)
Example C20_miss_history :
  let s := run true [OExternal [(9%N,90%N)]; OIndex; OExternal [(2%N,20%N); (1%N,10%N)]; OIndex; OMutate 1 0 99%N;
                     OAppend 1 (3%N,30%N); ORemove 1 1] in
  fst (read_now true s) = [(1%N,10%N); (2%N,20%N)] /\ view s (nth 1 (handles s) []) = [(1%N,99%N); (3%N,30%N)].
Proof. vm_compute. split; reflexivity. Qed.
