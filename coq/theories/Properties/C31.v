(* Properties/C31.v — Line-ending conversion matches git and round-trips.
   The statements; the lemmas they rest on are in Proofs/C31Stat.v, C31Writers.v, C31Flows.v, C31Leaf.v.
   G = Model/Eol.v (go-git as it is), S = Spec/GitConvert.v (git's convert.c).

   FULL STATEMENT of the property (for every content, every chunking of the
   copies, every core.autocrlf, every staged blob `prior` at the path):
       checkout_conv ac chunks = Some (git_checkout ac (concat chunks))
    /\ add_conv ac chunks      = Some (git_add ac prior (concat chunks))
    /\ (checkout_conv ac c1 = Some f -> concat c2 = f -> add_conv ac c2 = Some (concat c1))
   The first conjunct is proved in full (C31_checkout_eq_git, after the repair of
   the mixed-line-ending defect).  The second and third are FALSE of the faithful
   model (theorems *_refuted below, witnesses replayed on the implementation:
   finding add-index-crlf); the *_partial theorems are the strongest true parts,
   under boolean guards. *)
From Coq Require Import List NArith Bool String.
From GoGit Require Import Base.Out Model.Eol Spec.GitConvert
  Proofs.C31Stat Proofs.C31Writers Proofs.C31Flows.
Import ListNotations.
Local Open Scope N_scope.

(* statistics and the binary verdict are git's (inputs shorter than 2^64
   bytes: Go's counters are 64-bit) *)
Theorem C31_stat_eq_git : forall bs, short bs = true ->
  let g := get_stat bs in let s := git_stats bs in
  s_nul g = s_nul s /\ s_lonecr g = s_lonecr s /\ s_lonelf g = s_lonelf s /\
  s_crlf g = s_crlf s /\ s_print g = s_print s /\ s_nonprint g + s_nul g = s_nonprint s.
Proof.
  intros bs H. pose proof (get_stat_git bs H) as E. cbv zeta. rewrite <- E.
  repeat split; reflexivity.
Qed.
Print Assumptions C31_stat_eq_git.

Theorem C31_is_binary_eq_git : forall bs, short bs = true ->
  is_binary (get_stat bs) = git_is_binary (git_stats bs).
Proof. exact is_binary_get_stat. Qed.
Print Assumptions C31_is_binary_eq_git.

(* one Write never runs out of fuel, emits [lf_chunk]/[crlf_chunk] and
   returns len(data) (so io.Copy never sees a short write) *)
Theorem C31_lf_write_total : forall d, lf_write d = Some (lf_chunk d, List.length d).
Proof. exact lf_write_spec. Qed.
Print Assumptions C31_lf_write_total.

Theorem C31_crlf_write_total : forall h d,
  crlf_write h d = Some (crlf_chunk h d, List.length d, next_h h d).
Proof. exact crlf_write_spec. Qed.
Print Assumptions C31_crlf_write_total.

(* crlfToLFWriter: with no lone CR in the stream (what IsBinary guarantees
   when the writer is installed) the output is git's CR-stripping loop on the
   concatenation, for EVERY chunking *)
Theorem C31_lf_chunk_free : forall chunks,
  lcf (List.concat chunks) = true ->
  lf_writer chunks = Some (strip_cr (List.concat chunks), map (@List.length N) chunks).
Proof. exact lf_writer_chunk_free. Qed.
Print Assumptions C31_lf_chunk_free.

(* the guard is necessary: a chunk-final lone CR is swallowed *)
Theorem C31_lf_chunk_free_refuted : exists c1 c2,
  List.concat c1 = List.concat c2 /\ option_map fst (lf_writer c1) <> option_map fst (lf_writer c2).
Proof. exists [[97; 13]; [98]], [[97; 13; 98]]. split; [reflexivity|]. vm_compute. discriminate. Qed.
Print Assumptions C31_lf_chunk_free_refuted.

(* lfToCRLFWriter: "no lone CR" is NOT enough (DESIGN's C31_chunk_free):
   hadCR is refreshed only at the end of Write, so an LF right after an LF
   consults the previous chunk's flag *)
Theorem C31_crlf_chunk_free_refuted : exists c1 c2,
  List.concat c1 = List.concat c2 /\ lcf (List.concat c1) = true /\
  option_map fst (crlf_writer false c1) <> option_map fst (crlf_writer false c2).
Proof.
  exists [[97; 13]; [10; 10; 98]], [[97; 13; 10; 10; 98]].
  split; [reflexivity|]. split; [reflexivity|]. vm_compute. discriminate.
Qed.
Print Assumptions C31_crlf_chunk_free_refuted.

(* strongest chunk-freedom: whenever no chunk ends with CR the output is git's
   crlf_to_worktree loop on the concatenation *)
Theorem C31_crlf_chunk_free_partial : forall chunks,
  forallb no_final_cr chunks = true ->
  crlf_writer false chunks = Some (git_lf_to_crlf false (List.concat chunks), map (@List.length N) chunks).
Proof. exact crlf_writer_no_final_cr. Qed.
Print Assumptions C31_crlf_chunk_free_partial.

(* in particular for CR-free content (the only content git converts) *)
Theorem C31_crlf_nocr : forall chunks,
  has_cr (List.concat chunks) = false ->
  crlf_writer false chunks = Some (git_lf_to_crlf false (List.concat chunks), map (@List.length N) chunks).
Proof. exact crlf_writer_nocr. Qed.
Print Assumptions C31_crlf_nocr.

(* checkout equals git for every content, every autocrlf and every
   chunking of the copy (FULL; holds since the repair "fix: leave content that
   already has CRLF untouched on autocrlf checkout" — before it, text with both
   CRLF and lone LF, e.g. "a\r\nb\nc\n", had its lone LFs converted) *)
Theorem C31_checkout_eq_git : forall ac chunks,
  short (List.concat chunks) = true ->
  checkout_conv ac chunks = Some (git_checkout ac (List.concat chunks)).
Proof. exact checkout_eq_git. Qed.
Print Assumptions C31_checkout_eq_git.

(* add equals git unless the staged blob has CRLF and the file is text with CRLF *)
Theorem C31_add_eq_git_partial : forall ac prior chunks,
  short (List.concat chunks) = true ->
  has_crlf_in_index prior && text_crlf (List.concat chunks) = false ->
  add_conv ac chunks = Some (git_add ac prior (List.concat chunks)).
Proof. exact add_eq_git. Qed.
Print Assumptions C31_add_eq_git_partial.

Theorem C31_add_index_crlf_refuted : exists prior file,
  add_conv ACTrue [file] <> Some (git_add ACTrue (Some prior) file).
Proof. exists [97; 13; 10], [97; 13; 10; 98; 13; 10]. vm_compute. discriminate. Qed.
Print Assumptions C31_add_index_crlf_refuted.

(* checkout then re-add stores the same blob, for all chunkings of both
   copies, unless the blob is text containing CRLF *)
Theorem C31_roundtrip_partial : forall ac c1 c2 f,
  short2 (List.concat c1) = true -> text_crlf (List.concat c1) = false ->
  checkout_conv ac c1 = Some f -> List.concat c2 = f ->
  add_conv ac c2 = Some (List.concat c1).
Proof. exact roundtrip. Qed.
Print Assumptions C31_roundtrip_partial.

Theorem C31_roundtrip_refuted : exists blob f,
  checkout_conv ACTrue [blob] = Some f /\ add_conv ACTrue [f] <> Some blob.
Proof. exists [97; 13; 10], [97; 13; 10]. split; [reflexivity|]. vm_compute. discriminate. Qed.
Print Assumptions C31_roundtrip_refuted.

(* git's own algorithm round-trips every blob (this is what has_crlf_in_index is for) *)
Theorem C31_git_roundtrip : forall ac blob, git_add ac (Some blob) (git_checkout ac blob) = blob.
Proof. exact git_roundtrip. Qed.
Print Assumptions C31_git_roundtrip.

(* the status hasher declares exactly the number of bytes it hashes *)
Theorem C31_node_size : forall ac chunks sz content,
  short (List.concat chunks) = true ->
  node_hash_input ac chunks = Some (sz, content) -> sz = N.of_nat (List.length content).
Proof. exact node_size. Qed.
Print Assumptions C31_node_size.

(* guards are satisfiable by interesting content: LF text, pure CRLF text, binary *)
Example C31_guards_inhabited :
  let lf := [97; 10; 98; 10] in let crlf := [97; 13; 10; 98; 13; 10] in let bin := [97; 13; 98; 0; 10] in
  short lf = true /\ short bin = true /\
  text_crlf lf = false /\ text_crlf crlf = true /\ short2 crlf = true /\
  lcf crlf = true /\ has_cr lf = false /\
  checkout_conv ACTrue [[97; 10]; [98; 10]] = Some [97; 13; 10; 98; 13; 10] /\
  add_conv ACInput [[97; 13]; [10; 98; 13; 10]] = Some lf /\
  checkout_conv ACTrue [[97; 13]; [10; 98; 10]] = Some [97; 13; 10; 98; 10].
Proof. vm_compute. repeat split; reflexivity. Qed.

(* GetStat trusts its reader: an answer (1, io.EOF) loses the byte, and a
   first answer (1 byte ^Z, io.EOF) wraps the non-printable counter *)
Example C31_stat_reader_contract :
  get_stat_ev [RByteEOF 0] stat0 false 0 = stat0 /\
  s_nonprint (get_stat_ev [RByteEOF SUB] stat0 false 0) = 2 ^ 64 - 1.
Proof. vm_compute. split; reflexivity. Qed.

(* Stat.IsBinary is regenerated from utils/convert/stat.go on every run (Gen/C31.v):
   the model's is_binary is exactly that function *)
From Coq Require Import ZArith.
From GoGit Require Import Gen.C31 Proofs.C31Leaf.
Theorem C31_is_binary_tied : forall s,
  convert_Stat_IsBinary (Z.of_N (s_nul s)) (Z.of_N (s_lonecr s))
                        (Z.of_N (s_print s)) (Z.of_N (s_nonprint s))
  = is_binary s.
Proof. exact is_binary_gen_spec. Qed.
Print Assumptions C31_is_binary_tied.
