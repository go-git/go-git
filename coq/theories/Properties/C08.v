(* Properties/C08.v — Packs git writes are indexed exactly as git indexes them.
   Each statement is proved from the lemmas of Proofs/C08.v, C08Unique.v, C09.v, C10Main.v.
   Model: Model/PackParse.v (Scanner + Parser, after the `fix:` of findings/C08.json)
   and Model/Idx.v (idxfile.Writer / Encode).  S: Spec/IdxFormat.v, git's idx v2
   layout (validated against `git index-pack` on every case of the suite). *)
From Coq Require Import List NArith ZArith Bool String Sorting.Permutation.
From GoGit Require Import Base.Out Model.PackBytes Model.Idx Model.PackParse Spec.IdxFormat
  Proofs.C10Order Proofs.C10Layout Proofs.C10Main Proofs.C09 Proofs.C08 Proofs.C08Unique.
From GoGit Require Properties.C09.
Import ListNotations.
Local Open Scope N_scope.

(* C08_resolution: the objects Parser.Parse announces are exactly what the declarative
   resolution relation assigns to the pack's entries, whatever the order of the walk:
   (sound) every announced object satisfies [Resolves] — with external (thin-pack) bases
   taken from the store — and (complete) every entry of the pack has an announced object. *)
Theorem C08_resolution_sound : forall hs Hsz inflate crc32 ext pack objs sum,
  parse hs Hsz inflate crc32 ext pack = Some (objs, sum) ->
  exists es, scan_pack hs Hsz inflate crc32 pack = Some (es, sum) /\
  forall o, In o objs ->
    Resolves hs Hsz es ext (r_off o) (r_type o) (r_content o) (r_depth o) /\
    r_id o = obj_id hs Hsz (r_type o) (blen (r_content o)) (r_content o).
Proof.
  intros hs Hsz inflate crc32 ext pack objs sum E. apply parse_sound in E. destruct E as (es & Es & Ho).
  exists es. split; [exact Es|]. intros o Hin. destruct (Ho o Hin) as (A & _ & _ & D). auto.
Qed.
Print Assumptions C08_resolution_sound.

Theorem C08_resolution_complete : forall hs Hsz ext es s,
  resolve hs Hsz ext es = Some s ->
  forall e, In e es -> exists o, In o (p_oi s) /\ r_off o = oh_off e.
Proof. exact resolve_complete. Qed.
Print Assumptions C08_resolution_complete.

(* C08_resolution_unique: the relation is a function of the pack — the offsets the scanner
   announces are distinct, and if the store files objects under their own ids and no two objects of
   this pack and store share an id ([no_collision], the assumption every git implementation makes),
   an offset resolves to at most one (type, content).  With sound + complete: the announced objects
   are THE resolution of the pack, in whatever order the walk produced them. *)
Theorem C08_resolution_unique : forall hs Hsz inflate crc32 ext pack es sum,
  scan_pack hs Hsz inflate crc32 pack = Some (es, sum) ->
  NoDup (map oh_off es) /\
  (store_ok hs Hsz ext -> no_collision hs Hsz es ext ->
   forall off t c d t' c' d', Resolves hs Hsz es ext off t c d -> Resolves hs Hsz es ext off t' c' d' -> t = t' /\ c = c').
Proof.
  intros hs Hsz inflate crc32 ext pack es sum E. apply scan_pack_offsets in E.
  split; [exact E|]. eauto using resolves_functional.
Qed.
Print Assumptions C08_resolution_unique.

(* C08_depth_boundary: the chain-depth rule at its exact boundary.  The limit is the constant
   regenerated from the source (maxDeltaChainDepth = 4095, git's own --depth maximum).
   (rule)     checkDeltaChainDepth, on the uncached and on the cached path alike, takes a delta whose
              parent has depth pd iff pd + 1 <= maxDeltaChainDepth;
   (walk)     resolving a chain of n links on a whole object link by link succeeds iff n <= maxDeltaChainDepth
              ([chain_walk], the model expression of the suite's 4094/4095/4096-link packs);
   (link)     so the link completing a chain of exactly maxDeltaChainDepth is taken — its object gets
              that depth — and the link after it is refused;
   (accepted) in an accepted pack every object's [r_depth] is the number of links of its chain
              ([Resolves] counts them) and is at most maxDeltaChainDepth;
   (rejected) a pack holding a chain of more than maxDeltaChainDepth OFS links is never accepted,
              for any chain and any order of the walk (the scanner's offsets are distinct, so the chain
              under an offset has one length). *)
Theorem C08_depth_boundary :
  MAX_DEPTH = 4095 /\
  (forall pd, chain_depth pd = if pd + 1 <=? MAX_DEPTH then Some (pd + 1) else None) /\
  (forall n, chain_walk n 0 = if N.of_nat n <=? MAX_DEPTH then Some (N.of_nat n) else None) /\
  (forall hs Hsz ext s d p, oh_type d = TOfs -> by_offset s (oh_base_off d) = Some p ->
     (MAX_DEPTH < r_depth p + 1 -> process_delta hs Hsz ext s d = None) /\
     (r_depth p + 1 <= MAX_DEPTH -> oh_data d <> [] ->
      forall tsz out, apply_delta (r_content p) (oh_data d) = Some (tsz, out) ->
      exists s' o, process_delta hs Hsz ext s d = Some s' /\ by_offset s' (oh_off d) = Some o /\
                   r_depth o = r_depth p + 1 /\ r_content o = out)) /\
  (forall hs Hsz inflate crc32 ext pack objs sum,
     parse hs Hsz inflate crc32 ext pack = Some (objs, sum) ->
     exists es, scan_pack hs Hsz inflate crc32 pack = Some (es, sum) /\
     forall o, In o objs -> Resolves hs Hsz es ext (r_off o) (r_type o) (r_content o) (r_depth o) /\
                            r_depth o <= MAX_DEPTH) /\
  (forall hs Hsz inflate crc32 ext pack es sum off n,
     scan_pack hs Hsz inflate crc32 pack = Some (es, sum) ->
     OfsChain es off n -> MAX_DEPTH < n ->
     parse hs Hsz inflate crc32 ext pack = None).
Proof.
  split; [reflexivity|]. split; [exact chain_depth_spec|]. split; [exact chain_walk_0|].
  split; [exact process_delta_ofs_depth|]. split; [|exact deep_chain_rejected].
  intros hs Hsz inflate crc32 ext pack objs sum E. apply parse_sound in E. destruct E as (es & Es & Ho).
  exists es. split; [exact Es|]. intros o Hin. destruct (Ho o Hin) as (_ & _ & B & D). auto.
Qed.
Print Assumptions C08_depth_boundary.

(* C08_idx_is_git: for every list of (id, offset, crc) the observer receives (ids of the format's
   size, 64-bit offsets, 32-bit CRCs, fewer than 2^31 objects), Writer.createIndex + Encode write
   git's idx v2 layout of the table — fanout counts, ids, CRCs, 31-bit offsets or indices into the
   64-bit table, pack checksum, digest *)
Theorem C08_idx_is_git : forall hs Hsz es pack,
  wf_entries hs es = true ->
  exists m, create_index hs (writer_add es [] []) pack = Ok m /\
            encode hs Hsz m = Ok (idx_file (Hsz hs) (table es) pack).
Proof. exact written_idx_is_git_layout. Qed.
Print Assumptions C08_idx_is_git.

(* C08_idx_canonical: the table, hence the idx bytes, do not depend on the order in which the
   walk announced the objects *)
Theorem C08_idx_canonical : forall l1 l2,
  distinct_hashes l1 -> Permutation l1 l2 -> sort_entries l1 = sort_entries l2.
Proof. exact sort_entries_perm_eq. Qed.
Print Assumptions C08_idx_canonical.

Example C08_wf_example :
  wf_entries 20 [E "aa00000000000000000000000000000000000001" 12 7;
                 E "0100000000000000000000000000000000000000" 2147483648 9;
                 E "aa00000000000000000000000000000000000002" 4294967296 8] = true.
Proof. vm_compute. reflexivity. Qed.

Example C08_example_parse :
  render (c08_parse 20
    "5041434b00000002000000033b789ccb48cdc9c95728484ccee60200192703de6a14789ce31698c0cd9a9b5f94ca05000bfa027976fce672dc7cc326631c266fd6d879e8ba786bbe80789c13109c20c0a80800034e00e47466a0871b57794ddf9ead793ed60ef4e7c149aa"
    [Z3 13 "68656c6c6f207061636b0a" 19; Z3 34 "0b10900b056d6f72650a" 18; Z3 73 "101190100121" 14] [])
  = "( ok x7466a0871b57794ddf9ead793ed60ef4e7c149aa ( ( 12 blob 11 xa100066be52779fa28f31d8ef9860baf1ae87acf 1925455504 ) ( 32 blob 16 xfce672dc7cc326631c266fd6d879e8ba786bbe80 205891337 ) ( 52 blob 17 x24ac75e23aee11060f476420464e1ba986fbc2a2 714845278 ) ) x91f659dddb627cc332439ab5086ca056ad4e130b x97e71925cbeefbb5db0facf556c20aae0f136842 )"%string.
Proof. exact Properties.C09.C09_example_accepts. Qed.
