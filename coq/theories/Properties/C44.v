(* Properties/C44.v — Tree diffs are complete and agree with git.
   Each statement is proved from the lemmas of Proofs/C44_*.v.

   Model (Model/DiffTree.v): merkletrie.DiffTree as the recursive merge of name-sorted children, with
   directory hash equality = structural equality (no collisions), object.DiffTreeWithOptions and
   DetectRenames with the content-similarity matrix as a parameter.
   Spec (Spec/MapDiff.v): map_diff of the two flattened trees (path -> (mode, id)); `git diff-tree -r
   --no-renames` is compared with it (and with go-git) on every generated case.
   Paths are component lists here; the object layer joins them with '/' (to_chg). *)
From Coq Require Import List NArith ZArith Bool Arith Permutation.
From GoGit Require Import Base.Out Gen.C44 Model.DiffTree Spec.MapDiff
  Proofs.C44_order Proofs.C44_diff Proofs.C44_sort Proofs.C44_spec Proofs.C44_rename Proofs.C44_paths.
Import ListNotations.

(* For all trees whose directories have pairwise distinct names: the walk terminates within its fuel
   and reports exactly the insertions, deletions and modifications between the two flattened trees. *)
Theorem C44_eq_spec : forall a b,
  tree_ok a = true -> tree_ok b = true ->
  exists cs, difftree a b = Some cs /\
             forall c, In c cs <-> In c (map_diff (flatten a) (flatten b)).
Proof. exact difftree_eq_map_diff. Qed.
Print Assumptions C44_eq_spec.

(* ... hence the reported changes transform the first tree into the second *)
Theorem C44_complete : forall a b,
  tree_ok a = true -> tree_ok b = true ->
  exists cs, difftree a b = Some cs /\ fmap_equiv (apply_changes cs (flatten a)) (flatten b).
Proof. exact difftree_complete. Qed.
Print Assumptions C44_complete.

(* the declarative reading of a reported change *)
Theorem C44_change_meaning : forall a b,
  tree_ok a = true -> tree_ok b = true ->
  exists cs, difftree a b = Some cs /\
    forall c, In c cs <->
      match c with
      | MDel p l => In (p, l) (flatten a) /\ ~ (exists l', In (p, l') (flatten b))
      | MIns p l => In (p, l) (flatten b) /\ ~ (exists l', In (p, l') (flatten a))
      | MMod p x y => In (p, x) (flatten a) /\ In (p, y) (flatten b) /\ leaf_eqb x y = false
      end.
Proof. exact difftree_spec. Qed.
Print Assumptions C44_change_meaning.

(* no change is reported twice *)
Theorem C44_nodup : forall a b cs,
  tree_ok a = true -> tree_ok b = true -> difftree a b = Some cs -> NoDup cs.
Proof. exact difftree_nodup. Qed.
Print Assumptions C44_nodup.

(* the object layer prints a path as its components joined with '/': when every name is non-empty and
   free of '/' (boolean guard names_ok — true of every tree Tree.Encode writes or git fsck accepts;
   Tree.Decode does not test it), distinct changes stay distinct after joining, so the statements
   above carry over to Change{From,To} values *)
Theorem C44_object_layer : forall a b cs,
  tree_ok a = true -> tree_ok b = true -> names_ok a = true -> names_ok b = true ->
  difftree a b = Some cs ->
  NoDup (map to_chg cs) /\ forall c c', In c cs -> In c' cs -> to_chg c = to_chg c' -> c = c'.
Proof. exact difftree_object_layer. Qed.
Print Assumptions C44_object_layer.

(* Rename detection, for EVERY score oracle, rename limit and mode: the From sides and the To sides of
   the result are permutations of those of the input (nothing lost, invented or used twice); every
   reported change is an input change or joins the From of an input deletion with the To of an input
   insertion; modifications are returned unchanged.
   (True of the repaired code: before "fix: rename detection dropped an addition ..." the model refuted
   it — see C44_unrepaired_refuted.) *)
Theorem C44_renames_conserve : forall limit only_exact oracle cs,
  let out := detect_renames limit only_exact oracle cs in
  Permutation (froms out) (froms cs) /\
  Permutation (tos out) (tos cs) /\
  (forall c, In c out ->
     In c cs \/ exists d a, In d cs /\ is_del d = true /\ In a cs /\ is_ins a = true /\ c = (fst d, snd a)) /\
  (forall c, In c cs -> is_mod c = true -> In c out).
Proof. exact renames_conserve. Qed.
Print Assumptions C44_renames_conserve.

(* the projection compared by the correspondence in content mode does not depend on the oracle *)
Theorem C44_content_projection_oracle_free : forall limit o1 o2 cs,
  Permutation (froms (detect_renames limit false o1 cs)) (froms (detect_renames limit false o2 cs)) /\
  Permutation (tos (detect_renames limit false o1 cs)) (tos (detect_renames limit false o2 cs)).
Proof.
  intros limit o1 o2 cs.
  destruct (renames_conserve limit false o1 cs) as (F1 & T1 & _).
  destruct (renames_conserve limit false o2 cs) as (F2 & T2 & _).
  split; (etransitivity; [eassumption | symmetry; eassumption]).
Qed.
Print Assumptions C44_content_projection_oracle_free.

(* leaf regenerated from plumbing/object/tree.go: decoded entry modes are canonical, so the
   Deprecated (0100664) special case of treeNoder.Hash never fires on decoded trees *)
Theorem C44_decode_mode_canonical : forall m, canon_mode (decode_mode m) = decode_mode m.
Proof.
  intros m. unfold decode_mode, object_canonicalTreeMode.
  repeat match goal with |- context [Z.eqb ?x ?y] => destruct (Z.eqb x y) end; reflexivity.
Qed.
Print Assumptions C44_decode_mode_canonical.

Local Open Scope N_scope.
Definition ex_a : tree :=
  [ ([97], File (33188, [1])); ([97; 46; 98], File (33188, [2]));
    ([100], Dir [ ([120], File (33188, [3])); ([121], File (33261, [4])) ]) ].
Definition ex_b : tree :=
  [ ([97], Dir [ ([113], File (33188, [5])) ]); ([97; 46; 98], File (33188, [2]));
    ([100], Dir [ ([121], File (33188, [4])); ([122], File (40960, [6])) ]) ].
Example C44_guard_holds : tree_ok ex_a = true /\ tree_ok ex_b = true /\ names_ok ex_a = true /\ names_ok ex_b = true.
Proof. vm_compute. repeat split; reflexivity. Qed.
Example C44_example_diff :
  difftree ex_a ex_b =
  Some [ MDel [[97]] (33188, [1]); MIns [[97]; [113]] (33188, [5]);
         MDel [[100]; [120]] (33188, [3]); MMod [[100]; [121]] (33261, [4]) (33188, [4]);
         MIns [[100]; [122]] (40960, [6]) ].
Proof. vm_compute. reflexivity. Qed.
(* duplicate names are outside the guard *)
Example C44_guard_rejects : tree_ok [ ([97], File (33188, [1])); ([97], File (33188, [2])) ] = false.
Proof. vm_compute. reflexivity. Qed.

(* The defect that was repaired in /repo: an added file whose id matches several deleted files, none of
   which bestNameMatch picks (all name scores are 0: "b" against "d/a" and "d/c").  The model of the
   UNREPAIRED code — exact_unique without the final else — loses the insertion; the repaired model
   keeps it (and the theorem above holds for it). *)
Definition ex_del1 : chg := (Some ([100; 47; 97], (33188, [7])), None).
Definition ex_del2 : chg := (Some ([100; 47; 99], (33188, [7])), None).
Definition ex_add : chg := (None, Some ([98], (33188, [7]))).
Example C44_repaired_keeps_addition :
  detect_renames 0%nat true (fun _ _ => []) [ex_add; ex_del1; ex_del2] = [ex_add; ex_del1; ex_del2].
Proof. vm_compute. reflexivity. Qed.
Definition exact_unique_unrepaired (c : chg) (st : xstate) : xstate :=
  let h := ch_hash c in
  match g_get h st.(x_dels) with
  | [] | [_] => exact_unique c st
  | ds =>
    match best_match c ds with
    | Some i =>
      match nth_error ds i with
      | Some d => if same_mode c d then exact_unique c st else st
      | None => st
      end
    | None => st                                   (* the addition is dropped *)
    end
  end.
Example C44_unrepaired_refuted :
  let st0 := {| x_dels := group_by_hash [ex_del1; ex_del2]; x_left := []; x_mod := [] |} in
  x_left (exact_unique_unrepaired ex_add st0) = [] /\ x_left (exact_unique ex_add st0) = [ex_add].
Proof. vm_compute. split; reflexivity. Qed.
