(* Properties/C36.v — Fetch and clone deliver complete history and correct
   refs: the protocol core (partial by design: the transports, the servers'
   wire handling and git-as-peer pairings are exercised by the correspondence
   suites, not proved).  The lemmas behind the statements are in Proofs/C36*.v
   and Proofs/C37.v. *)
From Coq Require Import List NArith ZArith Bool Lia String.
From GoGit Require Import Base.Out Gen.C36 Model.RefSpec Model.RevList Model.PushRules Model.FetchProto
     Spec.ObjReach Proofs.C36 Proofs.C36Refspec.
From GoGit Require Proofs.C37.
Import ListNotations.

(* the negotiation constants of the model are the ones in negotiate.go
   (regenerated from the source on every run: Gen/C36.v) *)
Theorem C36_flush_constants :
  Gen.C36.transport_initialFlush = Z.of_nat INITIAL_FLUSH /\ Gen.C36.transport_pipeSafeFlush = Z.of_nat PIPESAFE_FLUSH /\
  Gen.C36.transport_largeFlush = Z.of_nat LARGE_FLUSH /\ Gen.C36.transport_maxInVein = Z.of_nat MAX_IN_VEIN.
Proof. vm_compute. repeat split; reflexivity. Qed.
Print Assumptions C36_flush_constants.

(* NegotiatePack terminates whatever the server acknowledges: against any
   acknowledgement table, stateful or stateless, the round loop ends within
   |haves| + 1 rounds (fuel |haves| + 2 is never exhausted) *)
Theorem C36_terminates : forall stateless wants no_shallows table haves,
  exists rounds nochange,
    negotiate (S (S (Datatypes.length haves))) stateless wants no_shallows table (neg_init haves) [] = Some (rounds, nochange) /\
    (Datatypes.length rounds <= S (Datatypes.length haves))%nat.
Proof.
  intros.
  assert (F : (1 <= n_flush_at (neg_init haves))%nat) by (cbn; unfold INITIAL_FLUSH; lia).
  assert (G : (Datatypes.length (n_haves (neg_init haves)) < S (S (Datatypes.length haves)))%nat) by (cbn; lia).
  destruct (negotiate_terminates stateless wants no_shallows table _ (neg_init haves) [] F G) as (r & nc & E & L).
  exists r, nc. split; [exact E | cbn in L; lia].
Qed.
Print Assumptions C36_terminates.

(* refspec mapping is invertible: for a valid refspec s (whose destination does
   not begin with '+') and a name n it matches, the reversed refspec matches
   Dst(n) and maps it back to n — what pruneRemotes (fetch) and prune on push
   rely on; it holds for forced refspecs since Reverse keeps the '+' in front
   (repaired) *)
Theorem C36_refspec_roundtrip : forall s n,
  rs_valid s = true -> dst_plain s = true -> rs_match s n = true ->
  rs_match (rs_reverse s) (rs_dst s n) = true /\ rs_dst (rs_reverse s) (rs_dst s n) = n.
Proof. intros s n Hv Hp M. now apply roundtrip. Qed.
Print Assumptions C36_refspec_roundtrip.

(* getWants asks for every fetched reference value the client does not hold
   (and for all of them when the repository is shallow and the depth is not 1) *)
Theorem C36_wants_cover : forall client sh depth m name h,
  In (name, h) m ->
  get client h = None \/ (negb (Nat.eqb depth 1) && negb (Nat.eqb (Datatypes.length sh) 0) = true) ->
  In h (get_wants client sh depth m).
Proof.
  intros client sh depth m name h. unfold get_wants.
  set (sm := negb (Nat.eqb depth 1) && negb (Nat.eqb (Datatypes.length sh) 0)).
  induction m as [|x m IH]; intros Hin Hc; [contradiction|]. cbn [fold_right].
  set (acc := fold_right _ [] m) in *.
  destruct Hin as [->|Hin]; cbn [snd].
  - assert (C : (match get client h with Some _ => false | None => true end) || sm = true).
    { destruct Hc as [Hc|Hc]; [rewrite Hc; reflexivity | fold sm in Hc; rewrite Hc; apply orb_true_r]. }
    rewrite C. destruct (mem h acc) eqn:M; [now apply C37Trees.mem_In | now left].
  - specialize (IH Hin Hc).
    destruct ((match get client (snd x) with Some _ => false | None => true end) || sm); [|exact IH].
    destruct (mem (snd x) acc); [exact IH | now right].
Qed.
Print Assumptions C36_wants_cover.

(* updateLocalReferenceStorage, one fetched reference (name, h) under refspec
   spec: either the update is refused, the store is left alone and force-needed
   is raised (reported as ErrForceNeeded — also with Tags = NoTags, repaired),
   or the local name the refspec maps it to now holds h *)
Theorem C36_ref_update : forall st sh force spec name h u u' lname,
  update_one st sh force spec (name, h) u = Some u' -> local_name spec name = Some lname ->
  (u_force_needed u' = true /\ u_local u' = u_local u) \/ ref_get (u_local u') lname = Some (RHash h).
Proof.
  intros st sh force spec name h u u' lname H L. unfold update_one in H. unfold local_name in L.
  cbv zeta in H, L. cbn [fst snd] in H. rewrite L in H.
  destruct (resolve_named _ (u_local u) lname) as [[on oh]|]; [|right; now apply check_and_update_sets in H].
  destruct (is_tag_name lname && negb (N.eqb oh h) && negb (force || rs_force spec));
    [inversion H; subst; left; cbn; auto|].
  destruct (negb (is_tag_name on) && negb (force || rs_force spec)); [|right; now apply check_and_update_sets in H].
  destruct (is_ff st sh oh h) as [[|]|]; [right; now apply check_and_update_sets in H | | discriminate].
  inversion H; subst; left; cbn; auto.
Qed.
Print Assumptions C36_ref_update.

(* pruneRemotes only removes a local reference whose source the server no
   longer advertises *)
Theorem C36_prune_only_stale : forall spec remote snapshot local changed m,
  ref_get local m <> None ->
  ref_get (fst (prune_spec (rs_reverse spec) remote snapshot local changed)) m = None ->
  exists n, beq_bytes n m = true /\ rs_match (rs_reverse spec) n = true /\
            ref_get remote (rs_dst (rs_reverse spec) n) = None.
Proof. intros. eapply prune_spec_only_stale; eauto. Qed.
Print Assumptions C36_prune_only_stale.

(* completeness of what is delivered: a pack selected by revlist.Objects over
   the wants and the common haves (C37), stored by a client that holds what the
   common haves reach, leaves the client with everything the wants reach — up
   to the shallow boundary sh used for the selection *)
Theorem C36_complete : forall server sh wants common pack (held : oid -> Prop),
  wf_store server = true -> objects server sh wants common = Ok pack ->
  (forall o, reach_set server sh common o -> held o) ->
  forall o, reach_set server sh wants o -> In o pack \/ held o.
Proof.
  intros server sh wants common pack held Hwf H Hh o Ho.
  destruct (C37.covers server sh wants common Hwf pack H o Ho); [now left | right; now apply Hh].
Qed.
Print Assumptions C36_complete.

(* the protocol-v2 server and an ALREADY SHALLOW client (it sent shallow lines):
   the pack is selected against the boundary the response announces — the new
   boundary when a deepen was computed, and an EMPTY new boundary means the
   whole history; the client's old boundary only when no deepen was asked for.
   Whatever the wants reach down to that boundary is in the pack or is what the
   client's haves reach down to its old boundary (what it holds).  So a client
   that is told to unshallow its old boundary receives the history below it. *)
Theorem C36_v2_deepen_covers : forall fuel st wants haves c0 cs depth out,
  wf_store st = true ->
  serve_fetch_v2 fuel st wants haves (c0 :: cs) depth = Ok out ->
  exists have_new newb,
    (vo_shallow out = None <-> have_new = false) /\
    (forall shl un, vo_shallow out = Some (shl, un) -> shl = newb) /\
    forall o, reach_set st (v2_boundary (c0 :: cs) have_new newb) wants o ->
              In o (vo_objs out) \/ reach_set st (c0 :: cs) haves o.
Proof.
  intros fuel st wants haves c0 cs depth out Hwf H. unfold serve_fetch_v2 in H.
  match type of H with match ?x with _ => _ end = _ => destruct x as [[have_new newb]|] eqn:D end; [|discriminate].
  destruct (objects st (v2_boundary (c0 :: cs) have_new newb) wants []) as [nv|] eqn:NV; [|discriminate].
  destruct (objects st (c0 :: cs) haves []) as [cv|] eqn:CV; [|discriminate].
  inversion H; subst out. clear H. cbn [vo_objs vo_shallow]. exists have_new, newb. split; [|split].
  - destruct have_new; split; intro X; congruence.
  - intros shl un X. destruct have_new; [inversion X; reflexivity | discriminate].
  - intros o Ho.
    assert (Hin : In o nv) by (eapply C37.complete; eauto using no_haves_reach).
    destruct (diff_list_In nv cv o Hin) as [A|A]; [now left|]. right.
    eapply C37.only_wanted; eauto.
Qed.
Print Assumptions C36_v2_deepen_covers.

(* ... and a client that is not shallow gets everything the wants reach and its
   haves do not, down to the boundary announced (none: full history) *)
Theorem C36_v2_plain_covers : forall fuel st wants haves depth out,
  wf_store st = true ->
  serve_fetch_v2 fuel st wants haves [] depth = Ok out ->
  exists boundary,
    (forall shl un, vo_shallow out = Some (shl, un) -> shl = boundary /\ un = []) /\
    (vo_shallow out = None -> boundary = []) /\
    forall o, reach_set st boundary wants o -> ~ reach_set st boundary haves o -> In o (vo_objs out).
Proof.
  intros fuel st wants haves depth out Hwf H. unfold serve_fetch_v2 in H.
  match type of H with match ?x with _ => _ end = _ => destruct x as [[have_new newb]|] eqn:D end; [|discriminate].
  set (graft := have_new && negb (Nat.eqb (List.length newb) 0)) in *.
  destruct (objects st (if graft then newb else []) wants haves) as [objs|] eqn:O; [|discriminate].
  inversion H; subst out. clear H. cbn [vo_objs vo_shallow]. exists (if graft then newb else []).
  split; [|split].
  - intros shl un X. destruct graft; [inversion X; auto | discriminate].
  - intro X. destruct graft; [discriminate | reflexivity].
  - intros o Ho Hn. eapply C37.complete; eauto.
Qed.
Print Assumptions C36_v2_plain_covers.

(* getShallowCommits: what it reports lies where it says — a commit listed as
   shallow is depth-1 (or more) parent steps from a wanted commit, a commit
   listed as not shallow is closer than that *)
Theorem C36_shallow_partial : forall st depth heads fuel sh un,
  shallow_walk fuel st depth None heads [] [] [] = Some (sh, un) ->
  (forall c, In c sh -> exists h k, In h heads /\ pdist st h c k /\ (depth <= S k)%nat) /\
  (forall c, In c un -> exists h k, In h heads /\ pdist st h c k /\ (S k < depth)%nat).
Proof.
  intros st depth heads fuel sh un H.
  destruct (shallow_walk_sound st depth heads _ _ _ _ _ _ _ _ H (incl_refl _)) as [A B];
    [discriminate | constructor | constructor | constructor |].
  rewrite Forall_forall in A, B. split; assumption.
Qed.
Print Assumptions C36_shallow_partial.

(* ... but the full statement — the shallow commits are exactly the ones at
   distance depth-1 — is false of the code: the peek at the next parent consumes
   it, so the second parent of a merge is never walked.  M(5) has parents D(3)
   and E(4), depth 2: E is one step from the want and is in neither list. *)
Definition merge_store : store :=
  [(1, Blob); (2, Tree [mkE 97 KFile 1]); (3, Commit 2 [] 10%Z); (4, Commit 2 [] 20%Z); (5, Commit 2 [3; 4] 30%Z)]%N.

Theorem C36_shallow_eq_refuted :
  pdist merge_store 5%N 4%N 1 /\
  exists sh un, shallow_walk 100 merge_store 2 None [5%N] [] [] [] = Some (sh, un) /\ ~ In 4%N sh /\ ~ In 4%N un.
Proof.
  split.
  - econstructor; [vm_compute; reflexivity | right; now left | constructor].
  - eexists. eexists. split; [vm_compute; reflexivity|]. split; intros [H|[]]; discriminate.
Qed.
Print Assumptions C36_shallow_eq_refuted.

(* a negotiation over 40 haves where the server acknowledges one as common and
   another as ready: the ready arrives in the first batch, the second round says done *)
Example C36_neg_example :
  match negotiate 42 false [99%N] true [(5%N, AckCommon); (30%N, AckReady)] (neg_init (map N.of_nat (seq 1 40))) [] with
  | Some (rounds, false) => Datatypes.length rounds = 2%nat /\ r_done (last rounds (mkR [] false false)) = true
  | _ => False
  end.
Proof. vm_compute. split; reflexivity. Qed.

(* the default refspec maps refs/heads/main to the tracking name, a short destination to a branch *)
Example C36_local_name :
  local_name (s2b "+refs/heads/*:refs/remotes/origin/*"%string) (s2b "refs/heads/main"%string)
    = Some (s2b "refs/remotes/origin/main"%string) /\
  local_name (s2b "dev:devlocal"%string) (s2b "refs/heads/dev"%string) = Some (s2b "refs/heads/devlocal"%string).
Proof. vm_compute. split; reflexivity. Qed.

(* the default fetch refspec is valid, plain, and maps a branch there and back *)
Example C36_roundtrip_default :
  let s := s2b "+refs/heads/*:refs/remotes/origin/*"%string in
  rs_valid s = true /\ dst_plain s = true /\ rs_match s (s2b "refs/heads/feat/x"%string) = true /\
  rs_dst s (s2b "refs/heads/feat/x"%string) = s2b "refs/remotes/origin/feat/x"%string /\
  rs_dst (rs_reverse s) (s2b "refs/remotes/origin/feat/x"%string) = s2b "refs/heads/feat/x"%string.
Proof. vm_compute. repeat split; reflexivity. Qed.

(* deepening to the root: 3 <- 4 <- 5 <- 6, the client cloned 6 with depth 1 (shallow at 6) and asks for
   depth 10: the new boundary is empty, the pack carries commits 3, 4, 5 (their tree and blob are held already)
   and the client is told to unshallow 6 *)
Example C36_v2_deepen_to_root :
  serve_fetch_v2 200 [(1, Blob); (2, Tree [mkE 97 KFile 1]); (3, Commit 2 [] 1%Z); (4, Commit 2 [3] 2%Z);
                      (5, Commit 2 [4] 3%Z); (6, Commit 2 [5] 4%Z)]%N [6%N] [6%N] [6%N] 10
  = Ok (mkV2 [3; 4; 5]%N (Some ([], [6%N]))) /\
  update_shallow [6%N] (Some ([], [6%N])) = [].
Proof. vm_compute. split; reflexivity. Qed.

(* a linear history: depth 2 from commit 5 (5 -> 4 -> 3) gives the boundary {4} and the interior {5} *)
Example C36_shallow_linear :
  shallow_walk 100 [(2, Tree []); (3, Commit 2 [] 1%Z); (4, Commit 2 [3] 2%Z); (5, Commit 2 [4] 3%Z)]%N 2 None [5%N] [] [] []
  = Some ([4%N], [5%N]).
Proof. vm_compute. reflexivity. Qed.
