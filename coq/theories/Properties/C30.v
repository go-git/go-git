(* Properties/C30.v — Non-forced checkout and merge/keep resets never lose
   local changes.  The statements; the lemmas they rest on are in Proofs/C30.v.
   "Local content at p" = the worktree file at p when it is not what HEAD
   commits there (modified, staged-only or untracked).
   FULL statement (property text):
     op in {Checkout without Force, Reset Merge, Reset Keep} ->
     op s = (None, s') -> forall p, local content at p in s -> lookup p (wt s') = lookup p (wt s)
   is FALSE of the code; three witnesses below, each replayed on the real code. *)
From Coq Require Import List NArith ZArith Bool String.
From GoGit Require Import Base.Out Model.Porcelain Proofs.PorcelainMaps Proofs.Porcelain Proofs.C25 Proofs.C29 Proofs.C30.
Import ListNotations.

(* (i) staged new file, absent from the target: resetIndex drops the entry and
   resetWorktree then deletes the (now untracked) file; Checkout returns nil *)
Theorem C30_staged_new_refuted :
  exists o s s' p, co_force o = false /\ checkout o s = (None, s') /\
    lookup p (wt s) <> None /\ lookup p (tree_or_empty (head_tree s)) = None /\
    lookup p (wt s') = None /\ lookup p (idx s') = None.
Proof.
  destruct checkout_deletes_staged_new as (s' & H1 & H2 & H3 & H4).
  exists (co_plain o_other), c30_staged, s', (b "s"). repeat split; auto.
  rewrite H2. discriminate.
Qed.
Print Assumptions C30_staged_new_refuted.

(* (ii) untracked file at a path the target adds: overwritten; Checkout returns nil *)
Theorem C30_untracked_refuted :
  exists o s s' p, co_force o = false /\ checkout o s = (None, s') /\
    lookup p (idx s) = None /\ lookup p (wt s) <> None /\ lookup p (wt s') <> lookup p (wt s).
Proof.
  destruct checkout_overwrites_untracked as (s' & H1 & H2 & H3 & H4).
  exists (co_plain o_other), c30_untracked, s', (b "n"). repeat split; auto.
  - rewrite H3. discriminate.
  - rewrite H3, H4. discriminate.
Qed.
Print Assumptions C30_untracked_refuted.

(* (iii) KeepReset overwrites an unstaged modification of a file that the
   reset does not touch (HEAD and target agree on it) *)
Theorem C30_keep_refuted :
  exists s commit s' p t0 t1,
    reset commit Keep None s = (None, s') /\
    head_tree s = HTTree t0 /\ tree_of s commit = Some t1 /\ lookup p t0 = lookup p t1 /\
    lookup p (wt s) <> lookup p (idx s) /\ lookup p (wt s') <> lookup p (wt s).
Proof.
  destruct keep_overwrites_untouched as (s' & H1 & H2 & H3 & H4).
  exists c30_keep, 1%Z, s', (b "u"), c30_k0, c30_k1. repeat split; auto.
  - rewrite H3. vm_compute. discriminate.
  - rewrite H3, H4. discriminate.
Qed.
Print Assumptions C30_keep_refuted.

(* What does hold.  Unstaged modifications and deletions of tracked files — also of files the
   switch would not touch — make MergeReset / non-forced Checkout refuse, and
   the refusal leaves index and worktree alone (C29 for the rest) *)
Theorem C30_unstaged_refused_reset : forall commit from s p e,
  In (p, e) (idx s) -> lookup p (wt s) <> Some e ->
  exists er, reset commit Merge from s = (Some er, s).
Proof. exact merge_reset_refuses_unstaged. Qed.
Print Assumptions C30_unstaged_refused_reset.

Theorem C30_unstaged_refused_checkout : forall o s p e,
  co_force o = false -> co_keep o = false ->
  In (p, e) (idx s) -> lookup p (wt s) <> Some e ->
  exists er, checkout o s = (Some er, s).
Proof. exact checkout_merge_refuses_unstaged. Qed.
Print Assumptions C30_unstaged_refused_checkout.

(* partial: after a successful merge-mode Reset / non-forced Checkout every
   path whose index entry equals the target's entry (boolean guard
   [ofent_eqb (lookup p (idx s)) (lookup p t)]; both absent = an untracked file
   the target does not have) keeps its worktree content.  Missing for the full
   statement: the paths where index and target differ — exactly witnesses (i), (ii). *)
Theorem C30_merge_partial : forall commit from s s',
  reset commit Merge from s = (None, s') ->
  exists c t, reset_target commit s = Some c /\ tree_of s c = Some t /\
    forall p, lookup p (idx s) = lookup p t -> lookup p (wt s') = lookup p (wt s).
Proof. exact merge_reset_preserves. Qed.
Print Assumptions C30_merge_partial.

Theorem C30_checkout_partial : forall o s s',
  co_force o = false -> co_keep o = false -> checkout o s = (None, s') ->
  exists c t, checkout_target o s = Some c /\ tree_of s c = Some t /\
    forall p, lookup p (idx s) = lookup p t -> lookup p (wt s') = lookup p (wt s).
Proof. exact checkout_merge_preserves. Qed.
Print Assumptions C30_checkout_partial.

(* KeepReset, partial: it writes like HardReset — every path of the target is
   overwritten, every path outside the target and outside HEAD's tree survives.
   Missing: paths of the target that the reset does not touch — witness (iii). *)
Theorem C30_keep_partial : forall commit s s',
  reset commit Keep None s = (None, s') ->
  exists c t, reset_target commit s = Some c /\ tree_of s c = Some t /\
    (forall p e, lookup p t = Some e -> lookup p (wt s') = Some e) /\
    (forall p, lookup p t = None -> lookup p (tree_or_empty (head_tree s)) = None ->
               lookup p (wt s') = lookup p (wt s)).
Proof. exact keep_reset_effect. Qed.
Print Assumptions C30_keep_partial.

(* full for the modes that never write files *)
Theorem C30_mixed_keeps_worktree : forall commit from s r,
  reset commit Mixed from s = r -> wt (snd r) = wt s.
Proof. exact reset_mixed_wt. Qed.
Print Assumptions C30_mixed_keeps_worktree.

Theorem C30_soft_keeps_all : forall commit from s r,
  reset commit Soft from s = r -> idx (snd r) = idx s /\ wt (snd r) = wt s.
Proof. exact reset_soft. Qed.
Print Assumptions C30_soft_keeps_all.

Theorem C30_checkout_keep : forall o s r,
  co_force o = false -> co_keep o = true -> checkout o s = r ->
  idx (snd r) = idx s /\ wt (snd r) = wt s.
Proof. exact checkout_keep_untouched. Qed.
Print Assumptions C30_checkout_keep.

(* non-vacuity of the partial theorems: a non-forced checkout that succeeds
   with an untracked file (kept) and a staged copy of what the target has (kept) *)
Example C30_example :
  let s := c30_base [(b "a", (KReg, b "A1"))] [(b "a", (KReg, b "A1")); (b "u", (KExec, b "U"))] in
  exists s', checkout (co_plain o_other) s = (None, s') /\
    lookup (b "u") (wt s') = Some (KExec, b "U") /\ lookup (b "a") (wt s') = Some (KReg, b "A1").
Proof. eexists. vm_compute. repeat split. Qed.
