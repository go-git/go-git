(* Properties/C22.v — Garbage collection never deletes reachable or staged
   objects.  Statements and their last step; the proofs live in Proofs/C22.v.

   [live r h] (Spec/Reach.v): h is reachable from a hash reference, from a
   detached HEAD or from a (non-gitlink) index entry, through commit -> tree,
   parents (not below a shallow root), tree -> entries (gitlinks excluded),
   tag -> target.
   The model is the code AFTER the repair "fix: keep objects staged in the
   index when pruning and repacking" (objectWalker.walkIndex); before it, the
   statements below were false for a staged-only blob (findings/C22.json).

   wf_modes / wf_index are boolean well-formedness conditions on repository
   CONTENT: an entry with a file mode, and an index entry, name a blob. *)
From Coq Require Import List NArith ZArith Bool String.
From GoGit Require Import Base.Out Gen.C22 Model.Gc Spec.Reach Proofs.C22 Proofs.C22Fuel.
Import ListNotations.
Local Open Scope N_scope.

(* Whenever the walk succeeds its seen set covers every live object that
   exists, and what it records as missing is indeed not stored. *)
Theorem C22_walk_covers_live : forall fuel r st,
  wf_modes r = true -> wf_index r = true ->
  walk_all fuel r = Ok st ->
  (forall h, live r h -> In h st.(seen) \/ get r h = None) /\
  (forall x, In x st.(missing) -> has r x = false).
Proof. exact walk_all_live. Qed.
Print Assumptions C22_walk_covers_live.

(* Prune (handler DeleteObject, with or without age limit): every live
   object that was readable is readable afterwards, with the same content. *)
Theorem C22_prune_keeps_live : forall fuel r lim r',
  wf_modes r = true -> wf_index r = true ->
  prune fuel r lim = Ok r' ->
  forall h, live r h -> has r h = true -> has r' h = true /\ get r' h = get r h.
Proof. exact prune_keeps_live. Qed.
Print Assumptions C22_prune_keeps_live.

(* RepackObjects (with or without age limit for old packs), whatever name the
   encoder gives the new pack — also when a pack of that name is already on disk
   (PackWriter.save keeps it, `if h == nh { continue }` must not delete it).
   wf_names: content addressing, a pack's name determines its object set. *)
Theorem C22_repack_keeps_live : forall fuel r lim variant r',
  wf_modes r = true -> wf_index r = true -> wf_names r = true ->
  repack fuel r lim variant = Ok r' ->
  forall h, live r h -> has r h = true -> has r' h = true /\ get r' h = get r h.
Proof. exact repack_keeps_live. Qed.
Print Assumptions C22_repack_keeps_live.

(* Arbitrary HISTORIES of prune / repack rounds (any age limits, any encoder
   variants, the same name produced twice included), with new loose objects
   and newly staged blobs in between: at every point of the history, every
   object that is live and readable then is readable, with the same content, at
   the end.  A failed round changes nothing.
   op_ok: a staged object is a blob (boolean). *)
Theorem C22_history_keeps_live : forall a b r,
  wf_modes r = true /\ wf_index r = true /\ wf_names r = true ->
  forallb (op_ok r) (a ++ b) = true ->
  forall h, live (run_seq a r) h -> has (run_seq a r) h = true ->
  has (run_seq (a ++ b) r) h = true /\ get (run_seq (a ++ b) r) h = get (run_seq a r) h.
Proof.
  intros a b r I Hok. rewrite forallb_app in Hok. apply andb_true_iff in Hok as [Ha Hb].
  destruct (run_seq_spec a r I Ha) as (Ia & Ea & _).
  replace (run_seq (a ++ b) r) with (run_seq b (run_seq a r)) by (symmetry; apply fold_left_app).
  apply run_seq_spec; [assumption|now apply (ops_ok_objs r)].
Qed.
Print Assumptions C22_history_keeps_live.

(* The fuel the model gives the walker (one unit per object id it can ever
   meet, plus one) always suffices: exhaustion is never reported, for every
   repository content, well-formed or not. *)
Theorem C22_walk_fuel_sufficient : forall r, walk_all (gc_fuel r) r <> Err EFuel.
Proof. exact walk_all_fuel. Qed.
Print Assumptions C22_walk_fuel_sufficient.

(* blob 0 committed (tree 1, commit 2, branch -> 2), blob 3 staged only and
   loose, blob 4 dangling; blob 5 staged only and living in an old pack *)
Definition ex_repo : repo :=
  {| objs := [(0, OBlob); (1, OTree [(33188%Z, 0)]); (2, OCommit 1 []); (3, OBlob); (4, OBlob); (5, OBlob)];
     loose := [(0, true); (1, true); (2, true); (3, true); (4, true)];
     packs := [{| p_name := ([0; 5], 7); p_old := true; p_promisor := false; p_objs := [5; 0] |}];
     roots := [2]; shallow := []; index := [(false, 0); (false, 3); (false, 5)] |}.

Example C22_ex_wf : wf_modes ex_repo = true /\ wf_index ex_repo = true /\ wf_names ex_repo = true.
Proof. vm_compute. repeat split. Qed.

Example C22_ex_prune :
  c22_run [GPrune false] ex_repo
  = OList [OOk [OList (map ON [0; 1; 2; 3]); OList (map ON [0; 5])]].
Proof. vm_compute. reflexivity. Qed.

(* three repacks in a row: the second and the third produce the name of the pack
   the first one wrote; nothing is lost (blob 4 is dangling and loose) *)
Example C22_ex_repack_thrice :
  c22_run [GRepack false 0; GRepack false 0; GRepack false 0] ex_repo
  = OList [OOk [OList (map ON [4]); OList (map ON [0; 1; 2; 3; 5])];
           OOk [OList (map ON [4]); OList (map ON [0; 1; 2; 3; 5])];
           OOk [OList (map ON [4]); OList (map ON [0; 1; 2; 3; 5])]].
Proof. vm_compute. reflexivity. Qed.

Example C22_ex_same_name_twice :
  map p_name (packs (run_seq [GRepack false 0; GRepack false 0] ex_repo)) = [([0; 1; 2; 3; 5], 0)] /\
  map p_name (packs (run_seq [GRepack false 0] ex_repo)) = [([0; 1; 2; 3; 5], 0)].
Proof. vm_compute. split; reflexivity. Qed.

(* recorded observation: a tree entry of mode symlink reaches walkObjectTree's
   default branch ("unknown object") and aborts the whole operation — nothing
   is deleted, so this is not a violation of the property *)
Example C22_symlink_aborts :
  c22_run [GPrune false]
    {| objs := [(0, OBlob); (1, OTree [(40960%Z, 0)]); (2, OCommit 1 [])];
       loose := [(0, true); (1, true); (2, true)]; packs := []; roots := [2]; shallow := []; index := [] |}
  = OList [OErr "walk"].
Proof. vm_compute. reflexivity. Qed.
