(* Properties/C43.v — History traversal visits each reachable commit exactly once.
   The statements; the lemmas they rest on are in Proofs/Worklist.v (one invariant proof for every
   container discipline), Proofs/C43.v and Proofs/C43Heap.v (the walkers as its
   instances), Proofs/C43Limit.v, and for the order contracts Proofs/C43Bfs.v,
   Proofs/WorklistOrd.v and Proofs/C43HeapOrd.v.

   g ranges over ALL finite commit graphs (topologically numbered, every
   parent present), with ARBITRARY committer timestamps; s over its commits.
   [walk_fuel g] is the fuel the entry points use: the theorems say in
   particular that it never runs out. *)
From Coq Require Import List Arith ZArith Bool Permutation.
From GoGit Require Import Base.Out Spec.Dag Model.CommitWalk Model.LogWalk
  Proofs.Worklist Proofs.C43 Proofs.C43Heap Proofs.C43Limit Proofs.C43Bfs Proofs.C43HeapOrd.
Import ListNotations.

(* "every yielded commit except the start was discovered through a commit yielded before it" *)
Definition children_first (g : dag) (s : node) (l : list node) : Prop :=
  forall l1 x l2, l = l1 ++ x :: l2 -> x = s \/ exists y, In y l1 /\ In x (parents g y).

(* LogOrderDefault / LogOrderDFS (commitPreIterator), LogOrderDFSPost (commitPostIterator),
   LogOrderBSF (bfsCommitIterator), LogOrderCommitterTime (commitIteratorByCTime + gods heap):
   the walk ends normally, yields a permutation of the commits reachable from s — each exactly
   once — and respects the discovery order. *)
Theorem C43_walk_perm : forall g s order, order <= 4 ->
  dag_ok g = true -> dag_closed g = true -> s < nnodes g ->
  exists l, walk_by_order order g nostop (walk_fuel g) s [] = (l, WEof) /\
            Permutation l (ancs g s) /\ children_first g s l.
Proof. exact walk_perm. Qed.
Print Assumptions C43_walk_perm.

Theorem C43_pre_perm : forall g s, dag_ok g = true -> dag_closed g = true -> s < nnodes g ->
  exists l, pre_walk g nostop (walk_fuel g) s [] = (l, WEof) /\ NoDup l /\ (forall x, In x l <-> reach g s x).
Proof. intros g s _ Hc Hs. exact (walk_exactly_once _ s _ _ (ra_reach g s) (pre_walk_post g Hc nostop [] s Hs)). Qed.
Print Assumptions C43_pre_perm.

Theorem C43_post_perm : forall g s, dag_ok g = true -> dag_closed g = true -> s < nnodes g ->
  exists l, post_walk g nostop (walk_fuel g) s [] = (l, WEof) /\ NoDup l /\ (forall x, In x l <-> reach g s x).
Proof. intros g s _ Hc Hs. exact (walk_exactly_once _ s _ _ (ra_reach g s) (post_walk_post g Hc nostop [] s Hs)). Qed.
Print Assumptions C43_post_perm.

Theorem C43_bfs_perm : forall g s, dag_ok g = true -> dag_closed g = true -> s < nnodes g ->
  exists l, bfs_walk g nostop (walk_fuel g) s [] = (l, WEof) /\ NoDup l /\ (forall x, In x l <-> reach g s x).
Proof. intros g s _ Hc Hs. exact (walk_exactly_once _ s _ _ (ra_reach g s) (bfs_walk_post g Hc nostop [] s Hs)). Qed.
Print Assumptions C43_bfs_perm.

Theorem C43_ctime_perm : forall g s, dag_ok g = true -> dag_closed g = true -> s < nnodes g ->
  exists l, ctime_walk g nostop (walk_fuel g) s [] = (l, WEof) /\ NoDup l /\ (forall x, In x l <-> reach g s x).
Proof. intros g s _ Hc Hs. exact (walk_exactly_once _ s _ _ (ra_reach g s) (ctime_walk_post g Hc nostop [] s Hs)). Qed.
Print Assumptions C43_ctime_perm.

(* LogOrderBSF is a level order: label the start 0 and every other commit 1 + the label of the
   earlier-yielded commit whose parent list it was taken from; labels never decrease along the
   output (for every graph, present or missing parents, any fuel) *)
Theorem C43_bfs_level_order : forall g s fuel,
  exists ll, fst (bfs_walk g nostop fuel s []) = map fst ll /\ level_ordered g s ll.
Proof. exact bfs_level_order. Qed.
Print Assumptions C43_bfs_level_order.

(* LogOrderCommitterTime is NOT a sort by committer time; the contract it meets: every yielded commit
   is at least as recent as every pending one — every not yet yielded (and not ignored) parent of
   an earlier yielded commit.  Rests on the proof that the gods binary heap with go-git's
   comparator is a max-heap on committer time (bubbleUp / bubbleDown restore the heap order). *)
Theorem C43_ctime_newest_first : forall g stop (I : list node) (s : node) fuel,
  (forall x : node, In x [s] -> x < nnodes g) -> dag_closed g = true ->
  newest_first g I (fst (ctime_walk g stop fuel s I)).
Proof. exact ctime_walk_newest_first. Qed.
Print Assumptions C43_ctime_newest_first.

(* LogOrderDFSPostFirstParent: exactly the first-parent chain, each commit once *)
Theorem C43_first_parent_perm : forall g s, dag_closed g = true -> s < nnodes g ->
  exists l, postfp_walk g nostop (walk_fuel g) s [] = (l, WEof) /\ NoDup l /\ (forall x, In x l <-> fp_reach g s x).
Proof. intros g s Hc Hs. exact (walk_exactly_once _ s _ _ (ra_fp_reach g s) (postfp_walk_post g Hc nostop [] s Hs)). Qed.
Print Assumptions C43_first_parent_perm.

(* Since / Until / To: pulling lazily from the walker and stopping it at the tail commit selects
   exactly [limit_list] of the complete walk: the commits inside the time window, in walk order,
   up to and including the first one that is the tail *)
Theorem C43_limit : forall g order (from : node) since until tail,
  dag_closed g = true -> from < nnodes g ->
  fst (log_from g order from since until tail)
  = limit_list g since until tail (fst (walk_by_order order g nostop (walk_fuel g) from [])).
Proof. exact log_limit. Qed.
Print Assumptions C43_limit.

(* The "post-order" walker is NOT a topological order (the name suggests parents after all
   children): on the diamond 3=[1,2], 1=[0], 2=[0] it yields 0 before its child 1.  The contract it
   does meet is [children_first] (C43_walk_perm). *)
Theorem C43_post_topological_refuted :
  exists g s l, dag_ok g = true /\ dag_closed g = true /\
    post_walk g nostop (walk_fuel g) s [] = (l, WEof) /\
    exists l1 p l2 c l3, l = l1 ++ p :: l2 ++ c :: l3 /\ In p (parents g c).
Proof.
  exists (mkDag [[]; [0]; [0]; [1; 2]] [0; 0; 0; 0]%Z), 3, [3; 2; 0; 1].
  repeat split; try reflexivity.
  exists [3; 2], 0, [], 1, []. split; [reflexivity | simpl; auto].
Qed.
Print Assumptions C43_post_topological_refuted.

(* Log(All) (NewCommitAllIter): FULL statement "every commit reachable from a listed tip is yielded"
   is false of the code as it is: addReference stops at the first commit already listed. *)
Theorem C43_all_refuted :
  exists g order tips l x, dag_ok g = true /\ dag_closed g = true /\
    all_walk order g [] tips = Some l /\ (exists t, In t tips /\ reach g t x) /\ ~ In x l.
Proof.
  exists (mkDag [[]; [0]; [0]; [1; 2]] [0; 10; 20; 30]%Z), 3, [1; 3], [3; 1; 0], 2.
  split; [reflexivity|]. split; [reflexivity|]. split; [vm_compute; reflexivity|].
  split.
  - exists 3. split; [simpl; auto|]. eapply reach_step; [|constructor]. simpl. auto.
  - simpl. intros [H|[H|[H|[]]]]; discriminate.
Qed.
Print Assumptions C43_all_refuted.

(* ... and what does hold: with a single tip Log(All) is the plain walk *)
Theorem C43_all_partial : forall g order t, order <= 4 ->
  dag_ok g = true -> dag_closed g = true -> t < nnodes g ->
  exists l, all_walk order g [] [t] = Some l /\ Permutation l (ancs g t).
Proof. exact all_single. Qed.
Print Assumptions C43_all_partial.

(* non-vacuity: the five walkers on a criss-cross history whose clocks run backwards *)
Example C43_criss_cross :
  let g := mkDag [[]; [0]; [0]; [1; 2]; [2; 1]; [3; 4]] [5; 4; 3; 2; 1; 0]%Z in
  dag_ok g = true /\ dag_closed g = true /\
  fst (pre_walk g nostop (walk_fuel g) 5 []) = [5; 3; 1; 0; 2; 4] /\
  fst (post_walk g nostop (walk_fuel g) 5 []) = [5; 4; 1; 0; 2; 3] /\
  fst (bfs_walk g nostop (walk_fuel g) 5 []) = [5; 3; 4; 1; 2; 0] /\
  fst (ctime_walk g nostop (walk_fuel g) 5 []) = [5; 3; 1; 0; 2; 4] /\
  fst (postfp_walk g nostop (walk_fuel g) 5 []) = [5; 3; 1; 0].
Proof. vm_compute. repeat split. Qed.
