(* Properties/C41.v — Remote command quoting is injection-free.
   The statements; the lemmas they rest on are in Proofs/C41.v. *)
From Coq Require Import List NArith Bool String.
From GoGit Require Import Base.Out Model.ShellQuote Spec.ShWords Proofs.C41.
Import ListNotations.
Local Open Scope N_scope.

(* For every path and argument list (ANY bytes), a POSIX shell splits the
   command line go-git sends into exactly [cmd; path; args...]; because the
   spec lexer refuses every unquoted operator/expansion byte, [Some] also
   means no second command, substitution or redirection exists. *)
Theorem C41_sh : forall cmd path args,
  cmd <> [] -> forallb plain cmd = true ->
  sh_words (build cmd path args) = Some (cmd :: path :: args).
Proof. exact sh_words_build. Qed.
Print Assumptions C41_sh.

(* git-shell dequotes the single path argument back to the original bytes *)
Theorem C41_dequote : forall path, sq_dequote (quote path) = Some path.
Proof. exact sq_dequote_quote. Qed.
Print Assumptions C41_dequote.

(* ... and sq_dequote_to_argv recovers path and every argument *)
Theorem C41_dequote_argv : forall path args fuel,
  (List.length args < fuel)%nat ->
  sq_dequote_argv fuel (quote path ++ flat_map (fun x => SP :: quote x) args) []
  = Some (path :: args).
Proof. intros; now apply sq_dequote_argv_quotes. Qed.
Print Assumptions C41_dequote_argv.

(* non-vacuity: the service names used by go-git satisfy the premises,
   and a hostile path/argument pair is split as claimed *)
Example C41_cmd_ok :
  forallb plain (bytes_of_string "git-upload-pack"%string) = true /\
  forallb plain (bytes_of_string "git-receive-pack"%string) = true /\
  forallb plain (bytes_of_string "git-upload-archive"%string) = true.
Proof. vm_compute. repeat split. Qed.

Example C41_hostile :
  sh_words (build [103;105;116] [39;59;114;109;33;36] [[]; [32;39]])
  = Some [[103;105;116]; [39;59;114;109;33;36]; []; [32;39]].
Proof. vm_compute. reflexivity. Qed.
