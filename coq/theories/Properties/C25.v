(* Properties/C25.v — Checkout and hard reset materialise exactly the target
   commit.  Statements; the lemmas behind them are in Proofs/C25.v (model: Model/Porcelain.v,
   flattened trees, guard df_free checked by the correspondence). *)
From Coq Require Import List NArith ZArith Bool String.
From GoGit Require Import Base.Out Model.Porcelain Proofs.PorcelainMaps Proofs.Porcelain Proofs.C25.
Import ListNotations.

(* Reset(Hard) that succeeds: HEAD resolves to the requested commit, the index
   is its tree, every path of the tree is on disk with the tree's kind and
   content; and every path outside the target AND outside the previous HEAD tree
   keeps what it had (untracked files survive). *)
Theorem C25_reset_hard : forall commit s s',
  reset commit Hard None s = (None, s') ->
  exists c t, reset_target commit s = Some c /\ tree_of s' c = Some t /\ materialised s' c t /\
    (forall p, lookup p t = None -> lookup p (tree_or_empty (head_tree s)) = None ->
               lookup p (wt s') = lookup p (wt s)).
Proof. exact reset_hard_materialises. Qed.
Print Assumptions C25_reset_hard.

(* the same for Checkout with Force — by branch, by hash, with Create *)
Theorem C25_checkout_force : forall o s s',
  co_force o = true -> checkout o s = (None, s') ->
  exists c t, checkout_target o s = Some c /\ tree_of s' c = Some t /\ materialised s' c t /\
    (forall p, lookup p t = None -> lookup p (tree_or_empty (head_tree s)) = None ->
               lookup p (wt s') = lookup p (wt s)).
Proof. exact checkout_force_materialises. Qed.
Print Assumptions C25_checkout_force.

(* hence git status has no tracked change to report *)
Theorem C25_clean_status : forall s' c t,
  tree_of s' c = Some t -> materialised s' c t -> tracked_clean s'.
Proof.
  intros s' c t Ht (H1 & H2 & H3). exists c, t. repeat split; auto.
  intros p e Hp. rewrite (H2 p) in Hp. auto.
Qed.
Print Assumptions C25_clean_status.

(* FULL statement for untracked files (property text: "files that were
   untracked and not in C are still present unchanged"):
     forall p, lookup p (idx s) = None -> lookup p t = None -> lookup p (wt s') = lookup p (wt s)
   is FALSE of the code: a path of HEAD's tree that was dropped from the index
   only (rm --cached) and is absent from the target is deleted by step 1 of
   resetWorktreeToTree (tree-to-tree diff).  Witness replayed on the real code
   (corpus/C25/untracked_in_head.json); the guarded form is the last conjunct of
   C25_reset_hard / C25_checkout_force (guard: p not in HEAD's tree). *)
Theorem C25_untracked_refuted :
  exists s commit s' p,
    reset commit Hard None s = (None, s') /\
    lookup p (idx s) = None /\
    (exists t, tree_of s commit = Some t /\ lookup p t = None) /\
    lookup p (wt s) <> None /\ lookup p (wt s') = None.
Proof.
  destruct hard_deletes_untracked as (s' & H1 & H2 & H3 & H4 & H5).
  exists w_state, 1%Z, s', (b "n"). repeat split; auto.
  - exists w_tree1. split; [reflexivity | exact H3].
  - rewrite H4. discriminate.
Qed.
Print Assumptions C25_untracked_refuted.

Theorem C25_untracked_partial : forall commit s s' c t p,
  reset commit Hard None s = (None, s') ->
  reset_target commit s = Some c -> tree_of s' c = Some t ->
  lookup p t = None -> lookup p (tree_or_empty (head_tree s)) = None ->
  lookup p (wt s') = lookup p (wt s).
Proof.
  intros commit s s' c t p H Hc Ht Hp Hh.
  destruct (reset_hard_materialises _ _ _ H) as (c' & t' & A1 & A2 & _ & A4).
  assert (c' = c) by congruence. subst c'. assert (t' = t) by congruence. subst t'. auto.
Qed.
Print Assumptions C25_untracked_partial.

(* "the worktree is EXACTLY the target plus what was untracked": also false in
   the other direction — a staged new file is left behind as an untracked file
   (git reset --hard removes it); witness replayed (corpus/C25/staged_new_kept.json) *)
Theorem C25_staged_new_refuted :
  exists s commit s' p e,
    reset commit Hard None s = (None, s') /\
    lookup p (idx s) = Some e /\ lookup p (idx s') = None /\ lookup p (wt s') = Some e.
Proof.
  destruct hard_keeps_staged_new as (s' & H1 & H2 & H3 & H4).
  exists w_state2, 1%Z, s', (b "s"), (KReg, b "S"). repeat split; auto.
Qed.
Print Assumptions C25_staged_new_refuted.

(* non-vacuity: a forced checkout by branch over a dirty worktree with an
   untracked file; the result is the target tree plus the untracked file *)
Example C25_example :
  let t0 : fmap := [(b "a", (KReg, b "A")); (b "d/x", (KExec, b "X"))] in
  let t1 : fmap := [(b "a", (KLink, b "d/x")); (b "k", (KReg, b "K"))] in
  let other := (refs_heads ++ b "other")%list in
  let s := mkState [t0; t1] [(master, 0%Z); (other, 1%Z)] (HSym master)
                   t0 [(b "a", (KReg, b "dirty")); (b "d/x", (KExec, b "X")); (b "u", (KReg, b "U"))] [] in
  checkout (mkCopts other (-1) false true false) s
  = (None, mkState [t0; t1] [(master, 0%Z); (other, 1%Z)] (HSym other)
                   t1 [(b "a", (KLink, b "d/x")); (b "k", (KReg, b "K")); (b "u", (KReg, b "U"))] []).
Proof. vm_compute. reflexivity. Qed.
