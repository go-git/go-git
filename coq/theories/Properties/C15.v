(* Properties/C15.v — Reference store behaves like a map and packing preserves it.
   Statements and their last step; the proofs live in Proofs/C15*.v.
   G = Model/RefStore (dotgit SetRef / CheckAndSet, Ref, Refs, RemoveRef, PackRefs over
       loose files + packed-refs, after the repairs "fix: PackRefs leaves symbolic
       references loose …", "fix: RemoveRef drops the peeled line …" and "fix: rewrite
       packed-refs before deleting the loose file in RemoveRef"),
   S = Spec/RefMap (a name -> value map, compare-and-swap on object ids),
   abs s = the loose value of a name, else its first occurrence in packed-refs.

   FULL statement (the property): from every well-formed state (wfb: git- or
   go-git-written loose files and packed-refs, header / comments / peeled lines
   allowed) and for every history of operations on listed, clean names
   (op_okb), every answer is the map's answer and abs commutes with every step
   (refines_step); a SetRef refused by the filesystem leaves the state unchanged,
   a RemoveRef removes the name from the map whether or not the filesystem
   refuses the loose path afterwards (packed-refs is rewritten first).
   The faithful model refutes it at one point (C15_failed_cas_refuted): a
   failed compare-and-swap on a name without a loose file leaves an empty file,
   after which the listing fails.  Everything else is proved in full:
     C15_refines_step      — every single answer and the abstraction, NO guard;
     C15_refines_partial   — whole histories under the boolean guard `guards`
                             (each CAS names a reference that has a loose file);
     C15_pack_preserves    — PackRefs changes no read and no listing. *)
From Coq Require Import List NArith Bool String.
From GoGit Require Import Base.Out Model.RefStrings Model.RefGuard Model.RefStore Spec.RefMap
  Proofs.C15a Proofs.C15b Proofs.C15c Proofs.C15.
Import ListNotations.
Local Open Scope N_scope.

(* one operation from a well-formed state: its answer is the map's and the
   abstraction commutes — compare-and-swap included, whatever its outcome *)
Theorem C15_refines_step : forall s o, wfb s = true -> op_okb o = true ->
  let (s', r) := step_t s o in refines_step s o s' r.
Proof. intros s o Hw Ho. pose proof (step_spec s o Hw Ho) as H. destruct (step_t s o). apply H. Qed.
Print Assumptions C15_refines_step.

(* whole histories, under the guard; the final state is well-formed again *)
Theorem C15_refines_partial : forall ops s, wfb s = true -> guards s ops = true ->
  run_refines s ops /\ wfb (fold_left (fun st o => fst (step_t st o)) ops s) = true.
Proof.
  induction ops as [|o r IH]; intros s Hw Hg; [split; [exact I|assumption]|].
  cbn [guards] in Hg. apply andb_true_iff in Hg as [Hg Hr]. apply andb_true_iff in Hg as [Ho Hc].
  cbn [run_refines fold_left].
  pose proof (step_spec s o Hw Ho) as H. destruct (step_t s o) as [s' t]. cbn [fst snd] in *.
  destruct H as [H1 H2]. destruct (IH s' (H2 Hc) Hr) as [H3 H4]. auto.
Qed.
Print Assumptions C15_refines_partial.

(* the full statement (no guard) is false of the code as it is *)
Theorem C15_failed_cas_refuted :
  exists s o, wfb s = true /\ op_okb o = true /\ cas_guard s o = false /\
    snd (step_t s o) = TUnit (Er ENotFound) /\
    wfb (fst (step_t s o)) = false /\
    list_refs (fst (step_t s o)) = Er EEmpty /\ (exists l, list_refs s = Ok l).
Proof. exists s_fresh, cas_absent. vm_compute. repeat split. eexists. reflexivity. Qed.
Print Assumptions C15_failed_cas_refuted.

(* packing never changes, drops or corrupts a reference, symbolic or not *)
Theorem C15_pack_preserves : forall s, wfb s = true ->
  let s' := fst (pack_refs s) in
  wfb s' = true /\ abs_eq (abs s') (abs s) /\
  exists l l', list_refs s = Ok l /\ list_refs s' = Ok l' /\ forall n v, In (n, v) l' <-> In (n, v) l.
Proof.
  intros s Hw. pose proof (pack_refs_spec s Hw) as H. destruct (pack_refs s) as [s' r]. cbn [fst].
  destruct H as [_ [Hw' Ha]]. split; [assumption|]. split; [assumption|].
  destruct (list_refs_spec s Hw) as [l [El Hl]]. destruct (list_refs_spec s' Hw') as [l' [El' Hl']].
  exists l, l'. repeat split; try assumption; intros H.
  - apply Hl. apply Hl' in H. now rewrite <- Ha.
  - apply Hl'. apply Hl in H. now rewrite Ha.
Qed.
Print Assumptions C15_pack_preserves.

(* what is written is what is read back: a loose file, a packed-refs line *)
Theorem C15_loose_roundtrip : forall v, val_okb v = true -> read_ref_content (ref_content v) = Ok v.
Proof. exact read_written. Qed.
Print Assumptions C15_loose_roundtrip.
Theorem C15_packed_roundtrip : forall h f name, hash_okb h f = true -> mem 32 name = false ->
  process_line (hash_string h f ++ [32] ++ name) = Some (Some (name, VHash h f)).
Proof. exact process_line_render. Qed.
Print Assumptions C15_packed_roundtrip.

Definition ln (s : string) : bytes := bytes_of_string s ++ [10].
Definition cat (l : list bytes) : bytes := List.concat l.
Local Open Scope string_scope.
(* a git-written store: HEAD, a loose branch shadowing a packed one, a loose
   symbolic ref below refs/, packed-refs with header, a comment and a peeled tag *)
Definition ex_store : store :=
  {| fs := {| files := [(bytes_of_string "HEAD", ln "ref: refs/heads/a");
                        (bytes_of_string "refs/heads/a", ln "e6c47f5d909abcf69dd810014ec7d771b68c27f4");
                        (bytes_of_string "refs/remotes/origin/HEAD", ln "ref: refs/heads/a")];
              dirs := map bytes_of_string ["refs"; "refs/heads"; "refs/tags"; "refs/remotes"; "refs/remotes/origin"] |};
     packed := Some (cat [ln "# pack-refs with: peeled fully-peeled sorted ";
                          ln "c503512623217e92a7079b75ada1b728f48082ba refs/heads/a";
                          ln "c503512623217e92a7079b75ada1b728f48082ba refs/heads/b";
                          ln "9470c2cf496bd5396ba9652d5321e4ef672ce9f3 refs/tags/t";
                          ln "^e6c47f5d909abcf69dd810014ec7d771b68c27f4"]) |}.
Definition ex_ops : list op :=
  [ORefs; OPack; ORm (bytes_of_string "refs/tags/t");
   OSet (bytes_of_string "refs/heads/b") (mk_hash "e6c47f5d909abcf69dd810014ec7d771b68c27f4") None;
   OSet (bytes_of_string "refs/heads/b") (mk_hash "c503512623217e92a7079b75ada1b728f48082ba")
        (Some (mk_hash "e6c47f5d909abcf69dd810014ec7d771b68c27f4"));
   OSet (bytes_of_string "refs/x") (mk_sym "726566732f68656164732f62") None; OPack;
   ORef (bytes_of_string "refs/remotes/origin/HEAD"); ORefs].
Example C15_wf_nonvacuous : wfb ex_store = true /\ guards ex_store ex_ops = true.
Proof. vm_compute. split; reflexivity. Qed.
Example C15_run_example :
  map render (run ex_store [OPack; ORef (bytes_of_string "refs/remotes/origin/HEAD"); ORef (bytes_of_string "refs/heads/b")])
  = ["( ok )"; "( ok ( x726566732f72656d6f7465732f6f726967696e2f48454144 sym x726566732f68656164732f61 ) )";
     "( ok ( x726566732f68656164732f62 hash x63353033353132363233323137653932613730373962373561646131623732386634383038326261 ) )"].
Proof. vm_compute. reflexivity. Qed.
