(* Properties/C46.v — Blame attributes lines the way git does.  PARTIAL BY DESIGN (DESIGN.md §4.C46).

   Full statement of the property: for any file history, every line of go-git's blame is attributed
   to the same commit git blame attributes it to, and the attributed commit's version of the file
   contains that line.  The first half is not a theorem about go-git alone: go-git aligns versions
   with sergi/go-diff, git with xdiff, and on versions with repeated or moved lines both alignments
   are legitimate and differ.  What is proved here, for EVERY history (any DAG, parents first) and
   EVERY line-diff oracle satisfying the boolean contract [oracle_ok], about the attribution function
   [blame_pos] of Model/Blame.v (tied to blame.go by the correspondence on linear and merge
   histories): soundness and totality.  Equality with git blame is checked by the correspondence on
   histories whose alignment is unique.  The lemmas behind the statements are in Proofs/C46.v. *)
From Coq Require Import List NArith Bool Arith.
From GoGit Require Import Base.Out Model.Blame Proofs.C46.
Import ListNotations.

(* every line of every version is attributed to exactly one (commit, line) — the function is total *)
Theorem C46_total : forall h dt c i fc,
  dag_ok h = true -> oracle_ok h dt = true ->
  file_of h c = Some fc -> i < length fc ->
  exists k j, blame_pos (S c) h dt c i = Some (k, j).
Proof. intros; eapply blame_pos_total; eauto. Qed.
Print Assumptions C46_total.

(* the attributed commit k is c or an ancestor reached through parents, its version holds the very
   same line at index j, and none of k's parents takes that line: every parent either lacks the
   path, or has a different blob in which the oracle does not mark the line Equal *)
Theorem C46_sound : forall h dt fuel c i fc k j,
  dag_ok h = true -> oracle_ok h dt = true ->
  file_of h c = Some fc ->
  blame_pos fuel h dt c i = Some (k, j) ->
  k <= c /\
  exists kc fk, get_commit h k = Some kc /\ kc.(c_file) = Some fk /\ j < length fk /\
    nth_error fk j = nth_error fc i /\
    forall p, In p kc.(c_parents) -> to_parent h dt k fk j p = None.
Proof.
  intros h dt fuel c i fc k j Hd Ho. revert c i fc k j.
  induction fuel as [|f IH]; intros c i fc k j Hf Hb; [discriminate|].
  destruct (file_of_commit _ _ _ Hf) as (kc & Hk & Hkf).
  cbn [blame_pos] in Hb. rewrite Hk, Hkf in Hb.
  destruct (Nat.ltb i (length fc)) eqn:Hi; [|discriminate]. apply Nat.ltb_lt in Hi.
  destruct (taker h dt c fc i (c_parents kc)) as [[p j']|] eqn:Hft.
  - apply taker_some in Hft as [Hp Ht].
    destruct (to_parent_sound _ _ _ _ _ _ _ _ Ho Hk Hkf Hp Hi Ht) as (fp & Hfp & Hj & Hn).
    pose proof (dag_ok_parent _ _ _ _ Hd Hk Hp).
    destruct (IH _ _ _ _ _ Hfp Hb) as (Hle & kc' & fk & H1 & H2 & H3 & H4 & H5).
    split; [eapply Nat.le_trans; [exact Hle | now apply Nat.lt_le_incl]|]. exists kc', fk. repeat split; auto. congruence.
  - inversion Hb; subst. split; [apply Nat.le_refl|]. exists kc, fc. repeat split; auto. now apply taker_none.
Qed.
Print Assumptions C46_sound.

(* a line is handed to a parent only where the parent holds the same line (one propagation step) *)
Theorem C46_step : forall h dt c k fc i p j,
  oracle_ok h dt = true -> get_commit h c = Some k -> k.(c_file) = Some fc -> In p k.(c_parents) ->
  i < length fc -> to_parent h dt c fc i p = Some j ->
  exists fp, file_of h p = Some fp /\ j < length fp /\ nth_error fp j = nth_error fc i.
Proof. exact to_parent_sound. Qed.
Print Assumptions C46_step.

(* the blame result has one entry per line of the blamed version, each of them a commit *)
Theorem C46_result : forall h dt head fc,
  dag_ok h = true -> oracle_ok h dt = true -> file_of h head = Some fc ->
  length (blame h dt head) = length fc /\
  forall i, i < length fc -> exists k, nth_error (blame h dt head) i = Some (Some k) /\ k <= head.
Proof.
  intros h dt head fc Hd Ho Hf. split; [now apply blame_length|].
  intros i Hi. rewrite (blame_nth h dt head fc i Hf Hi).
  destruct (blame_pos_total h dt Hd Ho (S head) head i fc (Nat.lt_succ_diag_r head) Hf Hi) as (k & j & Hb).
  rewrite Hb. exists k. split; [reflexivity|].
  now destruct (C46_sound h dt _ _ _ _ _ _ Hd Ho Hf Hb).
Qed.
Print Assumptions C46_result.

(* non-vacuity: a merge history (0 <- 1, 0 <- 2, merge 3 of 1 and 2) satisfying both guards;
   line 0 survives from the root, line 1 comes from parent 2, line 2 is new in the merge *)
Definition ex_l (n : N) : line := [n; 10%N].
Definition ex_hist : history :=
  [ {| c_parents := []; c_file := Some [ex_l 1; ex_l 2] |};
    {| c_parents := [0]; c_file := Some [ex_l 1; ex_l 3] |};
    {| c_parents := [0]; c_file := Some [ex_l 1; ex_l 4; ex_l 2] |};
    {| c_parents := [1; 2]; c_file := Some [ex_l 1; ex_l 4; ex_l 5] |} ].
Definition ex_dt : dtable :=
  [ (0, 1, [(Equal, 1); (Delete, 1); (Add, 1)]);
    (0, 2, [(Equal, 1); (Add, 1); (Equal, 1)]);
    (1, 3, [(Equal, 1); (Delete, 1); (Add, 2)]);
    (2, 3, [(Equal, 2); (Delete, 1); (Add, 1)]) ].
Example C46_guards_hold : dag_ok ex_hist = true /\ oracle_ok ex_hist ex_dt = true.
Proof. vm_compute. split; reflexivity. Qed.
Example C46_merge_blame : blame ex_hist ex_dt 3 = [Some 0; Some 2; Some 3].
Proof. vm_compute. reflexivity. Qed.
(* The deviation from git that was repaired in /repo ("fix: blame passes all lines to a parent with an
   identical blob, as git does"): merge 3 of parents [2; 1] whose file equals parent 1's.  The unrepaired
   rule (first parent in which the line is Equal: first_taker) sends line 1 to parent 2, the repaired
   attribution (taker) sends every line to the identical parent 1, as git blame does. *)
Definition ex_hist2 : history :=
  [ {| c_parents := []; c_file := Some [ex_l 1] |};
    {| c_parents := [0]; c_file := Some [ex_l 1; ex_l 7; ex_l 9] |};
    {| c_parents := [0]; c_file := Some [ex_l 1; ex_l 9] |};
    {| c_parents := [2; 1]; c_file := Some [ex_l 1; ex_l 7; ex_l 9] |} ].
Definition ex_dt2 : dtable :=
  [ (0, 1, [(Equal, 1); (Add, 2)]); (0, 2, [(Equal, 1); (Add, 1)]); (2, 3, [(Equal, 1); (Add, 1); (Equal, 1)]) ].
Example C46_identical_parent_takes_all :
  oracle_ok ex_hist2 ex_dt2 = true /\
  first_taker ex_hist2 ex_dt2 3 [ex_l 1; ex_l 7; ex_l 9] 2 [2; 1] = Some (2, 1) /\
  taker ex_hist2 ex_dt2 3 [ex_l 1; ex_l 7; ex_l 9] 2 [2; 1] = Some (1, 2) /\
  blame ex_hist2 ex_dt2 3 = [Some 0; Some 1; Some 1].
Proof. vm_compute. repeat split; reflexivity. Qed.

(* the contract matters: an oracle that calls different lines Equal is rejected by the guard *)
Example C46_guard_rejects : oracle_ok ex_hist [(0, 1, [(Equal, 2)])] = false.
Proof. vm_compute. reflexivity. Qed.
