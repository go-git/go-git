(* Properties/C13.v — Reference name validation agrees with git check-ref-format.
   Statements and their last step; the proofs live in Proofs/C13.v.
   G = Model/RefName.validate (plumbing.ReferenceName.Validate as it is),
   S = Spec/CheckRefFormat.git_check (git's check_refname_format, flags = 0).

   FULL statement (the property): for every byte string s without a NUL byte
   (a NUL cannot be passed to git on a command line; C strings end there) other
   than the documented one-level exception "HEAD",
       validate s = git_valid s && dash_rule s
   i.e. go-git accepts s exactly when git check-ref-format accepts it and the
   documented leading-dash restriction for branch / tag short names holds.
   The faithful model refutes it (C13_agrees_refuted); the strongest true
   statements are C13_agrees_exact (all names: one extra rule, named) and
   C13_agrees_partial (the full statement under a boolean guard). *)
From Coq Require Import List NArith Bool String.
From GoGit Require Import Base.Out Model.RefStrings Model.RefName Spec.CheckRefFormat Proofs.C13.
Import ListNotations.
Local Open Scope N_scope.

(* the full statement is false of the code as it is: refs/heads/@ is valid for
   git (rule 9 forbids only the whole name "@"), go-git rejects every component "@" *)
Theorem C13_agrees_refuted :
  exists s, no_nul s = true /\ s <> HEADname /\ validate s <> (git_valid s && dash_rule s).
Proof. exists at_witness. split; [reflexivity|]. split; [discriminate|]. vm_compute. discriminate. Qed.
Print Assumptions C13_agrees_refuted.

(* for ALL names: go-git = git's rules + the dash rule + "no component is @";
   the transcription of git's loop never runs out of fuel *)
Theorem C13_agrees_exact : forall s,
  no_nul s = true -> s <> HEADname ->
  git_check s <> OutOfFuel /\ validate s = git_valid s && dash_rule s && no_at_component s.
Proof. exact validate_exact. Qed.
Print Assumptions C13_agrees_exact.

(* the full statement under the guard "no component equal to @" *)
Theorem C13_agrees_partial : forall s,
  no_nul s = true -> s <> HEADname -> no_at_component s = true ->
  git_check s <> OutOfFuel /\ validate s = git_valid s && dash_rule s.
Proof.
  intros s Hn Hh Ha. destruct (validate_exact s Hn Hh) as [Hf He]. split; [assumption|].
  now rewrite He, Ha, andb_true_r.
Qed.
Print Assumptions C13_agrees_partial.

(* names containing a NUL byte (not expressible for git) are always refused *)
Theorem C13_nul_refused : forall s, In 0 s -> validate s = false.
Proof. exact validate_nul. Qed.
Print Assumptions C13_nul_refused.

(* the carved-out exception, made explicit: go-git accepts HEAD, plain
   `git check-ref-format HEAD` (no --allow-onelevel) does not *)
Example C13_head_exception : validate HEADname = true /\ git_check HEADname = Invalid.
Proof. vm_compute. split; reflexivity. Qed.

(* non-vacuity: the guard holds for ordinary names; "@" inside a component, the
   whole name "@" and "@{" behave alike on both sides; the dash rule only bites
   directly below refs/heads/ and refs/tags/ *)
Example C13_guard_nonvacuous :
  let n := bytes_of_string "refs/heads/user@example.com/topic"%string in
  no_nul n = true /\ no_at_component n = true /\ validate n = true /\ git_check n = Valid.
Proof. vm_compute. repeat split. Qed.
Example C13_at_component :
  let n := bytes_of_string "refs/heads/@"%string in
  no_at_component n = false /\ validate n = false /\ git_check n = Valid.
Proof. vm_compute. repeat split. Qed.
Example C13_at_alone : validate [64] = false /\ git_check [64] = Invalid.
Proof. vm_compute. split; reflexivity. Qed.
Example C13_at_brace :
  let n := bytes_of_string "refs/heads/a@{b"%string in validate n = false /\ git_check n = Invalid.
Proof. vm_compute. split; reflexivity. Qed.
Example C13_dash :
  let a := bytes_of_string "refs/heads/-x"%string in
  let b := bytes_of_string "refs/heads/a/-x"%string in
  validate a = false /\ git_check a = Valid /\ dash_rule a = false /\
  validate b = true /\ git_check b = Valid /\ dash_rule b = true.
Proof. vm_compute. repeat split. Qed.
