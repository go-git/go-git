(* Properties/C48.v — Configuration files mean the same to go-git and git.
   The statements; the lemmas they rest on are in Proofs/C48.v, C48Interp.v and C48Opts.v.

   G = Model/ConfigEnc.v (format/config Encoder as it is after the CR repair;
   the seven boolean / numeric readers of config/config.go + optbool.go),
   S = Spec/GitConfig.v (git 2.39.5 config.c reader and parse.c helpers,
   validated against the git binary on every run).  The decoder (external
   gcfg scanner) is not modelled: see props/C48.py (suites decode, encode
   read-back). *)
From Coq Require Import List NArith ZArith Bool String.
From GoGit Require Import Base.Out Model.ConfigEnc Model.ConfigOpts Spec.GitConfig Proofs.C48 Proofs.C48Interp Proofs.C48Opts.
Import ListNotations.
Local Open Scope N_scope.

(* any configuration go-git writes is read back by git with the same values.
   For EVERY format.Config whose section names are non-empty [A-Za-z0-9-]*
   (sections that emit nothing are exempt), whose keys are a letter followed
   by [A-Za-z0-9-]*, whose values contain no NUL and whose subsection names
   contain no NUL and no LF — values and subsection names are otherwise
   arbitrary bytes: quotes, backslashes, '#', ';', blanks at either end, TAB,
   LF, BS, CR, high bytes — git's reader accepts the emitted text and reports
   exactly the written options, in order, section and key lower-cased,
   subsection and value byte for byte.
   Excluded and nevertheless written by the encoder (known findings, see
   findings/C48.json): NUL anywhere (enc-nul), LF in a subsection name
   (enc-subsection-newline).  Invalid section / key names are written raw too;
   go-git's own typed API (config.Config) only produces valid ones. *)
Theorem C48_git_reads_ours : forall c,
  wf c = true -> git_config_parse (encode c) = inr (canon c).
Proof. exact git_reads_ours. Qed.
Print Assumptions C48_git_reads_ours.

(* the value / subsection part of the guard is needed: with perfectly valid
   section and key names the encoder still emits text git rejects or reads
   differently (LF in a subsection name; a NUL byte, on which S is undefined
   and the git binary truncates the value) *)
Theorem C48_git_reads_ours_unguarded_refuted :
  (exists c, git_config_parse (encode c) = inl GErrSyntax) /\
  (exists c, git_config_parse (encode c) = inl GErrNul).
Proof.
  split.
  - exists [([97], [], [([97; 10; 98], [([107], [118])])])]. vm_compute. reflexivity.
  - exists [([97], [([107], [97; 0; 98])], [])]. vm_compute. reflexivity.
Qed.
Print Assumptions C48_git_reads_ours_unguarded_refuted.

(* non-vacuity: a hostile configuration satisfies the guard, and git reads it as written *)
Example C48_git_reads_ours_nonvacuous :
  let c : cfg :=
    [ (bytes_of_string "Core", [(bytes_of_string "Bare", bytes_of_string " a # b ; ""c"" \ ");
                                (bytes_of_string "x-1", [13; 97; 9; 10; 8; 13]);
                                (bytes_of_string "e", [])],
       [ ([34; 92; 32; 13; 93; 200], [(bytes_of_string "URL", [32]); (bytes_of_string "url", bytes_of_string "a  b")]);
         ([], [(bytes_of_string "k", [255; 35])]) ]);
      ([0; 10], [], []) ] in
  wf c = true /\
  git_config_parse (encode c) = inr (canon c) /\
  List.length (canon c) = 6%nat.
Proof. vm_compute. repeat split. Qed.
Print Assumptions C48_git_reads_ours_nonvacuous.

(* boolean settings.
   Full statement (false of the faithful model, for every reader):
     forall v, reader (go_value v) = git_bool v. *)

(* core.bare, remote.<n>.mirror, remote.<n>.promisor:  Get(key) == "true" *)
Theorem C48_bool_eq_true_refuted :
  exists v, git_bool v = Some true /\ go_eq_true (go_value v) = false.
Proof. exact eq_true_refuted. Qed.
Print Assumptions C48_bool_eq_true_refuted.
(* they agree on what go-git itself writes (fmt %t / FormatBool) ... *)
Theorem C48_bool_eq_true_partial : forall s,
  canonical_bool s = true -> git_bool (Some s) = Some (go_eq_true s).
Proof. exact eq_true_partial. Qed.
Print Assumptions C48_bool_eq_true_partial.
(* ... and go-git never says true where git does not *)
Theorem C48_bool_eq_true_sound : forall s,
  go_eq_true s = true -> git_bool (Some s) = Some true.
Proof. exact eq_true_sound. Qed.
Print Assumptions C48_bool_eq_true_sound.

(* core.filemode, pack.readReverseIndex, pack.writeReverseIndex:  != "false" *)
Theorem C48_bool_ne_false_refuted :
  exists s, git_bool (Some s) = Some false /\ go_ne_false s = true.
Proof. exact ne_false_refuted. Qed.
Print Assumptions C48_bool_ne_false_refuted.
Theorem C48_bool_ne_false_partial : forall s,
  canonical_bool s = true -> git_bool (Some s) = Some (go_ne_false s).
Proof. exact ne_false_partial. Qed.
Print Assumptions C48_bool_ne_false_partial.

(* extensions.worktreeConfig: strings.EqualFold(v, "true") *)
Theorem C48_bool_fold_true_refuted :
  exists s, git_bool (Some s) = Some true /\ go_fold_true s = false.
Proof. exact fold_true_refuted. Qed.
Print Assumptions C48_bool_fold_true_refuted.
Theorem C48_bool_fold_true_partial : forall s,
  folded_bool s = true -> git_bool (Some s) = Some (go_fold_true s).
Proof. exact fold_true_partial. Qed.
Print Assumptions C48_bool_fold_true_partial.

(* tag/commit.gpgSign, index.skipHash, uploadArchive.allowUnreachable: strconv.ParseBool.
   Refuted both ways: git's "yes" is unset for go-git; go-git's "t" is an error for git. *)
Theorem C48_bool_parsebool_refuted :
  (exists s, git_bool (Some s) = Some true /\ go_parse_bool s = OBUnset) /\
  (exists s, git_bool (Some s) = None /\ go_parse_bool s = OBTrue).
Proof. exact parsebool_refuted. Qed.
Print Assumptions C48_bool_parsebool_refuted.
Theorem C48_bool_parsebool_partial : forall s,
  parsebool_common s = true -> ob_of (git_bool (Some s)) = go_parse_bool s.
Proof. exact parsebool_partial. Qed.
Print Assumptions C48_bool_parsebool_partial.

(* core.protectNTFS / protectHFS: parseConfigBool ("mirrors git_parse_maybe_bool").
   Refuted: "" (git false, go-git unset), "1k" (git true, go-git unset),
   "2147483648" (git: out of range, go-git true). *)
Theorem C48_bool_configbool_refuted :
  (exists s, git_bool (Some s) = Some false /\ parse_config_bool s = OBUnset) /\
  (exists s, git_bool (Some s) = Some true /\ parse_config_bool s = OBUnset) /\
  (exists s, git_bool (Some s) = None /\ parse_config_bool s = OBTrue).
Proof. exact configbool_refuted. Qed.
Print Assumptions C48_bool_configbool_refuted.
(* equal on true/yes/on/false/no/off in any capitalisation ... *)
Theorem C48_bool_configbool_partial : forall s,
  word6 s = true -> ob_of (git_bool (Some s)) = parse_config_bool s.
Proof. exact configbool_partial_words. Qed.
Print Assumptions C48_bool_configbool_partial.
(* ... and on every plain decimal numeral (no sign, no leading zero) up to INT_MAX *)
Theorem C48_bool_configbool_partial_num : forall s n,
  plain_dec s = true -> dec_digits_val s 0 = Some n -> n <= 2147483647 ->
  ob_of (git_bool (Some s)) = parse_config_bool s.
Proof. exact configbool_partial_num. Qed.
Print Assumptions C48_bool_configbool_partial_num.

(* a valueless key ("[core] bare") is true for git; decoder.go drops gcfg's
   blank flag, every reader then sees "" *)
Theorem C48_bool_valueless_refuted :
  git_bool None = Some true /\
  go_eq_true (go_value None) = false /\ go_fold_true (go_value None) = false /\
  go_parse_bool (go_value None) = OBUnset /\ parse_config_bool (go_value None) = OBUnset.
Proof. exact valueless_refuted. Qed.
Print Assumptions C48_bool_valueless_refuted.

(* numeric setting pack.window: strconv.ParseUint(v, 10, 32) vs git_config_int.
   Full statement (false): forall s, option_map Z.of_N (go_window s) = git_int (Some s).
   Refuted: "1k" (git 1024, go-git error), "010" (git 8 — octal —, go-git 10),
   "4294967295" (git: out of range for int, go-git accepts). *)
Theorem C48_int_window_refuted :
  (exists s, git_int (Some s) = Some 1024%Z /\ go_window s = None) /\
  (exists s, git_int (Some s) = Some 8%Z /\ go_window s = Some 10) /\
  (exists s, git_int (Some s) = None /\ go_window s = Some 4294967295).
Proof. exact window_refuted. Qed.
Print Assumptions C48_int_window_refuted.
(* equal on every plain decimal numeral up to INT_MAX *)
Theorem C48_int_window_partial : forall s n,
  plain_dec s = true -> dec_digits_val s 0 = Some n -> n <= 2147483647 ->
  git_int (Some s) = Some (Z.of_N n) /\ go_window s = Some n.
Proof. exact window_partial. Qed.
Print Assumptions C48_int_window_partial.

(* non-vacuity of the guards *)
Example C48_guards_inhabited :
  canonical_bool s_true = true /\ folded_bool [84;114;85;101] = true /\
  parsebool_common [84;82;85;69] = true /\ word6 [79;102;70] = true /\
  plain_dec [50;49;52;55;52;56;51;54;52;55] = true /\
  dec_digits_val [50;49;52;55;52;56;51;54;52;55] 0 = Some 2147483647.
Proof. vm_compute. repeat split. Qed.

(* read-modify-write: SetOption / AddOption / RemoveOption.
   G = Model/ConfigOpts.v (option.go: IsKey, Get, GetAll, withoutOption,
   withAddedOption, withSettedOption).  git's keys are case-insensitive, so a
   file may spell a key `URL` or `Bare`; every Config.Marshal field goes through
   SetOption, which must replace the entry under ANY spelling. *)

(* set-then-get, for every option list, key, spelling key' of the key and value:
   Get returns the new value; every option left under any spelling of the key
   carries the new value (no stale case-variant survives); GetAll is non-empty
   and holds nothing else *)
Theorem C48_set_then_get : forall os key key' v,
  key_eq key' key = true ->
  opt_get (with_setted os key [v]) key' = v /\
  (forall o, In o (with_setted os key [v]) -> key_eq (fst o) key' = true -> snd o = v) /\
  (forall x, In x (opt_get_all (with_setted os key [v]) key') -> x = v) /\
  opt_get_all (with_setted os key [v]) key' <> [].
Proof. exact set_then_get. Qed.
Print Assumptions C48_set_then_get.

(* several values (remote url / fetch, url insteadOf): GetAll under any spelling
   holds exactly the new values *)
Theorem C48_set_get_all : forall os key key' values x,
  key_eq key' key = true ->
  (In x (opt_get_all (with_setted os key values) key') <-> In x values).
Proof. exact set_get_all. Qed.
Print Assumptions C48_set_get_all.

(* options under other keys are untouched, order included *)
Theorem C48_set_preserves_others : forall os key values,
  filter (fun o => negb (key_eq (fst o) key)) (with_setted os key values) =
  filter (fun o => negb (key_eq (fst o) key)) os.
Proof. exact set_preserves_others. Qed.
Print Assumptions C48_set_preserves_others.

(* RemoveOption removes every spelling of the key and nothing else *)
Theorem C48_remove_all_spellings : forall os key key',
  key_eq key' key = true ->
  opt_get_all (without_option os key) key' = [] /\ has (without_option os key) key' = false /\
  filter (fun o => negb (key_eq (fst o) key)) (without_option os key) =
  filter (fun o => negb (key_eq (fst o) key)) os.
Proof. exact remove_all_spellings. Qed.
Print Assumptions C48_remove_all_spellings.

Theorem C48_add_then_get : forall os key key' v,
  key_eq key' key = true -> opt_get (with_added os key v) key' = v.
Proof. exact add_then_get. Qed.
Print Assumptions C48_add_then_get.

(* non-vacuity: url / URL / Url with stale values, set through the lower-case spelling *)
Example C48_set_example :
  let os := [(bytes_of_string "URL", bytes_of_string "old1"); (bytes_of_string "fetch", bytes_of_string "f");
             (bytes_of_string "Url", bytes_of_string "new"); (bytes_of_string "url", bytes_of_string "old2")] in
  with_setted os (bytes_of_string "url") [bytes_of_string "new"] =
    [(bytes_of_string "fetch", bytes_of_string "f"); (bytes_of_string "Url", bytes_of_string "new")] /\
  with_setted os (bytes_of_string "url") [bytes_of_string "other"] =
    [(bytes_of_string "fetch", bytes_of_string "f"); (bytes_of_string "url", bytes_of_string "other")] /\
  key_eq (bytes_of_string "URL") (bytes_of_string "url") = true.
Proof. vm_compute. repeat split. Qed.
