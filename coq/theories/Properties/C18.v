(* Properties/C18.v — Objects are readable immediately after a successful write.
   The statements; each follows in a few lines from the theorems of Proofs/C18.v.

   G = Model/ObjVis.v (dotgit list caches, gates, handle catalog, writers,
   pack index), S = Spec/ObjDisk.v (lookups answer from what the successful
   writes put on disk).  [guard c] = the repaired tree, or no ExclusiveAccess.
   The full statement (every configuration) is FALSE of the tree before the
   repair `fix: dotgit: forget cached object/pack lists when a writer closes`:
   see the two _refuted theorems, kept as a record of the defect. *)
From Coq Require Import List NArith Bool.
From GoGit Require Import Model.ObjVis Spec.ObjDisk Proofs.C18.
Import ListNotations.
Local Open Scope N_scope.

(* every history of writers opened/closed, deletions, Reindex and lookups, from
   any initial repository: the implementation model gives the answers of the
   abstract disk, step by step *)
Theorem C18_refines_disk : forall c l0 p0 ops, guard c = true ->
  snd (run c (init_st l0 p0) ops) = snd (spec_run (init_disk l0 p0) ops).
Proof. intros c l0 p0 ops G. now rewrite (proj2 (run_init c l0 p0 ops G)). Qed.
Print Assumptions C18_refines_disk.

(* once the writer in slot w (writing object k) is closed, every lookup of k
   (has, size, get, iteration, prefix search) finds it, whatever reads, writers,
   Reindex happened before, in between (ops1: e.g. lookups while the writer was
   open) and after (ops2), as long as k's loose file is not deleted *)
Theorem C18_visible_after_close : forall c l0 p0 ops1 w k ops2 q, guard c = true ->
  slot_get w (ow (fst (run c (init_st l0 p0) ops1))) = Some k ->
  forallb (fun o => negb (is_del k o)) ops2 = true ->
  is_lookup k q = true ->
  finds k q (last (snd (run c (init_st l0 p0) (ops1 ++ CloseObj w :: ops2 ++ [q]))) ROk) = true.
Proof. intros. now apply found_after, closed_visible. Qed.
Print Assumptions C18_visible_after_close.

(* the same for a pack writer: every object of the pack, every later history *)
Theorem C18_visible_after_pack_close : forall c l0 p0 ops1 w p k ops2 q, guard c = true ->
  slot_get w (pw (fst (run c (init_st l0 p0) ops1))) = Some p ->
  mem k p = true ->
  is_lookup k q = true ->
  finds k q (last (snd (run c (init_st l0 p0) (ops1 ++ ClosePack w :: ops2 ++ [q]))) ROk) = true.
Proof. intros. now apply found_after, pack_closed_visible with p. Qed.
Print Assumptions C18_visible_after_pack_close.

(* in every reachable state every indexed pack passes the hasPack gate: the
   pack chosen by findObjectInPackfile (MRU hint, object cache — not modelled)
   cannot turn a lookup into ErrPackfileNotFound *)
Theorem C18_gate_open : forall c l0 p0 ops p, guard c = true ->
  let s := fst (run c (init_st l0 p0) ops) in
  memp p (index_val s) = true -> snd (pack_handle c s p) = true.
Proof. intros c l0 p0 ops p G. apply gate_open, run_init, G. Qed.
Print Assumptions C18_gate_open.

(* without ExclusiveAccess the caches are never consulted: holds with or without the repair *)
Theorem C18_nonexclusive : forall fx l0 p0 ops,
  snd (run (Cfg false fx) (init_st l0 p0) ops) = snd (spec_run (init_disk l0 p0) ops).
Proof. intros. apply C18_refines_disk. unfold guard. cbn. apply orb_true_r. Qed.
Print Assumptions C18_nonexclusive.

(* the tree before the repair, ExclusiveAccess: [NewObject; Has x; Close; Has new] *)
Theorem C18_unrepaired_refuted :
  snd (run (Cfg true false) (init_st 0 []) [NewObj 0 1; Has 2; CloseObj 0; Has 1; Get 1 TAny; Iter TAny])
  = [ROk; RBool false; ROk; RBool false; RErr ENotFound; RSet 0].
Proof. reflexivity. Qed.
Print Assumptions C18_unrepaired_refuted.

(* … and the pack analogue: the index knows the object, the pack gate refuses it *)
Theorem C18_unrepaired_pack_refuted :
  snd (run (Cfg true false) (init_st 0 [9]) [NewPack 0 22; Packs; ClosePack 0; Has 1; Get 1 TAny; Iter TAny; Packs])
  = [ROk; RPacks [9]; ROk; RBool true; RErr EPackNotFound; RSet 9; RPacks [9]].
Proof. reflexivity. Qed.
Print Assumptions C18_unrepaired_pack_refuted.

(* non-vacuity: the premises hold of the witness history in the repaired
   exclusive configuration, and the lookups there succeed *)
Example C18_premises_hold :
  guard (Cfg true true) = true /\
  slot_get 0%nat (ow (fst (run (Cfg true true) (init_st 0 []) [NewObj 0 1; Has 2]))) = Some 1 /\
  snd (run (Cfg true true) (init_st 0 []) [NewObj 0 1; Has 2; CloseObj 0; Has 1; Get 1 TAny; Iter TAny])
  = [ROk; RBool false; ROk; RBool true; ROk; RSet 2].
Proof. vm_compute. repeat split. Qed.

Example C18_pack_premises_hold :
  slot_get 0%nat (pw (fst (run (Cfg true true) (init_st 0 [9]) [NewPack 0 22; Packs]))) = Some 22 /\
  mem 1 22 = true /\
  snd (run (Cfg true true) (init_st 0 [9]) [NewPack 0 22; Packs; ClosePack 0; Has 1; Get 1 TAny; Iter TAny; Packs])
  = [ROk; RPacks [9]; ROk; RBool true; ROk; RSet 31; RPacks [9; 22]].
Proof. vm_compute. repeat split. Qed.

(* writer slots are arbitrary: the theorems above cover any number of object and
   pack writers open at once, writers that are never closed, and RawObjectWriter
   calls abandoned by a failing WriteHeader (FailObj).  Instance: two object
   writers open, a lookup rebuilds the cached list, the first closes while the
   second is still open (and a third was abandoned): its object is found at once *)
Example C18_two_open_writers :
  slot_get 0%nat (ow (fst (run (Cfg true true) (init_st 0 []) [FailObj; NewObj 0 1; NewObj 1 2; Has 5]))) = Some 1 /\
  snd (run (Cfg true true) (init_st 0 [])
         [FailObj; NewObj 0 1; NewObj 1 2; Has 5; CloseObj 0; Has 1; Size 1; Get 1 TAny; Iter TAny; Prefix 1 20;
          NewPack 0 12; NewPack 1 48; Packs; ClosePack 0; Get 2 TAny; Iter TAny; CloseObj 1; Has 2])
  = [RErr EOther; ROk; ROk; RBool false; ROk; RBool true; ROk; ROk; RSet 2; RNum 1;
     ROk; ROk; RPacks []; ROk; ROk; RSet 14; ROk; RBool true].
Proof. vm_compute. split; reflexivity. Qed.
