(* Properties/C01.v — Object IDs and loose objects are identical to git's.
   Each statement is proved from the lemmas of Proofs/C01.v, Proofs/C01main.v, Proofs/SHA.v.

   G = Model/ObjFile.v (go-git as it is), S = Spec/LooseGit.v (git 2.39's
   header writer / reader), H = Spec/SHA.v (executable SHA-1 / SHA-256).
   All statements are over the inflated byte stream (zlib round trip assumed,
   exercised by the correspondence).  Sizes are bounded by int64 because
   go-git's API takes an int64; there is no other bound. *)
From Coq Require Import List NArith ZArith Bool Lia ZifyBool ZifyNat ZifyN.
From GoGit Require Import Base.Out Spec.SHA Gen.C01 Model.ObjFile Spec.LooseGit
  Proofs.SHA Proofs.C01 Proofs.C01main.
Import ListNotations.
Local Open Scope N_scope.

(* The reader reads back every header the writer can produce: every valid type,
   every int64 size, any following bytes. *)
Theorem C01_header_roundtrip : forall t z r,
  type_valid t = true -> int64_size z = true -> read_header (hdr t z ++ r) = Ok (t, z, r).
Proof. intros t z r Hv Hs. apply read_header_hdr; [exact Hv|now apply int64_size_iff]. Qed.
Print Assumptions C01_header_roundtrip.

(* ... and no such header exceeds the reader's byte budget, which is the
   constant regenerated from plumbing/format/objfile (maxHeaderLen): lowering
   it below 30 breaks this proof. *)
Theorem C01_budget : forall t z,
  int64_size z = true -> (List.length (hdr t z) <= max_header_len)%nat.
Proof.
  intros t z Hs. rewrite max_header_len_32.
  pose proof (hdr_length t z (proj1 (int64_size_iff z) Hs)). lia.
Qed.
Print Assumptions C01_budget.

Theorem C01_writer_accepts : forall t z,
  type_valid t = true -> int64_size z = true -> w_header t z = Ok (mkW (hdr t z) (hdr t z) z).
Proof. intros t z Hv Hs. apply w_header_ok; [exact Hv|now apply int64_size_iff]. Qed.
Print Assumptions C01_writer_accepts.

(* go-git's ID function IS git's: same header bytes, same hash, for every
   type name, content and both object formats (no guard at all). *)
Theorem C01_oid_is_git : forall f t c,
  oid f t c = git_oid f t c /\ compute f t c = git_oid f t c /\ hdr t (blen c) = git_hdr t (nlen c).
Proof. intros. repeat split; [apply oid_is_git | rewrite compute_is_oid; apply oid_is_git | apply hdr_is_git]. Qed.
Print Assumptions C01_oid_is_git.

(* Every write path, for every chunking of the content, when the declared size
   equals the bytes written: returns git's ID, stores the file under that ID,
   and the file is exactly what git would write (header ++ content). *)
Theorem C01_paths_agree : forall f t chunks,
  type_git t = true -> int64_size (blen (concat chunks)) = true ->
  let c := concat chunks in let size := blen c in
  path_raw f t size chunks = good_write f t c /\
  path_lazy f t size chunks = good_write f t c /\
  path_set f (m_fill t size chunks) = Some (good_write f t c) /\
  path_set f (m_fill TBlob size [c]) = Some (good_write f TBlob c) /\      (* worktree Add *)
  path_mem f (m_fill t size chunks) = mkR (Some (git_oid f t c)) None None /\
  hasher_sum f (fold_left hasher_write chunks (hasher_new t size)) = git_oid f t c.
Proof.
  intros f t chunks Hg Hs c size. pose proof (type_git_valid t Hg) as Hv.
  repeat split.
  - now apply path_raw_good.
  - now apply path_raw_good.
  - now apply path_set_good.
  - pose proof (path_set_good f TBlob [c] eq_refl) as P. cbn [concat] in P.
    rewrite app_nil_r in P. now apply P.
  - now apply path_mem_good.
  - apply hasher_good.
Qed.
Print Assumptions C01_paths_agree.

(* git reads what go-git writes: S's reader (parse_loose_header + size check)
   on go-git's file gives back type and content, for every content < 2^63. *)
Theorem C01_git_reads : forall f t chunks,
  type_git t = true -> int64_size (blen (concat chunks)) = true ->
  match r_file (path_raw f t (blen (concat chunks)) chunks) with
  | Some (name, raw) => git_read raw = Some (t, concat chunks) /\ name = H f raw
  | None => False
  end.
Proof.
  intros f t chunks Hg Hs. rewrite path_raw_good by (try (now apply type_git_valid); assumption).
  cbn [good_write r_file]. split; [|reflexivity].
  apply git_read_loose; [assumption|]. unfold int64_size, blen, nlen, two63, two64 in *. lia.
Qed.
Print Assumptions C01_git_reads.

(* go-git reads what git writes: type, size, bytes and ID. *)
Theorem C01_reads_git : forall f t c,
  type_git t = true -> nlen c < two63 ->
  read_loose f (git_loose t c) = Ok (t, blen c, c, git_oid f t c).
Proof.
  intros f t c Hg Hn. unfold read_loose, git_loose. rewrite <- hdr_is_git.
  rewrite read_header_hdr by (try (now apply type_git_valid); unfold blen, nlen in *; lia).
  unfold hasher_sum, hasher_write, hasher_new. rewrite <- oid_is_git. reflexivity.
Qed.
Print Assumptions C01_reads_git.

(* Stronger than "what git writes": every header git ACCEPTS (size < 2^63) is
   read by go-git with the same type, size and content ... *)
Theorem C01_reads_all_git_accepts : forall raw t n c,
  git_parse raw = Some (t, n, c) -> n < two63 -> read_header raw = Ok (t, Z.of_N n, c).
Proof.
  intros raw t n c.
  unfold git_parse, MAX_HEADER_LEN. intros Hp Hn.
  destruct (find_nul 32 raw []) as [[h content]|] eqn:Ef; [|discriminate].
  destruct (split_sp h []) as [[ty sz]|] eqn:Es; [|discriminate].
  destruct (git_type ty) as [t'|] eqn:Et; [|discriminate].
  destruct (git_size sz) as [n'|] eqn:Ez; [|discriminate].
  injection Hp as -> -> ->.
  apply find_nul_inv in Ef. destruct Ef as (pre & -> & -> & Hnonul & Hlen). cbn [rev app] in *.
  apply split_sp_inv in Es. destruct Es as (pre2 & -> & -> & Hnosp). cbn [rev app] in *.
  apply git_type_parse in Et. destruct Et as [Hpt _].
  rewrite app_length in Hlen. cbn [List.length] in Hlen.
  apply Forall_app in Hnonul. destruct Hnonul as [_ Hnonul]. inversion Hnonul as [|? ? _ Hnonul']; subst.
  rewrite <- app_assoc. cbn [app].
  apply read_header_shape; try assumption; [rewrite max_header_len_32; lia|].
  exact (parse_int64_of_git_size _ _ Ez Hn).
Qed.
Print Assumptions C01_reads_all_git_accepts.

(* ... the converse (go-git accepts only what git accepts) is false of the
   faithful model: strconv.ParseInt takes "03", "+3", "-3"; ParseObjectType
   takes ofs-delta / ref-delta.  Not a violation of the property (git never
   writes these); recorded as a leniency of the reader. *)
Theorem C01_reader_lenient_refuted :
  ~ (forall raw x, read_header raw = Ok x -> git_parse raw <> None).
Proof.
  intros Hall. destruct reader_lenient as [Hr Hg]. exact (Hall _ _ Hr Hg).
Qed.
Print Assumptions C01_reader_lenient_refuted.

(* Declared size larger than what is written: the writer reports no error and
   saves a file git refuses (size mismatch) ... *)
Theorem C01_short_write : forall f t size chunks,
  type_git t = true -> (blen (concat chunks) < size)%Z -> (size < Z.of_N two63)%Z ->
  let raw := hdr t size ++ concat chunks in
  path_raw f t size chunks = mkR (Some (H f raw)) None (Some (H f raw, raw)) /\ git_read raw = None.
Proof.
  intros f t size chunks Hg Hlt Hsz raw. pose proof (blen_nonneg (concat chunks)) as Hb. split.
  - rewrite path_raw_stores by (try (now apply type_git_valid); lia).
    now replace (size <? blen (concat chunks))%Z with false by lia.
  - unfold git_read, raw. rewrite hdr_nonneg by lia.
    change (type_bytes t ++ 32 :: print_dec (Z.to_N size) ++ [0]) with (git_hdr t (Z.to_N size)).
    rewrite git_parse_hdr by (try assumption; unfold two63, two64 in *; lia).
    replace (Z.to_N size =? nlen (concat chunks)) with false; [reflexivity|].
    unfold nlen, blen in *. lia.
Qed.
Print Assumptions C01_short_write.

(* ... declared size smaller: ErrOverflow, and the saved file is the valid
   object of the first [size] bytes. *)
Theorem C01_overflow_truncates : forall f t size chunks,
  type_git t = true -> (0 <= size)%Z -> (size < blen (concat chunks))%Z -> (size < Z.of_N two63)%Z ->
  let c' := firstn (Z.to_nat size) (concat chunks) in
  path_raw f t size chunks = mkR (Some (git_oid f t c')) (Some EOverflow) (Some (git_oid f t c', git_loose t c')).
Proof.
  intros f t size chunks Hg H0 Hlt Hsz c'. rewrite path_raw_stores by (try (now apply type_git_valid); lia).
  replace (size <? blen (concat chunks))%Z with true by lia. fold c'.
  assert (Hc' : blen c' = size).
  { unfold c', blen. rewrite firstn_length. unfold blen in Hlt. lia. }
  rewrite <- oid_is_git. unfold oid, git_loose. rewrite <- hdr_is_git, Hc'. reflexivity.
Qed.
Print Assumptions C01_overflow_truncates.

(* For EVERY declared size (matching, short, over, negative, oversized): what
   the raw / lazy writer returns and stores depends only on the concatenation
   of the chunks, never on how the caller split them. *)
Theorem C01_chunking_independent : forall f t size c1 c2,
  concat c1 = concat c2 -> path_raw f t size c1 = path_raw f t size c2.
Proof.
  intros f t size c1 c2 E. unfold path_raw. destruct (w_header t size) as [st|e] eqn:Hh; [|reflexivity].
  now rewrite !w_writes_concat, E by exact (w_header_pending _ _ _ Hh).
Qed.
Print Assumptions C01_chunking_independent.

(* Exactly which streams objfile.Reader.Header accepts: a type name without
   space that ParseObjectType knows, one space, a size text without NUL that
   strconv.ParseInt(…, 10, 64) accepts, a NUL, all within maxHeaderLen bytes. *)
Theorem C01_read_header_spec : forall raw t n c,
  read_header raw = Ok (t, n, c) <-> header_shape raw t n c.
Proof.
  intros raw t n c.
  split.
  - unfold read_header. intros Hr.
    destruct (read_until 32 max_header_len raw []) as [[[ty b] r1]|e] eqn:E1; [|discriminate].
    destruct (parse_type ty) as [t'|] eqn:Et; [|discriminate].
    destruct (read_until 0 b r1 []) as [[[sz b2] r2]|e] eqn:E2; [|discriminate].
    destruct (parse_int64 sz) as [n'|] eqn:En; [|discriminate].
    injection Hr as -> -> ->.
    apply read_until_inv in E1. destruct E1 as (pre1 & -> & -> & Hno1 & Hl1 & ->).
    apply read_until_inv in E2. destruct E2 as (pre2 & -> & -> & Hno2 & Hl2 & _).
    cbn [rev app] in *. exists pre1, pre2. repeat split; try assumption. lia.
  - intros (ty & sz & -> & Hno1 & Hno2 & Hlen & Hpt & Hpi). now apply read_header_shape.
Qed.
Print Assumptions C01_read_header_spec.

(* Which hash function: for every constructor option, pre-existing config file
   and sequence of SetObjectFormat calls (the run-time switch a clone of a
   SHA-256 remote performs), all fields the write paths read — the DotGit object
   writer's format, the storage's ObjectHasher, the reader's option — hold the
   repository's current format, so every write path names and stores the object
   as git does in a repository of that format.  Same for the memory storage. *)
Theorem C01_format_current : forall opt file ofs t chunks,
  type_git t = true -> int64_size (blen (concat chunks)) = true ->
  let c := concat chunks in let size := blen c in
  let st := fs_run opt file ofs in let f := repo_format opt file ofs in
  st_raw st t size chunks = good_write f t c /\
  st_set st (m_fill t size chunks) = Some (good_write f t c) /\
  st_set st (m_fill TBlob size [c]) = Some (good_write f TBlob c) /\
  st_mem (ms_run opt ofs) (m_fill t size chunks) = mkR (Some (git_oid (hfmt_of (last_format ofs opt)) t c)) None None.
Proof.
  intros opt file ofs t chunks Hg Hs c size st f.
  destruct (fs_run_format opt file ofs) as (Hd & Ho & _). fold st f in Hd, Ho.
  destruct (C01_paths_agree f t chunks Hg Hs) as (Raw & _ & Set1 & Set2 & _).
  unfold st_raw, st_set, st_mem. rewrite Hd, Ho, ms_run_format.
  repeat split; [exact Raw|exact Set1|exact Set2|now apply path_mem_good].
Qed.
Print Assumptions C01_format_current.

Theorem C01_format_fields : forall opt file ofs,
  let st := fs_run opt file ofs in
  fs_dir st = repo_format opt file ofs /\ fs_oh st = repo_format opt file ofs /\ fs_opts st = repo_format opt file ofs.
Proof. exact fs_run_format. Qed.
Print Assumptions C01_format_fields.

(* MemoryObject.Hash of a freshly filled object is git's ID ... *)
Theorem C01_memobj_fresh : forall f t chunks,
  snd (m_hash f (m_fill t (blen (concat chunks)) chunks)) = Some (git_oid f t (concat chunks)).
Proof. intros. rewrite m_hash_fill. f_equal. apply oid_is_git. Qed.
Print Assumptions C01_memobj_fresh.

(* ... but the hash is cached: Hash(), Write, SetEncodedObject returns the OLD
   ID while the file is stored under the ID of the real content (full statement
   "SetEncodedObject returns the ID the object is stored under" refuted). *)
Theorem C01_memobj_stale_refuted :
  ~ (forall f o r, path_set f o = Some r -> r_err r = None ->
       match r_file r with Some (name, _) => r_id r = Some name | None => True end).
Proof.
  intros Hall. pose proof memobj_stale as W. cbv zeta in W.
  destruct (path_set FSha1 (stale_obj FSha1 TBlob [97] [98])) as [r|] eqn:E; [|contradiction].
  destruct W as (He & Hid & Hfile & Hne).
  specialize (Hall _ _ _ E He). rewrite Hfile, Hid in Hall. congruence.
Qed.
Print Assumptions C01_memobj_stale_refuted.

(* Spec/SHA facts other properties reuse: digest sizes, and the Merkle–Damgard
   extension property of both functions. *)
Theorem C01_digest_shape : forall f m,
  List.length (H f m) = hsize f /\ Forall (fun b => b < 256) (H f m).
Proof. exact H_shape. Qed.
Print Assumptions C01_digest_shape.

Theorem C01_sha_extend : forall k a1 a2,
  List.length a1 = (64 * k)%nat -> List.length a2 = (64 * k)%nat ->
  (sha1_state a1 = sha1_state a2 -> forall s, sha1 (a1 ++ s) = sha1 (a2 ++ s)) /\
  (sha256_state a1 = sha256_state a2 -> forall s, sha256 (a1 ++ s) = sha256 (a2 ++ s)).
Proof. intros k a1 a2 H1 H2. split; intros E; [now apply (sha1_extend k) | now apply (sha256_extend k)]. Qed.
Print Assumptions C01_sha_extend.

From Coq Require Import String.
Example C01_ex_guard : int64_size 0 = true /\ int64_size 9223372036854775807 = true /\
  type_git TBlob = true /\ type_valid TOfsDelta = true /\ type_git TOfsDelta = false.
Proof. vm_compute. repeat split. Qed.

(* "hello\n" as a blob, written in two chunks: git's well-known ID ce013625… *)
Example C01_ex_hello :
  path_raw FSha1 TBlob 6 [[104;101]; [108;108;111;10]]
  = mkR (Some (unhex "ce013625030ba8dba906f756967f9e9ca394464a"%string))
        None
        (Some (unhex "ce013625030ba8dba906f756967f9e9ca394464a"%string,
               [98;108;111;98;32;54;0;104;101;108;108;111;10])).
Proof. vm_compute. reflexivity. Qed.

Example C01_ex_hello_sha256 :
  oid FSha256 TBlob [104;101;108;108;111;10]
  = unhex "2cf8d83d9ee29543b34a87727421fdecb7e3f3a183d337639025de576db9ebb4"%string.
Proof. vm_compute. reflexivity. Qed.

(* the clone path: default storage, then SetObjectFormat(sha256) *)
Example C01_ex_switch : repo_format CUnset None [CSha256] = FSha256 /\ repo_format CSha256 (Some CUnset) [] = FSha1.
Proof. split; reflexivity. Qed.

(* non-vacuity of C01_format_current: a hasher that lags behind is observable *)
Example C01_ex_lagging_hasher :
  let st := mkFS CSha256 FSha256 FSha1 FSha256 in
  match st_set st (m_fill TBlob 1 [[97]]) with
  | Some r => r_err r = None /\
              r_id r = Some (git_oid FSha1 TBlob [97]) /\
              r_file r = Some (git_oid FSha256 TBlob [97], git_loose TBlob [97])
  | None => False
  end.
Proof. vm_compute. repeat split. Qed.

(* the largest header: "ofs-delta 9223372036854775807\0" is 30 bytes *)
Example C01_ex_longest : List.length (hdr TOfsDelta 9223372036854775807) = 30%nat.
Proof. vm_compute. reflexivity. Qed.

Example C01_ex_overflow :
  path_raw FSha1 TBlob 2 [[97;98;99]] =
  mkR (Some (git_oid FSha1 TBlob [97;98])) (Some EOverflow) (Some (git_oid FSha1 TBlob [97;98], git_loose TBlob [97;98])).
Proof. vm_compute. reflexivity. Qed.
