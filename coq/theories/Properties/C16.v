(* Properties/C16.v — Reference updates are atomic compare-and-swap operations.
   The invariant and its preservation are in Proofs/C16.v.  A system = an assignment of one
   operation to every thread id (unboundedly many threads), an initial on-disk
   state of the reference, and any schedule (list of thread ids; a step of a
   finished or lock-blocked thread is a no-op).  [cas_only]: every thread is a
   check-and-set writer or a reader. *)
From Coq Require Import List Arith Bool.
From GoGit Require Import Base.Out Model.RefCAS Proofs.C16.
Import ListNotations.

(* CAS is linearizable, for ANY number of CAS writers and readers and ANY
   schedule.  [log] records, at the write step of each successful CAS, the
   abstract register before it, the expected and the new value:
   (1) every successful update expected (modulo Reference.Hash()) the value the
       previous successful update wrote, starting from the initial value: no
       lost update, no update against a stale value;
   (2) the register is the last successful new value;
   (3) whenever no writer is between its truncate and its write, a sequential
       reader of the files computes exactly the register. *)
Theorem C16_cas_linearizable : forall kinds lo pk sched, cas_only kinds ->
  let s0 := mk_init lo pk in
  let s := run kinds s0 sched in
  chain_ok (logical s0) (log s) /\ reg s = last_reg (logical s0) (log s)
  /\ (win s = false -> logical s = reg s).
Proof.
  intros kinds lo pk sched CO s0 s.
  assert (I : J kinds (logical s0) pk s) by (apply J_run, J_init; exact CO).
  destruct (j_chain _ _ _ _ I). split; auto. split; auto. apply (j_reg _ _ _ _ I).
Qed.
Print Assumptions C16_cas_linearizable.

(* in_cs: between Lock and Close (W2..W7); the lock holder is the only thread there *)
Theorem C16_mutex : forall kinds lo pk sched t t' fd fd', cas_only kinds ->
  let s := run kinds (mk_init lo pk) sched in
  in_cs (pc_of kinds s t) = Some fd -> in_cs (pc_of kinds s t') = Some fd' -> t = t'.
Proof.
  intros kinds lo pk sched t t' fd fd' CO s. eapply mutex. apply J_run, J_init; exact CO.
Qed.
Print Assumptions C16_mutex.

(* for hash references (non-zero hash) "modulo Hash()" is equality: a successful
   CAS expecting hash k was made against exactly hash k *)
Theorem C16_cas_exact : forall kinds lo pk sched r k n, cas_only kinds -> k <> 0 ->
  In (r, VHash k, n) (log (run kinds (mk_init lo pk) sched)) -> r = Some (VHash k).
Proof.
  intros kinds lo pk sched r k n CO Hk Hin.
  destruct (C16_cas_linearizable kinds lo pk sched CO) as (Hc & _).
  destruct (chain_ok_In _ _ _ _ _ Hc Hin) as (v & -> & Hs). f_equal. now apply same_hash_exact.
Qed.
Print Assumptions C16_cas_exact.

(* FULL STATEMENT for symbolic references (false): a successful CAS was made
   against exactly the value it expected.  Refuted: both Hash() are zero. *)
Theorem C16_symbolic_cas_refuted : exists kinds lo pk sched r o n, cas_only kinds /\
  In (r, o, n) (log (run kinds (mk_init lo pk) sched)) /\ r <> Some o.
Proof.
  exists (kinds_of [KCas (VSym 1) (VHash 2)]), (Some (Some (VSym 2))), None, [0;0;0;0;0;0;0;0],
         (Some (VSym 2)), (VSym 1), (VHash 2).
  split; [intros [|[|t]]; reflexivity|]. split; [vm_compute; auto | discriminate].
Qed.
Print Assumptions C16_symbolic_cas_refuted.

(* FULL STATEMENT (false): a concurrent reader returns a value the reference
   held at some point of the run (its previous or its new value).
   Refuted with CAS writers only: the reader reads the file between truncate
   and write, falls back to packed-refs and returns a stale packed value. *)
Theorem C16_reader_atomic_refuted : exists kinds lo pk sched t v, cas_only kinds /\ kinds t = KRead /\
  result kinds (run kinds (mk_init lo pk) sched) t = Some (RFound v) /\
  forall s', In s' (states kinds (mk_init lo pk) sched) -> reg s' <> Some v.
Proof.
  exists (kinds_of [KCas (VHash 1) (VHash 2); KRead]), (Some (Some (VHash 1))), (Some (Some (VHash 3))),
         [0;0;0;0;1;1;1;1;1;0;0], 1, (VHash 3).
  split; [intros [|[|[|t]]]; reflexivity|]. split; [reflexivity|]. split; [vm_compute; reflexivity|].
  apply regs_never. vm_compute. reflexivity.
Qed.
Print Assumptions C16_reader_atomic_refuted.

(* ... and "never an absent value": with no packed-refs the same reader gets
   "reference not found" although the reference existed throughout *)
Theorem C16_reader_notfound_refuted : exists kinds lo pk sched t, cas_only kinds /\ kinds t = KRead /\
  result kinds (run kinds (mk_init lo pk) sched) t = Some RNotFound /\
  forall s', In s' (states kinds (mk_init lo pk) sched) -> reg s' <> None.
Proof.
  exists (kinds_of [KCas (VHash 1) (VHash 2); KRead]), (Some (Some (VHash 1))), None,
         [0;0;0;0;1;1;1;1;0;0], 1.
  split; [intros [|[|[|t]]]; reflexivity|]. split; [reflexivity|]. split; [vm_compute; reflexivity|].
  apply regs_never. vm_compute. reflexivity.
Qed.
Print Assumptions C16_reader_notfound_refuted.

(* what does hold for readers (CAS writers and readers only): the reader's
   decisive step (the read of the loose file, or the stat/open that found it
   absent) records the register and whether a truncate-write window was open;
   if none was open (boolean guard w = false), the reader returns exactly the
   register value of that moment — and that moment is a state of the run *)
Theorem C16_reader_atomic_partial : forall kinds lo pk sched t res, cas_only kinds -> kinds t = KRead ->
  let s := run kinds (mk_init lo pk) sched in
  result kinds s t = Some res ->
  exists r w, rexp s t = Some (r, w) /\ (w = false -> res = of_reg r)
    /\ exists s', In s' (states kinds (mk_init lo pk) sched) /\ reg s' = r /\ win s' = w.
Proof.
  intros kinds lo pk sched t res CO Hk s Hres.
  assert (I : J kinds (logical (mk_init lo pk)) pk s) by (apply J_run, J_init; exact CO).
  unfold result in Hres. destruct (pc_of kinds s t) eqn:Hpc; try discriminate. inversion Hres; subst.
  destruct (j_rd _ _ _ _ I t res Hk Hpc) as (r & w & Hr & Hw). exists r, w. split; auto. split; auto.
  destruct (rexp_visited kinds sched (mk_init lo pk) t r w Hr) as [H|H]; auto.
  rewrite mk_init_rexp in H. discriminate.
Qed.
Print Assumptions C16_reader_atomic_partial.

(* FULL STATEMENT with a packer (false): no successful update is lost.
   Refuted: PackRefs reads the loose value, a CAS A->B succeeds, PackRefs
   writes A to packed-refs and removes the loose file.  Everything has
   finished, the CAS reported success, the reference reads A. *)
Theorem C16_pack_race_refuted : exists kinds lo pk sched,
  let s := run kinds (mk_init lo pk) sched in
  result kinds s 0 = Some ROk /\ result kinds s 1 = Some ROk /\
  log s = [(Some (VHash 1), VHash 1, VHash 2)] /\ win s = false /\
  reg s = Some (VHash 2) /\ logical s = Some (VHash 1).
Proof.
  exists (kinds_of [KCas (VHash 1) (VHash 2); KPack]), (Some (Some (VHash 1))), None,
         [1;1;1;1;1;1;0;0;0;0;0;0;1;1;1;1].
  vm_compute. repeat split.
Qed.
Print Assumptions C16_pack_race_refuted.

(* FULL STATEMENT with an unconditional SetRef (false): a successful CAS was
   made against the value it expected.  Refuted: SetRef(new, nil) truncates at
   open, before taking the lock; the CAS reads an empty file, falls back to a
   stale packed value equal to what it expects, and succeeds although the
   reference was B. *)
Theorem C16_uncond_set_refuted : exists kinds lo pk sched r o n,
  In (r, o, n) (log (run kinds (mk_init lo pk) sched)) /\
  (forall v, r = Some v -> same v o = false).
Proof.
  exists (kinds_of [KSet (VHash 3); KCas (VHash 1) (VHash 2)]), (Some (Some (VHash 2))), (Some (Some (VHash 1))),
         [0;1;1;1;1;1;1;1;1;0;0;0], (Some (VHash 2)), (VHash 1), (VHash 2).
  split; [vm_compute; auto|]. intros v E. inversion E; subst. reflexivity.
Qed.
Print Assumptions C16_uncond_set_refuted.

(* ... and the unconditional writer never truncates under the lock: its shorter
   symbolic line over the CAS writer's longer hash line leaves a corrupted file *)
Theorem C16_uncond_set_garbage : exists kinds lo pk sched,
  logical (run kinds (mk_init lo pk) sched) = Some VGarb.
Proof.
  exists (kinds_of [KCas (VSym 1) (VHash 2); KSet (VSym 2)]), (Some (Some (VSym 1))), None,
         [0;0;0;1;1;1;1;0;0;0;0;0;1;1;1;1;1].
  vm_compute. reflexivity.
Qed.
Print Assumptions C16_uncond_set_garbage.

(* non-vacuity: two racing CAS writers, one wins, the chain has one link; and a
   three-writer run where two succeed in sequence *)
Example C16_ex_race :
  let s := run (kinds_of [KCas (VHash 1) (VHash 2); KCas (VHash 1) (VHash 3)]) (mk_init (Some (Some (VHash 1))) None)
               [0;1;0;1;1;0;0;1;0;1;0;1;1;1;1;1] in
  log s = [(Some (VHash 1), VHash 1, VHash 2)] /\ result (kinds_of [KCas (VHash 1) (VHash 2); KCas (VHash 1) (VHash 3)]) s 1 = Some RChanged
  /\ logical s = Some (VHash 2).
Proof. vm_compute. auto. Qed.

Example C16_ex_chain :
  let ks := kinds_of [KCas (VHash 1) (VHash 2); KCas (VHash 2) (VHash 3); KRead] in
  let s := run ks (mk_init None (Some (Some (VHash 1)))) [0;0;0;0;0;0;0;0;1;1;1;1;1;1;2;2;2] in
  log s = [(Some (VHash 1), VHash 1, VHash 2); (Some (VHash 2), VHash 2, VHash 3)]
  /\ result ks s 2 = Some (RFound (VHash 3)).
Proof. vm_compute. auto. Qed.

Example C16_cas_only_ex : cas_only (kinds_of [KCas (VHash 1) (VHash 2); KRead]).
Proof. intros [|[|[|t]]]; reflexivity. Qed.
