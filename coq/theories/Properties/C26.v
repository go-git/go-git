(* Properties/C26.v — Worktree operations never touch paths outside the
   worktree or in .git.  The statements; the lemmas they rest on are in Proofs/C26.v.
   Model: Model/WorktreePaths.v (validPath, ValidTreePath and friends on ASCII
   byte strings; POSIX reading of a path = '/'-separated components).  *)
From Coq Require Import List NArith Bool String.
From GoGit Require Import Base.Out Model.Porcelain Model.WorktreePaths Proofs.PorcelainMaps Proofs.C26.
Import ListNotations.
Local Open Scope N_scope.

(* Lexical confinement.  If validPath accepts p then, read as a POSIX path
   below the worktree root: p has at least one component, no component is "."
   or ".." — so pure lexical resolution never pops and yields the components
   themselves, i.e. a location strictly below the root — and the first
   component is not .git / git~1 in any letter case: the location is not in the
   repository's .git directory.  Holds for both settings of protectNTFS/HFS. *)
Theorem C26_lexical_confined : forall ntfs hfs p, valid_path ntfs hfs p = true ->
  os_parts p <> [] /\
  (forall c, In c (os_parts p) -> c <> s_dot /\ c <> s_dotdot) /\
  lex_resolve [] (os_parts p) = Some (os_parts p) /\
  (forall c r, os_parts p = c :: r -> is_dotgit_name c = false).
Proof.
  intros ntfs hfs p H. destruct (valid_path_confined _ _ _ H) as (A & B & C).
  repeat split; auto; eapply valid_path_os_nodots; eauto.
Qed.
Print Assumptions C26_lexical_confined.

(* Tree paths (Tree.FindEntry, CherryPick, Submodule.Repository run
   pathutil.ValidTreePath): no component AT ANY DEPTH is .git / git~1 (any
   case), "." or "..". *)
Theorem C26_tree_paths : forall p c, valid_tree_path p = true -> In c (os_parts p) ->
  is_dotgit_name c = false /\ c <> s_dot /\ c <> s_dotdot.
Proof. exact valid_tree_path_components. Qed.
Print Assumptions C26_tree_paths.

(* Symlink discipline.  For ANY file tree ([node]: what sits at a resolved
   location) and ANY behaviour of symlinks ([follow]): if validNoLeadingSymlink
   accepts the components of p — Lstat (kernel-resolved) reports no symlink at
   any proper prefix — then the kernel resolves the directory part of p to the
   lexical directory: the create / remove / open happens in the directory the
   string names.  With C26_lexical_confined: below the root, outside .git.
   (Not covered: the window between the Lstat calls and the operation.) *)
Theorem C26_write_confined : forall (node : list bytes -> ntype) (follow : list bytes -> list bytes) parts,
  parts <> [] ->
  no_leading_symlink (os_lstat node follow) parts = true ->
  walk node follow (removelast parts) = removelast parts.
Proof. exact no_leading_symlink_lexical. Qed.
Print Assumptions C26_write_confined.

(* FULL statement for nested .git directories ("... or inside a submodule's
   git directory"):
     valid_path ntfs hfs p = true -> forall pre c x post, os_parts p = pre ++ c :: x :: post -> is_dotgit_name c = false
   is FALSE of validPath: it splits on '/' AND '\', allows .git as the LAST of
   those components, and a tail made of backslashes only produces no component —
   but on a POSIX filesystem "\" is an ordinary file name, so "a/.git/\" names a
   file inside a/.git/.  Replayed on the real wrapper (corpus/C26).  ValidTreePath
   rejects it (C26_tree_paths), so checkout of a hostile tree cannot produce it. *)
Theorem C26_nested_dotgit_refuted :
  exists p pre c x post, valid_path true true p = true /\
    os_parts p = (pre ++ c :: x :: post)%list /\ is_dotgit_name c = true.
Proof.
  exists (bytes_of_string "a/.git/\"%string), [bytes_of_string "a"%string], s_dotgit, [BSLASH], [].
  vm_compute. repeat split.
Qed.
Print Assumptions C26_nested_dotgit_refuted.

(* partial: without a backslash in p the POSIX components ARE validPath's
   components, and no non-final one is a .git name *)
Theorem C26_nested_dotgit_partial : forall ntfs hfs p pre c x post,
  forallb (fun b => negb (is_bslash b)) p = true ->
  valid_path ntfs hfs p = true -> os_parts p = (pre ++ c :: x :: post)%list -> is_dotgit_name c = false.
Proof.
  intros ntfs hfs p pre c x post Hb H Hos. destruct (valid_path_parts _ _ _ H) as [_ Hv].
  rewrite (fields_sep_no_bslash p Hb), Hos in Hv. eapply valid_parts_nonfinal; eauto.
Qed.
Print Assumptions C26_nested_dotgit_partial.

(* non-vacuity *)
Example C26_examples :
  valid_path true false (bytes_of_string "dir/sub/file.txt"%string) = true /\
  valid_path true false (bytes_of_string "sub/.git"%string) = true /\      (* gitlink pointer file: allowed *)
  valid_path true false (bytes_of_string ".GIT/config"%string) = false /\
  valid_path true false (bytes_of_string "a\..\..\x"%string) = false /\
  valid_path true false (bytes_of_string "a/.git /x"%string) = false /\   (* NTFS disguise *)
  valid_path false false (bytes_of_string "a/.git /x"%string) = true /\
  valid_path true false (bytes_of_string "aux.c"%string) = false /\
  valid_tree_path (bytes_of_string "sub/.git"%string) = false /\
  valid_tree_path (bytes_of_string "sub/git~1"%string) = false /\
  valid_tree_path (bytes_of_string "sub/.gitx/ok"%string) = true.
Proof. vm_compute. repeat split. Qed.
