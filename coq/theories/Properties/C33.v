(* Properties/C33.v — Linked worktrees are isolated and recognised by git.
   Statements; the lemmas behind them are in Proofs/C33.v.
   G = Model/WtRoute.v (mapToRepositoryFsByPath and the dual filesystem it
   induces, worktree.Add's files), S = Spec/GitCommonDir.v (git's common_list).

   FULL STATEMENT of the routing part:  forall p, go_common p = git_common p.
   It is FALSE of the faithful model (C33_*_refuted below: refs/bisect/<x>,
   refs/worktree/<x>, refs/rewritten/<x> and their reflogs are shared instead of
   per-worktree; info/sparse-checkout is shared; lock files of shared files and
   a few more common names are private).  The isolation theorems below are
   proved for ALL paths in terms of go_common; the agreement with git outside the
   refuted shapes is proved for whole families of paths (C33_routing_eq_families:
   every suffix below objects/, refs/heads/, refs/tags/, refs/remotes/, hooks/,
   worktrees/, logs/refs/heads/) but NOT for all paths at once (that needs a normal
   form of both classifiers over the first three path components and the .lock
   suffix); the remaining names are checked by C33_routing_named and exercised on
   generated paths on every run (G = implementation, S = `git rev-parse --git-path`). *)
From Coq Require Import List NArith Bool String.
From GoGit Require Import Base.Out Model.WtRoute Spec.GitCommonDir Proofs.C33.
Import ListNotations.
Local Open Scope N_scope.

(* isolation: whatever one worktree writes at a per-worktree path is
   invisible to every other worktree, at every path *)
Theorem C33_isolated : forall f a b p d q,
  a <> b -> go_common p = false -> fs_read (fs_write f a p d) b q = fs_read f b q.
Proof. exact isolated. Qed.
Print Assumptions C33_isolated.

(* sharing: what one worktree writes at a common path is what all read there *)
Theorem C33_shared : forall f a b p d, go_common p = true -> fs_read (fs_write f a p d) b p = Some d.
Proof. exact shared. Qed.
Print Assumptions C33_shared.

Theorem C33_own_read : forall f a p d, fs_read (fs_write f a p d) a p = Some d.
Proof. exact own_read. Qed.
Print Assumptions C33_own_read.

(* writing shared data never disturbs private files *)
Theorem C33_common_keeps_private : forall f a b p d q,
  go_common p = true -> go_common q = false -> fs_read (fs_write f a p d) b q = fs_read f b q.
Proof. intros f a b p d q Hp Hq. unfold fs_write, fs_read. now rewrite Hp, Hq. Qed.
Print Assumptions C33_common_keeps_private.

(* which paths: HEAD, index, ORIG_HEAD, logs/HEAD (and the other
   pseudo-refs) are per-worktree; objects/**, refs/heads|tags|remotes/**,
   packed-refs, config are shared — for EVERY suffix *)
Theorem C33_private_paths :
  go_common (s "HEAD") = false /\ go_common (s "index") = false /\ go_common (s "ORIG_HEAD") = false /\
  go_common (s "logs/HEAD") = false /\ go_common (s "FETCH_HEAD") = false /\ go_common (s "MERGE_HEAD") = false /\
  go_common (s "index.lock") = false /\ go_common (s "HEAD.lock") = false.
Proof. vm_compute. repeat split. Qed.
Print Assumptions C33_private_paths.

Theorem C33_common_paths : forall sfx,
  go_common (s "objects/" ++ sfx) = true /\ go_common (s "refs/heads/" ++ sfx) = true /\
  go_common (s "refs/tags/" ++ sfx) = true /\ go_common (s "refs/remotes/" ++ sfx) = true /\
  go_common (s "packed-refs") = true /\ go_common (s "config") = true.
Proof.
  intros sfx. repeat split.
Qed.
Print Assumptions C33_common_paths.

(* agreement with git on whole families: for EVERY suffix (any depth, any
   bytes, with or without a .lock ending) both put the path in the common directory *)
Theorem C33_routing_eq_families : forall rest,
  (go_common (s "objects/" ++ rest) = true /\ git_common (s "objects/" ++ rest) = true) /\
  (go_common (s "refs/heads/" ++ rest) = true /\ git_common (s "refs/heads/" ++ rest) = true) /\
  (go_common (s "refs/tags/" ++ rest) = true /\ git_common (s "refs/tags/" ++ rest) = true) /\
  (go_common (s "refs/remotes/" ++ rest) = true /\ git_common (s "refs/remotes/" ++ rest) = true) /\
  (go_common (s "hooks/" ++ rest) = true /\ git_common (s "hooks/" ++ rest) = true) /\
  (go_common (s "worktrees/" ++ rest) = true /\ git_common (s "worktrees/" ++ rest) = true) /\
  (go_common (s "logs/refs/heads/" ++ rest) = true /\ git_common (s "logs/refs/heads/" ++ rest) = true).
Proof.
  (* go-git's routing computes on the prefix; so does git's table, by git_common_below *)
  intros rest. repeat split;
    first [reflexivity | apply git_common_below; reflexivity].
Qed.
Print Assumptions C33_routing_eq_families.

(* ... and disagreement on whole families: every ref (and reflog) below
   refs/bisect, refs/worktree, refs/rewritten is per-worktree for git, shared by go-git *)
Theorem C33_per_worktree_refs_refuted : forall rest,
  (go_common (s "refs/bisect/" ++ rest) = true /\ git_common (s "refs/bisect/" ++ rest) = false) /\
  (go_common (s "refs/worktree/" ++ rest) = true /\ git_common (s "refs/worktree/" ++ rest) = false) /\
  (go_common (s "refs/rewritten/" ++ rest) = true /\ git_common (s "refs/rewritten/" ++ rest) = false) /\
  (go_common (s "logs/refs/bisect/" ++ rest) = true /\ git_common (s "logs/refs/bisect/" ++ rest) = false).
Proof.
  intros rest. repeat split;
    first [reflexivity | apply git_common_below; reflexivity].
Qed.
Print Assumptions C33_per_worktree_refs_refuted.

(* where the routing departs from git.  bisect / worktree / rewritten refs:
   per-worktree for git, shared by go-git; hence a bisect in one worktree
   overwrites the other's *)
Theorem C33_bisect_refuted : forall x,
  x <> [] -> negb (existsb (fun c => c =? SL) x) = true ->
  go_common (s "refs/bisect/" ++ x) = true /\
  (forall f a b d, fs_read (fs_write f a (s "refs/bisect/" ++ x) d) b (s "refs/bisect/" ++ x) = Some d).
Proof.
  intros x Hx Hs. assert (H : go_common (s "refs/bisect/" ++ x) = true) by reflexivity.
  split; [exact H|]. intros. now apply shared.
Qed.
Print Assumptions C33_bisect_refuted.

Theorem C33_routing_refuted :
  (* per-worktree for git, shared by go-git *)
  (go_common (s "refs/bisect/bad") = true /\ git_common (s "refs/bisect/bad") = false) /\
  (go_common (s "refs/worktree/foo") = true /\ git_common (s "refs/worktree/foo") = false) /\
  (go_common (s "refs/rewritten/onto") = true /\ git_common (s "refs/rewritten/onto") = false) /\
  (go_common (s "logs/refs/bisect/bad") = true /\ git_common (s "logs/refs/bisect/bad") = false) /\
  (go_common (s "info/sparse-checkout") = true /\ git_common (s "info/sparse-checkout") = false) /\
  (* shared for git, per-worktree for go-git *)
  (go_common (s "config.lock") = false /\ git_common (s "config.lock") = true) /\
  (go_common (s "packed-refs.lock") = false /\ git_common (s "packed-refs.lock") = true) /\
  (go_common (s "gc.pid") = false /\ git_common (s "gc.pid") = true) /\
  (go_common (s "rr-cache/x") = false /\ git_common (s "rr-cache/x") = true) /\
  (go_common (s "common/x") = false /\ git_common (s "common/x") = true).
Proof. vm_compute. repeat split. Qed.
Print Assumptions C33_routing_refuted.

(* worktree.Add: the files it lays down are the ones git's own `worktree add`
   writes (commondir, gitdir, HEAD, .git); which names it accepts (add_ok) is
   only exercised, in C33_isolation_inhabited *)
Theorem C33_add_files : forall name wt common commit,
  add_files name wt common commit false =
  [ s "../.." ++ [10]; wt ++ s "/.git" ++ [10]; s "ref: refs/heads/" ++ name ++ [10];
    s "gitdir: " ++ common ++ s "/worktrees/" ++ name ++ [10] ].
Proof. intros. unfold add_files, LFb. rewrite <- !app_assoc. reflexivity. Qed.
Print Assumptions C33_add_files.

(* Worktree.Open: a directory whose .git file is a gitdir pointer (absolute
   or relative, any target) is NEVER served from the main repository's storage:
   either its own admin directory is used, or Open fails.  In particular the
   leftover directory of a removed linked worktree cannot be used to move the
   main worktree's HEAD or index.  (Full since the repair "fix: resolve a relative
   gitdir pointer of a linked worktree against the worktree root": before it a
   relative pointer made filepath.Rel fail and Open fell back to the main storage.) *)
Theorem C33_open_pointer_never_main : forall wtroot file p admin_ok,
  parse_dotgit file = Some p -> go_open wtroot (Some file) admin_ok <> OpenMain.
Proof. intros wtroot file p admin_ok H. unfold go_open. rewrite H. destruct (admin_ok _); discriminate. Qed.
Print Assumptions C33_open_pointer_never_main.

Theorem C33_open_gone_fails : forall wtroot file p admin_ok,
  parse_dotgit file = Some p -> admin_ok (resolve wtroot p) = false ->
  go_open wtroot (Some file) admin_ok = OpenErr.
Proof. intros wtroot file p admin_ok H G. unfold go_open. now rewrite H, G. Qed.
Print Assumptions C33_open_gone_fails.

(* every .git file "gitdir: <anything non-empty>" is such a pointer *)
Theorem C33_gitdir_files_are_pointers : forall rest,
  (1 <= List.length rest)%nat -> exists p, parse_dotgit (s "gitdir: " ++ rest) = Some p.
Proof. exact parse_gitdir_prefix. Qed.
Print Assumptions C33_gitdir_files_are_pointers.

Example C33_open_inhabited :
  let gone := fun _ : bytes => false in let there := fun _ : bytes => true in
  go_open (s "/r/wa") (Some (s "gitdir: /r/w/.git/worktrees/wa
")) gone = OpenErr /\
  go_open (s "/r/wa") (Some (s "gitdir: ../w/.git/worktrees/wa
")) gone = OpenErr /\
  go_open (s "/r/wa") (Some (s "gitdir: ../w/.git/worktrees/wa
")) there = OpenDual /\
  parse_dotgit (s "gitdir: ../w/.git/worktrees/wa 
") = Some (s "../w/.git/worktrees/wa") /\
  resolve (s "/r/wa") (s "../w/x") = s "/r/wa/../w/x" /\
  go_open (s "/r/wa") None gone = OpenMain /\ go_open (s "/r/wa") (Some (s "garbage!!!")) gone = OpenMain.
Proof. vm_compute. repeat split. Qed.

(* non-vacuity and finite agreement: on the paths git documents and go-git uses, the two routings agree except
   for the refuted shapes *)
Definition named_paths : list bytes :=
  map s ["HEAD"; "index"; "ORIG_HEAD"; "FETCH_HEAD"; "MERGE_HEAD"; "logs/HEAD"; "logs/refs/heads/x"; "refs/heads/x";
         "refs/heads/a/b"; "refs/tags/v1"; "refs/remotes/origin/main"; "refs/bisect"; "refs/worktree"; "refs/rewritten";
         "refs/stash"; "refs/notes/commits"; "objects/ab/cdef"; "objects/info/alternates"; "objects/pack/p.pack";
         "info/exclude"; "info/grafts"; "info/attributes"; "hooks/pre-commit"; "config"; "config.worktree"; "packed-refs";
         "shallow"; "branches/x"; "remotes/x"; "worktrees/w/HEAD"; "description"; "modules/sub/HEAD";
         "rebase-merge/head-name"; "sequencer/todo"; "index.lock"; "HEAD.lock"; "COMMIT_EDITMSG"; "BISECT_LOG";
         "logs/refs/remotes/o/m"; "refs/heads"; "logs"; "refs"; "objects"; "info"]%string.
Example C33_routing_named : forallb (fun p => Bool.eqb (go_common p) (git_common p)) named_paths = true.
Proof. vm_compute. reflexivity. Qed.

Example C33_isolation_inhabited :
  let f0 := mkFS [] [] in
  let f1 := fs_write (fs_write f0 1 (s "HEAD") (s "ref: refs/heads/a")) 2 (s "HEAD") (s "ref: refs/heads/b") in
  let f2 := fs_write f1 1 (s "refs/heads/a") (s "c1") in
  fs_read f2 1 (s "HEAD") = Some (s "ref: refs/heads/a") /\ fs_read f2 2 (s "HEAD") = Some (s "ref: refs/heads/b") /\
  fs_read f2 2 (s "refs/heads/a") = Some (s "c1") /\ add_ok (s "feature-1") false = true /\ add_ok (s "a/b") false = false.
Proof. vm_compute. repeat split. Qed.
