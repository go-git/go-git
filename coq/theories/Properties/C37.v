(* Properties/C37.v — Object selection for transfer covers exactly the missing
   history.  The statements; the lemmas they rest on are in Proofs/C37*.v.

   Model: Model/RevList.objects = revlist.Objects (seedHaves, seedWants, the
   painted time-ordered walk with its early stop and deferred missing-parent
   check, walkFull, processCommitTrees, collectChangedTreeObjects, ...).
   Spec: Spec/ObjReach.reach_set — reachability over parents (cut at shallow
   commits), commit trees, tree entries except gitlinks, tag targets.
   Committer times are arbitrary integers in every statement: nothing relates
   the time of a commit to the times of its parents. *)
From Coq Require Import List NArith ZArith Bool Sorting.Sorted.
From GoGit Require Import Model.RevList Spec.ObjReach Proofs.C37Queue Proofs.C37 Proofs.C37Term.
Import ListNotations.
Local Open Scope N_scope.

(* Completeness: whenever the selection succeeds, every object reachable from
   the wants and not reachable from the haves is selected — for every
   well-formed store (ids typed like hashes, parents older in creation order),
   every timestamp assignment, every shallow set, every want/have list
   (tags, trees, blobs, ids that name nothing).  The early stop of the painted
   walk and the parent-diff pruning are inside the model; that they only ever
   over-select is what this theorem establishes. *)
Theorem C37_complete : forall st sh wants haves res,
  wf_store st = true -> objects st sh wants haves = Ok res ->
  forall o, reach_set st sh wants o -> ~ reach_set st sh haves o -> In o res.
Proof. intros st sh wants haves res Hwf H. exact (complete st sh wants haves Hwf res H). Qed.
Print Assumptions C37_complete.

(* Only wanted history: everything selected is reachable from the wants, even
   with the shallow cut (hence also in the plain graph: reach_cut_full). *)
Theorem C37_only_wanted : forall st sh wants haves res,
  wf_store st = true -> objects st sh wants haves = Ok res ->
  forall o, In o res -> reach_set st sh wants o /\ exists w, In w wants /\ reach_full st w o.
Proof.
  intros st sh wants haves res Hwf H o Ho.
  pose proof (only_wanted st sh wants haves Hwf res H o Ho) as W. split; [exact W|].
  destruct W as (w & Hw & Hr). exists w. split; [exact Hw | eapply reach_cut_full; eauto].
Qed.
Print Assumptions C37_only_wanted.

(* no object is selected twice *)
Theorem C37_nodup : forall st sh wants haves res,
  wf_store st = true -> objects st sh wants haves = Ok res -> NoDup res.
Proof. intros st sh wants haves res Hwf H. exact (ro_nodup _ _ _ _ _ (objects_ok st sh wants haves Hwf res H)). Qed.
Print Assumptions C37_nodup.

(* the model never runs out of fuel: on a store whose sub-directories are older
   than the trees that list them (hashes are acyclic), revlist.Objects of the
   model answers with a selection or with one of the errors the Go code returns
   (wanted object missing, parent missing, tree missing) — so the theorems above
   speak about every run that succeeds *)
Theorem C37_terminates : forall st sh wants haves,
  wf_store st = true -> tree_ranked st = true -> objects st sh wants haves <> Err EFuel.
Proof. intros st sh wants haves Hwf Hr. exact (objects_fuel st Hr sh haves Hwf wants). Qed.
Print Assumptions C37_terminates.

(* insertSorted keeps a queue sorted newest first, whatever the committer times
   are (every queue of the walk grows from the empty one by insertSorted and
   shrinks at the head), and on a sorted queue sort.Search and the model's
   linear scan pick the same slot *)
Theorem C37_queue_sorted : forall q c,
  StronglySorted newer_eq q ->
  StronglySorted newer_eq (insert_sorted q c) /\
  insert_sorted q c = firstn (first_older q c) q ++ c :: skipn (first_older q c) q /\
  (forall x, In x (firstn (first_older q c) q) -> (c_time x <? c_time c)%Z = false) /\
  (forall x, In x (skipn (first_older q c) q) -> (c_time x <? c_time c)%Z = true).
Proof.
  intros q c H. split; [now apply insert_sorted_sorted|]. split; [apply insert_sorted_at|].
  now apply search_pred_monotone.
Qed.
Print Assumptions C37_queue_sorted.

(* Non-vacuity: a store with clocks running backwards (the merge 12 is OLDER
   than its parents), a sub-tree shared between paths, content reverted to an
   old blob, a gitlink, a tag on a commit and a tag on a tag:
     1,2,3 blobs   4 = tree{a:1}   5 = tree{a:1, p:4(dir), s:99(gitlink)}
     6 = commit(5; no parent; t=50)      7 = tree{a:2, p:4}   8 = commit(7; 6; t=40)
     9 = tree{a:3, p:4}  10 = commit(9; 6; t=90)   11 = tree{a:1, p:4, q:4}
     12 = commit(11; 8,10; t=10)   13 = tag -> 12   14 = tag -> 13 *)
Definition ex_store : store :=
  [(1, Blob); (2, Blob); (3, Blob);
   (4, Tree [mkE 97 KFile 1]);
   (5, Tree [mkE 97 KFile 1; mkE 112 KDir 4; mkE 115 KSub 99]);
   (6, Commit 5 [] 50%Z);
   (7, Tree [mkE 97 KFile 2; mkE 112 KDir 4]);
   (8, Commit 7 [6] 40%Z);
   (9, Tree [mkE 97 KFile 3; mkE 112 KDir 4]);
   (10, Commit 9 [6] 90%Z);
   (11, Tree [mkE 97 KFile 1; mkE 112 KDir 4; mkE 113 KDir 4]);
   (12, Commit 11 [8; 10] 10%Z);
   (13, Tag 12); (14, Tag 13)].

Example C37_ex_wf : wf_store ex_store = true /\ tree_ranked ex_store = true.
Proof. vm_compute. split; reflexivity. Qed.

(* want the outer tag, have one side of the merge: the other side, the merge,
   its tree and both tags are selected; blob 1 and tree 4 (held) are not *)
Example C37_ex_select :
  objects ex_store [] [14] [8] = Ok [3; 9; 10; 11; 12; 13; 14].
Proof. vm_compute. reflexivity. Qed.

(* no have at all: everything reachable, each object once *)
Example C37_ex_full :
  option_map (fun l => List.length l) (match objects ex_store [] [14] [] with Ok l => Some l | Err _ => None end)
  = Some 14%nat.
Proof. vm_compute. reflexivity. Qed.

(* the shallow witness of the repaired defect: commit 6 is shallow, its parent 3
   happens to be stored, an unrelated commit 9 is held; blob 1 (shared with the
   parent's tree) is selected *)
Example C37_ex_shallow :
  objects [(1, Blob); (2, Tree [mkE 97 KFile 1]); (3, Commit 2 [] 1000%Z); (4, Blob);
           (5, Tree [mkE 97 KFile 1; mkE 98 KFile 4]); (6, Commit 5 [3] 1010%Z);
           (7, Blob); (8, Tree [mkE 99 KFile 7]); (9, Commit 8 [] 1005%Z)] [6] [6] [9]
  = Ok [4; 1; 5; 6].
Proof. vm_compute. reflexivity. Qed.
